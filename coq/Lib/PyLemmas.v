From Verif Require Import Lib.Py Lib.Tactics.
Open Scope Z_scope.

Lemma blen_nil {A} : blen (@nil A) = 0. Proof. reflexivity. Qed.
Lemma blen_cons {A} (x : A) l : blen (x :: l) = 1 + blen l.
Proof. unfold blen. cbn [length]. lia. Qed.
Lemma blen_app {A} (a b : list A) : blen (a ++ b) = blen a + blen b.
Proof. unfold blen. rewrite app_length. lia. Qed.
Lemma blen_nonneg {A} (l : list A) : 0 <= blen l. Proof. unfold blen; lia. Qed.
Lemma blen_0 {A} (l : list A) : blen l = 0 -> l = [].
Proof. destruct l; [reflexivity|]. rewrite blen_cons. pose proof (blen_nonneg l). lia. Qed.

Lemma bfrom_0 {A} (l : list A) : bfrom l 0 = l. Proof. reflexivity. Qed.
Lemma bfrom_app {A} (a b : list A) : bfrom (a ++ b) (blen a) = b.
Proof. unfold bfrom, blen. rewrite Nat2Z.id. rewrite skipn_app, skipn_all, Nat.sub_diag. reflexivity. Qed.
Lemma bto_app {A} (a b : list A) : bto (a ++ b) (blen a) = a.
Proof. unfold bto, blen. rewrite Nat2Z.id. rewrite firstn_app, firstn_all, Nat.sub_diag. cbn. apply app_nil_r. Qed.
Lemma bto_bfrom {A} (l : list A) i : bto l i ++ bfrom l i = l.
Proof. apply firstn_skipn. Qed.
Lemma blen_bfrom {A} (l : list A) i : 0 <= i <= blen l -> blen (bfrom l i) = blen l - i.
Proof. unfold blen, bfrom. intros H. rewrite skipn_length. lia. Qed.
Lemma blen_bto {A} (l : list A) i : 0 <= i <= blen l -> blen (bto l i) = i.
Proof. unfold blen, bto. intros H. rewrite firstn_length. lia. Qed.

Lemma bget_cons0 x l : bget (x :: l) 0 = Ok x.
Proof. unfold bget. rewrite blen_cons. pose proof (blen_nonneg l).
  replace ((0 <? 0) || (1 + blen l <=? 0)) with false by lia. reflexivity. Qed.
Lemma bget_ok b i : 0 <= i < blen b -> bget b i = Ok (nth (Z.to_nat i) b 0).
Proof. intros H. unfold bget. replace ((i <? 0) || (blen b <=? i)) with false by lia. reflexivity. Qed.

Lemma bytes_ok_app a b : bytes_ok (a ++ b) = bytes_ok a && bytes_ok b.
Proof. apply forallb_app. Qed.
Lemma bytes_ok_cons x l : bytes_ok (x :: l) = byte_ok x && bytes_ok l.
Proof. reflexivity. Qed.
Lemma bytes_ok_nth b i : bytes_ok b = true -> 0 <= nth i b 0 < 256.
Proof. revert i. induction b as [|x b IH]; intros i H; destruct i; cbn; try lia.
  - apply andb_prop in H as [H1 _]. unfold byte_ok in H1. lia.
  - apply IH. apply andb_prop in H as [_ H2]. exact H2. Qed.
Lemma bytes_ok_skipn n b : bytes_ok b = true -> bytes_ok (skipn n b) = true.
Proof. revert b; induction n as [|n IH]; intros [|x b] H; cbn [skipn]; auto. apply IH. apply andb_prop in H as [_ H2]. exact H2. Qed.
Lemma bytes_ok_firstn n b : bytes_ok b = true -> bytes_ok (firstn n b) = true.
Proof. revert b; induction n as [|n IH]; intros [|x b] H; cbn [firstn]; auto. apply andb_prop in H as [H1 H2].
  rewrite bytes_ok_cons, H1, IH by exact H2. reflexivity. Qed.

Lemma tb1 v : to_bytes_big_n 1 v = [v mod 256]. Proof. reflexivity. Qed.
Lemma tb2 v : to_bytes_big_n 2 v = [v / 256 mod 256; v mod 256]. Proof. reflexivity. Qed.
Lemma to_bytes_big_n_length n v : length (to_bytes_big_n n v) = n.
Proof. revert v; induction n as [|n IH]; intros v; cbn; [reflexivity|]. rewrite app_length, IH. cbn. lia. Qed.
Lemma to_bytes_big_n_ok n v : bytes_ok (to_bytes_big_n n v) = true.
Proof. revert v; induction n as [|n IH]; intros v; cbn; [reflexivity|].
  rewrite bytes_ok_app, IH. cbn. unfold byte_ok. lia. Qed.
Lemma from_bytes_big_acc_app acc a b :
  from_bytes_big_acc acc (a ++ b) = from_bytes_big_acc (from_bytes_big_acc acc a) b.
Proof. revert acc; induction a as [|x a IH]; intros acc; cbn; auto. Qed.
Lemma from_to_bytes_big n v acc : 0 <= v < 2 ^ (8 * Z.of_nat n) ->
  from_bytes_big_acc acc (to_bytes_big_n n v) = acc * 2 ^ (8 * Z.of_nat n) + v.
Proof.
  revert v acc; induction n as [|n IH]; intros v acc H.
  - cbn in *. lia.
  - cbn [to_bytes_big_n]. rewrite from_bytes_big_acc_app. cbn [from_bytes_big_acc].
    replace (8 * Z.of_nat (S n)) with (8 * Z.of_nat n + 8) in * by lia.
    rewrite Z.pow_add_r in * by lia. change (2 ^ 8) with 256 in *.
    rewrite IH by lia. lia.
Qed.
Lemma from_bytes_big_to v n : 0 <= n -> 0 <= v < 2 ^ (8 * n) ->
  from_bytes_big (to_bytes_big_n (Z.to_nat n) v) = v.
Proof. intros Hn H. unfold from_bytes_big. rewrite from_to_bytes_big; rewrite ?Z2Nat.id; lia. Qed.

Lemma list_eqb_eq {A} (eqb : A -> A -> bool) :
  (forall x y, eqb x y = true <-> x = y) -> forall a b, list_eqb eqb a b = true <-> a = b.
Proof.
  intros E. induction a as [|x a IH]; intros [|y b]; cbn; split; try congruence; try discriminate.
  - intros H. apply andb_prop in H as [H1 H2]. apply E in H1. apply IH in H2. congruence.
  - intros H. injection H as -> ->. apply andb_true_intro. split; [apply E; reflexivity|apply IH; reflexivity].
Qed.
Lemma list_eqb_Z_eq a b : beqb a b = true <-> a = b.
Proof. exact (list_eqb_eq Z.eqb Z.eqb_eq a b). Qed.

Lemma bind_ok {A B} (m : M A) (f : A -> M B) b : bind m f = Ok b -> exists a, m = Ok a /\ f a = Ok b.
Proof. destruct m as [a|e]; cbn [bind]; [eauto | discriminate]. Qed.

(* list facts that several properties need and Coq 8.16's library does not have in this form *)
Lemma NoDup_snoc {A} (l : list A) x : NoDup l -> ~ In x l -> NoDup (l ++ [x]).
Proof. intros Hl Hx. apply (NoDup_Add (Add_app x l [])). rewrite app_nil_r. split; assumption. Qed.
Lemma NoDup_map_inj_in {A B} (f : A -> B) (l : list A) a b :
  NoDup (map f l) -> In a l -> In b l -> f a = f b -> a = b.
Proof.
  induction l as [|x l IH]; cbn; [tauto|]. intros ND Ia Ib E. inversion ND as [|? ? Hx ND']; subst.
  destruct Ia as [->|Ia], Ib as [->|Ib]; auto.
  - exfalso. apply Hx. rewrite E. apply in_map. exact Ib.
  - exfalso. apply Hx. rewrite <- E. apply in_map. exact Ia.
Qed.
Lemma NoDup_map_filter {A B} (f : A -> B) p (l : list A) : NoDup (map f l) -> NoDup (map f (filter p l)).
Proof.
  induction l as [|x l IH]; cbn; [auto|]. intro ND. inversion ND as [|? ? Hx ND']; subst.
  destruct (p x); cbn; [constructor|]; auto.
  intro I. apply Hx. exact (incl_map f (incl_filter p l) _ I).
Qed.
Lemma filter_all {A} (p : A -> bool) l : (forall x, In x l -> p x = true) -> filter p l = l.
Proof. induction l as [|x l IH]; cbn; intro H; [reflexivity|]. rewrite (H x (or_introl eq_refl)). f_equal. apply IH. intros y Iy. apply H. right. exact Iy. Qed.
Lemma filter_true {A} (l : list A) : filter (fun _ => true) l = l.
Proof. apply filter_all. reflexivity. Qed.
Lemma forallb_impl {A} (P Q : A -> bool) l : (forall x, P x = true -> Q x = true) -> forallb P l = true -> forallb Q l = true.
Proof. intros HPQ H. rewrite forallb_forall in *. intros x Hin. apply HPQ, H, Hin. Qed.
