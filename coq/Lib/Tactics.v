From Coq Require Export ZArith List Bool Lia ZifyBool.
Ltac Zify.zify_post_hook ::= Z.to_euclidean_division_equations.
(* settle the outermost [if b] of the goal by lia when possible, else split *)
Ltac decide_if :=
  match goal with
  | |- context [if ?b then _ else _] =>
      first [ replace b with true by lia | replace b with false by lia | destruct b eqn:? ]
  end.
Ltac inv H := inversion H; subst; clear H.
(* [x & 0xFFFF] (either way round) and [x % 65536] all become [x mod 2 ^ 16], so that a respelling of the message-ID successor in
   the source does not break the lemmas that tie a model's successor to the translated one *)
Ltac mid16 :=
  change 65535%Z with (Z.ones 16); change 65536%Z with (2 ^ 16)%Z;
  repeat rewrite (Z.land_comm (Z.ones 16));
  repeat rewrite Z.land_ones by (vm_compute; discriminate);
  first [reflexivity | repeat (f_equal; try lia)].
