(* C04 — tie of the hand-written model's constants and message-ID successor to the translated source
   (Gen/c03_constants.v from numbers/constants.py class TransportTuning; Gen/c14_message_id.v from
   messagemanager.py MessageManager._next_message_id).  A change of the source constants or of the successor
   formula regenerates the Gen files and breaks these lemmas; the correspondence streams then look for the failing history. *)
From Coq Require Import ZArith QArith List Lia.
From Verif Require Import Lib.Py Lib.Tactics.
From Verif Require Gen.c03_constants Gen.c14_message_id.
From Verif Require Import Model.C04.
Open Scope Z_scope.

Lemma exchange_lifetime_is_source :
  Qeq (inject_Z EXCHANGE_LIFETIME)
      (Qmult (c03_constants.EXCHANGE_LIFETIME c03_constants.default_transport_tuning) (inject_Z 1000000)).
Proof. vm_compute. reflexivity. Qed.

Lemma empty_ack_delay_is_source :
  Qeq (inject_Z EMPTY_ACK_DELAY)
      (Qmult (c03_constants.tt_EMPTY_ACK_DELAY c03_constants.default_transport_tuning) (inject_Z 1000000)).
Proof. vm_compute. reflexivity. Qed.

Lemma max_retransmit_is_source :
  MAX_RETRANSMIT = c03_constants.tt_MAX_RETRANSMIT c03_constants.default_transport_tuning.
Proof. reflexivity. Qed.

(* for every state: the model's _next_message_id returns and stores what the translated method returns and stores *)
Lemma next_message_id_is_source : forall s,
  c14_message_id.next_message_id {| c14_message_id.mmids_message_id := message_id s |}
  = Ok ({| c14_message_id.mmids_message_id := message_id (fst (_next_message_id s)) |}, snd (_next_message_id s)).
Proof. intros s. unfold c14_message_id.next_message_id, _next_message_id, set_message_id. cbn [fst snd]. cbn [message_id]. cbn [c14_message_id.mmids_message_id]. mid16. Qed.
