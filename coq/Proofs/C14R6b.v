(* C14 — the remote itself is refused, one event kind: an empty ACK / RST that ends the exchange of a refused remote.  The release
   of the head is refused, so the whole queue is discarded in that very step and nothing at all is transmitted.  A corollary of
   Proofs/C14R7.v (every event about a refused remote); [notx]: no transmission at all in the outputs. *)
From Verif Require Import Lib.Tactics Model.C14 Model.C14refuse Proofs.C14 Proofs.C14step Proofs.C14refuse Proofs.C14live Proofs.C14gen Proofs.C14R7.
Import ListNotations.
Open Scope Z_scope.

Definition notx (o : list output) : Prop := forall m b, ~ In (Tx m b) o.

Lemma notx_neutral_kind o : (forall x, In x o -> match x with Tx _ _ => False | _ => True end) -> notx o.
Proof. intros H m b Hi. exact (H _ Hi). Qed.

Section Refused.
Variable l : list Z.
Variable r : Z.
Hypothesis Href : refuses l r = true.

Lemma refused_send_clean what s : Inv s -> aget r (backlogs s) = None -> neutral what = true ->
  let s' := fst (send_via_transport l what r s) in let o := snd (send_via_transport l what r s) in
  Inv s' /\ aget r (backlogs s') = None /\ exs r s' = [] /\ left r o = [] /\ subm r o = [] /\ notx o.
Proof. intros HI Ha Hn. cbn zeta. unfold send_via_transport. rewrite Href.
  pose proof (dispatch_error_trans r s HI) as (HI' & _). pose proof (dispatch_error_no_subm r s r) as Hs.
  replace (refused_ghost what) with (@nil output) by (destruct what; try reflexivity; destruct retr; [reflexivity|discriminate]). cbn [app].
  unfold dispatch_error in *. destruct (tm_dispatch_error_spec NetworkError r s) as (_ & B & Hnn & T1 & _). cbn zeta in *.
  destruct (tm_dispatch_error NetworkError r s) as [s1 o1]. cbn [fst snd backlogs upd_ex upd_bl] in *. rewrite B, Ha in *. cbn [map] in *. rewrite app_nil_r in *.
  split; [exact HI'|]. split; [apply aget_adel_same|]. split; [apply filter_negb_nil|].
  destruct (neutral_logs r o1 Hnn) as (N1 & N2 & _). split; [exact N2|]. split; [exact N1|]. intros m b H. exact (T1 m b H). Qed.
End Refused.

Lemma release_no_subm l r s r' : subm r' (snd (release l r s)) = [].
Proof. unfold release, send_via_transport. destruct (backlog_of r s) as [|m q]; [reflexivity|]. destruct (refuses l r); [|reflexivity].
  pose proof (dispatch_error_no_subm r (add_exchange m (upd_bl s (aset r q (backlogs s)))) r') as H.
  destruct (dispatch_error r _) as [s1 o1]. exact H. Qed.

(* the scenario of finding C14-R2: since /repo fix 8d04b7c no exception escapes *)
Theorem refused_release_step l r : refuses l r = true -> forall s mt mid q x, Inv s -> (mt = 2 \/ mt = 3) ->
  xget r mid (active_exchanges s) = Some x -> aget r (backlogs s) = Some q ->
  let s' := fst (step_ev l s (RecvEmpty r mt mid)) in let o := snd (step_ev l s (RecvEmpty r mt mid)) in
  Inv s' /\ aget r (backlogs s') = None /\ exs r s' = [] /\ (forall m, In m q -> In m (left r o)) /\
  (forall m b, ~ In (Tx m b) o) /\ subm r o = [].
Proof. intros Href s mt mid q x HI Hmt Ex Ha. cbn zeta.
  destruct (refused_remote_step l r Href s (RecvEmpty r mt mid) HI) as (HI' & _ & Hw & _).
  pose proof (refused_remote_step_which l r Href s (RecvEmpty r mt mid) HI) as D. cbn [attempts] in D.
  rewrite Ex, Z.eqb_refl in D. replace ((mt =? 2) || (mt =? 3)) with true in D by lia. rewrite orb_true_r in D. destruct D as (D1 & D2 & D3).
  assert (Hs : subm r (snd (step_ev l s (RecvEmpty r mt mid))) = []).
  { cbn [step_ev]. unfold dispatch_message. replace ((mt =? 2) || (mt =? 3)) with true by lia. replace (mt =? 0) with false by lia. cbn [Z.eqb].
    destruct (remove_exchange_nf l r mid mt s x HI Ex) as (_ & _ & _ & _ & ->).
    destruct (reset_monitor_frame mt (x_msg x) (upd_ex s (xdel r mid (active_exchanges s)))) as (_ & _ & Hn).
    destruct (reset_monitor _ _ _) as [s2 o2]. pose proof (release_no_subm l r s2 r) as Hr. destruct (release l r s2) as [s3 o3].
    cbn [fst snd] in *. destruct (crashed (o2 ++ o3)); cbn [snd]; rewrite subm_app, Hr, app_nil_r; apply (neutral_logs r o2 Hn). }
  split; [exact HI'|]. split; [exact D1|]. split; [exact D2|].
  split; [intros m Hm; rewrite D3; apply in_or_app; left; unfold backlog_of; rewrite Ha; exact Hm|]. split; [|exact Hs].
  intros m b Hin. destruct (Z.eq_dec (m_remote m) r) as [E|E]; [exact (Hw _ Hin E)|].
  destruct (step_ev_frame l s (RecvEmpty r mt mid) (m_remote m) HI) as (_ & _ & C); [cbn; lia|]. exact (silent_no_tx _ m b _ C eq_refl Hin). Qed.
