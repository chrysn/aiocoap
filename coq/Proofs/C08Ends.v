(* C08 — each cause listed by the property ends the registration (it leaves incoming_requests; by the bookkeeping theorem its
   cancellation callback has then run exactly once and the observer count is back). Reset: only for confirmable notifications
   (F15); witnesses for F15 and F16. *)
From Verif Require Import Lib.Py Lib.Tactics Model.C08 Proofs.C08 Proofs.C08Silent.
Open Scope Z_scope.

Definition live (g : Z) (s : state) : Prop := In g (map g_gid (s_regs s)).

Lemma regs_flush s : s_regs (flush_cancels s) = s_regs s. Proof. apply flush_field; reflexivity. Qed.
Lemma regs_continue_backlog s r : s_regs (continue_backlog s r) = s_regs s. Proof. apply continue_backlog_field; reflexivity. Qed.
Lemma regs_plain s r tok con : s_regs (plain s r tok con) = s_regs s.
Proof. unfold plain. destruct (render_outcome _ _); rewrite (send_message_field s_regs) by reflexivity; reflexivity. Qed.

Lemma not_live_stop s g : ~ live g (stop s g).
Proof. unfold live, stop. destruct (find_reg s g) eqn:E.
  - fsimpl. rewrite gids_remove_reg. intros H. apply In_rm in H. tauto.
  - apply find_reg_None. exact E. Qed.
Lemma stop_regs_incl s x g : In g (map g_gid (s_regs (stop s x))) -> In g (map g_gid (s_regs s)).
Proof. unfold stop. destruct (find_reg s x); [|tauto]. fsimpl. rewrite gids_remove_reg. intros H. apply In_rm in H. tauto. Qed.
Lemma fold_stop_regs l : forall s g0, In g0 (s_regs (fold_left stop l s)) -> In g0 (s_regs s) /\ ~ In (g_gid g0) l.
Proof. induction l as [|x l IH]; intros s g0 H; cbn [fold_left] in H; [tauto|]. apply IH in H as [H1 H2].
  assert (H3 : In g0 (s_regs s) /\ g_gid g0 <> x).
  { split; [unfold stop in H1; destruct (find_reg s x); [apply In_remove_reg in H1; tauto | exact H1]|].
    intros <-. apply (not_live_stop s (g_gid g0)). apply in_map. exact H1. }
  split; [tauto|]. intros [E|Hi]; [symmetry in E|]; tauto. Qed.

(* a new request from the same endpoint on the same token (the new registration takes the number [s_gidctr s]) *)
Lemma ends_on_same_token_below s r con mid tok obs g0 :
  find_key s r tok = Some g0 -> s_down s = false -> in_recent s r mid = None -> g_gid g0 < s_gidctr s ->
  ~ live (g_gid g0) (step s (ERequest r con mid tok obs)).
Proof.
  intros Hk Hd Hr Hg. cbn [step]. rewrite Hd, Hr.
  match goal with |- ~ live _ (flush_cancels (process_request ?x _ _ _ _)) => set (s2 := x) end.
  assert (Hk2 : find_key s2 r tok = Some g0) by (subst s2; destruct con; exact Hk).
  assert (Hc2 : s_gidctr s2 = s_gidctr s) by (subst s2; destruct con; reflexivity).
  unfold process_request. rewrite Hk2.
  destruct obs as [[| |]|]; try (unfold live; rewrite regs_flush, regs_plain, regs_flush; apply not_live_stop).
  assert (O2 : okreg (g_gid g0) (stop s2 (g_gid g0))) by (split; [apply not_live_stop | rewrite stop_field by reflexivity; lia]).
  apply (Qs_ended (fun _ => True) _ (stop s2 (g_gid g0))); [|exact O2].
  eapply Qs_trans; [|apply Q_flush]. eapply Qs_trans; [apply Q_flush | apply Q_accept].
Qed.

(* The other causes only take registrations away, so they end theirs in every state, whatever its number. *)
(* the observer answers a confirmable notification (one that has an exchange) with Reset *)
Lemma ends_on_rst_con_any s r mid x :
  find (fun x => (x_remote x =? r) && (x_mid x =? mid)) (s_exch s) = Some x -> s_down s = false -> ~ live (x_gid x) (step s (ERst r mid)).
Proof. intros Hx Hd. cbn [step]. unfold remove_exchange, live. rewrite Hd, Hx, regs_flush, regs_continue_backlog. apply not_live_stop. Qed.
Lemma not_live_stop_remote s g0 : In g0 (s_regs s) -> ~ live (g_gid g0) (stop_remote s (g_remote g0)).
Proof. intros Hi Hl. apply in_map_iff in Hl as [g1 [Eg Hl]]. apply fold_stop_regs in Hl as [_ Hl]. apply Hl. rewrite Eg.
  apply in_map, filter_In. split; [exact Hi | apply Z.eqb_refl]. Qed.
(* a transport error is reported for the observer's endpoint *)
Lemma ends_on_transport_error_any s r g0 :
  In g0 (s_regs s) -> g_remote g0 = r -> s_down s = false -> ~ live (g_gid g0) (step s (ETransportError r)).
Proof. intros Hi <- Hd. cbn [step]. unfold dispatch_error, live. rewrite Hd, regs_flush. apply (not_live_stop_remote s g0 Hi). Qed.
(* a confirmable notification times out (the retransmission timer fires with the counter at MAX_RETRANSMIT) *)
Lemma ends_on_timeout_any s m t g0 :
  In g0 (s_regs s) -> g_remote g0 = m_remote m -> ~ live (g_gid g0) (flush_cancels (fire s (KRetrans m t MAX_RETRANSMIT))).
Proof. intros Hi Hr. cbn [fire]. unfold retransmit, live. rewrite Z.ltb_irrefl, regs_flush, <- Hr.
  apply (not_live_stop_remote (purge_backlog (set_exch s _) _) g0 Hi). Qed.
(* a notification that is unsuccessful or marked last, or a render that raises, ends the registration from inside the task *)
Lemma ends_on_respond last n cont s g0 res :
  match res with RResp code _ _ => last || negb (successful code) = true | RRaise _ _ _ => True end ->
  ~ live (g_gid g0) (respond last n cont s g0 res).
Proof. intros Hres. unfold respond, live. destruct res as [code pk pv|code pk pv]; [rewrite Hres; unfold cancel_cb; fsimpl|];
  rewrite gids_remove_reg; intros H; apply In_rm in H; tauto. Qed.

(* the context shuts down: no registration survives *)
Lemma fold_stop_all l s : (forall g, In g (s_regs s) -> In (g_gid g) l) -> s_regs (fold_left stop l s) = [].
Proof. intros H. apply nil_if_empty. intros g Hg. apply fold_stop_regs in Hg as [Hg Hn]. exact (Hn (H g Hg)). Qed.
Lemma ends_on_shutdown s : s_down s = false -> s_regs (step s EShutdown) = [].
Proof. intros Hd. cbn [step]. rewrite Hd, regs_flush. apply (fold_stop_all _ s). intros g Hg. apply in_map. exact Hg. Qed.

Definition notif (g : Z) (h : list output) : list (Z * Z) :=       (* (mid, Observe) of first transmissions for g, oldest first *)
  rev (flat_map (fun o => match o with OSend m false => if m_gid m =? g then [(m_mid m, match m_observe m with Some n => n | None => -1 end)] else [] | _ => [] end) h).

(* F15: NON registration; the Reset answering notification mid 1 is ignored: the registration stays and notification 2 follows *)
Definition f15_events := [ERequest 1 false 1 1 (Some 0); ETrigger [] [(TRender, false)]; ERst 1 1; ETrigger [] [(TRender, false)]].
Lemma rst_on_non_refuted :
  let s := run (init 0) f15_events in
  live 0 s /\ s_observers s = [0] /\ count_cancel 0 (s_hist s) = 0%nat /\ notif 0 (s_hist s) = [(0, 0); (1, 1); (2, 2)].
Proof. vm_compute. repeat split; try reflexivity. left. reflexivity. Qed.
(* the same exchange with a CON registration ends it *)
Lemma rst_on_con_example :
  let s := run (init 0) [ERequest 1 true 1 1 (Some 0); ETrigger [] [(TRender, false)]; ERst 1 0; ETrigger [] [(TRender, false)]] in
  ~ live 0 s /\ s_observers s = [] /\ count_cancel 0 (s_hist s) = 1%nat /\ notif 0 (s_hist s) = [(1, 0); (0, 1)].
Proof. vm_compute. repeat split; try reflexivity. intros []. Qed.

(* F16: CON registration, two triggers (the second notification waits in the backlog), Reset for the first: the registration
   ends, the cancellation callback runs — and the queued notification (mid 1, Observe 2) is transmitted all the same *)
Definition f16_events := [ERequest 1 true 1 1 (Some 0); ETrigger [] [(TRender, false)]; ETrigger [] [(TRender, false)]; ERst 1 0].
Lemma silent_on_wire_refuted :
  let s1 := run (init 0) (firstn 3 f16_events) in let s2 := run (init 0) f16_events in
  live 0 s1 /\ ~ live 0 s2 /\ count_cancel 0 (s_hist s2) = 1%nat /\
  notif 0 (s_hist s1) = [(1, 0); (0, 1)] /\ notif 0 (s_hist s2) = [(1, 0); (0, 1); (1, 2)].
Proof. vm_compute. repeat split; try reflexivity. left; reflexivity. intros []. Qed.
