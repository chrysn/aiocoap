(* C14 — NSTART=1.  The invariant (one exchange per remote, a queue entry exactly when there is one) and the transition theorem:
   every function of Model/C14refuse.v re-establishes it, keeps the per-remote FIFO accounting balanced and raises nothing.
   Model/C14.v is the same code with nothing refused ([step_without_refusal]); its theorems are instances. *)
From Verif Require Import Lib.Tactics Model.C14 Model.C14refuse.
Import ListNotations.
Open Scope Z_scope.

Section AL.
  Context {V : Type}.
  Lemma aget_adel_same k (l : list (Z * V)) : aget k (adel k l) = None.
  Proof. induction l as [|[k' v] r IH]; cbn; [reflexivity|]. destruct (k =? k') eqn:E; cbn; [exact IH|]. rewrite E. exact IH. Qed.
  Lemma aget_adel_other k k' (l : list (Z * V)) : k <> k' -> aget k (adel k' l) = aget k l.
  Proof. intros H. induction l as [|[k2 v] r IH]; cbn; [reflexivity|].
    destruct (k' =? k2) eqn:E; cbn.
    - rewrite IH. destruct (k =? k2) eqn:E2; [lia|reflexivity].
    - rewrite IH. reflexivity. Qed.
  Lemma aget_aset_same k v (l : list (Z * V)) : aget k (aset k v l) = Some v.
  Proof. unfold aset; cbn. rewrite Z.eqb_refl. reflexivity. Qed.
  Lemma aget_aset_other k k' v (l : list (Z * V)) : k <> k' -> aget k (aset k' v l) = aget k l.
  Proof. intros H. unfold aset; cbn. destruct (k =? k') eqn:E; [lia|]. apply aget_adel_other; assumption. Qed.
End AL.

Definition exs (r : Z) (s : st) : list exchange := filter (to_remote r) (active_exchanges s).
Definition count_r (r : Z) (s : st) : nat := length (exs r s).
Definition backlog_of (r : Z) (s : st) : list msg := match aget r (backlogs s) with Some q => q | None => [] end.
Definition reqs (r : Z) (s : st) : list (Z * Z * Z) := filter (fun o => remote_of o =? r) (outgoing_requests s).
Definition con_to (r : Z) (m : msg) : bool := (m_mtype m =? 0) && (m_remote m =? r).

Definition Good (s : st) (r : Z) : Prop :=
  (count_r r s <= 1)%nat /\ (aget r (backlogs s) <> None <-> count_r r s = 1%nat) /\
  Forall (fun m => con_to r m = true) (backlog_of r s).
Definition Inv (s : st) : Prop := forall r, Good s r.

Lemma good_ext s s' r : exs r s' = exs r s -> aget r (backlogs s') = aget r (backlogs s) -> Good s r -> Good s' r.
Proof. unfold Good, count_r, backlog_of. intros -> ->. tauto. Qed.

Lemma inv_ext s s' : active_exchanges s' = active_exchanges s -> backlogs s' = backlogs s -> Inv s -> Inv s'.
Proof. intros H1 H2 HI r. apply (good_ext s); [unfold exs; rewrite H1; reflexivity|rewrite H2; reflexivity|apply HI]. Qed.

Lemma good_idle s r : exs r s = [] -> aget r (backlogs s) = None -> Good s r.
Proof. intros Hx Ha. unfold Good, count_r, backlog_of. rewrite Hx, Ha. cbn. split; [lia|]. split; [split; [congruence|discriminate]|constructor]. Qed.
Lemma good_busy s r x q : exs r s = [x] -> aget r (backlogs s) = Some q -> Forall (fun m => con_to r m = true) q -> Good s r.
Proof. intros Hx Ha Hq. unfold Good, count_r, backlog_of. rewrite Hx, Ha. cbn. split; [lia|]. split; [split; [reflexivity|discriminate]|exact Hq]. Qed.
Lemma inv_at s s' r : (forall r', r' <> r -> Good s r' /\ exs r' s' = exs r' s /\ aget r' (backlogs s') = aget r' (backlogs s)) ->
  Good s' r -> Inv s'.
Proof. intros Ho Hr r'. destruct (Z.eq_dec r' r) as [->|Hne]; [exact Hr|]. destruct (Ho r' Hne) as (A & B & C). apply (good_ext s); assumption. Qed.

Lemma has_exchange_exs r s : has_exchange r s = negb (Nat.eqb (count_r r s) 0).
Proof. unfold has_exchange, count_r, exs. induction (active_exchanges s) as [|x l IH]; [reflexivity|].
  cbn. destruct (to_remote r x); cbn; [reflexivity|exact IH]. Qed.

Section Filter.
  Context {A : Type}.
  Implicit Types (p q : A -> bool) (l : list A).
  Lemma filter_comm p q l : filter p (filter q l) = filter q (filter p l).
  Proof. induction l as [|a l IH]; [reflexivity|]. cbn. destruct (p a) eqn:Ep, (q a) eqn:Eq; cbn; rewrite ?Ep, ?Eq, IH; reflexivity. Qed.
  Lemma filter_keep p q l : (forall a, p a = true -> q a = true) -> filter p (filter q l) = filter p l.
  Proof. intros H. induction l as [|a l IH]; [reflexivity|]. cbn. destruct (p a) eqn:Ep.
    - rewrite (H a Ep). cbn. rewrite Ep, IH. reflexivity.
    - destruct (q a); cbn; rewrite ?Ep; exact IH. Qed.
  Lemma filter_negb_nil p l : filter p (filter (fun a => negb (p a)) l) = [].
  Proof. induction l as [|a l IH]; [reflexivity|]. cbn. destruct (p a) eqn:E; cbn; [exact IH|rewrite E; exact IH]. Qed.
  Lemma filter_nil_incl p l1 l2 : (forall a, In a l2 -> In a l1) -> filter p l1 = [] -> filter p l2 = [].
  Proof. intros H H1. destruct (filter p l2) as [|a t] eqn:E; [reflexivity|]. exfalso.
    assert (Hi : In a (filter p l2)) by (rewrite E; left; reflexivity). apply filter_In in Hi. destruct Hi as (Hi & Hp).
    assert (Hi1 : In a (filter p l1)) by (apply filter_In; auto). rewrite H1 in Hi1. exact Hi1. Qed.
  Lemma find_filter p l : find p l = hd_error (filter p l).
  Proof. induction l as [|a l IH]; [reflexivity|]. cbn. destruct (p a); [reflexivity|exact IH]. Qed.
End Filter.

Lemma exs_xdel r r' mid s : exs r (upd_ex s (xdel r' mid (active_exchanges s))) = xdel r' mid (exs r s).
Proof. apply filter_comm. Qed.
Lemma filter_xdel_other r r' mid l : r <> r' -> filter (to_remote r) (xdel r' mid l) = filter (to_remote r) l.
Proof. intros H. apply filter_keep. intros x Hx. unfold key_eqb, to_remote in *. lia. Qed.

Lemma xget_some r mid l x : xget r mid l = Some x -> In x l /\ m_remote (x_msg x) = r /\ m_mid (x_msg x) = mid.
Proof. unfold xget. intros H. apply find_some in H. destruct H as [H1 H2]. unfold key_eqb in H2. split; [exact H1|]. lia. Qed.

Lemma min_timer_in l x : min_timer l = Some x -> In x l.
Proof. revert x. induction l as [|y l IH]; cbn; [discriminate|]. intros x.
  destruct (min_timer l) as [z|]; [destruct (before z y)|]; intros H; inv H; auto. Qed.

Lemma min_timer_none l : min_timer l = None -> l = [].
Proof. destruct l as [|y l]; [reflexivity|]. cbn. destruct (min_timer l) as [z|]; [destruct (before z y)|]; discriminate. Qed.

Lemma xget_own s x : exs (m_remote (x_msg x)) s = [x] ->
  xget (m_remote (x_msg x)) (m_mid (x_msg x)) (active_exchanges s) = Some x.
Proof. intros Hx. unfold xget. rewrite find_filter.
  rewrite <- (filter_keep _ (to_remote (m_remote (x_msg x)))) by (intros y; unfold key_eqb, to_remote; lia).
  fold (exs (m_remote (x_msg x)) s). rewrite Hx. cbn. unfold key_eqb. rewrite !Z.eqb_refl. reflexivity. Qed.

Lemma add_exchange_ex m s : exists x, x_msg x = m /\ x_counter x = 0 /\
  active_exchanges (add_exchange m s) = x :: xdel (m_remote m) (m_mid m) (active_exchanges s).
Proof. unfold add_exchange, random_uniform, schedule_retransmit, upd_ex, upd_bl.
  destruct (in_backlogs (m_remote m) s); destruct (rand s); cbn; (eexists; (split; [|split]); [ | |reflexivity]; reflexivity). Qed.
Lemma add_exchange_bl m s : backlogs (add_exchange m s) =
  if in_backlogs (m_remote m) s then backlogs s else aset (m_remote m) [] (backlogs s).
Proof. unfold add_exchange, random_uniform, schedule_retransmit, upd_ex, upd_bl.
  destruct (in_backlogs (m_remote m) s); destruct (rand s); reflexivity. Qed.
Lemma add_exchange_out m s : outgoing_requests (add_exchange m s) = outgoing_requests s.
Proof. unfold add_exchange, random_uniform, schedule_retransmit, upd_ex, upd_bl.
  destruct (in_backlogs (m_remote m) s); destruct (rand s); reflexivity. Qed.

Lemma add_exchange_backlog_of m s r : backlog_of r (add_exchange m s) = backlog_of r s.
Proof. unfold backlog_of. rewrite add_exchange_bl. unfold in_backlogs.
  destruct (aget (m_remote m) (backlogs s)) eqn:E; [reflexivity|].
  destruct (Z.eq_dec r (m_remote m)) as [->|Hne]; [rewrite aget_aset_same, E; reflexivity|rewrite aget_aset_other by assumption; reflexivity]. Qed.

Lemma add_exchange_exs_other m s r : r <> m_remote m -> exs r (add_exchange m s) = exs r s.
Proof. intros H. unfold exs. destruct (add_exchange_ex m s) as (x & Hm & _ & ->). cbn.
  unfold to_remote at 1. rewrite Hm. replace (m_remote m =? r) with false by lia. apply filter_xdel_other; assumption. Qed.
Lemma add_exchange_aget_other m s r : r <> m_remote m -> aget r (backlogs (add_exchange m s)) = aget r (backlogs s).
Proof. intros H. rewrite add_exchange_bl. destruct (in_backlogs (m_remote m) s); [reflexivity|]. apply aget_aset_other; assumption. Qed.

Lemma add_exchange_exs_same m s : exs (m_remote m) s = [] ->
  exists x, x_msg x = m /\ x_counter x = 0 /\ exs (m_remote m) (add_exchange m s) = [x].
Proof. intros Hz. unfold exs in *. destruct (add_exchange_ex m s) as (x & Hm & Hc & ->). exists x. split; [exact Hm|]. split; [exact Hc|].
  cbn [filter]. replace (to_remote (m_remote m) x) with true by (unfold to_remote; rewrite Hm; lia). f_equal.
  unfold xdel. rewrite filter_comm, Hz. reflexivity. Qed.

Lemma add_exchange_good m s : exs (m_remote m) s = [] ->
  Forall (fun m' => con_to (m_remote m) m' = true) (backlog_of (m_remote m) s) ->
  (forall r, r <> m_remote m -> Good s r) -> Inv (add_exchange m s).
Proof. intros Hz Hq HI. apply (inv_at s _ (m_remote m)).
  - intros r Hne. split; [apply HI; exact Hne|]. split; [apply add_exchange_exs_other|apply add_exchange_aget_other]; exact Hne.
  - destruct (add_exchange_exs_same m s Hz) as (x & _ & _ & Hx). apply (good_busy _ _ x (backlog_of (m_remote m) s) Hx); [|exact Hq].
    rewrite add_exchange_bl. unfold in_backlogs, backlog_of. destruct (aget (m_remote m) (backlogs s)) eqn:E; [exact E|apply aget_aset_same]. Qed.

Lemma add_exchange_has m s : has_exchange (m_remote m) (add_exchange m s) = true.
Proof. unfold has_exchange. destruct (add_exchange_ex m s) as (x & Hm & _ & ->). cbn. unfold to_remote at 1. rewrite Hm, Z.eqb_refl. reflexivity. Qed.
Lemma add_exchange_in m s : incoming_requests (add_exchange m s) = incoming_requests s.
Proof. unfold add_exchange, random_uniform, schedule_retransmit, upd_ex, upd_bl.
  destruct (in_backlogs (m_remote m) s); destruct (rand s); reflexivity. Qed.

Lemma inv_cases s r : Inv s -> (exs r s = [] /\ aget r (backlogs s) = None) \/
  (exists x q, exs r s = [x] /\ aget r (backlogs s) = Some q /\ Forall (fun m => con_to r m = true) q).
Proof. intros HI. destruct (HI r) as (Hle & Hiff & Hq). unfold count_r in *. unfold backlog_of in Hq.
  destruct (exs r s) as [|x [|y l]] eqn:E; cbn in *.
  - left. split; [reflexivity|]. destruct (aget r (backlogs s)); [|reflexivity]. exfalso. assert (0 = 1)%nat by (apply Hiff; discriminate). lia.
  - right. destruct (aget r (backlogs s)) as [q|] eqn:Ea; [exists x, q; auto|]. exfalso. apply (proj2 Hiff); reflexivity.
  - lia. Qed.

Lemma in_exs r s x : In x (active_exchanges s) -> m_remote (x_msg x) = r -> In x (exs r s).
Proof. intros H1 H2. unfold exs. apply filter_In. split; [assumption|unfold to_remote; lia]. Qed.

Lemma inv_idle s r : Inv s -> aget r (backlogs s) = None -> exs r s = [].
Proof. intros HI Ha. destruct (inv_cases s r HI) as [[Hc _]|(x & q & _ & Ha' & _)]; [exact Hc|congruence]. Qed.

Lemma inv_busy s x : Inv s -> In x (active_exchanges s) ->
  exs (m_remote (x_msg x)) s = [x] /\
  exists q, aget (m_remote (x_msg x)) (backlogs s) = Some q /\ Forall (fun m => con_to (m_remote (x_msg x)) m = true) q.
Proof. intros HI Hin. pose proof (in_exs _ s x Hin eq_refl) as Hi.
  destruct (inv_cases s (m_remote (x_msg x)) HI) as [[Hc _]|(x0 & q & Hx & Ha & Hq)].
  - rewrite Hc in Hi. destruct Hi.
  - rewrite Hx in Hi. destruct Hi as [->|[]]. split; [exact Hx|exists q; auto]. Qed.

(* between the end of r's exchange and the release of the next message the invariant is broken at r only *)
Definition Ready (r : Z) (q : list msg) (s : st) : Prop :=
  exs r s = [] /\ aget r (backlogs s) = Some q /\ Forall (fun m => con_to r m = true) q /\ forall r', r' <> r -> Good s r'.

Lemma ready_ext r q s s' : active_exchanges s' = active_exchanges s -> backlogs s' = backlogs s -> Ready r q s -> Ready r q s'.
Proof. intros He Hb (A & B & C & D). unfold Ready, exs. rewrite He, Hb. split; [exact A|]. split; [exact B|]. split; [exact C|].
  intros r' Hne. apply (good_ext s); [unfold exs; rewrite He; reflexivity|rewrite Hb; reflexivity|apply D; exact Hne]. Qed.

Lemma pop_ready s x : Inv s -> In x (active_exchanges s) ->
  exists q, aget (m_remote (x_msg x)) (backlogs s) = Some q /\
    Ready (m_remote (x_msg x)) q (upd_ex s (xdel (m_remote (x_msg x)) (m_mid (x_msg x)) (active_exchanges s))).
Proof. intros HI Hin. destruct (inv_busy s x HI Hin) as (Hx & q & Ha & Hq). exists q. split; [exact Ha|].
  split; [|split; [exact Ha|split; [exact Hq|]]].
  - rewrite exs_xdel, Hx. cbn. unfold key_eqb. rewrite !Z.eqb_refl. reflexivity.
  - intros r' Hne. apply (good_ext s); [apply filter_xdel_other; exact Hne|reflexivity|apply HI]. Qed.

Lemma ready_head r m q s : Ready r (m :: q) s -> m_mtype m = 0 /\ m_remote m = r /\
  Inv (add_exchange m (upd_bl s (aset r q (backlogs s)))) /\
  aget r (backlogs (add_exchange m (upd_bl s (aset r q (backlogs s))))) = Some q /\
  forall r', backlog_of r' (add_exchange m (upd_bl s (aset r q (backlogs s)))) = if r' =? r then q else backlog_of r' s.
Proof. intros (Hz & Ha & Hq & HI). inv Hq. assert (Hr : m_remote m = r) by (unfold con_to in H1; lia).
  set (s0 := upd_bl s (aset r q (backlogs s))).
  assert (Hb0 : forall r', backlog_of r' s0 = if r' =? r then q else backlog_of r' s).
  { intros r'. unfold backlog_of, s0. cbn [backlogs upd_bl]. destruct (r' =? r) eqn:E.
    - replace r' with r by lia. rewrite aget_aset_same. reflexivity.
    - rewrite aget_aset_other by lia. reflexivity. }
  split; [unfold con_to in H1; lia|]. split; [exact Hr|]. split; [|split].
  - apply add_exchange_good; rewrite Hr.
    + exact Hz.
    + rewrite Hb0, Z.eqb_refl. exact H2.
    + intros r' Hne. apply (good_ext s); [reflexivity|unfold s0; cbn; apply aget_aset_other; assumption|apply HI; assumption].
  - rewrite add_exchange_bl, Hr. unfold in_backlogs, s0. cbn [backlogs upd_bl]. rewrite aget_aset_same. apply aget_aset_same.
  - intros r'. rewrite add_exchange_backlog_of. apply Hb0. Qed.

(* the table after _retransmit has rescheduled exchange x: x replaced by its successor (counter + 1, time-out doubled) *)
Definition rescheduled (x : exchange) (s : st) : st :=
  let m := x_msg x in
  let '(s1, x') := schedule_retransmit m (x_timeout x * 2) (x_counter x + 1) (upd_ex s (xdel (m_remote m) (m_mid m) (active_exchanges s))) in
  upd_ex s1 (x' :: xdel (m_remote m) (m_mid m) (active_exchanges s1)).

Lemma rescheduled_spec x s : Inv s -> In x (active_exchanges s) ->
  Inv (rescheduled x s) /\ backlogs (rescheduled x s) = backlogs s /\
  outgoing_requests (rescheduled x s) = outgoing_requests s /\ incoming_requests (rescheduled x s) = incoming_requests s /\
  (exists x', exs (m_remote (x_msg x)) (rescheduled x s) = [x'] /\ x_msg x' = x_msg x /\ x_counter x' = x_counter x + 1) /\
  forall r', r' <> m_remote (x_msg x) -> exs r' (rescheduled x s) = exs r' s.
Proof. intros HI Hin. destruct (pop_ready s x HI Hin) as (q & Ha & Hz & _ & Hq & _).
  set (r := m_remote (x_msg x)) in *. set (mid := m_mid (x_msg x)) in *.
  assert (Hx' : exs r (rescheduled x s) =
    [{| x_msg := x_msg x; x_due := now s + x_timeout x * 2; x_seq := seq s; x_timeout := x_timeout x * 2; x_counter := x_counter x + 1 |}]).
  { unfold rescheduled, schedule_retransmit, exs. cbn [active_exchanges upd_ex filter x_msg now seq]. fold r mid. unfold to_remote at 1. cbn [x_msg]. fold r.
    rewrite Z.eqb_refl. f_equal. unfold exs in Hz. cbn [active_exchanges upd_ex] in Hz. unfold xdel at 1. rewrite filter_comm, Hz. reflexivity. }
  assert (Ho : forall r', r' <> r -> exs r' (rescheduled x s) = exs r' s).
  { intros r' Hne. unfold rescheduled, schedule_retransmit, exs. cbn [active_exchanges upd_ex filter x_msg]. fold r mid. unfold to_remote at 1. cbn [x_msg]. fold r.
    replace (r =? r') with false by lia. rewrite !filter_xdel_other by assumption. reflexivity. }
  split; [apply (inv_at s _ r); [intros r' Hne; split; [apply HI|split; [apply Ho; exact Hne|reflexivity]]|exact (good_busy _ r _ q Hx' Ha Hq)]|].
  split; [reflexivity|]. split; [reflexivity|]. split; [reflexivity|].
  split; [eexists; split; [exact Hx'|split; reflexivity]|exact Ho]. Qed.

Definition subm_o (r : Z) (o : output) : list msg :=
  match o with Submitted m => if con_to r m then [m] else [] | _ => [] end.
Definition left_o (r : Z) (o : output) : list msg :=
  match o with
  | Tx m false => if con_to r m then [m] else []
  | Dropped m => if con_to r m then [m] else []
  | _ => []
  end.
(* confirmable messages handed to send_message for r, in order *)
Definition subm (r : Z) (tr : list output) : list msg := flat_map (subm_o r) tr.
(* confirmable messages to r that left the queue (first transmission, or discarded), in order *)
Definition left (r : Z) (tr : list output) : list msg := flat_map (left_o r) tr.
Definition is_crash (o : output) : bool := match o with Crash _ => true | _ => false end.
Definition nocrash (tr : list output) : bool := forallb (fun o => negb (is_crash o)) tr.
(* outputs that say nothing about queues *)
Definition neutral (o : output) : bool :=
  match o with
  | Tx _ true | TxEmpty _ _ _ | Fired _ _ | Deliver _ | Fail _ _ | Cancelled _ | Monitor _ | Ended _ => true
  | _ => false
  end.

Lemma subm_app r a b : subm r (a ++ b) = subm r a ++ subm r b. Proof. apply flat_map_app. Qed.
Lemma left_app r a b : left r (a ++ b) = left r a ++ left r b. Proof. apply flat_map_app. Qed.
Lemma nocrash_app a b : nocrash (a ++ b) = nocrash a && nocrash b. Proof. apply forallb_app. Qed.
Lemma neutral_logs r o : forallb neutral o = true -> subm r o = [] /\ left r o = [] /\ nocrash o = true.
Proof. induction o as [|x o IH]; [cbn; auto|]. cbn [forallb]. intros H. apply andb_prop in H. destruct H as [H1 H2].
  destruct (IH H2) as (A & B & C). unfold subm, left, nocrash in *. cbn [flat_map forallb]. rewrite A, B, C.
  destruct x; try discriminate; cbn; auto. destruct retr; [cbn; auto|discriminate]. Qed.
Lemma neutral_map {A} (f : A -> output) l : (forall a, neutral (f a) = true) -> forallb neutral (map f l) = true.
Proof. intros H. induction l as [|a l IH]; [reflexivity|]. cbn. rewrite H. exact IH. Qed.
Lemma crashed_nocrash o : crashed o = negb (nocrash o).
Proof. unfold crashed, nocrash. induction o as [|x o IH]; [reflexivity|]. cbn [existsb forallb]. rewrite IH. destruct x; reflexivity. Qed.
Lemma nocrash_in o e : nocrash o = true -> ~ In (Crash e) o.
Proof. intros N H. unfold nocrash in N. rewrite forallb_forall in N. specialize (N _ H). discriminate. Qed.

Lemma left_dropped_same r q : Forall (fun m => con_to r m = true) q -> left r (map Dropped q) = q.
Proof. induction 1 as [|m q H _ IH]; [reflexivity|]. unfold left in *. cbn. rewrite H, IH. reflexivity. Qed.
Lemma con_to_other r r' m : con_to r m = true -> r' <> r -> con_to r' m = false.
Proof. unfold con_to. intros H Hne. destruct (m_mtype m =? 0); [|reflexivity]. cbn in *. lia. Qed.
Lemma left_dropped_other r r' q : Forall (fun m => con_to r m = true) q -> r' <> r -> left r' (map Dropped q) = [].
Proof. intros H Hne. induction H as [|m q H _ IH]; [reflexivity|]. unfold left in *. cbn.
  rewrite (con_to_other r r' m H Hne). exact IH. Qed.
Lemma nocrash_dropped q : nocrash (map Dropped q) = true.
Proof. induction q; [reflexivity|]. cbn. assumption. Qed.
Lemma subm_dropped r q : subm r (map Dropped q) = [].
Proof. induction q; [reflexivity|]. cbn. assumption. Qed.
Lemma in_left r m o : In (Tx m false) o -> con_to r m = true -> In m (left r o).
Proof. intros H Hc. apply in_flat_map. exists (Tx m false). split; [exact H|]. cbn. rewrite Hc. left; reflexivity. Qed.

(* one transition, whatever it is made of: invariant re-established,
   FIFO bookkeeping balanced, no internal error *)
Definition Trans (s : st) (o : list output) (s' : st) : Prop :=
  Inv s' /\ (forall r, backlog_of r s ++ subm r o = left r o ++ backlog_of r s') /\ nocrash o = true.

Lemma trans_refl s : Inv s -> Trans s [] s.
Proof. intros H. split; [exact H|]. split; [|reflexivity]. intros r. cbn. apply app_nil_r. Qed.

Lemma trans_trans s o1 s1 o2 s2 : Trans s o1 s1 -> Trans s1 o2 s2 -> Trans s (o1 ++ o2) s2.
Proof. intros (A & B & C) (A' & B' & C'). split; [exact A'|]. split.
  - intros r. rewrite subm_app, left_app, app_assoc, B, <- !app_assoc. f_equal. apply B'.
  - rewrite nocrash_app, C, C'. reflexivity. Qed.

Lemma trans_pre_ext s0 s o s' : backlogs s0 = backlogs s -> Trans s0 o s' -> Trans s o s'.
Proof. intros Hb (A & B & C). split; [exact A|]. split; [|exact C]. intros r. unfold backlog_of at 1. rewrite <- Hb. apply B. Qed.

Lemma trans_neutral s o s1 o2 s' : Trans s o s1 -> active_exchanges s' = active_exchanges s1 -> backlogs s' = backlogs s1 ->
  forallb neutral o2 = true -> Trans s (o ++ o2) s'.
Proof. intros T He Hb Hn. apply (trans_trans s o s1); [exact T|]. destruct (neutral_logs 0 o2 Hn) as (_ & _ & N3).
  split; [apply (inv_ext s1); [assumption|assumption|apply T]|]. split; [|exact N3].
  intros r. destruct (neutral_logs r o2 Hn) as (N1 & N2 & _). rewrite N1, N2, app_nil_r. unfold backlog_of. rewrite Hb. reflexivity. Qed.

Lemma trans_neutral_pre s o1 s1 o s' : backlogs s1 = backlogs s ->
  forallb neutral o1 = true -> Trans s1 o s' -> Trans s (o1 ++ o) s'.
Proof. intros Hb Hn (A & B & C). destruct (neutral_logs 0 o1 Hn) as (_ & _ & N3).
  split; [exact A|]. split.
  - intros r. destruct (neutral_logs r o1 Hn) as (N1 & N2 & _). rewrite subm_app, left_app, N1, N2. cbn [app].
    unfold backlog_of at 1. rewrite <- Hb. apply B.
  - rewrite nocrash_app, C, N3. reflexivity. Qed.

Lemma stop_responder_frame k s : active_exchanges (fst (stop_responder k s)) = active_exchanges s /\
  backlogs (fst (stop_responder k s)) = backlogs s /\ outgoing_requests (fst (stop_responder k s)) = outgoing_requests s /\
  forallb neutral (snd (stop_responder k s)) = true.
Proof. unfold stop_responder. destruct (alive k s); cbn; auto. Qed.

(* what _remove_exchange does between popping the exchange and continuing the backlog *)
Definition reset_monitor (mt : Z) (w : msg) (s : st) : st * list output := if mt =? 3 then call_monitor w s else (s, []).
Lemma reset_monitor_frame mt w s : active_exchanges (fst (reset_monitor mt w s)) = active_exchanges s /\
  backlogs (fst (reset_monitor mt w s)) = backlogs s /\ forallb neutral (snd (reset_monitor mt w s)) = true.
Proof. unfold reset_monitor, call_monitor. destruct (mt =? 3); [|cbn; auto].
  destruct (m_sub w); [destruct (existsb (key_of w) (outgoing_requests s))| |]; cbn; auto.
  destruct (stop_responder_frame k s) as (A & B & _ & C). auto. Qed.

Lemma tm_dispatch_error_frame e r s : active_exchanges (fst (tm_dispatch_error e r s)) = active_exchanges s /\
  backlogs (fst (tm_dispatch_error e r s)) = backlogs s /\ forallb neutral (snd (tm_dispatch_error e r s)) = true.
Proof. unfold tm_dispatch_error. cbn [fst snd active_exchanges backlogs upd_in upd_out]. split; [reflexivity|]. split; [reflexivity|].
  rewrite forallb_app. apply andb_true_intro. split; apply neutral_map; reflexivity. Qed.

Lemma tm_process_response_frame r tok s : active_exchanges (fst (fst (tm_process_response r tok s))) = active_exchanges s /\
  backlogs (fst (fst (tm_process_response r tok s))) = backlogs s /\ forallb neutral (snd (fst (tm_process_response r tok s))) = true.
Proof. unfold tm_process_response. destruct (find _ _); cbn; auto. Qed.

(* failure of an endpoint *)
Lemma dispatch_error_exs r s r' : exs r' (fst (dispatch_error r s)) = if r' =? r then [] else exs r' s.
Proof. unfold dispatch_error, tm_dispatch_error, exs. cbn [fst active_exchanges upd_bl upd_ex upd_in upd_out]. destruct (r' =? r) eqn:E.
  - replace r' with r by lia. apply filter_negb_nil.
  - apply filter_keep. intros x Hx. unfold to_remote in *. lia. Qed.
Lemma dispatch_error_aget r s r' : aget r' (backlogs (fst (dispatch_error r s))) = if r' =? r then None else aget r' (backlogs s).
Proof. unfold dispatch_error, tm_dispatch_error. cbn [fst backlogs upd_bl upd_ex upd_in upd_out]. destruct (r' =? r) eqn:E.
  - replace r' with r by lia. apply aget_adel_same.
  - apply aget_adel_other. lia. Qed.


Lemma dispatch_error_trans r s : Inv s -> Trans s (snd (dispatch_error r s)) (fst (dispatch_error r s)).
Proof. intros HI. pose proof (dispatch_error_exs r s) as He. pose proof (dispatch_error_aget r s) as Hb. unfold dispatch_error in *.
  pose proof (tm_dispatch_error_frame NetworkError r s) as (_ & B & Hn).
  destruct (tm_dispatch_error NetworkError r s) as [s1 o1]. cbn [fst snd backlogs upd_ex upd_bl] in *. rewrite B in He, Hb |- *.
  assert (Hq : Forall (fun m => con_to r m = true) (backlog_of r s)) by (destruct (HI r) as (_ & _ & C); exact C).
  unfold backlog_of in Hq. set (q := match aget r (backlogs s) with Some q => q | None => [] end) in *.
  split; [|split].
  - apply (inv_at s _ r); [|apply good_idle; [rewrite He|rewrite Hb]; rewrite Z.eqb_refl; reflexivity].
    intros r' Hne. rewrite He, Hb. replace (r' =? r) with false by lia. split; [apply HI|auto].
  - intros r'. destruct (neutral_logs r' o1 Hn) as (N1 & N2 & _). rewrite subm_app, left_app, N1, N2, subm_dropped. cbn [app]. rewrite app_nil_r.
    unfold backlog_of at 2. rewrite Hb. destruct (Z.eq_dec r' r) as [->|Hne].
    + rewrite Z.eqb_refl, left_dropped_same, app_nil_r by assumption. reflexivity.
    + replace (r' =? r) with false by lia. rewrite (left_dropped_other r r' q Hq Hne). reflexivity.
  - rewrite nocrash_app, nocrash_dropped. destruct (neutral_logs 0 o1 Hn) as (_ & _ & ->). reflexivity. Qed.

Lemma dispatch_error_no_subm r s r' : subm r' (snd (dispatch_error r s)) = [].
Proof. unfold dispatch_error. destruct (tm_dispatch_error_frame NetworkError r s) as (_ & _ & Hn).
  destruct (tm_dispatch_error NetworkError r s) as [s1 o1]. cbn [fst snd] in *. rewrite subm_app, subm_dropped, app_nil_r.
  destruct (neutral_logs r' _ Hn) as (N1 & _). exact N1. Qed.

(* the final time-out of the exchange with r, after that exchange has been popped *)
Definition final_timeout (r : Z) (q : list msg) (s : st) : st * list output :=
  let '(s', o) := tm_dispatch_error ConRetransmitsExceeded r (upd_bl s (adel r (backlogs s))) in (s', map Dropped q ++ o).

Lemma final_timeout_trans r q s : Ready r q s -> Trans s (snd (final_timeout r q s)) (fst (final_timeout r q s)).
Proof. intros (Hz & Ha & Hq & HI). unfold final_timeout.
  pose proof (tm_dispatch_error_frame ConRetransmitsExceeded r (upd_bl s (adel r (backlogs s)))) as (He & Hb & Hn).
  destruct (tm_dispatch_error _ _ _) as [s2 o2]. cbn [fst snd active_exchanges backlogs upd_bl] in *.
  split; [|split].
  - apply (inv_at s _ r); [|apply good_idle; [unfold exs; rewrite He; exact Hz|rewrite Hb; apply aget_adel_same]].
    intros r' Hne. split; [apply HI; exact Hne|]. split; [unfold exs; rewrite He; reflexivity|rewrite Hb; apply aget_adel_other; exact Hne].
  - intros r'. destruct (neutral_logs r' o2 Hn) as (N1 & N2 & _). rewrite subm_app, left_app, N1, N2, subm_dropped. rewrite !app_nil_r.
    unfold backlog_of. rewrite Hb. destruct (Z.eq_dec r' r) as [->|Hne].
    + rewrite Ha, aget_adel_same, left_dropped_same by assumption. rewrite app_nil_r. reflexivity.
    + rewrite aget_adel_other by assumption. rewrite (left_dropped_other r r' q Hq Hne). reflexivity.
  - rewrite nocrash_app, nocrash_dropped. destruct (neutral_logs 0 o2 Hn) as (_ & _ & ->). reflexivity. Qed.

Definition new_msg (who : sub) (r mt code tok maxre : Z) (s : st) : msg :=
  {| m_sub := who; m_remote := r; m_mtype := resolve_mtype mt; m_code := code; m_mid := message_id s; m_tok := tok; m_maxre := maxre |}.

Section General.
Variable l : list Z.

(* _continue_backlog once the exchange with r is gone *)
Definition release (r : Z) (s : st) : st * list output :=
  match backlog_of r s with
  | [] => (upd_bl s (adel r (backlogs s)), [])
  | m :: q => send_via_transport l (Tx m false) r (add_exchange m (upd_bl s (aset r q (backlogs s))))
  end.

(* the `while` loop ends after one round: the released message's exchange is open, or — refused — r's entry is gone *)
Lemma continue_backlog_nf r s q : exs r s = [] -> aget r (backlogs s) = Some q -> Forall (fun m => con_to r m = true) q ->
  continue_backlog l r s = release r s.
Proof. intros Hz Ha Hq. unfold continue_backlog, release, backlog_of. rewrite Ha. cbn [continue_backlog_loop].
  rewrite has_exchange_exs. unfold count_r. rewrite Hz, Ha. cbn [length Nat.eqb negb].
  destruct q as [|m q]; [reflexivity|]. inv Hq. unfold con_to in H1.
  unfold send_initially. replace (m_mtype m =? 0) with true by lia. replace (m_remote m) with r by lia.
  set (s1 := add_exchange m (upd_bl s (aset r q (backlogs s)))).
  assert (Hstop : continue_backlog_loop l (length (m :: q)) r (fst (send_via_transport l (Tx m false) r s1)) = (fst (send_via_transport l (Tx m false) r s1), [])).
  { cbn [length continue_backlog_loop]. unfold send_via_transport. destruct (refuses l r).
    - pose proof (dispatch_error_exs r s1 r) as He. pose proof (dispatch_error_aget r s1 r) as Hb. rewrite Z.eqb_refl in He, Hb.
      destruct (dispatch_error r s1) as [s2 o2]. cbn [fst] in *. rewrite has_exchange_exs. unfold count_r. rewrite He, Hb. reflexivity.
    - cbn [fst]. unfold s1. replace r with (m_remote m) at 1 by lia. rewrite add_exchange_has. reflexivity. }
  destruct (send_via_transport l (Tx m false) r s1) as [s2 o2]. cbn [fst] in Hstop. rewrite Hstop, app_nil_r. reflexivity. Qed.

Lemma remove_exchange_nf r mid mt s x : Inv s -> xget r mid (active_exchanges s) = Some x ->
  m_remote (x_msg x) = r /\ exists q, aget r (backlogs s) = Some q /\ Ready r q (upd_ex s (xdel r mid (active_exchanges s))) /\
  remove_exchange l r mid mt s =
    (let '(s2, o2) := reset_monitor mt (x_msg x) (upd_ex s (xdel r mid (active_exchanges s))) in
     let '(s3, o3) := release r s2 in (s3, o2 ++ o3)).
Proof. intros HI Ex. destruct (xget_some _ _ _ _ Ex) as (Hin & Hr & Hm). destruct (pop_ready s x HI Hin) as (q & Ha & Hrd). rewrite Hr, Hm in *.
  split; [reflexivity|]. exists q. split; [exact Ha|]. split; [exact Hrd|].
  unfold remove_exchange. rewrite Ex. fold (reset_monitor mt (x_msg x) (upd_ex s (xdel r mid (active_exchanges s)))).
  destruct (reset_monitor_frame mt (x_msg x) (upd_ex s (xdel r mid (active_exchanges s)))) as (He & Hb & _).
  destruct (reset_monitor _ _ _) as [s2 o2]. cbn [fst] in *. destruct (ready_ext r q _ s2 He Hb Hrd) as (A & B & C & _).
  rewrite (continue_backlog_nf r s2 q A B C). reflexivity. Qed.

Lemma retransmit_nf x s : Inv s -> In x (active_exchanges s) ->
  exists q, aget (m_remote (x_msg x)) (backlogs s) = Some q /\
    Ready (m_remote (x_msg x)) q (upd_ex s (xdel (m_remote (x_msg x)) (m_mid (x_msg x)) (active_exchanges s))) /\
  retransmit l x s =
    if x_counter x <? m_maxre (x_msg x) then send_via_transport l (Tx (x_msg x) true) (m_remote (x_msg x)) (rescheduled x s)
    else final_timeout (m_remote (x_msg x)) q (upd_ex s (xdel (m_remote (x_msg x)) (m_mid (x_msg x)) (active_exchanges s))).
Proof. intros HI Hin. destruct (pop_ready s x HI Hin) as (q & Ha & Hrd). exists q. split; [exact Ha|]. split; [exact Hrd|].
  unfold retransmit. rewrite (xget_own s x (proj1 (inv_busy s x HI Hin))).
  destruct (x_counter x <? m_maxre (x_msg x)); [reflexivity|]. cbn [backlogs upd_ex]. rewrite Ha. reflexivity. Qed.

Lemma send_message_nf who r mt code tok maxre s : Inv s ->
  let m := new_msg who r mt code tok maxre s in let s0 := snd (next_message_id s) in
  (exists q, resolve_mtype mt = 0 /\ aget r (backlogs s) = Some q /\
     send_message l who r mt code tok maxre s = (upd_bl s0 (aset r (q ++ [m]) (backlogs s)), [Submitted m])) \/
  ((resolve_mtype mt <> 0 \/ aget r (backlogs s) = None) /\
     send_message l who r mt code tok maxre s = (fst (send_initially l m s0), Submitted m :: snd (send_initially l m s0))).
Proof. intros HI. cbn zeta. unfold send_message, next_message_id. cbn [m_mtype snd]. fold (new_msg who r mt code tok maxre s).
  unfold in_backlogs. cbn [backlogs]. rewrite has_exchange_exs.
  destruct (resolve_mtype mt =? 0) eqn:Ec; cbn [andb].
  - destruct (inv_cases s r HI) as [[_ Ha]|(x & q & Hx & Ha & _)]; rewrite Ha.
    + right. split; [auto|]. destruct (send_initially l _ _); reflexivity.
    + left. exists q. split; [lia|]. split; [reflexivity|]. unfold count_r, exs in *. cbn [active_exchanges]. rewrite Hx. reflexivity.
  - right. split; [left; lia|]. destruct (send_initially l _ _); reflexivity. Qed.

Lemma send_neutral_trans what r s : Inv s -> neutral what = true ->
  Trans s (snd (send_via_transport l what r s)) (fst (send_via_transport l what r s)).
Proof. intros HI Hn. unfold send_via_transport. destruct (refuses l r).
  - pose proof (dispatch_error_trans r s HI) as T. destruct (dispatch_error r s) as [s1 o1]. cbn [fst snd] in *.
    replace (refused_ghost what) with (@nil output) by (destruct what; try reflexivity; destruct retr; [reflexivity|discriminate]). exact T.
  - cbn [fst snd]. apply (trans_neutral s [] s [what] s); [apply trans_refl; exact HI|reflexivity|reflexivity|cbn; rewrite Hn; reflexivity]. Qed.

(* the first transmission of m: the queues are balanced with m counted as "leaving" (on the wire, or refused and [Dropped]) *)
Definition Sent (m : msg) (s : st) (o : list output) (s' : st) : Prop :=
  Inv s' /\ nocrash o = true /\
  forall r, subm r o = [] /\ (if con_to r m then [m] else []) ++ backlog_of r s = left r o ++ backlog_of r s'.

Lemma send_first m s : Inv s ->
  Sent m s (snd (send_via_transport l (Tx m false) (m_remote m) s)) (fst (send_via_transport l (Tx m false) (m_remote m) s)).
Proof. intros HI. unfold send_via_transport. destruct (refuses l (m_remote m)).
  - pose proof (dispatch_error_trans (m_remote m) s HI) as (A & B & C).
    pose proof (dispatch_error_no_subm (m_remote m) s) as Hs.
    destruct (dispatch_error (m_remote m) s) as [s2 o2]. cbn [fst snd refused_ghost] in *.
    split; [exact A|]. split; [exact C|]. intros r. specialize (B r). rewrite (Hs r), app_nil_r in B.
    unfold subm, left in *. cbn [flat_map subm_o left_o app]. split; [apply Hs|]. rewrite B, app_assoc. reflexivity.
  - cbn [fst snd]. split; [exact HI|]. split; [reflexivity|]. intros r. unfold subm, left. cbn. rewrite app_nil_r. auto. Qed.

Lemma release_trans r q s : Ready r q s -> Trans s (snd (release r s)) (fst (release r s)).
Proof. intros Hrd. pose proof Hrd as (Hz & Ha & Hq & HI). unfold release, backlog_of. rewrite Ha. destruct q as [|m q].
  - cbn [fst snd]. split; [|split; [|reflexivity]].
    + apply (inv_at s _ r); [|apply good_idle; [exact Hz|apply aget_adel_same]].
      intros r' Hne. split; [apply HI; exact Hne|]. split; [reflexivity|apply aget_adel_other; exact Hne].
    + intros r'. cbn. rewrite app_nil_r. unfold backlog_of. cbn [backlogs upd_bl].
      destruct (Z.eq_dec r' r) as [->|Hne]; [rewrite Ha, aget_adel_same; reflexivity|rewrite aget_adel_other by assumption; reflexivity].
  - destruct (ready_head r m q s Hrd) as (_ & Hr & HI1 & _ & Hb1). apply Forall_cons_iff in Hq. destruct Hq as [H1 _].
    pose proof (send_first m _ HI1) as (A & C & B). rewrite Hr in A, B, C.
    destruct (send_via_transport l (Tx m false) r _) as [s2 o2]. cbn [fst snd] in *.
    split; [exact A|]. split; [|exact C]. intros r'. destruct (B r') as (B1 & B2). rewrite B1, app_nil_r, <- B2, Hb1.
    destruct (r' =? r) eqn:E.
    + replace r' with r by lia. rewrite H1. unfold backlog_of. rewrite Ha. reflexivity.
    + rewrite (con_to_other r r' m H1) by lia. reflexivity. Qed.

Lemma remove_exchange_trans r mid mt s : Inv s ->
  Trans s (snd (remove_exchange l r mid mt s)) (fst (remove_exchange l r mid mt s)).
Proof. intros HI. destruct (xget r mid (active_exchanges s)) as [x|] eqn:Ex.
  2:{ unfold remove_exchange. rewrite Ex. apply trans_refl; exact HI. }
  destruct (remove_exchange_nf r mid mt s x HI Ex) as (_ & q & _ & Hrd & ->).
  destruct (reset_monitor_frame mt (x_msg x) (upd_ex s (xdel r mid (active_exchanges s)))) as (He & Hb & Hn).
  destruct (reset_monitor _ _ _) as [s2 o2]. cbn [fst snd] in *.
  pose proof (release_trans r q s2 (ready_ext r q _ s2 He Hb Hrd)) as T. destruct (release r s2) as [s3 o3].
  apply (trans_neutral_pre s o2 s2); [rewrite Hb; reflexivity|exact Hn|exact T]. Qed.

Lemma retransmit_trans x s : Inv s -> In x (active_exchanges s) -> Trans s (snd (retransmit l x s)) (fst (retransmit l x s)).
Proof. intros HI Hin. destruct (retransmit_nf x s HI Hin) as (q & _ & Hrd & ->). destruct (x_counter x <? m_maxre (x_msg x)).
  - destruct (rescheduled_spec x s HI Hin) as (HI1 & Hb & _). apply (trans_pre_ext (rescheduled x s)); [exact Hb|].
    apply send_neutral_trans; [exact HI1|reflexivity].
  - eapply trans_pre_ext; [|apply final_timeout_trans; exact Hrd]. reflexivity. Qed.

Lemma send_initially_trans m s : Inv s -> (m_mtype m = 0 -> aget (m_remote m) (backlogs s) = None) ->
  Sent m s (snd (send_initially l m s)) (fst (send_initially l m s)).
Proof. intros HI Hidle. unfold send_initially. destruct (m_mtype m =? 0) eqn:Ec; [|apply send_first; exact HI].
  specialize (Hidle ltac:(lia)).
  assert (HI1 : Inv (add_exchange m s)).
  { apply add_exchange_good; [apply inv_idle; assumption|unfold backlog_of; rewrite Hidle; constructor|intros r _; apply HI]. }
  destruct (send_first m _ HI1) as (A & C & B). split; [exact A|]. split; [exact C|].
  intros r. rewrite <- (add_exchange_backlog_of m s r). apply B. Qed.

Lemma send_message_trans who r mt code tok maxre s : Inv s ->
  Trans s (snd (send_message l who r mt code tok maxre s)) (fst (send_message l who r mt code tok maxre s)).
Proof. intros HI. set (m := new_msg who r mt code tok maxre s). set (s0 := snd (next_message_id s)).
  assert (HI0 : Inv s0) by (apply (inv_ext s); [reflexivity|reflexivity|exact HI]).
  destruct (send_message_nf who r mt code tok maxre s HI) as [(q & Hc & Ha & ->)|(Hidle & ->)]; fold m s0; cbn [fst snd].
  - (* queued behind the open exchange *)
    assert (Hm : con_to r m = true) by (unfold con_to, m; cbn [new_msg m_mtype m_remote]; lia).
    destruct (inv_cases s r HI) as [[_ Hn]|(x & q' & Hx & Ha' & Hq)]; [congruence|]. rewrite Ha in Ha'. inv Ha'.
    split; [|split; [|reflexivity]].
    + apply (inv_at s _ r); [intros r' Hne; split; [apply HI|split; [reflexivity|apply aget_aset_other; exact Hne]]|].
      apply (good_busy (upd_bl s0 (aset r (q' ++ [m]) (backlogs s))) r x (q' ++ [m]) Hx (aget_aset_same _ _ _)). apply Forall_app. split; [exact Hq|constructor; [exact Hm|constructor]].
    + intros r'. unfold subm, left, backlog_of. cbn [flat_map subm_o left_o backlogs upd_bl app]. rewrite app_nil_r.
      destruct (Z.eq_dec r' r) as [->|Hne].
      * rewrite Hm, Ha, aget_aset_same. reflexivity.
      * rewrite (con_to_other r r' m Hm Hne), aget_aset_other by assumption. rewrite app_nil_r. reflexivity.
  - (* straight to the transport *)
    destruct (send_initially_trans m s0) as (A & C & B); [exact HI0|cbn [m m_mtype m_remote new_msg backlogs s0]; intros; destruct Hidle; [lia|assumption]|].
    split; [exact A|]. split; [|exact C]. intros r'. destruct (B r') as (B1 & B2).
    unfold subm, left in *. cbn [flat_map subm_o left_o app]. rewrite B1, app_nil_r. rewrite <- B2.
    change (backlog_of r' s0) with (backlog_of r' s).
    destruct (con_to r' m) eqn:Em; [|rewrite app_nil_r; reflexivity].
    assert (r' = r /\ resolve_mtype mt = 0) as (-> & Hc) by (unfold con_to, m in Em; cbn in Em; lia).
    unfold backlog_of. destruct Hidle as [Hn|Hn]; [lia|rewrite Hn; reflexivity]. Qed.

(* dispatch_message after _remove_exchange: a response goes to the token manager, a CON gets its empty ACK / RST *)
Definition reply (r mt code mid tok : Z) (s : st) : st * list output :=
  if code =? 0 then if mt =? 0 then send_empty l r 3 mid s else (s, [])
  else if mt =? 3 then (s, [])
  else let '(s2, o2, ok) := tm_process_response r tok s in
       if mt =? 0 then let '(s3, o3) := send_empty l r (if ok then 2 else 3) mid s2 in (s3, o2 ++ o3) else (s2, o2).

Lemma dispatch_message_nf r mt code mid tok s : Inv s ->
  dispatch_message l r mt code mid tok s =
    (let '(s1, o1) := if (mt =? 2) || (mt =? 3) then remove_exchange l r mid mt s else (s, []) in
     let '(s2, o2) := reply r mt code mid tok s1 in (s2, o1 ++ o2)).
Proof. intros HI. unfold dispatch_message, reply.
  assert (Hn : crashed (snd (if (mt =? 2) || (mt =? 3) then remove_exchange l r mid mt s else (s, []))) = false).
  { destruct ((mt =? 2) || (mt =? 3)); [|reflexivity]. rewrite crashed_nocrash. destruct (remove_exchange_trans r mid mt s HI) as (_ & _ & ->). reflexivity. }
  destruct (if (mt =? 2) || (mt =? 3) then _ else _) as [s1 o1]. cbn [snd] in Hn. rewrite Hn.
  destruct (code =? 0); [destruct (mt =? 0); [destruct (send_empty l r 3 mid s1)|rewrite app_nil_r]; reflexivity|].
  destruct (mt =? 3); [rewrite app_nil_r; reflexivity|]. destruct (tm_process_response r tok s1) as [[s2 o2] ok].
  destruct ok; destruct (mt =? 0); try reflexivity; destruct (send_empty l r _ mid s2); reflexivity. Qed.

Lemma reply_trans r mt code mid tok s : Inv s -> Trans s (snd (reply r mt code mid tok s)) (fst (reply r mt code mid tok s)).
Proof. intros HI. unfold reply, send_empty.
  assert (SE : forall s2 mt', Inv s2 -> let res := send_via_transport l (TxEmpty r mt' mid) r s2 in Trans s2 (snd res) (fst res))
    by (intros; apply send_neutral_trans; [assumption|reflexivity]).
  destruct (code =? 0); [destruct (mt =? 0); [apply SE; exact HI|apply trans_refl; exact HI]|].
  destruct (mt =? 3); [apply trans_refl; exact HI|].
  pose proof (tm_process_response_frame r tok s) as (He & Hb & Hn).
  destruct (tm_process_response r tok s) as [[s2 o2] ok]. cbn [fst snd] in *.
  assert (T2 : Trans s o2 s2) by (apply (trans_neutral s [] s); [apply trans_refl; exact HI|assumption..]).
  destruct (mt =? 0); [|exact T2]. specialize (SE s2 (if ok then 2 else 3) (proj1 T2)).
  destruct (send_via_transport l _ r s2). apply (trans_trans s o2 s2); assumption. Qed.

Lemma dispatch_message_trans r mt code mid tok s : Inv s ->
  Trans s (snd (dispatch_message l r mt code mid tok s)) (fst (dispatch_message l r mt code mid tok s)).
Proof. intros HI. rewrite (dispatch_message_nf r mt code mid tok s HI).
  assert (T1 : let first := if (mt =? 2) || (mt =? 3) then remove_exchange l r mid mt s else (s, []) in Trans s (snd first) (fst first))
    by (destruct ((mt =? 2) || (mt =? 3)); [apply remove_exchange_trans; exact HI|apply trans_refl; exact HI]).
  destruct (if (mt =? 2) || (mt =? 3) then _ else _) as [s1 o1]. cbn [fst snd] in T1.
  pose proof (reply_trans r mt code mid tok s1 (proj1 T1)) as T2. destruct (reply r mt code mid tok s1) as [s2 o2].
  apply (trans_trans s o1 s1); assumption. Qed.

Theorem step_ev_trans s e : Inv s -> Trans s (snd (step_ev l s e)) (fst (step_ev l s e)).
Proof. intros HI. destruct e; cbn [step_ev Model.C14.step].
  - (* Request *) unfold tm_request, next_token. cbn -[send_message Z.pow Z.modulo].
    match goal with |- Trans _ (snd (send_message _ _ _ _ _ _ _ ?s1)) _ =>
      apply (trans_pre_ext s1); [reflexivity|]; apply send_message_trans; apply (inv_ext s); [reflexivity|reflexivity|exact HI] end.
  - (* RawSend *) apply send_message_trans; exact HI.
  - (* RecvEmpty *) apply dispatch_message_trans; exact HI.
  - (* RecvResp *) apply dispatch_message_trans; exact HI.
  - (* TransportError *) apply dispatch_error_trans; exact HI.
  - (* Fire *) unfold fire. destruct (min_timer (active_exchanges s)) as [x|] eqn:E; [|apply trans_refl; exact HI].
    set (s0 := upd_now s (Z.max (now s) (x_due x))).
    assert (T : Trans s0 (snd (retransmit l x s0)) (fst (retransmit l x s0))).
    { apply retransmit_trans; [apply (inv_ext s); [reflexivity|reflexivity|exact HI]|apply min_timer_in; exact E]. }
    destruct (retransmit l x s0) as [s1 o1]. cbn [fst snd] in *.
    apply (trans_neutral_pre s [Fired (m_remote (x_msg x)) (m_mid (x_msg x))] s0 o1 s1); [reflexivity|reflexivity|exact T].
  - (* Advance *) cbn [fst snd]. apply (trans_neutral s [] s [] _ (trans_refl s HI)); [| |reflexivity]; unfold advance; destruct (d <? 0); try reflexivity;
      destruct (min_timer (active_exchanges s)) as [x|]; try reflexivity; destruct (x_due x <=? now s + d); reflexivity.
  - (* Cancel *) destruct (outstanding q s); cbn [fst snd]; [|apply trans_refl; exact HI].
    apply (trans_neutral s [] s [Cancelled q] (forget_request q s)); [apply trans_refl; exact HI|reflexivity|reflexivity|reflexivity].
  - (* Serve *) unfold tm_process_request. cbn [fst snd].
    apply (trans_neutral s [] s); [apply trans_refl; exact HI|reflexivity|reflexivity|apply neutral_map; reflexivity].
  - (* Respond *) unfold respond. destruct (find _ (incoming_requests s)) as [v|]; [|apply trans_refl; exact HI].
    pose proof (send_message_trans (Resp j k) (v_remote v) (if v_mtype v =? 1 then 7 else 8) 69 (v_tok v) maxre s HI) as T.
    destruct (send_message l _ _ _ _ _ _ s) as [s1 o1]. cbn [fst snd] in T.
    destruct last; [|exact T]. destruct (alive k s1); cbn [fst snd]; [|exact T].
    destruct (stop_responder_frame k s1) as (A & B & _ & N). destruct (stop_responder k s1) as [s2 o2]. cbn [fst snd] in *.
    apply (trans_neutral s o1 s1); assumption. Qed.
End General.

Lemma continue_backlog_loop_nil fuel : forall r s, continue_backlog_loop [] fuel r s = Model.C14.continue_backlog_loop fuel r s.
Proof. induction fuel as [|fuel IH]; intros r s; [reflexivity|]. cbn [continue_backlog_loop Model.C14.continue_backlog_loop].
  destruct (has_exchange r s); [reflexivity|]. destruct (aget r (backlogs s)) as [[|m q]|]; try reflexivity.
  change (send_initially [] m) with (Model.C14.send_initially m). destruct (Model.C14.send_initially m _) as [s1 o1]. rewrite IH. reflexivity. Qed.

Lemma remove_exchange_nil r mid mt s : remove_exchange [] r mid mt s = Model.C14.remove_exchange r mid mt s.
Proof. unfold remove_exchange, Model.C14.remove_exchange, continue_backlog, Model.C14.continue_backlog. destruct (xget r mid (active_exchanges s)); [|reflexivity].
  destruct (if mt =? 3 then _ else _) as [s2 o2]. destruct (aget r (backlogs s2)); [rewrite continue_backlog_loop_nil|]; reflexivity. Qed.

Lemma dispatch_message_nil r mt code mid tok s : Inv s ->
  dispatch_message [] r mt code mid tok s = Model.C14.dispatch_message r mt code mid tok s.
Proof. intros HI. unfold dispatch_message, Model.C14.dispatch_message.
  assert (Hn : crashed (snd (if (mt =? 2) || (mt =? 3) then remove_exchange [] r mid mt s else (s, []))) = false).
  { destruct ((mt =? 2) || (mt =? 3)); [|reflexivity]. rewrite crashed_nocrash.
    destruct (remove_exchange_trans [] r mid mt s HI) as (_ & _ & ->). reflexivity. }
  rewrite remove_exchange_nil in *.
  destruct (if (mt =? 2) || (mt =? 3) then Model.C14.remove_exchange r mid mt s else (s, [])) as [s1 o1]. cbn [snd] in Hn. rewrite Hn.
  reflexivity. Qed.

Theorem step_without_refusal s e : Inv s -> step_ev [] s e = step s e.
Proof. intros HI. destruct e; cbn [step_ev step]; try reflexivity.
  - (* RecvEmpty *) apply dispatch_message_nil; exact HI.
  - (* RecvResp *) apply dispatch_message_nil; exact HI. Qed.

Theorem step_trans s e : Inv s -> Trans s (snd (step s e)) (fst (step s e)).
Proof. intros HI. rewrite <- (step_without_refusal s e HI). apply step_ev_trans; exact HI. Qed.

Lemma inv_init a b c : Inv (init a b c).
Proof. intros r. apply good_idle; reflexivity. Qed.

Lemma run_trans es : forall s, Inv s -> Trans s (concat (snd (run s es))) (fst (run s es)).
Proof. induction es as [|e es IH]; intros s HI; cbn [run].
  - apply trans_refl; exact HI.
  - pose proof (step_trans s e HI) as T. destruct (step s e) as [s1 o1]. cbn [fst snd] in T.
    specialize (IH s1 (proj1 T)). destruct (run s1 es) as [s2 os]. cbn [fst snd concat] in *. apply (trans_trans s o1 s1); assumption. Qed.

Lemma rrun_trans es : forall s l, Inv s -> Trans s (concat (snd (rrun (s, l) es))) (fst (fst (rrun (s, l) es))).
Proof. induction es as [|e es IH]; intros s l HI; cbn [rrun]; [apply trans_refl; exact HI|].
  destruct e as [e|r' on]; cbn [rstep].
  - pose proof (step_ev_trans l s e HI) as T. destruct (step_ev l s e) as [s1 o1]. cbn [fst snd] in T.
    specialize (IH s1 l (proj1 T)). destruct (rrun (s1, l) es) as [sl2 os]. cbn [fst snd concat] in *. apply (trans_trans s o1 s1); assumption.
  - destruct on; [specialize (IH s (if refuses l r' then l else l ++ [r']) HI)|specialize (IH s (filter (fun x => negb (x =? r')) l) HI)];
      destruct (rrun _ es) as [sl2 os]; cbn [fst snd concat app] in *; exact IH. Qed.

Theorem reachable_inv a b c es : Inv (fst (run (init a b c) es)).
Proof. apply run_trans, inv_init. Qed.

Theorem reachable_fifo a b c es r :
  subm r (concat (snd (run (init a b c) es))) = left r (concat (snd (run (init a b c) es))) ++ backlog_of r (fst (run (init a b c) es)).
Proof. destruct (run_trans es _ (inv_init a b c)) as (_ & B & _). exact (B r). Qed.

Theorem reachable_nocrash a b c es e : ~ In (Crash e) (concat (snd (run (init a b c) es))).
Proof. apply nocrash_in. apply (run_trans es _ (inv_init a b c)). Qed.

(* the invariant in the form Props/C14.v states it *)
Lemma inv_plain s r : Inv s -> (count_r r s <= 1)%nat /\ (in_backlogs r s = true <-> count_r r s = 1%nat) /\
  Forall (fun m => m_mtype m = 0 /\ m_remote m = r) (backlog_of r s).
Proof. intros HI. destruct (HI r) as (A & B & C). split; [exact A|]. split.
  - unfold in_backlogs. destruct (aget r (backlogs s)); [|split; [discriminate|intros H; apply B in H; congruence]].
    split; [intros _; apply B; discriminate|reflexivity].
  - eapply Forall_impl; [|exact C]. intros m H. unfold con_to in H. lia. Qed.

Theorem one_exchange_per_remote a b c es r :
  let s := fst (run (init a b c) es) in
  (count_r r s <= 1)%nat /\ (in_backlogs r s = true <-> count_r r s = 1%nat) /\
  Forall (fun m => m_mtype m = 0 /\ m_remote m = r) (backlog_of r s).
Proof. apply inv_plain, reachable_inv. Qed.
