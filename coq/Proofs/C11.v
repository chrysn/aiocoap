(* C11 — OSCORE protect / unprotect: lemmas and proofs behind Props/C11.v (byte-level tools in Proofs/C11Bytes.v, consequences of
   acceptance and error classes in Proofs/C11Accept.v).
   In order: the symbolic AEAD is ideal; _compress / _uncompress; nonce; the inner message codec; what protect produces and what its
   outer message shows; what unprotect_verify accepts (one characterisation, unprotect_verify_ok); round trips.
   The replay window is C12's: statements use Proofs.C12.Inv (window well-formed) and Model.C12.seen (numbers seen so far), proofs its
   is_valid_spec / strike_out_spec / is_valid_eq. *)
From Verif Require Import Lib.Py Lib.Tactics Lib.PyLemmas Gen.options_ext Gen.oscore_replay Gen.oscore_consts Model.C11 Proofs.C11Bytes.
From Verif Require Proofs.C12.
Open Scope Z_scope.

(* the exception monad: inversion of a successful bind, guard and option match; rules for "raises nothing but e, and a result satisfies Q" *)
Lemma bind_ok_intro {A B} (m : M A) (f : A -> M B) a b : m = Ok a -> f a = Ok b -> bind m f = Ok b.
Proof. intros -> H. exact H. Qed.
Lemma if_raise_inv {A} (b : bool) e (k : M A) v : (if b then Raise e else k) = Ok v -> b = false /\ k = Ok v.
Proof. destruct b; [discriminate|auto]. Qed.
Lemma some_or_raise_inv {A B} (o : option A) e (k : A -> M B) v :
  match o with Some x => k x | None => Raise e end = Ok v -> exists x, o = Some x /\ k x = Ok v.
Proof. destruct o; [eauto|discriminate]. Qed.
Lemma bind_spec {A B} (m : M A) (f : A -> M B) (P : A -> Prop) (Q : B -> Prop) e :
  m = Raise e \/ (exists a, m = Ok a /\ P a) ->
  (forall a, P a -> f a = Raise e \/ exists b, f a = Ok b /\ Q b) ->
  bind m f = Raise e \/ exists b, bind m f = Ok b /\ Q b.
Proof. intros [->|(a & -> & Ha)] Hf; [left; reflexivity|exact (Hf a Ha)]. Qed.
Lemma ok_spec {A} (a : A) (Q : A -> Prop) e : Q a -> Ok a = Raise e \/ exists b, Ok a = Ok b /\ Q b.
Proof. eauto. Qed.

Definition is_some {A} (o : option A) : bool := match o with Some _ => true | None => false end.
Definition or_nil {A} (o : option (list A)) : list A := match o with Some x => x | None => [] end.
Lemma beqb_refl b : beqb b b = true. Proof. apply list_eqb_Z_eq. reflexivity. Qed.
Lemma opt_beqb_eq a b : opt_beqb a b = true <-> a = b.
Proof.
  destruct a, b; cbn; try (split; congruence). rewrite list_eqb_Z_eq. split; congruence.
Qed.

(* Only honest encryptions decrypt (and to their plaintext), and a ciphertext determines key, nonce, AAD and plaintext. *)
Definition ideal (E : aead) : Prop :=
  (forall k n a p, dec E k n a (enc E k n a p) = Some p) /\
  (forall k n a c p, dec E k n a c = Some p -> c = enc E k n a p) /\
  (forall k n a p k' n' a' p', enc E k n a p = enc E k' n' a' p' -> k = k' /\ n = n' /\ a = a' /\ p = p').

Theorem sym_ideal : ideal sym_aead.
Proof.
  split; [|split]; cbn [sym_aead enc dec].
  - intros. unfold sym_dec. rewrite sym_parse_enc, !beqb_refl. reflexivity.
  - intros k n a c p. unfold sym_dec.
    destruct (sym_parse c) as [[[[[k' n'] a'] p'] t]|] eqn:E; [|discriminate].
    destruct (beqb k k' && beqb n n' && beqb a a' && beqb p' t) eqn:B; [|discriminate].
    intros [= ->]. apply sym_parse_sound in E.
    apply andb_prop in B as [B B4]. apply andb_prop in B as [B B3]. apply andb_prop in B as [B1 B2].
    apply list_eqb_Z_eq in B1, B2, B3, B4. subst. reflexivity.
  - intros k n a p k' n' a' p' H. apply (f_equal sym_parse) in H. rewrite !sym_parse_enc in H.
    injection H as -> -> -> ->. auto.
Qed.

(* _uncompress raises nothing but DecodeError, and a Partial IV that comes out has 1..PIVSZ_MAX bytes, taken from the option value *)
Lemma uncompress_spec od :
  uncompress od = Raise DecodeError \/
  exists u, uncompress od = Ok u /\
    match u_piv u with Some p => 1 <= blen p <= PIVSZ_MAX /\ (bytes_ok od = true -> bytes_ok p = true) | None => True end.
Proof.
  unfold uncompress.
  assert (Ht : bytes_ok od = true -> bytes_ok (snd (match od with [] => (0, []) | b :: t => (b, t) end)) = true)
    by (destruct od; [reflexivity|rewrite bytes_ok_cons; intros [_ H]%andb_prop; exact H]).
  destruct (match od with [] => (0, []) | b :: t => (b, t) end) as [firstbyte tail]. cbn [snd] in Ht.
  destruct (negb (Z.land firstbyte COMPRESSION_BITS_RESERVED =? 0)); [left; reflexivity|].
  destruct (Z.land firstbyte COMPRESSION_BITS_N >? PIVSZ_MAX) eqn:Emax; [left; reflexivity|].
  apply bind_spec with
    (P := fun x => match fst x with Some p => 1 <= blen p <= PIVSZ_MAX /\ (bytes_ok od = true -> bytes_ok p = true) | None => True end).
  - destruct (negb (Z.land firstbyte COMPRESSION_BITS_N =? 0)) eqn:Ez; [|apply ok_spec, I].
    destruct (blen tail <? Z.land firstbyte COMPRESSION_BITS_N) eqn:El; [left; reflexivity|].
    apply ok_spec. cbn [fst].
    assert (0 <= Z.land firstbyte COMPRESSION_BITS_N) by (apply Z.land_nonneg; right; discriminate).
    rewrite blen_bto by lia. split; [lia|]. intros Hb. apply bytes_ok_firstn, Ht, Hb.
  - intros [piv tail1] Hp. cbn [fst] in Hp. apply bind_spec with (P := fun _ => True).
    + destruct (negb (Z.land firstbyte COMPRESSION_BIT_H =? 0)); [|apply ok_spec, I].
      destruct tail1 as [|s t]; [left; reflexivity|].
      destruct (blen (s :: t) - 1 <? s); [left; reflexivity|apply ok_spec, I].
    + intros [kc tail2] _. apply ok_spec, Hp.
Qed.
Theorem uncompress_total od : (exists u, uncompress od = Ok u) \/ uncompress od = Raise DecodeError.
Proof. destruct (uncompress_spec od) as [H|(u & H & _)]; eauto. Qed.
Lemma uncompress_piv od u : uncompress od = Ok u ->
  match u_piv u with Some p => 1 <= blen p <= PIVSZ_MAX /\ (bytes_ok od = true -> bytes_ok p = true) | None => True end.
Proof.
  intros H. destruct (uncompress_spec od) as [H'|(u' & H' & Hp)]; rewrite H in H'; [discriminate|]. injection H' as <-. exact Hp.
Qed.

(* the header bags protect can produce: Partial IV of 1..5 bytes, kid context up to 255 bytes *)
Definition unprot_ok (u : unprot) : Prop :=
  match u_piv u with Some p => 1 <= blen p <= PIVSZ_MAX | None => True end /\
  match u_kid_context u with Some kc => blen kc <= KID_CONTEXT_MAX | None => True end.

(* the flag byte _compress builds: the length n <= 5 in bits 0-2, then one bit each (8, 16, 32) for kid, kid context, group; the masks are
   disjoint, so each field reads back — checked by evaluation over the 6 x 8 cases *)
Definition flags (n : Z) (k h g : bool) : Z :=
  let f1 := if k then Z.lor n COMPRESSION_BIT_K else n in
  let f2 := if h then Z.lor f1 COMPRESSION_BIT_H else f1 in
  if g then Z.lor f2 COMPRESSION_BIT_GROUP else f2.
Lemma flags_decode n (k h g : bool) : 0 <= n <= 5 ->
  Z.land (flags n k h g) COMPRESSION_BITS_RESERVED = 0 /\ Z.land (flags n k h g) COMPRESSION_BITS_N = n /\
  (Z.land (flags n k h g) COMPRESSION_BIT_H =? 0) = negb h /\ (Z.land (flags n k h g) COMPRESSION_BIT_K =? 0) = negb k /\
  (Z.land (flags n k h g) COMPRESSION_BIT_GROUP =? 0) = negb g /\
  (flags n k h g =? 0) = (n =? 0) && negb k && negb h && negb g.
Proof.
  intros Hn. assert (H : n = 0 \/ n = 1 \/ n = 2 \/ n = 3 \/ n = 4 \/ n = 5) by lia.
  destruct H as [->|[->|[->|[->|[->| ->]]]]]; destruct k, h, g; cbv; repeat split; reflexivity.
Qed.
Lemma compress_eq u : compress u =
  if blen (or_nil (u_piv u)) >? COMPRESSION_BITS_N then Raise ValueError else
  if match u_kid_context u with Some kc => blen kc >? KID_CONTEXT_MAX | None => false end then Raise ValueError else
  let f := flags (blen (or_nil (u_piv u))) (is_some (u_kid u)) (is_some (u_kid_context u)) (u_group u) in
  Ok (if f =? 0 then []
      else f :: or_nil (u_piv u) ++ match u_kid_context u with Some kc => blen kc :: kc | None => [] end ++ or_nil (u_kid u)).
Proof.
  unfold compress, flags. fold (or_nil (u_piv u)). destruct (blen (or_nil (u_piv u)) >? COMPRESSION_BITS_N); [reflexivity|].
  destruct (u_kid u), (u_kid_context u) as [kc|]; try destruct (blen kc >? KID_CONTEXT_MAX); reflexivity.
Qed.

(* _uncompress inverts _compress whenever the Partial IV, if present, has 1..PIVSZ_MAX bytes (an empty one would be read back as absent, one
   of 6 or 7 bytes is refused); a kid context that _compress accepts is short enough *)
Theorem compress_uncompress u od :
  match u_piv u with Some p => 1 <= blen p <= PIVSZ_MAX | None => True end -> compress u = Ok od -> uncompress od = Ok u.
Proof.
  intros Hp. rewrite compress_eq. destruct u as [upiv ukid ukc ug]. cbn [u_piv u_kid u_kid_context u_group] in *.
  set (piv := or_nil upiv). set (kid := or_nil ukid). set (skc := match ukc with Some kc => blen kc :: kc | None => [] end).
  assert (Hpl : 0 <= blen piv <= 5) by (subst piv; destruct upiv; unfold PIVSZ_MAX in *; cbn; lia).
  replace (blen piv >? COMPRESSION_BITS_N) with false by (unfold COMPRESSION_BITS_N; lia).
  destruct (match ukc with Some kc => blen kc >? KID_CONTEXT_MAX | None => false end) eqn:Hkc; [discriminate|].
  destruct (flags_decode (blen piv) (is_some ukid) (is_some ukc) ug Hpl) as (F1 & F2 & F3 & F4 & F5 & F6).
  cbv zeta. intros [= <-]. destruct (flags (blen piv) _ _ ug =? 0).
  - (* no field present: the empty option *)
    symmetry in F6. apply andb_prop in F6 as [F6 Eg]. apply andb_prop in F6 as [F6 Eh]. apply andb_prop in F6 as [En Ek].
    destruct ukid; [discriminate|]. destruct ukc; [discriminate|]. destruct ug; [discriminate|].
    destruct upiv as [p|]; [subst piv; cbn [or_nil] in En; unfold PIVSZ_MAX in *; lia|]. reflexivity.
  - unfold uncompress. rewrite F1, F2, F3, F4, F5. cbn [Z.eqb negb].
    replace (blen piv >? PIVSZ_MAX) with false by (unfold PIVSZ_MAX; lia). rewrite !negb_involutive.
    apply bind_ok_intro with (a := (upiv, skc ++ kid)).
    { subst piv. destruct upiv as [p|]; [|reflexivity]. cbn [or_nil].
      replace (negb (blen p =? 0)) with true by lia.
      replace (blen (p ++ skc ++ kid) <? blen p) with false by (rewrite blen_app; pose proof (blen_nonneg (skc ++ kid)); lia).
      rewrite bto_app, bfrom_app. reflexivity. }
    apply bind_ok_intro with (a := (ukc, kid)).
    { subst skc. destruct ukc as [kc|]; [|reflexivity]. cbn [is_some app].
      replace (blen (blen kc :: kc ++ kid) - 1 <? blen kc) with false
        by (rewrite blen_cons, blen_app; pose proof (blen_nonneg kid); lia).
      rewrite bto_app, bfrom_app. reflexivity. }
    subst kid. destruct ukid; reflexivity.
Qed.

(* the Partial IV protect puts into the option when it draws sequence number [s] *)
Definition piv_of_seq (s : Z) : list Z := shorten_piv (to_bytes_big_n (Z.to_nat PIV_FULL_BYTES) s).

Lemma blen_zeros n : blen (zeros n) = Z.max 0 n.
Proof. unfold zeros, blen. rewrite repeat_length. lia. Qed.
Lemma app_inv_len {A} (a a' b b' : list A) : a ++ b = a' ++ b' -> blen a = blen a' -> a = a' /\ b = b'.
Proof.
  unfold blen. intros H L%Nat2Z.inj. revert a' H L.
  induction a as [|x a IH]; intros [|y a'] H L; cbn in *; try discriminate; auto.
  injection H as -> H. apply IH in H as [-> ->]; auto.
Qed.
Lemma map2_lxor_inj a x y : blen x = blen a -> blen y = blen a -> map2 Z.lxor a x = map2 Z.lxor a y -> x = y.
Proof.
  unfold blen. intros Lx%Nat2Z.inj Ly%Nat2Z.inj. revert x y Lx Ly.
  induction a as [|h a IH]; intros [|p x] [|q y] Lx Ly H; cbn in *; try discriminate; auto.
  injection H as H1 H2. f_equal; [|auto].
  apply (f_equal (Z.lxor h)) in H1. rewrite <- !Z.lxor_assoc, Z.lxor_nilpotent, !Z.lxor_0_l in H1. exact H1.
Qed.

Lemma blen_components piv id iv : blen id <= iv - NONCE_ID_OVERHEAD -> blen piv <= NONCE_PIV_BYTES ->
  blen (nonce_components piv id iv) = iv.
Proof.
  intros H1 H2. unfold nonce_components. rewrite !blen_app, !blen_zeros. change (blen [blen id]) with 1.
  unfold NONCE_ID_OVERHEAD, NONCE_PIV_BYTES in *. pose proof (blen_nonneg id). pose proof (blen_nonneg piv). lia.
Qed.
Lemma construct_nonce_ok civ piv id iv :
  blen id <= iv - NONCE_ID_OVERHEAD -> blen piv <= NONCE_PIV_BYTES -> iv <= blen civ -> iv <= 255 + NONCE_ID_OVERHEAD ->
  construct_nonce civ piv id iv = Ok (map2 Z.lxor (bto civ iv) (nonce_components piv id iv)).
Proof.
  intros H1 H2 H3 H4. unfold construct_nonce, xor_bytes. rewrite blen_components by assumption.
  pose proof (blen_nonneg id). unfold NONCE_ID_OVERHEAD in *.
  replace (blen id >? 255) with false by lia. rewrite blen_bto, Z.eqb_refl by lia. reflexivity.
Qed.
Theorem nonce_injective civ piv id piv' id' iv n :
  blen id <= iv - NONCE_ID_OVERHEAD -> blen id' <= iv - NONCE_ID_OVERHEAD -> blen piv <= NONCE_PIV_BYTES -> blen piv' <= NONCE_PIV_BYTES ->
  construct_nonce civ piv id iv = Ok n -> construct_nonce civ piv' id' iv = Ok n ->
  id = id' /\ zeros (NONCE_PIV_BYTES - blen piv) ++ piv = zeros (NONCE_PIV_BYTES - blen piv') ++ piv'.
Proof.
  intros Hi Hi' Hp Hp' H H'.
  pose proof (blen_components piv id iv Hi Hp) as L. pose proof (blen_components piv' id' iv Hi' Hp') as L'.
  unfold construct_nonce, xor_bytes in H, H'. rewrite L in H. rewrite L' in H'.
  destruct (blen id >? 255); [discriminate|]. destruct (blen id' >? 255); [discriminate|].
  destruct (blen (bto civ iv) =? iv) eqn:Lc; [|discriminate]. apply Z.eqb_eq in Lc.
  rewrite <- H' in H. injection H as H.
  (* XOR with the common IV is injective on strings of its length; the first component gives |id|, hence the paddings agree *)
  apply map2_lxor_inj in H; [|congruence..]. clear H' L L' Lc.
  unfold nonce_components in H. cbn [app] in H. injection H as Hl H. rewrite Hl in H. apply app_inv_head in H.
  apply app_inv_len in H as [-> H]; auto.
Qed.

(* the shortened Partial IV, padded back to 5 bytes, is the full one: both give the same nonce *)
Lemma lstrip0_pad p : zeros (blen p - blen (lstrip0 p)) ++ lstrip0 p = p.
Proof.
  induction p as [|x p IH]; [reflexivity|]. cbn [lstrip0].
  destruct x; try (rewrite Z.sub_diag; reflexivity).
  assert (Hle : blen (lstrip0 p) <= blen p) by (rewrite <- IH at 2; rewrite blen_app, blen_zeros; lia).
  rewrite blen_cons. unfold zeros in *.
  replace (Z.to_nat (1 + blen p - blen (lstrip0 p))) with (S (Z.to_nat (blen p - blen (lstrip0 p)))) by lia.
  cbn [repeat app]. rewrite IH. reflexivity.
Qed.
Lemma shorten_piv_pad p : blen p = NONCE_PIV_BYTES -> zeros (NONCE_PIV_BYTES - blen (shorten_piv p)) ++ shorten_piv p = p.
Proof.
  intros Hl. pose proof (lstrip0_pad p) as P. unfold shorten_piv. destruct (lstrip0 p); [|rewrite <- Hl; exact P].
  rewrite <- P, Hl. reflexivity.
Qed.
Lemma lstrip0_ok p : bytes_ok p = true -> bytes_ok (lstrip0 p) = true.
Proof.
  induction p as [|x p IH]; [reflexivity|]. intros H. cbn [lstrip0]. destruct x; try exact H.
  rewrite bytes_ok_cons in H. apply andb_prop in H. apply IH, H.
Qed.

Lemma piv_of_seq_pad s :
  zeros (NONCE_PIV_BYTES - blen (piv_of_seq s)) ++ piv_of_seq s = to_bytes_big_n (Z.to_nat PIV_FULL_BYTES) s.
Proof. apply shorten_piv_pad, blen_tbn. Qed.
Lemma piv_of_seq_len s : 1 <= blen (piv_of_seq s) <= NONCE_PIV_BYTES.
Proof.
  pose proof (f_equal blen (piv_of_seq_pad s)) as P. rewrite blen_app, blen_zeros, blen_tbn in P.
  unfold piv_of_seq, shorten_piv, PIV_FULL_BYTES, NONCE_PIV_BYTES in *.
  destruct (lstrip0 _) as [|x l]; [cbn; lia|]. rewrite blen_cons in *. pose proof (blen_nonneg l). lia.
Qed.
Lemma piv_of_seq_ok s : bytes_ok (piv_of_seq s) = true.
Proof.
  unfold piv_of_seq, shorten_piv. pose proof (lstrip0_ok _ (to_bytes_big_n_ok (Z.to_nat PIV_FULL_BYTES) s)).
  destruct (lstrip0 _); [reflexivity|assumption].
Qed.
Lemma construct_nonce_piv_of_seq civ s id iv :
  construct_nonce civ (piv_of_seq s) id iv = construct_nonce civ (to_bytes_big_n (Z.to_nat PIV_FULL_BYTES) s) id iv.
Proof. unfold construct_nonce, nonce_components. rewrite piv_of_seq_pad, blen_tbn. reflexivity. Qed.

Lemma ext_roundtrip v d ext rest : write_extended_field_value v = Ok (d, ext) ->
  read_extended_field_value d (ext ++ rest) = Ok (v, rest) /\ 0 <= d <= 14.
Proof.
  unfold write_extended_field_value, to_bytes_big. pose proof (blen_nonneg rest).
  destruct ((v >=? 0) && (v <? 13)) eqn:E1.
  { intros [= <- <-]. unfold read_extended_field_value. rewrite E1. split; [reflexivity|lia]. }
  destruct ((v >=? 13) && (v <? 269)) eqn:E2.
  { replace ((v - 13 <? 0) || (2 ^ (8 * 1) <=? v - 13)) with false by (change (2 ^ (8 * 1)) with 256; lia).
    intros [= <- <-]. split; [|lia]. cbn [read_extended_field_value andb Z.geb Z.ltb Z.eqb Z.compare Pos.compare Pos.compare_cont Pos.eqb app].
    rewrite blen_cons, bget_cons0. replace (1 + blen rest <? 1) with false by lia.
    cbn [bind]. rewrite Z.mod_small by lia. do 2 f_equal. lia. }
  destruct ((v >=? 269) && (v <? 65805)) eqn:E3; [|discriminate].
  replace ((v - 269 <? 0) || (2 ^ (8 * 2) <=? v - 269)) with false by (change (2 ^ (8 * 2)) with 65536; lia).
  intros [= <- <-]. split; [|lia]. cbn [read_extended_field_value andb Z.geb Z.ltb Z.eqb Z.compare Pos.compare Pos.compare_cont Pos.eqb].
  rewrite blen_app. change (blen [_; _]) with 2. replace (2 + blen rest <? 2) with false by lia.
  rewrite bto_app_n, bfrom_app_n by reflexivity. unfold from_bytes_big. cbn [from_bytes_big_acc]. do 2 f_equal. lia.
Qed.

(* delta and length nibbles of an option byte: both below 15, so the byte is not the payload marker and splits back *)
Lemma nibbles d l : 0 <= d <= 14 -> 0 <= l <= 14 ->
  let b := Z.shiftl (Z.land d 15) 4 + Z.land l 15 in
  (b =? 255) = false /\ Z.shiftr (Z.land b 240) 4 = d /\ Z.land b 15 = l.
Proof.
  intros Hd Hl. change 15 with (Z.ones 4). rewrite !Z.land_ones, Z.shiftl_mul_pow2, !Z.mod_small by lia.
  cbv zeta. rewrite Z.shiftr_land, Z.shiftr_div_pow2, Z.land_ones by lia. change (Z.shiftr 240 4) with (Z.ones 4).
  rewrite Z.land_ones by lia. change (2 ^ 4) with 16. repeat split; lia.
Qed.

Lemma decode_options_cons f num b rest : decode_options (S f) num (b :: rest) =
  if b =? 255 then Ok ([], rest) else
  '(delta, rawdata1) <- read_extended_field_value (Z.shiftr (Z.land b 240) 4) rest ;;
  '(length, rawdata2) <- read_extended_field_value (Z.land b 15) rawdata1 ;;
  if blen rawdata2 <? length then Raise UnparsableMessage else
  r <- decode_options f (num + delta) (bfrom rawdata2 length) ;;
  Ok ((num + delta, bto rawdata2 length) :: fst r, snd r).
Proof. reflexivity. Qed.
Lemma encode_options_inv prev num v rest e : encode_options prev ((num, v) :: rest) = Ok e ->
  exists d dext l lext r, write_extended_field_value (num - prev) = Ok (d, dext) /\ write_extended_field_value (blen v) = Ok (l, lext) /\
    encode_options num rest = Ok r /\ e = (Z.shiftl (Z.land d 15) 4 + Z.land l 15) :: dext ++ lext ++ v ++ r.
Proof.
  cbn [encode_options]. intros He.
  apply bind_ok in He as [[d dext] [Hd He]]. apply bind_ok in He as [[l lext] [Hl He]].
  apply bind_ok in He as [r [Hr [= <-]]]. eauto 10.
Qed.

Definition payload_tail (pl : list Z) : list Z := match pl with [] => [] | _ => 255 :: pl end.
Theorem options_roundtrip os : forall prev e pl fuel,
  encode_options prev os = Ok e -> (length os <= fuel)%nat ->
  decode_options fuel prev (e ++ payload_tail pl) = Ok (os, pl).
Proof.
  induction os as [|[num v] rest IH]; intros prev e pl fuel He Hf.
  - injection He as <-. destruct pl, fuel; reflexivity.
  - apply encode_options_inv in He as (d & dext & l & lext & r & Hd & Hl & Hr & ->).
    destruct fuel as [|f]; [cbn in Hf; lia|].
    destruct (ext_roundtrip _ _ _ (lext ++ v ++ r ++ payload_tail pl) Hd) as [Rd Bd].
    destruct (ext_roundtrip _ _ _ (v ++ r ++ payload_tail pl) Hl) as [Rl Bl].
    destruct (nibbles d l Bd Bl) as (N1 & N2 & N3).
    cbn [app]. rewrite decode_options_cons, N1, N2, N3, <- !app_assoc, Rd. cbn [bind]. rewrite Rl. cbn [bind].
    replace (blen (v ++ r ++ payload_tail pl) <? blen v) with false by (rewrite blen_app; pose proof (blen_nonneg (r ++ payload_tail pl)); lia).
    rewrite bto_app, bfrom_app, Zplus_minus, (IH num r pl f Hr) by (cbn [length] in Hf; lia). reflexivity.
Qed.
Lemma encode_options_length os : forall prev e, encode_options prev os = Ok e -> (length os <= length e)%nat.
Proof.
  induction os as [|[num v] rest IH]; intros prev e He; [cbn; lia|].
  apply encode_options_inv in He as (d & dext & l & lext & r & _ & _ & Hr & ->).
  apply IH in Hr. cbn [length]. rewrite !app_length. lia.
Qed.

Theorem plaintext_roundtrip c os pl pt pm seqno : plaintext_of c os pl = Ok pt ->
  exists um, unprotect_finish pm pt seqno = Ok um /\ u_code um = c /\ u_opts um = del_opt OPT_OBSERVE os /\ u_payload um = pl /\
    u_observe um =
      (let outer_observe := observe_value (opts pm) in
       if is_request c then match outer_observe with Some 0 => observe_value os | _ => None end
       else match outer_observe with Some _ => Some (match seqno with None => -1 | Some n => n end) | None => observe_value os end).
Proof.
  unfold plaintext_of. intros [_ H]%if_raise_inv. apply bind_ok in H as [e [He [= <-]]].
  fold (payload_tail pl). unfold unprotect_finish. rewrite bget_cons0. cbn [bind].
  change (bfrom (c :: e ++ payload_tail pl) 1) with (e ++ payload_tail pl).
  rewrite (options_roundtrip os 0 e pl _ He) by (apply encode_options_length in He; cbn [length]; rewrite app_length; lia).
  cbn [bind]. eexists. repeat split.
Qed.

(* parsing a plaintext fails with UnparsableMessage only: each extended field leaves a string no longer than it found, so the fuel
   unprotect_finish hands over is enough *)
Lemma read_ext_spec v raw : read_extended_field_value v raw = Raise UnparsableMessage \/
  exists r, read_extended_field_value v raw = Ok r /\ (length (snd r) <= length raw)%nat.
Proof.
  unfold read_extended_field_value, bget, bfrom.
  destruct (_ && _); [apply ok_spec; reflexivity|]. destruct (v =? 13).
  - destruct (blen raw <? 1) eqn:E; [left; reflexivity|]. replace ((0 <? 0) || (blen raw <=? 0)) with false by lia.
    apply ok_spec. cbn [snd]. rewrite skipn_length. lia.
  - destruct (v =? 14); [|left; reflexivity]. destruct (blen raw <? 2); [left; reflexivity|].
    apply ok_spec. cbn [snd]. rewrite skipn_length. lia.
Qed.
Lemma decode_options_spec fuel : forall num raw, (length raw <= fuel)%nat ->
  decode_options fuel num raw = Raise UnparsableMessage \/ exists r, decode_options fuel num raw = Ok r /\ True.
Proof.
  induction fuel as [|f IH]; intros num [|b rest] Hl; try (apply ok_spec, I); [cbn in Hl; lia|].
  rewrite decode_options_cons. destruct (b =? 255); [apply ok_spec, I|].
  apply bind_spec with (P := fun r => (length (snd r) <= length rest)%nat); [apply read_ext_spec|]. intros [d raw1] H1.
  apply bind_spec with (P := fun r => (length (snd r) <= length raw1)%nat); [apply read_ext_spec|]. intros [l raw2] H2.
  destruct (blen raw2 <? l); [left; reflexivity|].
  apply bind_spec with (P := fun _ => True); [|intros r _; apply ok_spec, I].
  apply IH. unfold bfrom. rewrite skipn_length. cbn [length snd] in *. lia.
Qed.
Theorem unprotect_finish_error_class pm pt seqno e : unprotect_finish pm pt seqno = Raise e -> e = IndexError \/ e = UnparsableMessage.
Proof.
  unfold unprotect_finish, bget. destruct (_ || _); cbn [bind]; [intros [= <-]; auto|].
  destruct (decode_options_spec (length pt) 0 (bfrom pt 1)) as [-> |([os pl] & -> & _)]; cbn [bind]; [|intros [= <-]; auto|discriminate].
  unfold bfrom. rewrite skipn_length. lia.
Qed.

(* what protect looks at outside the plaintext *)
Definition view_eq (m1 m2 : msg) : Prop :=
  is_request (code m1) = is_request (code m2) /\ is_response (code m1) = is_response (code m2) /\
  get_opt OPT_URI_HOST (opts m1) = get_opt OPT_URI_HOST (opts m2) /\
  get_opt OPT_OBSERVE (opts m1) = get_opt OPT_OBSERVE (opts m2).
(* the id context a request carries, by the kid_context argument of protect (= the [kc] of protect_finish) *)
Definition kc_sent (c : ctx) (kc : kc_arg) : option (list Z) :=
  match kc with KcDefault => id_context c | KcOff => None | KcBytes b => Some b end.

Lemma not_request_of_response c : is_response c = true -> is_request c = false.
Proof. unfold is_response, is_request. lia. Qed.

Lemma protect_inv E c m r kc c' r' pm rid' :
  protect E c m r kc = (c', r', Ok (pm, rid')) ->
  exists om pt nonce pivs upiv,
    split_message m r = Ok (om, pt) /\ protect_nonce c r = (c', r', Ok (nonce, pivs, upiv)) /\
    protect_finish E c m om pt nonce pivs upiv r' kc = Ok (pm, rid').
Proof.
  unfold protect. destruct (Bool.eqb _ (is_request (code m))); cbn [massert bind]; [|discriminate].
  destruct (split_message m r) as [[om pt]|e]; [|discriminate].
  destruct (protect_nonce c r) as [[c1 r1] [[[nonce pivs] upiv]|e]]; intros [= <- <- H].
  exists om, pt, nonce, pivs, upiv. auto.
Qed.

Lemma split_message_inv m r om pt : split_message m r = Ok (om, pt) ->
  exists oc, outer_code_of m r = Ok oc /\ plaintext_of (code m) (inner_opts m) (payload m) = Ok pt /\
             om = {| code := oc; opts := outer_opts_of m; payload := [] |}.
Proof.
  unfold split_message. intros [_ H]%if_raise_inv. apply bind_ok in H as [oc [H1 H]]. apply bind_ok in H as [p [H2 [= <- <-]]]. eauto.
Qed.

Lemma build_new_nonce_inv c s nonce pivs : build_new_nonce c s = Ok (nonce, pivs) ->
  pivs = piv_of_seq s /\ construct_nonce (common_iv c) (piv_of_seq s) (sender_id c) (alg_iv_bytes (c_alg c)) = Ok nonce.
Proof.
  unfold build_new_nonce, to_bytes_big. destruct (_ || _); [discriminate|]. cbn [bind].
  intros H. apply bind_ok in H as [n [Hn [= <- <-]]]. rewrite construct_nonce_piv_of_seq. auto.
Qed.

(* protect takes the nonce either from the request, once, for the first response to it, or from a fresh sequence number, whose
   shortened bytes then go into the option *)
Lemma protect_nonce_inv c r c' r' nonce pivs upiv :
  protect_nonce c r = (c', r', Ok (nonce, pivs, upiv)) ->
  exists gen, construct_nonce (common_iv c) pivs gen (alg_iv_bytes (c_alg c)) = Ok nonce /\
    ((exists r0, r = Some r0 /\ can_reuse_nonce r0 = true /\ c' = c /\ upiv = None /\ pivs = rid_piv r0 /\ gen = rid_kid r0 /\
        r' = Some {| rid_kid := rid_kid r0; rid_piv := rid_piv r0; can_reuse_nonce := false; code_style := code_style r0 |}) \/
     (match r with Some r0 => can_reuse_nonce r0 = false | None => True end /\ r' = r /\
      sender_sequence_number c < MAX_SEQNO /\ c' = set_seq c (sender_sequence_number c + 1) /\
      upiv = Some pivs /\ pivs = piv_of_seq (sender_sequence_number c) /\ gen = sender_id c)).
Proof.
  unfold protect_nonce.
  destruct (match r with Some _ => _ | None => _ end) as [r1 [[gen p]|]] eqn:E.
  - intros [= <- <- H]. apply bind_ok in H as [n [Hn [= <- <- <-]]]. exists gen. split; [exact Hn|]. left.
    destruct r as [r0|]; [|discriminate]. unfold get_reusable_kid_and_piv in E.
    destruct (can_reuse_nonce r0) eqn:Hr; [|discriminate]. injection E as <- <- <-. exists r0. auto 10.
  - unfold new_sequence_number. destruct (sender_sequence_number c >=? MAX_SEQNO) eqn:Hmax; intros [= <- <- H].
    apply bind_ok in H as [[n p] [B [= <- <- <-]]]. apply build_new_nonce_inv in B as [-> B].
    exists (sender_id c). split; [exact B|]. right.
    assert (match r with Some r0 => can_reuse_nonce r0 = false | None => True end /\ r1 = r) as [Hr ->].
    { destruct r as [r0|]; [|injection E as <-; auto]. unfold get_reusable_kid_and_piv in E.
      destruct (can_reuse_nonce r0); [discriminate|]. injection E as <-. auto. }
    repeat split; auto. lia.
Qed.

(* The outcome of protect_finish.  Everything but the last argument of enc is computed without the plaintext; the header of a request
   carries the own kid and Partial IV and the id context the caller asked for, a response is bound to the request's identifiers *)
Lemma protect_finish_inv E c m om pt nonce pivs upiv r1 kc pm rid' :
  protect_finish E c m om pt nonce pivs upiv r1 kc = Ok (pm, rid') ->
  exists od, code pm = code om /\ opts pm = add_oscore (opts om) od /\
    payload pm = enc E (sender_key c) nonce (build_encrypt0_structure (extract_external_aad (c_alg c) rid')) pt /\
    (forall pt', protect_finish E c m om pt' nonce pivs upiv r1 kc =
       Ok ({| code := code om; opts := add_oscore (opts om) od;
              payload := enc E (sender_key c) nonce (build_encrypt0_structure (extract_external_aad (c_alg c) rid')) pt' |}, rid')) /\
    if is_request (code m)
    then rid_kid rid' = sender_id c /\ rid_piv rid' = pivs /\
         compress {| u_piv := upiv; u_kid := Some (sender_id c); u_kid_context := kc_sent c kc; u_group := false |} = Ok od
    else r1 = Some rid' /\
         compress {| u_piv := upiv; u_kid := if responses_send_kid c then Some (sender_id c) else None;
                     u_kid_context := None; u_group := false |} = Ok od.
Proof.
  unfold protect_finish. intros H.
  apply bind_ok in H as [[rid0 u] [Hh H]]. apply bind_ok in H as [od [Hc [= <- <-]]].
  exists od. repeat split.
  - intros pt'. rewrite Hh. cbn [bind]. rewrite Hc. reflexivity.
  - destruct (is_request (code m)).
    + apply bind_ok in Hh as [cs [_ [= <- <-]]]. auto.
    + destruct r1; [|discriminate]. injection Hh as <- <-. auto.
Qed.

Lemma protect_request_inv E c m kc c' r' pm rid' : is_request (code m) = true ->
  protect E c m None kc = (c', r', Ok (pm, rid')) ->
  exists nonce pt od,
    construct_nonce (common_iv c) (rid_piv rid') (sender_id c) (alg_iv_bytes (c_alg c)) = Ok nonce /\
    plaintext_of (code m) (inner_opts m) (payload m) = Ok pt /\
    rid_kid rid' = sender_id c /\ rid_piv rid' = piv_of_seq (sender_sequence_number c) /\
    compress {| u_piv := Some (rid_piv rid'); u_kid := Some (sender_id c); u_kid_context := kc_sent c kc; u_group := false |} = Ok od /\
    (code pm = CODE_POST \/ code pm = CODE_FETCH) /\ opts pm = add_oscore (outer_opts_of m) od /\
    payload pm = enc E (sender_key c) nonce (build_encrypt0_structure (extract_external_aad (c_alg c) rid')) pt.
Proof.
  intros Hreq P. apply protect_inv in P as (om & pt & nonce & pivs & upiv & S & N & F).
  apply split_message_inv in S as (oc & C & T & ->).
  apply protect_nonce_inv in N as (gen & Hn & [(r0 & [=] & _)|(_ & _ & _ & _ & -> & Hp & ->)]).
  apply protect_finish_inv in F as (od & Hcode & Ho & Hpay & _ & H). rewrite Hreq in H. destruct H as (Rk & Rp & Hc).
  unfold outer_code_of in C. rewrite Hreq in C. injection C as <-.
  exists nonce, pt, od. rewrite Rp, Hcode. cbn [code]. repeat split; try assumption.
  destruct (get_opt OPT_OBSERVE (opts m)); auto.
Qed.

Lemma protect_response_inv E c m rS kc c' r' pm ridS : is_response (code m) = true ->
  protect E c m (Some rS) kc = (c', r', Ok (pm, ridS)) ->
  exists pivs gen nonce upiv pt od,
    ridS = {| rid_kid := rid_kid rS; rid_piv := rid_piv rS; can_reuse_nonce := false; code_style := code_style rS |} /\
    ((can_reuse_nonce rS = true /\ upiv = None /\ pivs = rid_piv rS /\ gen = rid_kid rS /\ c' = c) \/
     (can_reuse_nonce rS = false /\ upiv = Some pivs /\ pivs = piv_of_seq (sender_sequence_number c) /\ gen = sender_id c /\
      c' = set_seq c (sender_sequence_number c + 1) /\ sender_sequence_number c < MAX_SEQNO)) /\
    construct_nonce (common_iv c) pivs gen (alg_iv_bytes (c_alg c)) = Ok nonce /\
    plaintext_of (code m) (opts m) (payload m) = Ok pt /\
    compress {| u_piv := upiv; u_kid := if responses_send_kid c then Some (sender_id c) else None; u_kid_context := None; u_group := false |} = Ok od /\
    code pm = snd (code_style rS) /\ opts pm = [(OPT_OSCORE, od)] /\
    payload pm = enc E (sender_key c) nonce (build_encrypt0_structure (extract_external_aad (c_alg c) ridS)) pt.
Proof.
  intros Hresp P. pose proof (not_request_of_response _ Hresp) as Hnreq.
  apply protect_inv in P as (om & pt & nonce & pivs & upiv & S & N & F).
  apply split_message_inv in S as (oc & C & T & ->).
  unfold outer_code_of in C. rewrite Hnreq in C. injection C as <-.
  unfold inner_opts in T. rewrite Hnreq in T.
  apply protect_finish_inv in F as (od & Hcode & Ho & Hpay & _ & H). rewrite Hnreq in H. destruct H as (Hr & Hc).
  unfold outer_opts_of in Ho. rewrite Hnreq, Hresp in Ho.
  apply protect_nonce_inv in N as (gen & Hn & Hcase).
  exists pivs, gen, nonce, upiv, pt, od.
  assert (HridS : ridS = {| rid_kid := rid_kid rS; rid_piv := rid_piv rS; can_reuse_nonce := false; code_style := code_style rS |}).
  { destruct Hcase as [(r0 & [= <-] & _ & _ & _ & _ & _ & ->)|(Hreuse & -> & _)]; injection Hr as <-; [reflexivity|].
    destruct rS. cbn in Hreuse. rewrite Hreuse. reflexivity. }
  split; [exact HridS|]. split; [|auto 10].
  destruct Hcase as [(r0 & [= <-] & ? & ? & ? & ? & ? & _)|(? & _ & ? & ? & ? & ? & ?)]; [left|right]; auto 10.
Qed.

Lemma protect_finish_class E c m1 m2 om pt nonce pivs upiv r1 kc : is_request (code m1) = is_request (code m2) ->
  protect_finish E c m1 om pt nonce pivs upiv r1 kc = protect_finish E c m2 om pt nonce pivs upiv r1 kc.
Proof. unfold protect_finish. intros ->. reflexivity. Qed.
Lemma view_outer m1 m2 r : view_eq m1 m2 -> outer_code_of m1 r = outer_code_of m2 r /\ outer_opts_of m1 = outer_opts_of m2.
Proof.
  intros (H1 & H2 & H3 & H4). unfold outer_code_of, outer_opts_of, observe_value. rewrite H1, H2, H3, H4. split; reflexivity.
Qed.

Theorem outer_reveals_nothing E c m1 m2 r kc c1 r1 pm1 rid1 c2 r2 pm2 rid2 :
  view_eq m1 m2 ->
  protect E c m1 r kc = (c1, r1, Ok (pm1, rid1)) ->
  protect E c m2 r kc = (c2, r2, Ok (pm2, rid2)) ->
  c1 = c2 /\ r1 = r2 /\ rid1 = rid2 /\ code pm1 = code pm2 /\ opts pm1 = opts pm2 /\
  exists k n a p1 p2,
    payload pm1 = enc E k n a p1 /\ payload pm2 = enc E k n a p2 /\
    plaintext_of (code m1) (inner_opts m1) (payload m1) = Ok p1 /\
    plaintext_of (code m2) (inner_opts m2) (payload m2) = Ok p2.
Proof.
  intros V P1 P2.
  apply protect_inv in P1 as (om1 & pt1 & n1 & pv1 & up1 & S1 & N1 & F1).
  apply protect_inv in P2 as (om2 & pt2 & n2 & pv2 & up2 & S2 & N2 & F2).
  rewrite N1 in N2. injection N2 as <- <- <- <- <-.
  apply split_message_inv in S1 as (oc1 & C1 & T1 & ->). apply split_message_inv in S2 as (oc2 & C2 & T2 & ->).
  destruct (view_outer m1 m2 r V) as [VC VO]. rewrite VC, C2 in C1. injection C1 as <-. rewrite VO in F1.
  apply protect_finish_inv in F1 as (od1 & Hc1 & Ho1 & Hp1 & G1 & _).
  rewrite <- (protect_finish_class _ _ m1 m2) in F2 by apply V. rewrite G1 in F2. injection F2 as <- <-.
  cbn [code opts payload] in *. repeat (split; [congruence|]). eauto 10.
Qed.

(* the OSCORE option is added to the outer options and nothing else is *)
Lemma In_add_oscore o os od : In o (add_oscore os od) -> In o os \/ o = (OPT_OSCORE, od).
Proof.
  unfold add_oscore. rewrite !in_app_iff, !filter_In. cbn [In]. intuition.
Qed.
Lemma In_outer_opts o m : In o (outer_opts_of m) ->
  (fst o = OPT_URI_HOST /\ is_request (code m) = true /\ get_opt OPT_URI_HOST (opts m) = Some (snd o)) \/ fst o = OPT_OBSERVE.
Proof.
  unfold outer_opts_of. rewrite in_app_iff. intros [H|H].
  - destruct (is_request (code m)); [|contradiction]. destruct (get_opt OPT_URI_HOST (opts m)); [|contradiction].
    destruct H as [<-|[]]. auto.
  - destruct (is_response (code m)); [contradiction|]. destruct (observe_value (opts m)); [|contradiction].
    destruct H as [<-|[]]. auto.
Qed.
Theorem outer_shape E c m r kc c' r' pm rid' :
  protect E c m r kc = (c', r', Ok (pm, rid')) ->
  Forall (fun o => fst o = OPT_URI_HOST \/ fst o = OPT_OBSERVE \/ fst o = OPT_OSCORE) (opts pm) /\
  (forall o, In o (opts pm) -> fst o = OPT_URI_HOST -> is_request (code m) = true /\ get_opt OPT_URI_HOST (opts m) = Some (snd o)) /\
  (if is_request (code m) then code pm = CODE_POST \/ code pm = CODE_FETCH
   else exists r0, r = Some r0 /\ code pm = snd (code_style r0)).
Proof.
  intros P. apply protect_inv in P as (om & pt & n & pv & up & S & _ & F).
  apply split_message_inv in S as (oc & C & _ & ->).
  apply protect_finish_inv in F as (od & -> & -> & _). cbn [code opts].
  assert (Hin : forall o, In o (add_oscore (outer_opts_of m) od) ->
    (fst o = OPT_URI_HOST /\ is_request (code m) = true /\ get_opt OPT_URI_HOST (opts m) = Some (snd o)) \/ fst o = OPT_OBSERVE \/ fst o = OPT_OSCORE).
  { intros o [H| ->]%In_add_oscore; [apply In_outer_opts in H as [H|H]|]; auto. }
  split; [|split].
  - apply Forall_forall. intros o [(H & _)|H]%Hin; auto.
  - intros o [(_ & H)|[H|H]]%Hin Hf; [exact H|rewrite H in Hf; discriminate..].
  - unfold outer_code_of in C. destruct (is_request (code m)).
    + injection C as <-. destruct (get_opt OPT_OBSERVE (opts m)); auto.
    + destruct r as [r0|]; [|discriminate]. injection C as <-. eauto.
Qed.

(* KID and ID context as the recipient takes them: the field, or its own value when the field is absent *)
Definition eff_kid_context (c : ctx) (u : unprot) := match u_kid_context u with Some x => Some x | None => id_context c end.
Definition eff_kid (c : ctx) (u : unprot) := match u_kid u with Some k => k | None => recipient_id c end.

(* The step of unprotect that settles sequence number, Partial IV, the id of whoever generated it and the request identifiers
   (oscore.py:1268-1305 with echo_recovery = None), as a function of its own: unprotect_verify is this step between a prologue that
   reads the option and an epilogue that decrypts *)
Definition resolve_piv (c : ctx) (outer_code : Z) (request_id : option rid) (upiv : option (list Z))
  : M (option Z * list Z * list Z * rid) :=
  match upiv with
  | None =>
      match request_id with
      | None => Raise ProtectionInvalid
      | Some r => Ok (None, rid_piv r, rid_kid r, r)
      end
  | Some partial_iv_short =>
      let seqno := from_bytes_big partial_iv_short in
      match request_id with
      | Some r => Ok (Some seqno, partial_iv_short, recipient_id c, r)
      | None =>
          match recipient_replay_window c with
          | None => Raise ReplayError
          | Some w =>
              v <- is_valid w seqno ;;
              if negb v then Raise ReplayError
              else
                cs <- code_style_from_request outer_code ;;
                Ok (Some seqno, partial_iv_short, recipient_id c,
                    {| rid_kid := recipient_id c; rid_piv := partial_iv_short; can_reuse_nonce := true; code_style := cs |})
          end
      end
  end.
(* the window after a successful decryption: a request's own sequence number is struck out *)
Definition struck (c : ctx) (request_id : option rid) (seqno : option Z) : M (option rw) :=
  match request_id, seqno, recipient_replay_window c with
  | None, Some n, Some w => '(w1, _) <- strike_out w n ;; Ok (Some w1)
  | _, _, w => Ok w
  end.

Lemma resolve_piv_inv c oc r upiv seqno pivs gen rid' : resolve_piv c oc r upiv = Ok (seqno, pivs, gen, rid') ->
  match upiv, r with
  | None, Some r0 => pivs = rid_piv r0 /\ gen = rid_kid r0 /\ rid' = r0 /\ seqno = None
  | Some p, Some r0 => pivs = p /\ gen = recipient_id c /\ rid' = r0 /\ seqno = Some (from_bytes_big p)
  | Some p, None => pivs = p /\ gen = recipient_id c /\ seqno = Some (from_bytes_big p) /\
      exists w cs, recipient_replay_window c = Some w /\ is_valid w (from_bytes_big p) = Ok true /\ code_style_from_request oc = Ok cs /\
        rid' = {| rid_kid := recipient_id c; rid_piv := p; can_reuse_nonce := true; code_style := cs |}
  | None, None => False
  end.
Proof.
  unfold resolve_piv. destruct upiv as [p|], r as [r0|]; try discriminate; try (intros [= <- <- <- <-]; auto).
  destruct (recipient_replay_window c) as [w|]; [|discriminate].
  intros H. apply bind_ok in H as [[|] [Hv H]]; [|discriminate].
  apply bind_ok in H as [cs [Hcs [= <- <- <- <-]]]. eauto 10.
Qed.

(* acceptance, completely: every check unprotect makes up to and including decryption *)
Theorem unprotect_verify_ok E c pm r c' pt seqno rid' :
  unprotect_verify E c pm r = Ok (c', pt, seqno, rid') <->
  exists od u pivs gen nonce w',
    is_some r = is_response (code pm) /\
    get_opt OPT_OSCORE (opts pm) = Some od /\ uncompress od = Ok u /\
    eff_kid_context c u = id_context c /\ eff_kid c u = recipient_id c /\
    resolve_piv c (code pm) r (u_piv u) = Ok (seqno, pivs, gen, rid') /\
    u_group u = false /\ alg_tag_bytes (c_alg c) + 1 <= blen (payload pm) /\
    construct_nonce (common_iv c) pivs gen (alg_iv_bytes (c_alg c)) = Ok nonce /\
    dec E (recipient_key c) nonce (build_encrypt0_structure (extract_external_aad (c_alg c) rid')) (payload pm) = Some pt /\
    struck c r seqno = Ok w' /\ c' = set_window c w'.
Proof.
  unfold unprotect_verify. fold (is_some r).
  split.
  - intros H. apply bind_ok in H as [[] [Ha H]].
    apply some_or_raise_inv in H as [od [Hod H]]. apply bind_ok in H as [u [Hu H]].
    apply if_raise_inv in H as [Ekc H]. apply if_raise_inv in H as [Ekid H].
    change (match u_piv u with Some _ => _ | None => _ end) with (resolve_piv c (code pm) r (u_piv u)) in H.
    apply bind_ok in H as [[[[s pivs] gen] rid0] [Hstep H]].
    apply if_raise_inv in H as [Hg H]. apply if_raise_inv in H as [El H].
    apply bind_ok in H as [nonce [Hn H]]. apply some_or_raise_inv in H as [p [Hd H]].
    change (match r with Some _ => _ | None => _ end) with (struck c r s) in H.
    apply bind_ok in H as [w' [Hw [= <- <- <- <-]]].
    exists od, u, pivs, gen, nonce, w'.
    apply negb_false_iff in Ekc, Ekid. apply opt_beqb_eq in Ekc. apply list_eqb_Z_eq in Ekid. apply Z.ltb_ge in El.
    unfold massert in Ha. destruct (Bool.eqb _ _) eqn:Eb in Ha; [|discriminate]. apply eqb_prop in Eb.
    repeat split; assumption.
  - intros (od & u & pivs & gen & nonce & w' & Ha & -> & Hu & Ekc & Ekid & Hstep & Hg & Hl & Hn & Hd & Hw & ->).
    rewrite Ha, eqb_reflx, Hu. cbn [massert bind]. unfold eff_kid_context, eff_kid in Ekc, Ekid.
    rewrite Ekc, Ekid, (proj2 (opt_beqb_eq _ _) eq_refl), beqb_refl. cbn [negb].
    change (match u_piv u with Some _ => _ | None => _ end) with (resolve_piv c (code pm) r (u_piv u)).
    rewrite Hstep, Hg. cbn [bind]. rewrite (proj2 (Z.ltb_ge _ _) Hl), Hn. cbn [bind]. rewrite Hd.
    change (match r with Some _ => _ | None => _ end) with (struck c r seqno). rewrite Hw. reflexivity.
Qed.

Lemma unprotect_ok E c pm r c' pt seqno rid' um :
  unprotect_verify E c pm r = Ok (c', pt, seqno, rid') -> unprotect_finish pm pt seqno = Ok um ->
  unprotect E c pm r = (c', Ok (um, rid')).
Proof. unfold unprotect. intros -> ->. reflexivity. Qed.

Lemma find_filter_app {A} (p q : A -> bool) os x t : p x = true -> (forall y, q y = true -> p y = false) ->
  find p (filter q os ++ x :: t) = Some x.
Proof.
  intros Hx Hq. induction os as [|y os IH]; cbn [filter app find]; [rewrite Hx; reflexivity|].
  destruct (q y) eqn:E; [|exact IH]. cbn [app find]. rewrite (Hq y E). exact IH.
Qed.
Lemma get_opt_add_oscore os od : get_opt OPT_OSCORE (add_oscore os od) = Some od.
Proof.
  unfold get_opt, add_oscore. cbn [app]. rewrite find_filter_app; [reflexivity..|]. cbn [fst]. lia.
Qed.
Lemma external_aad_ext a r r' : rid_kid r = rid_kid r' -> rid_piv r = rid_piv r' -> extract_external_aad a r = extract_external_aad a r'.
Proof. unfold extract_external_aad. intros -> ->. reflexivity. Qed.

Lemma from_bytes_big_acc_nonneg b acc : bytes_ok b = true -> 0 <= acc -> 0 <= from_bytes_big_acc acc b.
Proof.
  revert acc. induction b as [|x b IH]; intros acc H Ha; [exact Ha|].
  rewrite bytes_ok_cons in H. apply andb_prop in H as [Hx Hb]. unfold byte_ok in Hx. apply IH; [exact Hb|lia].
Qed.
Lemma from_bytes_big_nonneg b : bytes_ok b = true -> 0 <= from_bytes_big b.
Proof. intros H. apply from_bytes_big_acc_nonneg; [exact H|lia]. Qed.

Definition matched (cA cB : ctx) : Prop :=
  recipient_key cB = sender_key cA /\ recipient_id cB = sender_id cA /\ common_iv cB = common_iv cA /\
  c_alg cB = c_alg cA /\ id_context cB = id_context cA.
Definition matched_keys (cA cB : ctx) : Prop :=
  recipient_key cB = sender_key cA /\ recipient_id cB = sender_id cA /\ common_iv cB = common_iv cA /\ c_alg cB = c_alg cA.

(* a request protected with whatever kid_context argument, given to a context with matching keys whose id context is the one sent (if one
   is sent), while its Partial IV is fresh there *)
Theorem request_roundtrip_kc E cA cB m kc cA' r' pm ridA w : ideal E -> matched_keys cA cB ->
  match kc_sent cA kc with Some x => id_context cB = Some x | None => True end ->
  is_request (code m) = true ->
  protect E cA m None kc = (cA', r', Ok (pm, ridA)) ->
  recipient_replay_window cB = Some w -> Proofs.C12.Inv w ->
  Verif.Model.C12.seen w (from_bytes_big (rid_piv ridA)) = false ->
  alg_tag_bytes (c_alg cB) + 1 <= blen (payload pm) ->
  exists cB' um ridB,
    unprotect E cB pm None = (cB', Ok (um, ridB)) /\
    u_code um = code m /\ u_opts um = del_opt OPT_OBSERVE (inner_opts m) /\ u_payload um = payload m /\
    u_observe um = match observe_value (opts pm) with Some 0 => observe_value (inner_opts m) | _ => None end /\
    rid_kid ridB = rid_kid ridA /\ rid_piv ridB = rid_piv ridA /\ can_reuse_nonce ridB = true /\
    exists w', recipient_replay_window cB' = Some w' /\ Verif.Model.C12.seen w' (from_bytes_big (rid_piv ridA)) = true.
Proof.
  intros (Hde & _ & _) (Mk & Mid & Mciv & Malg) Mctx Hreq P Hw Hinv Hfresh Hlen.
  apply protect_request_inv in P as (nonce & pt & od & Hn & Hpt & Rk & Rp & Hc & Hcode & Hopts & Hpay); [|exact Hreq].
  pose proof (piv_of_seq_len (sender_sequence_number cA)) as Hplen. rewrite <- Rp in Hplen.
  apply compress_uncompress in Hc; [|exact Hplen].
  assert (Hseq : 0 <= from_bytes_big (rid_piv ridA)) by (apply from_bytes_big_nonneg; rewrite Rp; apply piv_of_seq_ok).
  destruct (Proofs.C12.strike_out_spec w _ Hinv Hseq) as [[Hs _]|[_ (w' & Hs & _ & _ & _ & Hseen' & _)]]; [congruence|].
  assert (Hcs : exists cs, code_style_from_request (code pm) = Ok cs) by (destruct Hcode as [-> | ->]; eexists; reflexivity).
  destruct Hcs as [cs Hcs].
  destruct (plaintext_roundtrip _ _ _ _ pm (Some (from_bytes_big (rid_piv ridA))) Hpt) as (um & Hfin & U1 & U2 & U3 & U4).
  rewrite Hreq in U4.
  exists (set_window cB (Some w')), um, {| rid_kid := recipient_id cB; rid_piv := rid_piv ridA; can_reuse_nonce := true; code_style := cs |}.
  split; [|rewrite Rk; repeat split; try assumption; exists w'; split; [reflexivity|exact Hseen']].
  apply unprotect_ok with (pt := pt) (seqno := Some (from_bytes_big (rid_piv ridA))); [|exact Hfin].
  apply unprotect_verify_ok. eexists od, _, (rid_piv ridA), (recipient_id cB), nonce, (Some w').
  split; [destruct Hcode as [-> | ->]; reflexivity|].
  split; [rewrite Hopts; apply get_opt_add_oscore|].
  split; [exact Hc|]. unfold eff_kid_context, eff_kid. cbn [u_piv u_kid u_kid_context u_group].
  split; [destruct (kc_sent cA kc); [symmetry; exact Mctx|reflexivity]|].
  split; [symmetry; exact Mid|].
  split. { unfold resolve_piv. rewrite Hw, (Proofs.C12.is_valid_spec w _ Hinv Hseq), Hfresh. cbn [bind negb]. rewrite Hcs. reflexivity. }
  split; [reflexivity|]. split; [exact Hlen|].
  split; [rewrite Mciv, Malg, Mid; exact Hn|].
  split. { rewrite Mk, Malg, Hpay, (external_aad_ext _ _ ridA) by (try reflexivity; cbn [rid_kid]; congruence). apply Hde. }
  split; [|reflexivity]. unfold struck. rewrite Hw, Hs. reflexivity.
Qed.

(* the same for the default kid_context argument and a recipient that shares the sender's id context *)
Theorem request_roundtrip E cA cB m cA' r' pm ridA w : ideal E -> matched cA cB ->
  is_request (code m) = true ->
  protect E cA m None KcDefault = (cA', r', Ok (pm, ridA)) ->
  recipient_replay_window cB = Some w -> Proofs.C12.Inv w ->
  Verif.Model.C12.seen w (from_bytes_big (rid_piv ridA)) = false ->
  alg_tag_bytes (c_alg cB) + 1 <= blen (payload pm) ->
  exists cB' um ridB,
    unprotect E cB pm None = (cB', Ok (um, ridB)) /\
    u_code um = code m /\ u_opts um = del_opt OPT_OBSERVE (inner_opts m) /\ u_payload um = payload m /\
    u_observe um = match observe_value (opts pm) with Some 0 => observe_value (inner_opts m) | _ => None end /\
    rid_kid ridB = rid_kid ridA /\ rid_piv ridB = rid_piv ridA /\ can_reuse_nonce ridB = true /\
    exists w', recipient_replay_window cB' = Some w' /\ Verif.Model.C12.seen w' (from_bytes_big (rid_piv ridA)) = true.
Proof.
  intros HI (Mk & Mid & Mciv & Malg & Mctx). apply request_roundtrip_kc; [exact HI|repeat split; assumption|].
  cbn [kc_sent]. rewrite <- Mctx. destruct (id_context cB); auto.
Qed.

(* Every response, unprotected by the requester with the identifiers of the request it answers.  Of the message as it arrives only code,
   OSCORE option and ciphertext matter for acceptance, and of the other outer options only whether Observe is there: whatever else the
   server stack or an intermediary did to them is ignored.  The requester's recipient id has to be the responder's id only where that id
   travels: as kid in the option, or into the nonce of an own Partial IV. *)
Theorem response_roundtrip_gen E cS cC m rS rC kc cS' r' pm ridS pm' : ideal E ->
  recipient_key cC = sender_key cS -> common_iv cC = common_iv cS -> c_alg cC = c_alg cS ->
  (responses_send_kid cS = true \/ can_reuse_nonce rS = false -> recipient_id cC = sender_id cS) ->
  is_response (code m) = true -> rid_kid rC = rid_kid rS -> rid_piv rC = rid_piv rS ->
  (snd (code_style rS) = CODE_CHANGED \/ snd (code_style rS) = CODE_CONTENT) ->
  protect E cS m (Some rS) kc = (cS', r', Ok (pm, ridS)) ->
  code pm' = code pm -> get_opt OPT_OSCORE (opts pm') = get_opt OPT_OSCORE (opts pm) -> payload pm' = payload pm ->
  alg_tag_bytes (c_alg cC) + 1 <= blen (payload pm) ->
  exists um,
    unprotect E cC pm' (Some rC) = (cC, Ok (um, rC)) /\
    u_code um = code m /\ u_opts um = del_opt OPT_OBSERVE (opts m) /\ u_payload um = payload m /\
    u_observe um = match observe_value (opts pm') with
                   | None => observe_value (opts m)
                   | Some _ => Some (if can_reuse_nonce rS then -1 else from_bytes_big (piv_of_seq (sender_sequence_number cS)))
                   end /\
    rid_kid ridS = rid_kid rS /\ rid_piv ridS = rid_piv rS.
Proof.
  intros (Hde & _ & _) Mk Mciv Malg Mid Hresp Rk Rp Hstyle P Hcode' Hod' Hpay' Hlen.
  apply protect_response_inv in P as (pivs & gen & nonce & upiv & pt & od & HridS & Hcase & Hn & Hpt & Hc & Hcode & Hopts & Hpay); [|exact Hresp].
  assert (Rk' : rid_kid ridS = rid_kid rS /\ rid_piv ridS = rid_piv rS) by (rewrite HridS; split; reflexivity).
  apply compress_uncompress in Hc.
  2:{ cbn [u_piv]. destruct Hcase as [(_ & -> & _)|(_ & -> & -> & _)]; [exact I|apply piv_of_seq_len]. }
  destruct (plaintext_roundtrip _ _ _ _ pm' (option_map from_bytes_big upiv) Hpt) as (um & Hfin & U1 & U2 & U3 & U4).
  rewrite (not_request_of_response _ Hresp) in U4.
  exists um. split; [|repeat split; try assumption; try apply Rk'].
  - apply unprotect_ok with (pt := pt) (seqno := option_map from_bytes_big upiv); [|exact Hfin].
    apply unprotect_verify_ok. eexists od, _, pivs, (match upiv with Some _ => recipient_id cC | None => rid_kid rC end), nonce, _.
    rewrite Hcode', Hod', Hpay'.
    split; [rewrite Hcode; destruct Hstyle as [-> | ->]; reflexivity|].
    split; [rewrite Hopts; reflexivity|].
    split; [exact Hc|]. unfold eff_kid_context, eff_kid. cbn [u_piv u_kid u_kid_context u_group].
    split; [reflexivity|].
    split; [destruct (responses_send_kid cS); [symmetry|]; auto|].
    split. { destruct Hcase as [(_ & -> & -> & _)|(_ & -> & _)]; cbn [resolve_piv option_map]; congruence. }
    split; [reflexivity|]. split; [exact Hlen|].
    split. { rewrite Mciv, Malg, <- Hn. destruct Hcase as [(_ & -> & _ & -> & _)|(Hr & -> & _ & -> & _)]; [|rewrite Mid by auto]; congruence. }
    split; [|split; [reflexivity|destruct cC; reflexivity]].
    rewrite Mk, Malg, Hpay, (external_aad_ext _ rC ridS) by (destruct Rk'; congruence). apply Hde.
  - rewrite U4. destruct (observe_value (opts pm')); [|reflexivity]. destruct Hcase as [(-> & -> & _)|(-> & -> & -> & _)]; reflexivity.
Qed.

(* the case the stack produces: the outer Observe set or removed after protect *)
Theorem response_roundtrip_any E cS cC m rS rC kc cS' r' pm ridS oobs : ideal E ->
  recipient_key cC = sender_key cS -> recipient_id cC = sender_id cS -> common_iv cC = common_iv cS -> c_alg cC = c_alg cS ->
  is_response (code m) = true -> rid_kid rC = rid_kid rS -> rid_piv rC = rid_piv rS ->
  (snd (code_style rS) = CODE_CHANGED \/ snd (code_style rS) = CODE_CONTENT) ->
  protect E cS m (Some rS) kc = (cS', r', Ok (pm, ridS)) ->
  alg_tag_bytes (c_alg cC) + 1 <= blen (payload pm) ->
  exists um,
    unprotect E cC {| code := code pm; opts := set_opt OPT_OBSERVE oobs (opts pm); payload := payload pm |} (Some rC) = (cC, Ok (um, rC)) /\
    u_code um = code m /\ u_opts um = del_opt OPT_OBSERVE (opts m) /\ u_payload um = payload m /\
    u_observe um = match oobs with
                   | None => observe_value (opts m)
                   | Some _ => Some (if can_reuse_nonce rS then -1 else from_bytes_big (piv_of_seq (sender_sequence_number cS)))
                   end /\
    rid_kid ridS = rid_kid rS /\ rid_piv ridS = rid_piv rS.
Proof.
  intros HI Mk Mid Mciv Malg Hresp Rk Rp Hstyle P Hlen.
  destruct (protect_response_inv _ _ _ _ _ _ _ _ _ Hresp P) as (_ & _ & _ & _ & _ & od & _ & _ & _ & _ & _ & _ & Hopts & _).
  set (pm' := {| code := code pm; opts := set_opt OPT_OBSERVE oobs (opts pm); payload := payload pm |}).
  assert (Hobs : get_opt OPT_OSCORE (opts pm') = get_opt OPT_OSCORE (opts pm) /\ observe_value (opts pm') = option_map from_bytes_big oobs)
    by (cbn [pm' opts]; rewrite Hopts; destruct oobs; split; reflexivity).
  destruct (response_roundtrip_gen E cS cC m rS rC kc cS' r' pm ridS pm' HI Mk Mciv Malg (fun _ => Mid) Hresp Rk Rp Hstyle P eq_refl (proj1 Hobs) eq_refl Hlen)
    as (um & H). rewrite (proj2 Hobs) in H. exists um. destruct oobs; exact H.
Qed.

(* the first response to a request: the request's nonce is reused, the OSCORE option is empty *)
Theorem response_roundtrip E cS cC m rS rC cS' r' pm ridS : ideal E ->
  recipient_key cC = sender_key cS -> common_iv cC = common_iv cS -> c_alg cC = c_alg cS ->
  is_response (code m) = true -> responses_send_kid cS = false ->
  can_reuse_nonce rS = true -> rid_kid rC = rid_kid rS -> rid_piv rC = rid_piv rS ->
  (snd (code_style rS) = CODE_CHANGED \/ snd (code_style rS) = CODE_CONTENT) ->
  protect E cS m (Some rS) KcDefault = (cS', r', Ok (pm, ridS)) ->
  alg_tag_bytes (c_alg cC) + 1 <= blen (payload pm) ->
  exists um,
    unprotect E cC pm (Some rC) = (cC, Ok (um, rC)) /\
    u_code um = code m /\ u_opts um = del_opt OPT_OBSERVE (opts m) /\ u_payload um = payload m /\
    u_observe um = observe_value (opts m) /\
    opts pm = [(OPT_OSCORE, [])] /\ can_reuse_nonce ridS = false.
Proof.
  intros HI Mk Mciv Malg Hresp Hsk Hreuse Rk Rp Hstyle P Hlen.
  assert (Mid : responses_send_kid cS = true \/ can_reuse_nonce rS = false -> recipient_id cC = sender_id cS) by (intros [H|H]; congruence).
  destruct (response_roundtrip_gen E cS cC m rS rC _ cS' r' pm ridS pm HI Mk Mciv Malg Mid Hresp Rk Rp Hstyle P eq_refl eq_refl eq_refl Hlen)
    as (um & HU & U1 & U2 & U3 & U4 & _).
  apply protect_response_inv in P as (_ & _ & _ & upiv & _ & od & -> & [(_ & -> & _)|(? & _)] & _ & _ & Hc & _ & Hopts & _);
    [|congruence|exact Hresp].
  rewrite Hsk in Hc. injection Hc as <-. rewrite Hopts in U4.
  exists um. auto 10.
Qed.

(* a response with an own Partial IV: what protect does, spelled out *)
Theorem notification_roundtrip E cS cC m rS rC kc cS' r' pm ridS oobs : ideal E ->
  recipient_key cC = sender_key cS -> recipient_id cC = sender_id cS -> common_iv cC = common_iv cS -> c_alg cC = c_alg cS ->
  is_response (code m) = true -> can_reuse_nonce rS = false -> rid_kid rC = rid_kid rS -> rid_piv rC = rid_piv rS ->
  (snd (code_style rS) = CODE_CHANGED \/ snd (code_style rS) = CODE_CONTENT) ->
  protect E cS m (Some rS) kc = (cS', r', Ok (pm, ridS)) ->
  alg_tag_bytes (c_alg cC) + 1 <= blen (payload pm) ->
  let seq := sender_sequence_number cS in
  (exists um,
    unprotect E cC {| code := code pm; opts := set_opt OPT_OBSERVE oobs (opts pm); payload := payload pm |} (Some rC) = (cC, Ok (um, rC)) /\
    u_code um = code m /\ u_opts um = del_opt OPT_OBSERVE (opts m) /\ u_payload um = payload m /\
    u_observe um = match oobs with None => observe_value (opts m) | Some _ => Some (from_bytes_big (piv_of_seq seq)) end) /\
  seq < MAX_SEQNO /\ sender_sequence_number cS' = seq + 1 /\
  (exists od, opts pm = [(OPT_OSCORE, od)] /\
     uncompress od = Ok {| u_piv := Some (piv_of_seq seq); u_kid := if responses_send_kid cS then Some (sender_id cS) else None;
                           u_kid_context := None; u_group := false |}) /\
  (exists nonce pt,
     construct_nonce (common_iv cS) (to_bytes_big_n (Z.to_nat PIV_FULL_BYTES) seq) (sender_id cS) (alg_iv_bytes (c_alg cS)) = Ok nonce /\
     payload pm = enc E (sender_key cS) nonce
       (build_encrypt0_structure (extract_external_aad (c_alg cS)
          {| rid_kid := rid_kid rS; rid_piv := rid_piv rS; can_reuse_nonce := false; code_style := code_style rS |})) pt).
Proof.
  intros HI Mk Mid Mciv Malg Hresp Hreuse Rk Rp Hstyle P Hlen seq. subst seq.
  destruct (response_roundtrip_any E cS cC m rS rC kc cS' r' pm ridS oobs HI Mk Mid Mciv Malg Hresp Rk Rp Hstyle P Hlen)
    as (um & H1 & H2 & H3 & H4 & H5 & _).
  rewrite Hreuse in H5.
  apply protect_response_inv in P as (pivs & gen & nonce & upiv & pt & od & -> & Hcase & Hn & _ & Hc & _ & Hopts & Hpay); [|exact Hresp].
  destruct Hcase as [(Hx & _)|(_ & -> & -> & -> & -> & Hmax)]; [congruence|].
  split; [eauto 10|]. split; [exact Hmax|]. split; [reflexivity|]. split.
  - exists od. split; [exact Hopts|]. apply compress_uncompress; [apply piv_of_seq_len|exact Hc].
  - exists nonce, pt. rewrite <- construct_nonce_piv_of_seq. auto.
Qed.

(* Side conditions of the theorems of Proofs/C11Accept.v.  Sizes for which the CBOR encoding of the AAD is injective: *)
Definition small_rid (r : rid) : Prop := blen (rid_kid r) < 2 ^ 32 /\ blen (rid_piv r) < 2 ^ 32.
Definition small_alg (a : alg) : Prop := - 2 ^ 64 <= alg_value a < 2 ^ 64.
(* ids admissible for the algorithm (RFC 8613 3.3: at most iv_bytes - 6 bytes), common IV long enough, replay window well-formed *)
Definition admissible_ctx (c : ctx) : Prop :=
  blen (recipient_id c) <= alg_iv_bytes (c_alg c) - NONCE_ID_OVERHEAD /\ blen (sender_id c) <= alg_iv_bytes (c_alg c) - NONCE_ID_OVERHEAD /\
  alg_iv_bytes (c_alg c) <= blen (common_iv c) /\ alg_iv_bytes (c_alg c) <= 255 + NONCE_ID_OVERHEAD /\
  match recipient_replay_window c with Some w => Proofs.C12.Inv w | None => True end.
Definition admissible_rid (c : ctx) (r : rid) : Prop :=
  blen (rid_kid r) <= alg_iv_bytes (c_alg c) - NONCE_ID_OVERHEAD /\ blen (rid_piv r) <= NONCE_PIV_BYTES.
(* what the callers guarantee (oscore_sitewrapper.py:72, transports/oscore.py): requests have outer code POST or FETCH and no
   request_id; responses come with the request's identifiers *)
Definition call_ok (c : ctx) (pm : msg) (r : option rid) : Prop :=
  match r with
  | Some r0 => is_response (code pm) = true /\ admissible_rid c r0
  | None => code pm = CODE_POST \/ code pm = CODE_FETCH
  end.
