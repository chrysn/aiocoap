(* C15 — the length coding of RFC 8323 3.2: the translated _encode_length / _extract_message_size against the RFC's table. *)
From Verif Require Import Lib.Py Lib.Tactics Lib.PyLemmas Gen.tcp_framing.
Open Scope Z_scope.

Lemma forall_range (P : Z -> bool) (n : nat) :
  forallb P (map Z.of_nat (seq 0 n)) = true -> forall z, 0 <= z < Z.of_nat n -> P z = true.
Proof.
  intros H z Hz. rewrite forallb_forall in H. apply H.
  rewrite in_map_iff. exists (Z.to_nat z). split; [lia|]. apply in_seq. lia.
Qed.

Lemma forall_range2 (P : Z -> Z -> bool) (n m : nat) :
  forallb (fun a => forallb (P a) (map Z.of_nat (seq 0 m))) (map Z.of_nat (seq 0 n)) = true ->
  forall a b, 0 <= a < Z.of_nat n -> 0 <= b < Z.of_nat m -> P a b = true.
Proof. intros H a b Ha Hb. exact (forall_range _ m (forall_range _ n H a Ha) b Hb). Qed.

(* two nibbles in a byte: checked on the 16 x 16 cases *)
Lemma nibbles_split : forall hi lo, 0 <= hi < 16 -> 0 <= lo < 16 ->
  Z.shiftr (Z.lor (Z.shiftl hi 4) lo) 4 = hi /\ Z.land (Z.lor (Z.shiftl hi 4) lo) 15 = lo /\
  0 <= Z.lor (Z.shiftl hi 4) lo < 256.
Proof.
  intros hi lo Hh Hl.
  pose proof (forall_range2 (fun hi lo => (Z.shiftr (Z.lor (Z.shiftl hi 4) lo) 4 =? hi) &&
     (Z.land (Z.lor (Z.shiftl hi 4) lo) 15 =? lo) && (0 <=? Z.lor (Z.shiftl hi 4) lo) && (Z.lor (Z.shiftl hi 4) lo <? 256))
     16 16 ltac:(vm_compute; reflexivity) hi lo ltac:(lia) ltac:(lia)) as H.
  cbv beta in H. lia.
Qed.

(* Len nibble and Extended Length bytes for a given length of options + payload *)
Definition rfc8323_len (n : Z) : Z * bytes :=
  if n <? 13 then (n, [])
  else if n <? 269 then (13, [n - 13])
  else if n <? 65805 then (14, [(n - 269) / 256 mod 256; (n - 269) mod 256])
  else (15, [(n - 65805) / 256 / 256 / 256 mod 256; (n - 65805) / 256 / 256 mod 256; (n - 65805) / 256 mod 256; (n - 65805) mod 256]).

Lemma tb4 v : to_bytes_big_n 4 v = [v / 256 / 256 / 256 mod 256; v / 256 / 256 mod 256; v / 256 mod 256; v mod 256].
Proof. reflexivity. Qed.

Lemma encode_length_rfc8323 : forall n, 0 <= n < 65805 + 2 ^ 32 -> encode_length n = Ok (rfc8323_len n).
Proof.
  intros n Hn. unfold encode_length, rfc8323_len, to_bytes_big.
  change (2 ^ (8 * 1)) with 256. change (2 ^ (8 * 2)) with 65536. change (2 ^ (8 * 4)) with 4294967296.
  change (2 ^ 32) with 4294967296 in Hn.
  destruct (n <? 13) eqn:H1; [reflexivity|].
  destruct (n <? 269) eqn:H2.
  { replace ((n - 13 <? 0) || (256 <=? n - 13)) with false by lia. cbn [bind].
    change (Z.to_nat 1) with 1%nat. rewrite tb1. replace ((n - 13) mod 256) with (n - 13) by lia. reflexivity. }
  destruct (n <? 65805) eqn:H3.
  { replace ((n - 269 <? 0) || (65536 <=? n - 269)) with false by lia. cbn [bind].
    change (Z.to_nat 2) with 2%nat. rewrite tb2. reflexivity. }
  replace ((n - 65805 <? 0) || (4294967296 <=? n - 65805)) with false by lia. cbn [bind].
  change (Z.to_nat 4) with 4%nat. rewrite tb4. reflexivity.
Qed.

Lemma encode_length_overflow : forall n, 65805 + 2 ^ 32 <= n -> encode_length n = Raise OverflowError.
Proof.
  intros n Hn. unfold encode_length, to_bytes_big. change (2 ^ (8 * 4)) with 4294967296. change (2 ^ 32) with 4294967296 in Hn.
  replace (n <? 13) with false by lia. replace (n <? 269) with false by lia. replace (n <? 65805) with false by lia.
  replace ((n - 65805 <? 0) || (4294967296 <=? n - 65805)) with true by lia. reflexivity.
Qed.

(* _extract_message_size as a total function on the first bytes *)
Definition header (data : bytes) : option (Z * Z * Z) :=
  match data with
  | [] => None
  | b0 :: r =>
    let len := Z.shiftr b0 4 in
    let tkl := Z.land b0 15 in
    if len <? 13 then Some (2, tkl, len)
    else if len =? 13 then
      match r with e0 :: _ => Some (3, tkl, e0 + 13) | _ => None end
    else if len =? 14 then
      match r with e0 :: e1 :: _ => Some (4, tkl, e0 * 256 + e1 + 269) | _ => None end
    else
      match r with e0 :: e1 :: e2 :: e3 :: _ => Some (6, tkl, ((e0 * 256 + e1) * 256 + e2) * 256 + e3 + 65805) | _ => None end
  end.

Lemma byte_nibbles b : Z.shiftr b 4 = b / 16 /\ Z.land b 15 = b mod 16.
Proof.
  split. - rewrite Z.shiftr_div_pow2 by lia. reflexivity.
  - change 15 with (Z.ones 4). rewrite Z.land_ones by lia. reflexivity.
Qed.

(* The header reader in one piece: the Len nibble fixes the number of extension bytes and the base that is added
   to their big-endian value, which is how _extract_message_size computes it. All facts about [header] below come
   from this equation. *)
Definition ext_bytes (len : Z) : nat := if len <? 13 then 0 else if len =? 13 then 1 else if len =? 14 then 2 else 4.
Definition len_base (len : Z) : Z := if len <? 13 then len else if len =? 13 then 13 else if len =? 14 then 269 else 65805.

Lemma header_cons b0 r : header (b0 :: r) =
  let n := ext_bytes (Z.shiftr b0 4) in
  if (length r <? n)%nat then None
  else Some (2 + Z.of_nat n, Z.land b0 15, from_bytes_big (firstn n r) + len_base (Z.shiftr b0 4)).
Proof.
  unfold header, ext_bytes, len_base.
  destruct (Z.shiftr b0 4 <? 13); [reflexivity|].
  destruct (Z.shiftr b0 4 =? 13). { destruct r as [|e0 r]; reflexivity. }
  destruct (Z.shiftr b0 4 =? 14). { destruct r as [|e0 [|e1 r]]; reflexivity. }
  destruct r as [|e0 [|e1 [|e2 [|e3 r]]]]; reflexivity.
Qed.

Lemma extract_message_size_spec : forall data, extract_message_size data = Ok (header data).
Proof.
  intros [|b0 r]; [reflexivity|]. rewrite header_cons. unfold extract_message_size, ext_bytes, len_base.
  replace (negb (negb (blen (b0 :: r) =? 0))) with false by (rewrite blen_cons; pose proof (blen_nonneg r); lia).
  rewrite bget_cons0. cbn [bind].
  assert (L : forall n, 0 <= n -> (blen (b0 :: r) <? n + 1) = (length r <? Z.to_nat n)%nat).
  { intros n Hn. rewrite blen_cons. unfold blen. destruct (Nat.ltb_spec (length r) (Z.to_nat n)); lia. }
  destruct (Z.shiftr b0 4 >=? 13) eqn:H13.
  2:{ replace (Z.shiftr b0 4 <? 13) with true by lia. reflexivity. }
  replace (Z.shiftr b0 4 <? 13) with false by lia.
  destruct (Z.shiftr b0 4 =? 13). { cbn [bind]. rewrite (L 1) by lia. destruct (_ <? _)%nat; reflexivity. }
  destruct (Z.shiftr b0 4 =? 14). { cbn [bind]. rewrite (L 2) by lia. destruct (_ <? _)%nat; reflexivity. }
  cbn [bind]. rewrite (L 4) by lia. destruct (_ <? _)%nat; reflexivity.
Qed.

Lemma header_cons_inv b0 r a t l : header (b0 :: r) = Some (a, t, l) ->
  (ext_bytes (Z.shiftr b0 4) <= length r)%nat /\ a = 2 + Z.of_nat (ext_bytes (Z.shiftr b0 4)) /\ t = Z.land b0 15 /\
  l = from_bytes_big (firstn (ext_bytes (Z.shiftr b0 4)) r) + len_base (Z.shiftr b0 4).
Proof.
  rewrite header_cons. cbv zeta. destruct (_ <? _)%nat eqn:E; [discriminate|]. apply Nat.ltb_ge in E.
  intros H. repeat split; [exact E|congruence..].
Qed.

Lemma ext_bytes_le len : (ext_bytes len <= 4)%nat.
Proof. unfold ext_bytes. destruct (len <? 13), (len =? 13), (len =? 14); lia. Qed.

Lemma from_bytes_big_acc_nonneg : forall b acc, bytes_ok b = true -> 0 <= acc -> 0 <= from_bytes_big_acc acc b.
Proof.
  induction b as [|x b IH]; intros acc Hb Hacc; [exact Hacc|].
  rewrite bytes_ok_cons in Hb. apply andb_prop in Hb as [Hx Hb]. unfold byte_ok in Hx.
  cbn [from_bytes_big_acc]. apply IH; [exact Hb|lia].
Qed.

Lemma header_app : forall s t h, header s = Some h -> header (s ++ t) = Some h.
Proof.
  intros [|b0 r] t [[a tk] l] H; [discriminate|]. destruct (header_cons_inv _ _ _ _ _ H) as (E & -> & -> & ->).
  cbn [app]. rewrite header_cons. cbv zeta. rewrite app_length, firstn_app.
  replace (_ <? _)%nat with false by (symmetry; apply Nat.ltb_ge; lia).
  replace (_ - length r)%nat with 0%nat by lia. cbn [firstn]. rewrite app_nil_r. reflexivity.
Qed.

Lemma header_firstn : forall s k a t l, header s = Some (a, t, l) -> a - 1 <= Z.of_nat k ->
  header (firstn k s) = Some (a, t, l).
Proof.
  intros [|b0 r] k a t l H Hk; [discriminate|]. destruct (header_cons_inv _ _ _ _ _ H) as (E & -> & -> & ->).
  destruct k as [|k]; [lia|]. cbn [firstn]. rewrite header_cons. cbv zeta. rewrite firstn_length, firstn_firstn.
  replace (_ <? _)%nat with false by (symmetry; apply Nat.ltb_ge; lia). rewrite Nat.min_l by lia. reflexivity.
Qed.

Lemma header_bounds : forall s a t l, bytes_ok s = true -> header s = Some (a, t, l) ->
  2 <= a <= 6 /\ 0 <= t < 16 /\ 0 <= l /\ a - 1 <= blen s.
Proof.
  intros [|b0 r] a t l Hok H; [discriminate|]. destruct (header_cons_inv _ _ _ _ _ H) as (E & -> & -> & ->).
  rewrite bytes_ok_cons in Hok. apply andb_prop in Hok as [Hb0 Hr]. unfold byte_ok in Hb0.
  destruct (byte_nibbles b0) as [Hs Hl]. pose proof (ext_bytes_le (Z.shiftr b0 4)) as Hn.
  assert (Hv : 0 <= from_bytes_big (firstn (ext_bytes (Z.shiftr b0 4)) r))
    by (apply from_bytes_big_acc_nonneg; [apply bytes_ok_firstn; exact Hr|lia]).
  assert (Hb : 0 <= len_base (Z.shiftr b0 4)) by (unfold len_base; rewrite Hs; repeat decide_if; lia).
  rewrite blen_cons, Hl. unfold blen. lia.
Qed.

Lemma rfc8323_len_spec n : 0 <= n < 65805 + 2 ^ 32 ->
  0 <= fst (rfc8323_len n) < 16 /\ bytes_ok (snd (rfc8323_len n)) = true /\
  ext_bytes (fst (rfc8323_len n)) = length (snd (rfc8323_len n)) /\
  from_bytes_big (snd (rfc8323_len n)) + len_base (fst (rfc8323_len n)) = n.
Proof.
  intros Hn. unfold rfc8323_len. change (2 ^ 32) with 4294967296 in Hn.
  (* the extension bytes are to_bytes_big_n of the reduced length, which from_bytes_big inverts *)
  assert (B : forall (k : nat) v, 0 <= v < 2 ^ (8 * Z.of_nat k) -> from_bytes_big (to_bytes_big_n k v) = v)
    by (intros k v Hv; exact (from_to_bytes_big k v 0 Hv)).
  destruct (n <? 13) eqn:H1. { cbn [fst snd]. unfold ext_bytes, len_base. rewrite H1. repeat split; lia. }
  destruct (n <? 269) eqn:H2. { cbn. unfold byte_ok. repeat split; lia. }
  destruct (n <? 65805) eqn:H3; cbn [fst snd].
  - rewrite <- tb2, to_bytes_big_n_ok, (B 2%nat) by (change (2 ^ (8 * Z.of_nat 2)) with 65536; lia). cbn. repeat split; lia.
  - rewrite <- tb4, to_bytes_big_n_ok, (B 4%nat) by (change (2 ^ (8 * Z.of_nat 4)) with 4294967296; lia). cbn. repeat split; lia.
Qed.

Lemma length_roundtrip : forall n tkl rest, 0 <= n < 65805 + 2 ^ 32 -> 0 <= tkl < 16 ->
  header ((Z.lor (Z.shiftl (fst (rfc8323_len n)) 4) tkl :: snd (rfc8323_len n)) ++ rest)
  = Some (2 + blen (snd (rfc8323_len n)), tkl, n).
Proof.
  intros n tkl rest Hn Ht. destruct (rfc8323_len_spec n Hn) as (Hnib & _ & Hlen & Hval).
  destruct (nibbles_split (fst (rfc8323_len n)) tkl Hnib Ht) as (Hhi & Hlo & _).
  cbn [app]. rewrite header_cons, Hhi, Hlo, Hlen. cbv zeta.
  rewrite app_length, firstn_app, Nat.sub_diag, firstn_all. cbn [firstn]. rewrite app_nil_r, Hval.
  replace (_ <? _)%nat with false by (symmetry; apply Nat.ltb_ge; lia). reflexivity.
Qed.
