(* C07 — over EVERY run of the requester model the message ids the async iterator yields form an in-order subsequence of
   what an observer registered from the start is handed. *)
From Verif Require Import Lib.Py Lib.Tactics Model.C07 Proofs.C07 Proofs.C07Iter Proofs.C07IterRun.
Open Scope Z_scope.

Fixpoint it_ids (l : list out) : list Z := match l with [] => [] | OIt id :: r => id :: it_ids r | _ :: r => it_ids r end.
Lemma it_ids_app a b : it_ids (a ++ b) = it_ids a ++ it_ids b.
Proof. induction a as [|x a IH]; [reflexivity|]. destruct x; cbn; rewrite ?IH; reflexivity. Qed.
Lemma it_ids_itf_nil l : itf l = [] -> it_ids l = [].
Proof. induction l as [|x l IH]; [reflexivity|]. destruct x; cbn; intros H; try discriminate; auto. Qed.

Definition item_ids (x : option item) : list Z := match x with Some (IMsg id) => [id] | _ => [] end.
Definition pend_ids (it : iter) : list Z := item_ids (it_w it) ++ item_ids (it_s it).
Definition wsok (it : iter) : Prop := it_w it = None -> it_s it = None.

Lemma push_ids it x : wsok it ->
  Subseq (pend_ids (push it x)) (pend_ids it ++ item_ids (Some x)) /\ wsok (push it x).
Proof.
  intros W. unfold push, pend_ids, wsok in *. destruct (it_finished it).
  - split; [apply Subseq_prefix|exact W].
  - destruct (it_w it) as [a|] eqn:Ew; cbn [it_w it_s].
    + split; [|discriminate]. destruct a as [a|a], (it_s it) as [[b|b]|], x as [c|c]; cbn; solve_sub.
    + split; [|discriminate]. rewrite (W eq_refl). destruct x; cbn; solve_sub.
Qed.
Lemma npush_err_ids n e : forall it, wsok it -> Subseq (pend_ids (npush n it (IErr e))) (pend_ids it) /\ wsok (npush n it (IErr e)).
Proof.
  induction n as [|n IH]; intros it W; cbn [npush]; [split; [apply Subseq_refl|exact W]|].
  destruct (push_ids it (IErr e) W) as [A B]. cbn [item_ids] in A. rewrite app_nil_r in A.
  destruct (IH _ B) as [A' B']. split; [eapply Subseq_trans; eauto|exact B'].
Qed.

(* one wake-up: what is yielded, followed by what stays pending, is a subsequence of what was pending *)
Lemma anext_drain_ids it : wsok it ->
  Subseq (it_ids (snd (anext_drain it)) ++ pend_ids (fst (anext_drain it))) (pend_ids it) /\ wsok (fst (anext_drain it))
  /\ (it_started it = false -> anext_drain it = (it, [])) /\ (it_started it = true -> it_started (fst (anext_drain it)) = true).
Proof.
  intros W. split; [|split; [|split; apply anext_drain_it]].
  - destruct (anext_drain_cases it) as [->|(_ & _ & x & Ew & [(Ex & ->)|[(Ex & Es & ->)|(Ex & y & Es & ->)]])];
      [apply Subseq_refl|unfold pend_ids; rewrite Ew, ?Es; destruct x as [a|e]; try discriminate Ex; cbn..].
    + destruct e; cbn; constructor.
    + solve_sub.
    + destruct y as [b|e']; cbn; try (destruct e'; cbn); solve_sub.
  - destruct (anext_drain_cases it) as [->|(_ & _ & x & _ & [(_ & ->)|[(_ & _ & ->)|(_ & z & _ & ->)]])]; [exact W|unfold wsok; cbn; auto..].
Qed.

(* Yp: ids yielded so far, Dp: ids handed to observer k so far.  In order: yielded ++ pending is a subsequence of delivered;
   a replacement future only behind a resolved one; while not cancelled k is registered once, the iterator at most once and
   latest_response is the last delivery; cancelled: no callbacks left; iteration not started: iterator not registered,
   nothing pending, nothing yielded *)
Definition IterFed (k : Z) (o : cobs) (it : iter) (Yp Dp : list Z) : Prop :=
  Subseq (Yp ++ pend_ids it) Dp
  /\ wsok it
  /\ (cancelled o = false -> cnt k (callbacks o) = 1%nat /\ (cntI (callbacks o) <= 1)%nat /\ latest_response o = lasto Dp)
  /\ (cancelled o = true -> callbacks o = [])
  /\ (it_started it = false -> cntI (callbacks o) = O /\ pend_ids it = [] /\ Yp = []).

Lemma callback_P k o it id Yp Dp : IterFed k o it Yp Dp ->
  IterFed k (called_back o id) (npush (cntI (callbacks o)) it (IMsg id)) Yp
    (Dp ++ deliveries (view k (map (fun k' => OCb k' id) (observers (callbacks o))))).
Proof.
  intros (A & W & B & C & D). rewrite view_callbacks, repeat_deliveries.
  destruct (cancelled o) eqn:Ec.
  - rewrite (C eq_refl) in *. cbn [cnt cntI npush repeat]. rewrite app_nil_r. unfold IterFed. cbn [called_back callbacks cancelled latest_response]; rewrite ?Ec, ?(C eq_refl).
    split; [exact A|]. split; [exact W|]. split; [discriminate|]. split; [auto|]. intros S. destruct (D S) as (D1 & D2 & D3). auto.
  - destruct (B eq_refl) as (B1 & B2 & B3). rewrite B1. cbn [repeat]. unfold IterFed. cbn [called_back callbacks cancelled latest_response]; rewrite ?Ec.
    assert (Hn : cntI (callbacks o) = O \/ cntI (callbacks o) = 1%nat) by lia.
    destruct Hn as [Hn|Hn]; rewrite Hn; cbn [npush].
    + split; [eapply Subseq_trans; [exact A|apply Subseq_prefix]|].
      split; [exact W|]. split; [intros _; rewrite lasto_snoc; repeat split; auto; lia|]. split; [discriminate|]. intros S. destruct (D S) as (D1 & D2 & D3). auto.
    + destruct (push_ids it (IMsg id) W) as (PA & PW). split; [|split; [exact PW|]].
      * eapply (Subseq_trans ((Yp ++ pend_ids it) ++ [id])); [rewrite <- app_assoc; apply Subseq_app_l; exact PA|apply Subseq_app_r; exact A].
      * split; [intros _; rewrite lasto_snoc; repeat split; auto; lia|]. split; [discriminate|].
        intros S. pose proof (push_flags it (IMsg id)) as PF. unfold flags in PF. inversion PF as [[F1 F2]]. rewrite F1 in S. destruct (D S) as (D1 & _). lia.
Qed.

Lemma error_P k o it e Yp Dp : IterFed k o it Yp Dp ->
  IterFed k (errored o e) (npush (cntI (errbacks o)) it (IErr e)) Yp
    (Dp ++ deliveries (view k (map (fun k' => OEb k' (Some e)) (observers (errbacks o))))).
Proof.
  intros (A & W & B & C & D). rewrite view_errbacks, repeat_ends, app_nil_r.
  destruct (npush_err_ids (cntI (errbacks o)) e it W) as (PA & PW). unfold IterFed. cbn [errored callbacks cancelled latest_response cntI].
  split; [eapply Subseq_trans; [apply Subseq_app_l; exact PA|exact A]|]. split; [exact PW|]. split; [discriminate|]. split; [auto|].
  intros S. pose proof (npush_flags (cntI (errbacks o)) (IErr e) it) as PF. unfold flags in PF. inversion PF as [[F1 F2]]. rewrite F1 in S.
  destruct (D S) as (D1 & D2 & D3). split; [reflexivity|]. split; [|exact D3]. rewrite D2 in PA. inversion PA. reflexivity.
Qed.

Definition IterFedS (k : Z) (s : sys) := IterFed k (s_obs s) (s_iter s).

Lemma apply_actions_P k Yp : forall acts s Dp, IterFedS k s Yp Dp ->
  IterFedS k (aa_sys s acts) Yp (Dp ++ deliveries (view k (aa_outs s acts))).
Proof.
  apply (apply_actions_ind (fun s _ s' o _ => forall Dp, IterFedS k s Yp Dp -> IterFedS k s' Yp (Dp ++ deliveries (view k o)))).
  - intros s Dp H. cbn. rewrite app_nil_r. exact H.
  - intros s e acts Dp H. cbn. rewrite app_nil_r. exact H.
  - intros s a acts s2 o2 r Ha IH Dp H. rewrite deliveries_view_app, app_assoc. apply IH.
    destruct a; try discriminate Ha; cbn [act1 fst snd].
    1,2: cbn; rewrite app_nil_r; exact H.
    + apply callback_P. exact H.
    + apply error_P. exact H.
    + destruct (s_ended s); cbn; rewrite app_nil_r; exact H.
Qed.

Lemma add_event_P k s now ev Yp Dp : IterFedS k s Yp Dp ->
  IterFedS k (fst (add_event s now ev)) (Yp ++ it_ids (snd (add_event s now ev))) (Dp ++ deliveries (view k (snd (add_event s now ev)))).
Proof.
  intros H. destruct (add_event_it s now ev) as [N _]. rewrite (it_ids_itf_nil _ N), app_nil_r.
  destruct (add_event_cases s now ev) as [(En & ->)|[(En & Er & ->)|(En & Er & ->)]]; [cbn; rewrite app_nil_r; exact H..|].
  unfold run_event. set (ra := Request_run _ _ _ _ now ev).
  pose proof (apply_actions_P k Yp (snd ra) (set_runner s (fst ra)) Dp H) as A.
  destruct (aa_raised _ _); [exact A|]. destruct (ev_is_last ev && _); cbn [fst snd]; [|exact A].
  rewrite deliveries_view_app. cbn [view flat_map view1 deliveries]. rewrite app_nil_r. exact A.
Qed.

Lemma drain_P k s Yp Dp : IterFedS k s Yp Dp ->
  IterFedS k (fst (drain s)) (Yp ++ it_ids (snd (drain s))) (Dp ++ deliveries (view k (snd (drain s)))).
Proof.
  intros (A & W & B & C & D). rewrite drain_view. cbn [deliveries]. rewrite app_nil_r.
  unfold drain, IterFedS, IterFed. destruct (anext_drain_ids (s_iter s) W) as (I1 & I2 & I3 & I4).
  destruct (anext_drain (s_iter s)) as [it' outs] eqn:E. cbn [fst snd s_obs s_iter set_parts] in *.
  split; [|split; [exact I2|split; [exact B|split; [exact C|]]]].
  - rewrite <- app_assoc. eapply Subseq_trans; [apply Subseq_app_l; exact I1|exact A].
  - intros S. destruct (it_started (s_iter s)) eqn:Es; [rewrite (I4 eq_refl) in S; discriminate|].
    specialize (I3 eq_refl). inversion I3; subst. destruct (D eq_refl) as (D1 & D2 & D3). subst Yp. auto.
Qed.

Lemma P_frame k o o' it Yp Dp : cancelled o' = cancelled o -> cnt k (callbacks o') = cnt k (callbacks o) ->
  cntI (callbacks o') = cntI (callbacks o) -> latest_response o' = latest_response o -> (callbacks o = [] -> cancelled o = true -> callbacks o' = []) ->
  IterFed k o it Yp Dp -> IterFed k o' it Yp Dp.
Proof.
  intros E1 E2 E3 E4 E5 (A & W & B & C & D). unfold IterFed. rewrite E1, E2, E3, E4.
  split; [exact A|split; [exact W|split; [exact B|split; [|exact D]]]]. intros X. apply E5; [apply C; exact X|exact X].
Qed.

Lemma registered_observer_P k s k' Yp Dp : k' <> k -> IterFedS k s Yp Dp ->
  let r := registered s (s_iter s) (LObserver k') in
  IterFedS k (fst r) Yp Dp /\ it_ids (snd r) = [] /\ deliveries (view k (snd r)) = [].
Proof.
  intros Hk H. cbv zeta. rewrite registered_eq. assert (E : k' =? k = false) by lia.
  destruct (cancelled (s_obs s)) eqn:Ec; [|destruct (latest_response (s_obs s)) eqn:El]; cbn [fst snd it_ids view flat_map view1 app]; rewrite ?E.
  1: split; [exact H|split; reflexivity].
  all: split; [|split; reflexivity]; unfold IterFedS; cbn [s_obs s_iter set_parts].
  all: eapply P_frame; [| | | | |exact H]; cbn [added callbacks cancelled latest_response]; rewrite ?cnt_app, ?cntI_app; cbn; rewrite ?E; auto; try lia.
  all: intros X Y; congruence.
Qed.

Lemma registered_iterator_P k s Dp : it_started (s_iter s) = false -> IterFedS k s [] Dp ->
  let r := registered s idle LIterator in
  IterFedS k (fst r) [] Dp /\ it_ids (snd r) = [] /\ deliveries (view k (snd r)) = [].
Proof.
  intros Es (A & W & B & C & D). destruct (D Es) as (D1 & D2 & _). cbv zeta. rewrite registered_eq. unfold IterFedS, IterFed, wsok.
  destruct (cancelled (s_obs s)) eqn:Ec.
  - destruct (cancellation_reason (s_obs s)) as [e|]; cbn; rewrite Ec;
      (split; [|split; reflexivity]); (split; [constructor|split; [auto|split; [discriminate|split; [exact C|discriminate]]]]).
  - destruct (B eq_refl) as (B1 & B2 & B3).
    destruct (latest_response (s_obs s)) as [l|] eqn:El; cbn; rewrite ?cnt_app, ?cntI_app, ?El, D1, B1; cbn; (split; [|split; reflexivity]).
    + split; [apply lasto_subseq; congruence|]. split; [discriminate|]. split; [intros _; repeat split; auto; lia|]. split; discriminate.
    + split; [constructor|]. split; [auto|]. split; [intros _; repeat split; auto; lia|]. split; discriminate.
Qed.

Lemma step_P k s o Yp Dp : (forall k', o = OpRegister k' -> k' <> k) -> IterFedS k s Yp Dp ->
  IterFedS k (fst (step s o)) (Yp ++ it_ids (snd (step s o))) (Dp ++ deliveries (view k (snd (step s o)))).
Proof.
  intros Hk H. destruct o as [now ev| | |k'| |].
  - apply add_event_P. exact H.
  - cbn [step]. destruct (negb (s_has_obs s)); [cbn; rewrite !app_nil_r; exact H|].
    destruct (cancelled (s_obs s)) eqn:Ec; cbn [fst snd it_ids view flat_map view1 deliveries]; rewrite !app_nil_r; [exact H|].
    destruct H as (A & W & B & C & D). unfold IterFedS, IterFed. cbn. split; [exact A|split; [exact W|split; [discriminate|split; [reflexivity|]]]]. intros S. destruct (D S) as (_ & D2 & D3). auto.
  - rewrite step_cancel_resp. destruct (s_resp s); [|apply drain_P; exact H..].
    pose proof (drain_P k (resp_cancelled s) Yp Dp H) as Dr. cbn [fst snd]. rewrite it_ids_app, deliveries_view_app.
    replace (it_ids (cancel_outs s)) with (@nil Z) by (unfold cancel_outs; destruct (s_ended s); reflexivity).
    replace (deliveries (view k (cancel_outs s))) with (@nil Z) by (unfold cancel_outs; destruct (s_ended s); reflexivity).
    exact Dr.
  - rewrite step_register. destruct (negb (s_has_obs s)); [cbn; rewrite !app_nil_r; exact H|].
    destruct (registered_observer_P k s k' Yp Dp (Hk k' eq_refl) H) as (HP & E1 & E2). rewrite E1, E2, !app_nil_r. exact HP.
  - rewrite step_iter. destruct (negb (s_has_obs s) || it_started (s_iter s)) eqn:Eg; [apply drain_P; exact H|].
    apply orb_false_iff in Eg as [_ Es]. pose proof H as (_ & _ & _ & _ & D). destruct (D Es) as (_ & _ & ->).
    destruct (registered_iterator_P k s Dp Es H) as (HP & E1 & E2). set (r := registered s idle LIterator) in *.
    pose proof (drain_P k (fst r) [] Dp HP) as Dr. cbn [fst snd]. rewrite it_ids_app, deliveries_view_app, E1, E2. exact Dr.
  - apply drain_P. exact H.
Qed.

Lemma run_P k : forall ops s Yp Dp, IterFedS k s Yp Dp -> no_reg k ops ->
  Subseq (Yp ++ it_ids (concat (run s ops))) (Dp ++ deliveries (view k (concat (run s ops)))).
Proof.
  induction ops as [|o ops IH]; intros s Yp Dp H Hn.
  - cbn. rewrite !app_nil_r. destruct H as (A & _). eapply Subseq_trans; [apply Subseq_prefix|exact A].
  - cbn [run]. pose proof (step_P k s o Yp Dp) as St. destruct (step s o) as [s' outs]. cbn [fst snd concat] in *.
    rewrite it_ids_app, deliveries_view_app, !app_assoc. apply IH.
    + apply St; [|exact H]. intros k' ->. apply Hn. left. reflexivity.
    + intros k' Hin. apply Hn. right. exact Hin.
Qed.

Theorem iterator_on_run_subsequence : forall k reset ops, no_reg k ops ->
  Subseq (it_ids (concat (run (sys0 true reset) (OpRegister k :: ops)))) (deliveries (observed k reset ops)).
Proof.
  intros k reset ops Hn. unfold observed. rewrite <- view_concat. cbn [run].
  destruct (R_initial k reset) as (_ & Ho & _).
  assert (P0 : IterFedS k (fst (step (sys0 true reset) (OpRegister k))) [] []).
  { cbn. unfold IterFedS, IterFed, wsok. cbn. rewrite Z.eqb_refl. split; [constructor|]. split; [auto|]. split; [intros _; repeat split; auto; lia|]. split; [discriminate|auto]. }
  destruct (step (sys0 true reset) (OpRegister k)) as [s outs]. cbn [fst snd] in *. subst outs. cbn [concat app].
  apply (run_P k ops s [] [] P0 Hn).
Qed.
