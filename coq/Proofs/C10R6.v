(* C10 — a message that is not a duplicate has no piggy-back opportunity recorded under its (peer, message ID), in every
   reachable state — which discharges the hypothesis [cnt (rpeer r) (mid m) (piggy s) = 0] of the exactly-once theorems.
   Reason: an opportunity lives at most EMPTY_ACK_DELAY (0.1 s), the deduplication entry of the request that created it EXCHANGE_LIFETIME
   (247 s), and the loop fires handles in order of their due time. *)
From Verif Require Import Lib.Py Lib.PyLemmas Lib.Tactics Model.C10 Proofs.C10 Proofs.C10Acks Proofs.C10Live.
Open Scope Z_scope.

Notation rcl := (list ((Z * Z) * option (remote * wire))).

Definition is_forget (t : timer) : bool := match kind t with Forget _ _ => true | _ => false end.
Definition forgets (l : list timer) : list timer := filter is_forget l.
Definition isf (p md : Z) (t : timer) : bool := match kind t with Forget p' md' => (p' =? p) && (md' =? md) | _ => false end.
Definition nforget (p md : Z) (l : list timer) : nat := length (filter (isf p md) (forgets l)).
Lemma isf_forget p md f : isf p md f = true -> is_forget f = true.
Proof. unfold isf, is_forget. destruct (kind f); auto; discriminate. Qed.
Lemma is_forget_kind t : is_forget t = true -> forget_kind t.
Proof. unfold is_forget, forget_kind. destruct (kind t); try discriminate. eauto. Qed.
Lemma filter_isf_forgets p md l : filter (isf p md) (forgets l) = filter (isf p md) l.
Proof.
  unfold forgets. induction l as [|x l IH]; cbn; [reflexivity|]. destruct (is_forget x) eqn:E; cbn; [rewrite IH; reflexivity|].
  destruct (isf p md x) eqn:Ei; [apply isf_forget in Ei; congruence|exact IH].
Qed.
Lemma forgets_cancel l id : forgets (cancel l id) = cancel (forgets l) id.
Proof.
  unfold forgets, cancel. induction l as [|x l IH]; cbn; [reflexivity|].
  destruct (negb (tid x =? id)) eqn:E1; destruct (is_forget x) eqn:E2; cbn; rewrite ?E1, ?E2; cbn; rewrite IH; reflexivity.
Qed.
Lemma forgets_snoc l x : forgets (l ++ [x]) = if is_forget x then forgets l ++ [x] else forgets l.
Proof. unfold forgets. rewrite filter_app. cbn. destruct (is_forget x); [reflexivity|apply app_nil_r]. Qed.

Definition bound (RC : rcl) (p md : Z) : nat := match aget zz_eqb RC (p, md) with None => 0%nat | Some _ => 1%nat end.
Definition RIc (P : pgl) (T : list timer) (RC : rcl) (RT : list timer) : Prop :=
  (* R1 an opportunity's (peer, mid) is registered for deduplication *)
  (forall k pm h, aget pk_eqb P k = Some (pm, h) -> aget zz_eqb RC (fst k, pm) <> None) /\
  (* R2 its empty-ACK handle is due strictly before the handle that will forget that registration *)
  (forall k pm h t f, aget pk_eqb P k = Some (pm, h) -> In t T -> tid t = h -> In f (forgets RT) -> isf (fst k) pm f = true -> due t < due f) /\
  (* R4 at most one pending Forget handle per registered (peer, mid), none for an unregistered one *)
  (forall p md, (length (filter (isf p md) (forgets RT)) <= bound RC p md)%nat) /\
  (* PU one opportunity per (peer, token) *)
  NoDup (map fst P).
Definition RI (s : st) : Prop := RIc (piggy s) (atimers s) (recent s) (rtimers s).

Lemma RI_keep s s' : pframe s s' -> mkeep s s' -> RI s -> RI s'.
Proof.
  unfold RI. intros (F1 & F2 & _) [F3 [F4 F5]] (R1 & R2 & R4 & PU). rewrite F1, F2. split; [|split; [|split; [|exact PU]]].
  - intros k pm h Hg Hn. apply F3 in Hn. eapply R1; eauto.
  - intros k pm h t f Hg Ht Hh Hf Hi. eapply R2; eauto. apply filter_In in Hf as [Hf Hff]. apply filter_In. auto using is_forget_kind.
  - intros p md. specialize (R4 p md). rewrite filter_isf_forgets in *.
    assert (F6 := F5 (isf p md) (fun t Hi => is_forget_kind t (isf_forget p md t Hi))). unfold bound in *.
    destruct (aget zz_eqb (recent s') (p, md)) eqn:E1; destruct (aget zz_eqb (recent s) (p, md)) eqn:E2; try lia.
    exfalso. pose proof (proj1 (F3 (p, md)) E1). congruence.
Qed.

Lemma NoDup_adel (l : pgl) k : NoDup (map fst l) -> NoDup (map fst (adel pk_eqb l k)).
Proof.
  induction l as [|[k0 v0] l IH]; cbn; [auto|]. intros H. inv H. destruct (pk_eqb k0 k); cbn; auto. constructor; auto.
  intros Hin. apply H2. apply in_map_iff in Hin as ([k1 v1] & Hk & Hin). apply in_adel in Hin. apply in_map_iff. exists (k1, v1). auto.
Qed.
Lemma aget_none_notin (l : pgl) k : aget pk_eqb l k = None -> ~ In k (map fst l).
Proof.
  induction l as [|[k0 v0] l IH]; cbn; [tauto|]. destruct (pk_eqb k0 k) eqn:E; [discriminate|]. intros H [Hk|Hk]; [subst; rewrite (eqb_refl _ pk_ok) in E; discriminate|exact (IH H Hk)].
Qed.
Lemma in_aget_nodup (l : pgl) k v : NoDup (map fst l) -> In (k, v) l -> aget pk_eqb l k = Some v.
Proof.
  induction l as [|[k0 v0] l IH]; cbn; [tauto|]. intros H [Hk|Hk]; inv H.
  - inv Hk. rewrite (eqb_refl _ pk_ok). reflexivity.
  - destruct (pk_eqb k0 k) eqn:E; [|auto]. apply pk_ok in E. subst k0. exfalso. apply H2. apply in_map_iff. exists (k, v). auto.
Qed.

Lemma RIc_remove P T RC RT k h : RIc P T RC RT -> RIc (adel pk_eqb P k) (cancel T h) RC RT.
Proof.
  intros (R1 & R2 & R4 & PU). split; [|split; [|split; [exact R4|apply NoDup_adel; exact PU]]].
  - intros k' pm h' Hg. assert (k <> k') by (intros ->; rewrite (aget_adel_same _ pk_ok) in Hg; discriminate). rewrite (aget_adel_other _ pk_ok) in Hg by assumption. eauto.
  - intros k' pm h' t f Hg Ht Hh Hf Hi. assert (k <> k') by (intros ->; rewrite (aget_adel_same _ pk_ok) in Hg; discriminate). rewrite (aget_adel_other _ pk_ok) in Hg by assumption.
    apply cancel_in in Ht as [Ht _]. eapply R2; eauto.
Qed.

Lemma RIc_add P T RC RT key md sq nw delay kd :
  RIc P T RC RT -> aget pk_eqb P key = None -> (forall t, In t T -> tid t <> sq) -> (forall k pm h, aget pk_eqb P k = Some (pm, h) -> h <> sq) ->
  aget zz_eqb RC (fst key, md) <> None -> (forall f, In f (forgets RT) -> isf (fst key) md f = true -> nw + delay < due f) ->
  RIc (aset pk_eqb P key (md, sq)) (T ++ [{| due := nw + delay; tid := sq; kind := kd |}]) RC RT.
Proof.
  intros (R1 & R2 & R4 & PU) Hn HT HP Hreg Hdue. split; [|split; [|split; [exact R4|]]].
  - intros k pm h Hg. destruct (pk_eqb key k) eqn:E.
    + apply pk_ok in E. subst k. rewrite (aget_aset_same _ pk_ok) in Hg. inv Hg. exact Hreg.
    + rewrite (aget_aset_other _ pk_ok) in Hg by (intros Hq; rewrite Hq, (eqb_refl _ pk_ok) in E; discriminate). eauto.
  - intros k pm h t f Hg Ht Hh Hf Hi. destruct (pk_eqb key k) eqn:E.
    + apply pk_ok in E. subst k. rewrite (aget_aset_same _ pk_ok) in Hg. inv Hg. apply in_app_or in Ht as [Ht|[<-|[]]].
      * exfalso. eapply HT; eauto.
      * cbn. auto.
    + rewrite (aget_aset_other _ pk_ok) in Hg by (intros Hq; rewrite Hq, (eqb_refl _ pk_ok) in E; discriminate).
      apply in_app_or in Ht as [Ht|[<-|[]]]; [eapply R2; eauto|]. cbn in Hh. exfalso. eapply HP; eauto.
  - unfold aset, amem. rewrite Hn. rewrite map_app. cbn. apply NoDup_snoc; [exact PU|apply aget_none_notin; exact Hn].
Qed.

Lemma filter_none {A} (g : A -> bool) l : length (filter g l) = 0%nat -> forall x, In x l -> g x = false.
Proof. induction l as [|y l IH]; cbn; [tauto|]. destruct (g y) eqn:E; cbn; [discriminate|]. intros H x [<-|Hx]; auto. Qed.

Lemma RIc_register P T RC RT key dd ti :
  RIc P T RC RT -> aget zz_eqb RC key = None ->
  RIc P T (aset zz_eqb RC key None) (RT ++ [{| due := dd; tid := ti; kind := Forget (fst key) (snd key) |}]).
Proof.
  intros (R1 & R2 & R4 & PU) Hn. unfold RIc. rewrite !forgets_snoc. cbn [is_forget kind].
  assert (Hzero : forall f, In f (forgets RT) -> isf (fst key) (snd key) f = false).
  { apply filter_none. specialize (R4 (fst key) (snd key)). unfold bound in R4. rewrite <- surjective_pairing, Hn in R4. lia. }
  split; [|split; [|split; [|exact PU]]].
  - intros k pm h Hg Hq. apply (aget_aset_none _ zz_ok) in Hq. destruct Hq as [Hq _]. eapply R1; eauto.
  - intros k pm h t f Hg Ht Hh Hf Hi. apply in_app_or in Hf as [Hf|[<-|[]]]; [eapply R2; eauto|].
    exfalso. unfold isf in Hi. cbn in Hi. apply andb_true_iff in Hi as [E1 E2]. apply Z.eqb_eq in E1, E2.
    apply (R1 _ _ _ Hg). rewrite <- E1, <- E2, <- surjective_pairing. exact Hn.
  - intros p md. rewrite filter_app, app_length. cbn. specialize (R4 p md). unfold bound in *.
    destruct ((fst key =? p) && (snd key =? md)) eqn:E.
    + apply andb_true_iff in E as [E1 E2]. apply Z.eqb_eq in E1, E2. subst p md. rewrite <- surjective_pairing in *. rewrite Hn in R4.
      rewrite (aget_aset_same _ zz_ok). cbn. lia.
    + cbn. destruct (aget zz_eqb (aset zz_eqb RC key None) (p, md)) eqn:E1.
      * destruct (aget zz_eqb RC (p, md)); lia.
      * apply (aget_aset_none _ zz_ok) in E1. destruct E1 as [E1 _]. rewrite E1 in R4. lia.
Qed.

Lemma filter_cancel_drop (g : timer -> bool) l f : In f l -> g f = true -> (length (filter g (cancel l (tid f))) + 1 <= length (filter g l))%nat.
Proof.
  unfold cancel. induction l as [|x l IH]; cbn; [tauto|]. intros [<-|Hin] Hg.
  - rewrite Z.eqb_refl. cbn. rewrite Hg. cbn. pose proof (filter_filter_le g (fun t => negb (tid t =? tid x)) l). lia.
  - specialize (IH Hin Hg). destruct (negb (tid x =? tid f)); cbn; destruct (g x); cbn; lia.
Qed.

Lemma RIc_forget P T RC RT f p md : RIc P T RC RT -> In f RT -> kind f = Forget p md ->
  (forall t, In t T -> due f <= due t) -> (forall k pm h, aget pk_eqb P k = Some (pm, h) -> exists t, In t T /\ tid t = h) ->
  RIc P T (adel zz_eqb RC (p, md)) (cancel RT (tid f)).
Proof.
  intros (R1 & R2 & R4 & PU) Hin Hk Hmin HA2.
  assert (Hff : In f (forgets RT)) by (apply filter_In; split; [exact Hin|unfold is_forget; rewrite Hk; reflexivity]).
  assert (Hisf : isf p md f = true) by (unfold isf; rewrite Hk, !Z.eqb_refl; reflexivity).
  unfold RIc. rewrite forgets_cancel. split; [|split; [|split; [|exact PU]]].
  - intros k pm h Hg. rewrite (aget_adel _ zz_ok). destruct (zz_eqb (p, md) (fst k, pm)) eqn:E; [|eapply R1; eauto].
    exfalso. apply zz_ok in E. injection E as E1 E2. destruct (HA2 _ _ _ Hg) as (t & Ht & Hh).
    pose proof (R2 k pm h t f Hg Ht Hh Hff) as Hlt. rewrite <- E1, <- E2 in Hlt. specialize (Hlt Hisf). specialize (Hmin t Ht). lia.
  - intros k pm h t f' Hg Ht Hh Hf Hi. apply cancel_in in Hf as [Hf _]. eapply R2; eauto.
  - intros p' md'. specialize (R4 p' md'). unfold bound in *. rewrite (aget_adel _ zz_ok). destruct (zz_eqb (p, md) (p', md')) eqn:E.
    + apply zz_ok in E. injection E as <- <-. pose proof (filter_cancel_drop (isf p md) (forgets RT) f Hff Hisf).
      destruct (aget zz_eqb RC (p, md)); lia.
    + pose proof (filter_filter_le (isf p' md') (fun t => negb (tid t =? tid f)) (forgets RT)) as Hle. unfold cancel. lia.
Qed.

Lemma length_le1 {A} (l : list A) a b : (length l <= 1)%nat -> In a l -> In b l -> a = b.
Proof. destruct l as [|x [|y l]]; cbn; [tauto|intuition congruence|lia]. Qed.

(* arming needs the request's (peer, mid) registered and its Forget handle due later than the new empty-ACK handle: it was registered
   in this instant, and there is only one Forget handle per registration *)
Lemma astep_RI K C A s o s' : astep K C A s o s' -> AInv s -> RI s -> RI s'.
Proof.
  intros H HA HR. destruct H as [s o s' Hp Hm _|s k pm h id r w _ _ _ _ _ _|s t Hin Hn|s r m _ _ [Hr1 [id Hf0]]|s r m _|s b t _|s d]; try exact HR.
  - (* a_frame *) destruct Hm as [s s' Hk|s p md Hn|s t p md Hin Hk Hmin].
    + eapply RI_keep; eauto.
    + exact (RIc_register _ _ _ _ (p, md) _ _ HR Hn).
    + unfold RI. cbn. destruct HA as (_ & A2 & _). eapply RIc_forget; eauto.
  - (* a_ack *) unfold RI. cbn. apply RIc_remove. exact HR.
  - (* a_stale *) exfalso. destruct HA as (A1 & _). destruct (A1 t Hin) as (_ & _ & r & tok & pm & Hk & Hg). rewrite (Hn _ _ Hk) in Hg. discriminate.
  - (* a_arm *) assert (Hr2 : forall f, In f (forgets (rtimers s)) -> isf (rpeer r) (mid m) f = true -> now s + EMPTY_ACK_DELAY < due f).
    { intros f Hf Hi. destruct HR as (_ & _ & R4 & _). specialize (R4 (rpeer r) (mid m)).
      rewrite (length_le1 (filter (isf (rpeer r) (mid m)) (forgets (rtimers s))) f {| due := now s + EXCHANGE_LIFETIME; tid := id; kind := Forget (rpeer r) (mid m) |}).
      - cbn. unfold EMPTY_ACK_DELAY, EXCHANGE_LIFETIME. lia.
      - unfold bound in R4. destruct (aget zz_eqb _ _); lia.
      - apply filter_In. auto.
      - apply filter_In. split; [apply filter_In; auto|]. unfold isf. cbn. rewrite !Z.eqb_refl. reflexivity. }
    pose proof (fun k pm h => AI_handle_lt _ _ _ _ k pm h HA) as Hlt. destruct HA as (A1 & _).
    destruct (arm_msame s r m) as (Hrc & _ & _ & Hrt). unfold RI. rewrite arm_piggy, arm_atimers, Hrc, Hrt. unfold new_handle.
    destruct (aget pk_eqb (piggy s) (rpeer r, token m)) as [[pm old]|] eqn:Eg.
    + rewrite cancel_snoc by (cbn; specialize (Hlt _ _ _ Eg); lia).
      apply (RIc_add _ _ _ _ (rpeer r, token m)); [apply RIc_remove; exact HR|apply (aget_adel_same _ pk_ok)| | |exact Hr1|exact Hr2].
      * intros t Ht. apply cancel_in in Ht as [Ht _]. destruct (A1 t Ht) as (_ & Hts & _). lia.
      * intros k pm' h Hg. assert ((rpeer r, token m) <> k) by (intros <-; rewrite (aget_adel_same _ pk_ok) in Hg; discriminate).
        rewrite (aget_adel_other _ pk_ok) in Hg by assumption. specialize (Hlt _ _ _ Hg). lia.
    + rewrite (adel_none _ _ _ Eg). apply (RIc_add _ _ _ _ (rpeer r, token m)); [exact HR|exact Eg| | |exact Hr1|exact Hr2].
      * intros t Ht. destruct (A1 t Ht) as (_ & Hts & _). lia.
      * intros k pm' h Hg. specialize (Hlt _ _ _ Hg). lia.
Qed.

Lemma RI_run es s s' os : run s es = (s', os) -> BInv s -> AInv s -> RI s -> RI s'.
Proof.
  intros H HB HA HR. apply (run_ainv (fun x => AInv x /\ RI x)) with (es := es) (s := s) (os := os); auto.
  intros x o x' Hs [HA' HR']. split; [eapply astep_AInv|eapply astep_RI]; eauto.
Qed.
Lemma RI_init m0 t0 : RI (init m0 t0).
Proof. unfold RI, RIc, init. cbn. repeat split; try (intros; discriminate); try (intros; contradiction); [intros; cbn; lia|constructor]. Qed.

(* in every reachable state, a (peer, mid) that is not registered for deduplication has no opportunity recorded under it *)
Lemma RI_fresh s p M : RI s -> aget zz_eqb (recent s) (p, M) = None -> cnt p M (piggy s) = 0%nat.
Proof.
  intros (R1 & _ & _ & PU) Hn. unfold cnt. destruct (filter (counts p M) (piggy s)) as [|[k [pm h]] l] eqn:E; [reflexivity|]. exfalso.
  assert (Hin : In (k, (pm, h)) (filter (counts p M) (piggy s))) by (rewrite E; left; reflexivity).
  apply filter_In in Hin as [Hin Hc]. unfold counts in Hc. cbn in Hc. apply andb_true_iff in Hc as [E1 E2]. apply Z.eqb_eq in E1, E2.
  apply in_aget_nodup in Hin; [|exact PU]. apply (R1 _ _ _ Hin). rewrite E1, E2. exact Hn.
Qed.
Theorem fresh_no_opportunity es m0 t0 s os p M : run (init m0 t0) es = (s, os) ->
  aget zz_eqb (recent s) (p, M) = None -> cnt p M (piggy s) = 0%nat.
Proof. intros H. apply RI_fresh. eapply RI_run; [exact H|apply BInv_init|apply AInv_init|apply RI_init]. Qed.
