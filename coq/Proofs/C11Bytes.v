(* C11 — byte-level facts used by Proofs/C11.v: the framing of the symbolic AEAD can be parsed back; CBOR heads are self-delimiting, so the
   external AAD and the Enc_structure determine what went into them. *)
From Verif Require Import Lib.Py Lib.Tactics Lib.PyLemmas Model.C11.
Open Scope Z_scope.

Lemma blen_tbn n v : blen (to_bytes_big_n n v) = Z.of_nat n.
Proof. unfold blen. rewrite to_bytes_big_n_length. reflexivity. Qed.
Lemma bto_app_n {A} (a b : list A) n : blen a = n -> bto (a ++ b) n = a.
Proof. intros <-. apply bto_app. Qed.
Lemma bfrom_app_n {A} (a b : list A) n : blen a = n -> bfrom (a ++ b) n = b.
Proof. intros <-. apply bfrom_app. Qed.

Lemma take_lp_lp x r : take_lp (lp x ++ r) = Some (x, r).
Proof.
  unfold lp, take_lp. cbn [app]. pose proof (blen_nonneg x). pose proof (blen_nonneg r).
  rewrite Z.mul_comm, <- Z.div_mod by discriminate. rewrite blen_app.
  replace ((0 <=? blen x / 256) && byte_ok (blen x mod 256) && (blen x <=? blen x + blen r)) with true
    by (unfold byte_ok; lia).
  rewrite bto_app, bfrom_app. reflexivity.
Qed.
Lemma take_lp_sound c x r : take_lp c = Some (x, r) -> c = lp x ++ r.
Proof.
  destruct c as [|h [|l t]]; try discriminate. unfold take_lp, byte_ok.
  destruct (_ && _ && _) eqn:E; [|discriminate]. intros [= <- <-].
  unfold lp. rewrite blen_bto by (pose proof (blen_nonneg t); lia).
  rewrite Z.div_add_l, Z.div_small, Z.add_0_r, Z.add_comm, Z_mod_plus_full, Z.mod_small by lia.
  cbn [app]. rewrite bto_bfrom. reflexivity.
Qed.
Lemma sym_parse_enc k n a p : sym_parse (sym_enc k n a p) = Some (k, n, a, p, p).
Proof. unfold sym_parse, sym_enc. rewrite !take_lp_lp. reflexivity. Qed.
Lemma sym_parse_sound c k n a p t : sym_parse c = Some (k, n, a, p, t) -> c = lp k ++ lp n ++ lp a ++ lp p ++ t.
Proof.
  unfold sym_parse.
  destruct (take_lp c) as [[k0 r1]|] eqn:E1; [|discriminate].
  destruct (take_lp r1) as [[n0 r2]|] eqn:E2; [|discriminate].
  destruct (take_lp r2) as [[a0 r3]|] eqn:E3; [|discriminate].
  destruct (take_lp r3) as [[p0 t0]|] eqn:E4; [|discriminate].
  intros [= <- <- <- <- <-].
  apply take_lp_sound in E1, E2, E3, E4. subst. reflexivity.
Qed.

(* injectivity of the CBOR fragment goes through decoders: a head can be read back, whatever follows it *)
Definition head_dec (b : list Z) : option (Z * Z * list Z) :=
  match b with
  | [] => None
  | x :: r =>
      let major := x / 32 in let ai := x mod 32 in
      if ai <? 24 then Some (major, ai, r)
      else if ai =? 24 then match r with a :: r' => Some (major, a, r') | [] => None end
      else if ai =? 25 then Some (major, from_bytes_big (bto r 2), bfrom r 2)
      else if ai =? 26 then Some (major, from_bytes_big (bto r 4), bfrom r 4)
      else Some (major, from_bytes_big (bto r 8), bfrom r 8)
  end.
Lemma head_byte m ai : 0 <= ai < 32 -> (m * 32 + ai) / 32 = m /\ (m * 32 + ai) mod 32 = ai.
Proof. intros H. rewrite Z.add_comm, Z_mod_plus_full, Z.div_add, Z.div_small, Z.mod_small by lia. auto. Qed.
Lemma head_dec_short m ai r : 0 <= ai < 24 -> head_dec ((m * 32 + ai) :: r) = Some (m, ai, r).
Proof.
  intros H. unfold head_dec. destruct (head_byte m ai) as [-> ->]; [lia|].
  replace (ai <? 24) with true by lia. reflexivity.
Qed.
Lemma head_dec_long m ai (k : nat) n r : 0 <= n < 2 ^ (8 * Z.of_nat k) ->
  ai = 25 /\ k = 2%nat \/ ai = 26 /\ k = 4%nat \/ ai = 27 /\ k = 8%nat ->
  head_dec ((m * 32 + ai) :: to_bytes_big_n k n ++ r) = Some (m, n, r).
Proof.
  intros Hn Hk. unfold head_dec. destruct (head_byte m ai) as [-> ->]; [lia|].
  destruct Hk as [[-> ->]|[[-> ->]|[-> ->]]]; cbn [Z.ltb Z.eqb Z.compare Pos.compare Pos.compare_cont Pos.eqb];
    rewrite bto_app_n, bfrom_app_n by apply blen_tbn; unfold from_bytes_big; rewrite from_to_bytes_big by assumption; reflexivity.
Qed.
Lemma head_dec_head m n rest : 0 <= n < 2 ^ 64 -> head_dec (cbor_head m n ++ rest) = Some (m, n, rest).
Proof.
  intros Hn. unfold cbor_head.
  destruct (n <? 24) eqn:E1; [apply head_dec_short; lia|].
  destruct (n <? 256) eqn:E2; [cbn [app head_dec]; destruct (head_byte m 24) as [-> ->]; [lia|reflexivity]|].
  destruct (n <? 65536) eqn:E3; [apply head_dec_long; [cbn; lia|auto]|].
  destruct (n <? 4294967296) eqn:E4; apply head_dec_long; auto; cbn; lia.
Qed.
Definition bstr_dec (b : list Z) : option (list Z * list Z) :=
  match head_dec b with Some (_, n, r) => Some (bto r n, bfrom r n) | None => None end.
Lemma bstr_dec_bstr x rest : blen x < 2 ^ 64 -> bstr_dec (cbor_bstr x ++ rest) = Some (x, rest).
Proof.
  intros H. unfold bstr_dec, cbor_bstr. rewrite <- app_assoc, head_dec_head by (pose proof (blen_nonneg x); lia).
  rewrite bto_app, bfrom_app. reflexivity.
Qed.
Definition int_dec (b : list Z) : option (Z * list Z) :=
  match head_dec b with Some (m, n, r) => Some ((if m =? 0 then n else -1 - n), r) | None => None end.
Lemma int_dec_int v rest : - 2 ^ 64 <= v < 2 ^ 64 -> int_dec (cbor_int v ++ rest) = Some (v, rest).
Proof.
  intros H. unfold int_dec, cbor_int. destruct (0 <=? v) eqn:E; rewrite head_dec_head by lia; [reflexivity|].
  cbn [Z.eqb]. do 2 f_equal. lia.
Qed.

(* the external AAD determines algorithm, request kid and request Partial IV; the Enc_structure determines the external AAD *)
Definition aad_dec (b : list Z) : option (Z * list Z * list Z) :=
  match b with
  | _ :: _ :: _ :: r =>
      match int_dec r with
      | Some (a, r1) => match bstr_dec r1 with
                        | Some (kid, r2) => match bstr_dec r2 with
                                            | Some (piv, _) => Some (a, kid, piv)
                                            | None => None end
                        | None => None end
      | None => None end
  | _ => None
  end.
Lemma aad_dec_aad a r : - 2 ^ 64 <= alg_value a < 2 ^ 64 -> blen (rid_kid r) < 2 ^ 64 -> blen (rid_piv r) < 2 ^ 64 ->
  aad_dec (extract_external_aad a r) = Some (alg_value a, rid_kid r, rid_piv r).
Proof.
  intros Ha Hk Hp.
  (* 0x85 array(5), 0x01 the version, 0x81 array(1) *)
  change (extract_external_aad a r) with
    (133 :: 1 :: (129 :: cbor_int (alg_value a) ++ []) ++ cbor_bstr (rid_kid r) ++ cbor_bstr (rid_piv r) ++ cbor_bstr [] ++ []).
  rewrite app_nil_r. cbn [app aad_dec]. rewrite int_dec_int, !bstr_dec_bstr by assumption. reflexivity.
Qed.
Theorem external_aad_injective a r a' r' :
  - 2 ^ 64 <= alg_value a < 2 ^ 64 -> - 2 ^ 64 <= alg_value a' < 2 ^ 64 ->
  blen (rid_kid r) < 2 ^ 64 -> blen (rid_piv r) < 2 ^ 64 -> blen (rid_kid r') < 2 ^ 64 -> blen (rid_piv r') < 2 ^ 64 ->
  extract_external_aad a r = extract_external_aad a' r' ->
  alg_value a = alg_value a' /\ rid_kid r = rid_kid r' /\ rid_piv r = rid_piv r'.
Proof.
  intros Ha Ha' Hk Hp Hk' Hp' H. apply (f_equal aad_dec) in H. rewrite !aad_dec_aad in H by assumption.
  injection H as -> -> ->. auto.
Qed.
Theorem encrypt0_structure_injective x y : blen x < 2 ^ 64 -> blen y < 2 ^ 64 ->
  build_encrypt0_structure x = build_encrypt0_structure y -> x = y.
Proof.
  intros Hx Hy H. unfold build_encrypt0_structure, cbor_array in H. cbn [concat] in H.
  do 3 apply app_inv_head in H.
  apply (f_equal bstr_dec) in H. rewrite !bstr_dec_bstr in H by assumption. injection H as ->. reflexivity.
Qed.

Lemma blen_head m n : blen (cbor_head m n) <= 9.
Proof. unfold cbor_head. repeat destruct (n <? _); rewrite ?blen_cons, ?blen_tbn; cbn; lia. Qed.
Lemma blen_bstr x : blen (cbor_bstr x) <= 9 + blen x.
Proof. unfold cbor_bstr. rewrite blen_app. pose proof (blen_head 2 (blen x)). lia. Qed.
Lemma blen_int v : blen (cbor_int v) <= 9.
Proof. unfold cbor_int. destruct (0 <=? v); apply blen_head. Qed.
Lemma blen_ext_aad a r : blen (rid_kid r) < 2 ^ 32 -> blen (rid_piv r) < 2 ^ 32 -> blen (extract_external_aad a r) < 2 ^ 64.
Proof.
  intros Hk Hp. unfold extract_external_aad, cbor_array. cbn [concat]. rewrite !blen_app.
  pose proof (blen_bstr (rid_kid r)). pose proof (blen_bstr (rid_piv r)). pose proof (blen_bstr []).
  pose proof (blen_int 1). pose proof (blen_int (alg_value a)).
  pose proof (blen_head 4 5). pose proof (blen_head 4 1).
  change (blen (@nil Z)) with 0 in *. change (blen [_; _; _; _; _]) with 5. change (blen [_]) with 1. lia.
Qed.
