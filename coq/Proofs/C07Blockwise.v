(* C07 — BlockwiseRequest's observation (Model/C07Blockwise.v): once the outer observation has been told its end nothing
   more reaches it, for every history; exact assembly of a body; and the three histories on which the property text fails
   on the faithful model (evaluated in Props/C07.v, replayed on the implementation by the bw stream). *)
From Verif Require Import Lib.Py Lib.Tactics Model.C07 Model.C07Stack Model.C07Iter Model.C07Blockwise.
Open Scope Z_scope.

Definition outer_obs (l : list bout) : list bout := filter is_obs l.

(* the outer observation has been told its end, the observation task is over or was never started, and the only work
   that may still be pending is the Block2 completion of a non-observable first response *)
Definition dead (b : bw) : Prop :=
  b_outer_live b = false /\ b_first_done b = true
  /\ (b_cons b = CDone \/ b_cons b = CNotStarted)
  /\ (b_fetch b = FNone \/ exists id n, b_fetch b = FFirst id n false).

Lemma outer_obs_app a b : outer_obs (a ++ b) = outer_obs a ++ outer_obs b.
Proof. apply filter_app. Qed.

Lemma obs_of_other (g : bout -> bool) l : (forall x, g x = true -> is_obs x = false) -> filter is_obs (filter g l) = [].
Proof. intros H. induction l as [|x l IH]; [reflexivity|]. cbn. destruct (g x) eqn:E; [cbn; rewrite (H x E)|]; exact IH. Qed.
Lemma obs_of_obs l : filter is_obs (filter is_obs l) = filter is_obs l.
Proof. induction l as [|x l IH]; auto; destruct x; cbn; auto; rewrite IH; reflexivity. Qed.
Lemma outer_obs_canon l : outer_obs (canon l) = outer_obs l.
Proof.
  unfold canon, outer_obs.
  rewrite !filter_app, (obs_of_other is_resp), (obs_of_other is_req), (obs_of_other is_wire), obs_of_obs by (intros []; cbn; congruence).
  apply app_nil_r.
Qed.

Lemma lower_wires_obs outs : outer_obs (lower_wires outs) = [].
Proof. induction outs as [|[o|t] outs IH]; cbn; auto. Qed.

(* lower_pushes matches on OCb 99 / OEb 99, i.e. on the binary digits of 99: the nested matches are destructed blindly *)
Lemma lower_pushes_idle outs c : (c = CDone \/ c = CNotStarted) -> lower_pushes outs c = c.
Proof.
  intros H. induction outs as [|x outs IH]; [reflexivity|]. cbn [lower_pushes].
  destruct H as [-> | ->]; repeat match goal with |- context [match ?t with _ => _ end] => destruct t; try exact IH end.
Qed.

Lemma consumer_run_idle fuel now b : (b_cons b = CDone \/ b_cons b = CNotStarted) -> consumer_run fuel now b = (b, []).
Proof. intros H. destruct fuel; [reflexivity|]. cbn [consumer_run]. destruct H as [-> | ->]; reflexivity. Qed.

Lemma ack_obs (mt : mtype) : outer_obs (match mt with CON => [BWire ACK] | _ => [] end) = [].
Proof. destruct mt; reflexivity. Qed.

(* once dead, always dead, and the outer observation hears nothing more — whatever arrives, in whatever order *)
Lemma bstep_dead b o : dead b -> dead (fst (bstep b o)) /\ outer_obs (snd (bstep b o)) = [].
Proof.
  intros (Hl & Hf & Hc & Hfe). destruct o as [now mt id observe bl|now mt id bl etag|now|now]; cbn [bstep].
  - destruct (sstep _ _) as [k' outs]. cbn [b_cons b_fetch b_outer_live b_k b_info b_first_done set_fc set_k].
    rewrite (lower_pushes_idle outs (b_cons b) Hc), Hf.
    rewrite consumer_run_idle by exact Hc. cbn [fst snd app].
    split; [unfold dead; cbn; auto|]. rewrite outer_obs_canon. apply lower_wires_obs.
  - destruct Hfe as [Hfe | (fid & n & Hfe)]; rewrite Hfe.
    + cbn [fst snd]. split; [unfold dead; auto 10|]. destruct mt; reflexivity.
    + destruct (complete_next fid n _) as [[id' n']|[e|]].
      * cbn [set_fc]. rewrite consumer_run_idle by exact Hc. cbn [fst snd].
        split; [unfold dead; cbn; auto|]. rewrite outer_obs_canon. cbn [app outer_obs filter is_obs]. apply ack_obs.
      * unfold fetch_failed. rewrite Hfe, Hl. cbn [fst snd app].
        split; [unfold dead; cbn; auto|]. rewrite outer_obs_canon. cbn [app outer_obs filter is_obs]. apply ack_obs.
      * cbn [fst snd]. split; [unfold dead; cbn; eauto 10|]. rewrite outer_obs_canon. cbn [app outer_obs filter is_obs]. apply ack_obs.
  - destruct (sstep _ _) as [k' outs]. cbn [b_cons b_fetch b_outer_live b_k b_info b_first_done set_fc set_k].
    rewrite (lower_pushes_idle outs (b_cons b) Hc), Hf. unfold fetch_failed. cbn [b_fetch set_fc set_k b_outer_live].
    destruct Hfe as [Hfe | (fid & n & Hfe)]; rewrite Hfe.
    + rewrite consumer_run_idle by exact Hc. cbn [fst snd app]. split; [unfold dead; cbn; auto|]. reflexivity.
    + rewrite Hl. rewrite consumer_run_idle by (cbn; auto). cbn [fst snd app]. split; [unfold dead; cbn; auto|]. reflexivity.
  - destruct (sstep _ _) as [k' outs]. rewrite consumer_run_idle by exact Hc. cbn [fst snd]. split; [unfold dead; cbn; auto|]. reflexivity.
Qed.

Fixpoint brun_outs (b : bw) (ops : list bop) : list bout :=
  match ops with [] => [] | o :: r => snd (bstep b o) ++ brun_outs (fst (bstep b o)) r end.

Theorem bw_silent_after_end : forall ops b, dead b -> outer_obs (brun_outs b ops) = [].
Proof.
  induction ops as [|o ops IH]; intros b D; [reflexivity|].
  cbn [brun_outs]. destruct (bstep_dead b o D) as [D' E]. rewrite outer_obs_app, E. apply IH. exact D'.
Qed.

Lemma dead_cancel_lower b now : b_first_done b = true -> dead (cancel_lower (set_fc b FNone CDone false) now).
Proof. intros Hf. unfold cancel_lower. destruct (cancelled _); unfold dead; cbn; auto. Qed.

(* a body is handed over only when its blocks were contiguous, of the announced size and of one representation *)
Theorem assembly_exact : forall id n r id' n', complete_next id n r = inl (id', n') ->
  (r_blk r = BNone /\ id' = r_id r /\ n' = 1)
  \/ (exists more, r_blk r = BBlock n false true /\ more = false /\ r_etag_ok r = true /\ id' = id /\ n' = n + 1).
Proof.
  intros id n r id' n' H. unfold complete_next in H. destruct (r_blk r) as [|num more ok] eqn:Eb.
  - inversion H; subst. auto.
  - destruct ok; cbn [negb] in H; [|discriminate]. destruct (num =? n) eqn:En; cbn [negb] in H; [|discriminate].
    destruct (r_etag_ok r) eqn:Ee; cbn [negb] in H; [|discriminate]. destruct more; [discriminate|]. inversion H; subst.
    right. exists false. apply Z.eqb_eq in En. subst. auto.
Qed.

(* where the property text fails (open findings) *)
(* A: the final response arrives while the observation task completes a Block2 transfer: it is never handed over *)
Definition final_while_busy : list bop :=
  [ BMain 1 NON 0 (Some 5) BNone; BMain 2 NON 1 (Some 6) (BBlock 0 true true); BMain 3 NON 2 None BNone;
    BSub 4 NON 3 (BBlock 1 false true) true; BDrain 5 ].

(* B: the first response's Block2 completion fails: the token stays registered and notifications are ACKed for good *)
Definition first_fetch_fails : list bop :=
  [ BMain 1 NON 0 (Some 5) (BBlock 0 true true); BSub 2 NON 1 (BBlock 1 false true) false;
    BMain 3 CON 2 (Some 6) BNone; BMain 4 CON 3 (Some 7) BNone ].

(* C: a notification's Block2 completion fails: the token is released only by the next notification, which is ACKed *)
Definition notif_fetch_fails : list bop :=
  [ BMain 1 NON 0 (Some 5) BNone; BMain 2 NON 1 (Some 6) (BBlock 0 true true); BSub 3 NON 2 (BBlock 1 false true) false;
    BMain 4 CON 3 (Some 7) BNone; BMain 5 CON 4 (Some 8) BNone ].
