(* C20 — exact expiry, frame of the write requests, exactness of the lookups *)
From Coq Require Import String.
From Verif Require Import Lib.Py Lib.PyLemmas Lib.Tactics Model.C20Str Model.C20 Proofs.C20Dict Proofs.C20.
Open Scope Z_scope.

Lemma advance_step st dt : Inv st -> step st (Advance dt) = (advance st dt, Tick).
Proof.
  intros I. unfold step. cbn [handle]. rewrite drain_id; [reflexivity|]. apply advance_Settled; assumption.
Qed.

Lemma expiry_exact st dt : Inv st -> Settled st ->
  let st' := fst (step st (Advance dt)) in
  now st' = now st + dt /\
  forall k id, In (k, id) (by_key st') <->
               (In (k, id) (by_key st) /\ exists due s, r_timer (obj st id) = Some (due, s) /\ now st + dt < due /\ obj st' id = obj st id).
Proof.
  intros I S. rewrite advance_step by assumption. cbn [fst]. split; [reflexivity|].
  intros k id. rewrite (In_fire_all st (now st + dt) k id I : In _ (by_key (advance st dt)) <-> _). split.
  - intros (H & due & s & Ht & Hlt). split; [exact H|]. exists due, s. split; [exact Ht|split; [exact Hlt|]].
    apply (proj2 (fire_all st (now st + dt) I) k id), In_fire_all; eauto.
  - intros (H & due & s & Ht & Hlt & _). eauto.
Qed.

Lemma res_pairs_snd regs : map snd (res_pairs regs) = flat_map get_based_links regs.
Proof.
  unfold res_pairs. induction regs as [|e l IH]; cbn; [reflexivity|].
  rewrite map_app, map_map. cbn. rewrite map_id. rewrite IH. reflexivity.
Qed.

(* an empty query has no criteria and no pagination *)
Lemma ep_lookup_regs_plain regs : ep_lookup_regs regs [] None = Content (str_links (map get_host_link regs)).
Proof. unfold ep_lookup_regs. cbn [query_split fold_left criteria_of flat_map forallb]. rewrite filter_all by reflexivity. reflexivity. Qed.
Lemma res_lookup_regs_plain regs : res_lookup_regs regs [] None = Content (str_links (map strip_anchor (flat_map get_based_links regs))).
Proof.
  unfold res_lookup_regs. cbn [query_split fold_left criteria_of flat_map forallb]. rewrite filter_all by reflexivity.
  rewrite res_pairs_snd. reflexivity.
Qed.
Lemma ep_lookup_plain st : ep_lookup st [] None = Content (str_links (map get_host_link (get_endpoints st))).
Proof. apply ep_lookup_regs_plain. Qed.
Lemma res_lookup_plain st :
  res_lookup st [] None = Content (str_links (map strip_anchor (flat_map get_based_links (get_endpoints st)))).
Proof. apply res_lookup_regs_plain. Qed.

(* the registrations listed by an unfiltered lookup are exactly the objects whose lifetime timer is pending and not due,
   each once, under distinct names and distinct locations *)
Lemma lookup_exact st : Inv st -> Settled st ->
  ep_lookup st [] None = Content (str_links (map get_host_link (get_endpoints st))) /\
  res_lookup st [] None = Content (str_links (map strip_anchor (flat_map get_based_links (get_endpoints st)))) /\
  (forall r, In r (get_endpoints st) <-> exists id due s, In (id, r) (objs st) /\ r_timer r = Some (due, s) /\ now st < due) /\
  NoDup (map r_key (get_endpoints st)) /\ NoDup (map r_path (get_endpoints st)).
Proof.
  intros I S. pose proof (inv_ids I) as NI.
  split; [apply ep_lookup_plain|split; [apply res_lookup_plain|split; [|split]]].
  - intros r. unfold get_endpoints. rewrite in_map_iff. split.
    + intros ([k id] & <- & H). cbn [snd]. destruct (indexed_has_timer st k id I H) as (due & s & Ho & Et).
      exists id, due, s. split; [exact Ho|split; [exact Et|eapply S; eauto]].
    + intros (id & due & s & Ho & Ht & _). exists (r_key r, id). cbn [snd]. split; [apply obj_In; assumption|].
      exact (timer_indexed st id r due s I Ho Ht).
  - unfold get_endpoints. rewrite map_map.
    replace (map (fun kv => r_key (obj st (snd kv))) (by_key st)) with (map fst (by_key st)); [apply I|].
    apply map_ext_in. intros [k id] H. symmetry. exact (indexed_key st k id I H).
  - unfold get_endpoints. rewrite map_map. apply NoDup_map_in; [exact (NoDup_map_inv fst _ (inv_keys I))|].
    intros [k1 id1] [k2 id2] H1 H2 E. cbn [snd] in E.
    destruct (key_eq_dec k1 k2) as [<-|N]; [|destruct (distinct_locations st k1 k2 id1 id2 I H1 H2 N E)].
    f_equal. exact (In_fun _ _ _ _ (inv_keys I) H1 H2).
Qed.

(* the registration a request is addressed to *)
Definition target (st : rd) (o : op) : option Z :=
  match o with
  | UpdatePost path _ _ _ | UpdatePut path _ _ _ | Delete path => lookup_path st path
  | _ => None
  end.

Definition is_advance (o : op) : bool := match o with Advance _ => true | _ => false end.

(* a request that rewrites the registration [tid] in place and leaves the index alone *)
Lemma inplace_frame st st1 tid (r : resp) : by_key st1 = by_key st -> (forall id, id <> tid -> obj st1 id = obj st id) ->
  (forall k id, In (k, id) (by_key st1) -> id < next_id st -> Some id <> Some tid -> In (k, id) (by_key st) /\ obj st1 id = obj st id) /\
  (forall k id, In (k, id) (by_key st) -> Some id <> Some tid ->
     (In (k, id) (by_key st1) /\ obj st1 id = obj st id) \/ (exists loc, r = Created loc /\ dget key_eqb (by_key st1) k = Some (next_id st))).
Proof.
  intros Bk Ob. rewrite Bk. split.
  - intros k id H _ N. split; [exact H|apply Ob; congruence].
  - intros k id H N. left. split; [exact H|apply Ob; congruence].
Qed.

Lemma handle_frame st o st1 r : Inv st -> is_advance o = false -> handle st o = (st1, r) ->
  now st1 = now st /\
  (forall k id, In (k, id) (by_key st1) -> id < next_id st -> Some id <> target st o -> In (k, id) (by_key st) /\ obj st1 id = obj st id) /\
  (forall k id, In (k, id) (by_key st) -> Some id <> target st o ->
     (In (k, id) (by_key st1) /\ obj st1 id = obj st id) \/ (exists loc, r = Created loc /\ dget key_eqb (by_key st1) k = Some (next_id st))).
Proof.
  intros I NA H. destruct (handle_cases _ _ _ _ I H) as [[-> _]|W]; [split; [reflexivity|split; auto]|].
  destruct W as [remote q b r0 links Rp Tm|path remote q b tid r' EP EU|path remote q b tid r' links EP EU|path tid EP|dt];
    cbn [target]; try discriminate NA; rewrite ?EP; (split; [reflexivity|]).
  - change (by_key (set_obj (registered st (r_key r0) r0) (next_id st) (set_links r0 links))) with (by_key (registered st (r_key r0) r0)).
    rewrite (by_key_registered st _ r0 I).
    assert (Ob : forall k id, In (k, id) (by_key st) -> k <> r_key r0 ->
              obj (set_obj (registered st (r_key r0) r0) (next_id st) (set_links r0 links)) id = obj st id).
    { intros k id H0 Nk. pose proof (indexed_old st k id I H0). rewrite obj_other by lia. exact (obj_registered_other st _ r0 k id I H0 Nk). }
    split.
    + intros k id H0 Hlt _. apply in_app_or in H0. destruct H0 as [H0|[E|[]]]; [|inv E; lia].
      apply In_without in H0. split; [apply H0|apply (Ob k); apply H0].
    + intros k id H0 _. destruct (key_eq_dec k (r_key r0)) as [->|Nk].
      * right. eexists. split; [reflexivity|]. rewrite <- (by_key_registered st _ r0 I). apply (dget_dset_same key_eqb_spec).
      * left. split; [apply in_or_app; left; apply In_without; auto|exact (Ob k id H0 Nk)].
  - apply inplace_frame; [reflexivity|]. intros id N. exact (obj_other st tid r' id N).
  - apply inplace_frame; [reflexivity|]. intros id N.
    rewrite (obj_other (updated st tid r') tid _ id N). exact (obj_other st tid r' id N).
  - pose proof (deleted_frame st tid _ I (proj1 (lookup_indexed st path tid I EP))) as F. split.
    + intros k id H0 _ _. apply F in H0. split; [apply H0|apply obj_deleted_other, H0].
    + intros k id H0 N. assert (N' : id <> tid) by congruence. left. split; [apply F; auto|exact (obj_deleted_other st tid id N')].
Qed.

(* A request other than the passage of time: every registration that is neither addressed by it nor replaced by a
   re-registration of its own (ep, d) stays listed and keeps every field; and every registration listed afterwards that existed
   before and was not addressed was listed before with the same fields. *)
Lemma step_frame st o st' r : Inv st -> Settled st -> is_advance o = false -> step st o = (st', r) ->
  (forall k id, In (k, id) (by_key st') -> id < next_id st -> Some id <> target st o -> In (k, id) (by_key st) /\ obj st' id = obj st id) /\
  (forall k id, In (k, id) (by_key st) -> Some id <> target st o ->
     (In (k, id) (by_key st') /\ obj st' id = obj st id) \/ (exists loc, r = Created loc /\ k = r_key (obj (fst (handle st o)) (next_id st)))).
Proof.
  intros I S NA. unfold step. destruct (handle st o) as [st1 r1] eqn:EH. intros H; inv H.
  destruct (handle_frame _ _ _ _ I NA EH) as (Nw & F1 & F2). destruct (handle_Inv _ _ _ _ I EH) as (I1 & _ & _).
  unfold drain. destruct (fire_all st1 (now st1) I1) as [_ Eo]. cbn [fst]. split.
  - intros k id H Hlt N. destruct (F1 _ _ (proj1 (proj1 (In_fire_all st1 _ _ _ I1) H)) Hlt N) as [H2 E2]. split; [exact H2|]. rewrite (Eo _ _ H). exact E2.
  - intros k id H N. destruct (F2 _ _ H N) as [[H1 E1]|(loc & -> & Hd)].
    + left. destruct (indexed_has_timer st k id I H) as (due & s & Hx & Et).
      pose proof (S _ _ _ _ Hx Et) as Hlt. rewrite <- Nw in Hlt.
      assert (Hin : In (k, id) (by_key (fire_due (length (objs st1)) st1 (now st1)))).
      { apply (In_fire_all st1 _ _ _ I1). split; [exact H1|]. exists due, s. rewrite E1. auto. }
      split; [exact Hin|]. rewrite (Eo _ _ Hin). exact E1.
    + right. exists loc. split; [reflexivity|].
      symmetry. exact (indexed_key st1 k _ I1 (dget_In key_eqb_spec _ _ _ Hd)).
Qed.

(* lookups are answered 2.05, 4.06 or 4.00 only: the filters are total boolean functions, pagination converts its errors *)
Lemma _paginate_err {A} (l : list A) q e : _paginate l q = Raise e -> e = BadRequest.
Proof.
  unfold _paginate, bind.
  destruct (pop_single_arg q "page") as [[q1 page]|e0] eqn:E1; [|intros H; inv H; exact (pop_single_arg_err _ _ _ E1)].
  destruct (pop_single_arg q1 "count") as [[q2 count]|e0] eqn:E2; [|intros H; inv H; exact (pop_single_arg_err _ _ _ E2)].
  (* what is left raises TypeError (int(None)) or ValueError only, and both are converted *)
  destruct page as [pg|], count as [ct|]; cbn [py_int]; repeat (match goal with |- context [parse_int ?s] => destruct (parse_int s) end);
    intros H; inv H; reflexivity.
Qed.
Lemma ep_lookup_regs_err regs q accept e : ep_lookup_regs regs q accept = Err e -> e = BadRequest.
Proof.
  unfold ep_lookup_regs. destruct (_paginate _ (query_split q)) as [l'|e'] eqn:EP; [|intros H; inv H; exact (_paginate_err _ _ _ EP)].
  destruct (link_format_to_message_cases accept (map get_host_link l')) as [->| ->]; discriminate.
Qed.
Lemma res_lookup_regs_err regs q accept e : res_lookup_regs regs q accept = Err e -> e = BadRequest.
Proof.
  unfold res_lookup_regs. destruct (_paginate _ (query_split q)) as [l'|e'] eqn:EP; [|intros H; inv H; exact (_paginate_err _ _ _ EP)].
  destruct (link_format_to_message_cases accept (map strip_anchor l')) as [->| ->]; discriminate.
Qed.

Definition live_reg (st : rd) (r : reg) : Prop := exists id due s, In (id, r) (objs st) /\ r_timer r = Some (due, s) /\ now st < due.

Lemma In_res_pairs regs e l : In (e, l) (res_pairs regs) <-> In e regs /\ In l (get_based_links e).
Proof.
  unfold res_pairs. rewrite in_flat_map. split.
  - intros (e0 & He0 & H). apply in_map_iff in H. destruct H as (l0 & E & Hl0). inv E. auto.
  - intros [He Hl]. exists e. split; [exact He|apply in_map; exact Hl].
Qed.
