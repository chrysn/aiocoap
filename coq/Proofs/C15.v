(* C15 — the reaction to each kind of message as an exact equation. Re-exports C15Framing, C15Codec, C15Conn. *)
From Verif Require Import Lib.Py Lib.Tactics Lib.PyLemmas Gen.options_ext Gen.tcp_framing Model.C15.
From Verif Require Export Proofs.C15Framing Proofs.C15Codec Proofs.C15Conn.
Open Scope Z_scope.

Lemma serialize_abort_texts :
  serialize (abort_msg txt_overly_large None) = Ok (abort_frame txt_overly_large) /\
  serialize (abort_msg txt_failed_to_parse None) = Ok (abort_frame txt_failed_to_parse) /\
  serialize (abort_msg txt_no_csm None) = Ok (abort_frame txt_no_csm) /\
  serialize (abort_msg txt_unknown_critical_option None) = Ok (abort_frame txt_unknown_critical_option) /\
  serialize (abort_msg txt_unknown_signalling_code None) = Ok (abort_frame txt_unknown_signalling_code).
Proof. repeat split; vm_compute; reflexivity. Qed.

Lemma abort_none c t : serialize (abort_msg t None) = Ok (abort_frame t) ->
  abort c t None = (set_closed c, [Write (abort_frame t); Close], true).
Proof. intros H. unfold abort. rewrite H. reflexivity. Qed.

Lemma empty_ignored c m s : remote_settings c = Some s -> code m = 0 -> handle_message c m = (c, [], Continue).
Proof. intros Hs Hc. unfold handle_message, dispatch_incoming. rewrite Hc, Hs. reflexivity. Qed.

Lemma dispatch_exact c m s : remote_settings c = Some s -> is_signalling (code m) = false -> code m <> 0 ->
  handle_message c m = (c, [if is_response (code m) then Response m else Request m], Continue).
Proof.
  intros Hs Hc H0. unfold handle_message, dispatch_incoming. rewrite Hc, Hs.
  replace (code m =? 0) with false by lia. destruct (is_response (code m)); reflexivity.
Qed.

Lemma serialize_pong tok : blen tok <= 8 ->
  serialize {| code := PONG; token := tok; opts := []; payload := [] |} = Ok ([blen tok; PONG] ++ tok).
Proof.
  intros H. unfold serialize. unfold option_list. cbn [opts payload token code fold_left options_encode options_encode_from bind app blen length].
  change (encode_length (blen (@nil Z))) with (Ok (0, @nil Z)). cbn [bind].
  replace (blen tok >? 8) with false by lia. change (Z.shiftl 0 4) with 0. rewrite Z.lor_0_l.
  cbn [app]. rewrite app_nil_r. reflexivity.
Qed.

(* process_signaling on Ping / Pong / Release / Abort, the branch selection done once *)
Definition known_code (m : msg) : Prop := code m = PING \/ code m = PONG \/ code m = RELEASE \/ code m = ABORT.
Lemma known_is_signalling m : known_code m -> is_signalling (code m) = true.
Proof. unfold known_code, is_signalling, PING, PONG, RELEASE, ABORT. lia. Qed.
Lemma process_signaling_known c m : known_code m ->
  process_signaling c m =
  if has_critical (opts m) then
    let '(c1, o1, ok) := abort c txt_unknown_critical_option None in (c1, o1, if ok then SOk else SExc)
  else if code m =? PING then
    let '(c2, o2, ok2) := send_message c {| code := PONG; token := token m; opts := []; payload := [] |} in
    (c2, o2, if ok2 then SOk else SExc)
  else if code m =? PONG then (c, [], SOk)
  else if code m =? RELEASE then (c, [], SClose PeerReleased)
  else (c, [], SClose PeerAborted).
Proof.
  intros H. unfold process_signaling, known_code, CSM, PING, PONG, RELEASE, ABORT in *.
  replace (code m =? 225) with false by lia.
  replace ((code m =? 226) || (code m =? 227) || (code m =? 228) || (code m =? 229)) with true by lia. reflexivity.
Qed.

Lemma ping_pong c m : code m = PING -> has_critical (opts m) = false -> blen (token m) <= 8 ->
  process_signaling c m = (c, [Write ([blen (token m); PONG] ++ token m)], SOk).
Proof.
  intros Hc Hn Ht. rewrite process_signaling_known, Hn, Hc by (left; exact Hc).
  unfold send_message. rewrite serialize_pong by exact Ht. reflexivity.
Qed.

Lemma release_abort_close c m : code m = RELEASE \/ code m = ABORT -> has_critical (opts m) = false ->
  handle_message c m =
  (set_closed c, [DispatchError (if code m =? RELEASE then PeerReleased else PeerAborted); Close], Return).
Proof.
  intros Hc Hn. assert (Hk : known_code m) by (unfold known_code; tauto).
  unfold handle_message. rewrite (known_is_signalling m Hk), (process_signaling_known c m Hk), Hn.
  destruct Hc as [Hc|Hc]; rewrite Hc; reflexivity.
Qed.

Lemma pong_ignored c m : code m = PONG -> has_critical (opts m) = false ->
  handle_message c m = (c, [], if closed c then Return else Continue).
Proof.
  intros Hc Hn. assert (Hk : known_code m) by (unfold known_code; tauto).
  unfold handle_message. rewrite (known_is_signalling m Hk), (process_signaling_known c m Hk), Hn, Hc. reflexivity.
Qed.

Lemma abort_on_oversize c d a t l : header (spool c ++ d) = Some (a, t, l) -> a + t + l > my_max_message_size c ->
  data_received c d = (set_closed (feed c d), [Write (abort_frame txt_overly_large); Close]).
Proof.
  intros Hh Hbig. unfold data_received. rewrite data_received_ctl_loop'. unfold loop'.
  cbn [data_received_loop]. rewrite loop_body_view. unfold view_body, view_of.
  change (spool (feed c d)) with (spool c ++ d). rewrite Hh.
  change (my_max_message_size (feed c d)) with (my_max_message_size c).
  replace (a + t + l >? my_max_message_size c) with true by lia.
  rewrite abort_none by apply serialize_abort_texts. reflexivity.
Qed.

Lemma abort_on_unparsable c d f r : view_of (my_max_message_size c) (spool c ++ d) = VFrame f r ->
  decode_message f = Raise UnparsableMessage ->
  data_received c d = (set_closed (feed c d), [Write (abort_frame txt_failed_to_parse); Close]).
Proof.
  intros V Hdec. unfold data_received. rewrite data_received_ctl_loop'. unfold loop'.
  cbn [data_received_loop]. rewrite loop_body_view. unfold view_body.
  change (spool (feed c d)) with (spool c ++ d). change (my_max_message_size (feed c d)) with (my_max_message_size c).
  rewrite V. unfold frame_step. rewrite Hdec. unfold decode_failed.
  rewrite abort_none by apply serialize_abort_texts. reflexivity.
Qed.

Lemma unknown_signalling_code_aborts c m : is_signalling (code m) = true ->
  code m <> CSM -> code m <> PING -> code m <> PONG -> code m <> RELEASE -> code m <> ABORT ->
  handle_message c m = (set_closed c, [Write (abort_frame txt_unknown_signalling_code); Close], Return).
Proof.
  intros Hs H1 H2 H3 H4 H5. unfold handle_message, process_signaling. rewrite Hs.
  replace (code m =? CSM) with false by (unfold CSM in *; lia).
  replace ((code m =? PING) || (code m =? PONG) || (code m =? RELEASE) || (code m =? ABORT)) with false
    by (unfold PING, PONG, RELEASE, ABORT in *; lia).
  rewrite abort_none by apply serialize_abort_texts. reflexivity.
Qed.

Lemma stream_processed_as_messages : forall ms c bs,
  Forall (fun m => msg_ok m = true) ms -> Forall (fun m => fits (my_max_message_size c) m = true) ms ->
  frames ms = Ok bs -> spool c = [] ->
  let '(c1, o1) := data_received c bs in let '(c2, o2) := process_messages c ms in
  o1 = o2 /\ set_spool c1 [] = set_spool c2 [].
Proof.
  intros ms c bs Hok Hfit Hfr Hsp. destruct (stream_received ms c bs Hok Hfit Hfr Hsp) as [_ H].
  unfold data_received. rewrite data_received_ctl_loop'. destruct (loop' (feed c bs)) as [[c1 o1] k].
  destruct (process_messages c ms) as [c2 o2]. split; apply H.
Qed.

Lemma to_minimum_bytes_short n : 0 <= n < 2 ^ 64 -> blen (to_minimum_bytes n) <= 8.
Proof.
  intros Hn. unfold to_minimum_bytes, blen. rewrite to_bytes_big_n_length.
  assert (Hb : 0 <= bit_length n <= 64).
  { unfold bit_length. destruct (n <=? 0) eqn:E; [lia|].
    assert (Z.log2 n < 64) by (apply Z.log2_lt_pow2; lia). pose proof (Z.log2_nonneg n). lia. }
  rewrite Z2Nat.id by lia. lia.
Qed.

Lemma serialize_abort_bad n : 0 <= n < 2 ^ 64 ->
  exists b, serialize (abort_msg txt_option_not_supported (Some n)) = Ok b.
Proof.
  intros Hn. pose proof (to_minimum_bytes_short n Hn) as Hv. pose proof (blen_nonneg (to_minimum_bytes n)) as Hv0.
  unfold serialize, abort_msg. cbn [opts payload token code].
  unfold option_list. cbn [fold_left insert_opt].
  unfold options_encode. cbn [options_encode_from].
  change (write_extended_field_value (2 - 0)) with (Ok (2, @nil Z)). cbn [bind].
  unfold write_extended_field_value at 1.
  assert (E : (blen (to_minimum_bytes n) >=? 0) && (blen (to_minimum_bytes n) <? 13) = true) by lia. rewrite E. cbn [bind].
  set (od := [Z.shiftl (Z.land 2 15) 4 + Z.land (blen (to_minimum_bytes n)) 15] ++ [] ++ [] ++ to_minimum_bytes n ++ []).
  change (match txt_option_not_supported with [] => [] | _ :: _ => 255 :: txt_option_not_supported end) with (255 :: txt_option_not_supported).
  set (data := od ++ 255 :: txt_option_not_supported).
  assert (Hd : 0 <= blen data < 65805 + 2 ^ 32).
  { unfold data, od, blen in *. cbn [app]. rewrite app_nil_r. cbn [length]. rewrite app_length. cbn [length].
    change (length txt_option_not_supported) with 20%nat. change (2 ^ 32) with 4294967296. lia. }
  rewrite encode_length_rfc8323 by exact Hd. cbn [bind]. destruct (rfc8323_len (blen data)) as [len ext].
  change (blen (@nil Z) >? 8) with false. cbv iota. eexists. reflexivity.
Qed.

(* a CSM with an unknown critical option: Abort carrying Bad-CSM-Option, close, return; the CSM has been
   received (the settings are set), but nothing after it is processed *)
Lemma csm_critical_option_aborts c m n v : code m = CSM -> In (n, v) (opts m) -> is_critical n = true ->
  (forall n' v', In (n', v') (opts m) -> 0 <= n' < 2 ^ 64) ->
  exists c1 b n1, handle_message c m = (c1, [Write b; Close], Return) /\ closed c1 = true /\
    remote_settings c1 <> None /\ is_critical n1 = true /\
    serialize (abort_msg txt_option_not_supported (Some n1)) = Ok b.
Proof.
  intros Hc Hin Hcrit Hb. unfold handle_message, process_signaling. rewrite Hc.
  change (is_signalling CSM) with true. change (CSM =? CSM) with true. cbv iota.
  destruct (process_csm_options_eq (opts m)
    match remote_settings c with Some s => s | None => {| max_message_size := None; block_wise_transfer := false |} end) as [st1 E].
  rewrite E. destruct (find _ (opts m)) as [[n1 v1]|] eqn:F.
  - apply find_some in F as [Hin1 Hc1]. destruct (serialize_abort_bad n1 (Hb n1 v1 Hin1)) as [b Hser].
    unfold abort. cbn [fst]. rewrite Hser. exists (set_settings (set_closed c) (Some st1)), b, n1. repeat split; auto. discriminate.
  - pose proof (find_none _ _ F (n, v) Hin) as H. cbn in H. congruence.
Qed.
