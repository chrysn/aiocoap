(* C03 — the TransportTuning formulas translated from numbers/constants.py (Gen/c03_constants.v): the defaults are the RFC 7252
   values, and the give-up instant of the retransmission model lies within MAX_TRANSMIT_WAIT as computed by the translated code. *)
From Coq Require Import ZArith QArith Lia List String.
From Verif Require Import Gen.c03_constants Model.C03 Model.C03const Proofs.C03struct Proofs.C03main.
Import ListNotations.
Open Scope Z_scope.

(* ACK_TIMEOUT 2 s, ACK_RANDOM_FACTOR 1.5, MAX_RETRANSMIT 4, MAX_TRANSMIT_SPAN 45 s, MAX_TRANSMIT_WAIT 93 s, PROCESSING_DELAY 2 s,
   MAX_RTT 202 s, EXCHANGE_LIFETIME 247 s, MAX_LATENCY 100 s, EMPTY_ACK_DELAY 0.1 s, OBSERVATION_RESET_TIME 128, NSTART 1;
   every one a whole number of microseconds *)
Lemma defaults_match_rfc :
  derived_us default_transport_tuning =
  [(2000000, 1); (1500000, 1); (4, 1); (45000000, 1); (93000000, 1); (2000000, 1); (202000000, 1); (247000000, 1);
   (100000000, 1); (100000, 1); (128, 1); (1, 1)].
Proof. vm_compute. reflexivity. Qed.

(* seconds (Q) of a microsecond count *)
Definition q_of_us (us : Z) : Q := Qmake us 1000000.

Lemma giveup_within_MAX_TRANSMIT_WAIT : forall tn t, wf_tuning tn -> range tn t ->
  (q_of_us (t * (2 ^ (MAX_RETRANSMIT tn + 1) - 1)) <= MAX_TRANSMIT_WAIT (tt_of tn))%Q /\
  (q_of_us (t * (2 ^ MAX_RETRANSMIT tn - 1)) <= MAX_TRANSMIT_SPAN (tt_of tn))%Q.
Proof.
  intros tn t Hwf Hr. destruct (within_max_transmit_wait tn t Hwf Hr) as [H1 H2].
  destruct Hwf as (HA & Hd & Hn & HR).
  unfold MAX_TRANSMIT_WAIT, MAX_TRANSMIT_SPAN, tt_of, q_of_us, Qle. cbn [tt_ACK_TIMEOUT tt_ACK_RANDOM_FACTOR tt_MAX_RETRANSMIT Qmult Qnum Qden inject_Z].
  rewrite !Pos2Z.inj_mul, !Z2Pos.id by lia. split; nia.
Qed.
