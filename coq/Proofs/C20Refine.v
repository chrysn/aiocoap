(* C20 — refinement of the resource-directory model (heap + two indexes + timers) to the abstract directory of
   Model/C20Spec.v: every request and every passage of time commutes with [abs] and is answered as the specification answers. *)
From Coq Require Import String.
From Coq Require DecimalString DecimalZ DecimalPos.
From Verif Require Import Lib.Py Lib.PyLemmas Lib.Tactics Model.C20Str Model.C20 Model.C20Spec Proofs.C20Dict Proofs.C20 Proofs.C20More.
Open Scope Z_scope.

Lemma reg_of_entry_of r : reg_of_entry (entry_of r) = set_timer r None.
Proof. destruct r; reflexivity. Qed.

(* the specification's write is the model's update_params, stamped with the instant of the request *)
Lemma write_params_spec r remote p init t s :
  write_params (entry_of r) remote p init t =
  match update_params r remote p init t s with UpOk r' => Ok (entry_of r') | UpFail _ e => Raise e end.
Proof.
  unfold write_params. rewrite reg_of_entry_of. rewrite (update_params_timer_indep r None remote p init t s 0).
  destruct (update_params r remote p init t s) as [r'|r' e] eqn:E; [|reflexivity].
  apply update_params_ok in E. destruct E as (_ & _ & _ & Et). f_equal.
  unfold entry_of, entry_of_reg. rewrite Et. destruct r'. cbn. f_equal. lia.
Qed.

Lemma filter_map_in {A B} (g : A -> B) (f : B -> bool) (h : A -> bool) l :
  (forall x, In x l -> f (g x) = h x) -> filter f (map g l) = map g (filter h l).
Proof.
  induction l as [|x l IH]; cbn; intros E; [reflexivity|].
  rewrite (E x (or_introl eq_refl)). rewrite IH by (intros y Hy; apply E; right; exact Hy). destruct (h x); reflexivity.
Qed.

Definition ent (st : rd) (kv : key * Z) : entry := entry_of (obj st (snd kv)).
Lemma abs_entries st : d_entries (abs st) = map (ent st) (by_key st).
Proof. reflexivity. Qed.

Lemma ent_key st k id : Inv st -> In (k, id) (by_key st) -> e_key (ent st (k, id)) = k.
Proof. exact (indexed_key st k id). Qed.

Lemma find_key_abs st k : Inv st ->
  find_key (d_entries (abs st)) k = match dget key_eqb (by_key st) k with Some id => Some (entry_of (obj st id)) | None => None end.
Proof.
  intros I. rewrite abs_entries. unfold find_key.
  assert (G : forall l, incl l (by_key st) ->
     find (fun e => key_eqb (e_key e) k) (map (ent st) l) = match dget key_eqb l k with Some id => Some (entry_of (obj st id)) | None => None end).
  { induction l as [|[k' id] l IH]; intros Hin; cbn [map find dget]; [reflexivity|].
    rewrite (ent_key st k' id I) by (apply Hin; left; reflexivity).
    destruct (key_eqb k' k); [reflexivity|]. apply IH. intros x Hx. apply Hin. right. exact Hx. }
  apply G. apply incl_refl.
Qed.

Lemma without_key_abs st k : Inv st ->
  without_key (d_entries (abs st)) k = map (ent st) (filter (fun kv => negb (key_eqb (fst kv) k)) (by_key st)).
Proof.
  intros I. rewrite abs_entries. apply filter_map_in. intros [k' id] H. cbn [fst]. rewrite (ent_key st k' id I H). reflexivity.
Qed.

Lemma to_int_nonnil z : Z.to_int z <> Decimal.Pos Decimal.Nil /\ Z.to_int z <> Decimal.Neg Decimal.Nil.
Proof.
  destruct z; cbn; split; try discriminate.
  - intros H. injection H as H. apply (f_equal Pos.of_uint) in H. rewrite DecimalPos.Unsigned.of_to in H. discriminate.
  - intros H. injection H as H. apply (f_equal Pos.of_uint) in H. rewrite DecimalPos.Unsigned.of_to in H. discriminate.
Qed.
Lemma str_of_Z_inj a b : str_of_Z a = str_of_Z b -> a = b.
Proof.
  unfold str_of_Z. intros H. apply (f_equal DecimalString.NilZero.int_of_string) in H.
  rewrite !DecimalString.NilZero.isi in H by apply to_int_nonnil.
  injection H as H. apply (f_equal Z.of_int) in H. rewrite !DecimalZ.of_to in H. exact H.
Qed.

Lemma find_unique {A} (f : A -> bool) (l : list A) x : In x l -> f x = true -> (forall y, In y l -> f y = true -> y = x) -> find f l = Some x.
Proof.
  induction l as [|a l IH]; cbn; intros Hin Hf U; [contradiction|].
  destruct (f a) eqn:Fa.
  - f_equal. apply U; auto.
  - destruct Hin as [->|Hin]; [congruence|]. apply IH; auto.
Qed.
Lemma find_none_all {A} (f : A -> bool) (l : list A) : (forall y, In y l -> f y = false) -> find f l = None.
Proof. induction l as [|a l IH]; cbn; intros H; [reflexivity|]. rewrite (H a (or_introl eq_refl)). apply IH. intros y Hy. apply H. right. exact Hy. Qed.

Lemma ent_loc st k id : Inv st -> In (k, id) (by_key st) -> In (e_loc (ent st (k, id)), id) (by_path st).
Proof. intros I H. destruct (indexes_bijective st I) as (_ & _ & _ & B & _). destruct (B _ _ H) as [_ E]. exact E. Qed.

Lemma entry_at_abs st path : Inv st ->
  entry_at (abs st) path = match lookup_path st path with Some id => Some (entry_of (obj st id)) | None => None end.
Proof.
  intros I. unfold entry_at, lookup_path. destruct path as [|s [|e [|x l]]]; try reflexivity.
  destruct (String.eqb e EmptyString); [|reflexivity]. rewrite abs_entries.
  destruct (indexes_bijective st I) as (_ & NP & _ & Bk & Bp).
  destruct (find (fun kv : Z * Z => String.eqb (str_of_Z (fst kv)) s) (by_path st)) as [[p id]|] eqn:F.
  - apply find_some in F. destruct F as [Hin Hs]. cbn [fst snd] in *. apply String.eqb_eq in Hs.
    destruct (Bp _ _ Hin) as [Ep Hk].
    apply find_unique.
    + apply in_map_iff. exists (r_key (obj st id), id). split; [reflexivity|exact Hk].
    + cbn. rewrite Ep. apply String.eqb_eq. exact Hs.
    + intros y Hy Fy. apply in_map_iff in Hy. destruct Hy as ([k2 id2] & <- & H2). unfold ent in *. cbn [snd e_loc entry_of entry_of_reg] in *.
      apply String.eqb_eq in Fy. rewrite <- Hs in Fy. apply str_of_Z_inj in Fy.
      destruct (Bk _ _ H2) as [_ H2p]. rewrite Fy in H2p. rewrite (In_fun _ _ _ _ NP H2p Hin). reflexivity.
  - apply find_none_all. intros y Hy. apply in_map_iff in Hy. destruct Hy as ([k2 id2] & <- & H2).
    destruct (Bk _ _ H2) as [_ H2p]. pose proof (find_none _ _ F _ H2p) as N. cbn [fst] in N. exact N.
Qed.

Lemma npf_same_members (bp1 bp2 : list (Z * Z)) : (forall j, dmem Z.eqb bp1 j = dmem Z.eqb bp2 j) ->
  new_pathtail_from (S (length bp1)) bp1 1 = new_pathtail_from (S (length bp2)) bp2 1.
Proof.
  intros E. set (r1 := new_pathtail_from (S (length bp1)) bp1 1). set (r2 := new_pathtail_from (S (length bp2)) bp2 1).
  pose proof (npf_fresh bp1) as F1. pose proof (npf_fresh bp2) as F2. fold r1 in F1. fold r2 in F2.
  destruct (npf_spec bp1 (S (length bp1)) 1) as (A1 & B1 & _). destruct (npf_spec bp2 (S (length bp2)) 1) as (A2 & B2 & _). fold r1 in A1, B1. fold r2 in A2, B2.
  destruct (Z_lt_ge_dec r1 r2) as [L|G].
  - specialize (B2 r1 (conj A1 L)). rewrite <- E in B2. congruence.
  - destruct (Z_lt_ge_dec r2 r1) as [L|G2]; [|lia]. specialize (B1 r2 (conj A2 L)). rewrite E in B1. congruence.
Qed.

Lemma free_location_abs st : Inv st -> free_location (d_entries (abs st)) = _new_pathtail st.
Proof.
  intros I. unfold free_location, _new_pathtail. rewrite <- (map_length (fun e => (e_loc e, 0)) (d_entries (abs st))).
  apply npf_same_members. intros j. apply Bool.eq_true_iff_eq. rewrite !(dmem_keys Zeqb_spec), abs_entries, !map_map. cbn [fst].
  destruct (indexes_bijective st I) as (_ & _ & _ & Bk & Bp). split; intros H; apply in_map_iff in H.
  - destruct H as ([k id] & <- & H). destruct (Bk _ _ H) as [_ Hp]. apply (in_map fst) in Hp. exact Hp.
  - destruct H as ([p id] & <- & H). destruct (Bp _ _ H) as [Ep Hk]. apply in_map_iff. exists (r_key (obj st id), id). split; [exact Ep|exact Hk].
Qed.

Lemma abs_deleted st id k : Inv st -> In (k, id) (by_key st) ->
  abs (deleted st id) = with_entries (abs st) (without_key (d_entries (abs st)) k).
Proof.
  intros I H. unfold abs at 1, with_entries. f_equal.
  rewrite (without_key_abs st k I), <- (by_key_deleted st id k I H).
  apply map_ext_in. intros [k2 id2] H2. cbn [snd]. rewrite obj_deleted_other; [reflexivity|apply (deleted_frame st id k I H k2 id2), H2].
Qed.

Lemma abs_registered st k r : Inv st -> r_key r = k -> r_path r = location_for st k -> has_timer r = true ->
  abs (registered st k r) = with_entries (abs st) (without_key (d_entries (abs st)) k ++ [entry_of r]).
Proof.
  intros I Rk Rp Rt. unfold abs at 1, with_entries. f_equal.
  rewrite (by_key_registered st k r I), map_app, (without_key_abs st k I). f_equal.
  - apply map_ext_in. intros [k2 id2] H2. apply In_without in H2. cbn [snd].
    rewrite (obj_registered_other st k r k2 id2 I); [reflexivity|apply H2|apply H2].
  - cbn [map snd]. rewrite (obj_registered st k r (Inv_registered st k r I Rk Rp Rt)). reflexivity.
Qed.

Lemma entry_of_set_links r ls : entry_of (set_links r ls) = with_links (entry_of r) ls.
Proof. destruct r. reflexivity. Qed.

(* also for [updated]: [abs] reads nothing that [set_obj] and [updated] do not share *)
Lemma abs_rewritten st id k r' : Inv st -> In (k, id) (by_key st) -> r_key r' = k ->
  abs (set_obj st id r') = with_entries (abs st) (replace_key (d_entries (abs st)) k (entry_of r')).
Proof.
  intros I H Rk. unfold abs at 1, with_entries. cbn [by_key now set_obj]. f_equal.
  rewrite abs_entries. unfold replace_key. rewrite map_map. apply map_ext_in. intros [k2 id2] H2. cbn [snd].
  rewrite (ent_key st k2 id2 I H2). unfold ent. cbn [snd].
  destruct (key_eq_dec k2 k) as [->|N].
  - rewrite (eqb_refl' key_eqb_spec), (In_fun _ _ _ _ (inv_keys I) H2 H), obj_set_obj. reflexivity.
  - rewrite (eqb_neq key_eqb_spec _ _ N), obj_other; [reflexivity|]. intros ->. exact (N (key_of_id st k2 k id I H2 H)).
Qed.

(* firing the due timers = dropping the entries whose lifetime has passed *)
Lemma alive_ent st t k id : Inv st -> In (k, id) (by_key st) -> alive t (ent st (k, id)) = not_due st t (k, id).
Proof.
  intros I H. destruct (indexed_has_timer st k id I H) as (d & s & Ho & Et).
  unfold not_due, ent, alive, expires, entry_of, entry_of_reg. cbn [snd]. rewrite Et. cbn [e_written e_lt]. f_equal. lia.
Qed.

Lemma abs_fire_due st t : Inv st ->
  d_entries (abs (fire_due (length (objs st)) st t)) = filter (alive t) (d_entries (abs st)).
Proof.
  intros I. destruct (fire_all st t I) as [Ek Eo]. rewrite !abs_entries.
  rewrite (filter_map_in (ent st) (alive t) (not_due st t)); [|intros [k id] H; apply alive_ent; assumption].
  rewrite <- Ek. apply map_ext_in. intros [k id] H. unfold ent. cbn [snd]. rewrite (Eo k id H). reflexivity.
Qed.

Lemma drain_abs st : Inv st -> abs (drain st) = d_expire (abs st).
Proof.
  intros I. unfold d_expire, with_entries. 
  pose proof (fire_due_now (length (objs st)) st (now st) I (Z.le_refl _)) as N.
  assert (En : now (drain st) = now st) by (unfold drain; lia).
  apply eq_trans with {| d_entries := d_entries (abs (drain st)); d_now := now (drain st) |}; [reflexivity|].
  rewrite En. unfold drain. rewrite abs_fire_due by exact I. reflexivity.
Qed.
Lemma advance_abs st dt : Inv st -> abs (advance st dt) = d_expire {| d_entries := d_entries (abs st); d_now := d_now (abs st) + dt |}.
Proof.
  intros I. unfold d_expire, with_entries. cbn [d_entries d_now].
  apply eq_trans with {| d_entries := d_entries (abs (fire_due (length (objs st)) st (now st + dt))); d_now := now st + dt |}; [reflexivity|].
  rewrite abs_fire_due by exact I. reflexivity.
Qed.

(* lookups do not read the timers *)
Definition untimed (r : reg) : reg := set_timer r None.
Lemma py_from_map {A B} (g : A -> B) l i : py_from (map g l) i = map g (py_from l i).
Proof. unfold py_from, blen. rewrite map_length. destruct (i <? 0); apply skipn_map. Qed.
Lemma py_to_map {A B} (g : A -> B) l i : py_to (map g l) i = map g (py_to l i).
Proof. unfold py_to, blen. rewrite map_length. destruct (i <? 0); apply firstn_map. Qed.
Lemma paginate_map {A B} (g : A -> B) l q :
  _paginate (map g l) q = match _paginate l q with Ok l' => Ok (map g l') | Raise e => Raise e end.
Proof.
  unfold _paginate, bind. destruct (pop_single_arg q "page") as [[q1 page]|e]; [|reflexivity].
  destruct (pop_single_arg q1 "count") as [[q2 count]|e]; [|reflexivity].
  destruct page as [pg|]; destruct count as [ct|]; cbn [py_int];
    repeat (match goal with |- context [parse_int ?s] => destruct (parse_int s) end); cbn;
    rewrite ?py_from_map, ?py_to_map; reflexivity.
Qed.

Lemma ep_lookup_regs_untimed regs qs accept : ep_lookup_regs (map untimed regs) qs accept = ep_lookup_regs regs qs accept.
Proof.
  unfold ep_lookup_regs.
  rewrite (filter_map_in untimed _ (fun r => forallb (fun c => ep_keep c r) (criteria_of (query_split qs)))) by reflexivity.
  rewrite paginate_map. destruct (_paginate _ (query_split qs)) as [l|e]; [|reflexivity].
  rewrite map_map. reflexivity.
Qed.
Lemma res_pairs_untimed regs : res_pairs (map untimed regs) = map (fun ec => (untimed (fst ec), snd ec)) (res_pairs regs).
Proof.
  unfold res_pairs. induction regs as [|e l IH]; cbn [map flat_map]; [reflexivity|].
  rewrite map_app, IH. f_equal. change (get_based_links (untimed e)) with (get_based_links e). rewrite map_map. reflexivity.
Qed.
Lemma res_lookup_regs_untimed regs qs accept : res_lookup_regs (map untimed regs) qs accept = res_lookup_regs regs qs accept.
Proof.
  unfold res_lookup_regs. rewrite res_pairs_untimed.
  rewrite (filter_map_in (fun ec : reg * link => (untimed (fst ec), snd ec)) _ (fun ec => forallb (fun c => res_keep c ec) (criteria_of (query_split qs)))).
  2:{ intros [e l] _. reflexivity. }
  rewrite map_map. cbn [snd]. reflexivity.
Qed.
Lemma abs_regs st : map reg_of_entry (d_entries (abs st)) = map untimed (get_endpoints st).
Proof. rewrite abs_entries. unfold get_endpoints. rewrite !map_map. apply map_ext. intros kv. apply reg_of_entry_of. Qed.

Lemma replace_key_last es k e0 e' : e_key e0 = k ->
  replace_key (without_key es k ++ [e0]) k e' = without_key es k ++ [e'].
Proof.
  intros E. unfold replace_key, without_key. rewrite map_app. cbn [map]. rewrite E, (eqb_refl' key_eqb_spec). f_equal.
  rewrite <- (map_id (filter _ es)) at 2. apply map_ext_in. intros x Hx. apply filter_In in Hx. destruct Hx as [_ Hx].
  destruct (key_eqb (e_key x) k); [discriminate|reflexivity].
Qed.
Lemma replace_replace es k e1 e2 : e_key e1 = k -> replace_key (replace_key es k e1) k e2 = replace_key es k e2.
Proof.
  intros E. unfold replace_key. rewrite map_map. apply map_ext. intros x. destruct (key_eqb (e_key x) k) eqn:EK; [|rewrite EK; reflexivity].
  rewrite E, (eqb_refl' key_eqb_spec). reflexivity.
Qed.

Lemma handle_abs st o st1 r : Inv st -> is_advance o = false -> handle st o = (st1, r) -> d_handle (abs st) o = (abs st1, r).
Proof.
  intros I NA. destruct o as [remote q b|path remote q b|path remote q b|path|path accept|q accept|q accept|dt]; cbn [handle d_handle]; try discriminate NA.
  - unfold directory_render_post, d_register. destruct (link_format_from_message b) as [links|e]; [|intros H; inv H; reflexivity].
    rewrite (initialize_endpoint_eq st remote (query_split q) I).
    destruct (registration_request (query_split q)) as [[[k static] rest]|e]; [|intros H; inv H; reflexivity].
    rewrite (find_key_abs st k I).
    assert (Eloc : match match dget key_eqb (by_key st) k with Some id => Some (entry_of (obj st id)) | None => None end with
                   | Some old => e_loc old | None => free_location (d_entries (abs st)) end = location_for st k).
    { unfold location_for. destruct (dget key_eqb (by_key st) k); [reflexivity|apply free_location_abs; exact I]. }
    rewrite Eloc. unfold Registration_init.
    set (r0 := {| r_key := k; r_path := location_for st k; r_lt := 90000; r_base := EmptyString; r_base_explicit := false;
                  r_params := static; r_links := []; r_timer := None |}).
    change {| e_key := k; e_loc := location_for st k; e_lt := 90000; e_base := EmptyString; e_explicit := false; e_params := static;
              e_links := []; e_written := 0 |} with (entry_of r0).
    change (d_now (abs st)) with (now st).
    rewrite (write_params_spec r0 remote rest true (now st) (next_seq st)).
    destruct (update_params r0 remote rest true (now st) (next_seq st)) as [r1|r1 e] eqn:EU; [|intros H; inv H; reflexivity].
    pose proof (update_params_ok _ _ _ _ _ _ _ EU) as (Rk & Rp & Rl & Rt). cbn [r0 r_key r_path] in Rk, Rp.
    assert (Tm : has_timer r1 = true) by (unfold has_timer; rewrite Rt; reflexivity).
    pose proof (Inv_registered st k r1 I Rk Rp Tm) as I1.
    rewrite (obj_registered st k r1 I1). intros H; injection H as <- <-. f_equal; [|rewrite Rp; reflexivity].
    assert (Hk : In (k, next_id st) (by_key (registered st k r1))).
    { apply (dget_In key_eqb_spec). unfold registered. cbn [by_key]. apply (dget_dset_same key_eqb_spec). }
    rewrite (abs_rewritten (registered st k r1) (next_id st) k (set_links r1 links) I1 Hk Rk), (abs_registered st k r1 I Rk Rp Tm).
    unfold with_entries. cbn [d_entries d_now]. f_equal.
    rewrite entry_of_set_links. symmetry. apply replace_key_last. exact Rk.
  - unfold d_update_post. rewrite (entry_at_abs st path I). destruct (lookup_path st path) as [id|] eqn:EP; [|intros H; inv H; reflexivity].
    destruct (lookup_indexed st path id I EP) as (Hk & Ho & _).
    unfold registration_render_post. destruct (_ || _); [intros H; inv H; reflexivity|].
    rewrite (_update_params_eq st id remote q I Ho). change (d_now (abs st)) with (now st).
    rewrite (write_params_spec (obj st id) remote (query_split q) false (now st) (next_seq st)).
    destruct (update_params _ _ _ _ _ _) as [r'|r' e] eqn:EU; intros H; inv H; [|reflexivity].
    f_equal. symmetry. exact (abs_rewritten st id _ r' I Hk (proj1 (update_params_ok _ _ _ _ _ _ _ EU))).
  - unfold d_update_put. rewrite (entry_at_abs st path I). destruct (lookup_path st path) as [id|] eqn:EP; [|intros H; inv H; reflexivity].
    destruct (lookup_indexed st path id I EP) as (Hk & Ho & Ht).
    unfold registration_render_put. destruct (link_format_from_message b) as [links|e]; [|intros H; inv H; reflexivity].
    rewrite (_update_params_eq st id remote q I Ho). change (d_now (abs st)) with (now st).
    rewrite (write_params_spec (obj st id) remote (query_split q) false (now st) (next_seq st)).
    destruct (update_params _ _ _ _ _ _) as [r'|r' e] eqn:EU; intros H; inv H; [|reflexivity].
    destruct (update_params_keeps _ _ _ _ _ _ _ _ Ht EU) as (Ek & Ep & Et).
    rewrite (obj_set_obj st id r' : obj (updated st id r') id = r').
    rewrite (abs_rewritten (updated st id r') id _ (set_links r' links) (Inv_rewritten st id r' I Ho Ek Ep Et) Hk Ek).
    rewrite (abs_rewritten st id _ r' I Hk Ek : abs (updated st id r') = _).
    unfold with_entries. cbn [d_entries d_now]. rewrite entry_of_set_links, replace_replace by exact Ek. reflexivity.
  - unfold d_delete. rewrite (entry_at_abs st path I). destruct (lookup_path st path) as [id|] eqn:EP; [|intros H; inv H; reflexivity].
    pose proof (proj1 (lookup_indexed st path id I EP)) as Hk.
    unfold registration_render_delete. rewrite (indexed_delete st id _ I Hk). intros H; inv H.
    rewrite (abs_deleted st id _ I Hk). reflexivity.
  - rewrite (entry_at_abs st path I). destruct (lookup_path st path) as [id|]; intros H; inv H; reflexivity.
  - intros H; inv H. rewrite abs_regs, ep_lookup_regs_untimed. reflexivity.
  - intros H; inv H. rewrite abs_regs, res_lookup_regs_untimed. reflexivity.
Qed.

Lemma step_abs st o : Inv st -> d_step (abs st) o = (abs (fst (step st o)), snd (step st o)).
Proof.
  intros I. destruct (is_advance o) eqn:NA.
  - destruct o; try discriminate NA. rewrite (advance_step st dt I). cbn [fst snd].
    unfold d_step. cbn [d_handle]. rewrite <- (advance_abs st dt I). reflexivity.
  - unfold step, d_step. destruct (handle st o) as [st1 r] eqn:EH. rewrite (handle_abs st o st1 r I NA EH). cbn [fst snd].
    destruct (handle_Inv _ _ _ _ I EH) as (I1 & _ & _). rewrite (drain_abs st1 I1). reflexivity.
Qed.

Lemma run_abs ops : forall st, Inv st ->
  d_run (abs st) ops = map o_resp (run st ops) /\ d_run_state (abs st) ops = abs (run_state st ops).
Proof.
  induction ops as [|o ops IH]; intros st I; cbn [d_run run d_run_state run_state map]; [auto|].
  rewrite (step_abs st o I). destruct (step st o) as [st1 r] eqn:E. cbn [fst snd].
  destruct (step_Inv _ _ _ _ I E) as (I1 & _). destruct (IH st1 I1) as [A B]. split; [|exact B].
  cbn [map o_resp observe]. rewrite A. reflexivity.
Qed.

(* the abstract directory on its own: after every event all entries are within their lifetime; a request answered 4.xx
   leaves it as it was *)
Definition all_alive (d : dir) : Prop := Forall (fun e => d_now d < expires e) (d_entries d).
Lemma d_expire_alive d : all_alive (d_expire d).
Proof.
  unfold all_alive, d_expire, with_entries. cbn [d_entries d_now]. apply Forall_forall. intros e H. apply filter_In in H.
  destruct H as [_ H]. unfold alive in H. lia.
Qed.
Lemma d_step_alive d o : all_alive (fst (d_step d o)).
Proof. unfold d_step. destruct (d_handle d o) as [d1 r]. cbn [fst]. apply d_expire_alive. Qed.
Lemma d_expire_id d : all_alive d -> d_expire d = d.
Proof.
  intros A. unfold d_expire, with_entries. rewrite filter_all; [destruct d; reflexivity|].
  intros e H. unfold all_alive in A. rewrite Forall_forall in A. specialize (A e H). unfold alive. lia.
Qed.
(* every error branch of the abstract handlers returns the directory itself *)
Lemma d_handle_cases d o d1 r : d_handle d o = (d1, r) -> d1 = d \/ is_4xx r = false.
Proof.
  (* split every match of the unfolded handlers: a leaf is either an error or a read, returning d, or answers
     Created / Changed / Deleted / Tick, none of which is a 4.xx *)
  destruct o; cbn [d_handle]; unfold d_register, d_update_post, d_update_put, d_delete;
    repeat match goal with |- context [match ?x with _ => _ end] => destruct x end; intros H; inv H; auto.
Qed.
Lemma d_failed_unchanged d o d' r : all_alive d -> d_step d o = (d', r) -> is_4xx r = true -> d' = d.
Proof.
  intros A. unfold d_step. destruct (d_handle d o) as [d1 r1] eqn:EH. intros H H4; inv H.
  destruct (d_handle_cases _ _ _ _ EH) as [->|N]; [apply d_expire_id; exact A|congruence].
Qed.

(* C20 as one statement: for every history, the answers are those of the abstract directory, the state abstracts to the
   abstract directory's state, and the unfiltered lookups render exactly its entries — every one of which is within
   [latest successful write + lt + grace], under pairwise distinct (ep, d) and pairwise distinct locations *)
Lemma refinement_all_histories : forall ops,
  let st := run_state empty_rd ops in
  let d := d_run_state empty_dir ops in
  map o_resp (run empty_rd ops) = d_run empty_dir ops /\
  abs st = d /\
  ep_lookup st [] None = Content (str_links (map (fun e => get_host_link (reg_of_entry e)) (d_entries d))) /\
  res_lookup st [] None = Content (str_links (map strip_anchor (flat_map (fun e => get_based_links (reg_of_entry e)) (d_entries d)))) /\
  Forall (fun e => d_now d < e_written e + (e_lt e + GRACE_PERIOD) * 1000000) (d_entries d) /\
  NoDup (map e_key (d_entries d)) /\ NoDup (map e_loc (d_entries d)).
Proof.
  intros ops st d. destruct (run_abs ops empty_rd empty_Inv) as [A B]. change (abs empty_rd) with empty_dir in A, B.
  fold st in B. fold d in B.
  destruct (run_state_Inv ops empty_rd empty_Inv empty_Settled) as [I S]. fold st in I, S.
  destruct (lookup_exact st I S) as (_ & _ & _ & NK & NL).
  split; [symmetry; exact A|]. split; [symmetry; exact B|].
  assert (Eregs : map reg_of_entry (d_entries d) = map untimed (get_endpoints st)) by (rewrite B; apply abs_regs).
  split; [|split; [|split; [|split]]].
  - replace (map (fun e => get_host_link (reg_of_entry e)) (d_entries d)) with (map get_host_link (map reg_of_entry (d_entries d))) by apply map_map.
    rewrite Eregs. unfold ep_lookup. rewrite <- ep_lookup_regs_untimed. apply ep_lookup_regs_plain.
  - replace (flat_map (fun e => get_based_links (reg_of_entry e)) (d_entries d)) with (flat_map get_based_links (map reg_of_entry (d_entries d))).
    2:{ rewrite !flat_map_concat_map, map_map. reflexivity. }
    rewrite Eregs. unfold res_lookup. rewrite <- res_lookup_regs_untimed. apply res_lookup_regs_plain.
  - rewrite B, abs_entries. apply Forall_forall. intros e He. apply in_map_iff in He. destruct He as ([k id] & <- & Hin).
    destruct (indexed_has_timer st k id I Hin) as (du & s & Ho & Et). unfold ent, entry_of, entry_of_reg. cbn [snd e_written e_lt d_now abs].
    rewrite Et. pose proof (S _ _ _ _ Ho Et). lia.
  - rewrite B, abs_entries, map_map. unfold get_endpoints in NK. rewrite map_map in NK. exact NK.
  - rewrite B, abs_entries, map_map. unfold get_endpoints in NL. rewrite map_map in NL. exact NL.
Qed.
