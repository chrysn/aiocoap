(* C06 — TimeoutDict: association-list lemmas, the ghost-time invariant and the lifetime bounds
   (an entry lives at least T after its last successful access and at most 2T). *)
From Verif Require Import Lib.Py Lib.Tactics Model.C06.
Open Scope Z_scope.

Section TD.
  Context {K V : Type}.
  Variable keqb : K -> K -> bool.
  Hypothesis keqb_eq : forall a b, keqb a b = true <-> a = b.
  Variable T : Z.
  Hypothesis T_pos : 0 < T.

  Lemma keqb_refl k : keqb k k = true. Proof. apply keqb_eq; reflexivity. Qed.
  Lemma keqb_neq (a b : K) : a <> b -> keqb a b = false.
  Proof. intros H. destruct (keqb a b) eqn:E; [|reflexivity]. apply keqb_eq in E. contradiction. Qed.
  Lemma keqb_dec (a b : K) : {a = b} + {a <> b}.
  Proof. destruct (keqb a b) eqn:E; [left; apply keqb_eq; exact E|right; intros ->; rewrite keqb_refl in E; discriminate]. Qed.

  Lemma alist_get_set_same k v (l : list (K * V)) : alist_get keqb k (alist_set keqb k v l) = Some v.
  Proof.
    induction l as [|[k' v'] l IH]; cbn.
    - rewrite keqb_refl; reflexivity.
    - destruct (keqb k k') eqn:E; cbn; rewrite E; [reflexivity|exact IH].
  Qed.
  Lemma alist_get_set_other k k' v (l : list (K * V)) : k <> k' -> alist_get keqb k (alist_set keqb k' v l) = alist_get keqb k l.
  Proof.
    intros N. induction l as [|[k2 v2] l IH]; cbn.
    - rewrite keqb_neq by exact N. reflexivity.
    - destruct (keqb k' k2) eqn:E; cbn.
      + apply keqb_eq in E; subst k2. rewrite keqb_neq by exact N. reflexivity.
      + destruct (keqb k k2); [reflexivity|exact IH].
  Qed.
  Lemma alist_get_filter (f : K -> bool) k (l : list (K * V)) :
    alist_get keqb k (filter (fun kv => f (fst kv)) l) = if f k then alist_get keqb k l else None.
  Proof.
    induction l as [|[k' v'] l IH]; cbn; [destruct (f k); reflexivity|].
    destruct (keqb k k') eqn:E.
    - apply keqb_eq in E; subst k'. destruct (f k); cbn; [rewrite keqb_refl; reflexivity|exact IH].
    - destruct (f k'); cbn; [rewrite E|]; exact IH.
  Qed.
  Lemma alist_get_remove k k' (l : list (K * V)) :
    alist_get keqb k' (alist_remove keqb k l) = if keqb k' k then None else alist_get keqb k' l.
  Proof.
    unfold alist_remove. rewrite (alist_get_filter (fun x => negb (keqb x k))). destruct (keqb k' k); reflexivity.
  Qed.
  Lemma kmem_cons_other k k' (l : list K) : k <> k' -> kmem keqb k (k' :: l) = kmem keqb k l.
  Proof. intros N. unfold kmem; cbn. rewrite keqb_neq by exact N. reflexivity. Qed.
  Lemma kmem_cons_same k (l : list K) : kmem keqb k (k :: l) = true.
  Proof. unfold kmem; cbn. rewrite keqb_refl. reflexivity. Qed.

  Definition has (k : K) (d : td K V) : bool :=
    match alist_get keqb k (td_items d) with Some _ => true | None => false end.

  Lemma has_nil k d : td_items d = [] -> has k d = false.
  Proof. unfold has. intros ->. reflexivity. Qed.
  Lemma has_set_same k v d tm : has k {| td_items := alist_set keqb k v (td_items d); td_timer := tm |} = true.
  Proof. unfold has; cbn. rewrite alist_get_set_same. reflexivity. Qed.
  Lemma has_set_other k k' v d tm : k <> k' ->
    has k {| td_items := alist_set keqb k' v (td_items d); td_timer := tm |} = has k d.
  Proof. intros N. unfold has; cbn. rewrite alist_get_set_other by exact N. reflexivity. Qed.
  Lemma has_mutate k k' v d : has k d = true -> has k' (td_mutate keqb k v d) = has k' d.
  Proof. intros Hk. destruct (keqb_dec k' k) as [->|N]; [rewrite Hk; apply has_set_same|apply has_set_other; exact N]. Qed.
  Lemma has_pop_same k (d : td K V) : has k (td_pop keqb k d) = false.
  Proof. unfold has, td_pop; cbn [td_items]. rewrite alist_get_remove, keqb_refl. reflexivity. Qed.
  Lemma has_pop_other k k' (d : td K V) : k' <> k -> has k' (td_pop keqb k d) = has k' d.
  Proof. intros N. unfold has, td_pop; cbn [td_items]. rewrite alist_get_remove, keqb_neq by exact N. reflexivity. Qed.
  Lemma td_getitem_has now (d : td K V) k : has k d = true <-> exists v d', td_getitem keqb T now k d = Some (v, d').
  Proof.
    unfold has, td_getitem. destruct (alist_get keqb k (td_items d)); split; try discriminate; eauto.
    intros (v & d' & H); discriminate.
  Qed.

  Lemma has_accessed now k k' d : has k' (td_accessed T now k d) = has k' d.
  Proof. unfold has, td_accessed. destruct (td_timer d) as [[due rec]|]; reflexivity. Qed.
  Lemma timer_accessed now k (d : td K V) :
    td_timer (td_accessed T now k d) = match td_timer d with Some (due, rec) => Some (due, k :: rec) | None => Some (now + T, []) end.
  Proof. unfold td_accessed. destruct (td_timer d) as [[due rec]|]; reflexivity. Qed.

  (* ghost: [last k] = time of the last successful access (assignment, or lookup of a present key) since the last pop of [k] *)
  Definition upd (last : K -> option Z) (k : K) (t : Z) : K -> option Z :=
    fun k' => if keqb k' k then Some t else last k'.
  (* pop: the entry is forgotten, so is its ghost access time *)
  Definition clr (last : K -> option Z) (k : K) : K -> option Z :=
    fun k' => if keqb k' k then None else last k'.
  Lemma upd_same last k t : upd last k t k = Some t.
  Proof. unfold upd. rewrite keqb_refl. reflexivity. Qed.
  Lemma upd_other last k k' t : k' <> k -> upd last k t k' = last k'.
  Proof. intros N. unfold upd. rewrite keqb_neq by exact N. reflexivity. Qed.
  Lemma clr_same last k : clr last k k = None.
  Proof. unfold clr. rewrite keqb_refl. reflexivity. Qed.
  Lemma clr_other last k k' : k' <> k -> clr last k k' = last k'.
  Proof. intros N. unfold clr. rewrite keqb_neq by exact N. reflexivity. Qed.
  Lemma upd_idem last k t k' : upd (upd last k t) k t k' = upd last k t k'.
  Proof. unfold upd. destruct (keqb k' k); reflexivity. Qed.
  Lemma clr_upd last k t k' : clr (upd last k t) k k' = clr last k k'.
  Proof. unfold clr, upd. destruct (keqb k' k); reflexivity. Qed.

  (* With a timer due at [due]: an entry was accessed at [due - 2T] or later (it survived the tick that started the timer), at
     [due - T] or later if recorded in this round; a key accessed less than T ago is present, and recorded unless T old at [due]. *)
  Definition td_ginv (now : Z) (last : K -> option Z) (d : td K V) : Prop :=
    match td_timer d with
    | None => td_items d = [] /\ forall k a, last k = Some a -> a + T <= now
    | Some (due, rec) =>
        (now < due /\ due <= now + T) /\
        (forall k, has k d = true ->
           exists a, last k = Some a /\ a <= now /\ due - 2 * T <= a /\ (kmem keqb k rec = true -> due - T <= a)) /\
        (forall k a, last k = Some a ->
           (has k d = true /\ (kmem keqb k rec = true \/ a + T <= due)) \/ a + T <= now)
    end.

  Lemma td_ginv_empty now : td_ginv now (fun _ => None) td_empty.
  Proof. cbn. split; [reflexivity|]. intros k a H; discriminate. Qed.
  Lemma td_ginv_ext now last last' d : (forall k, last k = last' k) -> td_ginv now last d -> td_ginv now last' d.
  Proof.
    intros E I. unfold td_ginv in *. destruct (td_timer d) as [[due rec]|].
    - destruct I as (B & H2 & H3). split; [exact B|]. split; intros k; rewrite <- E; [exact (H2 k)|exact (H3 k)].
    - destruct I as (E0 & H2). split; [exact E0|]. intros k; rewrite <- E; exact (H2 k).
  Qed.

  Lemma td_ginv_lower now last d k a :
    td_ginv now last d -> last k = Some a -> now < a + T -> has k d = true.
  Proof.
    unfold td_ginv. destruct (td_timer d) as [[due rec]|].
    - intros (_ & _ & H3) L Lt. destruct (H3 k a L) as [[H _]|H]; [exact H|lia].
    - intros (_ & H2) L Lt. specialize (H2 k a L). lia.
  Qed.
  Lemma td_ginv_upper now last d k :
    td_ginv now last d -> has k d = true -> exists a, last k = Some a /\ a <= now /\ now < a + 2 * T.
  Proof.
    unfold td_ginv. destruct (td_timer d) as [[due rec]|].
    - intros ((B1 & B2) & H2 & _) H. destruct (H2 k H) as (a & L & A1 & A2 & _). exists a. repeat split; try assumption; lia.
    - intros (E & _). rewrite (has_nil k d E). discriminate.
  Qed.

  (* a successful access: [d'] is [d] (lookup) or [d] with [k] assigned (assignment) *)
  Lemma td_ginv_access now last d d' k :
    td_ginv now last d -> td_timer d' = td_timer d -> has k d' = true ->
    (forall k', k' <> k -> has k' d' = has k' d) ->
    td_ginv now (upd last k now) (td_accessed T now k d').
  Proof.
    intros I Tm Hk Ho. unfold td_ginv in *. rewrite timer_accessed, Tm.
    destruct (td_timer d) as [[due rec]|].
    - (* a timer is pending: k joins its recently-accessed set *)
      destruct I as (B & H2 & H3). split; [exact B|].
      split; intros k'; rewrite has_accessed; destruct (keqb_dec k' k) as [->|N].
      + intros _. exists now. rewrite upd_same. repeat split; lia.
      + rewrite upd_other, kmem_cons_other, Ho by exact N. exact (H2 k').
      + intros a. rewrite upd_same. intros [= <-]. left. split; [exact Hk|]. left. apply kmem_cons_same.
      + intros a. rewrite upd_other, kmem_cons_other, Ho by exact N. exact (H3 k' a).
    - (* no timer, so the dict was empty: a timer is started and k is not recorded *)
      destruct I as (E & H2). split; [lia|].
      split; intros k'; rewrite has_accessed; destruct (keqb_dec k' k) as [->|N].
      + intros _. exists now. rewrite upd_same. repeat split; lia.
      + rewrite Ho, (has_nil k' d E) by exact N. discriminate.
      + intros a. rewrite upd_same. intros [= <-]. left. split; [exact Hk|]. right. lia.
      + intros a. rewrite upd_other by exact N. intros L. right. exact (H2 k' a L).
  Qed.

  Lemma td_ginv_getitem now last d k v d' :
    td_ginv now last d -> td_getitem keqb T now k d = Some (v, d') -> td_ginv now (upd last k now) d'.
  Proof.
    intros I G. assert (Hk : has k d = true) by (apply (td_getitem_has now); eauto).
    unfold td_getitem in G. destruct (alist_get keqb k (td_items d)); [|discriminate].
    injection G as _ <-. apply (td_ginv_access now last d d k I); [reflexivity|exact Hk|reflexivity].
  Qed.
  Lemma td_ginv_setitem now last d k v :
    td_ginv now last d -> td_ginv now (upd last k now) (td_setitem keqb T now k v d).
  Proof.
    intros I. unfold td_setitem. apply (td_ginv_access now last d _ k I); [reflexivity|apply has_set_same|].
    intros k' N. apply has_set_other. exact N.
  Qed.
  Lemma td_ginv_mutate now last d k v :
    td_ginv now last d -> has k d = true -> td_ginv now last (td_mutate keqb k v d).
  Proof.
    intros I Hk. pose proof (fun k' => has_mutate k k' v d Hk) as Hs.
    unfold td_ginv in *. change (td_timer (td_mutate keqb k v d)) with (td_timer d).
    destruct (td_timer d) as [[due rec]|].
    - destruct I as (B & H2 & H3). split; [exact B|]. split; intros k'; rewrite Hs; [exact (H2 k')|exact (H3 k')].
    - destruct I as (E & _). rewrite (has_nil k d E) in Hk. discriminate.
  Qed.

  (* pop leaves the pending timer (and the recently-accessed set) alone: the timer started earlier still fires at its deadline *)
  Lemma td_pop_timer k (d : td K V) : td_timer (td_pop keqb k d) = td_timer d.
  Proof. reflexivity. Qed.
  Lemma td_ginv_pop now last d k : td_ginv now last d -> td_ginv now (clr last k) (td_pop keqb k d).
  Proof.
    intros I. unfold td_ginv in *. rewrite td_pop_timer. destruct (td_timer d) as [[due rec]|].
    - destruct I as (B & H2 & H3). split; [exact B|].
      split; intros k'; destruct (keqb_dec k' k) as [->|N].
      + rewrite has_pop_same. discriminate.
      + rewrite has_pop_other, clr_other by exact N. exact (H2 k').
      + rewrite clr_same. discriminate.
      + rewrite has_pop_other, clr_other by exact N. exact (H3 k').
    - destruct I as (E & H2). split.
      + unfold td_pop; cbn [td_items]. rewrite E. reflexivity.
      + intros k' a. unfold clr. destruct (keqb k' k); [discriminate|apply H2].
  Qed.

  Definition settled (target : Z) (d : td K V) : Prop :=
    match td_timer d with Some (due, _) => target < due | None => True end.
  Lemma settled_none target (d : td K V) : td_timer d = None -> settled target d.
  Proof. unfold settled. intros ->. exact Logic.I. Qed.
  Lemma settled_some target (d : td K V) due rec : td_timer d = Some (due, rec) -> target < due -> settled target d.
  Proof. unfold settled. intros ->. tauto. Qed.
  Lemma td_fire_settled target (d : td K V) : settled target d -> td_fire keqb T target d = d.
  Proof. unfold settled, td_fire. destruct (td_timer d) as [[due rec]|]; [|reflexivity]. intros H. replace (due <=? target) with false by lia. reflexivity. Qed.

  Lemma td_ginv_wait now now' last d :
    td_ginv now last d -> now <= now' -> settled now' d -> td_ginv now' last d.
  Proof.
    unfold td_ginv, settled. destruct (td_timer d) as [[due rec]|].
    - intros (B & H2 & H3) Le Lt. split; [lia|]. split.
      + intros k Hk. destruct (H2 k Hk) as (a & L & A1 & A2 & A3). exists a. repeat split; try assumption; lia.
      + intros k a L. destruct (H3 k a L) as [H|H]; [left; exact H|right; lia].
    - intros (E & H2) Le _. split; [exact E|]. intros k a L. specialize (H2 k a L). lia.
  Qed.

  Lemma items_tick now (d : td K V) due rec :
    td_timer d = Some (due, rec) -> td_items (td_tick keqb T now d) = filter (fun kv => kmem keqb (fst kv) rec) (td_items d).
  Proof.
    intros Tm. unfold td_tick. rewrite Tm. destruct (filter (fun kv : K * V => kmem keqb (fst kv) rec) (td_items d)); reflexivity.
  Qed.
  Lemma has_tick now (d : td K V) due rec k :
    td_timer d = Some (due, rec) -> has k (td_tick keqb T now d) = if kmem keqb k rec then has k d else false.
  Proof.
    intros Tm. unfold has. rewrite (items_tick now d due rec Tm), (alist_get_filter (fun k => kmem keqb k rec)).
    destruct (kmem keqb k rec); reflexivity.
  Qed.
  Lemma td_tick_timer now (d : td K V) due rec :
    td_timer d = Some (due, rec) ->
    td_tick keqb T now d = {| td_items := []; td_timer := None |} \/ td_timer (td_tick keqb T now d) = Some (now + T, []).
  Proof.
    intros Tm. unfold td_tick. rewrite Tm.
    destruct (filter (fun kv : K * V => kmem keqb (fst kv) rec) (td_items d)); [left|right]; reflexivity.
  Qed.
  Lemma td_tick_norec now (d : td K V) due :
    td_timer d = Some (due, []) -> td_tick keqb T now d = {| td_items := []; td_timer := None |}.
  Proof.
    intros Tm. unfold td_tick. rewrite Tm.
    replace (filter (fun kv : K * V => kmem keqb (fst kv) []) (td_items d)) with (@nil (K * V)); [reflexivity|].
    induction (td_items d) as [|x l IH]; cbn; [reflexivity|exact IH].
  Qed.

  Lemma td_ginv_tick now last d due rec :
    td_ginv now last d -> td_timer d = Some (due, rec) -> td_ginv due last (td_tick keqb T due d).
  Proof.
    intros I Tm. unfold td_ginv in I. rewrite Tm in I. destruct I as ((B1 & B2) & H2 & H3).
    pose proof (fun k => has_tick due d due rec k Tm) as Hh. unfold td_ginv.
    destruct (td_tick_timer due d due rec Tm) as [E| ->].
    - (* nothing was accessed during the round: every entry was last used T or more before [due] *)
      rewrite E in Hh |- *. split; [reflexivity|]. intros k a L.
      destruct (H3 k a L) as [[Hk [Hm|Hd]]|Hd]; try lia.
      specialize (Hh k). rewrite Hm, Hk in Hh. discriminate.
    - split; [lia|]. split.
      + intros k Hk. rewrite Hh in Hk. destruct (kmem keqb k rec) eqn:Hm; [|discriminate].
        destruct (H2 k Hk) as (a & L & A1 & A2 & A3). exists a. specialize (A3 Hm).
        repeat split; try assumption; try lia. cbn. discriminate.
      + intros k a L. destruct (H3 k a L) as [[Hk [Hm|Hd]]|Hd]; [left|right; lia|right; lia].
        split; [rewrite Hh, Hm; exact Hk|]. right.
        destruct (H2 k Hk) as (a' & L' & A1 & _). rewrite L in L'. injection L' as <-. lia.
  Qed.

  Lemma td_ginv_fire now target last d :
    td_ginv now last d -> now <= target -> exists t, now <= t <= target /\ td_ginv t last (td_fire keqb T target d).
  Proof.
    intros I Le. unfold td_fire. destruct (td_timer d) as [[due rec]|] eqn:Tm; [|exists now; split; [lia|exact I]].
    destruct (due <=? target) eqn:D; [|exists now; split; [lia|exact I]].
    exists due. split; [|exact (td_ginv_tick now last d due rec I Tm)].
    unfold td_ginv in I. rewrite Tm in I. lia.
  Qed.
  (* the timer a tick starts has nothing recorded: if it is due as well, its tick empties the dict *)
  Lemma td_advance_settled target (d : td K V) : settled target (td_advance keqb T target d).
  Proof.
    unfold td_advance.
    assert (F : settled target (td_fire keqb T target d) \/ exists due, td_timer (td_fire keqb T target d) = Some (due, [])).
    { unfold td_fire. destruct (td_timer d) as [[due rec]|] eqn:Tm; [|left; apply settled_none; exact Tm].
      destruct (due <=? target) eqn:D; [|left; apply (settled_some _ _ due rec Tm); lia].
      destruct (td_tick_timer due d due rec Tm) as [-> |S]; [left; apply settled_none; reflexivity|right; eauto]. }
    destruct F as [S|(due & Tm)]; [rewrite (td_fire_settled _ _ S); exact S|].
    unfold td_fire at 1. rewrite Tm. destruct (due <=? target) eqn:D.
    - rewrite (td_tick_norec due _ due Tm). apply settled_none. reflexivity.
    - apply (settled_some _ _ due [] Tm). lia.
  Qed.
  Lemma td_ginv_advance now target last d :
    td_ginv now last d -> now <= target ->
    td_ginv target last (td_advance keqb T target d) /\ settled target (td_advance keqb T target d).
  Proof.
    intros I Le. split; [|apply td_advance_settled].
    destruct (td_ginv_fire now target last d I Le) as (t1 & B1 & I1).
    destruct (td_ginv_fire t1 target last _ I1 (proj2 B1)) as (t2 & B2 & I2).
    apply (td_ginv_wait t2); [exact I2|lia|apply td_advance_settled].
  Qed.

  Inductive tdop := TGet (k : K) | TSet (k : K) (v : V) | TPop (k : K) | TAdv (dt : Z).
  Definition gstate := (Z * (K -> option Z) * td K V)%type.
  Definition td_apply (st : gstate) (o : tdop) : gstate :=
    let '(now, last, d) := st in
    match o with
    | TGet k => match td_getitem keqb T now k d with
                | Some (_, d') => (now, upd last k now, d')
                | None => (now, last, d)                         (* KeyError: not an access *)
                end
    | TSet k v => (now, upd last k now, td_setitem keqb T now k v d)
    | TPop k => (now, clr last k, td_pop keqb k d)
    | TAdv dt => (now + dt, last, td_advance keqb T (now + dt) d)
    end.
  Definition td_run (st : gstate) (ops : list tdop) : gstate := fold_left td_apply ops st.
  Definition nonneg_op (o : tdop) : Prop := match o with TAdv dt => 0 <= dt | _ => True end.

  Lemma td_apply_inv now last d o : nonneg_op o -> td_ginv now last d ->
    let '(now', last', d') := td_apply (now, last, d) o in td_ginv now' last' d'.
  Proof.
    intros Fo I. destruct o as [k|k v|k|dt]; cbn [td_apply].
    - destruct (td_getitem keqb T now k d) as [[v d']|] eqn:G; [exact (td_ginv_getitem now last d k v d' I G)|exact I].
    - apply td_ginv_setitem. exact I.
    - apply td_ginv_pop. exact I.
    - cbn in Fo. apply (td_ginv_advance now); [exact I|lia].
  Qed.
  Lemma td_run_inv ops : forall now last d, Forall nonneg_op ops -> td_ginv now last d ->
    let '(now', last', d') := td_run (now, last, d) ops in td_ginv now' last' d'.
  Proof.
    induction ops as [|o ops IH]; intros now last d F I; [exact I|].
    inversion F as [|? ? Fo Fr]; subst. cbn [td_run fold_left].
    pose proof (td_apply_inv now last d o Fo I) as I1.
    destruct (td_apply (now, last, d) o) as [[now1 last1] d1]. exact (IH now1 last1 d1 Fr I1).
  Qed.

  Theorem timeoutdict_lifetime ops : Forall nonneg_op ops ->
    let '(now, last, d) := td_run (0, (fun _ => None), td_empty) ops in
    (forall k a, last k = Some a -> now < a + T -> has k d = true) /\
    (forall k, has k d = true -> exists a, last k = Some a /\ a <= now /\ now < a + 2 * T).
  Proof.
    intros F. pose proof (td_run_inv ops 0 (fun _ => None) td_empty F (td_ginv_empty 0)) as I.
    destruct (td_run (0, (fun _ => None), td_empty) ops) as [[now last] d]. split.
    - intros k a. apply td_ginv_lower. exact I.
    - intros k. apply td_ginv_upper. exact I.
  Qed.
End TD.
