(* C01 — option sequences, the layer under the messages of Proofs/C01.v (which imports this file): option_list is the
   stable sort by number; Options.encode on values that are legal for some class
   (the RFC's bytes, or ValueError where section 3.1 cannot express a delta or a length); Options.decode on well-formed
   and on arbitrary bytes; at the end, what the except clauses of the receive sites name.  Messages, and what the receive
   paths do with them, are in Proofs/C01.v. *)
From Coq Require Import Permutation Sorted String.
From Verif Require Import Lib.Py Lib.Tactics Lib.PyLemmas Gen.options_ext Gen.optiontypes_min Gen.optnum_table Gen.decode_handlers Model.C01Types Model.C01Utf8 Model.C01 Model.C01Rfc Proofs.C01Utf8 Proofs.C01Ext Proofs.C01Parse.
Open Scope Z_scope.

Definition num_le (a b : Z * optval) : Prop := fst a <= fst b.

Lemma insert_option_perm o l : Permutation (insert_option o l) (o :: l).
Proof.
  induction l as [|x r IH]; cbn [insert_option]; [reflexivity|].
  destruct (fst o <=? fst x); [reflexivity|]. rewrite IH. apply perm_swap.
Qed.
Lemma option_list_perm l : Permutation (option_list l) l.
Proof. induction l as [|o l IH]; cbn; [constructor|]. rewrite insert_option_perm. constructor. exact IH. Qed.

Lemma insert_option_sorted o l : Sorted num_le l -> Sorted num_le (insert_option o l).
Proof.
  induction l as [|x r IH]; intros S; cbn [insert_option]; [repeat constructor|].
  destruct (fst o <=? fst x) eqn:E.
  - constructor; [exact S|constructor; unfold num_le; lia].
  - inversion S as [|? ? S' H]; subst. constructor; [apply IH; exact S'|].
    destruct r as [|y r']; cbn [insert_option]; [constructor; unfold num_le; lia|].
    destruct (fst o <=? fst y); constructor; unfold num_le; [lia|]. inversion H; subst. assumption.
Qed.
Lemma option_list_sorted l : Sorted num_le (option_list l).
Proof. induction l as [|o l IH]; cbn; [constructor|]. apply insert_option_sorted. exact IH. Qed.

Lemma insert_option_filter n o l :
  filter (fun x => fst x =? n) (insert_option o l) = filter (fun x => fst x =? n) (o :: l).
Proof.
  induction l as [|x r IH]; cbn [insert_option]; [reflexivity|].
  destruct (fst o <=? fst x) eqn:E; [reflexivity|].
  cbn [filter] in *. rewrite IH. destruct (fst o =? n) eqn:A, (fst x =? n) eqn:B; try reflexivity. lia.
Qed.
(* stability: the options of one number keep their insertion order *)
Lemma option_list_stable n l : filter (fun x => fst x =? n) (option_list l) = filter (fun x => fst x =? n) l.
Proof.
  induction l as [|o l IH]; [reflexivity|]. change (option_list (o :: l)) with (insert_option o (option_list l)).
  rewrite insert_option_filter. cbn [filter]. rewrite IH. reflexivity.
Qed.

Lemma option_list_of_sorted l : Sorted num_le l -> option_list l = l.
Proof.
  induction 1 as [|x l S IH Hd]; [reflexivity|].
  change (option_list (x :: l)) with (insert_option x (option_list l)). rewrite IH.
  destruct Hd as [|y l' Hxy]; [reflexivity|]. cbn [insert_option]. unfold num_le in Hxy.
  replace (fst x <=? fst y) with true by lia. reflexivity.
Qed.
Lemma option_list_idempotent l : option_list (option_list l) = option_list l.
Proof. apply option_list_of_sorted, option_list_sorted. Qed.

Lemma options_ok_cons maxv prev n v r : options_ok maxv prev ((n, v) :: r) = true <->
  0 <= n - prev <= maxv /\ legal (class_of (rfc_format_of n)) v = true /\ blen (rfc_value v) <= maxv /\ options_ok maxv n r = true.
Proof. cbn [options_ok]. rewrite !andb_true_iff, !Z.leb_le. tauto. Qed.
Lemma options_ok_any_cons maxv prev n v r : options_ok_any maxv prev ((n, v) :: r) = true <->
  0 <= n - prev <= maxv /\ legal_any v = true /\ blen (rfc_value v) <= maxv /\ options_ok_any maxv n r = true.
Proof. cbn [options_ok_any]. rewrite !andb_true_iff, !Z.leb_le. tauto. Qed.

Lemma legal_any_witness v : legal_any v = true -> exists f, legal f v = true.
Proof. unfold legal_any. intros H. apply existsb_exists in H. destruct H as (f & _ & H). exists f. exact H. Qed.
Lemma legal_legal_any f v : legal f v = true -> legal_any v = true.
Proof. intros H. unfold legal_any. apply existsb_exists. exists f. split; [destruct f; cbn; tauto|exact H]. Qed.

Lemma options_ok_to_any maxv l : forall prev, options_ok maxv prev l = true -> options_ok_any maxv prev l = true.
Proof.
  induction l as [|[n v] r IH]; intros prev H; [reflexivity|]. apply options_ok_cons in H. destruct H as (A & B & C & D).
  apply options_ok_any_cons. repeat split; try lia; [eapply legal_legal_any; exact B|apply IH; exact D].
Qed.
(* on values that are legal for the class of their number the two predicates agree *)
Lemma options_ok_eq_any maxv l : forall prev, Forall (fun o => legal (get_format (fst o)) (snd o) = true) l ->
  options_ok maxv prev l = options_ok_any maxv prev l.
Proof.
  induction l as [|[n v] r IH]; intros prev HL; [reflexivity|]. inversion HL as [|? ? Hv HL']; subst. cbn [fst snd] in Hv.
  cbn [options_ok options_ok_any]. rewrite (IH n HL'). rewrite <- table_matches_rfc, Hv, (legal_legal_any _ _ Hv). reflexivity.
Qed.
Lemma options_ok_any_legal maxv l : forall prev, options_ok_any maxv prev l = true -> Forall (fun o => legal_any (snd o) = true) l.
Proof.
  induction l as [|[n v] r IH]; intros prev H; constructor; apply options_ok_any_cons in H; [tauto|]. apply (IH n). tauto.
Qed.

Lemma options_ok_any_sorted maxv l : forall prev, options_ok_any maxv prev l = true -> Sorted num_le l.
Proof.
  induction l as [|[n v] r IH]; intros prev H; [constructor|].
  apply options_ok_any_cons in H. destruct H as (_ & _ & _ & H'). constructor; [exact (IH n H')|].
  destruct r as [|[n' v'] r']; constructor. apply options_ok_any_cons in H'. unfold num_le. cbn [fst]. lia.
Qed.
Lemma option_list_sorted_id_any maxv l : forall prev, options_ok_any maxv prev l = true -> option_list l = l.
Proof. intros prev H. exact (option_list_of_sorted l (options_ok_any_sorted maxv l prev H)). Qed.

Definition raw_option (o : Z * optval) : Z * bytes := (fst o, rfc_value (snd o)).

Lemma head_byte d l : 0 <= d <= 14 -> 0 <= l <= 14 ->
  bytes_of_int (Z.shiftl (Z.land d 15) 4 + Z.land l 15) = Ok [d * 16 + l].
Proof.
  intros Hd Hl. rewrite !land15, !Z.mod_small, shiftl4 by lia. apply bytes_of_int_ok. lia.
Qed.

(* one iteration of the for loop: the three tests are those of the two _write_extended_field_value calls *)
Lemma Options_encode_loop_cons prev n v r : legal_any v = true ->
  Options_encode_loop prev ((n, v) :: r) =
  if (0 <=? n - prev) && (n - prev <=? 65804) && (blen (rfc_value v) <=? 65804)
  then data <- Options_encode_loop n r ;; Ok (rfc_option prev n (rfc_value v) ++ data)
  else Raise ValueError.
Proof.
  intros Hv. destruct (legal_any_witness v Hv) as [f Hf]. destruct (option_encode_is_rfc _ _ Hf) as [E _].
  pose proof (blen_nonneg (rfc_value v)) as Hnn. cbn [Options_encode_loop]. rewrite E. cbn [bind].
  destruct ((0 <=? n - prev) && (n - prev <=? 65804)) eqn:D; [|rewrite write_ext_reject by lia; reflexivity].
  rewrite write_ext_spec by lia. cbn [bind andb].
  destruct (blen (rfc_value v) <=? 65804) eqn:L; [|rewrite write_ext_reject by lia; reflexivity].
  rewrite write_ext_spec by lia. cbn [bind]. rewrite head_byte by (apply nibble_range; lia). cbn [bind].
  destruct (Options_encode_loop n r); cbn [bind]; [|reflexivity]. unfold rfc_option. cbn [app]. rewrite <- !app_assoc. reflexivity.
Qed.
Lemma Options_encode_loop_spec l : forall prev, Forall (fun o => legal_any (snd o) = true) l ->
  Options_encode_loop prev l =
  if options_ok_any 65804 prev l then Ok (rfc_options prev (map raw_option l)) else Raise ValueError.
Proof.
  induction l as [|[n v] r IH]; intros prev HL; [reflexivity|]. inversion HL as [|? ? Hv HL']; subst. cbn [snd] in Hv.
  rewrite (Options_encode_loop_cons prev n v r Hv), (IH n HL'). cbn [options_ok_any map raw_option rfc_options fst snd]. rewrite Hv.
  destruct ((0 <=? n - prev) && (n - prev <=? 65804)); [|reflexivity].
  destruct (blen (rfc_value v) <=? 65804); [|reflexivity].
  destruct (options_ok_any 65804 n r); reflexivity.
Qed.

Lemma Options_decode_loop_marker fuel prev self raw : Options_decode_loop (S fuel) prev self (255 :: raw) = Ok (self, raw).
Proof.
  cbn [Options_decode_loop]. rewrite blen_cons. pose proof (blen_nonneg raw).
  replace (1 + blen raw =? 0) with false by lia. rewrite bget_cons0. reflexivity.
Qed.
(* one iteration of the while loop on a byte that is not the payload marker *)
Lemma Options_decode_loop_cons fuel prev self b0 raw : 0 <= b0 < 255 ->
  Options_decode_loop (S fuel) prev self (b0 :: raw) =
  match parse_option b0 raw with
  | Some (d, l, v, rest) =>
    match rfc_interp (prev + d) v with
    | Some o => Options_decode_loop fuel (prev + d) (self ++ [(prev + d, o)]) rest
    | None => Raise UnparsableMessage
    end
  | None => Raise UnparsableMessage
  end.
Proof.
  intros H. cbn [Options_decode_loop]. rewrite blen_cons. pose proof (blen_nonneg raw).
  replace (1 + blen raw =? 0) with false by lia. rewrite bget_cons0. cbn [bind]. replace (b0 =? 255) with false by lia.
  rewrite byte_hi, land15. replace (b0 / 16 mod 16) with (b0 / 16) by lia.
  unfold bfrom at 1. change (Z.to_nat 1) with 1%nat. cbn [skipn]. unfold parse_option.
  rewrite read_ext_parse by lia. destruct (parse_ext (b0 / 16) raw) as [[d r1]|]; [|reflexivity]. cbn [bind].
  rewrite read_ext_parse by lia. destruct (parse_ext (b0 mod 16) r1) as [[l r2]|]; [|reflexivity]. cbn [bind].
  destruct (blen r2 <? l); [reflexivity|]. rewrite create_option_decode_interp.
  destruct (rfc_interp (prev + d) (bto r2 l)); reflexivity.
Qed.

Lemma OptionsWF_decode prev bs ropts p : OptionsWF prev bs ropts p ->
  forall fuel self, (length bs < fuel)%nat ->
  Options_decode_loop fuel prev self bs =
  match rfc_interp_options ropts with Some os => Ok (self ++ os, p) | None => Raise UnparsableMessage end.
Proof.
  induction 1 as [prev|prev p Hp|prev dn ln de le d l v rest opts p Hd Hl Hv W IH]; intros fuel self Hf;
    (destruct fuel; [inversion Hf|]).
  - cbn. rewrite app_nil_r. reflexivity.
  - rewrite Options_decode_loop_marker. cbn [rfc_interp_options]. rewrite app_nil_r. reflexivity.
  - pose proof (ExtField_range _ _ _ Hd). pose proof (ExtField_range _ _ _ Hl).
    rewrite Options_decode_loop_cons, (parse_option_complete _ _ _ _ _ _ _ _ Hd Hl Hv) by lia.
    cbn [rfc_interp_options]. destruct (rfc_interp (prev + d) v) as [o|]; [|reflexivity].
    rewrite IH by (cbn [length] in Hf; rewrite !app_length in Hf; lia).
    destruct (rfc_interp_options opts); [|reflexivity]. rewrite <- app_assoc. reflexivity.
Qed.
Lemma Options_decode_WF bs ropts p : OptionsWF 0 bs ropts p ->
  Options_decode [] bs = match rfc_interp_options ropts with Some os => Ok (os, p) | None => Raise UnparsableMessage end.
Proof. intros W. unfold Options_decode. rewrite (OptionsWF_decode 0 bs ropts p W (S (length bs)) []) by lia. reflexivity. Qed.

(* on arbitrary bytes: UnparsableMessage, or well-formed options; the fuel S (length raw) suffices because every iteration
   consumes at least the head byte *)
Lemma Options_decode_loop_total fuel : forall prev self raw, bytes_ok raw = true -> (length raw < fuel)%nat ->
  Options_decode_loop fuel prev self raw = Raise UnparsableMessage \/
  exists l p, Options_decode_loop fuel prev self raw = Ok (self ++ l, p) /\ options_ok 65804 prev l = true /\ bytes_ok p = true.
Proof.
  induction fuel as [|fuel IH]; intros prev self raw Hok Hf; [inversion Hf|].
  destruct raw as [|b0 raw].
  { right. exists [], []. cbn. rewrite app_nil_r. repeat split. }
  apply bytes_ok_cons_inv in Hok as [Hb Hok].
  destruct (Z.eq_dec b0 255) as [->|N].
  { right. exists [], raw. rewrite Options_decode_loop_marker, app_nil_r. repeat split; assumption. }
  rewrite Options_decode_loop_cons by lia.
  destruct (parse_option b0 raw) as [[[[d l] v] rest]|] eqn:P; [|left; reflexivity].
  destruct (parse_option_sound _ _ _ _ _ _ Hok P) as (de & le & Xd & Xl & Lv & -> & Hv & Hrest).
  destruct (rfc_interp (prev + d) v) as [o|] eqn:I; [|left; reflexivity].
  destruct (rfc_interp_legal _ _ _ Hv I) as [Lg Ln].
  destruct (ExtField_inv _ _ _ Xd) as (Rd & _). destruct (ExtField_inv _ _ _ Xl) as (Rl & _).
  assert (Lr : (length rest < fuel)%nat) by (cbn [length] in Hf; rewrite !app_length in Hf; lia).
  destruct (IH (prev + d) (self ++ [(prev + d, o)]) rest Hrest Lr) as [X|(os & p & X & Ok1 & Ok2)];
    [left; exact X|right].
  exists ((prev + d, o) :: os), p. rewrite X, <- app_assoc. split; [reflexivity|]. split; [|exact Ok2].
  apply options_ok_cons. rewrite <- table_matches_rfc. repeat split; try lia; [exact Lg|exact Ok1].
Qed.

(* the receive paths.  Only the table generated from the sources is examined here: what each site's except clause names;
   what the paths do with a datagram needs decode_total and is in Proofs/C01.v *)
Definition catches_only_unparsable (s : string * list string) : bool :=
  match snd s with [h] => String.eqb h "error.UnparsableMessage" | _ => false end.
Lemma decode_sites_catch_only :
  forallb catches_only_unparsable decode_sites = true /\ map fst decode_dispatch = map fst decode_sites /\
  map fst site_handlers = map fst decode_sites /\ (4 <= List.length decode_sites)%nat.
Proof. repeat split; vm_compute; reflexivity. Qed.
