(* C09 — from the message layer to the datagrams of [run]: the answers to a request are conserved between "handed to
   send_message", "waiting in the NSTART backlog" and "on the wire"; what follows for whole runs *)
From Verif Require Import Lib.Py Lib.Tactics Model.C09 Model.C09Stack Proofs.C09 Proofs.C09Stack.
Open Scope Z_scope.

Definition bl (s : state) : list wire := flat_map snd (s_backlog s).
Definition cnt (id : Z) (l : list wire) : nat := length (answers id l).
Definition out_of (x : state * step_out) : list wire := fst (fst (snd x)).

Lemma cnt_app id a b : cnt id (a ++ b) = (cnt id a + cnt id b)%nat.
Proof. unfold cnt, answers. rewrite filter_app, app_length. reflexivity. Qed.
Lemma cnt_one id w : cnt id [w] = b2n (is_answer id w).
Proof. unfold cnt, answers. cbn [filter]. destruct (is_answer id w); reflexivity. Qed.
Lemma cnt_all_empty id l : Forall (fun x => w_code x = EMPTY) l -> cnt id l = 0%nat.
Proof.
  induction 1 as [|x l Hx Hl IH]; [reflexivity|]. unfold cnt, answers in *. cbn [filter].
  unfold is_answer at 1. rewrite Hx. change (EMPTY =? EMPTY) with true. rewrite andb_false_r. exact IH.
Qed.
Lemma is_answer_mk id r t mid m : is_answer id (mk_wire r t mid m) = (r_id r =? id) && negb (code_of m =? EMPTY).
Proof. reflexivity. Qed.
Lemma is_answer_empty id remote mid : is_answer id (empty_ack remote mid) = false.
Proof. unfold is_answer. cbn. apply andb_false_r. Qed.
Lemma answer_le id r t mid m : (b2n (is_answer id (mk_wire r t mid m)) <= b2n (Z.eqb (r_id r) id))%nat.
Proof. rewrite is_answer_mk. destruct (r_id r =? id), (code_of m =? EMPTY); cbn; lia. Qed.

(* The conservation law all operations of the message layer obey.  After an operation that leads from s to [fst x] and
   puts [snd x] on the wire: the answers to id on the wire and in the backlogs are those s held in its backlogs and at most
   n more; and every datagram there was held by s, is an empty message, or satisfies Q. *)
Definition accounts (id : Z) (Q : wire -> Prop) (n : nat) (s : state) (x : state * list wire) : Prop :=
  (cnt id (snd x) + cnt id (bl (fst x)) <= cnt id (bl s) + n)%nat /\
  forall w, In w (snd x) \/ In w (bl (fst x)) -> In w (bl s) \/ w_code w = EMPTY \/ Q w.

Lemma accounts_le id Q n n' s x : (n <= n')%nat -> accounts id Q n s x -> accounts id Q n' s x.
Proof. intros Hn [C O]. split; [lia|exact O]. Qed.
Lemma accounts_imp id (Q Q' : wire -> Prop) n s x : (forall w, Q w -> Q' w) -> accounts id Q n s x -> accounts id Q' n s x.
Proof. intros HQ [C O]. split; [exact C|]. intros w Hw. destruct (O w Hw) as [A|[A|A]]; auto. Qed.
Lemma accounts_empties id Q s s' out : bl s' = bl s -> Forall (fun x => w_code x = EMPTY) out -> accounts id Q 0 s (s', out).
Proof.
  intros E H. split; cbn [fst snd]; rewrite E; [rewrite (cnt_all_empty id out H); lia|].
  intros w [Hw|Hw]; [right; left; rewrite Forall_forall in H; exact (H w Hw)|left; exact Hw].
Qed.
Lemma accounts_emit id (Q : wire -> Prop) s s' w : bl s' = bl s -> w_code w = EMPTY \/ Q w ->
  accounts id Q (b2n (is_answer id w)) s (s', [w]).
Proof. intros E HQ. split; cbn [fst snd]; rewrite E; [rewrite cnt_one; lia|]. intros x [[<-|[]]|H]; auto. Qed.
Lemma accounts_trans id Q n1 n2 s x y : accounts id Q n1 s x -> accounts id Q n2 (fst x) y ->
  accounts id Q (n1 + n2) s (fst y, snd x ++ snd y).
Proof.
  intros [C1 O1] [C2 O2]. split; cbn [fst snd]; [rewrite cnt_app; lia|]. intros w Hw.
  assert (Hw': In w (snd x) \/ (In w (snd y) \/ In w (bl (fst y)))) by (destruct Hw as [Hw|Hw]; [apply in_app_or in Hw as [Hw|Hw]|]; auto).
  destruct Hw' as [Hw'|Hw']; [exact (O1 w (or_introl Hw'))|].
  destruct (O2 w Hw') as [A|A]; [exact (O1 w (or_intror A))|auto].
Qed.

(* the datagrams held in the backlogs, with one remote's backlog singled out (find_backlog_split) *)
Lemma bl_split (l1 l2 : list (Z * list wire)) q b : flat_map snd (l1 ++ (q, b) :: l2) = flat_map snd l1 ++ b ++ flat_map snd l2.
Proof. rewrite flat_map_app. reflexivity. Qed.

Definition fresh_wire (r : request) (m : msg) (x : wire) : Prop := exists t mid, x = mk_wire r t mid m.
Lemma fresh_wire_mk r t mid m : fresh_wire r m (mk_wire r t mid m).
Proof. exists t, mid. reflexivity. Qed.

Lemma send_initially_accounts id (Q : wire -> Prop) s0 s w : bl s = bl s0 -> w_code w = EMPTY \/ Q w ->
  accounts id Q (b2n (is_answer id w)) s0 (send_initially s w).
Proof.
  intros E HQ. replace (send_initially s w) with (fst (send_initially s w), [w]) by (unfold send_initially; destruct (_ =? _); reflexivity).
  apply accounts_emit; [|exact HQ]. rewrite <- E. unfold send_initially. destruct (w_type w =? T_CON); [|reflexivity].
  unfold bl. cbn [fst s_backlog set_backlog set_active]. destruct (has_backlog s (w_remote w)); [reflexivity|].
  rewrite flat_map_app. cbn. apply app_nil_r.
Qed.
Lemma send_plain_accounts id s r m : accounts id (fresh_wire r m) (b2n (Z.eqb (r_id r) id)) s (send_plain s r m).
Proof.
  pose proof (answer_le id r (if r_con r then T_CON else T_NON) (s_mid s) m) as Hle.
  destruct (send_plain_shape s r m) as [->|(l1 & b & l2 & El & ->)].
  - eapply accounts_le; [exact Hle|]. apply send_initially_accounts; [reflexivity|right; apply fresh_wire_mk].
  - unfold accounts, bl. cbn [fst snd s_backlog set_backlog set_mid]. rewrite El, !bl_split. split.
    + rewrite !cnt_app, cnt_one. change (cnt id []) with 0%nat. lia.
    + intros x [[]|Hx]. rewrite !in_app_iff in Hx. rewrite !in_app_iff. cbn [In] in Hx.
      destruct Hx as [Hx|[[Hx|[<-|[]]]|Hx]]; auto. right; right. apply fresh_wire_mk.
Qed.
Lemma send_message_accounts id s r m : accounts id (fresh_wire r m) (b2n (Z.eqb (r_id r) id)) s (send_message s r m).
Proof.
  destruct (send_message_shape s r m) as [->|[->|(mid & ->)]].
  - eapply accounts_le; [apply Nat.le_0_l|]. apply accounts_empties; [reflexivity|constructor].
  - apply send_plain_accounts.
  - destruct (suppressed m).
    + eapply accounts_le; [|apply send_initially_accounts; [reflexivity|left; reflexivity]]. rewrite is_answer_empty. apply Nat.le_0_l.
    + eapply accounts_le; [apply answer_le|]. apply send_initially_accounts; [reflexivity|right; apply fresh_wire_mk].
Qed.

Definition from_sends (r : request) (sends : list (msg * bool)) (x : wire) : Prop :=
  exists m l, In (m, l) sends /\ fresh_wire r (tm_fill r m) x.
Lemma perform_accounts id : forall acts s r,
  accounts id (from_sends r (sends_of acts)) (if Z.eqb (r_id r) id then length (sends_of acts) else 0) s (fst (perform s r acts)).
Proof.
  induction acts as [|[m l|lg] acts IH]; intros s r; cbn [perform].
  - eapply accounts_le; [apply Nat.le_0_l|]. apply accounts_empties; [reflexivity|constructor].
  - pose proof (send_message_accounts id s r (tm_fill r m)) as H1. destruct (send_message s r (tm_fill r m)) as [s1 w].
    specialize (IH s1 r). destruct (perform s1 r acts) as [[s2 w2] l2]. rewrite sends_of_cons. cbn [app fst] in *.
    set (Q := from_sends r ([(m, l)] ++ sends_of acts)).
    assert (A1: accounts id Q (b2n (Z.eqb (r_id r) id)) s (s1, w)).
    { eapply accounts_imp; [|exact H1]. intros x Hx. exists m, l. split; [left; reflexivity|exact Hx]. }
    assert (A2: accounts id Q (if Z.eqb (r_id r) id then length (sends_of acts) else 0) s1 (s2, w2)).
    { eapply accounts_imp; [|exact IH]. intros x (m' & l' & Hin & Hx). exists m', l'. split; [right; exact Hin|exact Hx]. }
    eapply accounts_le; [|exact (accounts_trans id _ _ _ s (s1, w) (s2, w2) A1 A2)].
    destruct (r_id r =? id); cbn [b2n length]; lia.
  - specialize (IH s r). destruct (perform s r acts) as [[s2 w2] l2]. rewrite sends_of_cons. exact IH.
Qed.
Lemma run_entry_accounts srv s e id :
  accounts id (from_sends (e_req e) (entry_sends srv e)) (if Z.eqb (eid e) id then length (entry_sends srv e) else 0) s
    (fst (run_entry srv s e), out_of (run_entry srv s e)).
Proof.
  unfold run_entry, entry_sends, out_of. destruct (run_ractions (e_pipes e) (respond srv (e_req e))) as [[q acts] n].
  match goal with |- context [perform ?s0 ?r0 acts] => pose proof (perform_accounts id acts s0 r0) as H; destruct (perform s0 r0 acts) as [[s2 w] l] end.
  exact H.
Qed.

Lemma arrive_bl s r : bl (arrive s r) = bl s.
Proof. unfold arrive. destruct (r_con r); reflexivity. Qed.
Lemma fire_piggy_empty now l : Forall (fun x => w_code x = EMPTY) (snd (fire_piggy now l)).
Proof.
  induction l as [|[k [mid due]] l IH]; [constructor|]. cbn [fire_piggy]. destruct (fire_piggy now l) as [keep out].
  destruct (due <=? now); cbn [snd] in *; [constructor; [reflexivity|exact IH]|exact IH].
Qed.
(* a backlogged datagram that is released was held before *)
Lemma continue_backlog_accounts s remote id : accounts id (fun _ => False) 0 s (continue_backlog s remote).
Proof.
  destruct (continue_backlog_shape s remote) as [->|(l1 & b & l2 & El & _ & ->)]; [apply accounts_empties; [reflexivity|constructor]|].
  destruct b as [|w rest].
  - apply accounts_empties; [|constructor]. unfold bl. cbn [s_backlog set_backlog]. rewrite El, bl_split, flat_map_app. reflexivity.
  - set (s1 := set_backlog s _). destruct (send_initially_accounts id (eq w) s1 s1 w eq_refl (or_intror eq_refl)) as [C1 O1].
    change (bl s1) with (flat_map snd (l1 ++ (remote, rest) :: l2)) in C1, O1. rewrite bl_split in C1, O1.
    split; change (bl s) with (flat_map snd (s_backlog s)); rewrite El, bl_split.
    + change (w :: rest) with ([w] ++ rest). rewrite !cnt_app, cnt_one in *. lia.
    + intros x Hx. rewrite !in_app_iff. cbn [In]. destruct (O1 x Hx) as [H|[H| <-]]; [|auto|auto 6].
      rewrite !in_app_iff in H. tauto.
Qed.

Lemma sends_for_tag id j (l : list (msg * bool)) :
  length (sends_for id (map (fun x => (j, fst x, snd x)) l)) = if j =? id then length l else 0%nat.
Proof.
  unfold sends_for. induction l as [|x l IH]; cbn [map filter fst]; [destruct (j =? id); reflexivity|].
  destruct (j =? id); cbn [length]; rewrite IH; reflexivity.
Qed.

Lemma settle_accounts s ev id Q : accounts id Q 0 s (settle s ev).
Proof.
  destruct ev as [r|j|us|remote]; cbn [settle].
  - apply accounts_empties; [apply arrive_bl|constructor].
  - apply accounts_empties; [reflexivity|constructor].
  - unfold step_tick. pose proof (fire_piggy_empty (s_now s + us) (s_piggy s)) as H.
    destruct (fire_piggy (s_now s + us) (s_piggy s)) as [keep out]. apply accounts_empties; [reflexivity|exact H].
  - unfold step_ack. destruct (remove_first_active remote (s_active s)) as [a|]; [|apply accounts_empties; [reflexivity|constructor]].
    eapply accounts_imp; [|exact (continue_backlog_accounts (set_active s a) remote id)]. intros x [].
Qed.
(* one step: every answer of request [id] that appears on the wire or in a backlog was in a backlog before, or comes from
   a response handed to the message layer in this step by the rendering whose turn it is *)
Lemma step_accounts srv s ev id : Inv s ->
  accounts id (fun x => exists e, turn srv s ev = Some e /\ from_sends (e_req e) (entry_sends srv e) x)
    (length (sends_for id (step_sends srv s ev))) s (fst (step srv s ev), out_of (step srv s ev)).
Proof.
  intros HI. rewrite (step_phases srv s ev HI), step_sends_turn. destruct (turn srv s ev) as [e|] eqn:Et.
  - destruct (turn_some srv s ev e HI Et) as (_ & _ & Hw). rewrite sends_for_tag.
    set (y := run_entry srv (fst (settle s ev)) e). replace (out_of y) with (snd (settle s ev) ++ out_of y) by (rewrite Hw; reflexivity).
    apply (accounts_trans id _ 0 _ s (settle s ev) (fst y, out_of y)); [apply settle_accounts|].
    eapply accounts_imp; [|exact (run_entry_accounts srv (fst (settle s ev)) e id)].
    intros x Hx. exists e. split; [reflexivity|exact Hx].
  - unfold out_of. cbn [fst snd]. rewrite <- surjective_pairing. apply settle_accounts.
Qed.

(* a predicate on the requests of all registered renderings is kept by a step whose own request satisfies it *)
Definition EntriesP (P : request -> Prop) (s : state) : Prop := Forall (fun e => P (e_req e)) (s_incoming s).
Lemma run_entry_entriesP srv P s e : e_pipes e = live -> EntriesP P s -> P (e_req e) -> EntriesP P (fst (run_entry srv s e)).
Proof.
  intros Hl HP He. unfold EntriesP. destruct (run_entry_incoming srv s e Hl) as [-> | ->].
  - apply Forall_remove_id. exact HP.
  - apply Forall_replace_id; [exact HP|exact He].
Qed.
Lemma settle_entriesP P s ev : EntriesP P s -> (forall r, ev = Req r -> P r) -> EntriesP P (fst (settle s ev)).
Proof.
  intros HP Hev. unfold EntriesP. rewrite settle_incoming. destruct ev as [r| | |]; try exact HP.
  apply Forall_app. split; [exact (incl_Forall (displaced_incl _ _) HP)|repeat constructor; apply Hev; reflexivity].
Qed.
(* the rendering whose turn it is satisfies it, and does what a newly set up rendering of its request would do *)
Lemma turn_P srv P s ev e : Inv s -> EntriesP P s -> (forall r, ev = Req r -> P r) -> turn srv s ev = Some e ->
  e_pipes e = live /\ P (e_req e) /\ entry_sends srv e = entry_sends srv (new_entry (e_req e)).
Proof.
  intros HI HP Hev Et. destruct (turn_some srv s ev e HI Et) as (Hl & Hin & _). split; [exact Hl|]. split.
  - pose proof (settle_entriesP P s ev HP Hev) as Hs. unfold EntriesP in Hs. rewrite Forall_forall in Hs. exact (Hs e Hin).
  - unfold entry_sends, new_entry. cbn [e_pipes e_req]. rewrite Hl. reflexivity.
Qed.
Lemma step_entriesP srv P s ev : Inv s -> EntriesP P s -> (forall r, ev = Req r -> P r) -> EntriesP P (fst (step srv s ev)).
Proof.
  intros HI HP Hev. rewrite (step_phases srv s ev HI). destruct (turn srv s ev) as [e|] eqn:Et; [|exact (settle_entriesP P s ev HP Hev)].
  destruct (turn_P srv P s ev e HI HP Hev Et) as (Hl & He & _). apply run_entry_entriesP; [exact Hl|exact (settle_entriesP P s ev HP Hev)|exact He].
Qed.
Lemma step_sends_origin srv s ev i m l : In (i, m, l) (step_sends srv s ev) ->
  exists e, turn srv s ev = Some e /\ eid e = i /\ In (m, l) (entry_sends srv e).
Proof.
  rewrite step_sends_turn. destruct (turn srv s ev) as [e|]; [|intros []]. intros H.
  apply in_map_iff in H as ([m' l'] & [= <- <- <-] & Hin). exists e. auto.
Qed.

Lemma run_cons_wires srv s ev rest :
  wires (snd (run srv s (ev :: rest))) = out_of (step srv s ev) ++ wires (snd (run srv (fst (step srv s ev)) rest)).
Proof.
  cbn [run]. unfold out_of. destruct (step srv s ev) as [s1 o]. cbn [fst snd]. destruct (run srv s1 rest) as [s2 os]. reflexivity.
Qed.
Lemma sends_for_app id a b : sends_for id (a ++ b) = sends_for id a ++ sends_for id b.
Proof. apply filter_app. Qed.

(* whole runs: conservation and origin of every answer, origin of every response handed to the message layer *)
Lemma run_wire srv (P : request -> Prop) id : forall evs s, Inv s -> fresh s evs -> EntriesP P s ->
  (forall r, In (Req r) evs -> P r) ->
  accounts id (fun x => exists r', P r' /\ from_sends r' (entry_sends srv (new_entry r')) x)
    (length (sends_for id (run_sends srv s evs))) s (fst (run srv s evs), wires (snd (run srv s evs))) /\
  (forall i m l, In (i, m, l) (run_sends srv s evs) ->
     exists r', P r' /\ r_id r' = i /\ In (m, l) (entry_sends srv (new_entry r'))).
Proof.
  induction evs as [|ev rest IH]; intros s HI Hf HP Hev.
  - split; [apply accounts_empties; [reflexivity|constructor]|intros i m l []].
  - destruct (step_ok srv s ev rest HI Hf) as (HI' & Hf').
    assert (Hev1: forall r, ev = Req r -> P r) by (intros r ->; apply Hev; left; reflexivity).
    assert (HP': EntriesP P (fst (step srv s ev))) by (apply step_entriesP; assumption).
    destruct (IH (fst (step srv s ev)) HI' Hf' HP' (fun r Hr => Hev r (or_intror Hr))) as (IA & IS).
    rewrite run_cons_fst, run_cons_wires. cbn [run_sends]. rewrite sends_for_app, app_length. split.
    + refine (accounts_trans id _ _ _ s (_, _) (_, _) _ IA). eapply accounts_imp; [|exact (step_accounts srv s ev id HI)].
      intros x (e & Et & Hx). destruct (turn_P srv P s ev e HI HP Hev1 Et) as (_ & He & Hl). exists (e_req e). rewrite <- Hl. auto.
    + intros i m l Hin. apply in_app_or in Hin as [Hin|Hin]; [|apply IS; exact Hin].
      destruct (step_sends_origin srv s ev i m l Hin) as (e & Et & Hi & Hm).
      destruct (turn_P srv P s ev e HI HP Hev1 Et) as (_ & He & Hl). exists (e_req e). rewrite <- Hl. auto.
Qed.

Lemma req_in_ids q evs : In (Req q) evs -> In (r_id q) (req_ids evs).
Proof. intros H. unfold req_ids. apply in_flat_map. exists (Req q). split; [exact H|left; reflexivity]. Qed.
Lemma req_unique : forall evs r r', NoDup (req_ids evs) -> In (Req r) evs -> In (Req r') evs -> r_id r' = r_id r -> r' = r.
Proof.
  induction evs as [|ev evs IH]; intros r r' Hnd Hr Hr' Hid; [destruct Hr|].
  rewrite req_ids_cons in Hnd. destruct Hr as [->|Hr], Hr' as [Heq|Hr'].
  - inversion Heq; reflexivity.
  - cbn in Hnd. inversion Hnd as [|? ? Hx _]; subst. exfalso. apply Hx. rewrite <- Hid. apply req_in_ids. exact Hr'.
  - subst ev. cbn in Hnd. inversion Hnd as [|? ? Hx _]; subst. exfalso. apply Hx. rewrite Hid. apply req_in_ids. exact Hr.
  - apply IH; auto. destruct ev; cbn in Hnd; try exact Hnd. inversion Hnd; assumption.
Qed.
Lemma sends_all_final id L : (forall m l, In (id, m, l) L -> l = true) ->
  (length (sends_for id L) <= length (finals_for id L))%nat.
Proof.
  unfold sends_for, finals_for. induction L as [|[[i m] l] L IH]; intros H; [cbn; lia|]. cbn [filter flat_map fst].
  assert (IH' := IH (fun m0 l0 Hin => H m0 l0 (or_intror Hin))).
  destruct (i =? id) eqn:E.
  - assert (l = true) as -> by (apply (H m); left; f_equal; f_equal; lia). cbn [andb app length]. lia.
  - cbn [andb app]. exact IH'.
Qed.

Definition carries (r : request) (m : msg) (w : wire) : Prop :=
  w_rid w = r_id r /\ w_remote w = r_remote r /\ w_token w = r_token r /\
  w_code w = code_of m /\ w_payload w = m_payload m /\ w_cf w = m_cf m /\ w_obs w = m_obs m.
Lemma wire_at_most_one srv mid0 evs r m : NoDup (req_ids evs) -> In (Req r) evs -> finalising srv r ->
  final_message srv r = Some m ->
  let ws := answers (r_id r) (wires (snd (run srv (init_state mid0) evs))) in
  (length ws <= 1)%nat /\ forall w, In w ws -> carries r m w.
Proof.
  intros Hnd Hin Hfin Hm. cbv zeta.
  set (P := fun r' : request => r_id r' = r_id r -> r' = r).
  assert (HPev: forall r', In (Req r') evs -> P r') by (intros r' Hr' Hid; eapply req_unique; eauto).
  destruct (run_wire srv P (r_id r) evs (init_state mid0) (init_inv mid0) (init_fresh mid0 evs Hnd)) as ((C & O) & S); [constructor|exact HPev|].
  cbn [fst snd] in C, O.
  assert (Hown: entry_sends srv (new_entry r) = [(m, true)]).
  { rewrite entry_sends_own by (auto; reflexivity). cbn [e_req new_entry]. rewrite Hm. reflexivity. }
  split.
  - change (length (answers (r_id r) ?l)) with (cnt (r_id r) l). change (cnt (r_id r) (bl (init_state mid0))) with 0%nat in C.
    assert (Hall: forall m0 l0, In (r_id r, m0, l0) (run_sends srv (init_state mid0) evs) -> l0 = true).
    { intros m0 l0 H0. destruct (S _ _ _ H0) as (r' & HP' & Hid & Hs). rewrite (HP' Hid), Hown in Hs.
      destruct Hs as [Heq|[]]. inversion Heq; reflexivity. }
    pose proof (sends_all_final _ _ Hall). pose proof (at_most_one_final srv evs (init_state mid0) (r_id r) (init_inv mid0) (init_fresh mid0 evs Hnd)). lia.
  - intros w Hw. unfold answers in Hw. apply filter_In in Hw as [Hw Ha]. unfold is_answer in Ha. apply andb_prop in Ha as [Ha1 Ha2].
    destruct (O w (or_introl Hw)) as [[]|[A|(r' & HP' & m' & l' & Hs & t & mid & ->)]].
    + rewrite A in Ha2. discriminate.
    + cbn [w_rid mk_wire] in Ha1. assert (r' = r) as -> by (apply HP'; lia). rewrite Hown in Hs.
      destruct Hs as [Heq|[]]. inversion Heq; subst. repeat split.
Qed.

Lemma answers_depend_on_own_request srv mid0 mid0' evs evs' r m :
  NoDup (req_ids evs) -> NoDup (req_ids evs') -> In (Req r) evs -> In (Req r) evs' -> finalising srv r -> final_message srv r = Some m ->
  forall w w', In w (answers (r_id r) (wires (snd (run srv (init_state mid0) evs)))) ->
               In w' (answers (r_id r) (wires (snd (run srv (init_state mid0') evs')))) ->
  (w_remote w, w_token w, w_code w, w_payload w, w_cf w, w_obs w) = (w_remote w', w_token w', w_code w', w_payload w', w_cf w', w_obs w').
Proof.
  intros Hnd Hnd' Hin Hin' Hfin Hm w w' Hw Hw'.
  destruct (wire_at_most_one srv mid0 evs r m Hnd Hin Hfin Hm) as [_ H]. destruct (wire_at_most_one srv mid0' evs' r m Hnd' Hin' Hfin Hm) as [_ H'].
  destruct (H w Hw) as (_ & A1 & A2 & A3 & A4 & A5 & A6). destruct (H' w' Hw') as (_ & B1 & B2 & B3 & B4 & B5 & B6).
  congruence.
Qed.

Lemma response_on_wire_at_once s r m : is_response (code_of m) = true -> suppressed m = false ->
  r_con r = false \/ lookup_piggy (key_of r) (s_piggy s) <> None ->
  exists t mid, snd (send_message s r m) = [mk_wire r t mid m] /\ is_answer (r_id r) (mk_wire r t mid m) = true.
Proof.
  intros Hr Hs Hc. pose proof (send_message_cases s r m Hr) as H. destruct (send_message s r m) as [s' out]. cbn [snd].
  assert (Ha: forall t mid, is_answer (r_id r) (mk_wire r t mid m) = true).
  { intros t mid. rewrite is_answer_mk, Z.eqb_refl. unfold is_response in Hr. unfold EMPTY. replace (code_of m =? 0) with false by lia. reflexivity. }
  destruct (lookup_piggy (key_of r) (s_piggy s)) as [[mid due]|].
  - destruct H as [_ ->]. rewrite Hs. eexists; eexists; split; [reflexivity|apply Ha].
  - rewrite Hs in H. destruct Hc as [Hc|Hc]; [|congruence]. destruct H as [->|(_ & Hcon & _)]; [|congruence].
    eexists; eexists; split; [reflexivity|apply Ha].
Qed.

Lemma overridden_gets_none srv s e r' post : Inv s -> fresh s (Req r' :: post) ->
  find_by_key (key_of r') (s_incoming s) = Some e ->
  finals_for (eid e) (run_sends srv s (Req r' :: post)) = [].
Proof.
  intros HI Hf E. destruct (find_by_key_some _ _ _ E) as (Hin & _).
  destruct (step_ok srv s (Req r') post HI Hf) as (HI' & Hf'). pose proof (fresh_head _ _ _ Hf) as H1.
  assert (Hne: r_id r' <> eid e) by (intros Heq; apply H1; rewrite Heq; apply in_map; exact Hin).
  cbn [run_sends]. rewrite finals_for_app.
  assert (Hs: finals_for (eid e) (step_sends srv s (Req r')) = []).
  { cbn [step_sends]. destruct (r_slow r' && reaches_handler srv r'); [reflexivity|]. rewrite finals_for_tag. replace (r_id r' =? eid e) with false by lia. reflexivity. }
  rewrite Hs. cbn [app]. apply finals_none_after; [exact HI'|exact Hf'| |].
  - assert (Ha: pending (eid e) (s_incoming (arrive s r')) = false).
    { unfold pending. rewrite arrive_incoming, find_snoc. unfold displaced. rewrite E, find_remove, Z.eqb_refl.
      change (eid (new_entry r')) with (r_id r'). replace (r_id r' =? eid e) with false by lia. reflexivity. }
    cbn [step]. rewrite (step_req_arrive srv s r' HI). destruct (r_slow r' && reaches_handler srv r'); [exact Ha|].
    unfold pending. rewrite run_entry_find_other; [exact Ha|reflexivity|exact Hne].
  - destruct Hf as [_ Hni]. intros Hin'. apply (Hni (eid e)); [rewrite req_ids_cons; apply in_or_app; right; exact Hin'|apply in_map; exact Hin].
Qed.
