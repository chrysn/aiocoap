(* C02 — the table invariant Inv (every entry of outgoing_requests belongs to a live request whose pipe will pop exactly that
   entry when it ends), kept by every primitive action; and what follows from it. *)
From Verif Require Import Lib.Py Lib.PyLemmas Lib.Tactics Gen.tokenmanager_next_token Model.C02 Proofs.C02 Proofs.C02Origin.
Open Scope Z_scope.

(* the request is waiting for its first response, or is an observation that got one *)
Definition live (c : creq) : Prop :=
  (cq_runner c = AwaitFirst /\ cq_fut c = FPending) \/
  ((exists v, cq_runner c = Observing v) /\ cq_observe c = true /\ exists rid, cq_fut c = FResult rid).
Definition entry_ok (s : st) (k : key) (q : Z) : Prop :=
  exists c, get_req s q = Some c /\ cq_cbs c = Some [CbProcess; CbInterestEnd k] /\
            snd k = (if is_multicast (cq_remote c) then None else Some (cq_remote c)) /\ live c.
Definition Inv (s : st) : Prop :=
  match outgoing s with None => True | Some og => forall k q, In (k, q) og -> entry_ok s k q end.

(* the callback list is [process; pop k]: unless the observation continues the generator is done, and then either the event is
   final and `pop k` pops k when called with it, or process unregisters itself, no interest is left and _end's tombstone makes
   `pop k` pop k. The script runs pipe_add_event on this list for each branch of _run a live request can take. *)
Lemma pipe_live_step : forall q c ev k c' o ks,
  cq_cbs c = Some [CbProcess; CbInterestEnd k] -> live c -> pipe_add_event q c ev = (c', o, ks) ->
  cq_remote c' = cq_remote c /\
  ((ks = [k] /\ cq_cbs c' = None) \/
   (ks = [] /\ cq_cbs c' = Some [CbProcess; CbInterestEnd k] /\ live c' /\ pev_is_last ev = false)).
Proof.
  intros q [rm ob cbs fu ru oc] ev k c' o ks Hc Hl H. cbn in Hc. subst cbs.
  unfold live in Hl. cbn in Hl.
  unfold pipe_add_event, _add_event_loop, call_cb, process, _run, _stop_interest, _end in H. cbn in H.
  destruct Hl as [[-> ->]|[[v ->] [-> [rid ->]]]].
  - destruct ob, ev as [w from l|e]; cbn in H; try destruct l; cbn in H; try destruct (w_observe w); cbn in H;
      rewrite ?key_eqb_refl in H; cbn in H; invpairs; cbn; (split; [reflexivity|]).
    all: try (left; split; reflexivity).
    right. repeat split. right. cbn. repeat split; eauto.
  - destruct oc, ev as [w from l|e]; cbn in H; try destruct l; cbn in H; try destruct (w_observe w); cbn in H;
      try destruct (is_recent v _); cbn in H;
      rewrite ?key_eqb_refl in H; cbn in H; invpairs; cbn; (split; [reflexivity|]).
    all: try (left; split; reflexivity).
    all: right; repeat split; right; cbn; repeat split; eauto.
Qed.

Lemma entry_ok_frame : forall s s' k q, get_req s' q = get_req s q -> entry_ok s k q -> entry_ok s' k q.
Proof. intros s s' k q H (c & G & R). exists c. rewrite H. split; assumption. Qed.

Lemma Inv_frame : forall s s', outgoing s' = outgoing s -> reqs s' = reqs s -> Inv s -> Inv s'.
Proof.
  intros s s' H1 H2 H. unfold Inv in *. rewrite H1. destruct (outgoing s); [|exact I].
  intros k q Hin. eapply entry_ok_frame; [|apply H; exact Hin]. unfold get_req. rewrite H2. reflexivity.
Qed.
Lemma Inv_subset : forall s og og', outgoing s = Some og -> (forall x, In x og' -> In x og) -> Inv s -> Inv (set_outgoing s (Some og')).
Proof.
  intros s og og' Hog Hsub H. unfold Inv in *. rewrite Hog in H. cbn [outgoing set_outgoing].
  intros k q Hin. eapply entry_ok_frame; [|apply H; apply Hsub; exact Hin]. reflexivity.
Qed.

Lemma Inv_entry : forall s og k q, Inv s -> outgoing s = Some og -> In (k, q) og -> entry_ok s k q.
Proof. intros s og k q HI Hog. unfold Inv in HI. rewrite Hog in HI. apply HI. Qed.
(* `process` is called first, the generator waits for its first event, the future is pending: the next event completes the request *)
Definition awaiting (c : creq) : Prop :=
  (exists rest, cq_cbs c = Some (CbProcess :: rest)) /\ cq_runner c = AwaitFirst /\ cq_fut c = FPending.
(* a registered request whose future is pending *)
Lemma pending_entry : forall s og k q c, Inv s -> outgoing s = Some og -> In (k, q) og -> get_req s q = Some c -> cq_fut c = FPending -> awaiting c.
Proof.
  intros s og k q c HI Hog Hin G Hf. destruct (Inv_entry _ _ _ _ HI Hog Hin) as (c0 & G0 & Hc & _ & Hl). rewrite G in G0. inversion G0. subst c0.
  split; [eexists; exact Hc|]. split; [|exact Hf]. destruct Hl as [[Hr _]|(_ & _ & rid & Hx)]; [exact Hr|congruence].
Qed.

Lemma upd_pop_inv : forall s q c c' ks, Inv s -> get_req s q = Some c ->
  (forall k, cq_cbs c = Some [CbProcess; CbInterestEnd k] -> live c ->
     In k ks \/ (cq_cbs c' = cq_cbs c /\ cq_remote c' = cq_remote c /\ live c')) ->
  Inv (pop_keys (upd_req s q c') ks).
Proof.
  intros s q c c' ks HI G Hq. unfold Inv in *. rewrite pop_keys_outgoing. cbn [outgoing upd_req set_reqs].
  destruct (outgoing s) as [og|]; [|exact I].
  intros k' q' Hin. apply In_fold_aremove in Hin. destruct Hin as [Hin Hks]. cbn [fst] in Hks.
  destruct (HI k' q' Hin) as (c0 & G0 & Hcbs & Hrm & Hl).
  unfold entry_ok. rewrite get_req_pop_keys, get_req_upd.
  destruct (q' =? q) eqn:E; [|exists c0; repeat split; assumption].
  apply Z.eqb_eq in E. subst q'. rewrite G in G0. inversion G0. subst c0.
  destruct (Hq k' Hcbs Hl) as [Hk|(E1 & E2 & Hl')].
  - apply Hks in Hk. rewrite key_eqb_refl in Hk. discriminate.
  - exists c'. rewrite E1, E2. repeat split; assumption.
Qed.
Lemma add_event_inv : forall s q ev s' o, Inv s -> _add_event s q ev = (s', o) -> Inv s'.
Proof.
  intros s q ev s' o HI H. unfold _add_event in H. destruct (get_req s q) as [c|] eqn:G; [|invpairs; exact HI].
  destruct (pipe_add_event q c ev) as [[c' o'] ks] eqn:P. invpairs. eapply upd_pop_inv; [exact HI|exact G|]. intros k Hc Hl.
  destruct (pipe_live_step q c ev k c' o ks Hc Hl P) as [Hr [[-> _]|(_ & Hc' & Hl' & _)]]; [left; left; reflexivity|right].
  repeat split; [congruence|exact Hr|exact Hl'].
Qed.

Lemma prim_inv : forall A s s' o, prim A s s' o -> Inv s -> Inv s'.
Proof.
  intros A s s' o [s0 s1 o0 (F1 & F2 & _) _|s0 s1 e (F1 & F2 & _)|s0 q ev s1 o0 _ H|s0 og k Hog] HI.
  - eapply Inv_frame; eassumption.
  - eapply Inv_frame; eassumption.
  - eapply add_event_inv; eassumption.
  - eapply Inv_subset; [exact Hog| |exact HI]. intros x Hx. apply In_aremove in Hx. apply Hx.
Qed.

Lemma stop_interest_live : forall c k c' ks, cq_cbs c = Some [CbProcess; CbInterestEnd k] -> _stop_interest c = (c', ks) ->
  ks = [k] /\ cq_cbs c' = None.
Proof.
  intros [rm ob cbs fu ru oc] k c' ks Hc H. cbn in Hc. subst cbs. unfold _stop_interest, _end in H. cbn in H. invpairs. split; reflexivity.
Qed.

(* other entries stay: a request that has an entry has two callbacks, the new one has one *)
Lemma new_inv : forall s q c, Inv s -> get_req s q = None -> Inv (upd_req s q c).
Proof.
  intros s q c HI G. unfold Inv in *. cbn [outgoing upd_req set_reqs]. destruct (outgoing s); [|exact I]. intros k' q' Hin.
  destruct (HI k' q' Hin) as (c1 & Gc & R). exists c1. rewrite get_req_upd.
  destruct (q' =? q) eqn:E; [apply Z.eqb_eq in E; subst; congruence|]. split; assumption.
Qed.
Lemma register_inv : forall s q r obs og, Inv s -> get_req s q = Some (fresh_req r obs) -> outgoing s = Some og -> Inv (register s q r og).
Proof.
  intros s q r obs og HI G Hog. rewrite (register_eq _ _ _ _ _ G). cbn zeta. set (k := (_, _)).
  unfold Inv in *. rewrite Hog in HI. cbn [outgoing upd_req set_reqs set_outgoing set_tmst]. intros k' q' Hin.
  unfold entry_ok. rewrite get_req_upd. apply In_aset in Hin. destruct Hin as [Hin|Hin].
  - inversion Hin. subst k' q'. rewrite Z.eqb_refl. eexists. split; [reflexivity|]. cbn. repeat split. left. split; reflexivity.
  - destruct (HI k' q' Hin) as (c & Gc & Hc & R). exists c.
    destruct (q' =? q) eqn:E; [apply Z.eqb_eq in E; subst q'; rewrite G in Gc; inversion Gc; subst c; discriminate|].
    split; [exact Gc|split; assumption].
Qed.
Lemma app_inv : forall e s s' o, app_prim e s s' o -> Inv s -> Inv s'.
Proof.
  intros e s s' o [s0 q r mt obs G|s0 q r mt obs og G Hog|s0 q c c' ks G F S|s0 q c G|s0 x rest Hog|s0] HI.
  - apply new_inv; assumption.
  - eapply register_inv; eassumption.
  - eapply upd_pop_inv; [exact HI|exact G|]. intros k Hc Hl. left.
    apply stop_interest_live with (k := k) in S; [|exact Hc]. destruct S as [-> _]. left. reflexivity.
  - apply (upd_pop_inv s0 q c _ [] HI G). intros k Hc Hl. right. repeat split. exact Hl.
  - eapply Inv_subset; [exact Hog| |exact HI]. intros y Hy. right. exact Hy.
  - exact I.
Qed.

Lemma step_inv : forall s e s' o, Inv s -> step s e = (s', o) -> Inv s'.
Proof.
  intros s e s' o HI H. revert HI. apply (step_closed e (invariant Inv)) in H; [exact H|apply invariant_closed| |exact (app_inv e)].
  intros s0 s1 o0 P. exact (prim_inv _ _ _ _ P).
Qed.
Lemma run_inv : forall es s s' os, Inv s -> run s es = (s', os) -> Inv s'.
Proof.
  intros es s s' os HI H. revert HI. apply (run_closed (invariant Inv)) in H; [exact H|apply invariant_closed|].
  intros s0 e s1 o S HI. eapply step_inv; eassumption.
Qed.

Lemma entry_outstanding : forall s og k q r, Inv s -> outgoing s = Some og -> alookup key_eqb k og = Some q -> (snd k = Some r \/ snd k = None) ->
  exists c, get_req s q = Some c /\ live c /\ (cq_remote c = r \/ is_multicast (cq_remote c) = true).
Proof.
  intros s og k q r HI Hog L Hs. apply alookup_In in L; [|exact key_eqb_spec]. destruct (Inv_entry _ _ _ _ HI Hog L) as (c & G & _ & Hr & Hl).
  exists c. split; [exact G|]. split; [exact Hl|].
  destruct (is_multicast (cq_remote c)); [right; reflexivity|left]. destruct Hs as [Hs|Hs]; rewrite Hs in Hr; congruence.
Qed.
Definition retired (c : creq) : Prop :=
  (exists e, cq_fut c = FException e) \/ cq_fut c = FCancelled \/ (cq_observe c = false /\ cq_fut c <> FPending).
Lemma retired_not_in_table : forall s og q c k, Inv s -> outgoing s = Some og -> get_req s q = Some c -> retired c -> ~ In (k, q) og.
Proof.
  intros s og q c k HI Hog G R Hin. destruct (Inv_entry _ _ _ _ HI Hog Hin) as (c0 & G0 & _ & _ & Hl).
  rewrite G in G0. inversion G0. subst c0. unfold retired in R. unfold live in Hl.
  destruct Hl as [[_ Hp]|(_ & Ho & rid & Hf)], R as [[e R]|[R|[R1 R2]]]; congruence.
Qed.

Definition completion (q : Z) (ev : pev) : output :=
  match ev with PResponse w from _ => SetResult q (w_rid w) (w_token w) from | PException e => SetException q e end.
Lemma run_awaiting : forall q c ev, cq_runner c = AwaitFirst -> cq_fut c = FPending ->
  exists o, snd (fst (fst (_run q c ev))) = completion q ev :: o.
Proof.
  intros q c ev Hr Hf. unfold _run. rewrite Hr, Hf. destruct ev as [w from l|e]; cbn [completion pev_is_last];
    repeat dmatch; cbn; eauto.
Qed.
Lemma add_event_awaiting : forall s q ev c, get_req s q = Some c -> awaiting c -> In (completion q ev) (snd (_add_event s q ev)).
Proof.
  intros s q ev c G ([rest Hc] & Hr & Hf). unfold _add_event. rewrite G. unfold pipe_add_event. rewrite Hc.
  cbn [_add_event_loop call_cb]. unfold process. destruct (run_awaiting q c ev Hr Hf) as [o1 E].
  destruct (_run q c ev) as [[[c1 o] stop] keep]. cbn [fst snd] in E. subst o.
  (* whatever the rest of Pipe._add_event does, its outputs come after *)
  repeat (cbn [fst snd app]; match goal with
    | |- context [_stop_interest ?c] => destruct (_stop_interest c) as [? ?]
    | |- context [_add_event_loop ?q0 ?c ?rs ?ev] => destruct (_add_event_loop q0 c rs ev) as [[[? ?] ?] ?]
    | |- context [_end ?c] => destruct (_end c)
    | |- context [match cq_cbs ?c with _ => _ end] => destruct (cq_cbs c)
    | |- context [if ?b then _ else _] => destruct b
    end); cbn [fst snd app]; left; reflexivity.
Qed.
Lemma add_exception_awaiting : forall s q e c, get_req s q = Some c -> awaiting c -> In (SetException q e) (snd (add_exception s q e)).
Proof. intros s q e. exact (add_event_awaiting s q (PException e)). Qed.
Lemma add_response_awaiting : forall s q w from l c, get_req s q = Some c -> awaiting c ->
  In (SetResult q (w_rid w) (w_token w) from) (snd (add_response s q w from l)).
Proof. intros s q w from l. exact (add_event_awaiting s q (PResponse w from l)). Qed.
Lemma run_stoppers_delivers : forall e q qs s c, In q qs -> get_req s q = Some c -> awaiting c -> In (SetException q e) (snd (run_stoppers s qs e)).
Proof.
  intros e q. induction qs as [|q0 qs IH]; intros s c Hin G Ha; [contradiction|].
  cbn [run_stoppers]. destruct (add_exception s q0 e) as [s1 o1] eqn:A.
  destruct (run_stoppers s1 qs e) as [s2 o2] eqn:R. cbn [snd]. apply in_or_app.
  destruct (Z.eq_dec q0 q) as [->|Hne].
  - left. pose proof (add_exception_awaiting s q e c G Ha) as H. rewrite A in H. exact H.
  - right. destruct Hin as [Hin|Hin]; [contradiction|].
    assert (G1 : get_req s1 q = Some c). { rewrite <- G. eapply add_event_other; [|exact A]. congruence. }
    specialize (IH s1 c Hin G1 Ha). rewrite R in IH. exact IH.
Qed.
Lemma collect_stoppers_ok : forall r og tok q, In ((tok, Some r), q) og -> In q (collect_stoppers r og).
Proof.
  intros r. induction og as [|[[tok0 [r'|]] q0] rest IH]; intros tok q Hin; [contradiction| |].
  - cbn [collect_stoppers]. destruct Hin as [Hin|Hin].
    + inversion Hin. subst. rewrite Z.eqb_refl. left. reflexivity.
    + destruct (r' =? r); [right|]; eapply IH; eauto.
  - cbn [collect_stoppers]. destruct Hin as [Hin|Hin]; [discriminate|]. eapply IH; eauto.
Qed.
(* unconditional: entries of multicast requests, keyed (token, None), are simply skipped *)
Lemma tm_dispatch_error_fails : forall s og r kind tok q c, Inv s -> outgoing s = Some og ->
  In ((tok, Some r), q) og -> get_req s q = Some c -> cq_fut c = FPending ->
  In (SetException q (wrap_error kind)) (snd (tm_dispatch_error s kind r)).
Proof.
  intros s og r kind tok q c HI Hog Hin G Hf. unfold tm_dispatch_error. rewrite Hog.
  exact (run_stoppers_delivers (wrap_error kind) q _ s c (collect_stoppers_ok r og _ _ Hin) G (pending_entry _ _ _ _ _ HI Hog Hin G Hf)).
Qed.
Lemma transport_error_fails : forall s og r kind tok q c, Inv s -> outgoing s = Some og -> exchanges s <> None ->
  In ((tok, Some r), q) og -> get_req s q = Some c -> cq_fut c = FPending ->
  In (SetException q (wrap_error kind)) (snd (mm_dispatch_error s kind r)).
Proof.
  intros s og r kind tok q c HI Hog Hex Hin G Hf. pose proof (tm_dispatch_error_fails s og r kind tok q c HI Hog Hin G Hf) as H.
  unfold mm_dispatch_error. destruct (exchanges s); [|contradiction]. destruct (tm_dispatch_error s kind r). exact H.
Qed.
Lemma fire_giveup_fails : forall s ex r mid e og tok q c, Inv s -> exchanges s = Some ex ->
  next_timer ex None = Some ((r, mid), e) -> alookup rm_eqb (r, mid) ex = Some e -> (ex_counter e <? 4) = false ->
  amem Z.eqb r (backlogs s) = true ->
  outgoing s = Some og -> In ((tok, Some r), q) og -> get_req s q = Some c -> cq_fut c = FPending ->
  In (SetException q ConRetransmitsExceeded) (snd (step s Fire)).
Proof.
  intros s ex r mid e og tok q c HI Hex Hnt L Hc Hbl Hog Hin G Hf. cbn [step]. rewrite Hex, Hnt.
  unfold _retransmit. cbn [exchanges set_now]. rewrite Hex, L, Hc. cbn [backlogs set_exchanges set_now]. rewrite Hbl.
  eapply (tm_dispatch_error_fails _ og r (ENet ConRetransmitsExceeded) tok q c); [|exact Hog|exact Hin|exact G|exact Hf].
  eapply Inv_frame; [| |exact HI]; reflexivity.
Qed.

Lemma add_event_last_live : forall s q ev c k og s' o, get_req s q = Some c -> cq_cbs c = Some [CbProcess; CbInterestEnd k] -> live c ->
  pev_is_last ev = true -> outgoing s = Some og -> _add_event s q ev = (s', o) -> outgoing s' = Some (aremove key_eqb k og).
Proof.
  intros s q ev c k og s' o G Hc Hl Hlast Hog H. unfold _add_event in H. rewrite G in H.
  destruct (pipe_add_event q c ev) as [[c' o'] ks] eqn:P. invpairs.
  destruct (pipe_live_step q c ev k c' o ks Hc Hl P) as [_ [[-> _]|(_ & _ & _ & Hx)]]; [|congruence].
  rewrite pop_keys_outgoing. cbn [outgoing upd_req set_reqs]. rewrite Hog. reflexivity.
Qed.
Lemma shutdown_loop_delivers : forall fuel s og k q c,
  Inv s -> outgoing s = Some og -> (length og <= fuel)%nat -> alookup key_eqb k og = Some q ->
  get_req s q = Some c -> cq_fut c = FPending ->
  In (SetException q LibraryShutdown) (snd (tm_shutdown_loop fuel s)).
Proof.
  induction fuel as [|f IH]; intros s og k q c HI Hog Hlen L G Hf.
  - destruct og; [discriminate|cbn in Hlen; lia].
  - cbn [tm_shutdown_loop]. rewrite Hog. destruct og as [|[k0 q0] rest]; [discriminate|].
    set (s0 := set_outgoing s (Some rest)).
    destruct (add_exception s0 q0 LibraryShutdown) as [s1 o1] eqn:A.
    destruct (tm_shutdown_loop f s1) as [s2 o2] eqn:R. cbn [snd]. apply in_or_app.
    destruct (Inv_entry s _ k0 q0 HI Hog (or_introl eq_refl)) as (c0 & G0 & Hc0 & _ & Hl0).
    cbn [alookup] in L. destruct (key_eqb k k0) eqn:E.
    + inversion L. subst q0. left.
      pose proof (add_exception_awaiting s0 q LibraryShutdown c G (pending_entry _ _ _ _ _ HI Hog (or_introl eq_refl) G Hf)) as H. rewrite A in H. exact H.
    + right.
      assert (I0 : Inv s0). { eapply Inv_subset; [exact Hog| |exact HI]. intros x Hx. right. exact Hx. }
      assert (I1 : Inv s1) by (eapply add_event_inv; [exact I0|exact A]).
      assert (Hog1 : outgoing s1 = Some (aremove key_eqb k0 rest)).
      { eapply (add_event_last_live s0 q0 (PException LibraryShutdown) c0 k0 rest); [exact G0|exact Hc0|exact Hl0|reflexivity|reflexivity|exact A]. }
      assert (Hne : q <> q0).
      { intros ->. apply alookup_In in L; [|exact key_eqb_spec].
        destruct (Inv_entry s _ k q0 HI Hog (or_intror L)) as (c1 & G1 & Hc1 & _).
        rewrite G0 in G1. inversion G1. subst c1. rewrite Hc0 in Hc1. inversion Hc1. subst k0. rewrite key_eqb_refl in E. discriminate. }
      assert (G1 : get_req s1 q = Some c). { replace (Some c) with (get_req s0 q) by exact G. eapply add_event_other; [exact Hne|exact A]. }
      specialize (IH s1 _ k q c I1 Hog1).
      assert (Hl : (length (aremove key_eqb k0 rest) <= f)%nat). { pose proof (length_aremove key_eqb k0 rest). cbn in Hlen. lia. }
      assert (L1 : alookup key_eqb k (aremove key_eqb k0 rest) = Some q). { rewrite alookup_aremove by exact key_eqb_spec. rewrite E. exact L. }
      specialize (IH Hl L1 G1 Hf). rewrite R in IH. exact IH.
Qed.
Lemma request_after_shutdown : forall s q r mt obs, outgoing s = None -> get_req s q = None ->
  In (SetException q LibraryShutdown) (snd (new_request s q r mt obs)).
Proof.
  intros s q r mt obs Hog G. unfold new_request. rewrite G. unfold request. cbn [outgoing upd_req set_reqs]. rewrite Hog.
  unfold add_exception, _add_event. rewrite get_req_upd, Z.eqb_refl. destruct obs; cbn; left; reflexivity.
Qed.

(* registration before send: the fan-out from inside send_message finds the new request *)
Definition eff_mtype (mt : option Z) : Z := match mt with None => CON | Some m => m end.
Lemma send_message_refused : forall s r mt tok obs m og tok' q c,
  Inv s -> outgoing s = Some og -> exchanges s <> None -> refuses s r = true -> is_multicast r = false ->
  (eff_mtype mt = CON -> amem Z.eqb r (backlogs s) = false) ->
  In ((tok', Some r), q) og -> get_req s q = Some c -> cq_fut c = FPending ->
  exists s' o, send_message s r mt tok obs m = Ok (s', o) /\ In (SetException q NetworkError) o.
Proof.
  intros s r mt tok obs m og tok' q c HI Hog Hex Hr Hmc Hbl Hin G Hf. unfold send_message.
  destruct (exchanges s) as [ex|] eqn:Eex; [|contradiction]. rewrite Hmc.
  assert (Emt : (match mt with None => CON | Some m0 => m0 end) = eff_mtype mt) by (destruct mt; reflexivity).
  rewrite Emt. rewrite andb_false_r. cbn [_next_message_id].
  set (s1 := set_next_mid s _).
  assert (Hbl1 : (eff_mtype mt =? CON) && amem Z.eqb r (backlogs s1) = false).
  { destruct (eff_mtype mt =? CON) eqn:E; [|reflexivity]. apply Z.eqb_eq in E. cbn. apply Hbl. exact E. }
  rewrite Hbl1. set (w := {| w_mtype := eff_mtype mt |}).
  unfold _send_initially, _send_via_transport. fold (before_send s1 r w (Some m)).
  destruct (before_send_frame s1 r w (Some m)) as [(F1 & F2 & _) F3].
  assert (F4 : exchanges (before_send s1 r w (Some m)) <> None).
  { unfold before_send, _add_exchange. destruct (w_mtype w =? CON); [destruct (amem Z.eqb r (backlogs s1))|]; cbn; rewrite Eex; discriminate. }
  set (s2 := before_send s1 r w (Some m)) in *.
  assert (I2 : Inv s2) by (eapply (Inv_frame s); [exact F1|exact F2|exact HI]).
  clearbody s2. replace (refuses s2 r) with true by (unfold refuses in *; rewrite F3; symmetry; exact Hr).
  assert (G2 : get_req s2 q = Some c) by (unfold get_req in *; rewrite F2; exact G).
  pose proof (transport_error_fails s2 og r EOs tok' q c I2 (eq_trans F1 Hog) F4 Hin G2 Hf) as H.
  destruct (mm_dispatch_error s2 EOs r) as [s3 o3]. eexists. eexists. split; [reflexivity|exact H].
Qed.
Lemma refused_request_fails : forall s q r mt obs og,
  Inv s -> get_req s q = None -> outgoing s = Some og -> exchanges s <> None ->
  refuses s r = true -> is_multicast r = false ->
  (eff_mtype mt = CON -> amem Z.eqb r (backlogs s) = false) ->
  In (SetException q NetworkError) (snd (new_request s q r mt obs)).
Proof.
  intros s q r mt obs og HI G Hog Hex Hr Hmc Hbl. rewrite (new_request_eq _ _ _ _ _ G). cbn zeta. rewrite Hog.
  set (s0 := upd_req s q (fresh_req r obs)).
  assert (G0 : get_req s0 q = Some (fresh_req r obs)) by (unfold s0; rewrite get_req_upd, Z.eqb_refl; reflexivity).
  pose proof (register_inv s0 q r obs og (new_inv _ _ _ HI G) G0 Hog) as I2.
  set (tok := tokbytes (next_tok (tmst s))). set (c1 := set_cbs (fresh_req r obs) (Some [CbProcess; CbInterestEnd (tok, Some r)])).
  assert (E2 : register s0 q r og =
               upd_req (set_outgoing (set_tmst s0 {| tm_token := next_tok (tmst s) |}) (Some (aset key_eqb (tok, Some r) q og))) q c1).
  { rewrite (register_eq _ _ _ _ _ G0). cbn zeta. rewrite Hmc. reflexivity. }
  destruct (send_message_refused (register s0 q r og) r mt tok obs q (aset key_eqb (tok, Some r) q og) tok q c1 I2) as (s3 & o3 & SM & Hin);
    try (rewrite E2; assumption).
  - rewrite E2. reflexivity.
  - exact Hmc.
  - apply In_aset_same.
  - rewrite E2, get_req_upd, Z.eqb_refl. reflexivity.
  - reflexivity.
  - rewrite SM. cbn [snd]. right. exact Hin.
Qed.

Lemma process_response_delivers : forall s r w og q c, Inv s -> outgoing s = Some og -> matching og (w_token w) r = Some q ->
  get_req s q = Some c -> cq_fut c = FPending ->
  fst (fst (process_response s r w)) = true /\ In (SetResult q (w_rid w) (w_token w) r) (snd (process_response s r w)).
Proof.
  intros s r w og q c HI Hog M G Hf. rewrite (process_response_spec s r w og Hog), M. cbn [fst snd]. split; [reflexivity|].
  destruct (matching_In _ _ _ _ M) as (k & L & _). apply alookup_In in L; [|exact key_eqb_spec].
  eapply add_response_awaiting; [|exact (pending_entry _ _ _ _ _ HI Hog L G Hf)].
  unfold pr_state. destruct (pr_final s q w); exact G.
Qed.

Lemma matching_delivered : forall s r mcl w og q c, Inv s -> outgoing s = Some og ->
  is_response (w_code w) = true -> (w_mtype w = CON \/ w_mtype w = NON) ->
  matching og (w_token w) r = Some q -> get_req s q = Some c -> cq_fut c = FPending ->
  In (SetResult q (w_rid w) (w_token w) r) (snd (dispatch_message s r mcl w)).
Proof.
  intros s r mcl w og q c HI Hog Hresp Ht M G Hf.
  destruct (process_response_delivers s r w og q c HI Hog M G Hf) as [P1 P2].
  destruct Ht as [Ht|Ht]; dm_head Ht Hresp; destruct (process_response s r w) as [[b s2] o2]; cbn [fst snd] in *; subst b.
  - destruct (_send_initially s2 r _ None) as [s3 o3]. cbn [snd app]. apply in_or_app. left. exact P2.
  - cbn [snd app]. exact P2.
Qed.
Lemma matching_delivered_ack : forall s r mcl w og q c, Inv s -> outgoing s = Some og -> refuses s r = false ->
  is_response (w_code w) = true -> w_mtype w = ACK -> snd (_remove_exchange s r w) = false ->
  matching og (w_token w) r = Some q -> get_req s q = Some c -> cq_fut c = FPending ->
  In (SetResult q (w_rid w) (w_token w) r) (snd (dispatch_message s r mcl w)).
Proof.
  intros s r mcl w og q c HI Hog Href Hresp Ht Hx M G Hf. dm_head Ht Hresp.
  destruct (_remove_exchange s r w) as [[s1 o1] x1] eqn:RE. cbn [snd] in Hx. subst x1.
  apply remove_exchange_ack in RE; [|exact Href|rewrite Ht; discriminate]. destruct RE as ((E1 & E2 & _) & _).
  pose proof (Inv_frame _ _ E1 E2 HI) as I1.
  assert (Hog1 : outgoing s1 = Some og) by (rewrite E1; exact Hog).
  assert (G1 : get_req s1 q = Some c) by (unfold get_req; rewrite E2; exact G).
  destruct (process_response_delivers s1 r w og q c I1 Hog1 M G1 Hf) as [P1 P2].
  destruct (process_response s1 r w) as [[b s2] o2]; cbn [fst snd] in *; subst b.
  apply in_or_app. right. exact P2.
Qed.

Lemma reset_fails : forall s r mcl w ex e c rest, exchanges s = Some ex -> alookup rm_eqb (r, w_mid w) ex = Some e ->
  w_mtype w = RST -> is_request (w_code w) = false -> get_req s (ex_monitor e) = Some c ->
  cq_cbs c = Some (CbProcess :: rest) -> cq_runner c = AwaitFirst -> cq_fut c = FPending ->
  In (SetException (ex_monitor e) MessageError) (snd (dispatch_message s r mcl w)).
Proof.
  intros s r mcl w ex e c rest Hex L Ht Hreq G Hc Hr Hf. unfold dispatch_message. rewrite Hreq, Ht.
  cbn [CON ACK RST NON Z.eqb Pos.eqb orb andb]. unfold _remove_exchange. rewrite Hex, L, Ht. cbn [RST Z.eqb Pos.eqb].
  set (s1 := set_exchanges s _).
  pose proof (add_exception_awaiting s1 (ex_monitor e) MessageError c G (conj (ex_intro _ rest Hc) (conj Hr Hf))) as HA.
  destruct (add_exception s1 (ex_monitor e) MessageError) as [s2 o2]. cbn [snd] in HA.
  destruct (_continue_backlog s2 r) as [[s3 o3] x3].
  assert (Hin : In (SetException (ex_monitor e) MessageError) (o2 ++ o3)) by (apply in_or_app; left; exact HA).
  destruct x3; [exact Hin|].
  repeat match goal with
  | |- context [if ?b then _ else _] => destruct b
  | |- context [_send_initially ?a ?b ?c ?d] => destruct (_send_initially a b c d)
  | |- context [process_response ?a ?b ?c] => destruct (process_response a b c) as [[? ?] ?]
  end; cbn [snd]; try exact Hin; apply in_or_app; left; exact Hin.
Qed.

Lemma run_delivery : forall s e s' o x q rid tok from, Inv s -> event_wf e -> step s e = (s', o) -> In x o ->
  (x = SetResult q rid tok from \/ x = Notify q rid tok from) ->
  exists mcl w og k c, e = Recv from mcl w /\ rid = w_rid w /\ tok = w_token w /\ outgoing s = Some og /\
    alookup key_eqb k og = Some q /\ fst k = tok /\ (snd k = Some from \/ snd k = None) /\
    get_req s q = Some c /\ live c /\ (cq_remote c = from \/ is_multicast (cq_remote c) = true).
Proof.
  intros s e s' o x q rid tok from HI Hwf H Hin Hx.
  pose proof (completion_kinds s e s' o x H Hwf Hin) as CK.
  assert (E : exists mcl w, e = Recv from mcl w /\ rid = w_rid w /\ tok = w_token w) by (destruct Hx; subst x; exact CK).
  destruct E as (mcl & w & -> & -> & ->). cbn [step] in H.
  destruct (outgoing s) as [og|] eqn:Hog; [|invpairs; contradiction].
  assert (Hd : is_delivery x = true) by (destruct Hx; subst x; reflexivity).
  destruct (deliver_only_matching_gen s from mcl w s' o x og Hog H Hin Hd) as (q' & k & L & Hk & Hs & Ho & _ & _).
  assert (q' = q) by (destruct Hx, Ho; subst x; congruence). subst q'.
  destruct (entry_outstanding s og k q from HI Hog L Hs) as (c & G & Hl & Hr).
  exists mcl, w, og, k, c. repeat split; auto.
Qed.
