(* C17 — /.well-known/core: the listing names exactly the registered resources that do not hide themselves, with
   their full paths through nested sites, among them every routable one; the RFC 6690 filter queries return exactly the links
   matching every criterion. *)
From Verif Require Import Lib.Py Lib.PyLemmas Lib.Tactics Model.C17Base Gen.resource_site Model.C17 Proofs.C17 Proofs.C17Reg Proofs.C17List.
Open Scope Z_scope.
Open Scope list_scope.

(* Listed n h d: the tree n has a registered, non-hidden resource whose full href is h and whose link description is d *)
Inductive Listed : node -> string -> list attr -> Prop :=
| Listed_res : forall rs ss p r d, In (p, r) rs -> get_link_description r = Some d -> Listed (NSite rs ss) (href_of_path p) d
| Listed_sub : forall rs ss p c h d, In (p, c) ss -> Listed c h d -> Listed (NSite rs ss) (href_of_path p ++ h)%string d.

(* listed = enumerated and not hidden, under the concatenated hrefs of the chain *)
Lemma Listed_entries : forall n h d, Listed n h d <->
  exists ch r, In (ch, r) (entries n) /\ get_link_description r = Some d /\ h = chain_href ch.
Proof.
  intros n h d. split.
  - intro H. induction H as [rs ss p r d Hin Hd | rs ss p c h d Hin _ (ch & r & He & Hd & ->)].
    + exists [p], r. split; [apply entries_In_site; left; exists p; auto|]. split; [exact Hd | symmetry; apply append_nil_r].
    + exists (p :: ch), r. split; [apply entries_In_site; right; exists p, c, ch; auto | auto].
  - intros (ch & r & He & Hd & ->). revert n He.
    induction ch as [|k ch IH]; intros n He; (destruct n as [rs ss | id]; [|destruct He]); apply entries_In_site in He;
      destruct He as [(p & E & Hin) | (k' & c & ch' & E & Hkc & Hin)]; inversion E; subst.
    + unfold chain_href. cbn [fold_right]. rewrite append_nil_r. exact (Listed_res rs ss p r d Hin Hd).
    + exact (Listed_sub rs ss k' c _ d Hkc (IH c Hin)).
Qed.
Lemma linkheader_exact : forall n ls, get_resources_as_linkheader n = Some ls ->
  forall h d, In (h, d) ls <-> Listed n h d.
Proof.
  intros n ls Hls h d. rewrite (listing_is_entries n ls Hls), filter_map_In, Listed_entries. split.
  - intros ([ch r] & He & Hl). apply entry_link_Some in Hl. exists ch, r. tauto.
  - intros (ch & r & He & Hl). exists (ch, r). split; [exact He | apply entry_link_Some; exact Hl].
Qed.

(* a resource that a request for path p is routed to, and that does not hide itself, is listed — under the href of p *)
Lemma routable_listed : forall n p t, Route n p t -> forall r d, t = TgtRes r -> get_link_description r = Some d ->
  Listed n (href_of_path p) d.
Proof.
  intros n p t H. induction H as [id p | rs ss p r0 Hr | rs ss p pre rest c t Hr Hp Hpre Hrest Hc Hmax Hsub IH]; intros r d Et Hd.
  - discriminate.
  - inversion Et; subst. apply (Listed_res rs ss p r d (dict_get_opt_In _ _ _ _ Hr) Hd).
  - subst p. rewrite <- (href_norm_rest pre rest Hpre Hrest).
    apply (Listed_sub rs ss pre c _ d (dict_get_opt_In _ _ _ _ Hc)). apply (IH r d Et Hd).
Qed.


(* RFC 6690 section 4.1 as a declarative specification *)
(* the search pattern v accepts the string x: equality, or prefix when v ends in "*" *)
Definition pat_ok (v x : string) : Prop :=
  if ends_with_star v then String.prefix (drop_last_char v) x = true else x = v.
(* x is something the filter name k denotes on link l: the href for "href"; otherwise a value of the attribute named k
   (names are case-insensitive; an attribute without value denotes nothing; a missing attribute denotes nothing) — for the
   space-separated list attributes rt / if / ct / rel each item of the value *)
Definition candidate (k : string) (l : link) (x : string) : Prop :=
  (k = "href"%string /\ x = fst l) \/
  (k <> "href"%string /\ exists key s, In (key, Some s) (snd l) /\ lower key = lower k /\
                         if mem_str k LIST_VALUED_ATTRS then In x (split_space s) else x = s).
Definition Matches (k v : string) (l : link) : Prop := exists x, candidate k l x /\ pat_ok v x.

Lemma matchexp_pat_ok : forall v x,
  matchexp (ends_with_star v) (if ends_with_star v then drop_last_char v else v) x = true <-> pat_ok v x.
Proof.
  intros v x. unfold matchexp, pat_ok. destruct (ends_with_star v); [reflexivity | apply String.eqb_eq].
Qed.
Lemma attr_values_In : forall l k s, In s (attr_values l k) <-> exists key, In (key, Some s) (snd l) /\ lower key = lower k.
Proof.
  intros [h attrs] k s. unfold attr_values. cbn [snd]. rewrite in_flat_map. split.
  - intros [[key val] [Hin H]]. cbn [fst snd] in H. destruct (String.eqb (lower key) (lower k)) eqn:E; [|destruct H].
    destruct val as [s'|]; [|destruct H]. destruct H as [H|[]]. subst s'. exists key. split; [exact Hin | apply String.eqb_eq; exact E].
  - intros [key [Hin E]]. exists (key, Some s). split; [exact Hin|]. cbn [fst snd]. rewrite E, String.eqb_refl. left. reflexivity.
Qed.

Lemma link_matches_spec : forall k v l, link_matches k v l = true <-> Matches k v l.
Proof.
  intros k v l. unfold link_matches, Matches, candidate.
  destruct (mem_str k LIST_VALUED_ATTRS) eqn:Elist.
  - assert (Hne : k <> "href"%string) by (intro E; subst k; discriminate Elist).
    rewrite existsb_exists. split.
    + intros [x [Hin Hm]]. apply in_flat_map in Hin. destruct Hin as [s [Hs Hx]]. apply attr_values_In in Hs. destruct Hs as [key [Hk El]].
      exists x. split; [|apply matchexp_pat_ok; exact Hm]. right. split; [exact Hne|]. exists key, s. auto.
    + intros [x [[[E _] | [_ [key [s [Hk [El Hx]]]]]] Hp]]; [congruence|].
      exists x. split; [|apply matchexp_pat_ok; exact Hp]. apply in_flat_map. exists s. split; [apply attr_values_In; eauto | exact Hx].
  - destruct (String.eqb_spec k "href") as [E|Hne].
    + rewrite matchexp_pat_ok. split.
      * intro H. exists (fst l). split; [left; auto | exact H].
      * intros [x [[[_ Hx] | [Hn _]] Hp]]; [subst x; exact Hp | congruence].
    + rewrite existsb_exists. split.
      * intros [x [Hin Hm]]. apply attr_values_In in Hin. destruct Hin as [key [Hk El]].
        exists x. split; [|apply matchexp_pat_ok; exact Hm]. right. split; [exact Hne|]. exists key, x. auto.
      * intros [x [[[E _] | [_ [key [s [Hk [El Hx]]]]]] Hp]]; [congruence|]. subst s.
        exists x. split; [apply attr_values_In; eauto | apply matchexp_pat_ok; exact Hp].
Qed.

(* applying one filter per criterion, innermost last, keeps what passes every criterion *)
Lemma fold_filter_forallb : forall A B (f : A -> B -> bool) (xs : list A) (l : list B),
  fold_right (fun x acc => filter (f x) acc) l xs = filter (fun y => forallb (fun x => f x y) xs) l.
Proof.
  induction xs as [|x xs IH]; intro l; cbn [fold_right forallb].
  - symmetry. apply filter_true.
  - rewrite IH. induction l as [|y l IHl]; [reflexivity|]. cbn [filter].
    destruct (forallb (fun x => f x y) xs); cbn [filter andb].
    + destruct (f x y); rewrite IHl; reflexivity.
    + rewrite andb_false_r. exact IHl.
Qed.
(* only the criteria count: the options with "=" in them, one filter each *)
Lemma wkc_by_relevant : forall ls impl qs rel, relevant qs = rel ->
  wkc_render_get ls impl qs = Ok (fold_right (fun kv acc => filter_links (fst kv) (snd kv) acc) (ls ++ impl_info_links impl) rel).
Proof. intros ls impl qs rel <-. reflexivity. Qed.
(* the answer is the listing (plus impl-info), in order, restricted to the links that satisfy EVERY criterion *)
Lemma wkc_is_filter : forall ls impl qs,
  wkc_render_get ls impl qs =
  Ok (filter (fun l => forallb (fun kv : string * string => link_matches (fst kv) (snd kv) l) (relevant qs)) (ls ++ impl_info_links impl)).
Proof. intros ls impl qs. exact (f_equal Ok (fold_filter_forallb _ _ (fun kv => link_matches (fst kv) (snd kv)) (relevant qs) _)). Qed.
Lemma relevant_filter_map : forall qs, relevant qs = filter_map split_eq qs.
Proof. induction qs as [|q qs IH]; [reflexivity|]. cbn [relevant filter_map]. destruct (split_eq q); rewrite IH; reflexivity. Qed.

(* at request level: a request routed to the WKC resource answers the (filtered) listing of the root *)
Lemma request_wkc : forall pipe root m qs impl ls, uri_path_abbrev m = None ->
  Route root (uri_path m) (TgtRes (RWkc impl)) -> get_resources_as_linkheader root = Some ls ->
  request pipe root m qs = links_result (wkc_render_get ls impl qs).
Proof.
  intros pipe root m qs impl ls Hab HR Hls. apply (render_route root pipe m Hab) in HR. unfold request.
  destruct (render pipe root m) as [r m' | id m' | e]; cbn [leaf_target] in HR; inversion HR; subst. rewrite Hls. reflexivity.
Qed.
