(* C03 — runs from the initial state: the invariants at the end of every well-formed run ([reach]) and what they say about the
   trace; a message that has left the message layer is never sent again ([dead_run]), which gives the "no further copy" statements
   for ACK / RST, transport errors and refusing transports *)
From Verif Require Import Lib.Py Lib.PyLemmas Lib.Tactics Model.C03 Proofs.C03 Proofs.C03struct Proofs.C03hist.
Open Scope Z_scope.

Definition final_of (mid0 : Z) (draws : list Z) (evs : list event) : state := fst (run (init mid0 draws) evs).
Definition trace_of (mid0 : Z) (draws : list Z) (evs : list event) : list output := concat (snd (run (init mid0 draws) evs)).
(* scripted random stream within [0,1]; request ids pairwise different; tunings admissible *)
Definition wf_run (draws : list Z) (evs : list event) : Prop :=
  Forall (fun n => 0 <= n <= RNG_DEN) draws /\ wf_events [] evs.

Lemma reach : forall mid0 draws evs, wf_run draws evs ->
  Struct (seen_all [] evs) (final_of mid0 draws evs) /\
  Hist (seen_all [] evs) (ks_all [] evs) (final_of mid0 draws evs) (trace_of mid0 draws evs) /\
  no_error (trace_of mid0 draws evs) /\ Pend (recv_keys evs) (final_of mid0 draws evs).
Proof.
  intros mid0 draws evs [Hd Hw]. unfold final_of, trace_of. destruct (run (init mid0 draws) evs) as [st' os] eqn:R.
  pose proof (run_inv evs [] [] (init mid0 draws) [] st' os (struct_init mid0 draws Hd) (hist_init mid0 draws) (pend_init mid0 draws) Hw R) as H. cbn in H. exact H.
Qed.

Lemma in_sched : forall m0 T0 t0 n t m, In (t, m) (sched_of m0 T0 t0 n) -> m = m0 /\ exists k, (k < n)%nat /\ t = T0 + t0 * (2 ^ Z.of_nat k - 1).
Proof.
  intros. unfold sched_of in H. apply in_map_iff in H. destruct H as [k [Hk Hin]]. inv Hk. split; auto. exists k. split; auto. apply in_seq in Hin. lia.
Qed.
Lemma sched_length : forall m T0 t n, length (sched_of m T0 t n) = n.
Proof. intros. unfold sched_of. rewrite map_length, seq_length. reflexivity. Qed.

Lemma sent_good : forall mid0 draws evs t m, wf_run draws evs -> In (OSend t m) (trace_of mid0 draws evs) ->
  exists T0 t0 n, copies (m_rid m) (trace_of mid0 draws evs) = sched_of m T0 t0 n /\ (0 < n)%nat /\
    range (m_tuning m) t0 /\ Z.of_nat n <= MAX_RETRANSMIT (m_tuning m) + 1 /\
    timers_ok (final_of mid0 draws evs) (m_rid m) m T0 t0 n /\
    ((exists e, In e (active_exchanges (final_of mid0 draws evs)) /\ e_rid e = m_rid m) \/
     closed (recv_keys evs) (trace_of mid0 draws evs) (m_rid m) m T0 t0 n).
Proof.
  intros mid0 draws evs t m W Hin. destruct (reach mid0 draws evs W) as (S & [_ Hg] & _).
  destruct (Hg (m_rid m)) as (m0 & T0 & t0 & n & Hc & Hn & Ht & Hb & Hcl).
  assert (Hi : In (t, m) (copies (m_rid m) (trace_of mid0 draws evs))) by (apply copies_in; auto).
  rewrite Hc in Hi. apply in_sched in Hi. destruct Hi as [-> [k [Hk _]]].
  assert (Hn0 : n <> O) by lia. destruct (Hn Hn0) as (_ & Hr & Hle).
  exists T0, t0, n. splits; auto; try lia.
Qed.

Lemma transmissions_bounded : forall mid0 draws evs t m, wf_run draws evs -> In (OSend t m) (trace_of mid0 draws evs) ->
  (forall t' m', In (OSend t' m') (trace_of mid0 draws evs) -> m_rid m' = m_rid m -> m' = m) /\
  Z.of_nat (length (copies (m_rid m) (trace_of mid0 draws evs))) <= 1 + MAX_RETRANSMIT (m_tuning m).
Proof.
  intros mid0 draws evs t m W Hin. destruct (sent_good _ _ _ _ _ W Hin) as (T0 & t0 & n & Hc & Hn & Hr & Hle & _).
  split.
  - intros t' m' Hin' Hrid. assert (Hi : In (t', m') (copies (m_rid m) (trace_of mid0 draws evs))) by (apply copies_in; auto).
    rewrite Hc in Hi. apply in_sched in Hi. tauto.
  - rewrite Hc, sched_length. lia.
Qed.

Lemma gaps_double : forall mid0 draws evs t m, wf_run draws evs -> In (OSend t m) (trace_of mid0 draws evs) ->
  exists T0 t0 n, copies (m_rid m) (trace_of mid0 draws evs) = sched_of m T0 t0 n /\ (0 < n)%nat /\ range (m_tuning m) t0.
Proof.
  intros mid0 draws evs t m W Hin. destruct (sent_good _ _ _ _ _ W Hin) as (T0 & t0 & n & Hc & Hn & Hr & _). exists T0, t0, n. auto.
Qed.

(* no ACK / RST with this message's (remote, mid): the exchange is still waiting for a timer that is not overdue,
   or the request failed exactly one more doubled interval after the last copy *)
Lemma gives_up : forall mid0 draws evs t m, wf_run draws evs -> In (OSend t m) (trace_of mid0 draws evs) ->
  ~ In (m_remote m, m_mid m) (recv_keys evs) -> ~ In (err_key (m_remote m)) (recv_keys evs) -> ~ In (gone_key (m_rid m)) (recv_keys evs) ->
  exists T0 t0 n, copies (m_rid m) (trace_of mid0 draws evs) = sched_of m T0 t0 n /\ (0 < n)%nat /\ range (m_tuning m) t0 /\
    Z.of_nat n <= MAX_RETRANSMIT (m_tuning m) + 1 /\
    ( (exists e, In e (active_exchanges (final_of mid0 draws evs)) /\ h_message (e_timer e) = m /\
                 h_due (e_timer e) = T0 + t0 * (2 ^ Z.of_nat n - 1) /\ now (final_of mid0 draws evs) <= h_due (e_timer e)) \/
      (Z.of_nat n = MAX_RETRANSMIT (m_tuning m) + 1 /\
       In (OFail (T0 + t0 * (2 ^ (MAX_RETRANSMIT (m_tuning m) + 1) - 1)) (m_rid m) ConRetransmitsExceeded) (trace_of mid0 draws evs)) \/
      (exists tf, In (OFail tf (m_rid m) NetworkError) (trace_of mid0 draws evs)) ).
Proof.
  intros mid0 draws evs t m W Hin Hno Hne Hng. destruct (sent_good _ _ _ _ _ W Hin) as (T0 & t0 & n & Hc & Hn & Hr & Hle & Ht & Hcl).
  exists T0, t0, n. splits; auto.
  (* the hypotheses exclude every way of ending ([closed]) but the give-up and the refusal *)
  destruct Hcl as [[e [He1 He2]]|[Hack|[Herr|[[Hfull [Hgaveup|Hgone]]|[Hrefused|Hgone]]]]];
    [left|tauto|tauto|right; left; auto|tauto|right; right; exact Hrefused|tauto].
  destruct (Ht e He1 He2) as (Hm & Hnc & _ & Hdue). exists e. splits; auto.
  - rewrite Hdue, Hnc. reflexivity.
  - destruct (reach mid0 draws evs W) as (S & _). pose proof (s_ex _ _ S) as Hex. rewrite Forall_forall in Hex. specialize (Hex e He1). unfold entry_ok in Hex. tauto.
Qed.

(* t <= ACK_TIMEOUT * ACK_RANDOM_FACTOR implies the give-up instant is within MAX_TRANSMIT_WAIT of the first copy, and the
   last copy within MAX_TRANSMIT_SPAN (both as cross-multiplied inequalities over Z) *)
Lemma within_max_transmit_wait : forall tn t, wf_tuning tn -> range tn t ->
  t * (2 ^ (MAX_RETRANSMIT tn + 1) - 1) * ARF_den tn <= ACK_TIMEOUT tn * (2 ^ (MAX_RETRANSMIT tn + 1) - 1) * ARF_num tn /\
  t * (2 ^ MAX_RETRANSMIT tn - 1) * ARF_den tn <= ACK_TIMEOUT tn * (2 ^ MAX_RETRANSMIT tn - 1) * ARF_num tn.
Proof.
  intros tn t (HA & Hd & Hn & HR) (H1 & H2).
  assert (0 < 2 ^ (MAX_RETRANSMIT tn + 1)) by (apply Z.pow_pos_nonneg; lia).
  assert (0 < 2 ^ MAX_RETRANSMIT tn) by (apply Z.pow_pos_nonneg; lia).
  split; nia.
Qed.

Definition live (x : Z) (st : state) : Prop := In x (live_rids st).
Lemma live_iff : forall x st, live x st <-> (exists e, In e (active_exchanges st) /\ e_rid e = x) \/ In x (back_rids (backlogs st)).
Proof.
  intros. unfold live, live_rids. rewrite in_app_iff, in_map_iff. split; intros [H|H]; auto; left; destruct H as [e H]; exists e; tauto.
Qed.

(* from [st] to [st'] with outputs [o]: only live or brand-new messages are put on the wire, and nothing dead comes back to life *)
Definition no_revival (seen : list Z) (st st' : state) (o : list output) : Prop :=
  (forall x, live x st' -> live x st \/ ~ In x seen) /\
  (forall t m, In (OSend t m) o -> live (m_rid m) st \/ ~ In (m_rid m) seen).

Lemma live_dispatch : forall st1 r st' oe, mm_dispatch_error st1 r = (st', oe) ->
  (forall x, live x st' -> live x st1) /\ (forall t m, ~ In (OSend t m) oe).
Proof.
  intros st1 r st' oe H. unfold mm_dispatch_error, tm_dispatch_error in H. inv H. split.
  - intros x Hx. apply live_iff in Hx. apply live_iff. cbn in Hx. destruct Hx as [[e [He Hr]]|Hx].
    + left. exists e. apply filter_In in He. tauto.
    + right. eapply in_back_qdel_sub; eauto.
  - apply fails_no_send.
Qed.

Lemma nr_quiet : forall seen st st' o, (forall x, live x st' -> live x st) -> (forall t m, ~ In (OSend t m) o) -> no_revival seen st st' o.
Proof. intros seen st st' o L Ho. split; [intros x Hx; left; auto|intros t m Hi; exfalso; eapply Ho; eauto]. Qed.
Lemma nr_dispatch : forall seen st r st' o, mm_dispatch_error st r = (st', o) -> no_revival seen st st' o.
Proof. intros seen st r st' o D. destruct (live_dispatch _ _ _ _ D). apply nr_quiet; auto. Qed.
Lemma nr_seq : forall seen st st1 st2 o1 o2, no_revival seen st st1 o1 -> no_revival seen st1 st2 o2 -> no_revival seen st st2 (o1 ++ o2).
Proof.
  intros seen st st1 st2 o1 o2 [A1 A2] [B1 B2]. split.
  - intros x Hx. destruct (B1 x Hx); auto.
  - intros t m Hi. apply in_app_iff in Hi. destruct Hi as [Hi|Hi]; [eauto|]. destruct (B2 t m Hi); auto.
Qed.

Lemma live_handed : forall seen (st st1 st' : state) m pre o2,
  (forall x, live x st1 -> live x st \/ ~ In x seen) -> live (m_rid m) st \/ ~ In (m_rid m) seen ->
  (forall t m', ~ In (OSend t m') pre) -> _send_via_transport st1 m = (st', o2) ->
  no_revival seen st st' (pre ++ o2).
Proof.
  intros seen st st1 st' m pre o2 L1 Lm Hpre V. destruct (send_via_cases _ _ _ _ V) as [(_ & -> & ->)|(_ & D)].
  - split; auto. intros t m' Hi. apply in_app_iff in Hi. destruct Hi as [Hi|[Hi|[]]]; [exfalso; eapply Hpre; eauto|]. inv Hi. exact Lm.
  - apply (nr_seq seen st st1 st'); [split; auto; intros t m' Hi; exfalso; eapply Hpre; eauto|exact (nr_dispatch _ _ _ _ _ D)].
Qed.

Lemma dispatch_error_facts : forall st r st' o, mm_dispatch_error st r = (st', o) ->
  (forall t m, ~ In (OSend t m) o) /\ has_exchange_with st' r = false /\ in_backlogs st' r = false /\
  (forall rid, In (rid, r) (outgoing_requests st) -> In (OFail (now st) rid NetworkError) o) /\
  (forall q, In q (outgoing_requests st') -> snd q <> r).
Proof.
  intros st r st' o H. unfold mm_dispatch_error, tm_dispatch_error in H. inv H. splits.
  - apply fails_no_send.
  - apply has_exchange_false. cbn. intros e He. apply (in_filter_ne e_remote) in He. tauto.
  - unfold in_backlogs. cbn. rewrite qget_qdel_same. reflexivity.
  - apply error_outputs.
  - cbn. intros q Hq. apply (in_filter_ne snd) in Hq. tauto.
Qed.

(* request ids are in one place only, so the message of an exchange with r is dead after dispatch_error for r *)
Lemma dispatch_kills : forall seen st r st' o e, Struct seen st -> mm_dispatch_error st r = (st', o) ->
  In e (active_exchanges st) -> e_remote e = r -> In (e_rid e) seen /\ ~ live (e_rid e) st'.
Proof.
  intros seen st r st' o e S D He Hr. split; [eapply live_exch_seen; eauto|].
  destruct (error_struct _ _ _ _ _ S D) as (_ & _ & _ & Ex & Eb & _). pose proof (s_live _ _ S) as Hl. unfold live_rids in Hl.
  intros Hlv. apply live_iff in Hlv. rewrite Ex, Eb in Hlv. destruct Hlv as [[e' [He' Hr']]|Hb].
  - apply (in_filter_ne e_remote) in He'. destruct He' as [He' Hne].
    assert (e' = e) as -> by (apply (NoDup_map_inj_in e_rid (active_exchanges st)); auto; eapply nodup_app_l; exact Hl). apply Hne. exact Hr.
  - apply in_back_qdel_sub in Hb. eapply nodup_app_disjoint; [exact Hl| |exact Hb]. apply in_map. exact He.
Qed.

Lemma recv_live : forall seen st r mid b st' o, Struct seen st -> _remove_exchange st r mid b = (st', o) ->
  no_revival seen st st' o.
Proof.
  intros seen st r mid b st' o S H.
  destruct (remove_shape _ _ _ _ _ _ _ S H) as [(X & -> & ->)|(mon & h & o1 & o2 & q & X & Q & -> & Ho1c & _ & _ & Hq)].
  + split; [auto|intros t m []].
  + destruct (pop_facts seen st _ mon h S X) as (Hin & _ & _ & _ & _ & Hrest & _). cbn [fst] in *.
    assert (Ho1 : forall t m, ~ In (OSend t m) o1) by (apply (monitor_output _ _ _ _ Ho1c)).
    destruct q as [|[m2 mon2] rest].
    * destruct Hq as (-> & Ex' & Eb' & _). split.
      -- intros x Hx. left. apply live_iff in Hx. apply live_iff. rewrite Ex', Eb' in Hx. destruct Hx as [[e [He Hr]]|Hx].
         ++ left. exists e. apply Hrest in He. tauto.
         ++ right. eapply in_back_qdel_sub; eauto.
      -- intros t m Hi. rewrite app_nil_r in Hi. exfalso. eapply Ho1; eauto.
    * destruct Hq as (-> & Hr2 & Hwf2 & Hseen2 & t & st1 & os2 & Hrg & S1 & _ & _ & _ & Ex' & Eb' & V & ->).
      assert (Hl2 : live (m_rid m2) st).
      { apply live_iff. right. apply (in_back_rids _ r _ (m2, m_rid m2) (qget_in _ _ _ Q)). left. reflexivity. }
      assert (L1 : forall x, live x st1 -> live x st \/ ~ In x seen).
      { intros x Hx. left. apply live_iff in Hx. rewrite Ex', Eb' in Hx. destruct Hx as [[e [He Hr]]|Hx].
        - apply in_xset in He. destruct He as [->|[He _]]; [unfold e_rid, e_timer in Hr; cbn in Hr; subst x; exact Hl2|].
          apply live_iff. left. exists e. apply Hrest in He. tauto.
        - apply live_iff. right. eapply (in_back_qset_sub _ r _ rest); eauto. intros y Hy. right. exact Hy. }
      match goal with |- context [o1 ++ ?d :: os2] => change (d :: os2) with ([d] ++ os2) end. rewrite app_assoc.
      apply (live_handed seen st st1 st' m2 _ os2 L1 (or_introl Hl2)); [|exact V].
      intros t' m' Hi. apply in_app_iff in Hi. destruct Hi as [Hi|[Hi|[]]]; [eapply Ho1; eauto|discriminate].
Qed.

Lemma retransmit_live : forall seen st e h st' o, Struct seen st -> In e (active_exchanges st) -> e_timer e = h ->
  _retransmit st h = (st', o) ->
  no_revival seen st st' o.
Proof.
  intros seen st e h st' o S He1 He2 H.
  pose proof (retransmit_struct _ _ _ _ _ _ S He1 He2 H) as Sh. cbv zeta in Sh. destruct Sh as (_ & _ & _ & X & Sh).
  destruct (pop_facts seen _ _ _ h S X) as (_ & _ & _ & _ & _ & Hrest & _).
  assert (Hl : live (m_rid (h_message h)) st) by (apply live_iff; left; exists e; split; auto; unfold e_rid; rewrite He2; reflexivity).
  destruct Sh as [(_ & st1 & _ & _ & _ & Ex & Eb & _ & V)|(_ & -> & Ex & Eb & _)].
  - apply (live_handed seen st st1 st' (h_message h) [] o); [|left; exact Hl|intros t m []|exact V].
    intros x Hx. left. apply live_iff in Hx. rewrite Ex, Eb in Hx. destruct Hx as [[e' [He' Hr']]|Hx].
    + apply in_xset in He'. destruct He' as [->|[He' _]]; [unfold e_rid, e_timer in Hr'; cbn in Hr'; subst x; exact Hl|]. apply live_iff. left. exists e'. apply Hrest in He'. tauto.
    + apply live_iff. right. exact Hx.
  - split.
    + intros x Hx. left. apply live_iff in Hx. rewrite Ex, Eb in Hx. destruct Hx as [[e' [He' Hr']]|Hx].
      * apply live_iff. left. exists e'. apply Hrest in He'. tauto.
      * apply live_iff. right. eapply in_back_qdel_sub; eauto.
    + intros t' m Hi. destruct (fails_no_send _ _ _ _ _ Hi).
Qed.

Lemma step_live : forall seen st e st' o, Struct seen st -> wf_event seen e -> step st e = (st', o) ->
  no_revival seen st st' o.
Proof.
  intros seen st e st' o S W H. destruct e as [rid r tn|r b mid|t| | |r|rid|r ty mid rid|r on]; cbn [step] in *.
  - (* ERequest *) destruct W as [W1 W2]. pose proof (request_shape _ _ _ _ _ _ _ S W1 W2 H) as Sh. cbv zeta in Sh.
    destruct Sh as (_ & _ & [(q & Q & -> & Ex & Eb & _)|(Q & Hno & t & sq & st1 & o2 & Hrg & _ & _ & _ & _ & Ex & Eb & _ & V & ->)]).
    + split; [|intros t m []]. intros x Hx. apply live_iff in Hx. rewrite Ex, Eb in Hx. destruct Hx as [Hx|Hx]; [left; apply live_iff; auto|].
      apply in_back_qset in Hx. destruct Hx as [Hx|Hx]; [|left; apply live_iff; right; exact Hx].
      unfold q_rids in Hx. rewrite map_app in Hx. apply in_app_iff in Hx. destruct Hx as [Hx|[<-|[]]]; [left|right; exact W1].
      apply live_iff. right. exact (in_back_queue _ _ _ _ Q Hx).
    + match goal with |- context [?d :: o2] => apply (live_handed seen st st1 st' {| m_remote := r; m_mid := message_id st; m_rid := rid; m_tuning := tn |} [d] o2) end;
        [|right; exact W1|intros t' m [Hi|[]]; discriminate|exact V].
      intros x Hx. apply live_iff in Hx. rewrite Ex in Hx. destruct Hx as [[e [He Hr]]|Hx].
      * apply in_xset in He. destruct He as [->|[He _]]; [right; unfold e_rid, e_timer in Hr; cbn in Hr; subst x; exact W1|left; apply live_iff; left; eauto].
      * left. apply live_iff. right. apply Eb. exact Hx.
  - (* ERecv *) eapply recv_live; eauto.
  - (* EWaitUntil *) inv H. apply nr_quiet; auto.
  - (* EFire *) destruct (fire_cases _ _ _ _ _ S (or_introl eq_refl) H) as [(-> & -> & _)|(h & x & sta & _ & -> & Sa & Hx & Hh & _ & R)]; [apply nr_quiet; auto|].
    exact (retransmit_live seen _ x h st' o Sa Hx Hh R).
  - (* EFireDue *) destruct (fire_cases _ _ _ _ _ S (or_intror eq_refl) H) as [(-> & -> & _)|(h & x & sta & _ & -> & Sa & Hx & Hh & _ & R)]; [apply nr_quiet; auto|].
    exact (retransmit_live seen _ x h st' o Sa Hx Hh R).
  - (* EError *) exact (nr_dispatch _ _ _ _ _ H).
  - (* ECancel *) inv H. apply nr_quiet; auto.
  - (* EResponse *) destruct (response_shape _ _ _ _ _ _ _ _ S H) as (st1 & o1 & st2 & o2 & o3 & E1 & -> & S1 & Hn1 & S2 & En & Ex & Eb & _ & _ & Ho2 & Hcase).
    apply (nr_seq seen st st1 st'); [revert E1; destruct (ty =? 0); intros E1; [eapply recv_live; eauto|inv E1; apply nr_quiet; auto]|].
    apply (nr_seq seen st1 st2 st').
    + apply nr_quiet; [intros x Hx; apply live_iff in Hx; apply live_iff; rewrite Ex, Eb in Hx; exact Hx|].
      destruct Ho2 as [->| ->]; intros t m Hi; cbn in Hi; intuition discriminate.
    + destruct Hcase as [(-> & Ho3)|(_ & D)]; [|exact (nr_dispatch _ _ _ _ _ D)].
      apply nr_quiet; auto. destruct Ho3 as [->|[b ->]]; intros t m Hi; cbn in Hi; intuition discriminate.
  - (* ERefuse *) inv H. apply nr_quiet; auto.
Qed.

Lemma copies_none : forall x (o : list output), (forall t m, In (OSend t m) o -> m_rid m <> x) -> copies x o = [].
Proof.
  induction o as [|y o IH]; intros H; cbn; auto. destruct y as [t m| | | | |]; try (apply IH; intros t' m' Hi; apply (H t' m'); right; exact Hi).
  assert (m_rid m =? x = false) as -> by (apply Z.eqb_neq; apply (H t m); left; reflexivity).
  apply IH. intros t' m' Hi. apply (H t' m'). right. exact Hi.
Qed.

Lemma seen_after_incl : forall seen e x, In x seen -> In x (seen_after seen e).
Proof. intros. destruct e; cbn; auto. Qed.

(* a message that is neither in _active_exchanges nor in a backlog is never transmitted again *)
Lemma dead_run : forall evs seen st st' os x, Struct seen st -> wf_events seen evs -> In x seen -> ~ live x st ->
  run st evs = (st', os) -> copies x (concat os) = [].
Proof.
  induction evs as [|e evs IH]; intros seen st st' os x S W Hs Hd H; cbn in H.
  - inv H. reflexivity.
  - destruct (step st e) as [st1 o] eqn:E. destruct (run st1 evs) as [st2 os2] eqn:R. inv H. destruct W as [W1 W2].
    destruct (step_struct _ _ _ _ _ S W1 E) as [S1 _]. destruct (step_live _ _ _ _ _ S W1 E) as [L1 L2].
    cbn. rewrite copies_app. rewrite (IH _ st1 st' os2 x S1 W2 (seen_after_incl _ _ _ Hs)); auto.
    + rewrite app_nil_r. apply copies_none. intros t m Hi <-. destruct (L2 t m Hi); tauto.
    + intros Hl. destruct (L1 x Hl); tauto.
Qed.

Lemma run_app : forall a b st, run st (a ++ b) = let '(st1, os1) := run st a in let '(st2, os2) := run st1 b in (st2, os1 ++ os2).
Proof.
  induction a as [|e a IH]; intros b st; cbn.
  - destruct (run st b); reflexivity.
  - destruct (step st e) as [st1 o]. rewrite IH. destruct (run st1 a) as [st2 os1]. destruct (run st2 b) as [st3 os2]. reflexivity.
Qed.
Lemma wf_events_app : forall a b seen, wf_events seen (a ++ b) <-> wf_events seen a /\ wf_events (seen_all seen a) b.
Proof. induction a as [|e a IH]; intros b seen; cbn; [tauto|]. rewrite IH. tauto. Qed.

(* the run cut at an event: the invariants before it, and what is dead after it stays silent *)
Lemma cut_run : forall mid0 draws evs1 ev evs2 st2 o st3 os, wf_run draws (evs1 ++ ev :: evs2) ->
  step (final_of mid0 draws evs1) ev = (st2, o) -> run st2 evs2 = (st3, os) ->
  Struct (seen_all [] evs1) (final_of mid0 draws evs1) /\ Pend (recv_keys evs1) (final_of mid0 draws evs1) /\
  wf_event (seen_all [] evs1) ev /\
  forall x, In x (seen_after (seen_all [] evs1) ev) -> ~ live x st2 -> copies x (concat os) = [].
Proof.
  intros mid0 draws evs1 ev evs2 st2 o st3 os [Hd W] E R. apply wf_events_app in W. destruct W as [W1 [Wev W2]].
  destruct (reach mid0 draws evs1 (conj Hd W1)) as (S & _ & _ & P). splits; auto.
  destruct (step_struct _ _ _ _ _ S Wev E) as [S2 _]. intros x Hs Hx. exact (dead_run evs2 _ st2 st3 os x S2 W2 Hs Hx R).
Qed.

(* what _remove_exchange leaves behind for the exchange it ends *)
Lemma remove_exchange_dead : forall seen st1 r mid b mon h st2 o, Struct seen st1 ->
  xget (r, mid) (active_exchanges st1) = Some (mon, h) -> _remove_exchange st1 r mid b = (st2, o) ->
  mon = m_rid (h_message h) /\ In mon seen /\ ~ live mon st2 /\ copies mon o = [] /\
  (b = false -> forall t e, In (OFail t mon e) o -> e = NetworkError /\ is_refusing st1 r = true).
Proof.
  intros seen st1 r mid b mon h st2 o S X E.
  destruct (remove_shape _ _ _ _ _ _ _ S E) as [(X' & _)|(mon' & h' & o1 & o2 & q & X' & Q & -> & Ho1c & _ & _ & Hq)]; [congruence|].
  rewrite X in X'. inv X'.
  destruct (pop_facts _ st1 _ mon' h' S X) as (Hin & _ & Hmon & _ & _ & Hrest & Hbr & _). cbn [fst] in *.
  assert (Hseen : In mon' seen).
  { eapply live_rids_seen; [exact S|]. unfold live_rids. apply in_app_iff. left. apply in_map_iff. exists ((r, mid), (mon', h')). split; auto. }
  assert (Hdead : ~ live mon' st2 /\ copies mon' o2 = [] /\ forall t e, In (OFail t mon' e) o2 -> e = NetworkError /\ is_refusing st1 r = true).
  { destruct q as [|[m2 mon2] rest].
    - destruct Hq as (-> & Ex' & Eb' & _). splits; auto; [|intros t e []]. intros Hl. apply live_iff in Hl. rewrite Ex', Eb' in Hl. destruct Hl as [[e [He Hr]]|Hl].
      + apply Hrest in He. tauto.
      + apply in_back_qdel_sub in Hl. eapply Hbr; eauto.
    - destruct Hq as (-> & Hr2 & Hwf2 & Hseen2 & t & st1' & os2 & Hrg & S1' & _ & Erf & _ & Ex' & Eb' & V & ->).
      assert (Hne2 : m_rid m2 <> mon') by (apply Hbr; apply (in_back_rids _ r _ (m2, m_rid m2) (qget_in _ _ _ Q)); left; reflexivity).
      assert (Hd1' : ~ live mon' st1').
      { intros Hl. apply live_iff in Hl. rewrite Ex', Eb' in Hl. destruct Hl as [[e [He Hr]]|Hl].
        * apply in_xset in He. destruct He as [->|[He _]]; [unfold e_rid, e_timer in Hr; cbn in Hr; congruence|]. apply Hrest in He. tauto.
        * eapply (in_back_qset_sub _ r _ rest) in Hl; eauto; [eapply Hbr; eauto|intros y Hy; right; exact Hy]. }
      destruct (send_via_cases _ _ _ _ V) as [(_ & -> & ->)|(Hrf & D)]; splits; auto.
      + cbn. assert (m_rid m2 =? mon' = false) as -> by (apply Z.eqb_neq; auto). reflexivity.
      + intros t' e Hi. cbn in Hi. destruct Hi as [Hi|[Hi|[]]]; discriminate.
      + intros Hl. apply Hd1'. apply (proj1 (live_dispatch _ _ _ _ D)). exact Hl.
      + cbn. apply copies_fail_only. apply (proj2 (live_dispatch _ _ _ _ D)).
      + intros t' e Hi. cbn in Hi. destruct Hi as [Hi|Hi]; [discriminate|]. split; [|unfold is_refusing in *; rewrite <- Erf, <- Hr2; exact Hrf].
        unfold mm_dispatch_error, tm_dispatch_error in D. inv D. apply in_map_iff in Hi. destruct Hi as [p [Hp _]]. inv Hp. reflexivity. }
  destruct Hdead as (Hd1 & Hd2 & Hd3). splits; auto.
  - rewrite copies_app, Hd2, app_nil_r. destruct Ho1c as [->|[_ ->]]; reflexivity.
  - intros Hb t e Hi. apply in_app_iff in Hi. destruct Hi as [Hi|Hi]; [|eapply Hd3; eauto].
    destruct Ho1c as [->|[Hb' _]]; [inv Hi|congruence].
Qed.

Lemma piggyback_stops : forall mid0 draws evs1 r mid rid evs2 mon h,
  wf_run draws (evs1 ++ EResponse r 0 mid rid :: evs2) ->
  xget (r, mid) (active_exchanges (final_of mid0 draws evs1)) = Some (mon, h) ->
  let st1 := final_of mid0 draws evs1 in
  let '(st2, o) := step st1 (EResponse r 0 mid rid) in
  let '(st3, os) := run st2 evs2 in
  mon = m_rid (h_message h) /\ copies mon (o ++ concat os) = [] /\
  forall t e, In (OFail t mon e) o -> e = NetworkError /\ is_refusing st1 r = true.
Proof.
  intros mid0 draws evs1 r mid rid evs2 mon h W X st1.
  destruct (step st1 (EResponse r 0 mid rid)) as [st2 o] eqn:E. destruct (run st2 evs2) as [st3 os] eqn:R.
  destruct (cut_run _ _ _ _ _ _ _ _ _ W E R) as (S & _ & _ & Hquiet). fold st1 in S, X. cbn [seen_after] in Hquiet.
  cbn [step] in E. unfold dispatch_response in E. cbn [Z.eqb] in E.
  destruct (_remove_exchange st1 r mid false) as [sta o1] eqn:E1.
  destruct (remove_exchange_dead _ _ _ _ _ _ _ _ _ S X E1) as (Hmon & Hseen & Hdead & Hc1 & Hf1).
  assert (Ho : exists o2, o = o1 ++ o2 /\ (o2 = [] \/ o2 = [OResult (now sta) rid]) /\ ~ live mon st2).
  { unfold tm_process_response in E. destruct (existsb _ (outgoing_requests sta)); inv E; eauto. }
  destruct Ho as (o2 & -> & Ho2 & Hdead2). splits; auto.
  - rewrite !copies_app, Hc1. replace (copies mon o2) with (@nil (Z * message)) by (destruct Ho2; subst; reflexivity).
    exact (Hquiet mon Hseen Hdead2).
  - intros t e Hi. apply in_app_iff in Hi. destruct Hi as [Hi|Hi]; [apply (Hf1 eq_refl t e Hi)|].
    destruct Ho2; subst o2; [destruct Hi|destruct Hi as [Hi|[]]; discriminate].
Qed.

Lemma rst_fails_pending : forall st r mid mon h, xget (r, mid) (active_exchanges st) = Some (mon, h) ->
  existsb (fun q => fst q =? mon) (outgoing_requests st) = true ->
  In (OFail (now st) mon MessageError) (snd (step st (ERecv r true mid))).
Proof.
  intros st r mid mon h Hx Hp. cbn. unfold _remove_exchange. rewrite Hx. unfold tm_fail. cbn [outgoing_requests set_exchanges now]. rewrite Hp.
  destruct (_continue_backlog _ r). cbn. left. reflexivity.
Qed.
Lemma ack_stops : forall mid0 draws evs1 r b mid evs2 mon h,
  wf_run draws (evs1 ++ ERecv r b mid :: evs2) ->
  xget (r, mid) (active_exchanges (final_of mid0 draws evs1)) = Some (mon, h) ->
  let st1 := final_of mid0 draws evs1 in
  let '(st2, o) := step st1 (ERecv r b mid) in
  let '(st3, os) := run st2 evs2 in
  mon = m_rid (h_message h) /\ copies mon (o ++ concat os) = [] /\
  (if b then In (gone_key mon) (recv_keys evs1) \/ In (OFail (now st1) mon MessageError) o
   else forall t e, In (OFail t mon e) o -> e = NetworkError /\ is_refusing st1 r = true).
Proof.
  intros mid0 draws evs1 r b mid evs2 mon h W X st1.
  destruct (step st1 (ERecv r b mid)) as [st2 o] eqn:E. destruct (run st2 evs2) as [st3 os] eqn:R.
  destruct (cut_run _ _ _ _ _ _ _ _ _ W E R) as (S & [Pd1 _] & _ & Hquiet). fold st1 in S, X, Pd1. cbn [seen_after] in Hquiet. cbn [step] in E.
  destruct (remove_exchange_dead _ _ _ _ _ _ _ _ _ S X E) as (Hmon & Hseen & Hdead & Hc & Hf).
  splits; auto.
  - rewrite copies_app, Hc. exact (Hquiet mon Hseen Hdead).
  - destruct b; [|exact (Hf eq_refl)].
    (* the request of the exchange is still pending unless cancelled or answered, so the monitor fails it *)
    destruct (Pd1 _ (xget_in _ _ _ X)) as [Ho|Hg]; unfold e_rid, e_remote, e_timer in *; cbn [fst snd] in *; rewrite <- Hmon in *; [right|left; exact Hg].
    apply rst_fails_pending with (r := r) (mid := mid) (h := h) in X; [cbn [step] in X; rewrite E in X; exact X|].
    apply existsb_exists. eexists. split; [exact Ho|]. apply Z.eqb_refl.
Qed.

(* an empty ACK / RST with a (remote, mid) of no outstanding exchange changes nothing and produces nothing *)
Lemma foreign_ack_inert : forall st r mid b, xget (r, mid) (active_exchanges st) = None ->
  step st (ERecv r b mid) = (st, []).
Proof. intros st r mid b H. cbn. unfold _remove_exchange. rewrite H. reflexivity. Qed.
Lemma xget_none_iff : forall seen st r mid, Struct seen st ->
  (xget (r, mid) (active_exchanges st) = None <->
   forall e, In e (active_exchanges st) -> ~ (m_remote (h_message (e_timer e)) = r /\ m_mid (h_message (e_timer e)) = mid)).
Proof.
  intros seen st r mid S. pose proof (s_ex _ _ S) as Hex. rewrite Forall_forall in Hex. split.
  - intros X e He [H1 H2]. pose proof (Hex e He) as Hok. unfold entry_ok in Hok. destruct Hok as (Hk & _).
    destruct e as [k v]. cbn in *. rewrite H1, H2 in Hk. subst k. rewrite (xget_of_in _ _ _ (s_ex_nodup _ _ S) He) in X. discriminate.
  - intros H. destruct (xget (r, mid) (active_exchanges st)) as [v|] eqn:X; auto. exfalso. apply xget_in in X.
    pose proof (Hex _ X) as Hok. unfold entry_ok in Hok. destruct Hok as (Hk & _). cbn [fst] in Hk. injection Hk as H1 H2. apply (H _ X). split; symmetry; assumption.
Qed.

Lemma error_stops : forall mid0 draws evs1 r evs2, wf_run draws (evs1 ++ EError r :: evs2) ->
  let st1 := final_of mid0 draws evs1 in
  let '(st2, o) := step st1 (EError r) in
  let '(st3, os) := run st2 evs2 in
  (forall e, In e (active_exchanges st1) -> e_remote e = r -> copies (e_rid e) (o ++ concat os) = []) /\
  (forall q p, In (r, q) (backlogs st1) -> In p q -> copies (m_rid (fst p)) (o ++ concat os) = []) /\
  (forall rid, In (rid, r) (outgoing_requests st1) -> In (OFail (now st1) rid NetworkError) o).
Proof.
  intros mid0 draws evs1 r evs2 W st1.
  destruct (step st1 (EError r)) as [st2 o] eqn:E. destruct (run st2 evs2) as [st3 os] eqn:R.
  destruct (cut_run _ _ _ _ _ _ _ _ _ W E R) as (S & _ & _ & Hquiet). fold st1 in S. cbn [seen_after] in Hquiet.
  cbn [step] in E. destruct (error_struct _ _ _ _ _ S E) as (_ & _ & _ & Ex & Eb & _ & Eo). rewrite Eo.
  pose proof (s_live _ _ S) as Hl. unfold live_rids in Hl.
  assert (Hdead : forall x, In x (live_rids st1) -> ~ live x st2 -> copies x (map (fun q => OFail (now st1) (fst q) NetworkError) (filter (fun q => snd q =? r) (outgoing_requests st1)) ++ concat os) = []).
  { intros x Hx Hnl. rewrite copies_app, copies_fails. cbn. apply Hquiet; auto. apply (live_rids_seen _ st1 x S Hx). }
  splits.
  - intros e He Hr. apply Hdead; [unfold live_rids; apply in_app_iff; left; apply in_map; exact He|].
    exact (proj2 (dispatch_kills _ _ _ _ _ e S E He Hr)).
  - intros q p Hq Hp. pose proof (in_back_rids _ _ _ _ Hq Hp) as Hbx. apply Hdead; [unfold live_rids; apply in_app_iff; right; exact Hbx|].
    intros Hlv. apply live_iff in Hlv. rewrite Ex, Eb in Hlv. destruct Hlv as [[e' [He' Hr']]|Hb].
    + apply filter_In in He'. destruct He' as [He' _]. eapply nodup_app_disjoint; [exact Hl| |exact Hbx]. rewrite <- Hr'. apply in_map. exact He'.
    + pose proof (qget_of_in _ _ _ (s_bl_nodup _ _ S) Hq) as Q. rewrite (NoDup_count_occ Z.eq_dec) in Hl. specialize (Hl (m_rid (fst p))).
      rewrite count_occ_app, (cnt_qdel_split _ _ _ _ (s_bl_nodup _ _ S) Q) in Hl.
      assert (count_occ Z.eq_dec (q_rids q) (m_rid (fst p)) > 0)%nat by (apply count_occ_In; unfold q_rids; apply in_map_iff; eauto).
      apply (count_occ_In Z.eq_dec) in Hb. lia.
  - apply error_outputs.
Qed.

Lemma add_exchange_facts : forall st m mon st1 o1, _add_exchange st m mon = (st1, o1) ->
  refusing st1 = refusing st /\ now st1 = now st /\ outgoing_requests st1 = outgoing_requests st /\ exists lo hi v, o1 = [ODraw (now st) lo hi v].
Proof.
  intros st m mon st1 o1 H. unfold _add_exchange, uniform, _schedule_retransmit in H.
  destruct (in_backlogs st (m_remote m)); cbn in H; inv H; cbn; splits; eauto.
Qed.

Lemma refused_send_initially : forall st m mon st' o, is_refusing st (m_remote m) = true ->
  _send_initially st m mon = (st', o) ->
  (forall t m', ~ In (OSend t m') o) /\ has_exchange_with st' (m_remote m) = false /\ in_backlogs st' (m_remote m) = false /\
  (forall rid, In (rid, m_remote m) (outgoing_requests st) -> In (OFail (now st) rid NetworkError) o) /\
  (forall q, In q (outgoing_requests st') -> snd q <> m_remote m).
Proof.
  intros st m mon st' o Hr H. unfold _send_initially in H. destruct (_add_exchange st m mon) as [st1 o1] eqn:A.
  destruct (add_exchange_facts _ _ _ _ _ A) as (E1 & E2 & E3 & lo & hi & v & ->).
  unfold _send_via_transport in H. assert (is_refusing st1 (m_remote m) = true) as Hr1 by (unfold is_refusing in *; rewrite E1; exact Hr).
  rewrite Hr1 in H. destruct (mm_dispatch_error st1 (m_remote m)) as [st2 o2] eqn:D. inv H.
  destruct (dispatch_error_facts _ _ _ _ D) as (F1 & F2 & F3 & F4 & F5). splits; auto.
  - intros t m' [Hi|Hi]; [discriminate|eapply F1; eauto].
  - intros rid Hi. right. rewrite <- E2. apply F4. rewrite E3. exact Hi.
Qed.

Lemma refused_retransmit : forall st h mon h0 st' o,
  let m := h_message h in
  xget (m_remote m, m_mid m) (active_exchanges st) = Some (mon, h0) -> h_counter h < MAX_RETRANSMIT (m_tuning m) ->
  is_refusing st (m_remote m) = true -> _retransmit st h = (st', o) ->
  (forall t m', ~ In (OSend t m') o) /\ has_exchange_with st' (m_remote m) = false /\ in_backlogs st' (m_remote m) = false /\
  (forall rid, In (rid, m_remote m) (outgoing_requests st) -> In (OFail (now st) rid NetworkError) o) /\
  (forall q, In q (outgoing_requests st') -> snd q <> m_remote m).
Proof.
  intros st h mon h0 st' o m X Hc Hr H. unfold _retransmit in H. fold m in H. rewrite X in H.
  assert (h_counter h <? MAX_RETRANSMIT (m_tuning m) = true) as Hlt by lia. rewrite Hlt in H.
  unfold _schedule_retransmit, _send_via_transport in H. cbn [now next_seq message_id active_exchanges backlogs outgoing_requests rng refusing set_exchanges] in H.
  match type of H with (if is_refusing ?s _ then _ else _) = _ => assert (is_refusing s (m_remote m) = true) as Hr' by exact Hr; rewrite Hr' in H;
    destruct (dispatch_error_facts _ _ _ _ H) as (F1 & F2 & F3 & F4 & F5) end.
  splits; auto.
Qed.

Lemma refused_retransmission_stops : forall mid0 draws evs1 ev evs2 h,
  wf_run draws (evs1 ++ ev :: evs2) -> (ev = EFire \/ (ev = EFireDue /\ h_due h <= now (final_of mid0 draws evs1))) ->
  next_timer (final_of mid0 draws evs1) = Some h ->
  h_counter h < MAX_RETRANSMIT (m_tuning (h_message h)) ->
  is_refusing (final_of mid0 draws evs1) (m_remote (h_message h)) = true ->
  let st1 := final_of mid0 draws evs1 in
  let '(st2, o) := step st1 ev in
  let '(st3, os) := run st2 evs2 in
  copies (m_rid (h_message h)) (o ++ concat os) = [] /\
  (forall rid, In (rid, m_remote (h_message h)) (outgoing_requests st1) -> In (OFail (Z.max (now st1) (h_due h)) rid NetworkError) o).
Proof.
  intros mid0 draws evs1 ev evs2 h W Hev N Hc Hr st1.
  destruct (step st1 ev) as [st2 o] eqn:E. destruct (run st2 evs2) as [st3 os] eqn:R.
  destruct (cut_run _ _ _ _ _ _ _ _ _ W E R) as (S & _ & _ & Hquiet). fold st1 in S, N, Hr, Hev.
  assert (Hsa : seen_after (seen_all [] evs1) ev = seen_all [] evs1) by (destruct Hev as [->|[-> _]]; reflexivity). rewrite Hsa in Hquiet.
  assert (Hf : ev = EFire \/ ev = EFireDue) by (destruct Hev as [->|[-> _]]; auto).
  destruct (fire_cases _ _ _ _ _ S Hf E) as [(_ & _ & [N'|(h' & N' & -> & Hlt)])|(h' & x & sta & N' & -> & Sa & Hx & Hh & _ & Ea)];
    rewrite N in N'; inv N'; [destruct Hev as [Hev|[_ Hev]]; [discriminate|lia]|].
  pose proof (retransmit_struct _ _ _ _ _ _ Sa Hx eq_refl Ea) as Sh. cbv zeta in Sh. destruct Sh as (_ & _ & _ & _ & Sh).
  destruct Sh as [(_ & st1' & S1' & En1 & Erf & Ex & Eb & Eo & V)|(Heq & _)]; [|lia].
  destruct (send_via_cases _ _ _ _ V) as [(Hf' & _)|(_ & D)]; [unfold is_refusing in *; rewrite Erf in Hf'; cbn in Hf'; congruence|].
  destruct (dispatch_error_facts _ _ _ _ D) as (Hns & _ & _ & Hfail & _).
  edestruct (fun e => dispatch_kills _ _ _ _ _ e S1' D) as [Hseen Hdead]; [rewrite Ex; apply in_xset; left; reflexivity|reflexivity|].
  assert (Hq : copies (m_rid (h_message (e_timer x))) (concat os) = []) by exact (Hquiet _ Hseen Hdead).
  split.
  - rewrite copies_app, Hq, app_nil_r. apply copies_fail_only. exact Hns.
  - intros rid Hi. assert (now st1' = Z.max (now st1) (h_due (e_timer x))) as <- by exact En1. apply Hfail. rewrite Eo. exact Hi.
Qed.

Lemma refused_request_stops : forall mid0 draws evs1 rid r tn evs2,
  wf_run draws (evs1 ++ ERequest rid r tn :: evs2) ->
  is_refusing (final_of mid0 draws evs1) r = true -> in_backlogs (final_of mid0 draws evs1) r = false ->
  let st1 := final_of mid0 draws evs1 in
  let '(st2, o) := step st1 (ERequest rid r tn) in
  let '(st3, os) := run st2 evs2 in
  copies rid (o ++ concat os) = [] /\ In (OFail (now st1) rid NetworkError) o.
Proof.
  intros mid0 draws evs1 rid r tn evs2 W Hr Hnb st1.
  destruct (step st1 (ERequest rid r tn)) as [st2 o] eqn:E. destruct (run st2 evs2) as [st3 os] eqn:R.
  destruct (cut_run _ _ _ _ _ _ _ _ _ W E R) as (S & _ & [Wf Wt] & Hquiet). fold st1 in S, Hr, Hnb. cbn [seen_after] in Hquiet.
  cbn [step] in E. pose proof (request_shape _ _ _ _ _ _ _ S Wf Wt E) as Sh. cbv zeta in Sh.
  destruct Sh as (_ & _ & [(q & Q & _)|(Q & Hno & t & sq & st1' & oe & Hrg & S1' & En1 & Eo1 & Erf & Ex & Eb & Ebl & V & ->)]).
  { unfold in_backlogs in Hnb. rewrite Q in Hnb. discriminate. }
  destruct (send_via_cases _ _ _ _ V) as [(Hf & _)|(_ & D)]; [unfold is_refusing in *; rewrite Erf in Hf; cbn in Hf; congruence|]. cbn [m_remote] in D.
  destruct (dispatch_error_facts _ _ _ _ D) as (Hns & _ & _ & Hfail & _).
  edestruct (fun e => dispatch_kills _ _ _ _ _ e S1' D) as [_ Hdead]; [rewrite Ex; apply in_xset; left; reflexivity|reflexivity|].
  assert (Hq : copies rid (concat os) = []) by exact (Hquiet rid (or_introl eq_refl) Hdead).
  split.
  - rewrite copies_app, Hq, app_nil_r.
    apply copies_fail_only. intros t' m' [Hi|Hi]; [discriminate|eapply Hns; eauto].
  - right. rewrite <- En1. apply Hfail. rewrite Eo1. apply in_app_iff. right. left. reflexivity.
Qed.

Lemma exchange_request_pending : forall mid0 draws evs e, wf_run draws evs -> In e (active_exchanges (final_of mid0 draws evs)) ->
  In (e_rid e, e_remote e) (outgoing_requests (final_of mid0 draws evs)) \/ In (gone_key (e_rid e)) (recv_keys evs).
Proof. intros mid0 draws evs e W He. destruct (reach mid0 draws evs W) as (_ & _ & _ & [P1 _]). apply P1. exact He. Qed.

Lemma fire_progress : forall seen st h st' o, Struct seen st -> next_timer st = Some h ->
  h_counter h < MAX_RETRANSMIT (m_tuning (h_message h)) -> is_refusing st (m_remote (h_message h)) = false ->
  step st EFire = (st', o) ->
  let m := h_message h in
  o = [OSend (Z.max (now st) (h_due h)) m] /\
  exists mon, xget (m_remote m, m_mid m) (active_exchanges st') =
    Some (mon, {| h_due := Z.max (now st) (h_due h) + h_timeout h * 2; h_seq := next_seq st; h_message := m;
                  h_timeout := h_timeout h * 2; h_counter := h_counter h + 1 |}).
Proof.
  intros seen st h st' o S N Hc Hr H m.
  destruct (fire_cases _ _ _ _ _ S (or_introl eq_refl) H) as [(_ & _ & [N'|(h' & _ & He & _)])|(h' & x & sta & N' & -> & Sa & Hx & Hh & _ & Ea)];
    [congruence|discriminate|]. rewrite N in N'. inv N'.
  pose proof (retransmit_struct _ _ _ _ _ _ Sa Hx eq_refl Ea) as Sh. cbv zeta in Sh. destruct Sh as (_ & _ & _ & X & Sh).
  destruct Sh as [(_ & st1 & S1 & En1 & Erf & Ex & Eb & Eo & V)|(Heq & _)]; [|unfold m in *; lia].
  destruct (send_via_cases _ _ _ _ V) as [(_ & -> & ->)|(Hf & _)]; [|unfold is_refusing in *; rewrite Erf in Hf; cbn in Hf; congruence].
  split; [rewrite En1; reflexivity|]. exists (m_rid m). fold m in Ex. rewrite Ex. unfold xget, xset. cbn [find fst]. rewrite key_eqb_refl. reflexivity.
Qed.

Definition no_refusal (evs : list event) : Prop := forall r, ~ In (ERefuse r true) evs.
