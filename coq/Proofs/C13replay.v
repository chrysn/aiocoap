(* C13 — proofs, part 2: the persisted replay state.
   Invariant over every event list with crash points: what a reload would find in sequence.json is either
   "unknown" (the window stays uninitialised: C12's Echo requirement applies) or a window that marks every
   number accepted so far as seen; the live window marks every accepted number as seen. *)
From Verif Require Import Lib.Py Lib.PyLemmas Lib.Tactics Gen.oscore_replay Model.C12 Model.C13 Proofs.C12 Proofs.C13.
Open Scope Z_scope.

Definition subseen (A : list Z) (w : rw) : Prop := forall n, In n A -> seen w n = true.
Definition WinOK (sz : Z) (A : list Z) (ow : option rw) : Prop :=
  match ow with Some w => Inv w /\ rw_size w = sz /\ subseen A w | None => True end.
Definition DiskOK (sz : Z) (d : disk) (A : list Z) : Prop := WinOK sz A (load_window sz d).
Definition ProcOK (sz : Z) (p : proc) (d : disk) (A : list Z) : Prop :=
  size (uc p) = sz /\ echo_recovery (uc p) <> None /\ WinOK sz A (window (uc p)) /\
  (* flag set: an uninitialised live window means an uninitialised window on disk (the live window may be ahead of the file after a
     failed write, never behind what DiskOK demands); flag cleared: the file says "unknown" *)
  (if wpers p then window (uc p) = None -> load_window sz d = None else load_window sz d = None).
Definition ROK (w : world) (A : list Z) : Prop :=
  0 < w_size w /\ DiskOK (w_size w) (w_disk w) A /\
  match w_proc w with Some p => ProcOK (w_size w) p (w_disk w) A | None => True end.

Lemma WinOK_ctxinv sz A c : 0 < sz -> size c = sz -> WinOK sz A (window c) -> CtxInv c.
Proof. intros Hs Hsz H. unfold CtxInv, WinOK in *. split; [lia|]. destruct (window c); [|exact I]. destruct H as (A1 & A2 & _). split; [exact A1|congruence]. Qed.
Lemma WinOK_app_l sz A B ow : WinOK sz (A ++ B) ow -> WinOK sz A ow.
Proof. destruct ow; cbn; [|auto]. intros (H1 & H2 & H3). split; [exact H1|]. split; [exact H2|]. intros n Hn. apply H3, in_or_app. left; exact Hn. Qed.
Lemma WinOK_nil_to sz A ow : WinOK sz A ow -> WinOK sz [] ow.
Proof. apply (WinOK_app_l sz [] A). Qed.

Lemma load_window_kept sz d d' : d_seq d' = d_seq d -> load_window sz d' = load_window sz d.
Proof. unfold load_window. intros ->. reflexivity. Qed.
(* the size is not stored: the reloaded window has the size of the context, which is that of the live window *)
Lemma store_window sz A p d : WinOK sz A (window (uc p)) -> d_seq d = Some (store_content p) ->
  load_window sz d = if wpers p then window (uc p) else None.
Proof.
  intros Hw Hd. unfold load_window. rewrite Hd. unfold store_content; cbn [sf_recv].
  destruct (wpers p); cbn [negb]; [|reflexivity].
  destruct (window (uc p)) as [[wsz i b]|]; cbn [persist]; [|reflexivity].
  destruct Hw as (_ & Hsz & _). cbn in Hsz. subst sz. reflexivity.
Qed.
Lemma store_content_recv p q : uc q = uc p -> wpers q = wpers p -> sf_recv (store_content q) = sf_recv (store_content p).
Proof. intros Hu Hw. unfold store_content; cbn. rewrite Hu, Hw. reflexivity. Qed.

Lemma wrote_rok sz p d d' A : ProcOK sz p d A -> DiskOK sz d A -> wrote p d d' -> ProcOK sz p d' A /\ DiskOK sz d' A.
Proof.
  intros (Hsz & He & Hw & Hrel) HD ([Hseq|Hseq] & _); unfold ProcOK, DiskOK.
  - rewrite (load_window_kept sz d d' Hseq). exact (conj (conj Hsz (conj He (conj Hw Hrel))) HD).
  - rewrite (store_window sz A p d' Hw Hseq).
    destruct (wpers p); (split; [split; [exact Hsz|split; [exact He|split; [exact Hw|auto]]]|]); [exact Hw|exact I].
Qed.
Lemma number_rok {X} sz p d A (x : proc * disk * X) : number_frame p d x -> ProcOK sz p d A -> DiskOK sz d A ->
  let '(p', d', _) := x in ProcOK sz p' d' A /\ DiskOK sz d' A.
Proof.
  destruct x as [[p' d'] r]. intros ((Eu & Ew & _) & Hw) HP HD.
  apply (wrote_rok sz p' d d' A); [unfold ProcOK in *; rewrite Eu, Ew; exact HP|exact HD|exact Hw].
Qed.

(* numbers accepted by one step *)
Definition acc_of (ev : event) (o : output) : list Z :=
  match ev, o with Unprotect r _, OUnprot Accept | UnprotectFails r _, OUnprot Accept => [seqno r] | _, _ => [] end.
(* Echo re-initialisation happens with a number above everything accepted so far (the peer's numbers increase and
   the Echo value of this lifetime cannot occur in a message created before it) *)
Definition echo_cond (w : world) (A : list Z) (ev : event) : Prop :=
  match ev, w_proc w with
  | Unprotect r _, Some p | UnprotectFails r _, Some p =>
      window (uc p) = None -> echo r = echo_recovery (uc p) -> authentic r = true -> forall m, In m A -> m < seqno r
  | _, _ => True
  end.
Definition ev_ok2 (ev : event) : Prop :=
  match ev with Unprotect r _ | UnprotectFails r _ => 0 <= seqno r | _ => True end.

Definition accepted_by (r : preq) (o : outcome) : list Z := match o with Accept => [seqno r] | _ => [] end.
Lemma accepted_by_reject r o : o <> Accept -> accepted_by r o = [].
Proof. destruct o; cbn; congruence. Qed.

(* one request on a window that marks A; a window does not get lost *)
Lemma request_winok sz A c r : 0 < sz -> size c = sz -> WinOK sz A (window c) -> 0 <= seqno r ->
  (window c = None -> echo r = echo_recovery c -> authentic r = true -> forall m, In m A -> m < seqno r) ->
  let '(c', o) := unprotect_request c r in
  size c' = sz /\ echo_recovery c' = echo_recovery c /\ WinOK sz (A ++ accepted_by r o) (window c') /\
  (o = Accept -> ~ In (seqno r) A) /\ (window c' = None -> window c = None).
Proof.
  intros Hs Hsz Hw Hn Hecho. pose proof (WinOK_ctxinv sz A c Hs Hsz Hw) as HI.
  pose proof (unprotect_accept c r HI Hn) as Ha. pose proof (unprotect_reject c r HI Hn) as Hr.
  destruct (unprotect_request c r) as [c' o]. cbn [fst snd] in *.
  destruct (accept_dec o) as [->|Hne].
  - destruct (Ha eq_refl) as (Hauth & w' & -> & HI' & Hsz' & Hcase). clear Ha Hr.
    split; [exact Hsz|]. split; [reflexivity|]. cbn [window set_window accepted_by WinOK].
    assert (Hsub : subseen (A ++ [seqno r]) w' /\ ~ In (seqno r) A).
    { destruct (window c) as [w|].
      - destruct Hcase as (Hns & Hseen). destruct Hw as (_ & _ & Hsub). split; [|intros Hin; rewrite (Hsub _ Hin) in Hns; discriminate].
        intros m Hm. rewrite Hseen. apply in_app_or in Hm as [Hm|[<-|[]]]; [rewrite (Hsub m Hm), orb_true_r; reflexivity|].
        rewrite Z.eqb_refl. apply orb_true_r.
      - destruct Hcase as (He & _ & Hseen). specialize (Hecho eq_refl He Hauth). split; [|intros Hin; specialize (Hecho _ Hin); lia].
        intros m Hm. rewrite Hseen. apply in_app_or in Hm as [Hm|[<-|[]]]; [specialize (Hecho m Hm)|]; lia. }
    split; [split; [exact HI'|split; [congruence|apply Hsub]]|]. split; [intros _; apply Hsub|discriminate].
  - rewrite (Hr Hne), (accepted_by_reject r o Hne), app_nil_r.
    split; [exact Hsz|]. split; [reflexivity|]. split; [exact Hw|]. split; [contradiction|auto].
Qed.

Definition received_ok (sz : Z) (p : proc) (r : preq) (A : list Z) (x : proc * disk * res outcome) : Prop :=
  match x with
  | (p', d', Val o) => ProcOK sz p' d' (A ++ accepted_by r o) /\ DiskOK sz d' (A ++ accepted_by r o) /\ (o = Accept -> ~ In (seqno r) A)
  | (p', d', Exn _) => ProcOK sz p' d' A /\ DiskOK sz d' A
  | (p', d', Died) => DiskOK sz d' A
  end.

Lemma unprotect_rok sz p d a r A : 0 < sz -> ProcOK sz p d A -> DiskOK sz d A -> 0 <= seqno r ->
  (window (uc p) = None -> echo r = echo_recovery (uc p) -> authentic r = true -> forall m, In m A -> m < seqno r) ->
  received_ok sz p r A (unprotect p d a r).
Proof.
  intros Hs (Hsz & He & Hw & Hrel) HD Hn Hecho.
  pose proof (request_winok sz A (uc p) r Hs Hsz Hw Hn Hecho) as Hq.
  pose proof (unprotect_cases p d a r) as Hc. cbv zeta in Hc. rewrite Hc. clear Hc.
  destruct (unprotect_request (uc p) r) as [c' o]. cbn [fst snd] in *. destruct Hq as (Hsz' & He' & Hw' & Hni & Hnone).
  destruct (strikes (uc p) o && wpers p) eqn:Esw.
  - (* strike_out ran: the callback marks the file "unknown" before Accept is returned *)
    set (p2 := set_wpers (set_uc p c') false).
    assert (Hunk : forall d', d_seq d' = Some (store_content p2) -> load_window sz d' = None)
      by (intros d' Hd'; apply (store_window sz (A ++ accepted_by r o) p2 d' Hw' Hd')).
    pose proof (store_seq p2 d a) as Hst. destruct (_store p2 d a) as [d' died]. destruct Hst as ((Hseq & _) & Hok). destruct died.
    + unfold received_ok, DiskOK. destruct Hseq as [Hseq|Hseq]; [rewrite (load_window_kept sz d d' Hseq); exact HD|rewrite (Hunk d' Hseq); exact I].
    + destruct (Hok eq_refl) as (Hseq' & _). pose proof (Hunk d' Hseq') as Hlw. unfold received_ok, ProcOK, DiskOK. rewrite Hlw.
      cbn [uc wpers p2 set_wpers set_uc WinOK]. repeat split; try congruence; auto.
  - (* nothing is written: either nothing was accepted, or the file says "unknown" / null already *)
    assert (HD' : DiskOK sz d (A ++ accepted_by r o)).
    { destruct (accept_dec o) as [->|Hne]; [|rewrite (accepted_by_reject r o Hne), app_nil_r; exact HD].
      unfold DiskOK. replace (load_window sz d) with (@None rw); [exact I|]. symmetry.
      destruct (wpers p); [|exact Hrel]. apply Hrel. rewrite andb_true_r in Esw. unfold strikes in Esw. destruct (window (uc p)); [discriminate|reflexivity]. }
    unfold received_ok, ProcOK. cbn [uc set_uc wpers]. split; [|split; [exact HD'|exact Hni]].
    split; [exact Hsz'|]. split; [congruence|]. split; [exact Hw'|]. destruct (wpers p); auto.
Qed.
Lemma unprotect_fails_rok sz p d k r A : 0 < sz -> ProcOK sz p d A -> DiskOK sz d A -> 0 <= seqno r ->
  (window (uc p) = None -> echo r = echo_recovery (uc p) -> authentic r = true -> forall m, In m A -> m < seqno r) ->
  received_ok sz p r A (unprotect_fails p d k r).
Proof.
  intros Hs HP HD Hn Hecho. pose proof (unprotect_fails_cases p d k r) as Hc. cbv zeta in Hc.
  destruct (strikes (uc p) (snd (unprotect_request (uc p) r)) && wpers p) eqn:Esw; rewrite Hc; [|apply unprotect_rok; assumption].
  destruct HP as (Hsz & He & Hw & Hrel).
  pose proof (request_winok sz A (uc p) r Hs Hsz Hw Hn Hecho) as Hq.
  destruct (unprotect_request (uc p) r) as [c' o]. cbn [fst snd] in *. destruct Hq as (Hsz' & He' & Hw' & _ & Hnone).
  apply andb_prop in Esw as [_ Ewp].
  assert (Hlw : load_window sz (_store_fails (set_wpers (set_uc p c') false) d k) = load_window sz d)
    by (apply load_window_kept, store_fails_keeps).
  unfold received_ok, ProcOK, DiskOK. rewrite Hlw. cbn [uc set_uc wpers]. rewrite Ewp in *.
  split; [|exact HD]. split; [exact Hsz'|]. split; [congruence|]. split; [exact (WinOK_app_l _ _ _ _ Hw')|auto].
Qed.

Lemma destroy_rok sz p d a A : ProcOK sz p d A -> DiskOK sz d A -> DiskOK sz (fst (_destroy p d a)) A.
Proof.
  intros (Hsz & He & Hw & Hrel) HD. pose proof (destroy_seq p d a) as H. cbv zeta in H. destruct (_destroy p d a) as [d' died].
  apply (wrote_rok sz (set_persisted (set_wpers p true) (ssn p)) d d' A); [|exact HD|apply H].
  split; [exact Hsz|]. split; [exact He|]. split; [exact Hw|]. cbn [wpers set_persisted set_wpers]. destruct (wpers p); auto.
Qed.

Lemma load_rok sz start lim echo d A : 0 < sz -> DiskOK sz d A ->
  ProcOK sz (load sz start lim echo (fs_create_lock d)) (fs_create_lock d) A /\ DiskOK sz (fs_create_lock d) A.
Proof.
  intros Hs HD.
  assert (Hlw : load_window sz (fs_create_lock d) = load_window sz d) by reflexivity.
  split; [|unfold DiskOK; rewrite Hlw; exact HD].
  split; [reflexivity|]. split; [cbn; discriminate|]. split; [cbn [load uc window]; rewrite Hlw; exact HD|].
  cbn [load wpers uc window]. unfold load_wpers, load_window. cbn [fs_create_lock d_seq].
  destruct (d_seq d) as [f|]; [|auto]. destruct (sf_recv f); auto.
Qed.

Lemma ROK_nil_app w A : ROK w A -> ROK w (A ++ []).
Proof. rewrite app_nil_r. auto. Qed.

Definition accepts (A : list Z) (ev : event) (wo : world * output) : Prop :=
  ROK (fst wo) (A ++ acc_of ev (snd wo)) /\ forall n, In n (acc_of ev (snd wo)) -> ~ In n A.
Lemma accepts_none A ev wo : acc_of ev (snd wo) = [] -> ROK (fst wo) A -> accepts A ev wo.
Proof. intros Ho HR. unfold accepts. rewrite Ho. split; [apply ROK_nil_app, HR|intros n []]. Qed.

Lemma issue_rok sz p d A x : 0 < sz -> ProcOK sz p d A -> DiskOK sz d A -> number_frame p d x -> ROK (fst (issue sz x)) A.
Proof.
  intros Hs HP HD Hf. pose proof (number_rok sz p d A x Hf HP HD) as H.
  destruct x as [[p' d'] []]; (split; [exact Hs|]); cbn [issue fst w_size w_proc w_disk mkw]; tauto.
Qed.
(* [ev] is the arrival of request [r] *)
Definition arrival (ev : event) (r : preq) : Prop :=
  forall o, acc_of ev o = match o with OUnprot x => accepted_by r x | _ => [] end.
Lemma hand_on_rok sz c p r A ev x : 0 < sz -> arrival ev r -> received_ok sz p r A x -> accepts A ev (hand_on sz c r x).
Proof.
  intros Hs Hev. destruct x as [[p' d'] [o|e|]]; cbn [received_ok hand_on].
  - intros (HP & HD & Hni). unfold accepts. cbn [fst snd]. rewrite !Hev. split; [exact (conj Hs (conj HD HP))|].
    destruct o; cbn; try contradiction. intros n [<-|[]]. apply Hni. reflexivity.
  - intros (HP & HD). apply accepts_none; [apply Hev|exact (conj Hs (conj HD HP))].
  - intros HD. apply accepts_none; [apply Hev|exact (conj Hs (conj HD I))].
Qed.

Lemma step_rok w ev A : ROK w A -> ev_ok2 ev -> echo_cond w A ev -> accepts A ev (step w ev).
Proof.
  destruct w as [sz [p|] d]; intros (Hs & HD & HP) Hok Hecho; cbn [w_size w_disk w_proc echo_cond ev_ok2] in *;
    destruct ev as [a|n a|r a|a| |start lim echo|a|k|r k]; try rewrite step_live; cbn [step w_proc w_size w_disk];
    try (apply accepts_none; [reflexivity|exact (conj Hs (conj HD HP))]).
  - (* Protect *) apply accepts_none; [reflexivity|apply (issue_rok sz p d); [assumption..|apply nsn_frame]].
  - (* Seq *)
    pose proof (seq_loop_inv (fun p' d' => ProcOK sz p' d' A /\ DiskOK sz d' A)
                  (fun q d0 a0 H => number_rok sz q d0 A _ (nsn_frame q d0 a0) (proj1 H) (proj2 H)) (Z.to_nat n) p d a [] (conj HP HD)) as Hl.
    destruct (seq_loop (Z.to_nat n) p d a []) as [[[p1 d1] l] []]; (apply accepts_none; [reflexivity|]); (split; [exact Hs|]);
      cbn [fst w_size w_disk w_proc mkw]; tauto.
  - (* Unprotect *) apply (hand_on_rok sz (uc p) p r A); [exact Hs|exact (fun _ => eq_refl)|apply unprotect_rok; assumption].
  - (* CleanStop *) pose proof (destroy_rok sz p d a A HP HD) as H. destruct (_destroy p d a) as [d' died].
    apply accepts_none; [destruct died; reflexivity|exact (conj Hs (conj H I))].
  - (* Kill *) apply accepts_none; [reflexivity|exact (conj Hs (conj HD I))].
  - (* Respond *) destruct (pend p) as [[m [|]]|]; [apply accepts_none; [reflexivity|exact (conj Hs (conj HD HP))]| |];
      (apply accepts_none; [reflexivity|apply (issue_rok sz p d); [assumption..|apply nsn_frame]]).
  - (* ProtectFails *) apply accepts_none; [reflexivity|apply (issue_rok sz p d); [assumption..|apply nsn_fails_frame]].
  - (* UnprotectFails *) apply (hand_on_rok sz (uc p) p r A); [exact Hs|exact (fun _ => eq_refl)|apply unprotect_fails_rok; assumption].
  - (* Reload *) destruct (load_rok sz start lim echo d A Hs HD) as (H1 & H2). apply accepts_none; [reflexivity|exact (conj Hs (conj H2 H1))].
Qed.

Fixpoint fresh_echo_run (w : world) (A : list Z) (evs : list event) : Prop :=
  match evs with
  | [] => True
  | e :: r => echo_cond w A e /\ fresh_echo_run (fst (step w e)) (A ++ acc_of e (snd (step w e))) r
  end.

Lemma accepted_cons e r o os : accepted (e :: r) (o :: os) = acc_of e o ++ accepted r os.
Proof. destruct e; cbn; try reflexivity; (destruct o; try reflexivity; destruct o; reflexivity). Qed.

Lemma acc_of_at_most_one ev o : acc_of ev o = [] \/ exists x, acc_of ev o = [x].
Proof. destruct ev; try (left; reflexivity); (destruct o; try (left; reflexivity); match goal with x : outcome |- _ => destruct x end; cbn; eauto). Qed.
(* one event accepts at most one number, and a new one *)
Lemma accepts_nodup A ev wo : accepts A ev wo -> NoDup A -> NoDup (A ++ acc_of ev (snd wo)).
Proof.
  intros (_ & Hnew) Hnd. destruct (acc_of_at_most_one ev (snd wo)) as [E|[x E]]; rewrite E in *.
  - rewrite app_nil_r. exact Hnd.
  - apply NoDup_snoc; [exact Hnd|]. apply Hnew. left; reflexivity.
Qed.

Lemma run_rok evs : forall w A, ROK w A -> Forall ev_ok2 evs -> fresh_echo_run w A evs -> NoDup A ->
  ROK (fst (run w evs)) (A ++ accepted evs (snd (run w evs))) /\ NoDup (A ++ accepted evs (snd (run w evs))).
Proof.
  induction evs as [|e r IH]; intros w A HR Hok Hfr Hnd; cbn [run].
  - cbn. rewrite app_nil_r. auto.
  - inversion Hok as [|? ? He Hr]; subst. cbn [fresh_echo_run] in Hfr. destruct Hfr as (Hec & Hfr).
    pose proof (step_rok w e A HR He Hec) as Hs. pose proof (accepts_nodup A e _ Hs Hnd) as Hnd1.
    destruct (step w e) as [w1 o]. cbn [fst snd] in *.
    destruct (IH w1 _ (proj1 Hs) Hr Hfr Hnd1) as (HR2 & Hnd2).
    destruct (run w1 r) as [w2 os]. cbn [fst snd] in *.
    rewrite accepted_cons, app_assoc. auto.
Qed.

Definition disk_wf (sz : Z) (seq : option seqfile) : Prop :=
  match seq with
  | Some f => match sf_recv f with RWin (Some (i, b)) => 0 <= i /\ 0 <= b < 2 ^ sz | _ => True end
  | None => True
  end.
Lemma initial_rok sz seq : 0 < sz -> disk_wf sz seq -> ROK (initial_world sz seq) [].
Proof.
  intros Hs Hwf. split; [exact Hs|]. split; [|exact I].
  unfold DiskOK, WinOK, load_window, initial_world; cbn [w_disk w_size mkw d_seq].
  destruct seq as [f|].
  - cbn in Hwf. destruct (sf_recv f) as [|[[i b]|]]; try exact I.
    split; [unfold Inv; cbn; lia|]. split; [reflexivity|]. intros n [].
  - split; [unfold Inv, initialize_empty; cbn; split; [lia|split; [lia|]]|].
    + split; [lia|]. apply Z.pow_pos_nonneg; lia.
    + split; [reflexivity|]. intros n [].
Qed.

(* the context a later Reload produces: well-formed for C12's theorems, and either uninitialised or rejecting everything accepted before *)
Theorem reloaded_context_safe w evs start lim e : ROK w [] -> Forall ev_ok2 evs -> fresh_echo_run w [] evs ->
  let w' := fst (run w evs) in
  let c := uc (load (w_size w') start lim e (fs_create_lock (w_disk w'))) in
  CtxInv c /\ echo_recovery c = Some e /\
  (window c = None \/ forall n, In n (accepted evs (snd (run w evs))) -> cseen c n).
Proof.
  intros HR Hok Hfr. destruct (run_rok evs w [] HR Hok Hfr (NoDup_nil _)) as ((Hs & HD & _) & _).
  cbn [app] in HD. cbv zeta.
  destruct (load_rok (w_size (fst (run w evs))) start lim e (w_disk (fst (run w evs))) _ Hs HD) as ((Hsz & He & Hw & _) & _).
  split; [eapply WinOK_ctxinv; eassumption|]. split; [reflexivity|].
  unfold cseen. destruct (window (uc (load _ start lim e (fs_create_lock _)))) as [win|]; [right|left; reflexivity].
  destruct Hw as (_ & _ & Hsub). exact Hsub.
Qed.

(* an acceptance through the window check has made sequence.json say "unknown" before it returns *)
Lemma accept_writes_unknown sz p d a r p' d' : (wpers p = false -> load_window sz d = None) ->
  window (uc p) <> None -> unprotect p d a r = (p', d', Val Accept) ->
  load_window sz d' = None /\ wpers p' = false.
Proof.
  intros Hrel Hwin. pose proof (unprotect_cases p d a r) as Hc. cbv zeta in Hc. rewrite Hc. clear Hc.
  destruct (unprotect_request (uc p) r) as [c' o]. cbn [fst snd].
  destruct (strikes (uc p) o && wpers p) eqn:Esw.
  - set (p2 := set_wpers (set_uc p c') false). pose proof (store_seq p2 d a) as Hst. destruct (_store p2 d a) as [d2 []]; [discriminate|].
    destruct Hst as (_ & Hok). destruct (Hok eq_refl) as (Hseq & _). intros [= <- <- ->]. split; [|reflexivity].
    unfold load_window. rewrite Hseq. reflexivity.
  - intros [= <- <- ->]. assert (Ewp : wpers p = false).
    { destruct (wpers p); [|reflexivity]. rewrite andb_true_r in Esw. unfold strikes in Esw. destruct (window (uc p)); [discriminate|contradiction]. }
    split; [exact (Hrel Ewp)|exact Ewp].
Qed.
(* a completed clean shutdown writes the exact state: the live window and the live counter *)
Lemma destroy_exact sz A p d d' : WinOK sz A (window (uc p)) -> _destroy p d None = (d', false) ->
  load_window sz d' = window (uc p) /\ load_wpers d' = true /\ dbound d' = ssn p /\ d_lock d' = false.
Proof.
  intros Hw Hd. pose proof (destroy_seq p d None) as H. cbv zeta in H. rewrite Hd in H. destruct H as (_ & Hok).
  destruct (Hok eq_refl) as (Hseq & Hlock). split; [exact (store_window sz A (set_persisted (set_wpers p true) (ssn p)) d' Hw Hseq)|].
  unfold load_wpers, dbound. rewrite Hseq. cbn. auto.
Qed.
Lemma destroy_completes p d : snd (_destroy p d None) = false.
Proof. reflexivity. Qed.

(* a sufficient condition on the input alone: no request carries the Echo value of any lifetime *)
Definition EchoIn (E : Z -> Prop) (w : world) : Prop :=
  match w_proc w with Some p => exists e, echo_recovery (uc p) = Some e /\ E e | None => True end.
Definition ev_noecho (E : Z -> Prop) (ev : event) : Prop :=
  match ev with
  | Reload _ _ e => E e
  | Unprotect r _ | UnprotectFails r _ => forall e, E e -> echo r <> Some e
  | _ => True
  end.

(* the Echo value of a lifetime is fixed when it is loaded *)
Lemma issue_echoin E sz p d x : number_frame p d x -> EchoIn E (mkw sz (Some p) d) -> EchoIn E (fst (issue sz x)).
Proof. destruct x as [[p' d'] []]; intros ((Hu & _) & _); unfold EchoIn; cbn; try rewrite Hu; auto. Qed.
Lemma hand_on_echoin E sz c p d r x : request_frame p d r x -> EchoIn E (mkw sz (Some p) d) -> EchoIn E (fst (hand_on sz c r x)).
Proof. destruct x as [[p' d'] []]; intros (_ & He & _); unfold EchoIn; cbn; try rewrite He; auto. Qed.

Lemma step_echoin E w ev : EchoIn E w -> ev_noecho E ev -> EchoIn E (fst (step w ev)).
Proof.
  destruct w as [sz [p|] d]; intros HE Hev;
    destruct ev as [a|n a|r a|a| |start lim echo|a|k|r k]; try rewrite step_live; cbn [step w_proc w_size w_disk]; try exact HE; try exact I.
  - (* Protect *) apply (issue_echoin E sz p d); [apply nsn_frame|exact HE].
  - (* Seq *) pose proof (seq_loop_frame (Z.to_nat n) p d a []) as H. destruct (seq_loop (Z.to_nat n) p d a []) as [[[p1 d1] l] []]; try exact I;
      destruct H as (Hu & _); unfold EchoIn; cbn; rewrite Hu; exact HE.
  - (* Unprotect *) apply (hand_on_echoin E sz (uc p) p d r); [apply unprotect_frame|exact HE].
  - (* CleanStop *) destruct (_destroy p d a) as [d' died]. exact I.
  - (* Respond *) destruct (pend p) as [[m [|]]|]; [exact HE| |]; (apply (issue_echoin E sz p d); [apply nsn_frame|exact HE]).
  - (* ProtectFails *) apply (issue_echoin E sz p d); [apply nsn_fails_frame|exact HE].
  - (* UnprotectFails *) apply (hand_on_echoin E sz (uc p) p d r); [apply unprotect_fails_frame|exact HE].
  - (* Reload *) exists echo. split; [reflexivity|exact Hev].
Qed.

Lemma noecho_fresh E evs : forall w A, ROK w A -> Forall ev_ok2 evs -> EchoIn E w -> Forall (ev_noecho E) evs ->
  fresh_echo_run w A evs.
Proof.
  induction evs as [|ev r IH]; intros w A HR Hok HE Hne; cbn [fresh_echo_run]; [exact I|].
  inversion Hok as [|? ? He Hr]; subst. inversion Hne as [|? ? Hn Hnr]; subst.
  assert (Hc : echo_cond w A ev).
  { unfold echo_cond. destruct ev; try exact I; (destruct (w_proc w) as [p|] eqn:Ep; [|exact I];
    intros _ Hecho _; unfold EchoIn in HE; rewrite Ep in HE; destruct HE as (e & He1 & He2);
    cbn in Hn; exfalso; apply (Hn e He2); congruence). }
  split; [exact Hc|].
  pose proof (step_rok w ev A HR He Hc) as Hs. pose proof (step_echoin E w ev HE Hn) as HE1.
  destruct (step w ev) as [w1 o]. cbn [fst snd] in *. destruct Hs as (HR1 & _).
  apply IH; assumption.
Qed.
