(* C15 — the endpoint around the connections: pool.send_message, and what a dead connection does to its pending requests. *)
From Verif Require Import Lib.Py Lib.Tactics Lib.PyLemmas Gen.options_ext Gen.tcp_framing Model.C15 Model.C15Sys Proofs.C15.
Open Scope Z_scope.

Lemma in_insert_opt x o l : In x (insert_opt o l) <-> o = x \/ In x l.
Proof.
  induction l as [|y l IH]; cbn [insert_opt]; [cbn; tauto|].
  destruct (fst o <? fst y); cbn [In]; [|rewrite IH]; tauto.
Qed.
Lemma in_option_list_aux : forall os acc x, In x (fold_left (fun acc o => insert_opt o acc) os acc) <-> In x acc \/ In x os.
Proof.
  induction os as [|o r IH]; intros acc x; cbn [fold_left In]; [tauto|].
  rewrite IH, in_insert_opt. tauto.
Qed.
Lemma in_option_list os x : In x (option_list os) <-> In x os.
Proof. unfold option_list. rewrite in_option_list_aux. cbn. tauto. Qed.

Lemma pool_send_unmasked c m : no_response_masked m = false ->
  pool_send_message c m = send_message c (strip_no_response m) /\
  Forall (fun o => fst o <> 258) (option_list (opts (strip_no_response m))) /\
  code (strip_no_response m) = code m /\ token (strip_no_response m) = token m /\ payload (strip_no_response m) = payload m.
Proof.
  intros H. unfold pool_send_message. rewrite H. split; [reflexivity|]. split; [|repeat split].
  apply Forall_forall. intros o Ho. apply (proj1 (in_option_list _ _)) in Ho. cbn [strip_no_response opts] in Ho.
  apply filter_In in Ho as [_ Ho]. intros E. rewrite E in Ho. discriminate.
Qed.

Lemma tm_wrap_network x : delivered_is_network (tm_wrap x) = true.
Proof. destruct x; reflexivity. Qed.

Definition terminal (id : Z) (r : req) (x : list eout) : Prop :=
  (exists d, In (SFail (r_token r) id d) x /\ delivered_is_network d = true) \/
  (exists c, In (SResponse (r_token r) id c true) x).

Lemma terminal_app id r x y : terminal id r x \/ terminal id r y -> terminal id r (x ++ y).
Proof.
  intros [H|H]; destruct H as [[d [H1 H2]]|[c H]]; [left; exists d|right; exists c|left; exists d|right; exists c];
    try split; auto; apply in_or_app; auto.
Qed.

Definition other (id : Z) (r : req) : bool := negb (r_remote r =? id).

(* What routing outputs of connection [id] does to the endpoint, as a relation that composes: requests of [id] stay
   in the table or have got their terminal event, the table and the pool only shrink, and only by entries of [id];
   [dead] = a DispatchError was among the outputs, after which nothing of [id] is left. *)
Definition routed (id : Z) (dead : bool) (s s1 : sys) (x : list eout) : Prop :=
  (forall r, In r (outgoing s) -> r_remote r = id -> In r (outgoing s1) \/ terminal id r x) /\
  (forall r, In r (outgoing s1) -> In r (outgoing s)) /\
  filter (other id) (outgoing s1) = filter (other id) (outgoing s) /\
  (forall i, In i (pool s1) -> In i (pool s)) /\
  (forall i, i <> id -> In i (pool s) -> In i (pool s1)) /\
  (dead = true -> (forall r, In r (outgoing s1) -> r_remote r <> id) /\ ~ In id (pool s1)) /\
  (forall t i d, In (SFail t i d) x -> i = id /\ delivered_is_network d = true).

Lemma routed_refl id s s1 x : outgoing s1 = outgoing s -> pool s1 = pool s -> (forall t i d, ~ In (SFail t i d) x) ->
  routed id false s s1 x.
Proof. intros Ho Hp Hx. unfold routed. rewrite Ho, Hp. repeat split; auto; try discriminate; exfalso; eapply Hx; eassumption. Qed.

Lemma routed_trans id d1 d2 s s1 s2 x1 x2 :
  routed id d1 s s1 x1 -> routed id d2 s1 s2 x2 -> routed id (d1 || d2) s s2 (x1 ++ x2).
Proof.
  intros (A1 & A2 & A3 & A4 & A5 & A6 & A7) (B1 & B2 & B3 & B4 & B5 & B6 & B7). repeat split; auto; try congruence.
  - intros r Hr Hid. destruct (A1 r Hr Hid) as [H|H]; [|right; apply terminal_app; left; exact H].
    destruct (B1 r H Hid) as [H'|H']; [left; exact H'|right; apply terminal_app; right; exact H'].
  - destruct d1; [|exact (proj1 (B6 H))]. intros r Hr. exact (proj1 (A6 eq_refl) r (B2 r Hr)).
  - destruct d1; [|exact (proj2 (B6 H))]. intros Hi. exact (proj2 (A6 eq_refl) (B4 id Hi)).
  - apply in_app_or in H as [H|H]; [exact (proj1 (A7 _ _ _ H))|exact (proj1 (B7 _ _ _ H))].
  - apply in_app_or in H as [H|H]; [exact (proj2 (A7 _ _ _ H))|exact (proj2 (B7 _ _ _ H))].
Qed.

Lemma filter_other_filter id (P : req -> bool) l : (forall r, other id r = true -> P r = true) ->
  filter (other id) (filter P l) = filter (other id) l.
Proof.
  intros HP. induction l as [|a l IH]; [reflexivity|]. cbn [filter].
  destruct (P a) eqn:Pa; cbn [filter]; rewrite IH; [reflexivity|].
  destruct (other id a) eqn:Oa; [rewrite (HP a Oa) in Pa; discriminate|reflexivity].
Qed.

Lemma route_routed id o s :
  routed id (match o with DispatchError _ => true | _ => false end) s (fst (route id o s)) (snd (route id o s)).
Proof.
  destruct o as [b| |m0|m|e|e0]; cbn [route];
    try (apply routed_refl; [reflexivity..|intros t i d [H|[]]; discriminate]).
  - unfold tm_process_response.
    destruct (filter (req_is (token m) id) (outgoing s)) as [|r0 l0]; [apply routed_refl; [reflexivity..|intros t i d []]|].
    assert (Hx : forall t i d, ~ In (SFail t i d) [SResponse (token m) id (code m) (negb (r_observe r0 && has_observe m))])
      by (intros t i d [H|[]]; discriminate).
    destruct (negb (r_observe r0 && has_observe m)); [|apply routed_refl; [reflexivity..|exact Hx]].
    repeat split; cbn [fst snd outgoing pool]; auto; try discriminate; try (intros; destruct (Hx _ _ _ H)).
    + intros r Hr Hid. destruct (req_is (token m) id r) eqn:E.
      * right. right. exists (code m). unfold req_is in E. apply andb_prop in E as [E _].
        apply list_eqb_Z_eq in E. rewrite E. left. reflexivity.
      * left. apply filter_In. split; [exact Hr|rewrite E; reflexivity].
    + intros r Hr. apply filter_In in Hr. apply Hr.
    + apply filter_other_filter. intros r Ho. unfold other in Ho. unfold req_is.
      destruct (r_remote r =? id); [discriminate|]. rewrite andb_false_r. reflexivity.
  - unfold pool_dispatch_error, tm_dispatch_error. repeat split; cbn [fst snd outgoing pool].
    + intros r Hr Hid. right. left. exists (tm_wrap (exc_of e)). split; [|apply tm_wrap_network].
      apply in_map_iff. exists r. split; [reflexivity|]. apply filter_In. split; [exact Hr|lia].
    + intros r Hr. apply filter_In in Hr. apply Hr.
    + apply filter_other_filter. auto.
    + intros i Hi. apply filter_In in Hi. apply Hi.
    + intros i Hne Hi. apply filter_In. split; [exact Hi|]. destruct (Z.eqb_spec i id); [contradiction|reflexivity].
    + intros r Hr. apply filter_In in Hr as [_ Hr]. destruct (Z.eqb_spec (r_remote r) id); [discriminate|assumption].
    + intros Hi. apply filter_In in Hi as [_ Hi]. rewrite Z.eqb_refl in Hi. discriminate.
    + apply in_map_iff in H as (r & Hr & _). inv Hr. reflexivity.
    + apply in_map_iff in H as (r & Hr & _). inv Hr. apply tm_wrap_network.
Qed.

Lemma route_all_routed : forall os id s,
  routed id (existsb (fun o => match o with DispatchError _ => true | _ => false end) os) s
    (fst (route_all id os s)) (snd (route_all id os s)).
Proof.
  induction os as [|o os IH]; intros id s; [apply routed_refl; [reflexivity..|intros t i d []]|].
  cbn [route_all existsb]. pose proof (route_routed id o s) as H1. destruct (route id o s) as [s1 x1].
  specialize (IH id s1). destruct (route_all id os s1) as [s2 x2]. exact (routed_trans _ _ _ _ _ _ _ _ H1 IH).
Qed.

Lemma dead_connection_fails_pending : forall os id s k, In (DispatchError k) os ->
  let '(s1, x) := route_all id os s in
  (forall r, In r (outgoing s) -> r_remote r = id -> terminal id r x) /\
  (forall r, In r (outgoing s1) -> r_remote r <> id) /\ ~ In id (pool s1) /\
  filter (other id) (outgoing s1) = filter (other id) (outgoing s) /\
  (forall i, i <> id -> In i (pool s) -> In i (pool s1)) /\
  (forall t i d, In (SFail t i d) x -> i = id /\ delivered_is_network d = true).
Proof.
  intros os id s k Hk. pose proof (route_all_routed os id s) as H. destruct (route_all id os s) as [s1 x].
  destruct H as (B1 & _ & B3 & _ & B5 & B6 & B7).
  destruct B6 as [C1 C2]. { apply existsb_exists. exists (DispatchError k). auto. }
  split. { intros r Hr Hid. destruct (B1 r Hr Hid) as [H|H]; [destruct (C1 r H Hid)|exact H]. }
  auto.
Qed.

Lemma sys_step_lost_dead s id :
  let '(s1, x) := sys_step s (PLost id) in
  (forall r, In r (outgoing s) -> r_remote r = id -> terminal id r x) /\
  (forall r, In r (outgoing s1) -> r_remote r <> id) /\ ~ In id (pool s1) /\
  filter (other id) (outgoing s1) = filter (other id) (outgoing s).
Proof.
  cbn [sys_step]. pose proof (dead_connection_fails_pending [DispatchError ConnectionLost] id s ConnectionLost (or_introl eq_refl)) as H.
  destruct (route_all id _ s) as [s1 x]. destruct H as (H1 & H2 & H3 & H4 & _). auto.
Qed.

Lemma release_frame c : spool c = [] -> 2 <= my_max_message_size c ->
  snd (data_received c [0; 228]) = [DispatchError PeerReleased; Close] /\
  snd (data_received c [0; 229]) = [DispatchError PeerAborted; Close].
Proof.
  intros Hsp Hmax.
  assert (H : forall k, k = RELEASE \/ k = ABORT ->
            snd (data_received c [0; k]) = [DispatchError (if k =? RELEASE then PeerReleased else PeerAborted); Close]).
  { intros k Hk. set (m := {| code := k; token := []; opts := []; payload := [] |}).
    assert (Hok : msg_ok m = true) by (destruct Hk as [->| ->]; reflexivity).
    assert (Hfit : fits (my_max_message_size c) m = true) by (unfold fits; change (serialize m) with (Ok [0; k]); cbn; lia).
    pose proof (stream_processed_as_messages [m] c [0; k] ltac:(repeat constructor; exact Hok) ltac:(repeat constructor; exact Hfit) eq_refl Hsp) as H.
    destruct (data_received c [0; k]) as [c1 o1]. cbn [process_messages] in H.
    rewrite (release_abort_close c m Hk eq_refl) in H. cbn in H. destruct H as [-> _]. reflexivity. }
  split; [exact (H RELEASE (or_introl eq_refl))|exact (H ABORT (or_intror eq_refl))].
Qed.

Lemma sys_run_cons s e es : sys_run s (e :: es) =
  let '(s1, o1) := sys_step s e in let '(s2, o2) := sys_run s1 es in (s2, o1 ++ o2).
Proof. reflexivity. Qed.
Lemma sys_run_app : forall es1 es2 s, sys_run s (es1 ++ es2) =
  let '(s1, o1) := sys_run s es1 in let '(s2, o2) := sys_run s1 es2 in (s2, o1 ++ o2).
Proof.
  induction es1 as [|e es1 IH]; intros es2 s.
  - cbn [app sys_run]. destruct (sys_run s es2) as [s2 o2]. reflexivity.
  - cbn [app]. rewrite !sys_run_cons. destruct (sys_step s e) as [s1 o1]. rewrite IH.
    destruct (sys_run s1 es1) as [s2 o2]. destruct (sys_run s2 es2) as [s3 o3]. rewrite app_assoc. reflexivity.
Qed.

Lemma in_filter_other id r l : In r l -> r_remote r <> id -> In r (filter (other id) l).
Proof. intros H Hne. apply filter_In. split; [exact H|]. unfold other. destruct (Z.eqb_spec (r_remote r) id); [contradiction|reflexivity]. Qed.

(* every step of the endpoint routes the outputs of one connection, after a request has added its entry to the table *)
Lemma sys_step_as_route s e : exists id os s', sys_step s e = route_all id os s' /\ pool s' = pool s /\
  (outgoing s' = outgoing s \/
   exists tok obs, e = PRequest id tok obs /\ outgoing s' = outgoing s ++ [{| r_token := tok; r_remote := id; r_observe := obs |}]).
Proof.
  destruct e as [id tok obs|id d|id]; cbn [sys_step]; [| |exists id, [DispatchError ConnectionLost], s; auto];
    (destruct (get_conn id (conns s)) as [c|]; [|exists id, [], s; auto]).
  - destruct (pool_send_message c (request_msg tok obs)) as [[c1 o] ok]. eexists id, o, _. split; [reflexivity|]. split; [reflexivity|right; exists tok, obs; split; reflexivity].
  - destruct (closed c); [exists id, [], s; auto|]. destruct (data_received c d) as [c1 o]. eexists id, o, _. split; [reflexivity|]. auto.
Qed.

Lemma sys_step_progress s e r : In r (outgoing s) ->
  let '(s1, x) := sys_step s e in In r (outgoing s1) \/ terminal (r_remote r) r x.
Proof.
  intros Hr. destruct (sys_step_as_route s e) as (id & os & s' & -> & _ & Ho).
  assert (Hr' : In r (outgoing s')) by (destruct Ho as [->|(tok & obs & _ & ->)]; [|apply in_or_app; left]; exact Hr).
  pose proof (route_all_routed os id s') as H. destruct (route_all id os s') as [s1 x]. destruct H as (B1 & _ & B3 & _).
  destruct (Z.eq_dec (r_remote r) id) as [E|E]; [rewrite E; apply B1; assumption|].
  left. pose proof (in_filter_other id r _ Hr' E) as Hf. rewrite <- B3 in Hf. apply filter_In in Hf. apply Hf.
Qed.

Lemma sys_run_progress : forall es s r, In r (outgoing s) ->
  let '(s1, x) := sys_run s es in In r (outgoing s1) \/ terminal (r_remote r) r x.
Proof.
  induction es as [|e es IH]; intros s r Hr; [left; exact Hr|].
  rewrite sys_run_cons. pose proof (sys_step_progress s e r Hr) as H1. destruct (sys_step s e) as [s1 o1].
  destruct H1 as [H1|H1].
  - specialize (IH s1 r H1). destruct (sys_run s1 es) as [s2 o2].
    destruct IH as [H2|H2]; [left; exact H2|right; apply terminal_app; right; exact H2].
  - destruct (sys_run s1 es) as [s2 o2]. right. apply terminal_app. left. exact H1.
Qed.

Lemma lost_ends_all_pending : forall es s id r, In r (outgoing s) -> r_remote r = id ->
  let '(s1, x) := sys_run s (es ++ [PLost id]) in
  terminal id r x /\ (forall q, In q (outgoing s1) -> r_remote q <> id) /\ ~ In id (pool s1).
Proof.
  intros es s id r Hr Hid. rewrite sys_run_app.
  pose proof (sys_run_progress es s r Hr) as HP. destruct (sys_run s es) as [s1 o1].
  cbn [sys_run]. pose proof (sys_step_lost_dead s1 id) as HL. destruct (sys_step s1 (PLost id)) as [s2 o2].
  destruct HL as (L1 & L2 & L3 & _). rewrite app_nil_r. rewrite Hid in HP.
  split; [|split; assumption].
  destruct HP as [H|H]; [apply terminal_app; right; apply L1; assumption|apply terminal_app; left; exact H].
Qed.
