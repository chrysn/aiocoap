(* C04 — two invariants of the message manager's tables.  [Q]: the tables are consistent, so that none of the KeyError /
   AssertionError branches (on_timeout, _retransmit, _continue_backlog, _send_initially, the expiry callback) is reachable.
   [Timely]: no piggy-back opportunity outlives the key it was created for. *)
From Verif Require Import Lib.Py Lib.PyLemmas Lib.Tactics Model.C04 Proofs.C04.
Import ListNotations.
Open Scope Z_scope.

Section AL.
  Context {K V : Type} (eqb : K -> K -> bool) (eqb_spec : forall a b, eqb a b = true <-> a = b).
  Notation get := (aget (V := V) eqb).
  Lemma g_none_notin k l : get k l = None -> forall v, ~ In (k, v) l.
  Proof.
    induction l as [|[k' v'] l IH]; simpl; intros H v HI; [contradiction|]. destruct HI as [HI | HI].
    - inversion HI; subst. rewrite (eqb_refl' _ eqb_spec) in H. discriminate.
    - destruct (eqb k k'); [discriminate | eapply IH; eauto].
  Qed.
End AL.
Lemma notin_g_none {K V} (eqb : K -> K -> bool) (sp : forall a b, eqb a b = true <-> a = b) k (l : list (K * V)) :
  (forall v, ~ In (k, v) l) -> aget eqb k l = None.
Proof. intros H. destruct (aget eqb k l) eqn:G; [|reflexivity]. apply (g_in _ sp) in G. exfalso. eapply H; eauto. Qed.

(* E0-E2: exchange keys distinct, each remote has a backlog entry (_continue_backlog asserts it), one exchange per remote
   (NSTART = 1); E3, P1: a pending retransmission / empty-ACK timer is the one whose handle its exchange / opportunity holds,
   so _retransmit and on_timeout find their entry; NX: no [Exn] logged *)
Definition E0 (s : st) : Prop := NoDup (map fst (exchanges s)).
Definition E1 (s : st) : Prop := forall k h, In (k, h) (exchanges s) -> aget Z.eqb (fst k) (backlogs s) <> None.
Definition E2 (s : st) : Prop := forall k1 h1 k2 h2, In (k1, h1) (exchanges s) -> In (k2, h2) (exchanges s) -> fst k1 = fst k2 -> k1 = k2.
Definition E3 (s : st) : Prop := forall d q r w t c, In (d, q, TRetransmit r w t c) (timers s) -> aget key_eqb (r, w_mid w) (exchanges s) = Some q.
Definition P1 (s : st) : Prop := forall d q r tok, In (d, q, TEmptyAck r tok) (timers s) -> exists mid, aget tokkey_eqb (r, tok) (piggy s) = Some (mid, q).
Definition NX (s : st) : Prop := forall t e, ~ In (Exn t e) (outs s).
Definition Q (s : st) : Prop := E0 s /\ E1 s /\ E2 s /\ E3 s /\ P1 s /\ NX s.

Lemma Q_frame s s' : timers s' = timers s -> exchanges s' = exchanges s -> backlogs s' = backlogs s -> piggy s' = piggy s ->
  outs s' = outs s -> Q s -> Q s'.
Proof. unfold Q, E0, E1, E2, E3, P1, NX. intros -> -> -> -> ->. tauto. Qed.
Ltac qframe := apply Q_frame; reflexivity.

Definition no_xr (r : Z) (s : st) : Prop := forall k h, In (k, h) (exchanges s) -> fst k <> r.   (* no exchange with remote r *)

Lemma has_exchange_false r s : has_exchange_with r s = false -> no_xr r s.
Proof.
  unfold has_exchange_with, no_xr. intros H k h HI N.
  assert (existsb (fun e => fst (fst e) =? r) (exchanges s) = true).
  { apply existsb_exists. exists (k, h). split; [exact HI | simpl; apply Z.eqb_eq; exact N]. }
  congruence.
Qed.
Lemma E1_of s : Q s -> E1 s. Proof. intros (_ & B & _); exact B. Qed.
Lemma no_backlog_no_xr r s : E1 s -> aget Z.eqb r (backlogs s) = None -> no_xr r s.
Proof. intros H G k h HI N. apply (H k h HI). rewrite N. exact G. Qed.

Lemma Q_emit o s : (forall t e, o <> Exn t e) -> Q s -> Q (emit o s).
Proof.
  intros Ho (A & B & C & D & E & F). repeat split; auto.
  intros t e H. unfold emit in H; simpl in H. apply in_app_iff in H as [H | [H | []]]; [eapply F; eauto | eapply Ho; eauto].
Qed.
Lemma Q_cancel h s : Q s -> Q (cancel h s).
Proof.
  intros (A & B & C & D & E & F). repeat split; auto.
  - intros d q r w t c H. apply filter_In in H as [H _]. eapply D; eauto.
  - intros d q r tok H. apply filter_In in H as [H _]. eapply E; eauto.
Qed.
Lemma Q_set_backlogs v s : (forall k h, In (k, h) (exchanges s) -> aget Z.eqb (fst k) v <> None) -> Q s -> Q (set_backlogs v s).
Proof. intros H (A & B & C & D & E & F). repeat split; auto. Qed.

(* registering an exchange for (r, mid) when there is none with remote r, together with its retransmission timer *)
Lemma Q_arm_retransmit r w t c s : Q s -> no_xr r s -> aget Z.eqb r (backlogs s) <> None -> Q (arm_retransmit r w t c s).
Proof.
  intros (A & B & C & D & E & F) NX0 HB. unfold arm_retransmit, call_later; simpl.
  assert (G : aget key_eqb (r, w_mid w) (exchanges s) = None) by (apply (notin_g_none _ key_eqb_eq); intros h H; apply (NX0 _ _ H); reflexivity).
  rewrite (set_absent _ _ _ _ G). repeat split.
  - unfold E0; simpl. rewrite map_app. simpl. apply NoDup_snoc; [exact A|].
    intros H. apply in_map_iff in H as ([k' h'] & Ek & H). simpl in Ek; subst k'. apply (NX0 _ _ H). reflexivity.
  - intros k h H. simpl in H. apply in_app_iff in H as [H | [H | []]]; [apply (B _ _ H) | inversion H; subst; exact HB].
  - intros k1 h1 k2 h2 H1 H2 N. simpl in H1, H2.
    apply in_app_iff in H1 as [H1 | [H1 | []]]; apply in_app_iff in H2 as [H2 | [H2 | []]].
    + eapply C; eauto.
    + inversion H2; subst. exfalso. apply (NX0 _ _ H1). exact N.
    + inversion H1; subst. exfalso. apply (NX0 _ _ H2). symmetry; exact N.
    + inversion H1; inversion H2; subst. reflexivity.
  - intros d q r' w' t' c' H. simpl in H |- *. rewrite (g_app _). apply in_app_iff in H as [H | [H | []]].
    + rewrite (D _ _ _ _ _ _ H). reflexivity.
    + inversion H; subst. rewrite G. simpl. rewrite key_eqb_refl. reflexivity.
  - intros d q r' tok H. simpl in H. apply in_app_iff in H as [H | [H | []]]; [eapply E; eauto | discriminate].
  - exact F.
Qed.

(* removing a key of the exchange table whose registered handle (if any) is h *)
Lemma Q_rm_exchange k h s : Q s -> (forall h', aget key_eqb k (exchanges s) = Some h' -> h' = h) ->
  Q (cancel h (set_exchanges (aremove key_eqb k (exchanges s)) s)).
Proof.
  intros (A & B & C & D & E & F) G. repeat split.
  - apply (nodup_rm _ key_eqb_eq); exact A.
  - intros k' h' H. simpl in H. apply (in_rm _ key_eqb_eq) in H as [H _]. apply (B _ _ H).
  - intros k1 h1 k2 h2 H1 H2. simpl in H1, H2. apply (in_rm _ key_eqb_eq) in H1 as [H1 _], H2 as [H2 _]. eapply C; eauto.
  - intros d q r w t c H. simpl in H. apply filter_In in H as [H Hq]. simpl in Hq.
    specialize (D _ _ _ _ _ _ H). simpl.
    destruct (key_eqb k (r, w_mid w)) eqn:Ek.
    + apply key_eqb_eq in Ek; subst k. rewrite (G _ D), Z.eqb_refl in Hq. discriminate.
    + rewrite (g_rm_neq _ key_eqb_eq); [exact D|]. intros N. subst k. rewrite key_eqb_refl in Ek. discriminate.
  - intros d q r tok H. simpl in H. apply filter_In in H as [H _]. eapply E; eauto.
  - exact F.
Qed.

(* when the key was registered: afterwards no exchange with that remote is left *)
Lemma Q_pop_exchange k h s : Q s -> aget key_eqb k (exchanges s) = Some h ->
  Q (cancel h (set_exchanges (aremove key_eqb k (exchanges s)) s)) /\
  no_xr (fst k) (cancel h (set_exchanges (aremove key_eqb k (exchanges s)) s)).
Proof.
  intros HQ G. split; [apply Q_rm_exchange; [exact HQ | congruence]|].
  intros k' h' H N. simpl in H. apply (in_rm _ key_eqb_eq) in H as [H N']. apply N'. simpl.
  destruct HQ as (_ & _ & C & _). apply (C k' h' k h H (g_in _ key_eqb_eq _ _ _ G) N).
Qed.

Lemma Q_stop_incoming ik sid s : Q s -> Q (stop_incoming ik sid s).
Proof. qframe. Qed.
Lemma tm_dispatch_error_ind (P : st -> Prop) r s :
  (forall ik sid s', P s' -> P (stop_incoming ik sid s')) -> P s -> P (tm_dispatch_error r s).
Proof.
  intros H. unfold tm_dispatch_error. apply (fold_same P). intros s0 e _ H0.
  destruct (snd (fst e) =? r); [apply H; exact H0 | exact H0].
Qed.

(* mm_dispatch_error by its three phases; every exchange it ends was one of the state it starts from *)
Definition mm_step (r : Z) (s : st) (e : Z * Z * Z) : st :=
  if fst (fst e) =? r then cancel (snd e) (set_exchanges (aremove key_eqb (fst e) (exchanges s)) s) else s.
Lemma mm_fold_exchanges r l : forall s x, In x (exchanges (fold_left (mm_step r) l s)) ->
  In x (exchanges s) /\ (In x l -> fst (fst x) <> r).
Proof.
  induction l as [|e l IH]; intros s x H; simpl in *; [tauto|]. apply IH in H as [H Hl]. unfold mm_step in H.
  destruct (fst (fst e) =? r) eqn:Er.
  - simpl in H. apply (in_rm _ key_eqb_eq) in H as [H N]. split; [exact H|]. intros [<- | Hx]; [congruence | auto].
  - split; [exact H|]. intros [<- | Hx]; [apply Z.eqb_neq; exact Er | auto].
Qed.
Lemma mm_dispatch_error_ind (P : st -> Prop) r s :
  (forall ik sid s', P s' -> P (stop_incoming ik sid s')) ->
  (forall s' k h, P s' -> In (k, h) (exchanges s) -> P (cancel h (set_exchanges (aremove key_eqb k (exchanges s')) s'))) ->
  (forall s', P s' -> no_xr r s' -> P (set_backlogs (aremove Z.eqb r (backlogs s')) s')) ->
  P s -> P (mm_dispatch_error r s).
Proof.
  intros Hstop Hrm Hback HP. unfold mm_dispatch_error.
  assert (H0 : P (tm_dispatch_error r s) /\ exchanges (tm_dispatch_error r s) = exchanges s).
  { apply tm_dispatch_error_ind; [|auto]. intros ik sid s0 [H E]. split; [apply Hstop; exact H | exact E]. }
  destruct H0 as [H0 Ex]. set (s0 := tm_dispatch_error r s) in *.
  change (fold_left _ (exchanges s0) s0) with (fold_left (mm_step r) (exchanges s0) s0). apply Hback.
  - rewrite Ex. apply (fold_same P); [|exact H0]. intros s1 [k h] Hin H1. unfold mm_step. simpl.
    destruct (fst k =? r); [apply Hrm; assumption | exact H1].
  - intros k h H N. apply mm_fold_exchanges in H as [H Hn]. apply (Hn H N).
Qed.

Lemma Q_mm_dispatch_error r s : Q s -> Q (mm_dispatch_error r s).
Proof.
  intros HQ. apply (mm_dispatch_error_ind (fun s' => Q s' /\ incl (exchanges s') (exchanges s))).
  - intros ik sid s0 [Q0 I0]. split; [apply Q_stop_incoming; exact Q0 | exact I0].
  - intros s0 k h [Q0 I0] Hin. destruct HQ as (A & _). split.
    + apply Q_rm_exchange; [exact Q0|]. intros h' G. apply (g_in _ key_eqb_eq), I0, (g_in_nodup _ key_eqb_eq _ _ _ A) in G.
      rewrite (g_in_nodup _ key_eqb_eq _ _ _ A Hin) in G. congruence.
    + intros x H. simpl in H. apply (in_rm _ key_eqb_eq) in H as [H _]. apply I0, H.
  - intros s0 [Q0 I0] NXr. split; [|exact I0]. apply Q_set_backlogs; [|exact Q0].
    intros k h H. rewrite (g_rm_neq _ Z.eqb_eq) by (apply (NXr _ _ H)). apply (E1_of s0 Q0 _ _ H).
  - split; [exact HQ | apply incl_refl].
Qed.

Lemma Q_refusal r s : Q s -> Q (refusal r s).
Proof.
  intros HQ. unfold refusal. destruct (is_refused r s); [|exact HQ].
  apply Q_mm_dispatch_error. apply Q_emit; [intros; discriminate | exact HQ].
Qed.
Lemma Q_send_via r w s : Q s -> Q (_send_via_transport r w s).
Proof. intros HQ. unfold _send_via_transport, send_log. apply Q_refusal. apply Q_emit; [intros; discriminate | exact HQ]. Qed.
Lemma Q_store r w s : Q s -> Q (_store_response_for_duplicates r w s).
Proof.
  unfold _store_response_for_duplicates. destruct (negb (is_ackrst (w_type w))); [auto|].
  destruct (aget key_eqb (r, w_mid w) (recent s)); [qframe | auto].
Qed.

Lemma no_xr_set_backlogs r v s : no_xr r s -> no_xr r (set_backlogs v s).
Proof. auto. Qed.

Lemma Q_add_exchange r w s : Q s -> no_xr r s -> Q (_add_exchange r w s).
Proof.
  intros HQ NXr. rewrite _add_exchange_eq. destruct (aget Z.eqb r (backlogs s)) eqn:G.
  - apply Q_arm_retransmit; [exact HQ | exact NXr | congruence].
  - apply Q_arm_retransmit; [|exact NXr | simpl; rewrite (g_set_eq _ Z.eqb_eq); discriminate].
    apply Q_set_backlogs; [|exact HQ]. intros k h H. rewrite (g_set_neq _ Z.eqb_eq) by (apply (NXr _ _ H)).
    apply (E1_of s HQ _ _ H).
Qed.

Lemma Q_send_initially r w mon s : Q s -> (w_type w = CON -> mon = true /\ no_xr r s) -> Q (_send_initially r w mon s).
Proof.
  intros HQ Hc. unfold _send_initially. destruct (w_type w) eqn:T; try (apply Q_send_via, Q_store; exact HQ).
  destruct (Hc eq_refl) as [-> NXr]. simpl. apply Q_send_via, Q_store, Q_add_exchange; assumption.
Qed.

Lemma Q_continue_backlog_loop fuel r : forall s, Q s -> Q (_continue_backlog_loop fuel r s).
Proof.
  induction fuel as [|fuel IH]; intros s HQ; simpl; [exact HQ|].
  destruct (has_exchange_with r s) eqn:Hx; [exact HQ|]. apply has_exchange_false in Hx.
  destruct (aget Z.eqb r (backlogs s)) as [[|w rest]|] eqn:G; [| |exact HQ].
  - apply Q_set_backlogs; [|exact HQ]. intros k h H. rewrite (g_rm_neq _ Z.eqb_eq) by (apply (Hx _ _ H)). apply (E1_of s HQ _ _ H).
  - apply IH. apply Q_send_initially.
    + apply Q_set_backlogs; [|exact HQ]. intros k h H. rewrite (g_set_neq _ Z.eqb_eq) by (apply (Hx _ _ H)). apply (E1_of s HQ _ _ H).
    + intros _. split; [reflexivity | exact Hx].
Qed.
Lemma Q_continue_backlog r s : Q s -> aget Z.eqb r (backlogs s) <> None -> Q (_continue_backlog r s).
Proof.
  intros HQ HB. unfold _continue_backlog. destruct (aget Z.eqb r (backlogs s)); [|contradiction].
  apply Q_continue_backlog_loop; exact HQ.
Qed.
Lemma Q_remove_exchange r mid s : Q s -> Q (_remove_exchange r mid s).
Proof.
  intros HQ. unfold _remove_exchange. destruct (aget key_eqb (r, mid) (exchanges s)) as [h|] eqn:G; [|exact HQ].
  apply Q_continue_backlog.
  - apply Q_rm_exchange; [exact HQ|]. intros h' G'. congruence.
  - simpl. apply (E1_of s HQ (r, mid) h). apply (g_in _ key_eqb_eq). exact G.
Qed.

Lemma Q_retransmit r w t c s : Q s -> aget key_eqb (r, w_mid w) (exchanges s) <> None -> Q (_retransmit r w t c s).
Proof.
  intros HQ HG. rewrite _retransmit_eq. destruct (aget key_eqb (r, w_mid w) (exchanges s)) as [h|] eqn:G; [|contradiction].
  destruct (Q_pop_exchange _ _ _ HQ G) as [Q1 N1]. simpl in N1.
  assert (B1 : aget Z.eqb r (backlogs s) <> None) by (apply (E1_of s HQ (r, w_mid w) h), (g_in _ key_eqb_eq), G).
  set (s1 := cancel h _) in *. cbv zeta.
  destruct (c <? MAX_RETRANSMIT); [apply Q_send_via, Q_arm_retransmit; assumption|].
  destruct (aget Z.eqb r (backlogs s)) eqn:GB; [|contradiction].
  apply (tm_dispatch_error_ind Q); [exact Q_stop_incoming|]. apply Q_set_backlogs; [|exact Q1].
  intros k h' H. rewrite (g_rm_neq _ Z.eqb_eq) by (apply (N1 _ _ H)). apply (E1_of s1 Q1 _ _ H).
Qed.

Lemma Q_set_piggy_other v s : Q s ->
  (forall d q r tok, In (d, q, TEmptyAck r tok) (timers s) -> aget tokkey_eqb (r, tok) v = aget tokkey_eqb (r, tok) (piggy s)) ->
  Q (set_piggy v s).
Proof.
  intros (A & B & C & D & E & F) H. repeat split; auto.
  intros d q r tok HI. simpl. rewrite (H _ _ _ _ HI). eapply E; eauto.
Qed.
Lemma Q_pop_piggy pk h s : Q s -> (forall mid' h', aget tokkey_eqb pk (piggy s) = Some (mid', h') -> h' = h) ->
  Q (cancel h (set_piggy (aremove tokkey_eqb pk (piggy s)) s)).
Proof.
  intros (A & B & C & D & E & F) G. repeat split; auto.
  - intros d q r w t c H. simpl in H. apply filter_In in H as [H _]. eapply D; eauto.
  - intros d q r tok H. simpl in H. apply filter_In in H as [H Hq]. simpl in Hq. simpl.
    destruct (E _ _ _ _ H) as [mid Gm].
    destruct (tokkey_eqb pk (r, tok)) eqn:Ek.
    + apply tokkey_eqb_eq in Ek; subst pk. rewrite (G _ _ Gm), Z.eqb_refl in Hq. discriminate.
    + exists mid. rewrite (g_rm_neq _ tokkey_eqb_eq); [exact Gm|]. intros N. subst pk. rewrite (eqb_refl' _ tokkey_eqb_eq) in Ek. discriminate.
Qed.

Lemma cancel_set_piggy h v s : cancel h (set_piggy v s) = set_piggy v (cancel h s).
Proof. reflexivity. Qed.

Lemma Q_send_message m a s : Q s -> Q (send_message m a s).
Proof.
  intros HQ. apply send_message_ind; [exact HQ | ..].
  - intros mid h w G Hw _. apply Q_send_initially; [|rewrite Hw; discriminate].
    apply Q_pop_piggy; [exact HQ|]. intros mid' h' G'. congruence.
  - intros t _ Ht. apply Q_send_initially; [revert HQ; qframe|].
    intros Hc. change (t = CON) in Hc. split; [reflexivity | apply no_backlog_no_xr; [apply E1_of; exact HQ | auto]].
  - intros b G. apply Q_set_backlogs; [|revert HQ; qframe]. intros k h H. simpl in H.
    destruct (Z.eq_dec (fst k) (i_remote m)) as [E | N].
    + rewrite E, (g_set_eq _ Z.eqb_eq). discriminate.
    + rewrite (g_set_neq _ Z.eqb_eq) by exact N. apply (E1_of s HQ _ _ H).
Qed.

(* [Q] as a relation between the states before and after, for the walk back up from send_message *)
Lemma Q_keeps : Frame (fun s s' => Q s -> Q s').
Proof. split; [auto | auto | intros s s' _ _ _ _ T X B Pg O; apply Q_frame; assumption]. Qed.
Lemma Q_start sid m s : Q s -> Q (emit (Start (now s) sid (i_remote m) (i_mid m) (i_token m)) s).
Proof. apply Q_emit. intros; discriminate. Qed.

Lemma Q_open_piggy m s : Q s -> Q (open_piggy m s).
Proof.
  unfold open_piggy, call_later. simpl.
  set (pk := (i_remote m, i_token m)). intros (A & B & C & D & E & F).
  destruct (aget tokkey_eqb pk (piggy s)) as [[mo old]|] eqn:G; simpl; repeat split; auto.
  - intros d q r w t c H. simpl in H. apply filter_In in H as [H _]. apply in_app_iff in H as [H | [H | []]]; [eapply D; eauto | discriminate].
  - intros d q r tok H. simpl in H. apply filter_In in H as [H Hq]. simpl in Hq. simpl.
    apply in_app_iff in H as [H | [H | []]].
    + destruct (E _ _ _ _ H) as [mid' Gm].
      destruct (tokkey_eqb pk (r, tok)) eqn:Ek.
      * apply tokkey_eqb_eq in Ek. rewrite <- Ek in Gm. rewrite G in Gm. inversion Gm; subst. rewrite Z.eqb_refl in Hq. discriminate.
      * assert (N : (r, tok) <> pk) by (intros N; rewrite N, (eqb_refl' _ tokkey_eqb_eq) in Ek; discriminate).
        exists mid'. rewrite (g_set_neq _ tokkey_eqb_eq) by exact N. rewrite (g_rm_neq _ tokkey_eqb_eq) by exact N. exact Gm.
    + inversion H; subst. exists (i_mid m). apply (g_set_eq _ tokkey_eqb_eq).
  - intros d q r w t c H. simpl in H. apply in_app_iff in H as [H | [H | []]]; [eapply D; eauto | discriminate].
  - intros d q r tok H. simpl in H |- *. apply in_app_iff in H as [H | [H | []]].
    + destruct (E _ _ _ _ H) as [mid' Gm].
      destruct (tokkey_eqb pk (r, tok)) eqn:Ek.
      * apply tokkey_eqb_eq in Ek. rewrite <- Ek in Gm. congruence.
      * assert (N : (r, tok) <> pk) by (intros N; rewrite N, (eqb_refl' _ tokkey_eqb_eq) in Ek; discriminate).
        exists mid'. rewrite (g_set_neq _ tokkey_eqb_eq) by exact N. exact Gm.
    + inversion H; subst. exists (i_mid m). apply (g_set_eq _ tokkey_eqb_eq).
Qed.
Lemma Q_mm_process_request m s : Q s -> Q (_process_request m s).
Proof.
  intros HQ. rewrite _process_request_eq. apply (walk_process_request Q_keeps Q_send_message Q_start).
  destruct (i_type m); try exact HQ. apply Q_open_piggy; exact HQ.
Qed.

Lemma Q_on_timeout r tok s : Q s -> aget tokkey_eqb (r, tok) (piggy s) <> None ->
  (forall d q, ~ In (d, q, TEmptyAck r tok) (timers s)) -> Q (on_timeout r tok s).
Proof.
  intros HQ HG HN. unfold on_timeout. destruct (aget tokkey_eqb (r, tok) (piggy s)) as [[mid h]|]; [|contradiction].
  unfold _send_empty_ack. apply Q_send_initially; [|simpl; intros; discriminate].
  apply Q_set_piggy_other; [exact HQ|]. intros d q r' tok' H.
  apply (g_rm_neq _ tokkey_eqb_eq). intros N. inversion N; subst. apply (HN _ _ H).
Qed.

Lemma Q_dispatch_rest m s : Q s -> Q (dispatch_rest m s).
Proof.
  intros HQ.
  assert (Q1 : Q (if is_ackrst (i_type m) then _remove_exchange (i_remote m) (i_mid m) s else s))
    by (destruct (is_ackrst (i_type m)); [apply Q_remove_exchange; exact HQ | exact HQ]).
  apply dispatch_rest_ind.
  - intros _. exact Q1.
  - intros _ _. apply Q_send_initially; [exact Q1 | discriminate].
  - intros _ _. apply Q_mm_process_request; exact HQ.
Qed.

Lemma Q_dispatch_message m s : Inv s -> Q s -> Q (dispatch_message m s).
Proof.
  intros HI HQ. apply dispatch_message_ind.
  - intros _. apply Q_dispatch_rest; exact HQ.
  - intros _ _. apply Q_dispatch_rest. revert HQ. unfold insert_key. qframe.
  - intros; exact HQ.
  - intros r w _ G. apply Q_send_initially; [exact HQ|]. intros Hc.
    destruct HI as (_ & _ & I3 & _). destruct (I3 _ _ _ G) as (_ & _ & Ha). rewrite Hc in Ha. discriminate.
Qed.

Lemma Q_fire s : Inv s -> Q s -> Q (fire s).
Proof.
  intros HI HQ. apply fire_ind; [exact HI | exact HQ | ..].
  - intros. revert HQ. qframe.
  - intros d q r tok Hin _. pose proof HQ as (_ & _ & _ & _ & E & _). destruct (E _ _ _ _ Hin) as [mid Gm].
    apply Q_on_timeout; [apply Q_cancel; revert HQ; qframe | simpl; congruence |].
    intros d' q' H. simpl in H. apply filter_In in H as [H Hq]. simpl in Hq.
    destruct (E _ _ _ _ H) as [mid' Gm']. rewrite Gm in Gm'. inversion Gm'; subst. rewrite Z.eqb_refl in Hq. discriminate.
  - intros d q r w t c Hin _ _. apply Q_retransmit; [apply Q_cancel; revert HQ; qframe|].
    destruct HQ as (_ & _ & _ & D & _). simpl. rewrite (D _ _ _ _ _ _ Hin). discriminate.
Qed.

Lemma Q_advance d s : Inv s -> Q s -> Q (advance d s).
Proof.
  intros HI HQ. apply (advance_ind Q); [exact Q_fire | | exact HI | exact HQ].
  intros s1 v _ Q1 _. revert Q1. qframe.
Qed.

Lemma Q_step s e : Inv s -> Q s -> Q (step s e).
Proof.
  intros HI HQ. destruct e as [m | | d | sid a | sid x | r b | r]; simpl.
  - (* Recv *) apply Q_dispatch_message; assumption.
  - (* Fire *) apply Q_fire; assumption.
  - (* Advance *) apply Q_advance; assumption.
  - (* Respond *) apply (walk_handler Q_keeps Q_send_message); exact HQ.
  - (* RaiseIn *) apply (walk_handler Q_keeps Q_send_message); exact HQ.
  - (* Refuse *) revert HQ. qframe.
  - (* NetError *) apply Q_mm_dispatch_error; exact HQ.
Qed.

Lemma Q_init mid0 u : Q (init mid0 u).
Proof.
  unfold Q, E0, E1, E2, E3, P1, NX, init; simpl. split; [constructor|].
  split; [intros k h []|]. split; [intros k1 h1 k2 h2 []|]. split; [intros d q r w t c []|]. split; [intros d q r tok []|].
  intros t e [].
Qed.

Lemma Q_run evs : forall s, Inv s -> Q s -> Q (run s evs).
Proof. exact (run_keeps Q Q_step evs). Qed.

Lemma no_exception_from s evs : Inv s -> Q s -> forall t e, ~ In (Exn t e) (outs (run s evs)).
Proof. intros HI HQ. destruct (Q_run evs s HI HQ) as (_ & _ & _ & _ & _ & F). exact F. Qed.

(* handles fresh and distinct: cancelling one timer cannot take another opportunity's empty-ACK timer with it *)
Definition handle_of (t : Z * Z * tkind) : Z := snd (fst t).
Definition handles_below (s : st) : Prop := forall t, In t (timers s) -> handle_of t < tseq s.
Definition handles_distinct (s : st) : Prop := NoDup (map handle_of (timers s)).
Definition xhandles_below (s : st) : Prop := forall k h, In (k, h) (exchanges s) -> h < tseq s.
Definition xhandles_retransmit (s : st) : Prop := forall k h d kind, In (k, h) (exchanges s) -> In (d, h, kind) (timers s) ->
  exists r w t c, kind = TRetransmit r w t c.
Definition piggy_timely (s : st) : Prop := forall r tok mid h, In ((r, tok), (mid, h)) (piggy s) ->
  exists d D q, In (d, h, TEmptyAck r tok) (timers s) /\ In (D, q, (r, mid)) (forgets s) /\ d < D.
Definition Timely (s : st) : Prop := handles_below s /\ handles_distinct s /\ xhandles_below s /\ xhandles_retransmit s /\ piggy_timely s.

Lemma timely_frame s s' : timers s' = timers s -> tseq s' = tseq s -> exchanges s' = exchanges s -> piggy s' = piggy s ->
  forgets s' = forgets s -> Timely s -> Timely s'.
Proof. unfold Timely, handles_below, handles_distinct, xhandles_below, xhandles_retransmit, piggy_timely. intros -> -> -> -> ->. tauto. Qed.
Ltac tframe := apply timely_frame; reflexivity.

(* cancelling a handle that no piggy-back opportunity holds *)
Lemma timely_cancel h s : Timely s -> (forall r tok mid, ~ In ((r, tok), (mid, h)) (piggy s)) -> Timely (cancel h s).
Proof.
  intros (A & B & C & D & E) HN. repeat split.
  - intros t H. simpl in H. apply filter_In in H as [H _]. apply (A _ H).
  - unfold handles_distinct; simpl. apply NoDup_map_filter. exact B.
  - exact C.
  - intros k h' d kind H1 H2. simpl in H2. apply filter_In in H2 as [H2 _]. eapply D; eauto.
  - intros r tok mid h' H. simpl in H. destruct (E _ _ _ _ H) as (d & D' & q & T & F & L).
    exists d, D', q. split; [|auto]. simpl. apply filter_In. split; [exact T|]. simpl.
    apply negb_true_iff, Z.eqb_neq. intros N. subst h'. apply (HN _ _ _ H).
Qed.
(* a handle registered in the exchange table is not held by any opportunity *)
Lemma xh_not_piggy k h s : Timely s -> In (k, h) (exchanges s) -> forall r tok mid, ~ In ((r, tok), (mid, h)) (piggy s).
Proof.
  intros (_ & _ & _ & D & E) H r tok mid HP. destruct (E _ _ _ _ HP) as (d & _ & _ & T & _).
  destruct (D _ _ _ _ H T) as (r' & w & t & c & X). discriminate.
Qed.
Lemma timely_set_exchanges_rm k s : Timely s -> Timely (set_exchanges (aremove key_eqb k (exchanges s)) s).
Proof.
  intros (A & B & C & D & E). repeat split; auto.
  - intros k' h H. simpl in H. apply (in_rm _ key_eqb_eq) in H as [H _]. eapply C; eauto.
  - intros k' h d kind H1 H2. simpl in H1. apply (in_rm _ key_eqb_eq) in H1 as [H1 _]. eapply D; eauto.
Qed.
Lemma timely_rm_exchange k h s : Timely s -> In (k, h) (exchanges s) ->
  Timely (cancel h (set_exchanges (aremove key_eqb k (exchanges s)) s)).
Proof.
  intros HW HI. apply timely_cancel; [apply timely_set_exchanges_rm; exact HW|]. simpl. apply (xh_not_piggy k h s HW HI).
Qed.

Lemma timely_call_later d kind s : Timely s -> Timely (fst (call_later d kind s)).
Proof.
  intros (A & B & C & D & E). unfold call_later; simpl. repeat split.
  - intros t H. simpl in H |- *. apply in_app_iff in H as [H | [H | []]]; [specialize (A _ H); lia | subst t; unfold handle_of; simpl; lia].
  - unfold handles_distinct; simpl. rewrite map_app. simpl. apply NoDup_snoc; [exact B|].
    intros H. apply in_map_iff in H as (t & Et & H). specialize (A _ H). unfold handle_of in *. simpl in *. lia.
  - intros k h H. simpl in H |- *. specialize (C _ _ H). lia.
  - intros k h d' kind' H1 H2. simpl in H1, H2. apply in_app_iff in H2 as [H2 | [H2 | []]]; [eapply D; eauto|].
    inversion H2; subst. specialize (C _ _ H1). lia.
  - intros r tok mid h H. simpl in H. destruct (E _ _ _ _ H) as (d0 & D0 & q & T & F & L).
    exists d0, D0, q. simpl. split; [apply in_app_iff; left; exact T | auto].
Qed.
Lemma timely_arm_retransmit r w t c s : Timely s -> Timely (arm_retransmit r w t c s).
Proof.
  intros HW. destruct (timely_call_later t (TRetransmit r w t c) s HW) as (A & B & C & D & E).
  unfold arm_retransmit. repeat split; auto.
  - intros k h H. simpl in H |- *. destruct (in_set _ key_eqb_eq _ _ _ _ H) as [X | X]; [inversion X; subst; lia | apply (C _ _ X)].
  - intros k h d kind H1 H2. simpl in H1, H2.
    destruct (in_set _ key_eqb_eq _ _ _ _ H1) as [X | X]; [|eapply D; eauto].
    inversion X; subst. apply in_app_iff in H2 as [H2 | [H2 | []]]; [|inversion H2; subst; eauto].
    destruct HW as (A0 & _). specialize (A0 _ H2). unfold handle_of in A0; simpl in A0. lia.
Qed.

Lemma timely_emit o s : Timely s -> Timely (emit o s). Proof. tframe. Qed.
Lemma timely_stop_incoming ik sid s : Timely s -> Timely (stop_incoming ik sid s). Proof. tframe. Qed.
Lemma timely_mm_dispatch_error r s : Timely s -> Timely (mm_dispatch_error r s).
Proof.
  intros HW. apply (mm_dispatch_error_ind (fun s' => Timely s' /\ piggy s' = piggy s)).
  - intros ik sid s0 [W0 P0]. split; [apply timely_stop_incoming; exact W0 | exact P0].
  - intros s0 k h [W0 P0] Hin. split; [|exact P0].
    apply timely_cancel; [apply timely_set_exchanges_rm; exact W0|]. simpl. rewrite P0. apply (xh_not_piggy k h s HW Hin).
  - intros s0 [W0 P0] _. split; [revert W0; tframe | exact P0].
  - split; [exact HW | reflexivity].
Qed.
Lemma timely_send_via r w s : Timely s -> Timely (_send_via_transport r w s).
Proof.
  intros HW. unfold _send_via_transport, refusal, send_log.
  destruct (is_refused r _); [apply timely_mm_dispatch_error, timely_emit, timely_emit; exact HW | apply timely_emit; exact HW].
Qed.
Lemma timely_store r w s : Timely s -> Timely (_store_response_for_duplicates r w s).
Proof.
  unfold _store_response_for_duplicates. destruct (negb (is_ackrst (w_type w))); [auto|].
  destruct (aget key_eqb (r, w_mid w) (recent s)); [tframe | auto].
Qed.
Lemma timely_add_exchange r w s : Timely s -> Timely (_add_exchange r w s).
Proof.
  intros HW. rewrite _add_exchange_eq. apply timely_arm_retransmit.
  destruct (aget Z.eqb r (backlogs s)); [exact HW | revert HW; tframe].
Qed.
Lemma timely_send_initially r w mon s : Timely s -> Timely (_send_initially r w mon s).
Proof.
  intros HW. unfold _send_initially. destruct (w_type w); try (apply timely_send_via, timely_store; exact HW).
  destruct mon; simpl; [apply timely_send_via, timely_store, timely_add_exchange; exact HW | apply timely_emit; exact HW].
Qed.

Lemma timely_continue_backlog_loop fuel r : forall s, Timely s -> Timely (_continue_backlog_loop fuel r s).
Proof.
  induction fuel as [|fuel IH]; intros s HW; simpl; [exact HW|].
  destruct (has_exchange_with r s); [exact HW|].
  destruct (aget Z.eqb r (backlogs s)) as [[|w rest]|]; [revert HW; tframe | | exact HW].
  apply IH, timely_send_initially. revert HW. tframe.
Qed.
Lemma timely_remove_exchange r mid s : Timely s -> Timely (_remove_exchange r mid s).
Proof.
  intros HW. unfold _remove_exchange. destruct (aget key_eqb (r, mid) (exchanges s)) as [h|] eqn:G; [|exact HW].
  pose proof (timely_rm_exchange _ _ _ HW (g_in _ key_eqb_eq _ _ _ G)) as W1.
  unfold _continue_backlog. destruct (aget Z.eqb r _); [apply timely_continue_backlog_loop; exact W1 | apply timely_emit; exact W1].
Qed.
Lemma timely_retransmit r w t c s : Timely s -> Timely (_retransmit r w t c s).
Proof.
  intros HW. rewrite _retransmit_eq. destruct (aget key_eqb (r, w_mid w) (exchanges s)) as [h|] eqn:G; [|apply timely_emit; exact HW].
  pose proof (timely_rm_exchange _ _ _ HW (g_in _ key_eqb_eq _ _ _ G)) as W1. cbv zeta.
  destruct (c <? MAX_RETRANSMIT); [apply timely_send_via, timely_arm_retransmit; exact W1|].
  destruct (aget Z.eqb r (backlogs s)); [|apply timely_emit; exact W1]. apply (tm_dispatch_error_ind Timely); [exact timely_stop_incoming|]. revert W1. tframe.
Qed.

Lemma timely_set_piggy_rm pk s : Timely s -> Timely (set_piggy (aremove tokkey_eqb pk (piggy s)) s).
Proof.
  intros (A & B & C & D & E). repeat split; auto.
  intros r tok mid h H. simpl in H. apply (in_rm _ tokkey_eqb_eq) in H as [H _]. apply (E _ _ _ _ H).
Qed.
(* a pending timer whose handle an opportunity holds is that opportunity's empty-ACK timer *)
Lemma piggy_timer d h kind r tok mid s : Timely s -> In (d, h, kind) (timers s) -> In ((r, tok), (mid, h)) (piggy s) ->
  kind = TEmptyAck r tok.
Proof.
  intros (_ & B & _ & _ & E) T HP. destruct (E _ _ _ _ HP) as (d' & _ & _ & T' & _).
  assert (X : (d, h, kind) = (d', h, TEmptyAck r tok)) by (apply (NoDup_map_inj_in handle_of _ _ _ B T T'); reflexivity).
  inversion X; reflexivity.
Qed.
Lemma timely_ack_timer d h r tok s : Timely s -> In (d, h, TEmptyAck r tok) (timers s) ->
  Timely (cancel h (set_piggy (aremove tokkey_eqb (r, tok) (piggy s)) s)).
Proof.
  intros HW T. apply timely_cancel; [apply timely_set_piggy_rm; exact HW|].
  intros r' tok' mid' H. simpl in H. apply (in_rm _ tokkey_eqb_eq) in H as [H N]. apply N. simpl.
  pose proof (piggy_timer _ _ _ _ _ _ _ HW T H) as X. inversion X; reflexivity.
Qed.
Lemma timely_pop_piggy r tok mid h s : Timely s -> In ((r, tok), (mid, h)) (piggy s) ->
  Timely (cancel h (set_piggy (aremove tokkey_eqb (r, tok) (piggy s)) s)).
Proof.
  intros HW HI. pose proof HW as (_ & _ & _ & _ & E). destruct (E _ _ _ _ HI) as (d & _ & _ & T & _).
  apply (timely_ack_timer d); assumption.
Qed.

Lemma timely_send_message m a s : Timely s -> Timely (send_message m a s).
Proof.
  intros HW. apply send_message_ind; [exact HW | ..].
  - intros mid h w G _ _. apply timely_send_initially, (timely_pop_piggy _ _ mid); [exact HW | apply (g_in _ tokkey_eqb_eq), G].
  - intros t _ _. apply timely_send_initially. revert HW. tframe.
  - intros b _. revert HW. tframe.
Qed.

Lemma timely_keeps : Frame (fun s s' => Timely s -> Timely s').
Proof. split; [auto | auto | intros s s' _ Ts _ F T X _ Pg _; apply timely_frame; assumption]. Qed.

Lemma timely_add_piggy r tok mid h s : Timely s ->
  (exists d D q, In (d, h, TEmptyAck r tok) (timers s) /\ In (D, q, (r, mid)) (forgets s) /\ d < D) ->
  Timely (set_piggy (aset tokkey_eqb (r, tok) (mid, h) (piggy s)) s).
Proof.
  intros (A & B & C & D & E) New. repeat split; auto.
  intros r' tok' mid' h' H. simpl in H. destruct (in_set _ tokkey_eqb_eq _ _ _ _ H) as [X | X]; [|apply (E _ _ _ _ X)].
  inversion X; subst. exact New.
Qed.
Lemma timely_open_piggy m s : Timely s -> (exists D q, In (D, q, msg_key m) (forgets s) /\ now s + EMPTY_ACK_DELAY < D) -> Timely (open_piggy m s).
Proof.
  intros HW (D0 & q0 & F0 & L0). unfold open_piggy.
  pose proof (timely_call_later EMPTY_ACK_DELAY (TEmptyAck (i_remote m) (i_token m)) s HW) as W1.
  set (s1 := fst (call_later _ _ s)) in *. cbv zeta.
  assert (New : In (now s + EMPTY_ACK_DELAY, tseq s, TEmptyAck (i_remote m) (i_token m)) (timers s1))
    by (apply in_app_iff; right; left; reflexivity).
  destruct (aget tokkey_eqb _ (piggy s)) as [[mo old]|] eqn:G; apply timely_add_piggy; try exact W1.
  - apply (timely_pop_piggy (i_remote m) (i_token m) mo old s1 W1), (g_in _ tokkey_eqb_eq), G.
  - exists (now s + EMPTY_ACK_DELAY), D0, q0. split; [|split; [exact F0 | exact L0]].
    (* the older opportunity's handle is older than the new timer's, which therefore stays *)
    apply filter_In. split; [exact New|]. simpl. apply negb_true_iff, Z.eqb_neq.
    destruct HW as (A & _ & _ & _ & E). destruct (E _ _ _ _ (g_in _ tokkey_eqb_eq _ _ _ G)) as (d & _ & _ & Tm & _).
    specialize (A _ Tm). unfold handle_of in A; simpl in A. lia.
  - exists (now s + EMPTY_ACK_DELAY), D0, q0. split; [exact New | split; [exact F0 | exact L0]].
Qed.
Lemma timely_mm_process_request m s : Timely s ->
  (i_type m = CON -> exists D q, In (D, q, msg_key m) (forgets s) /\ now s + EMPTY_ACK_DELAY < D) ->
  Timely (_process_request m s).
Proof.
  intros HW Hpre. rewrite _process_request_eq. apply (walk_process_request timely_keeps timely_send_message); [intros sid m0 s0; apply timely_emit|].
  destruct (i_type m); try exact HW. apply timely_open_piggy; [exact HW | apply Hpre; reflexivity].
Qed.

Lemma timely_dispatch_rest m s : Timely s ->
  (is_request (i_code m) = true -> i_type m = CON -> exists D q, In (D, q, msg_key m) (forgets s) /\ now s + EMPTY_ACK_DELAY < D) ->
  Timely (dispatch_rest m s).
Proof.
  intros HW Hpre.
  assert (W1 : Timely (if is_ackrst (i_type m) then _remove_exchange (i_remote m) (i_mid m) s else s))
    by (destruct (is_ackrst (i_type m)); [apply timely_remove_exchange; exact HW | exact HW]).
  apply dispatch_rest_ind.
  - intros _. exact W1.
  - intros _ _. apply timely_send_initially; exact W1.
  - intros Rq _. apply timely_mm_process_request; [exact HW | apply Hpre; exact Rq].
Qed.

Lemma timely_insert_key k s : Timely s -> Timely (insert_key k s).
Proof.
  intros (A & B & C & D & E). unfold insert_key. repeat split; auto.
  - intros t H. simpl in H |- *. specialize (A _ H). lia.
  - intros k' h H. simpl in H |- *. specialize (C _ _ H). lia.
  - intros r tok mid h H. simpl in H. destruct (E _ _ _ _ H) as (d & D0 & q & T & F & L).
    exists d, D0, q. simpl. split; [exact T|]. split; [apply in_app_iff; left; exact F | exact L].
Qed.

Lemma timely_dispatch_message m s : Timely s -> Timely (dispatch_message m s).
Proof.
  intros HW. apply dispatch_message_ind.
  - intros Rq. apply timely_dispatch_rest; [exact HW | intros; congruence].
  - intros _ _. apply timely_dispatch_rest; [apply timely_insert_key; exact HW|].
    intros _ _. exists (now s + EXCHANGE_LIFETIME), (tseq s). unfold insert_key; simpl.
    split; [apply in_app_iff; right; left; reflexivity | unfold EMPTY_ACK_DELAY, EXCHANGE_LIFETIME; lia].
  - intros; exact HW.
  - intros r w _ _. apply timely_send_initially; exact HW.
Qed.

Lemma timely_fire s : Inv s -> Timely s -> Timely (fire s).
Proof.
  intros HI HW. apply fire_ind; [exact HI | exact HW | ..].
  - (* expiry of k: no opportunity created for k is still there, its empty-ACK timer would be due earlier *)
    intros d q k v Hin Hle _. destruct HI as (_ & I2 & _). destruct HW as (A & B & C & D & E). repeat split; auto.
    intros r tok mid h H. simpl in H. destruct (E _ _ _ _ H) as (d' & D' & q' & T & F & L).
    exists d', D', q'. simpl. split; [exact T|]. split; [|exact L].
    apply filter_In. split; [exact F|]. simpl. apply negb_true_iff, key_eqb_neq. intros N. subst k.
    assert (X : (D', q', (r, mid)) = (d, q, (r, mid))) by (apply (NoDup_map_inj_in snd _ _ _ I2 F Hin); reflexivity). inversion X; subst.
    assert (d <= d') by (eapply Hle; apply in_all_timer; exact T). lia.
  - intros d q r tok Hin _. set (s1 := set_now (Z.max (now s) d) s). assert (W1 : Timely s1) by (revert HW; tframe).
    unfold on_timeout. simpl. destruct (aget tokkey_eqb (r, tok) (piggy s)) as [[mid h]|] eqn:G.
    + unfold _send_empty_ack.
      change (set_piggy _ (cancel q s1)) with (cancel q (set_piggy (aremove tokkey_eqb (r, tok) (piggy s1)) s1)).
      apply timely_send_initially, (timely_ack_timer d); [exact W1 | exact Hin].
    + apply timely_emit, timely_cancel; [exact W1|]. intros r' tok' mid HP.
      pose proof (piggy_timer _ _ _ _ _ _ _ W1 Hin HP) as X. inversion X; subst.
      apply (g_none_notin _ tokkey_eqb_eq _ _ G _ HP).
  - intros d q r w t c Hin _ _. set (s1 := set_now (Z.max (now s) d) s). assert (W1 : Timely s1) by (revert HW; tframe).
    apply timely_retransmit, timely_cancel; [exact W1|]. intros r' tok mid HP.
    pose proof (piggy_timer _ _ _ _ _ _ _ W1 Hin HP). discriminate.
Qed.

Lemma timely_advance d s : Inv s -> Timely s -> Timely (advance d s).
Proof.
  intros HI HW. apply (advance_ind Timely); [exact timely_fire | | exact HI | exact HW].
  intros s1 v _ W1 _. revert W1. tframe.
Qed.
Lemma timely_step s e : Inv s -> Timely s -> Timely (step s e).
Proof.
  intros HI HW. destruct e as [m | | d | sid a | sid x | r b | r]; simpl.
  - (* Recv *) apply timely_dispatch_message; exact HW.
  - (* Fire *) apply timely_fire; assumption.
  - (* Advance *) apply timely_advance; assumption.
  - (* Respond *) apply (walk_handler timely_keeps timely_send_message); exact HW.
  - (* RaiseIn *) apply (walk_handler timely_keeps timely_send_message); exact HW.
  - (* Refuse *) revert HW. tframe.
  - (* NetError *) apply timely_mm_dispatch_error; exact HW.
Qed.
Lemma timely_init mid0 u : Timely (init mid0 u).
Proof.
  unfold Timely, handles_below, handles_distinct, xhandles_below, xhandles_retransmit, piggy_timely, init; simpl. split; [intros t []|]. split; [constructor|].
  split; [intros k h []|]. split; [intros k h d kind []|]. intros r tok mid h [].
Qed.
Lemma timely_reachable mid0 u evs : Timely (run (init mid0 u) evs).
Proof. apply (run_keeps Timely timely_step); [apply Inv_init | apply timely_init]. Qed.
