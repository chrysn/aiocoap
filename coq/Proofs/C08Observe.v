(* C08 — Observe numbering and token of notifications for one pass of the render task's loop; over whole histories: C08Wire.v. *)
From Verif Require Import Lib.Py Lib.Tactics Model.C08 Proofs.C08.
Open Scope Z_scope.

(* whatever on_event hands to the message layer carries the registration's token and endpoint, the given Observe value,
   and is recorded (in order) in the ghost production list *)
Lemma emit_spec s g code o pk pv :
  exists m, s_prod (emit s g code o pk pv) = m :: s_prod s /\
            m_token m = g_token g /\ m_remote m = g_remote g /\ m_observe m = o /\ m_gid m = g_gid g /\ m_code m = code /\ m_pk m = pk /\ m_pv m = pv.
Proof. unfold emit. destruct (send_message_cases s (mkmsg (g_remote g) NON 0 (g_token g) code o pk pv (g_gid g)) (g_con g) (g_gid g)) as (t & mid & E & _).
  eexists. split; [exact E | repeat split; reflexivity]. Qed.

(* the first response of an accepted registration carries Observe 0 and the loop starts with next_observation_number = 0 *)
Lemma first_response_observe_zero s g code pk pv : successful code = true ->
  first_render_done s g (RResp code pk pv) = run_loop 2 (emit s (set_next g 0) code (Some 0) pk pv) (set_next g 0).
Proof. intros H. unfold first_render_done. rewrite H. reflexivity. Qed.
(* every further notification that is not the last one carries the previous number plus one, and the loop continues with it *)
Lemma notification_observe_next cont s g code pk pv : g_late g = false -> successful code = true ->
  after_response cont s g (RResp code pk pv) =
  cont (emit s (set_next g (g_next g + 1)) code (Some (g_next g + 1)) pk pv) (set_next g (g_next g + 1)).
Proof. intros H1 H2. unfold after_response. rewrite H1, H2. reflexivity. Qed.
(* a last notification carries no Observe option *)
Lemma final_notification_no_observe cont s g code pk pv : g_late g || negb (successful code) = true ->
  after_response cont s g (RResp code pk pv) = cancel_cb (remove_reg (emit s g code None pk pv) (g_gid g)) (g_gid g).
Proof. intros H. unfold after_response. rewrite H. reflexivity. Qed.
(* the lossy latest-value future: a burst of triggers before the task runs leaves only the last value (and a sticky is_last) *)
Lemma trigger_overwrites s gid g tv1 l1 tv2 l2 : find_reg s gid = Some g ->
  find_reg (trigger (trigger s gid tv1 l1) gid tv2 l2) gid = Some (set_trig g (Some tv2) (g_late g || l1 || l2)).
Proof.
  intros H. pose proof (find_reg_In _ _ _ H) as [_ Hg]. subst gid.
  unfold trigger at 2. rewrite H. set (g1 := set_trig g (Some tv1) (g_late g || l1)).
  assert (H1 : find_reg (put_reg s g1) (g_gid g) = Some g1) by exact (find_reg_put_reg s g g1 H).
  unfold trigger. rewrite H1. exact (find_reg_put_reg _ g1 (set_trig g1 (Some tv2) (g_late g1 || l2)) H1).
Qed.
