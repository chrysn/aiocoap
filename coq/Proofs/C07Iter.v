(* C07 — the lossy async iterator over a WHOLE run, for a consumer that may be busy between two __anext__ calls:
   it yields, in order, a subsequence of what was pushed, and a consumer that keeps pulling ends up with the latest item
   (a notification or the end signal).  Model/C07.v's anext_drain is the instance with an instantaneous loop body. *)
From Verif Require Import Lib.Py Lib.Tactics Model.C07 Model.C07Iter Proofs.C07.
Open Scope Z_scope.

Lemma pushed_cons o r : pushed (o :: r) = pushed [o] ++ pushed r.
Proof. destruct o; reflexivity. Qed.

Lemma gstep_sub g o : Subseq (snd (gstep g o) ++ pending (fst (gstep g o))) (pending g ++ pushed [o]).
Proof.
  destruct o as [x| |]; cbn [gstep pushed fst snd app].
  - destruct g as [[a|] [b|]|[b|]|]; cbn; solve_sub.
  - rewrite app_nil_r. destruct g as [[a|] [b|]|[b|]|]; cbn; try destruct (is_err a); cbn; solve_sub.
  - rewrite app_nil_r. destruct g as [[a|] [b|]|[b|]|]; cbn; try destruct (is_err b); cbn; solve_sub.
Qed.

Theorem iterator_run_subsequence : forall ops g, Subseq (grun g ops) (pending g ++ pushed ops).
Proof.
  induction ops as [|o ops IH]; intros g; [cbn; constructor|].
  cbn [grun]. pose proof (gstep_sub g o) as S. destruct (gstep g o) as [g' ys]. cbn [fst snd] in S.
  apply (Subseq_trans (ys ++ pending g' ++ pushed ops)).
  - apply Subseq_app_l. apply IH.
  - rewrite pushed_cons, !app_assoc. apply Subseq_app_r. exact S.
Qed.

Fixpoint lasto {A} (l : list A) : option A :=
  match l with [] => None | [x] => Some x | _ :: r => lasto r end.
Lemma lasto_cons {A} (x : A) l : l <> [] -> lasto (x :: l) = lasto l.
Proof. destruct l; [congruence|reflexivity]. Qed.
Lemma lasto_none {A} (l : list A) : lasto l = None -> l = [].
Proof.
  induction l as [|x l IH]; [reflexivity|]. destruct l as [|y l]; [discriminate|].
  rewrite lasto_cons by discriminate. intros H. specialize (IH H). discriminate.
Qed.
Lemma lasto_app {A} (a b : list A) : lasto (a ++ b) = match lasto b with Some z => Some z | None => lasto a end.
Proof.
  induction a as [|x a IH]; cbn [app]; [destruct (lasto b); reflexivity|].
  destruct (a ++ b) eqn:E.
  - apply app_eq_nil in E as [-> ->]. reflexivity.
  - rewrite lasto_cons by discriminate. rewrite IH.
    destruct (lasto b) eqn:Eb; [reflexivity|]. apply lasto_none in Eb. subst b. rewrite app_nil_r in E.
    rewrite lasto_cons; [reflexivity|]. rewrite E. discriminate.
Qed.
Lemma lasto_snoc {A} (l : list A) x : lasto (l ++ [x]) = Some x.
Proof. rewrite lasto_app. reflexivity. Qed.
Lemma lasto_subseq {A} (l : list A) x : lasto l = Some x -> Subseq [x] l.
Proof.
  induction l as [|y l IH]; [discriminate|]. destruct l as [|z l].
  - cbn. intros H. inversion H. apply sub_take. constructor.
  - rewrite lasto_cons by discriminate. intros H. apply sub_skip. apply IH. exact H.
Qed.

Fixpoint err_last (l : list item) : bool :=
  match l with
  | [] => true
  | x :: r => match r with [] => true | _ => negb (is_err x) && err_last r end
  end.
Lemma err_last_tail x l : err_last (x :: l) = true -> err_last l = true.
Proof. destruct l; cbn; auto. intros H. apply andb_prop in H. tauto. Qed.
Lemma err_last_head x y l : err_last (x :: y :: l) = true -> is_err x = false.
Proof. cbn. intros H. apply andb_prop in H as [H _]. destruct (is_err x); auto; discriminate. Qed.
(* err_last: an end signal is the last thing ever pushed (ClientObservation.error cancels the observation); it survives
   dropping items, which is all a step does to what is still to come *)
Lemma err_last_sub a b : Subseq a b -> err_last b = true -> err_last a = true.
Proof.
  induction 1 as [l|x l1 l2 H IH|x l1 l2 H IH]; intros E; [reflexivity|apply IH, (err_last_tail x), E|].
  destruct l1 as [|y l1]; [reflexivity|]. destruct l2 as [|z l2]; [inversion H|].
  change (negb (is_err x) && err_last (y :: l1) = true). rewrite (err_last_head _ _ _ E), (IH (err_last_tail _ _ E)). reflexivity.
Qed.

Definition reachable (g : gstate) : Prop := forall b, g <> GBlocked None (Some b).
Definition tidy (g : gstate) (P : list item) : Prop :=
  (err_last (pending g ++ P) = true /\ (g = GFinished -> P = [])) /\ reachable g.

Lemma gstep_reachable g o : reachable g -> reachable (fst (gstep g o)).
Proof.
  intros R b. destruct o as [x| |]; cbn [gstep fst].
  - destruct g as [[a|] [c|]|[c|]|]; cbn; congruence.
  - destruct g as [[a|] [c|]|[c|]|]; cbn; try destruct (is_err a); cbn; try congruence; try apply R.
  - destruct g as [[a|] [c|]|[c|]|]; cbn; try destruct (is_err c); cbn; try congruence; try apply R.
Qed.

Lemma gstep_tidy g o r : tidy g (pushed (o :: r)) -> tidy (fst (gstep g o)) (pushed r).
Proof.
  intros [[E F] Re]. split; [split|apply gstep_reachable; exact Re].
  - refine (err_last_sub _ _ _ E). rewrite pushed_cons, app_assoc. apply Subseq_app_r.
    eapply Subseq_trans; [|apply gstep_sub]. apply (Subseq_app [] _ _ _ (sub_nil _) (Subseq_refl _)).
  - assert (L : forall a rest, is_err a = true -> err_last (a :: rest ++ pushed r) = true -> pushed r = []).
    { intros a rest Ea H. destruct (pushed r) as [|i l]; [reflexivity|]. destruct rest; apply err_last_head in H; congruence. }
    destruct o as [x| |], g as [[a|] s|[b|]|]; cbn [gstep gpush gwake gpull fst pushed pending app] in *;
      try discriminate; try (intros _; exact (F eq_refl)); try (specialize (F eq_refl); discriminate).
    + destruct (is_err a) eqn:Ea; [intros _|discriminate]. exact (L a _ Ea E).
    + destruct (is_err b) eqn:Eb; [intros _|discriminate]. exact (L b [] Eb E).
Qed.

Lemma gstep_last g o r : tidy g (pushed (o :: r)) ->
  lasto (snd (gstep g o) ++ pending (fst (gstep g o))) = lasto (pending g ++ pushed [o]).
Proof.
  intros [[E F] _]. destruct o as [x| |]; cbn [gstep fst snd pushed app] in *.
  - destruct g as [[a|] [b|]|[b|]|]; cbn [gpush pending app]; try reflexivity. specialize (F eq_refl). discriminate.
  - rewrite app_nil_r. destruct g as [[a|] [b|]|[b|]|]; cbn [gwake pending app fst snd] in *; try reflexivity.
    + rewrite (err_last_head _ _ _ E). reflexivity.
    + destruct (is_err a); reflexivity.
  - rewrite app_nil_r. destruct g as [[a|] [b|]|[b|]|]; cbn [gpull pending app fst snd] in *; try reflexivity.
    destruct (is_err b); reflexivity.
Qed.

Lemma keep_pulling_flushes g : tidy g [] -> lasto (grun g keep_pulling) = lasto (pending g).
Proof.
  intros [[E _] Re]. rewrite app_nil_r in E. unfold keep_pulling.
  destruct g as [[a|] [b|]|[b|]|]; cbn [pending app] in *; try (exfalso; eapply Re; reflexivity).
  - pose proof (err_last_head _ _ _ E) as Ea. cbn. rewrite Ea. cbn. destruct (is_err b); reflexivity.
  - cbn. destruct (is_err a); reflexivity.
  - reflexivity.
  - cbn. destruct (is_err b); reflexivity.
  - reflexivity.
  - reflexivity.
Qed.

Theorem iterator_run_ends_with_latest : forall ops g, tidy g (pushed ops) ->
  lasto (grun g (ops ++ keep_pulling)) = lasto (pending g ++ pushed ops).
Proof.
  induction ops as [|o ops IH]; intros g G.
  - cbn [app pushed]. rewrite app_nil_r. apply keep_pulling_flushes. exact G.
  - cbn [app grun]. pose proof (gstep_tidy g o ops G) as G'. pose proof (gstep_last g o ops G) as L.
    destruct (gstep g o) as [g' ys]. cbn [fst snd] in *.
    rewrite lasto_app, (IH g' G'), <- lasto_app, app_assoc, lasto_app, L, <- lasto_app, <- app_assoc, <- pushed_cons. reflexivity.
Qed.

(* Model/C07.v's iterator is the instant consumer *)
Definition embed (it : iter) : gstate := if it_finished it then GFinished else GBlocked (it_w it) (it_s it).

Lemma push_is_gpush it x : it_started it = true -> (it_w it = None -> it_s it = None) ->
  embed (push it x) = gpush (embed it) x.
Proof.
  intros Hs Hw. unfold embed, push. destruct (it_finished it) eqn:Ef; [rewrite Ef; reflexivity|].
  destruct (it_w it) eqn:Ew; cbn; [reflexivity|]. rewrite (Hw eq_refl). reflexivity.
Qed.

(* one anext_drain = the loop wakes the consumer, whose body takes no time: it pulls again until it blocks *)
Lemma anext_drain_is_instant_consumer it : it_started it = true ->
  map yield (grun (embed it) [GWake; GPull; GPull]) = snd (anext_drain it)
  /\ (fst (gstep (fst (gstep (fst (gstep (embed it) GWake)) GPull)) GPull) = embed (fst (anext_drain it))
      \/ it_w it = None).
Proof.
  intros Hs. unfold embed, anext_drain. rewrite Hs. cbn [negb orb].
  destruct (it_finished it) eqn:Ef; [cbn; rewrite Ef; auto|].
  destruct (it_w it) as [a|] eqn:Ew; [|cbn; auto].
  cbn [grun gstep gwake]. destruct (is_err a) eqn:Ea; [cbn; auto|].
  destruct (it_s it) as [b|] eqn:Es; cbn; [destruct (is_err b); cbn; auto|auto].
Qed.
