(* C04 — proofs about Model/C04.v: the model's longer methods by cases; the walk through the methods around _send_initially,
   once for every relation that meets [Walk]; relation [Ext] (a method below the dispatch leaves the entry of a key of
   _recent_messages equal to the last ACK/RST sent under it, as cd09d80 arranged); the invariant [Inv] and the per-event
   relation [R]; the trace theorems. *)
From Verif Require Import Lib.Py Lib.PyLemmas Lib.Tactics Model.C04.
Import ListNotations.
Open Scope Z_scope.

Section AL.
  Context {K V : Type} (eqb : K -> K -> bool) (eqb_spec : forall a b, eqb a b = true <-> a = b).
  Notation get := (aget (V := V) eqb).
  Lemma eqb_refl' a : eqb a a = true. Proof. apply eqb_spec; reflexivity. Qed.
  Lemma eqb_neq' a b : a <> b -> eqb a b = false.
  Proof. intros N. destruct (eqb a b) eqn:E; [apply eqb_spec in E; contradiction | reflexivity]. Qed.
  Lemma g_in k v l : get k l = Some v -> In (k, v) l.
  Proof.
    induction l as [|[k' v'] l IH]; simpl; [discriminate|].
    destruct (eqb k k') eqn:E; intros H; [apply eqb_spec in E; inversion H; subst; left; reflexivity | right; auto].
  Qed.
  Lemma g_in_nodup k v l : NoDup (map fst l) -> In (k, v) l -> get k l = Some v.
  Proof.
    induction l as [|[k' v'] l IH]; simpl; intros ND HI; [contradiction|]. destruct HI as [HI | HI]; inversion ND; subst.
    - inversion HI; subst. rewrite eqb_refl'. reflexivity.
    - destruct (eqb k k') eqn:E; [|auto]. apply eqb_spec in E; subst k'. exfalso. apply H1.
      apply in_map_iff. exists (k, v). auto.
  Qed.
  Lemma g_app k l1 l2 : get k (l1 ++ l2) = match get k l1 with Some v => Some v | None => get k l2 end.
  Proof. induction l1 as [|[k2 v2] l IH]; simpl; [reflexivity|]. destruct (eqb k k2); auto. Qed.

  Lemma in_rm k (x : K * V) l : In x (aremove eqb k l) <-> In x l /\ fst x <> k.
  Proof.
    induction l as [|[k' v'] l IH]; simpl; [tauto|].
    destruct (eqb k k') eqn:E.
    - apply eqb_spec in E; subst k'. split.
      + intros H. apply IH in H. tauto.
      + intros [[H | H] N]; [subst x; simpl in N; congruence | apply IH; tauto].
    - simpl. split.
      + intros [H | H]; [subst x; simpl; split; [left; reflexivity|]; intros N; subst k'; rewrite eqb_refl' in E; discriminate | apply IH in H; tauto].
      + intros [[H | H] N]; [left; exact H | right; apply IH; tauto].
  Qed.
  Lemma g_rm_eq k l : get k (aremove eqb k l) = None.
  Proof. induction l as [|[k' v'] l IH]; simpl; [reflexivity|]. destruct (eqb k k') eqn:E; simpl; [|rewrite E]; auto. Qed.
  Lemma g_rm_neq k k' l : k' <> k -> get k' (aremove eqb k l) = get k' l.
  Proof.
    intros N. induction l as [|[k2 v2] l IH]; simpl; [reflexivity|].
    destruct (eqb k k2) eqn:E; simpl.
    - apply eqb_spec in E; subst k2. rewrite (eqb_neq' _ _ N). exact IH.
    - destruct (eqb k' k2); auto.
  Qed.
  Lemma nodup_rm k (l : list (K * V)) : NoDup (map fst l) -> NoDup (map fst (aremove eqb k l)).
  Proof.
    induction l as [|[k' v'] l IH]; simpl; intros ND; [constructor|]. inversion ND; subst.
    destruct (eqb k k'); simpl; [auto|]. constructor; [|auto].
    intros H. apply H1. apply in_map_iff in H as (x & E & H). apply in_rm in H as [H _]. apply in_map_iff. exists x; auto.
  Qed.

  Lemma g_rep_eq k v l : get k (areplace eqb k v l) = match get k l with Some _ => Some v | None => None end.
  Proof. induction l as [|[k' v'] l IH]; simpl; [reflexivity|]. destruct (eqb k k') eqn:E; simpl; rewrite E; auto. Qed.
  Lemma g_rep_neq k k' v l : k' <> k -> get k' (areplace eqb k v l) = get k' l.
  Proof.
    intros N. induction l as [|[k2 v2] l IH]; simpl; [reflexivity|].
    destruct (eqb k k2) eqn:E; simpl.
    - apply eqb_spec in E; subst k2. rewrite (eqb_neq' _ _ N). reflexivity.
    - destruct (eqb k' k2); auto.
  Qed.
  Lemma rep_same k v l : get k l = Some v -> areplace eqb k v l = l.
  Proof.
    induction l as [|[k2 v2] l IH]; simpl; [reflexivity|].
    destruct (eqb k k2) eqn:E; intros H; [inversion H; subst; reflexivity | rewrite IH; auto].
  Qed.
  Lemma in_rep k v (x : K * V) l : In x (areplace eqb k v l) -> x = (k, v) \/ In x l.
  Proof.
    induction l as [|[k' v'] l IH]; simpl; [tauto|]. destruct (eqb k k') eqn:E; simpl.
    - apply eqb_spec in E; subst k'. intros [H | H]; [left; symmetry; exact H | right; right; exact H].
    - intros [H | H]; [right; left; exact H | destruct (IH H) as [X | X]; [left; exact X | right; right; exact X]].
  Qed.

  Lemma g_set_eq k v l : get k (aset eqb k v l) = Some v.
  Proof.
    unfold aset. destruct (get k l) eqn:G; [rewrite g_rep_eq, G; reflexivity|].
    rewrite g_app, G. simpl. rewrite eqb_refl'. reflexivity.
  Qed.
  Lemma g_set_neq k k' v l : k' <> k -> get k' (aset eqb k v l) = get k' l.
  Proof.
    intros N. unfold aset. destruct (get k l) eqn:G; [apply g_rep_neq; exact N|].
    rewrite g_app. destruct (get k' l); [reflexivity|]. simpl. rewrite (eqb_neq' _ _ N). reflexivity.
  Qed.
  Lemma set_absent k v l : get k l = None -> aset eqb k v l = l ++ [(k, v)].
  Proof. intros G. unfold aset. rewrite G. reflexivity. Qed.
  Lemma in_set k v (x : K * V) l : In x (aset eqb k v l) -> x = (k, v) \/ In x l.
  Proof.
    unfold aset. destruct (get k l); [apply in_rep|].
    intros H. apply in_app_iff in H as [H | [H | []]]; [right; exact H | left; symmetry; exact H].
  Qed.
End AL.

Lemma key_eqb_eq a b : key_eqb a b = true <-> a = b.
Proof.
  destruct a as [a1 a2], b as [b1 b2]; unfold key_eqb; simpl.
  rewrite andb_true_iff, !Z.eqb_eq. split; [intros [-> ->]; reflexivity | intros H; inversion H; auto].
Qed.
Lemma key_eqb_refl a : key_eqb a a = true.
Proof. apply key_eqb_eq; reflexivity. Qed.
Lemma key_eqb_neq a b : key_eqb a b = false <-> a <> b.
Proof.
  split; intros H.
  - intros E. apply key_eqb_eq in E. congruence.
  - apply (eqb_neq' _ key_eqb_eq); exact H.
Qed.
Lemma key_eqb_sym a b : key_eqb a b = key_eqb b a.
Proof. unfold key_eqb. rewrite (Z.eqb_sym (fst a)), (Z.eqb_sym (snd a)). reflexivity. Qed.
Lemma tokkey_eqb_eq a b : tokkey_eqb a b = true <-> a = b.
Proof.
  destruct a as [a1 a2], b as [b1 b2]; unfold tokkey_eqb; simpl.
  rewrite andb_true_iff, Z.eqb_eq, list_eqb_Z_eq. split; [intros [-> ->]; reflexivity | intros H; inversion H; auto].
Qed.

Lemma last_reply_app k a b acc : last_reply k (a ++ b) acc = last_reply k b (last_reply k a acc).
Proof. unfold last_reply. apply fold_left_app. Qed.
Lemma last_reply_nil k acc : last_reply k [] acc = acc.
Proof. reflexivity. Qed.
Lemma starts_app k a b : starts k (a ++ b) = starts k a ++ starts k b.
Proof. unfold starts. apply flat_map_app. Qed.

Lemma reply_of_props k o r w : reply_of k o = Some (r, w) ->
  r = fst k /\ w_mid w = snd k /\ is_ackrst (w_type w) = true /\ exists t, o = Send t r w.
Proof.
  destruct o as [t r' w'| | |]; simpl; try discriminate.
  destruct ((r' =? fst k) && (w_mid w' =? snd k) && is_ackrst (w_type w')) eqn:E; [|discriminate].
  intros H; inversion H; subst. apply andb_true_iff in E as [E E3]. apply andb_true_iff in E as [E1 E2].
  apply Z.eqb_eq in E1, E2. repeat split; auto. exists t; reflexivity.
Qed.
Lemma last_reply_inv k l acc x : last_reply k l acc = Some x ->
  acc = Some x \/ exists o, In o l /\ reply_of k o = Some x.
Proof.
  revert acc. induction l as [|o l IH]; simpl; intros acc H; [left; exact H|].
  apply IH in H as [H | (o' & Hin & Ho)].
  - destruct (reply_of k o) eqn:E; [right; exists o; split; [left; reflexivity | congruence] | left; exact H].
  - right; exists o'; split; [right|]; assumption.
Qed.

Lemma starts_times (P : Z -> Prop) k l : Forall (fun o => P (out_time o)) l -> Forall P (starts k l).
Proof.
  induction 1 as [|o l Ho Hl IH]; simpl; [constructor|].
  unfold starts in *; simpl. destruct (start_of k o) eqn:E; simpl; [|exact IH].
  constructor; [|exact IH]. destruct o; simpl in *; try discriminate.
  destruct ((r =? fst k) && (mid =? snd k)); inversion E; subst; exact Ho.
Qed.

(* _schedule_retransmit and the registration of its handle in _active_exchanges, as _add_exchange and _retransmit do it *)
Definition arm_retransmit (r : Z) (w : wire) (t c : Z) (s : st) : st :=
  let '(s', h) := _schedule_retransmit r w t c s in set_exchanges (aset key_eqb (r, w_mid w) h (exchanges s')) s'.
Lemma _add_exchange_eq r w s : _add_exchange r w s =
  arm_retransmit r w (ack_timeout s) 0
    match aget Z.eqb r (backlogs s) with None => set_backlogs (aset Z.eqb r [] (backlogs s)) s | Some _ => s end.
Proof. unfold _add_exchange. destruct (aget Z.eqb r (backlogs s)); reflexivity. Qed.
Lemma _retransmit_eq r w t c s : _retransmit r w t c s =
  match aget key_eqb (r, w_mid w) (exchanges s) with
  | None => emit (Exn (now s) KeyError) s
  | Some h =>
      let s1 := cancel h (set_exchanges (aremove key_eqb (r, w_mid w) (exchanges s)) s) in
      if c <? MAX_RETRANSMIT then _send_via_transport r w (arm_retransmit r w (t * 2) (c + 1) s1)
      else match aget Z.eqb r (backlogs s) with
           | None => emit (Exn (now s) KeyError) s1
           | Some _ => tm_dispatch_error r (set_backlogs (aremove Z.eqb r (backlogs s)) s1)
           end
  end.
Proof. reflexivity. Qed.

(* the CON branch of _process_request: empty-ACK timer and piggy-back opportunity, replacing an older one of the same token *)
Definition open_piggy (m : inmsg) (s : st) : st :=
  let pk := (i_remote m, i_token m) in
  let s1 := fst (call_later EMPTY_ACK_DELAY (TEmptyAck (i_remote m) (i_token m)) s) in
  let s2 := match aget tokkey_eqb pk (piggy s) with
            | Some (_, old) => cancel old (set_piggy (aremove tokkey_eqb pk (piggy s)) s1)
            | None => s1 end in
  set_piggy (aset tokkey_eqb pk (i_mid m, tseq s) (piggy s2)) s2.
Lemma _process_request_eq m s :
  _process_request m s = process_request m match i_type m with CON => open_piggy m s | _ => s end.
Proof. unfold _process_request. destruct (i_type m); reflexivity. Qed.

Definition resp_wire (m : inmsg) (a : appmsg) (t : mtype) (mid : Z) : wire :=
  {| w_type := t; w_code := a_code a; w_mid := mid; w_token := i_token m; w_payload := a_payload a |}.
Lemma send_message_ind (P : st -> Prop) m a s :
  let r := i_remote m in let s1 := set_message_id (Z.land 65535 (1 + message_id s)) s in
  P s ->
  (forall mid h w, aget tokkey_eqb (r, i_token m) (piggy s) = Some (mid, h) -> w_type w = ACK -> w_mid w = mid ->
     P (_send_initially r w true (cancel h (set_piggy (aremove tokkey_eqb (r, i_token m) (piggy s)) s)))) ->
  (forall t, is_ackrst t = false -> (t = CON -> aget Z.eqb r (backlogs s) = None) ->
     P (_send_initially r (resp_wire m a t (message_id s)) true s1)) ->
  (forall b, aget Z.eqb r (backlogs s) = Some b ->
     P (set_backlogs (aset Z.eqb r (b ++ [resp_wire m a CON (message_id s)]) (backlogs s)) s1)) ->
  P (send_message m a s).
Proof.
  intros r s1 Hnone Hpiggy Hsend Hqueue.
  assert (D : forall t, t = CON \/ t = NON ->
            P (let '(s0, mid) := _next_message_id s in
               match t, aget Z.eqb r (backlogs s0) with
               | CON, Some b => set_backlogs (aset Z.eqb r (b ++ [resp_wire m a t mid]) (backlogs s0)) s0
               | _, _ => _send_initially r (resp_wire m a t mid) true s0
               end)).
  { unfold _next_message_id. intros t [-> | ->]; [|apply Hsend; [reflexivity | discriminate]].
    change (backlogs (set_message_id (Z.land 65535 (1 + message_id s)) s)) with (backlogs s).
    destruct (aget Z.eqb r (backlogs s)) eqn:G; [apply Hqueue; reflexivity | apply Hsend; auto]. }
  specialize (D (match a_rel a with Some true => CON | Some false => NON | None => match i_type m with NON => NON | _ => CON end end)).
  assert (D' := D ltac:(destruct (a_rel a) as [[|]|]; auto; destruct (i_type m); auto)). clear D.
  unfold send_message. cbv zeta.
  destruct (is_response (a_code a)); [|exact D'].
  destruct (aget tokkey_eqb (i_remote m, i_token m) (piggy s)) as [[mid h]|] eqn:G.
  - destruct (negb _); apply (Hpiggy mid h _ G); reflexivity.
  - destruct (negb _); [exact Hnone | exact D'].
Qed.

Lemma handler_ind (P : st -> Prop) sid s :
  P s -> (forall m a, P (finish m a (set_waiting (aremove Z.eqb sid (waiting s)) s))) ->
  (forall a, P (handler_respond sid a s)) /\ (forall x, P (handler_raise sid x s)).
Proof. intros H0 H. unfold handler_respond, handler_raise. destruct (aget Z.eqb sid (waiting s)); split; auto. Qed.

Lemma fold_same {A} (P : st -> Prop) (f : st -> A -> st) l :
  (forall s a, In a l -> P s -> P (f s a)) -> forall s, P s -> P (fold_left f l s).
Proof.
  induction l as [|a l IH]; intros H s HP; simpl; [exact HP|].
  apply IH; [intros s0 b Hb; apply H; right; exact Hb | apply H; [left; reflexivity | exact HP]].
Qed.

(* What a relation between the states before and after a method must satisfy to hold of everything from _send_initially,
   _remove_exchange, _retransmit and dispatch_error downwards ([Walk]), and of the way back up from send_message ([Frame]
   is enough for that; an invariant P is the relation P s -> P s').  [Pre] is what the relation needs to know of the states the
   backlog loop passes through, [C r w] what it asks of a message handed to _send_initially. *)
Set Implicit Arguments.
Record Frame (Rel : st -> st -> Prop) : Prop := {
  fr_refl : forall s, Rel s s;
  fr_trans : forall s1 s2 s3, Rel s1 s2 -> Rel s2 s3 -> Rel s1 s3;
  fr_frame : forall s s', now s' = now s -> tseq s' = tseq s -> recent s' = recent s -> forgets s' = forgets s ->
             timers s' = timers s -> exchanges s' = exchanges s -> backlogs s' = backlogs s -> piggy s' = piggy s ->
             outs s' = outs s -> Rel s s' }.
Record Walk (Rel : st -> st -> Prop) (Pre : st -> Prop) (C : Z -> wire -> Prop) : Prop := {
  wk_fr :> Frame Rel;
  wk_pre : forall s s', Rel s s' -> Pre s -> Pre s';
  wk_cancel : forall h s, Rel s (cancel h s);
  wk_exchanges : forall v s, Rel s (set_exchanges v s);
  wk_arm : forall r w t c s, w_type w = CON -> Rel s (arm_retransmit r w t c s);
  wk_drop : forall r s, Rel s (set_backlogs (aremove Z.eqb r (backlogs s)) s);
  wk_open : forall r s, Rel s (set_backlogs (aset Z.eqb r [] (backlogs s)) s);
  wk_next : forall r w rest s, Pre s -> aget Z.eqb r (backlogs s) = Some (w :: rest) ->
            C r w /\ Rel s (set_backlogs (aset Z.eqb r rest (backlogs s)) s);
  wk_exn : forall e s, Rel s (emit (Exn (now s) e) s);
  wk_refused : forall r s, Rel s (emit (Refused (now s) r) s);
  wk_send : forall r w s, C r w -> Rel s (send_log r w (_store_response_for_duplicates r w s));
  wk_con : forall r w, w_type w = CON -> C r w }.
Unset Implicit Arguments.

Section Walk.
  Context {Rel : st -> st -> Prop} {Pre : st -> Prop} {C : Z -> wire -> Prop} (W : Walk Rel Pre C).
  Lemma walk_stop_incoming ik sid s : Rel s (stop_incoming ik sid s).
  Proof. apply (fr_frame W); reflexivity. Qed.
  Lemma walk_fold {A} (f : st -> A -> st) l : (forall s a, Rel s (f s a)) -> forall s, Rel s (fold_left f l s).
  Proof.
    intros H s. apply (fold_same (fun s' => Rel s s')); [|apply (fr_refl W)].
    intros s' a _ E. eapply (fr_trans W); [exact E | apply H].
  Qed.
  Lemma walk_tm_dispatch_error r s : Rel s (tm_dispatch_error r s).
  Proof.
    unfold tm_dispatch_error. apply walk_fold. intros s0 e.
    destruct (snd (fst e) =? r); [apply walk_stop_incoming | apply (fr_refl W)].
  Qed.
  Lemma walk_rm_exchange k h s : Rel s (cancel h (set_exchanges (aremove key_eqb k (exchanges s)) s)).
  Proof. eapply (fr_trans W); [apply (wk_exchanges W) | apply (wk_cancel W)]. Qed.
  Lemma walk_mm_dispatch_error r s : Rel s (mm_dispatch_error r s).
  Proof.
    unfold mm_dispatch_error. eapply (fr_trans W); [|apply (wk_drop W)].
    eapply (fr_trans W); [apply walk_tm_dispatch_error|]. apply walk_fold. intros s0 e.
    destruct (fst (fst e) =? r); [apply walk_rm_exchange | apply (fr_refl W)].
  Qed.
  Lemma walk_refusal r s : Rel s (refusal r s).
  Proof.
    unfold refusal. destruct (is_refused r s); [|apply (fr_refl W)].
    eapply (fr_trans W); [apply (wk_refused W) | apply walk_mm_dispatch_error].
  Qed.
  Lemma walk_store_send r w s : C r w -> Rel s (_send_via_transport r w (_store_response_for_duplicates r w s)).
  Proof. intros Hw. eapply (fr_trans W); [apply (wk_send W); exact Hw | apply walk_refusal]. Qed.
  (* a CON is not stored *)
  Lemma walk_send_via r w s : w_type w = CON -> Rel s (_send_via_transport r w s).
  Proof.
    intros Hc. pose proof (walk_store_send r w s (wk_con W r w Hc)) as X.
    unfold _store_response_for_duplicates in X. rewrite Hc in X. exact X.
  Qed.
  Lemma walk_add_exchange r w s : w_type w = CON -> Rel s (_add_exchange r w s).
  Proof.
    intros Hc. rewrite _add_exchange_eq. eapply (fr_trans W); [|apply (wk_arm W); exact Hc].
    destruct (aget Z.eqb r (backlogs s)); [apply (fr_refl W) | apply (wk_open W)].
  Qed.
  Lemma walk_send_initially r w mon s : C r w -> Rel s (_send_initially r w mon s).
  Proof.
    intros Hw. unfold _send_initially. destruct (w_type w) eqn:Et; try (apply walk_store_send; exact Hw).
    destruct mon; simpl; [|apply (wk_exn W)].
    eapply (fr_trans W); [apply walk_add_exchange; exact Et | apply walk_store_send; exact Hw].
  Qed.
  Lemma walk_continue_backlog_loop fuel r : forall s, Pre s -> Rel s (_continue_backlog_loop fuel r s).
  Proof.
    induction fuel as [|fuel IH]; intros s HP; simpl; [apply (fr_refl W)|].
    destruct (has_exchange_with r s); [apply (fr_refl W)|].
    destruct (aget Z.eqb r (backlogs s)) as [[|w rest]|] eqn:G; [apply (wk_drop W) | | apply (fr_refl W)].
    destruct (wk_next W r s HP G) as [Hw E0].
    assert (E : Rel s (_send_initially r w true (set_backlogs (aset Z.eqb r rest (backlogs s)) s)))
      by (eapply (fr_trans W); [exact E0 | apply walk_send_initially; exact Hw]).
    eapply (fr_trans W); [exact E | apply IH, (wk_pre W _ _ E HP)].
  Qed.
  Lemma walk_remove_exchange r mid s : Pre s -> Rel s (_remove_exchange r mid s).
  Proof.
    intros HP. unfold _remove_exchange. destruct (aget key_eqb (r, mid) (exchanges s)) as [h|]; [|apply (fr_refl W)].
    pose proof (walk_rm_exchange (r, mid) h s) as E. eapply (fr_trans W); [exact E|]. unfold _continue_backlog.
    destruct (aget Z.eqb r _); [apply walk_continue_backlog_loop, (wk_pre W _ _ E HP) | apply (wk_exn W)].
  Qed.
  Lemma walk_retransmit r w t c s : w_type w = CON -> Rel s (_retransmit r w t c s).
  Proof.
    intros Hc. rewrite _retransmit_eq. destruct (aget key_eqb (r, w_mid w) (exchanges s)) as [h|]; [|apply (wk_exn W)].
    set (s1 := cancel h _). cbv zeta. apply (fr_trans W s s1); [apply walk_rm_exchange|].
    destruct (c <? MAX_RETRANSMIT).
    - eapply (fr_trans W); [apply (wk_arm W); exact Hc | apply walk_send_via; exact Hc].
    - destruct (aget Z.eqb r (backlogs s)); [|apply (wk_exn W KeyError s1)].
      eapply (fr_trans W); [apply (wk_drop W r s1) | apply walk_tm_dispatch_error].
  Qed.
End Walk.

(* the way back up from send_message: the end of a pipe, the handlers, the hand-over of a request to the site *)
Section WalkUp.
  Context {Rel : st -> st -> Prop} (W : Frame Rel).
  Hypothesis Hsm : forall m a s, Rel s (send_message m a s).
  Lemma walk_finish m a s : Rel s (finish m a s).
  Proof. unfold finish. eapply (fr_trans W); [apply Hsm | apply (fr_frame W); reflexivity]. Qed.
  Lemma walk_handler sid s : (forall a, Rel s (handler_respond sid a s)) /\ (forall x, Rel s (handler_raise sid x s)).
  Proof.
    apply handler_ind; [apply (fr_refl W) | intros m a].
    eapply (fr_trans W); [|apply walk_finish]. apply (fr_frame W); reflexivity.
  Qed.
  Hypothesis Hstart : forall sid m s, Rel s (emit (Start (now s) sid (i_remote m) (i_mid m) (i_token m)) s).
  Lemma walk_render_to_pipe m s : Rel s (render_to_pipe m s).
  Proof.
    unfold render_to_pipe. set (s1 := emit _ _).
    assert (E1 : Rel s s1).
    { subst s1. eapply (fr_trans W); [|apply (Hstart (next_sid s) m (set_next_sid (next_sid s + 1) s))]. apply (fr_frame W); reflexivity. }
    destruct (i_path m); try (eapply (fr_trans W); [exact E1 | apply walk_finish]).
    eapply (fr_trans W); [exact E1 | apply (fr_frame W); reflexivity].
  Qed.
  Lemma walk_process_request m s : Rel s (process_request m s).
  Proof.
    unfold process_request.
    set (s1 := match aget inckey_eqb _ (incoming s) with Some old => _ | None => _ end).
    assert (E1 : Rel s s1) by (subst s1; destruct (aget inckey_eqb _ (incoming s)); [apply (fr_frame W); reflexivity | apply (fr_refl W)]).
    eapply (fr_trans W); [|apply walk_render_to_pipe]. eapply (fr_trans W); [exact E1 | apply (fr_frame W); reflexivity].
  Qed.
End WalkUp.

(* sanity of the cancellable timers: only confirmable messages are ever retransmitted *)
Definition tkind_ok (t : tkind) : Prop :=
  match t with TRetransmit _ w _ _ => w_type w = CON | TEmptyAck _ _ => True end.
Definition TOK (s : st) : Prop := Forall (fun t => tkind_ok (snd t)) (timers s).

(* [sk]: the times of the [Start]s for k that the method logs ([[]] below render_to_pipe) *)
Record Ext (sk : list Z) (k : Z * Z) (s s' : st) : Prop := {
  ext_now : now s' = now s;
  ext_forgets : forgets s' = forgets s;
  ext_tok : TOK s -> TOK s';
  ext_outs : exists new, outs s' = outs s ++ new
      /\ Forall (fun o => out_time o = now s) new
      /\ starts k new = sk
      /\ aget key_eqb k (recent s') = option_map (last_reply k new) (aget key_eqb k (recent s)) }.

Lemma option_map_id {A} (f : A -> A) (x : option A) : (forall a, f a = a) -> option_map f x = x.
Proof. intros H; destruct x; simpl; [rewrite H|]; reflexivity. Qed.

Lemma Ext_timers k s s' :
  now s' = now s -> forgets s' = forgets s -> outs s' = outs s -> recent s' = recent s ->
  (TOK s -> TOK s') -> Ext [] k s s'.
Proof.
  intros N F O Rc T. split; auto.
  exists []. rewrite app_nil_r, Rc. repeat split; auto. symmetry; apply option_map_id; reflexivity.
Qed.
Lemma Ext_frame k s s' :
  now s' = now s -> forgets s' = forgets s -> timers s' = timers s -> outs s' = outs s -> recent s' = recent s ->
  Ext [] k s s'.
Proof. intros N F T O Rc. apply Ext_timers; auto. unfold TOK. rewrite T. auto. Qed.
Lemma Ext_refl k s : Ext [] k s s.
Proof. apply Ext_frame; reflexivity. Qed.
Lemma Ext_trans sk1 sk2 k s1 s2 s3 : Ext sk1 k s1 s2 -> Ext sk2 k s2 s3 -> Ext (sk1 ++ sk2) k s1 s3.
Proof.
  intros [N1 F1 T1 (n1 & O1 & Tm1 & S1 & A1)] [N2 F2 T2 (n2 & O2 & Tm2 & S2 & A2)].
  split; [congruence | congruence | auto |].
  exists (n1 ++ n2). rewrite O2, O1, app_assoc. repeat split.
  - apply Forall_app; split; [exact Tm1|]. rewrite N1 in Tm2; exact Tm2.
  - rewrite starts_app; congruence.
  - rewrite A2, A1. destruct (aget key_eqb k (recent s1)); simpl; [rewrite last_reply_app|]; reflexivity.
Qed.
Lemma Ext_trans0 k s1 s2 s3 : Ext [] k s1 s2 -> Ext [] k s2 s3 -> Ext [] k s1 s3.
Proof. intros A B. exact (Ext_trans [] [] k _ _ _ A B). Qed.
Lemma Ext_trans0r sk k s1 s2 s3 : Ext [] k s1 s2 -> Ext sk k s2 s3 -> Ext sk k s1 s3.
Proof. intros A B. exact (Ext_trans [] sk k _ _ _ A B). Qed.
Lemma Ext_trans0l sk k s1 s2 s3 : Ext sk k s1 s2 -> Ext [] k s2 s3 -> Ext sk k s1 s3.
Proof. intros A B. pose proof (Ext_trans sk [] k _ _ _ A B) as H. rewrite app_nil_r in H. exact H. Qed.

Ltac frame := apply Ext_frame; reflexivity.

Lemma ext_set_tseq k v s : Ext [] k s (set_tseq v s). Proof. frame. Qed.
Lemma ext_set_message_id k v s : Ext [] k s (set_message_id v s). Proof. frame. Qed.
Lemma ext_set_exchanges k v s : Ext [] k s (set_exchanges v s). Proof. frame. Qed.
Lemma ext_set_backlogs k v s : Ext [] k s (set_backlogs v s). Proof. frame. Qed.
Lemma ext_set_piggy k v s : Ext [] k s (set_piggy v s). Proof. frame. Qed.
Lemma ext_set_incoming k v s : Ext [] k s (set_incoming v s). Proof. frame. Qed.
Lemma ext_set_waiting k v s : Ext [] k s (set_waiting v s). Proof. frame. Qed.
Lemma ext_set_next_sid k v s : Ext [] k s (set_next_sid v s). Proof. frame. Qed.

Lemma ext_cancel k h s : Ext [] k s (cancel h s).
Proof.
  apply Ext_timers; try reflexivity. unfold TOK, cancel; simpl. intros H.
  apply Forall_forall. intros t Ht. apply filter_In in Ht as [Ht _]. rewrite Forall_forall in H. auto.
Qed.
Lemma ext_call_later k d t s : tkind_ok t -> Ext [] k s (fst (call_later d t s)).
Proof.
  intros Ht. apply Ext_timers; try reflexivity. unfold TOK, call_later; simpl. intros H.
  apply Forall_app; split; [exact H|]. constructor; [exact Ht | constructor].
Qed.

Lemma ext_emit sk k o s : out_time o = now s -> reply_of k o = None -> starts k [o] = sk -> Ext sk k s (emit o s).
Proof.
  intros T Rp S. split; auto. exists [o]. repeat split; auto.
  symmetry; apply option_map_id. intros a. unfold last_reply; simpl. rewrite Rp. reflexivity.
Qed.
Lemma ext_emit_exn k e s : Ext [] k s (emit (Exn (now s) e) s).
Proof. apply ext_emit; reflexivity. Qed.
Lemma ext_set_refused k v s : Ext [] k s (set_refused v s). Proof. frame. Qed.

Lemma ext_send_log k r w s : is_ackrst (w_type w) = false -> Ext [] k s (send_log r w s).
Proof. intros H. apply ext_emit; try reflexivity. simpl. rewrite H, andb_false_r. reflexivity. Qed.
Lemma ext_arm_retransmit k r w t c s : w_type w = CON -> Ext [] k s (arm_retransmit r w t c s).
Proof. intros Hc. eapply Ext_trans0; [|apply ext_set_exchanges]. apply ext_call_later. exact Hc. Qed.
(* store + send: the remembered reply of k follows the log *)
Lemma ext_store_log k r w s :
  Ext [] k s (send_log r w (_store_response_for_duplicates r w s)).
Proof.
  unfold _store_response_for_duplicates.
  destruct (is_ackrst (w_type w)) eqn:Ea; simpl.
  2:{ apply ext_send_log; exact Ea. }
  split; try reflexivity.
  - destruct (aget key_eqb (r, w_mid w) (recent s)); auto.
  - destruct (aget key_eqb (r, w_mid w) (recent s)); reflexivity.
  - destruct (aget key_eqb (r, w_mid w) (recent s)); auto.
  - exists [Send (now s) r w]. split; [|split; [|split]].
    + destruct (aget key_eqb (r, w_mid w) (recent s)); reflexivity.
    + constructor; [|constructor]. destruct (aget key_eqb (r, w_mid w) (recent s)); reflexivity.
    + reflexivity.
    + unfold last_reply; simpl. rewrite Ea, andb_true_r.
      destruct ((r =? fst k) && (w_mid w =? snd k)) eqn:Ek.
      * apply (key_eqb_eq (r, w_mid w) k) in Ek. rewrite Ek.
        destruct (aget key_eqb k (recent s)) eqn:G; simpl.
        -- rewrite (g_rep_eq key_eqb), G. reflexivity.
        -- exact G.
      * apply (key_eqb_neq (r, w_mid w) k) in Ek. assert (Hk : k <> (r, w_mid w)) by congruence.
        destruct (aget key_eqb (r, w_mid w) (recent s)); simpl.
        -- rewrite (g_rep_neq _ key_eqb_eq) by exact Hk. symmetry; apply option_map_id; reflexivity.
        -- symmetry; apply option_map_id; reflexivity.
Qed.

Lemma ext_walk k : Walk (Ext [] k) (fun _ => True) (fun _ _ => True).
Proof.
  split.
  - split; [apply Ext_refl | apply Ext_trans0 | intros; apply Ext_frame; assumption].
  - auto.
  - apply ext_cancel.
  - apply ext_set_exchanges.
  - apply ext_arm_retransmit.
  - intros. apply ext_set_backlogs.
  - intros. apply ext_set_backlogs.
  - intros. split; [exact I | apply ext_set_backlogs].
  - apply ext_emit_exn.
  - intros. apply ext_emit; reflexivity.
  - intros. apply ext_store_log.
  - auto.
Qed.
Lemma ext_send_initially k r w mon s : Ext [] k s (_send_initially r w mon s).
Proof. apply (walk_send_initially (ext_walk k)). exact I. Qed.

Lemma ext_send_message k m a s : Ext [] k s (send_message m a s).
Proof.
  apply send_message_ind.
  - apply Ext_refl.
  - intros mid h w _ _ _.
    eapply Ext_trans0; [eapply Ext_trans0; [apply ext_set_piggy | apply ext_cancel] | apply ext_send_initially].
  - intros t _ _. eapply Ext_trans0; [apply ext_set_message_id | apply ext_send_initially].
  - intros b _. eapply Ext_trans0; [apply ext_set_message_id | apply ext_set_backlogs].
Qed.

Lemma ext_on_timeout k r tok s : Ext [] k s (on_timeout r tok s).
Proof.
  unfold on_timeout. destruct (aget tokkey_eqb (r, tok) (piggy s)) as [[mid h]|]; [|apply ext_emit_exn].
  eapply Ext_trans0; [apply ext_set_piggy | apply ext_send_initially].
Qed.

(* the hand-over to the application: the only place a Start is logged *)
Definition sk_of (k : Z * Z) (m : inmsg) (t : Z) : list Z := if key_eqb (msg_key m) k then [t] else [].

Lemma ext_emit_start k m sid s :
  Ext (sk_of k m (now s)) k s (emit (Start (now s) sid (i_remote m) (i_mid m) (i_token m)) s).
Proof.
  apply ext_emit; try reflexivity.
  unfold starts, sk_of, msg_key, key_eqb; simpl. destruct ((i_remote m =? fst k) && (i_mid m =? snd k)); reflexivity.
Qed.

Lemma ext_render_to_pipe k m s : Ext (sk_of k m (now s)) k s (render_to_pipe m s).
Proof.
  unfold render_to_pipe.
  set (s1 := emit _ _).
  assert (E1 : Ext (sk_of k m (now s)) k s s1).
  { subst s1. eapply Ext_trans0r; [apply ext_set_next_sid | apply (ext_emit_start k m (next_sid s) (set_next_sid (next_sid s + 1) s))]. }
  destruct (i_path m); try (eapply Ext_trans0l; [exact E1 | apply (walk_finish (ext_walk k) (ext_send_message k))]).
  eapply Ext_trans0l; [exact E1 | apply ext_set_waiting].
Qed.

Lemma ext_tm_process_request k m s : Ext (sk_of k m (now s)) k s (process_request m s).
Proof.
  unfold process_request.
  set (s1 := match aget inckey_eqb (i_token m, i_remote m) (incoming s) with Some old => _ | None => _ end).
  assert (E1 : Ext [] k s s1) by (subst s1; destruct (aget inckey_eqb (i_token m, i_remote m) (incoming s)); [apply (walk_stop_incoming (ext_walk k)) | apply Ext_refl]).
  assert (N : now s = now (set_incoming (aset inckey_eqb (i_token m, i_remote m) (next_sid s1) (incoming s1)) s1)).
  { simpl. symmetry. apply (ext_now _ _ _ _ E1). }
  rewrite N. eapply Ext_trans0r; [|apply ext_render_to_pipe].
  eapply Ext_trans0; [exact E1 | apply ext_set_incoming].
Qed.

Lemma ext_open_piggy k m s : Ext [] k s (open_piggy m s).
Proof.
  unfold open_piggy. eapply Ext_trans0; [|apply ext_set_piggy].
  eapply Ext_trans0; [apply (ext_call_later k EMPTY_ACK_DELAY (TEmptyAck (i_remote m) (i_token m))); exact I|].
  destruct (aget tokkey_eqb _ _) as [[mid old]|]; [|apply Ext_refl].
  eapply Ext_trans0; [apply ext_set_piggy | apply ext_cancel].
Qed.
Lemma ext_mm_process_request k m s : Ext (sk_of k m (now s)) k s (_process_request m s).
Proof.
  rewrite _process_request_eq.
  assert (E1 : Ext [] k s (match i_type m with CON => open_piggy m s | _ => s end))
    by (destruct (i_type m); try apply Ext_refl; apply ext_open_piggy).
  rewrite <- (ext_now _ _ _ _ E1). eapply Ext_trans0r; [exact E1 | apply ext_tm_process_request].
Qed.

(* dispatch_message after the duplicate check *)
Definition dispatch_rest (m : inmsg) (s : st) : st :=
  let s := if is_ackrst (i_type m) then _remove_exchange (i_remote m) (i_mid m) s else s in
  if (i_code m =? EMPTY) && mtype_eqb (i_type m) CON then _process_ping m s
  else if (i_code m =? EMPTY) && is_ackrst (i_type m) then s
  else if is_request (i_code m) && negb (is_ackrst (i_type m)) then _process_request m s
  else if is_response (i_code m) && negb (mtype_eqb (i_type m) RST) then
    if mtype_eqb (i_type m) CON
    then _send_initially (i_remote m) {| w_type := RST; w_code := EMPTY; w_mid := i_mid m; w_token := []; w_payload := [] |} false s
    else s
  else s.

Lemma dispatch_message_unfold m s :
  dispatch_message m s =
  let '(s1, dup) := if is_request (i_code m) then _deduplicate_message m s else (s, false) in
  if dup then s1 else dispatch_rest m s1.
Proof. reflexivity. Qed.

Definition rest_sk (k : Z * Z) (m : inmsg) (t : Z) : list Z :=
  if is_request (i_code m) && negb (is_ackrst (i_type m)) then sk_of k m t else [].

Definition rst_for (m : inmsg) : wire := {| w_type := RST; w_code := EMPTY; w_mid := i_mid m; w_token := []; w_payload := [] |}.
Lemma dispatch_rest_ind (P : st -> Prop) m s :
  (is_request (i_code m) && negb (is_ackrst (i_type m)) = false ->
     P (if is_ackrst (i_type m) then _remove_exchange (i_remote m) (i_mid m) s else s)) ->
  (is_request (i_code m) = false -> mtype_eqb (i_type m) CON = true ->
     P (_send_initially (i_remote m) (rst_for m) false (if is_ackrst (i_type m) then _remove_exchange (i_remote m) (i_mid m) s else s))) ->
  (is_request (i_code m) = true -> is_ackrst (i_type m) = false -> P (_process_request m s)) ->
  P (dispatch_rest m s).
Proof.
  intros Hnone Hrst Hreq. unfold dispatch_rest. destruct (is_request (i_code m)) eqn:Q.
  - assert (Z0 : (i_code m =? EMPTY) = false) by (unfold is_request, EMPTY in *; lia).
    assert (Rs : is_response (i_code m) = false) by (unfold is_request, is_response in *; lia).
    rewrite Z0, Rs. simpl. destruct (is_ackrst (i_type m)); simpl in *; [apply Hnone | apply Hreq]; reflexivity.
  - specialize (Hnone eq_refl). specialize (Hrst eq_refl). simpl. destruct (mtype_eqb (i_type m) CON).
    + rewrite !andb_true_r. destruct (i_code m =? EMPTY); [exact (Hrst eq_refl)|]. simpl.
      destruct (is_response (i_code m) && _); [exact (Hrst eq_refl) | exact Hnone].
    + rewrite !andb_false_r. destruct ((i_code m =? EMPTY) && _); [exact Hnone|].
      destruct (is_response (i_code m) && _); exact Hnone.
Qed.

Lemma ext_dispatch_rest k m s : Ext (rest_sk k m (now s)) k s (dispatch_rest m s).
Proof.
  assert (E1 : Ext [] k s (if is_ackrst (i_type m) then _remove_exchange (i_remote m) (i_mid m) s else s))
    by (destruct (is_ackrst (i_type m)); [apply (walk_remove_exchange (ext_walk k)); exact I | apply Ext_refl]).
  unfold rest_sk. apply dispatch_rest_ind.
  - intros ->. exact E1.
  - intros -> _. eapply Ext_trans0; [exact E1 | apply ext_send_initially].
  - intros -> ->. apply ext_mm_process_request.
Qed.

Definition Inv (s : st) : Prop :=
  (forall k, aget key_eqb k (recent s) <> None <-> In k (map snd (forgets s)))
  /\ NoDup (map snd (forgets s))
  /\ (forall k r w, aget key_eqb k (recent s) = Some (Some (r, w)) ->
        r = fst k /\ w_mid w = snd k /\ is_ackrst (w_type w) = true)
  /\ Forall (fun f => now s <= fst (fst f)) (forgets s)
  /\ TOK s.

Lemma stored_key s k r w : Inv s -> aget key_eqb k (recent s) = Some (Some (r, w)) -> (r, w_mid w) = k.
Proof. intros (_ & _ & I3 & _) G. destruct (I3 _ _ _ G) as (E1 & E2 & _). destruct k; simpl in *; congruence. Qed.
Lemma Inv_ext s s' : Inv s -> (forall k, exists sk, Ext sk k s s') -> Inv s'.
Proof.
  intros (I1 & I2 & I3 & I4 & I5) H.
  assert (F : forgets s' = forgets s) by (destruct (H (0, 0)) as [sk E]; apply (ext_forgets _ _ _ _ E)).
  assert (N : now s' = now s) by (destruct (H (0, 0)) as [sk E]; apply (ext_now _ _ _ _ E)).
  split; [|split; [|split; [|split]]].
  - intros k. destruct (H k) as [sk [_ _ _ (new & _ & _ & _ & A)]]. rewrite F, <- I1, A.
    destruct (aget key_eqb k (recent s)); simpl; split; congruence.
  - rewrite F; exact I2.
  - intros k r w G. destruct (H k) as [sk [_ _ _ (new & _ & _ & _ & A)]]. rewrite A in G.
    destruct (aget key_eqb k (recent s)) as [v|] eqn:Gv; simpl in G; [|discriminate].
    inversion G as [G1]. apply last_reply_inv in G1 as [-> | (o & _ & Ho)].
    + eapply I3; exact Gv.
    + apply reply_of_props in Ho. tauto.
  - rewrite F, N; exact I4.
  - destruct (H (0, 0)) as [sk E]. apply (ext_tok _ _ _ _ E). exact I5.
Qed.

(* what one event does to the entry of key k, when the event is not a first arrival of k *)
Definition R (k : Z * Z) (s s' : st) : Prop :=
  exists new, outs s' = outs s ++ new /\ now s <= now s' /\ Forall (fun o => now s <= out_time o) new /\
    starts k new = [] /\
    match aget key_eqb k (recent s) with
    | Some v =>
        (aget key_eqb k (recent s') = Some (last_reply k new v)
         /\ forall D q, In (D, q, k) (forgets s) -> In (D, q, k) (forgets s'))
        \/ (aget key_eqb k (recent s') = None /\ forall D q, In (D, q, k) (forgets s) -> D <= now s')
    | None => aget key_eqb k (recent s') = None
    end.

Lemma R_refl k s : R k s s.
Proof.
  exists []. rewrite app_nil_r. repeat split; auto; try lia.
  destruct (aget key_eqb k (recent s)); auto.
Qed.
Lemma R_trans k s1 s2 s3 : R k s1 s2 -> R k s2 s3 -> R k s1 s3.
Proof.
  intros (n1 & O1 & N1 & T1 & S1 & A1) (n2 & O2 & N2 & T2 & S2 & A2).
  exists (n1 ++ n2). rewrite O2, O1, app_assoc. split; [reflexivity|]. split; [lia|]. split.
  { apply Forall_app; split; [exact T1|]. eapply Forall_impl; [|exact T2]. simpl; intros; lia. }
  split; [rewrite starts_app, S1, S2; reflexivity|].
  destruct (aget key_eqb k (recent s1)) as [v|].
  - destruct A1 as [[A1 F1] | [A1 F1]].
    + rewrite A1 in A2. destruct A2 as [[A2 F2] | [A2 F2]].
      * left. rewrite last_reply_app. split; auto.
      * right. split; [exact A2|]. intros D q HD. apply (F2 D q), F1, HD.
    + rewrite A1 in A2. right. split; [exact A2|]. intros D q HD. specialize (F1 D q HD). lia.
  - rewrite A1 in A2. exact A2.
Qed.
Lemma Ext_R k s s' : Ext [] k s s' -> R k s s'.
Proof.
  intros [N F _ (new & O & T & S & A)]. exists new. split; [exact O|]. split; [lia|]. split.
  { eapply Forall_impl; [|exact T]. simpl; intros; lia. }
  split; [exact S|]. rewrite A. destruct (aget key_eqb k (recent s)); simpl; [|reflexivity].
  left. split; [reflexivity|]. rewrite F; auto.
Qed.

Lemma min_timer_in l x : min_timer l = Some x -> In x l.
Proof.
  revert x. induction l as [|y l IH]; simpl; intros x H; [discriminate|].
  destruct (min_timer l) as [z|]; [|inversion H; auto].
  destruct (earlier z y); inversion H; subst; auto.
Qed.
Lemma min_timer_le l d q a : min_timer l = Some (d, q, a) -> forall d' q' a', In (d', q', a') l -> d <= d'.
Proof.
  revert d q a. induction l as [|y l IH]; simpl; intros d q a H d' q' a' Hin; [contradiction|].
  destruct (min_timer l) as [[[dz qz] az]|] eqn:M.
  - destruct y as [[dy qy] ay]. simpl in H.
    destruct ((dz <? dy) || ((dz =? dy) && (qz <? qy))) eqn:E; inversion H; subst.
    + destruct Hin as [Hin | Hin]; [inversion Hin; subst; lia | eapply IH; eauto].
    + destruct Hin as [Hin | Hin]; [inversion Hin; subst; lia|].
      specialize (IH _ _ _ eq_refl _ _ _ Hin). lia.
  - inversion H; subst. destruct Hin as [Hin | Hin]; [inversion Hin; lia|].
    destruct l; [contradiction|]. simpl in M. destruct (min_timer l) as [z|]; [destruct (earlier z p)|]; discriminate.
Qed.
Lemma min_timer_none l : min_timer l = None -> l = [].
Proof.
  destruct l as [|y l]; [reflexivity|]. simpl. destruct (min_timer l) as [z|]; [destruct (earlier z y)|]; discriminate.
Qed.
Lemma in_all_forget s d q k : In (d, q, AForget k) (all_timers s) <-> In (d, q, k) (forgets s).
Proof.
  unfold all_timers. rewrite in_app_iff, !in_map_iff. split.
  - intros [([[d' q'] k'] & E & Hin) | ([[d' q'] t] & E & _)]; simpl in E; inversion E; subst; exact Hin.
  - intros H. left. exists (d, q, k). split; [reflexivity | exact H].
Qed.
Lemma in_all_timer s d q t : In (d, q, ATimer t) (all_timers s) <-> In (d, q, t) (timers s).
Proof.
  unfold all_timers. rewrite in_app_iff, !in_map_iff. split.
  - intros [([[d' q'] k'] & E & _) | ([[d' q'] t'] & E & Hin)]; simpl in E; inversion E; subst; exact Hin.
  - intros H. right. exists (d, q, t). split; [reflexivity | exact H].
Qed.

Definition due_bound (v : Z) (s : st) : Prop := forall d q a, In (d, q, a) (all_timers s) -> v <= d.
Lemma min_timer_bound s d q a : min_timer (all_timers s) = Some (d, q, a) -> due_bound d s.
Proof. intros M d' q' a'. apply (min_timer_le _ _ _ _ M). Qed.

Lemma R_set_now k v s : R k s (set_now (Z.max (now s) v) s).
Proof.
  exists []. simpl. rewrite app_nil_r. repeat split; auto; try lia.
  destruct (aget key_eqb k (recent s)); auto.
Qed.
Lemma Inv_set_now v s : Inv s -> due_bound v s -> Inv (set_now (Z.max (now s) v) s).
Proof.
  intros (I1 & I2 & I3 & I4 & I5) H. split; [exact I1|]. split; [exact I2|]. split; [exact I3|]. split; [|exact I5].
  apply Forall_forall. intros [[d q] k] Hin. rewrite Forall_forall in I4. specialize (I4 _ Hin).
  apply in_all_forget in Hin. specialize (H _ _ _ Hin). simpl in *. lia.
Qed.

Lemma Ext_spec s s' : Inv s -> (forall k, Ext [] k s s') -> Inv s' /\ forall k, R k s s'.
Proof. intros HI H. split; [apply (Inv_ext s); [exact HI | intros k; exists []; apply H] | intros k; apply Ext_R, H]. Qed.

Lemma fire_ind (P : st -> Prop) s : Inv s ->
  P s ->
  (forall d q k v, In (d, q, k) (forgets s) -> due_bound d s -> aget key_eqb k (recent s) = Some v ->
     P (set_recent (aremove key_eqb k (recent s))
          (set_forgets (filter (fun f => negb (key_eqb (snd f) k)) (forgets s)) (set_now (Z.max (now s) d) s)))) ->
  (forall d q r tok, In (d, q, TEmptyAck r tok) (timers s) -> due_bound d s ->
     P (on_timeout r tok (cancel q (set_now (Z.max (now s) d) s)))) ->
  (forall d q r w t c, In (d, q, TRetransmit r w t c) (timers s) -> due_bound d s -> w_type w = CON ->
     P (_retransmit r w t c (cancel q (set_now (Z.max (now s) d) s)))) ->
  P (fire s).
Proof.
  intros HI Hidle Hexpire Hack Hretr. unfold fire.
  destruct (min_timer (all_timers s)) as [[[d q] [k | t]]|] eqn:M; [| |exact Hidle];
    pose proof (min_timer_in _ _ M) as Hin; apply min_timer_bound in M.
  - apply in_all_forget in Hin. simpl. destruct (aget key_eqb k (recent s)) as [v|] eqn:G; [eapply Hexpire; eauto|].
    exfalso. destruct HI as (I1 & _). apply (proj2 (I1 k)); [|exact G]. apply in_map_iff. exists (d, q, k). auto.
  - apply in_all_timer in Hin. destruct t as [r tok | r w t c]; [apply Hack; assumption|]. apply Hretr; [assumption..|].
    destruct HI as (_ & _ & _ & _ & I5). apply (proj1 (Forall_forall _ _) I5 _ Hin).
Qed.

(* the expiry callback: _recent_messages.pop(k), with k's timer gone from the loop *)
Definition forget (k : Z * Z) (s : st) : st :=
  set_recent (aremove key_eqb k (recent s)) (set_forgets (filter (fun f => negb (key_eqb (snd f) k)) (forgets s)) s).
Lemma Inv_forget k0 s : Inv s -> Inv (forget k0 s).
Proof.
  intros (I1 & I2 & I3 & I4 & I5). split; [|split; [|split; [|split]]]; simpl.
  - intros k. destruct (key_eqb k0 k) eqn:E.
    + apply key_eqb_eq in E; subst k. rewrite (g_rm_eq key_eqb). split; [congruence|].
      intros H. apply in_map_iff in H as ([[d' q'] k'] & E' & H'). simpl in E'; subst k'.
      apply filter_In in H' as [_ H']. simpl in H'. rewrite key_eqb_refl in H'. discriminate.
    + apply key_eqb_neq in E. rewrite (g_rm_neq _ key_eqb_eq) by congruence. rewrite I1.
      rewrite !in_map_iff. split; intros ([[d' q'] k'] & E' & H'); simpl in E'; subst k'; exists (d', q', k); split; auto.
      * apply filter_In. split; auto. simpl. rewrite key_eqb_sym. apply negb_true_iff, key_eqb_neq. congruence.
      * apply filter_In in H'. tauto.
  - apply NoDup_map_filter. exact I2.
  - intros k r w G. destruct (key_eqb k0 k) eqn:E.
    + apply key_eqb_eq in E; subst k. rewrite (g_rm_eq key_eqb) in G. discriminate.
    + apply key_eqb_neq in E. rewrite (g_rm_neq _ key_eqb_eq) in G by congruence. eapply I3; exact G.
  - apply Forall_forall. intros f H. apply filter_In in H as [H _]. rewrite Forall_forall in I4. apply (I4 _ H).
  - exact I5.
Qed.
Lemma R_forget k0 s d q : NoDup (map snd (forgets s)) -> In (d, q, k0) (forgets s) -> d <= now s -> forall k, R k s (forget k0 s).
Proof.
  intros ND Hin Hd k. exists []. simpl. rewrite app_nil_r. split; [reflexivity|]. split; [lia|]. split; [constructor|]. split; [reflexivity|].
  destruct (key_eqb k0 k) eqn:E.
  - apply key_eqb_eq in E; subst k. rewrite (g_rm_eq key_eqb). destruct (aget key_eqb k0 (recent s)); [|reflexivity].
    right. split; [reflexivity|]. intros D q' HD.
    assert (X : (D, q', k0) = (d, q, k0)) by (apply (NoDup_map_inj_in snd _ _ _ ND HD Hin); reflexivity). inversion X; subst. exact Hd.
  - apply key_eqb_neq in E. rewrite (g_rm_neq _ key_eqb_eq) by congruence.
    destruct (aget key_eqb k (recent s)); [|reflexivity]. left. split; [reflexivity|].
    intros D q' HD. apply filter_In. split; auto. simpl. rewrite key_eqb_sym. apply negb_true_iff, key_eqb_neq. congruence.
Qed.

Lemma spec_then s0 s1 s2 : Inv s1 /\ (forall k, R k s0 s1) -> (Inv s1 -> Inv s2 /\ forall k, R k s1 s2) ->
  Inv s2 /\ forall k, R k s0 s2.
Proof. intros [HI1 R1] H. destruct (H HI1) as [HI2 R2]. split; [exact HI2 | intros k; eapply R_trans; [apply R1 | apply R2]]. Qed.

Lemma fire_spec s : Inv s -> Inv (fire s) /\ forall k, R k s (fire s).
Proof.
  intros HI.
  assert (Clock : forall d, due_bound d s -> let s1 := set_now (Z.max (now s) d) s in Inv s1 /\ forall k, R k s s1)
    by (intros d Hd; split; [apply Inv_set_now; assumption | intros k; apply R_set_now]).
  apply fire_ind; [exact HI | split; [exact HI | intros k; apply R_refl] | ..].
  - intros d q k0 v0 Hin Hd _. apply (spec_then _ _ _ (Clock d Hd)). intros HI1.
    change (set_recent _ _) with (forget k0 (set_now (Z.max (now s) d) s)).
    split; [apply Inv_forget; exact HI1 | apply (R_forget k0 _ d q); [apply HI1 | exact Hin | simpl; lia]].
  - intros d q r tok _ Hd. apply (spec_then _ _ _ (Clock d Hd)). intros HI1.
    apply Ext_spec; [exact HI1 | intros k; eapply Ext_trans0; [apply ext_cancel | apply ext_on_timeout]].
  - intros d q r w t c _ Hd Hc. apply (spec_then _ _ _ (Clock d Hd)). intros HI1.
    apply Ext_spec; [exact HI1 | intros k; eapply Ext_trans0; [apply ext_cancel | apply (walk_retransmit (ext_walk k)); exact Hc]].
Qed.

(* the loop's state is generalised before the case analysis, so that no proof by this principle meets [advance_fuel] *)
Lemma advance_loop_ind (P : st -> Prop) : (forall s, P s -> P (fire s)) ->
  forall fuel target s, P s -> P (advance_loop fuel target s).
Proof.
  intros Hf fuel target. induction fuel as [|fuel IH]; intros s H; simpl; [exact H|].
  destruct (next_due s) as [due|]; [|exact H]. destruct (due <=? target); [|exact H]. apply IH, Hf, H.
Qed.
Lemma advance_ind (P : st -> Prop) :
  (forall s, Inv s -> P s -> P (fire s)) ->
  (forall s v, Inv s -> P s -> due_bound v s -> P (set_now (Z.max (now s) v) s)) ->
  forall d s, Inv s -> P s -> Inv (advance d s) /\ P (advance d s).
Proof.
  intros Hf Hn d s HI H. unfold advance. destruct (d <? 0); [split; assumption|].
  assert (L : Inv (advance_loop advance_fuel (now s + d) s) /\ P (advance_loop advance_fuel (now s + d) s)).
  { apply (advance_loop_ind (fun s' => Inv s' /\ P s')); [|split; assumption].
    intros s0 [HI0 H0]. split; [apply (fire_spec s0 HI0) | apply Hf; assumption]. }
  revert L. generalize (advance_loop advance_fuel (now s + d) s). intros s1 [HI1 H1].
  assert (Clock : forall v, due_bound v s1 -> Inv (set_now (Z.max (now s1) v) s1) /\ P (set_now (Z.max (now s1) v) s1))
    by (intros v Hv; split; [apply Inv_set_now | apply Hn]; assumption).
  unfold next_due. destruct (min_timer (all_timers s1)) as [[[due q] a]|] eqn:M.
  - destruct (due <=? now s + d) eqn:L; [split; assumption|]. apply Clock.
    intros d' q' a' Hin. apply (min_timer_bound _ _ _ _ M) in Hin. lia.
  - apply Clock. apply min_timer_none in M. intros d' q' a' Hin. rewrite M in Hin. contradiction.
Qed.

Lemma advance_spec d s : Inv s -> Inv (advance d s) /\ forall k, R k s (advance d s).
Proof.
  intros HI. apply (advance_ind (fun s' => forall k, R k s s')); [| |exact HI | intros k; apply R_refl].
  - intros s1 HI1 R1 k. eapply R_trans; [apply R1 | apply (fire_spec s1 HI1)].
  - intros s1 v _ R1 _ k. eapply R_trans; [apply R1 | apply R_set_now].
Qed.

Definition insert_key (k : Z * Z) (s : st) : st :=
  set_recent (recent (set_tseq (tseq s + 1) (set_forgets (forgets s ++ [(now s + EXCHANGE_LIFETIME, tseq s, k)]) s)) ++ [(k, None)])
             (set_tseq (tseq s + 1) (set_forgets (forgets s ++ [(now s + EXCHANGE_LIFETIME, tseq s, k)]) s)).

Lemma dedup_fresh m s : aget key_eqb (msg_key m) (recent s) = None ->
  _deduplicate_message m s = (insert_key (msg_key m) s, false).
Proof. intros H. unfold _deduplicate_message. rewrite H. reflexivity. Qed.

Lemma dedup_dup m s v : aget key_eqb (msg_key m) (recent s) = Some v ->
  _deduplicate_message m s =
  (match i_type m, v with CON, Some (r, w) => _send_initially r w false s | _, _ => s end, true).
Proof.
  intros H. unfold _deduplicate_message. rewrite H.
  destruct (i_type m); try reflexivity. destruct v as [[r w]|]; reflexivity.
Qed.


Lemma Inv_insert k s : Inv s -> aget key_eqb k (recent s) = None -> Inv (insert_key k s).
Proof.
  intros (I1 & I2 & I3 & I4 & I5) G. unfold insert_key.
  split; [|split; [|split; [|split]]]; simpl.
  - intros k'. rewrite (g_app key_eqb), map_app, in_app_iff. simpl.
    destruct (key_eqb k' k) eqn:E.
    + apply key_eqb_eq in E; subst k'. rewrite G. split; [auto | congruence].
    + destruct (aget key_eqb k' (recent s)) eqn:G'.
      * split; [intros _; left; apply I1; congruence | congruence].
      * split; [congruence|]. intros [H | [H | []]].
        -- apply I1 in H. contradiction.
        -- subst k'. rewrite key_eqb_refl in E. discriminate.
  - rewrite map_app. simpl. apply NoDup_snoc; [exact I2|].
    intros H. apply I1 in H. contradiction.
  - intros k' r w H. rewrite (g_app key_eqb) in H. destruct (aget key_eqb k' (recent s)) eqn:G'.
    + inversion H; subst. eapply I3; exact G'.
    + simpl in H. destruct (key_eqb k' k); discriminate.
  - apply Forall_app; split; [exact I4|]. constructor; [|constructor]. simpl. unfold EXCHANGE_LIFETIME. lia.
  - exact I5.
Qed.

Lemma R_insert k k0 s : k <> k0 -> R k s (insert_key k0 s).
Proof.
  intros N. exists []. unfold insert_key; simpl. rewrite app_nil_r. repeat split; auto; try lia.
  rewrite (g_app key_eqb). apply key_eqb_neq in N.
  destruct (aget key_eqb k (recent s)).
  - left. split; [reflexivity|]. intros D q H. apply in_app_iff; left; exact H.
  - simpl. rewrite N. reflexivity.
Qed.

Lemma dispatch_dup m s v : is_request (i_code m) = true -> aget key_eqb (msg_key m) (recent s) = Some v ->
  dispatch_message m s = match i_type m, v with CON, Some (r, w) => _send_initially r w false s | _, _ => s end.
Proof. intros Q G. rewrite dispatch_message_unfold, Q, (dedup_dup m s v G). reflexivity. Qed.
Lemma dispatch_fresh m s : is_request (i_code m) = true -> aget key_eqb (msg_key m) (recent s) = None ->
  dispatch_message m s = dispatch_rest m (insert_key (msg_key m) s).
Proof. intros Q G. rewrite dispatch_message_unfold, Q, (dedup_fresh m s G). reflexivity. Qed.
Lemma dispatch_nonreq m s : is_request (i_code m) = false -> dispatch_message m s = dispatch_rest m s.
Proof. intros Q. rewrite dispatch_message_unfold, Q. reflexivity. Qed.

Lemma dispatch_message_ind (P : st -> Prop) m s :
  (is_request (i_code m) = false -> P (dispatch_rest m s)) ->
  (is_request (i_code m) = true -> aget key_eqb (msg_key m) (recent s) = None ->
     P (dispatch_rest m (insert_key (msg_key m) s))) ->
  (forall v, is_request (i_code m) = true -> aget key_eqb (msg_key m) (recent s) = Some v -> P s) ->
  (forall r w, is_request (i_code m) = true -> aget key_eqb (msg_key m) (recent s) = Some (Some (r, w)) ->
     P (_send_initially r w false s)) ->
  P (dispatch_message m s).
Proof.
  intros Hn Hf Hd Hr. destruct (is_request (i_code m)) eqn:Q; [|rewrite (dispatch_nonreq m s Q); auto].
  destruct (aget key_eqb (msg_key m) (recent s)) as [v|] eqn:G; [|rewrite (dispatch_fresh m s Q G); auto].
  rewrite (dispatch_dup m s v Q G). destruct (i_type m); eauto. destruct v as [[r w]|]; eauto.
Qed.

Lemma rest_sk_other k m t : msg_key m <> k -> rest_sk k m t = [].
Proof.
  intros N. unfold rest_sk, sk_of. apply key_eqb_neq in N. rewrite N.
  destruct (is_request (i_code m) && negb (is_ackrst (i_type m))); reflexivity.
Qed.
Lemma rest_sk_nonreq k m t : is_request (i_code m) = false -> rest_sk k m t = [].
Proof. intros Q. unfold rest_sk. rewrite Q. reflexivity. Qed.

(* the event is the first arrival of a request-coded message with key k *)
Definition fresh_for (k : Z * Z) (s : st) (e : event) : Prop :=
  exists m, e = Recv m /\ is_request (i_code m) = true /\ msg_key m = k /\ aget key_eqb k (recent s) = None.

Lemma step_spec s e : Inv s ->
  Inv (step s e) /\ forall k, ~ fresh_for k s e -> R k s (step s e).
Proof.
  intros HI.
  assert (Plain : forall s', (forall k, Ext [] k s s') -> Inv s' /\ forall k, ~ fresh_for k s e -> R k s s').
  { intros s' H. destruct (Ext_spec s s' HI H) as [A B]. split; [exact A | intros k _; apply B]. }
  destruct e as [m | | d | sid a | sid x | r0 b0 | r0]; simpl.
  - (* Recv *) apply dispatch_message_ind.
    + intros Q. apply Plain. intros k.
      pose proof (ext_dispatch_rest k m s) as E. rewrite rest_sk_nonreq in E by exact Q. exact E.
    + intros Q G. pose proof (Inv_insert _ _ HI G) as HI1. split.
      * apply (Inv_ext (insert_key (msg_key m) s)); [exact HI1|]. intros k; eexists; apply ext_dispatch_rest.
      * intros k NF.
        assert (N : msg_key m <> k) by (intros E; apply NF; exists m; subst k; auto).
        eapply R_trans; [apply R_insert; intros E'; apply N; symmetry; exact E'|]. apply Ext_R.
        pose proof (ext_dispatch_rest k m (insert_key (msg_key m) s)) as E. rewrite rest_sk_other in E by exact N. exact E.
    + intros v _ _. apply Plain. intros k; apply Ext_refl.
    + intros r w _ _. apply Plain. intros k; apply ext_send_initially.
  - (* Fire *) destruct (fire_spec s HI) as [A B]. split; [exact A | intros k _; apply B].
  - (* Advance *) destruct (advance_spec d s HI) as [A B]. split; [exact A | intros k _; apply B].
  - (* Respond *) apply Plain. intros k; apply (walk_handler (ext_walk k) (ext_send_message k)).
  - (* RaiseIn *) apply Plain. intros k; apply (walk_handler (ext_walk k) (ext_send_message k)).
  - (* Refuse *) apply Plain. intros k; apply ext_set_refused.
  - (* NetError *) apply Plain. intros k; apply (walk_mm_dispatch_error (ext_walk k)).
Qed.

Lemma step_fresh s m : Inv s -> is_request (i_code m) = true -> aget key_eqb (msg_key m) (recent s) = None ->
  let k := msg_key m in let s' := step s (Recv m) in
  exists new q, outs s' = outs s ++ new /\ now s' = now s /\ Forall (fun o => out_time o = now s) new
    /\ starts k new = (if negb (is_ackrst (i_type m)) then [now s] else [])
    /\ aget key_eqb k (recent s') = Some (last_reply k new None)
    /\ In (now s + EXCHANGE_LIFETIME, q, k) (forgets s').
Proof.
  intros HI Q G. simpl. rewrite (dispatch_fresh m s Q G).
  destruct (ext_dispatch_rest (msg_key m) m (insert_key (msg_key m) s)) as [N F _ (new & O & T & S & A)].
  exists new, (tseq s). split; [exact O|]. split; [exact N|]. split; [exact T|]. split; [|split].
  - rewrite S. unfold rest_sk, sk_of. rewrite Q, key_eqb_refl. simpl. reflexivity.
  - rewrite A. unfold insert_key; simpl. rewrite (g_app key_eqb), G. simpl. rewrite key_eqb_refl. reflexivity.
  - rewrite F. unfold insert_key; simpl. apply in_app_iff. right. left. reflexivity.
Qed.

(* a copy inside the lifetime: exactly the remembered reply, no other change *)
Lemma set_recent_same s : set_recent (recent s) s = s.
Proof. destruct s; reflexivity. Qed.
Lemma set_outs_nil s : set_outs (outs s ++ []) s = s.
Proof. rewrite app_nil_r. destruct s; reflexivity. Qed.

Lemma dup_exact s m v : Inv s -> is_request (i_code m) = true -> aget key_eqb (msg_key m) (recent s) = Some v ->
  is_refused (i_remote m) s = false ->
  step s (Recv m) =
  set_outs (outs s ++ match i_type m, v with CON, Some (r, w) => [Send (now s) r w] | _, _ => [] end) s.
Proof.
  intros HI Q G NR. simpl. rewrite (dispatch_dup m s v Q G).
  destruct (i_type m); try (symmetry; apply set_outs_nil).
  destruct v as [[r w]|]; [|symmetry; apply set_outs_nil].
  pose proof (stored_key s _ r w HI G) as Hk. destruct HI as (_ & _ & I3 & _). destruct (I3 _ _ _ G) as (E1 & _ & E3).
  assert (T : _send_via_transport r w s = set_outs (outs s ++ [Send (now s) r w]) s).
  { unfold _send_via_transport, refusal, send_log, emit, is_refused in *. simpl. rewrite E1. simpl. rewrite NR. reflexivity. }
  unfold _send_initially, _store_response_for_duplicates.
  destruct (w_type w); simpl in E3; try discriminate; simpl; rewrite Hk, G, (rep_same key_eqb _ _ _ G), set_recent_same; exact T.
Qed.

Definition log_since (s s' : st) : list output := skipn (length (outs s)) (outs s').
Lemma log_since_app s s' new : outs s' = outs s ++ new -> log_since s s' = new.
Proof.
  intros H. unfold log_since. rewrite H. rewrite skipn_app, skipn_all, Nat.sub_diag. reflexivity.
Qed.

Lemma step_mono s e : Inv s ->
  exists new, outs (step s e) = outs s ++ new /\ now s <= now (step s e) /\ Forall (fun o => now s <= out_time o) new.
Proof.
  intros HI. destruct (step_spec s e HI) as [_ H].
  assert (X : exists k, ~ fresh_for k s e).
  { destruct e as [m| | | | | |]; [exists (i_remote m + 1, i_mid m) | exists (0, 0) ..]; intros (m' & E & _ & K & _); inversion E; subst.
    unfold msg_key in K. inversion K. lia. }
  destruct X as [k NF]. destruct (H k NF) as (new & O & N & T & _). exists new. auto.
Qed.

Lemma run_spec evs : forall s, Inv s ->
  Inv (run s evs) /\ exists new, outs (run s evs) = outs s ++ new /\ now s <= now (run s evs)
                                 /\ Forall (fun o => now s <= out_time o) new.
Proof.
  induction evs as [|e evs IH]; intros s HI; simpl.
  - split; [exact HI|]. exists []. rewrite app_nil_r. repeat split; auto; lia.
  - destruct (step_spec s e HI) as [HI1 _]. destruct (step_mono s e HI) as (n1 & O1 & N1 & T1).
    destruct (IH _ HI1) as [HI2 (n2 & O2 & N2 & T2)]. split; [exact HI2|].
    exists (n1 ++ n2). rewrite O2, O1, app_assoc. split; [reflexivity|]. split; [lia|].
    apply Forall_app; split; [exact T1|]. eapply Forall_impl; [|exact T2]. simpl; intros; lia.
Qed.
Lemma run_inv evs s : Inv s -> Inv (run s evs).
Proof. intros H. apply (run_spec evs s H). Qed.
Lemma run_keeps (P : st -> Prop) : (forall s e, Inv s -> P s -> P (step s e)) -> forall evs s, Inv s -> P s -> P (run s evs).
Proof.
  intros H. induction evs as [|e evs IH]; intros s HI HP; simpl; [exact HP|].
  apply IH; [apply (step_spec s e HI) | apply H; assumption].
Qed.
Lemma run_outs evs s : Inv s -> outs (run s evs) = outs s ++ log_since s (run s evs).
Proof. intros H. destruct (run_spec evs s H) as [_ (new & O & _)]. rewrite (log_since_app _ _ _ O). exact O. Qed.
Lemma log_since_cons e evs s : Inv s ->
  log_since s (run s (e :: evs)) = log_since s (step s e) ++ log_since (step s e) (run (step s e) evs).
Proof.
  intros HI. simpl. apply log_since_app.
  rewrite (run_outs evs (step s e)) by (apply (step_spec s e HI)). rewrite (run_outs [e] s HI) at 1. apply app_assoc_reverse.
Qed.

Lemma not_fresh_present k s e v : aget key_eqb k (recent s) = Some v -> ~ fresh_for k s e.
Proof. intros G (m & _ & _ & _ & G'). congruence. Qed.

(* one event, the clock staying short of the due time of k's expiry timer afterwards: k stays known *)
Lemma alive_step k s e evs v D q : Inv s -> aget key_eqb k (recent s) = Some v -> In (D, q, k) (forgets s) ->
  now (run (step s e) evs) < D ->
  Inv (step s e) /\ exists new, outs (step s e) = outs s ++ new /\ starts k new = [] /\
    aget key_eqb k (recent (step s e)) = Some (last_reply k new v) /\ In (D, q, k) (forgets (step s e)).
Proof.
  intros HI G HD Hn. destruct (step_spec s e HI) as [HI1 HR]. split; [exact HI1|].
  destruct (HR k (not_fresh_present k s e v G)) as (new & O & _ & _ & S & A). rewrite G in A.
  destruct (run_spec evs (step s e) HI1) as [_ (n2 & _ & N2 & _)].
  destruct A as [[A F] | [_ F]]; [|specialize (F D q HD); lia].
  exists new. auto.
Qed.

(* while its expiry timer has not fired, the entry of k follows the log and no request with key k is started *)
Lemma alive_run k evs : forall s v D q, Inv s -> aget key_eqb k (recent s) = Some v -> In (D, q, k) (forgets s) ->
  now (run s evs) < D ->
  starts k (log_since s (run s evs)) = []
  /\ aget key_eqb k (recent (run s evs)) = Some (last_reply k (log_since s (run s evs)) v)
  /\ In (D, q, k) (forgets (run s evs)).
Proof.
  induction evs as [|e evs IH]; intros s v D q HI G HD Hn.
  - simpl in *. rewrite (log_since_app s s []) by (symmetry; apply app_nil_r). auto.
  - rewrite (log_since_cons e evs s HI). simpl in Hn |- *.
    destruct (alive_step k s e evs v D q HI G HD Hn) as (HI1 & new & O & S & A & F). rewrite (log_since_app _ _ _ O).
    destruct (IH (step s e) (last_reply k new v) D q HI1 A F Hn) as (S2 & A2 & F2).
    rewrite starts_app, S, S2, last_reply_app. auto.
Qed.

Lemma timer_known k s D q : Inv s -> In (D, q, k) (forgets s) -> (exists v, aget key_eqb k (recent s) = Some v) /\ now s <= D.
Proof.
  intros (I1 & _ & _ & I4 & _) HD. split; [|rewrite Forall_forall in I4; apply (I4 _ HD)].
  destruct (aget key_eqb k (recent s)) eqn:G; [eauto|]. exfalso.
  apply (proj2 (I1 k)); [|exact G]. apply in_map_iff. exists (D, q, k). auto.
Qed.

(* nothing with key k is handed to the application before the expiry timer of k is due *)
Lemma no_start_before_due k evs : forall s D q, Inv s -> In (D, q, k) (forgets s) ->
  Forall (fun t => D <= t) (starts k (log_since s (run s evs))).
Proof.
  induction evs as [|e evs IH]; intros s D q HI HD.
  - simpl. rewrite (log_since_app s s []) by (symmetry; apply app_nil_r). constructor.
  - rewrite (log_since_cons e evs s HI), starts_app.
    destruct (timer_known k s D q HI HD) as [[v G] _].
    destruct (step_spec s e HI) as [HI1 HR]. specialize (HR k (not_fresh_present k s e v G)).
    destruct HR as (new & O & N & T & S & A). rewrite G in A. rewrite (log_since_app _ _ _ O), S. simpl.
    destruct A as [[A F] | [_ F]].
    + apply (IH _ D q HI1 (F D q HD)).
    + specialize (F D q HD). destruct (run_spec evs (step s e) HI1) as [_ (n2 & O2 & N2 & T2)].
      rewrite (log_since_app _ _ _ O2). apply starts_times. eapply Forall_impl; [|exact T2]. simpl; intros; lia.
Qed.

Inductive spaced (L : Z) : list Z -> Prop :=
| spaced_nil : spaced L []
| spaced_cons t l : Forall (fun t' => t + L <= t') l -> spaced L l -> spaced L (t :: l).

Lemma fresh_dec k s e : fresh_for k s e \/ ~ fresh_for k s e.
Proof.
  destruct e as [m| | | | | |]; try (right; intros (m' & E & _); discriminate).
  destruct (is_request (i_code m)) eqn:Q; [|right; intros (m' & E & Q' & _); inversion E; subst; congruence].
  destruct (key_eqb (msg_key m) k) eqn:K.
  - apply key_eqb_eq in K. destruct (aget key_eqb k (recent s)) eqn:G.
    + right. intros (m' & _ & _ & _ & G'). congruence.
    + left. exists m. auto.
  - right. intros (m' & E & _ & K' & _). inversion E; subst. rewrite key_eqb_refl in K. discriminate.
Qed.

Lemma handler_at_most_once k evs : forall s, Inv s ->
  spaced EXCHANGE_LIFETIME (starts k (log_since s (run s evs))).
Proof.
  induction evs as [|e evs IH]; intros s HI.
  - simpl. rewrite (log_since_app s s []) by (symmetry; apply app_nil_r). constructor.
  - rewrite (log_since_cons e evs s HI), starts_app.
    destruct (step_spec s e HI) as [HI1 HR].
    destruct (fresh_dec k s e) as [(m & -> & Q & K & G) | NF].
    + subst k. destruct (step_fresh s m HI Q G) as (new & q & O & N & T & S & A & F).
      rewrite (log_since_app _ _ _ O), S.
      destruct (negb (is_ackrst (i_type m))); simpl; [|apply IH; exact HI1].
      constructor; [|apply IH; exact HI1]. apply (no_start_before_due _ evs _ _ q HI1 F).
    + destruct (HR k NF) as (new & O & _ & _ & S & _). rewrite (log_since_app _ _ _ O), S. simpl. apply IH; exact HI1.
Qed.

(* readable form: two hand-overs of the same key are at least a lifetime apart *)
Lemma spaced_nth L l : spaced L l -> forall i j t1 t2, (i < j)%nat -> nth_error l i = Some t1 -> nth_error l j = Some t2 -> t1 + L <= t2.
Proof.
  induction 1 as [|t l Hf Hs IH]; intros i j t1 t2 Hij H1 H2; [destruct i; discriminate|].
  destruct j as [|j]; [lia|]. destruct i as [|i]; simpl in *.
  - inversion H1; subst. rewrite Forall_forall in Hf. apply Hf. eapply nth_error_In; eauto.
  - eapply IH; [|eauto|eauto]. lia.
Qed.

(* the first arrival of m's key at s0, then any events that keep the clock inside the lifetime: the entry follows the log,
   nothing is started for the key, its one expiry timer stays *)
Lemma first_arrival_run s0 m evs : Inv s0 ->
  is_request (i_code m) = true -> aget key_eqb (msg_key m) (recent s0) = None ->
  let k := msg_key m in let s1 := step s0 (Recv m) in let s2 := run s1 evs in
  now s2 < now s0 + EXCHANGE_LIFETIME ->
  Inv s1 /\ exists new q,
    outs s1 = outs s0 ++ new /\ log_since s0 s2 = new ++ log_since s1 s2 /\
    aget key_eqb k (recent s1) = Some (last_reply k new None) /\ In (now s0 + EXCHANGE_LIFETIME, q, k) (forgets s1) /\
    starts k (log_since s1 s2) = [] /\
    aget key_eqb k (recent s2) = Some (last_reply k (log_since s0 s2) None) /\
    In (now s0 + EXCHANGE_LIFETIME, q, k) (forgets s2).
Proof.
  intros HI Q G k s1 s2 Hn.
  destruct (step_fresh s0 m HI Q G) as (new & q & O & _ & _ & _ & A & F). fold s1 k in O, A, F.
  assert (HI1 : Inv s1) by apply (step_spec s0 (Recv m) HI).
  destruct (alive_run k evs s1 _ _ q HI1 A F Hn) as (S2 & A2 & F2). fold s2 in S2, A2, F2.
  assert (L : log_since s0 s2 = new ++ log_since s1 s2).
  { apply log_since_app. unfold s2. rewrite (run_outs evs s1 HI1), O. apply app_assoc_reverse. }
  split; [exact HI1|]. exists new, q. rewrite L, last_reply_app. repeat split; assumption.
Qed.

(* no request-coded message with key k arrives *)
Definition no_arrival (k : Z * Z) (e : event) : Prop :=
  match e with Recv m => is_request (i_code m) && key_eqb (msg_key m) k = false | _ => True end.
Lemma no_arrival_not_fresh k s e : no_arrival k e -> ~ fresh_for k s e.
Proof.
  intros H (m & -> & Q & K & _). simpl in H. subst k. rewrite Q, key_eqb_refl in H. discriminate.
Qed.

Lemma run_R k evs : forall s, Inv s -> Forall (no_arrival k) evs -> R k s (run s evs).
Proof.
  induction evs as [|e evs IH]; intros s HI Hev; simpl; [apply R_refl|]. inversion Hev as [|? ? He Hev']; subst.
  destruct (step_spec s e HI) as [HI1 HR].
  eapply R_trans; [apply HR, no_arrival_not_fresh, He | apply IH; assumption].
Qed.

Lemma Inv_init mid0 u : Inv (init mid0 u).
Proof.
  unfold Inv, init, TOK; simpl. split; [|split; [|split; [|split]]].
  - intros k; split; [congruence | intros []].
  - constructor.
  - intros k r w H; discriminate.
  - constructor.
  - constructor.
Qed.

Lemma reachable_inv mid0 u evs : Inv (run (init mid0 u) evs).
Proof. apply run_inv, Inv_init. Qed.

Lemma Ext_present sk k s s' v : Ext sk k s s' -> aget key_eqb k (recent s) = Some v ->
  exists new, outs s' = outs s ++ new /\ starts k new = sk
    /\ aget key_eqb k (recent s') = Some (last_reply k new v) /\ forgets s' = forgets s.
Proof.
  intros [_ F _ (new & O & _ & S & A)] G. exists new. rewrite A, G. auto.
Qed.

(* a datagram with another key never removes or resets the entry of k and starts nothing for k *)
Lemma other_keys_keep_entry s m k v : Inv s -> msg_key m <> k ->
  aget key_eqb k (recent s) = Some v ->
  exists new, outs (step s (Recv m)) = outs s ++ new /\ starts k new = [] /\
    aget key_eqb k (recent (step s (Recv m))) = Some (last_reply k new v) /\
    forall D q, In (D, q, k) (forgets s) -> In (D, q, k) (forgets (step s (Recv m))).
Proof.
  intros HI N G.
  assert (Plain : forall s', Ext [] k s s' -> exists new, outs s' = outs s ++ new /\ starts k new = [] /\
            aget key_eqb k (recent s') = Some (last_reply k new v) /\ forall D q, In (D, q, k) (forgets s) -> In (D, q, k) (forgets s')).
  { intros s' E. destruct (Ext_present _ _ _ _ _ E G) as (new & O & S & A & F). exists new. rewrite F. auto. }
  simpl. apply dispatch_message_ind.
  - intros Q. apply Plain. pose proof (ext_dispatch_rest k m s) as E. rewrite rest_sk_nonreq in E by exact Q. exact E.
  - intros Q G0. pose proof (ext_dispatch_rest k m (insert_key (msg_key m) s)) as E. rewrite rest_sk_other in E by exact N.
    assert (G1 : aget key_eqb k (recent (insert_key (msg_key m) s)) = Some v).
    { unfold insert_key; simpl. rewrite (g_app key_eqb), G. reflexivity. }
    destruct (Ext_present _ _ _ _ _ E G1) as (new & O & S & A & F). exists new. rewrite F.
    split; [exact O|]. split; [exact S|]. split; [exact A|].
    intros D q H. unfold insert_key; simpl. apply in_app_iff; left; exact H.
  - intros v0 _ _. apply Plain, Ext_refl.
  - intros r w _ _. apply Plain, ext_send_initially.
Qed.

