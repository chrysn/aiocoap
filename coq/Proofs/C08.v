(* C08 — observe server: reading the model's 18-field state, and the resource's bookkeeping (cancellation exactly once,
   observer count, observers = live registrations) by refinement to an abstract machine. *)
From Verif Require Import Lib.Py Lib.PyLemmas Lib.Tactics Model.C08.
Open Scope Z_scope.

(* Reads fields of updated states. The setters are listed for [cbn], never unfolded: each is written out as
   [mkstate (s_now s) ... (s_prod s)], so unfolding setters nested d deep gives a term of size 18^d. *)
Ltac fsimpl :=
  cbn [log set_now set_seq set_timers set_mid set_recent set_exch set_backlog set_piggy set_regs set_observers
       set_gidctr set_version set_mode set_gate set_down set_cancelq set_hist set_prod
       s_now s_seq s_timers s_mid s_recent s_exch s_backlog s_piggy s_regs s_observers s_gidctr s_version s_mode s_gate
       s_down s_cancelq s_hist s_prod] in *.

Lemma nil_if_empty {A} (l : list A) : (forall x, ~ In x l) -> l = [].
Proof. destruct l as [|a l]; [reflexivity|]. intros H. exfalso. apply (H a). left. reflexivity. Qed.
Lemma filter_filter_comm {A} (p q : A -> bool) l : filter p (filter q l) = filter q (filter p l).
Proof. induction l as [|x l IH]; cbn; [reflexivity|].
  destruct (p x) eqn:P, (q x) eqn:Q; cbn; rewrite ?P, ?Q, IH; reflexivity. Qed.

Lemma fold_left_pres {A B} (P : A -> Prop) (f : A -> B -> A) l : (forall a b, P a -> P (f a b)) -> forall a, P a -> P (fold_left f l a).
Proof. intros Hf. induction l as [|b l IH]; intros a Ha; cbn [fold_left]; [exact Ha | apply IH, Hf, Ha]. Qed.
Lemma fold_left_rel {A B} (R : A -> A -> Prop) (f : A -> B -> A) l :
  (forall a, R a a) -> (forall a b c, R a b -> R b c -> R a c) -> (forall a b, R a (f a b)) -> forall a, R a (fold_left f l a).
Proof. intros Hr Ht Hf a. apply (fold_left_pres (R a)); [|apply Hr]. intros a' b Ha. eapply Ht; [exact Ha | apply Hf]. Qed.

Definition memZ (x : Z) (l : list Z) : bool := existsb (Z.eqb x) l.
Definition rm (g : Z) (l : list Z) : list Z := filter (fun x => negb (x =? g)) l.

Lemma memZ_In x l : memZ x l = true <-> In x l.
Proof. unfold memZ. rewrite existsb_exists. split.
  - intros [y [H1 H2]]. apply Z.eqb_eq in H2. subst. exact H1.
  - intros H. exists x. split; [exact H | apply Z.eqb_refl]. Qed.
Lemma memZ_false x l : memZ x l = false <-> ~ In x l.
Proof. rewrite <- memZ_In. destruct (memZ x l); split; congruence. Qed.
Lemma memZ_app x a b : memZ x (a ++ b) = memZ x a || memZ x b.
Proof. unfold memZ. apply existsb_app. Qed.
Lemma In_rm x g l : In x (rm g l) <-> In x l /\ x <> g.
Proof. unfold rm. rewrite filter_In. split; intros [H1 H2]; split; auto; lia. Qed.
Lemma memZ_rm x g l : memZ x (rm g l) = memZ x l && negb (x =? g).
Proof. destruct (memZ x (rm g l)) eqn:E.
  - apply memZ_In in E. apply In_rm in E as [E1 E2]. apply memZ_In in E1. rewrite E1. cbn. lia.
  - apply memZ_false in E. rewrite In_rm in E. destruct (memZ x l) eqn:E1; [|reflexivity].
    apply memZ_In in E1. destruct (x =? g) eqn:E2; [reflexivity|]. exfalso. apply E. split; [assumption | lia]. Qed.
Lemma rm_notin g l : ~ In g l -> rm g l = l.
Proof. intros H. apply filter_all. intros x Hx. destruct (x =? g) eqn:E; [|reflexivity]. exfalso. apply H. replace g with x by lia. exact Hx. Qed.
Lemma rm_app g a b : rm g (a ++ b) = rm g a ++ rm g b.
Proof. unfold rm. apply filter_app. Qed.
Lemma NoDup_rm g l : NoDup l -> NoDup (rm g l).
Proof. apply NoDup_filter. Qed.
Lemma length_rm g l : NoDup l -> In g l -> S (length (rm g l)) = length l.
Proof. induction l as [|x l IH]; cbn; intros Hn Hi; [tauto|]. inv Hn.
  change (filter (fun x0 => negb (x0 =? g)) l) with (rm g l).
  destruct (x =? g) eqn:E; cbn [negb length].
  - assert (x = g) by lia. subst. rewrite rm_notin by assumption. reflexivity.
  - f_equal. apply IH; [assumption|]. destruct Hi; [lia | assumption]. Qed.

Lemma find_reg_In s gid g : find_reg s gid = Some g -> In g (s_regs s) /\ g_gid g = gid.
Proof. unfold find_reg. intros H. apply find_some in H as [H1 H2]. split; [exact H1 | lia]. Qed.
Lemma find_reg_gids s gid g : find_reg s gid = Some g -> In (g_gid g) (map g_gid (s_regs s)).
Proof. intros H. apply find_reg_In in H as [H1 _]. apply in_map. exact H1. Qed.
Lemma find_reg_None s gid : find_reg s gid = None -> ~ In gid (map g_gid (s_regs s)).
Proof. unfold find_reg. intros H Hin. apply in_map_iff in Hin as [g [Hg Hi]].
  eapply find_none in H; [|exact Hi]. cbn in H. lia. Qed.
Lemma find_reg_of_In s g0 : NoDup (map g_gid (s_regs s)) -> In g0 (s_regs s) -> find_reg s (g_gid g0) = Some g0.
Proof. intros Hn Hg. destruct (find_reg s (g_gid g0)) as [g1|] eqn:E.
  - apply find_reg_In in E as [E1 E2]. f_equal. apply (NoDup_map_inj_in g_gid (s_regs s)); auto.
  - exfalso. apply find_reg_None in E. apply E. apply in_map. exact Hg. Qed.
Lemma find_key_In s r tok g : find_key s r tok = Some g -> In g (s_regs s) /\ g_remote g = r /\ g_token g = tok.
Proof. unfold find_key. intros H. apply find_some in H as [H1 H2]. split; [exact H1 | lia]. Qed.

Lemma In_remove_reg s x g : In g (s_regs (remove_reg s x)) <-> In g (s_regs s) /\ g_gid g <> x.
Proof. unfold remove_reg. fsimpl. rewrite filter_In. split; intros [H1 H2]; split; auto; lia. Qed.
Lemma gids_remove_reg s x : map g_gid (s_regs (remove_reg s x)) = rm x (map g_gid (s_regs s)).
Proof. unfold remove_reg. fsimpl. induction (s_regs s) as [|y l IH]; cbn; [reflexivity|]. destruct (g_gid y =? x); cbn; rewrite IH; reflexivity. Qed.
Lemma In_put_reg s g g0 : In g0 (s_regs (put_reg s g)) -> g0 = g \/ (In g0 (s_regs s) /\ g_gid g0 <> g_gid g).
Proof. unfold put_reg. fsimpl. intros H. apply in_map_iff in H as [y [Hy Hi]]. destruct (g_gid y =? g_gid g) eqn:E; subst g0; [left; reflexivity | right; split; [exact Hi | lia]]. Qed.
Lemma In_put_reg_other s g g0 : In g0 (s_regs s) -> g_gid g0 <> g_gid g -> In g0 (s_regs (put_reg s g)).
Proof. intros H Hn. unfold put_reg. fsimpl. apply in_map_iff. exists g0. split; [|exact H]. replace (g_gid g0 =? g_gid g) with false by lia. reflexivity. Qed.
Lemma find_reg_put_reg s g0 g : find_reg s (g_gid g) = Some g0 -> find_reg (put_reg s g) (g_gid g) = Some g.
Proof. unfold find_reg, put_reg. fsimpl. induction (s_regs s) as [|x l IH]; cbn; [discriminate|]. destruct (g_gid x =? g_gid g) eqn:E.
  - intros _. cbn. rewrite Z.eqb_refl. reflexivity.
  - cbn. rewrite E. exact IH. Qed.
Lemma gids_put_reg s g : map g_gid (s_regs (put_reg s g)) = map g_gid (s_regs s).
Proof. unfold put_reg. fsimpl. induction (s_regs s) as [|x l IH]; cbn; [reflexivity|]. rewrite IH. destruct (g_gid x =? g_gid g) eqn:E; [f_equal; lia | reflexivity]. Qed.

(* the shape [after_response] and [first_render_done] share (callback before the error response of a raising render,
   after a returned final one) *)
Definition respond (last : bool) (n : Z) (cont : state -> reg -> state) (s : state) (g : reg) (res : rres) : state :=
  match res with
  | RRaise code pk pv => remove_reg (emit (cancel_cb s (g_gid g)) g code None pk pv) (g_gid g)
  | RResp code pk pv =>
      if last || negb (successful code)
      then cancel_cb (remove_reg (emit s g code None pk pv) (g_gid g)) (g_gid g)
      else cont (emit s (set_next g n) code (Some n) pk pv) (set_next g n)
  end.
Lemma after_response_respond cont s g res : after_response cont s g res = respond (g_late g) (g_next g + 1) cont s g res.
Proof. destruct res; reflexivity. Qed.
Lemma first_render_done_respond s g res : first_render_done s g res = respond false 0 (run_loop 2) s g res.
Proof. destruct res; reflexivity. Qed.
(* a completed render: nothing happens, or the task of the registration on that key answers — the first response or a later one *)
Lemma render_done_ind (P : state -> Prop) s r tok : P s ->
  (forall g v last n, find_key s r tok = Some g -> (g_phase g = PFirst v /\ n = 0 \/ g_phase g = PNotif v /\ n = g_next g + 1) ->
     P (flush_cancels (respond last n (run_loop 2) s g (render_outcome (s_mode s) v)))) ->
  P (step s (ERenderDone r tok)).
Proof. intros H0 H1. cbn [step]. destruct (find_key s r tok) as [g|]; [|exact H0]. destruct (g_phase g) as [v| |v] eqn:Ep; [|exact H0|].
  - rewrite first_render_done_respond. apply H1; auto.
  - rewrite after_response_respond. apply H1; auto. Qed.

(* frame: [f] ignores the fields the operation writes; the premises are closed by [reflexivity] *)
Lemma send_initially_field {T} (f : state -> T) s m x rt :
  (forall s v, f (set_timers s v) = f s) -> (forall s v, f (set_seq s v) = f s) -> (forall s v, f (set_exch s v) = f s) ->
  (forall s v, f (set_recent s v) = f s) -> (forall s v, f (set_hist s v) = f s) -> f (send_initially s m x rt) = f s.
Proof. intros H1 H2 H3 H4 H5. unfold send_initially, send_via_transport, log, store_response_for_duplicates, add_exchange, add_timer.
  rewrite H5. destruct (m_mtype m); rewrite ?H4, ?H3, ?H2, ?H1; reflexivity. Qed.
Lemma send_message_field {T} (f : state -> T) s m c x :
  (forall s v, f (set_timers s v) = f s) -> (forall s v, f (set_seq s v) = f s) -> (forall s v, f (set_exch s v) = f s) ->
  (forall s v, f (set_recent s v) = f s) -> (forall s v, f (set_hist s v) = f s) -> (forall s v, f (set_piggy s v) = f s) ->
  (forall s v, f (set_mid s v) = f s) -> (forall s v, f (set_prod s v) = f s) -> (forall s v, f (set_backlog s v) = f s) ->
  f (send_message s m c x) = f s.
Proof. intros H1 H2 H3 H4 H5 H6 H7 H8 H9. unfold send_message, cancel_timers, piggy_remove.
  destruct (piggy_find s (m_remote m) (m_token m)).
  - rewrite send_initially_field, H8, H1, H6 by assumption. reflexivity.
  - destruct (if s_down s then NON else if c then CON else NON); try (rewrite send_initially_field, H8, H7 by assumption; reflexivity).
    destruct (has_exchange _ _); [rewrite H9, H8, H7 | rewrite send_initially_field, H8, H7 by assumption]; reflexivity. Qed.
Lemma send_initially_hist s m x rt : s_hist (send_initially s m x rt) = OSend m rt :: s_hist s.
Proof. unfold send_initially, store_response_for_duplicates, add_exchange, add_timer. destruct (m_mtype m); reflexivity. Qed.
Lemma has_exchange_send_initially s m x rt r :
  has_exchange (send_initially s m x rt) r = has_exchange s r || match m_mtype m with CON => m_remote m =? r | _ => false end.
Proof. unfold send_initially, store_response_for_duplicates, send_via_transport, add_exchange, add_timer, has_exchange.
  destruct (m_mtype m); fsimpl; rewrite ?existsb_app; cbn; rewrite ?orb_false_r; reflexivity. Qed.
Lemma piggy_find_remove s r t : piggy_find (piggy_remove s r t) r t = None.
Proof. unfold piggy_find, piggy_remove. fsimpl.
  destruct (find _ (filter _ (s_piggy s))) as [[[r' t'] mid]|] eqn:E; [|reflexivity].
  apply find_some in E as [E1 E2]. apply filter_In in E1 as [_ E1]. cbn in *. rewrite E2 in E1. discriminate. Qed.

Lemma send_message_cases s m c x : let s' := send_message s m c x in
  exists t mid, let m1 := set_type_mid m t mid in
  s_prod s' = m1 :: s_prod s /\ (forall r, has_exchange s r = true -> has_exchange s' r = true) /\
  piggy_find s' (m_remote m) (m_token m) = None /\ (exists p, s_piggy s' = filter p (s_piggy s)) /\
  ((s_hist s' = OSend m1 false :: s_hist s /\ s_backlog s' = s_backlog s /\
    (piggy_find s (m_remote m) (m_token m) <> None \/ s_down s = true \/ c = false \/ has_exchange s (m_remote m) = false)) \/
   (s_hist s' = s_hist s /\ s_backlog s' = s_backlog s ++ [(m1, x)] /\ t = CON /\ has_exchange s (m_remote m) = true /\ c = true)).
Proof.
  assert (Direct : forall s0 m1, (forall r, has_exchange s0 r = has_exchange s r) -> s_hist s0 = s_hist s -> s_backlog s0 = s_backlog s ->
    let s' := send_initially s0 m1 x false in
    (forall r, has_exchange s r = true -> has_exchange s' r = true) /\ s_piggy s' = s_piggy s0 /\
    s_hist s' = OSend m1 false :: s_hist s /\ s_backlog s' = s_backlog s).
  { intros s0 m1 Ex Eh Eb. split; [intros r Hr; rewrite has_exchange_send_initially, Ex, Hr; reflexivity|].
    split; [apply send_initially_field; reflexivity|]. rewrite send_initially_hist, Eh. split; [reflexivity|].
    rewrite <- Eb. apply send_initially_field; reflexivity. }
  unfold send_message. destruct (piggy_find s (m_remote m) (m_token m)) as [mid|] eqn:Epf.
  - exists ACK, mid. match goal with |- context [send_initially ?a ?b x false] => destruct (Direct a b) as (D1 & D2 & D3 & D4); try reflexivity end.
    split; [rewrite send_initially_field by reflexivity; reflexivity | split; [exact D1|]].
    split; [unfold piggy_find; rewrite D2; apply (piggy_find_remove s) | split; [rewrite D2; eexists; reflexivity|]]. left. split; [exact D3 | split; [exact D4 | left; discriminate]].
  - exists (if s_down s then NON else if c then CON else NON), (s_mid s).
    set (t := if s_down s then NON else if c then CON else NON). set (m1 := set_type_mid m t (s_mid s)).
    set (sb := set_prod (set_mid s ((1 + s_mid s) mod 65536)) (m1 :: s_prod (set_mid s ((1 + s_mid s) mod 65536)))).
    destruct (Direct sb m1) as (D1 & D2 & D3 & D4); try reflexivity.
    assert (Sent : s_down s = true \/ c = false \/ has_exchange s (m_remote m) = false ->
      let s' := send_initially sb m1 x false in
      s_prod s' = m1 :: s_prod s /\ (forall r, has_exchange s r = true -> has_exchange s' r = true) /\
      piggy_find s' (m_remote m) (m_token m) = None /\ (exists p, s_piggy s' = filter p (s_piggy s)) /\
      ((s_hist s' = OSend m1 false :: s_hist s /\ s_backlog s' = s_backlog s /\
        (@None Z <> None \/ s_down s = true \/ c = false \/ has_exchange s (m_remote m) = false)) \/
       (s_hist s' = s_hist s /\ s_backlog s' = s_backlog s ++ [(m1, x)] /\ t = CON /\ has_exchange s (m_remote m) = true /\ c = true))).
    { intros Hc. split; [rewrite send_initially_field by reflexivity; reflexivity | split; [exact D1|]].
      split; [unfold piggy_find; rewrite D2; exact Epf|]. split; [rewrite D2; exists (fun _ => true); symmetry; apply filter_true|].
      left. auto. }
    subst t. destruct (s_down s); [apply Sent; left; reflexivity|]. destruct c; [|apply Sent; right; left; reflexivity].
    change (has_exchange sb (m_remote m1)) with (has_exchange s (m_remote m)).
    destruct (has_exchange s (m_remote m)) eqn:Ex; [|apply Sent; right; right; reflexivity].
    split; [reflexivity | split; [auto|]]. split; [exact Epf | split; [exists (fun _ => true); symmetry; apply filter_true|]]. right. auto.
Qed.

Definition drop1 (r : Z) := fix drop (l : list (msg * Z)) := match l with [] => [] | e :: l' => if m_remote (fst e) =? r then l' else e :: drop l' end.
Lemma drop1_incl r l x : In x (drop1 r l) -> In x l.
Proof. induction l as [|e l IH]; [tauto|]. cbn. destruct (m_remote (fst e) =? r); cbn; [tauto|]. intros [H|H]; [tauto | right; apply IH; exact H]. Qed.
Lemma continue_backlog_cases s r :
  (continue_backlog s r = s /\ (has_exchange s r = true \/ find (fun e => m_remote (fst e) =? r) (s_backlog s) = None)) \/
  exists m x, has_exchange s r = false /\ find (fun e => m_remote (fst e) =? r) (s_backlog s) = Some (m, x) /\
              continue_backlog s r = send_initially (set_backlog s (drop1 r (s_backlog s))) m x false.
Proof. unfold continue_backlog. destruct (has_exchange s r); [left; auto|].
  destruct (find _ (s_backlog s)) as [[m x]|]; [right; exists m, x; auto | left; auto]. Qed.
Lemma continue_backlog_field {T} (f : state -> T) s r :
  (forall s v, f (set_timers s v) = f s) -> (forall s v, f (set_seq s v) = f s) -> (forall s v, f (set_exch s v) = f s) ->
  (forall s v, f (set_recent s v) = f s) -> (forall s v, f (set_hist s v) = f s) -> (forall s v, f (set_backlog s v) = f s) ->
  f (continue_backlog s r) = f s.
Proof. intros H1 H2 H3 H4 H5 H6. destruct (continue_backlog_cases s r) as [[-> _]|(m & x & _ & _ & ->)]; [reflexivity|].
  rewrite send_initially_field, H6 by assumption. reflexivity. Qed.
Lemma stop_field {T} (f : state -> T) s x :
  (forall s v, f (set_regs s v) = f s) -> (forall s v, f (set_cancelq s v) = f s) -> f (stop s x) = f s.
Proof. intros H1 H2. unfold stop, remove_reg. destruct (find_reg s x); [rewrite H2, H1|]; reflexivity. Qed.
Lemma fold_stop_field {T} (f : state -> T) l s :
  (forall s v, f (set_regs s v) = f s) -> (forall s v, f (set_cancelq s v) = f s) -> f (fold_left stop l s) = f s.
Proof. intros H1 H2. apply (fold_left_pres (fun s' => f s' = f s)); [|reflexivity]. intros s' x E. rewrite stop_field; assumption. Qed.
Lemma flush_field {T} (f : state -> T) s :
  (forall s v, f (set_observers s v) = f s) -> (forall s v, f (set_hist s v) = f s) -> (forall s v, f (set_cancelq s v) = f s) ->
  f (flush_cancels s) = f s.
Proof. intros H1 H2 H3. unfold flush_cancels. rewrite H3. apply (fold_left_pres (fun s' => f s' = f s)); [|reflexivity].
  intros s' x E. unfold cancel_cb, log. rewrite H2, H1. exact E. Qed.

Lemma advance_pres (P : state -> Prop) : (forall s v n k, P s -> P (flush_cancels (fire (set_now (set_timers s v) n) k))) ->
  forall fuel s t, P s -> P (advance fuel s t).
Proof. intros Hf. induction fuel as [|f IH]; intros s t H; cbn [advance]; [exact H|].
  destruct (min_timer (s_timers s)) as [tm|]; [|exact H]. destruct (t_due tm <=? t); [|exact H]. apply IH, Hf, H. Qed.
Lemma advance_rel (R : state -> state -> Prop) : (forall s, R s s) -> (forall a b c, R a b -> R b c -> R a c) ->
  (forall s v n k, R s (flush_cancels (fire (set_now (set_timers s v) n) k))) -> forall fuel s t, R s (advance fuel s t).
Proof. intros Hr Ht Hf fuel s t. apply (advance_pres (R s)); [|apply Hr]. intros s' v n k H. eapply Ht; [exact H | apply Hf]. Qed.

Lemma run_app s es1 es2 : run s (es1 ++ es2) = run (run s es1) es2.
Proof. unfold run. apply fold_left_app. Qed.

Definition is_bk (o : output) : bool := match o with OAdd _ _ _ _ _ | OCancel _ _ => true | _ => false end.
Definition bk (h : list output) : list output := filter is_bk h.
Record astate := mka { a_gids : list Z; a_obs : list Z; a_cq : list Z; a_ctr : Z; a_bk : list output }.
Definition abs (s : state) : astate :=
  mka (map g_gid (s_regs s)) (s_observers s) (s_cancelq s) (s_gidctr s) (bk (s_hist s)).

Definition a_accept (r tok : Z) (con : bool) (a : astate) : astate :=
  mka (a_gids a ++ [a_ctr a]) (a_obs a ++ [a_ctr a]) (a_cq a) (a_ctr a + 1)
      (OAdd (a_ctr a) (Z.of_nat (length (a_obs a ++ [a_ctr a]))) r tok con :: a_bk a).
Definition a_stop (g : Z) (a : astate) : astate := mka (rm g (a_gids a)) (a_obs a) (a_cq a ++ [g]) (a_ctr a) (a_bk a).
Definition a_cancel (g : Z) (a : astate) : astate :=
  mka (a_gids a) (rm g (a_obs a)) (a_cq a) (a_ctr a) (OCancel g (Z.of_nat (length (rm g (a_obs a)))) :: a_bk a).
Definition a_unreg (g : Z) (a : astate) : astate := mka (rm g (a_gids a)) (a_obs a) (a_cq a) (a_ctr a) (a_bk a).
Definition a_end (g : Z) (a : astate) : astate := a_cancel g (a_unreg g a).
Definition a_setcq (l : list Z) (a : astate) : astate := mka (a_gids a) (a_obs a) l (a_ctr a) (a_bk a).
Definition a_flush (a : astate) : astate := a_setcq [] (fold_left (fun a g => a_cancel g a) (a_cq a) a).

(* reachability in the abstract machine; stop/end only for live registrations *)
Inductive areach (a : astate) : astate -> Prop :=
| ar_refl : areach a a
| ar_accept b r tok con : areach a b -> areach a (a_accept r tok con b)
| ar_stop b g : areach a b -> In g (a_gids b) -> areach a (a_stop g b)
| ar_end b g : areach a b -> In g (a_gids b) -> areach a (a_end g b)
| ar_flush b : areach a b -> areach a (a_flush b).
Lemma areach_trans a b c : areach a b -> areach b c -> areach a c.
Proof. intros H1 H2. induction H2; [assumption | constructor; assumption ..]. Qed.

Lemma bk_cons_send m rt h : bk (OSend m rt :: h) = bk h. Proof. reflexivity. Qed.
Lemma bk_cons_render g v h : bk (ORender g v :: h) = bk h. Proof. reflexivity. Qed.

Lemma abs_add_timer s d k : abs (add_timer s d k) = abs s. Proof. reflexivity. Qed.
Lemma abs_cancel_timers s p : abs (cancel_timers s p) = abs s. Proof. reflexivity. Qed.
Lemma abs_send_via s m rt : abs (send_via_transport s m rt) = abs s. Proof. reflexivity. Qed.
Lemma abs_store s m : abs (store_response_for_duplicates s m) = abs s.
Proof. unfold store_response_for_duplicates. destruct (m_mtype m); reflexivity. Qed.
Lemma abs_add_exchange s m g : abs (add_exchange s m g) = abs s. Proof. reflexivity. Qed.
Lemma abs_send_initially s m g rt : abs (send_initially s m g rt) = abs s.
Proof. unfold send_initially. rewrite abs_send_via, abs_store. destruct (m_mtype m); reflexivity. Qed.
Lemma abs_piggy_remove s r t : abs (piggy_remove s r t) = abs s. Proof. reflexivity. Qed.
Lemma abs_send_message s m c g : abs (send_message s m c g) = abs s.
Proof. unfold send_message. destruct (piggy_find s (m_remote m) (m_token m)).
  - rewrite abs_send_initially. reflexivity.
  - destruct (if s_down s then NON else if c then CON else NON); try (rewrite abs_send_initially; reflexivity).
    destruct (has_exchange _ _); [reflexivity | rewrite abs_send_initially; reflexivity]. Qed.
Lemma abs_continue_backlog s r : abs (continue_backlog s r) = abs s.
Proof. destruct (continue_backlog_cases s r) as [[-> _]|(m & x & _ & _ & ->)]; [|rewrite abs_send_initially]; reflexivity. Qed.
Lemma abs_purge_backlog s r : abs (purge_backlog s r) = abs s. Proof. reflexivity. Qed.
Lemma abs_emit s g code o pk pv : abs (emit s g code o pk pv) = abs s.
Proof. apply abs_send_message. Qed.
Lemma abs_plain s r tok con : abs (plain s r tok con) = abs s.
Proof. unfold plain. destruct (render_outcome _ _); rewrite abs_send_message; reflexivity. Qed.
Lemma abs_put_reg s g : abs (put_reg s g) = abs s.
Proof. unfold abs. rewrite gids_put_reg. reflexivity. Qed.
Lemma abs_trigger s gid tv l : abs (trigger s gid tv l) = abs s.
Proof. unfold trigger. destruct (find_reg s gid); [apply abs_put_reg | reflexivity]. Qed.
Lemma abs_trigger_burst order burst s : abs (trigger_burst order burst s) = abs s.
Proof. apply (fold_left_pres (fun s' => abs s' = abs s)); [|reflexivity]. intros s1 tb E.
  apply (fold_left_pres (fun s' => abs s' = abs s)); [|exact E]. intros s2 gid E2. rewrite abs_trigger. exact E2. Qed.
Lemma abs_remove_reg s g : abs (remove_reg s g) = a_unreg g (abs s).
Proof. unfold abs, a_unreg. rewrite gids_remove_reg. reflexivity. Qed.
Lemma abs_cancel_cb s g : abs (cancel_cb s g) = a_cancel g (abs s).
Proof. reflexivity. Qed.
Lemma abs_stop s g : abs (stop s g) = if memZ g (a_gids (abs s)) then a_stop g (abs s) else abs s.
Proof. unfold stop. destruct (find_reg s g) eqn:E.
  - apply find_reg_In in E as [E1 E2]. replace (memZ g (a_gids (abs s))) with true.
    + unfold abs, a_stop. fsimpl. rewrite gids_remove_reg. reflexivity.
    + symmetry. apply memZ_In. subst g. apply in_map. exact E1.
  - apply find_reg_None, memZ_false in E. change (a_gids (abs s)) with (map g_gid (s_regs s)). rewrite E. reflexivity. Qed.
Lemma a_cancel_unreg g h a : a_cancel g (a_unreg h a) = a_unreg h (a_cancel g a). Proof. reflexivity. Qed.
Lemma abs_flush s : abs (flush_cancels s) = a_flush (abs s).
Proof. unfold flush_cancels, a_flush.
  assert (G : forall l s, abs (fold_left cancel_cb l s) = fold_left (fun a g => a_cancel g a) l (abs s)).
  { induction l as [|g l IH]; intros s0; cbn [fold_left]; [reflexivity|]. rewrite IH, abs_cancel_cb. reflexivity. }
  rewrite <- G. reflexivity. Qed.

Definition apath (s s' : state) : Prop := areach (abs s) (abs s').
Lemma apath_refl s : apath s s. Proof. constructor. Qed.
Lemma apath_trans s1 s2 s3 : apath s1 s2 -> apath s2 s3 -> apath s1 s3. Proof. apply areach_trans. Qed.
Lemma apath_abs s s' : abs s' = abs s -> apath s s'.
Proof. unfold apath. intros ->. constructor. Qed.

Lemma areach_stop s g : apath s (stop s g).
Proof. unfold apath. rewrite abs_stop. destruct (memZ g (a_gids (abs s))) eqn:E; [|constructor].
  apply ar_stop; [constructor | apply memZ_In; exact E]. Qed.
Lemma areach_fold_stop l s : apath s (fold_left stop l s).
Proof. apply (fold_left_rel apath); [exact apath_refl | exact apath_trans | exact areach_stop]. Qed.
Lemma areach_flush s : apath s (flush_cancels s).
Proof. unfold apath. rewrite abs_flush. apply ar_flush. constructor. Qed.

(* the task ends its registration by remove_reg and cancel_cb, in either order, with an emit in between *)
Lemma areach_respond last n cont s g res : In (g_gid g) (a_gids (abs s)) ->
  (forall s' g', g_gid g' = g_gid g -> abs s' = abs s -> apath s' (cont s' g')) ->
  apath s (respond last n cont s g res).
Proof.
  intros Hin Hc. unfold apath, respond. destruct res as [code pk pv|code pk pv].
  - destruct (last || negb (successful code)).
    + rewrite abs_cancel_cb, abs_remove_reg, abs_emit. apply (ar_end _ _ (g_gid g)); [constructor | exact Hin].
    + rewrite <- (abs_emit s (set_next g n) code (Some n) pk pv). apply Hc; [reflexivity | apply abs_emit].
  - rewrite abs_remove_reg, abs_emit, abs_cancel_cb, <- a_cancel_unreg.
    apply (ar_end _ _ (g_gid g)); [constructor | exact Hin].
Qed.
Lemma areach_run_loop fuel : forall s g, In (g_gid g) (a_gids (abs s)) -> apath s (run_loop fuel s g).
Proof.
  induction fuel as [|f IH]; intros s g Hin; cbn [run_loop]; [apply apath_abs, abs_put_reg|].
  destruct (g_trig g) as [tv|]; [|apply apath_abs, abs_put_reg].
  assert (Hc : forall s0 res, abs s0 = abs s -> apath s0 (after_response (run_loop f) s0 (set_trig g None (g_late g)) res)).
  { intros s0 res E0. rewrite after_response_respond. apply areach_respond; [rewrite E0; exact Hin|].
    intros s' g' Hg Ha. apply IH. rewrite Ha, E0, Hg. exact Hin. }
  destruct tv as [|code k]; [|apply Hc; reflexivity].
  set (s1 := log s _). destruct (s_gate s1); [apply apath_abs; rewrite abs_put_reg; reflexivity|].
  eapply apath_trans; [|apply Hc; reflexivity]. apply apath_abs. reflexivity.
Qed.
Lemma areach_task last n s g res : In (g_gid g) (a_gids (abs s)) -> apath s (respond last n (run_loop 2) s g res).
Proof. intros Hin. apply areach_respond; [exact Hin|]. intros s' g' Hg Ha. apply areach_run_loop. rewrite Ha, Hg. exact Hin. Qed.
Lemma areach_accept s r tok con : apath s (accept s r tok con).
Proof.
  unfold accept.
  set (g := mkreg r tok (s_gidctr s) con PWait (-1) None false).
  match goal with |- context [if s_gate ?s1 then _ else _] => set (s2 := s1) end.
  assert (E : abs s2 = a_accept r tok con (abs s)).
  { subst s2. unfold abs, a_accept. fsimpl. rewrite map_app. reflexivity. }
  assert (A2 : apath s s2) by (unfold apath; rewrite E; apply ar_accept; constructor).
  assert (Hin : In (g_gid g) (a_gids (abs s2))) by (rewrite E; apply in_or_app; right; left; reflexivity).
  eapply apath_trans; [exact A2|]. destruct (s_gate s2); [apply apath_abs, abs_put_reg|].
  rewrite first_render_done_respond. apply areach_task, Hin.
Qed.
Lemma areach_process_request s r con tok obs : apath s (process_request s r con tok obs).
Proof.
  unfold process_request.
  match goal with |- context [flush_cancels ?x] => set (s1 := x) end.
  assert (H2 : apath s (flush_cancels s1)).
  { eapply apath_trans; [|apply areach_flush]. subst s1. destruct (find_key s r tok); [apply areach_stop | apply apath_refl]. }
  eapply apath_trans; [exact H2|]. destruct obs as [[| |]|]; try (apply apath_abs, abs_plain). apply areach_accept.
Qed.
Lemma areach_remove_exchange s r mid b : apath s (remove_exchange s r mid b).
Proof. unfold remove_exchange. destruct (find _ (s_exch s)) as [x|]; [|apply apath_refl].
  eapply apath_trans; [|apply apath_abs, abs_continue_backlog]. destruct b; [|apply apath_abs; reflexivity].
  apply (areach_stop (cancel_timers (set_exch s _) _)). Qed.
Lemma areach_dispatch_error s r : apath s (dispatch_error s r).
Proof. unfold dispatch_error. destruct (s_down s); [apply apath_refl|].
  eapply apath_trans; [apply areach_fold_stop | apply apath_abs; reflexivity]. Qed.
Lemma areach_fire s k : apath s (fire s k).
Proof. destruct k as [r tok|m t c|r mid]; cbn [fire].
  - destruct (piggy_find s r tok); [|apply apath_refl]. apply apath_abs. rewrite abs_send_initially. reflexivity.
  - unfold retransmit. destruct (c <? MAX_RETRANSMIT); [apply apath_abs; reflexivity|]. apply (areach_fold_stop _ (purge_backlog (set_exch s _) _)).
  - apply apath_abs. reflexivity. Qed.
Lemma areach_advance fuel s t : apath s (advance fuel s t).
Proof. apply (advance_rel apath apath_refl apath_trans). intros s0 v n k.
  eapply apath_trans; [apply (areach_fire (set_now (set_timers s0 v) n)) | apply areach_flush]. Qed.
Lemma areach_wake l s : apath s (wake l s).
Proof. unfold wake. apply (fold_left_rel apath); [exact apath_refl | exact apath_trans|]. intros s0 x.
  destruct (find_reg s0 x) eqn:E; [|apply apath_refl]. apply areach_run_loop. eapply find_reg_gids. exact E. Qed.
Lemma areach_step s e : apath s (step s e).
Proof.
  destruct e; cbn [step].
  - (* ERequest *) destruct (s_down s); [apply apath_refl|]. destruct (in_recent s r mid) as [st|].
    + destruct con; [|apply apath_refl]. destruct st; [apply apath_abs, abs_send_initially | apply apath_refl].
    + eapply apath_trans; [|apply areach_flush]. eapply apath_trans; [|apply areach_process_request].
      destruct con; apply apath_abs; reflexivity.
  - (* EAck *) destruct (s_down s); [apply apath_refl|]. eapply apath_trans; [apply areach_remove_exchange | apply areach_flush].
  - (* ERst *) destruct (s_down s); [apply apath_refl|]. eapply apath_trans; [apply areach_remove_exchange | apply areach_flush].
  - (* ETrigger *) eapply apath_trans; [|apply areach_flush].
    destruct burst as [|b0 bs]; [apply apath_refl|].
    eapply apath_trans; [|apply areach_wake]. apply apath_abs, abs_trigger_burst.
  - (* ERenderDone *) apply (render_done_ind (apath s)); [apply apath_refl|]. intros g v last n E _.
    apply find_key_In in E as [E _]. eapply apath_trans; [apply areach_task, (in_map g_gid), E | apply areach_flush].
  - (* ESetMode *) apply apath_abs. reflexivity.
  - (* ESetGate *) apply apath_abs. reflexivity.
  - (* EAdvance *) apply (areach_advance _ s).
  - (* ETransportError *) eapply apath_trans; [apply areach_dispatch_error | apply areach_flush].
  - (* EShutdown *) destruct (s_down s); [apply apath_refl|]. eapply apath_trans; [|apply areach_flush].
    eapply apath_trans; [apply (areach_fold_stop (map g_gid (s_regs s)) s) | apply apath_abs; reflexivity].
Qed.

Definition count_add (g : Z) (h : list output) : nat :=
  length (filter (fun o => match o with OAdd g' _ _ _ _ => g' =? g | _ => false end) h).
Definition count_cancel (g : Z) (h : list output) : nat :=
  length (filter (fun o => match o with OCancel g' _ => g' =? g | _ => false end) h).
(* number of observers according to the callback log: accepted minus cancelled *)
Fixpoint balance (h : list output) : Z :=
  match h with
  | [] => 0
  | OAdd _ _ _ _ _ :: h' => balance h' + 1
  | OCancel _ _ :: h' => balance h' - 1
  | _ :: h' => balance h'
  end.
(* every update_observation_count call reports the number of observers at that moment *)
Fixpoint counts_ok (h : list output) : Prop :=
  match h with
  | [] => True
  | OAdd _ n _ _ _ :: h' => n = balance h' + 1 /\ counts_ok h'
  | OCancel _ n :: h' => n = balance h' - 1 /\ counts_ok h'
  | _ :: h' => counts_ok h'
  end.
Definition in_range (g ctr : Z) : bool := (0 <=? g) && (g <? ctr).

(* [q]: the cancellations still to be delivered *)
Record InvQ (q : list Z) (a : astate) : Prop := {
  iq_nodup : NoDup (a_obs a);
  iq_range : forall x, In x (a_obs a) -> 0 <= x < a_ctr a;
  iq_gids : a_gids a = filter (fun x => negb (memZ x q)) (a_obs a);
  iq_incl : incl q (a_obs a);
  iq_qnodup : NoDup q;
  iq_adds : forall g, count_add g (a_bk a) = if in_range g (a_ctr a) then 1%nat else 0%nat;
  iq_cancels : forall g, count_cancel g (a_bk a) = if in_range g (a_ctr a) && negb (memZ g (a_obs a)) then 1%nat else 0%nat;
  iq_counts : counts_ok (a_bk a);
  iq_balance : Z.of_nat (length (a_obs a)) = balance (a_bk a);
  iq_ctr : 0 <= a_ctr a }.
Definition InvA (a : astate) : Prop := InvQ (a_cq a) a.

Lemma count_add_send g o h : is_bk o = false -> count_add g (o :: h) = count_add g h.
Proof. destruct o; cbn; try discriminate; reflexivity. Qed.
Lemma filter_notin_app (q : list Z) l x : ~ In x q ->
  filter (fun y => negb (memZ y q)) (l ++ [x]) = filter (fun y => negb (memZ y q)) l ++ [x].
Proof. intros H. rewrite filter_app. cbn. apply memZ_false in H. rewrite H. reflexivity. Qed.

Lemma InvA_accept r tok con a : InvA a -> InvA (a_accept r tok con a).
Proof.
  intros [Inodup Irange Igids Iincl Iqnodup Iadds Icancels Icounts Ibalance Ictr]. unfold InvA, a_accept. cbn [a_cq].
  assert (Hn : ~ In (a_ctr a) (a_obs a)). { intros Hi. apply Irange in Hi. lia. }
  constructor; cbn [a_obs a_ctr a_gids a_bk].
  - apply NoDup_snoc; assumption.
  - intros x Hx. apply in_app_iff in Hx as [Hx|[Hx|[]]]; [apply Irange in Hx; lia | subst; lia].
  - rewrite filter_notin_app; [rewrite Igids; reflexivity|]. intros Hq. apply Hn. apply Iincl. exact Hq.
  - intros x Hx. apply in_or_app. left. apply Iincl. exact Hx.
  - exact Iqnodup.
  - intros g. unfold count_add in *. cbn [filter]. specialize (Iadds g). unfold in_range in *.
    destruct (a_ctr a =? g) eqn:E; cbn [length]; rewrite Iadds.
    + replace ((0 <=? g) && (g <? a_ctr a)) with false by lia. replace ((0 <=? g) && (g <? a_ctr a + 1)) with true by lia. reflexivity.
    + replace ((0 <=? g) && (g <? a_ctr a + 1)) with ((0 <=? g) && (g <? a_ctr a)) by lia. reflexivity.
  - intros g. unfold count_cancel in *. cbn [filter]. rewrite Icancels. unfold in_range. rewrite memZ_app. cbn [memZ existsb].
    destruct (g =? a_ctr a) eqn:E.
    + replace ((0 <=? g) && (g <? a_ctr a)) with false by lia. rewrite orb_true_r. cbn. rewrite andb_false_r. reflexivity.
    + rewrite orb_false_r. replace ((0 <=? g) && (g <? a_ctr a + 1)) with ((0 <=? g) && (g <? a_ctr a)) by lia. reflexivity.
  - cbn [counts_ok]. split; [|exact Icounts]. rewrite app_length. cbn [length]. lia.
  - cbn [balance]. rewrite app_length. cbn [length]. lia.
  - lia.
Qed.

Lemma filter_notin_snoc (q : list Z) g l :
  filter (fun x => negb (memZ x (q ++ [g]))) l = rm g (filter (fun x => negb (memZ x q)) l).
Proof. unfold rm. induction l as [|x l IH]; cbn [filter]; [reflexivity|].
  rewrite memZ_app. cbn [memZ existsb]. rewrite orb_false_r.
  destruct (memZ x q); cbn [negb orb filter]; [exact IH|].
  destruct (x =? g) eqn:E; cbn [negb]; rewrite IH; reflexivity. Qed.
Lemma live_not_queued g a : InvA a -> In g (a_gids a) -> In g (a_obs a) /\ ~ In g (a_cq a).
Proof. intros H Hg. rewrite (iq_gids _ _ H) in Hg. apply filter_In in Hg as [Ha Hb]. split; [exact Ha|].
  apply memZ_false. destruct (memZ g (a_cq a)); [discriminate | reflexivity]. Qed.
Lemma InvA_stop g a : InvA a -> In g (a_gids a) -> InvA (a_stop g a).
Proof.
  intros H Hg. pose proof (live_not_queued g a H Hg) as Hgo. unfold InvA, a_stop. cbn [a_cq].
  destruct H as [Inodup Irange Igids Iincl Iqnodup Iadds Icancels Icounts Ibalance Ictr].
  constructor; cbn [a_obs a_ctr a_gids a_bk]; try assumption.
  - rewrite Igids. symmetry. apply filter_notin_snoc.
  - intros x Hx. apply in_app_iff in Hx as [Hx|[Hx|[]]]; [apply Iincl; exact Hx | subst; tauto].
  - apply NoDup_snoc; tauto.
Qed.

Lemma filter_cons_q g q l : filter (fun x => negb (memZ x (g :: q))) l = filter (fun x => negb (memZ x q)) (rm g l).
Proof. unfold rm. induction l as [|x l IH]; [reflexivity|].
  cbn [filter]. rewrite IH. cbn [memZ existsb]. destruct (x =? g); reflexivity. Qed.
Lemma InvQ_cancel g q a : InvQ (g :: q) a -> InvQ q (a_cancel g a).
Proof.
  intros [Inodup Irange Igids Iincl Iqnodup Iadds Icancels Icounts Ibalance Ictr].
  assert (Hgo : In g (a_obs a)) by (apply Iincl; left; reflexivity).
  assert (Hgq : ~ In g q) by (inversion Iqnodup; assumption).
  assert (Hq : NoDup q) by (inversion Iqnodup; assumption). clear Iqnodup.
  unfold a_cancel. constructor; cbn [a_obs a_ctr a_gids a_bk]; try assumption.
  - apply NoDup_rm. exact Inodup.
  - intros x Hx. apply In_rm in Hx as [Hx _]. apply Irange. exact Hx.
  - rewrite Igids. apply filter_cons_q.
  - intros x Hx. apply In_rm. split; [apply Iincl; right; exact Hx | intros ->; tauto].
  - intros g'. unfold count_cancel in *. cbn [filter]. rewrite memZ_rm. specialize (Icancels g'). specialize (Irange g Hgo).
    destruct (g =? g') eqn:E; cbn [length]; rewrite Icancels.
    + assert (g' = g) by lia. subst g'. replace (memZ g (a_obs a)) with true by (symmetry; apply memZ_In; exact Hgo).
      rewrite Z.eqb_refl. cbn. unfold in_range. replace ((0 <=? g) && (g <? a_ctr a)) with true by lia. rewrite andb_false_r. reflexivity.
    + replace (g' =? g) with false by lia. cbn. rewrite andb_true_r. reflexivity.
  - cbn [counts_ok]. split; [|exact Icounts]. rewrite <- Ibalance. pose proof (length_rm g (a_obs a) Inodup Hgo). lia.
  - cbn [balance]. rewrite <- Ibalance. pose proof (length_rm g (a_obs a) Inodup Hgo). lia.
Qed.
Lemma InvA_end g a : InvA a -> In g (a_gids a) -> InvA (a_end g a).
Proof.
  intros H Hg. destruct (live_not_queued g a H Hg) as [Hgo Hgq]. unfold InvA, a_end. cbn [a_cq a_cancel a_unreg].
  (* as if stopped with that cancellation delivered first: the queue is a set as far as the invariant is concerned *)
  destruct H as [Inodup Irange Igids Iincl Iqnodup Iadds Icancels Icounts Ibalance Ictr].
  apply InvQ_cancel. constructor; cbn [a_unreg a_obs a_ctr a_gids a_bk]; try assumption.
  - rewrite Igids. rewrite filter_cons_q. unfold rm. apply filter_filter_comm.
  - intros x [Hx|Hx]; [subst; exact Hgo | apply Iincl; exact Hx].
  - constructor; assumption.
Qed.
Lemma InvA_flush a : InvA a -> InvA (a_flush a).
Proof.
  unfold InvA, a_flush. cbn [a_setcq a_cq].
  assert (G : forall q a, InvQ q a -> InvQ [] (fold_left (fun a g => a_cancel g a) q a)).
  { induction q as [|g q IH]; intros a0 H0; cbn [fold_left]; [exact H0|]. apply IH. apply InvQ_cancel. exact H0. }
  intros H. apply G in H. destruct H. constructor; assumption.
Qed.
Lemma InvA_areach a b : areach a b -> InvA a -> InvA b.
Proof. intros H Ha. induction H; auto using InvA_accept, InvA_stop, InvA_end, InvA_flush. Qed.

Lemma InvA_init m : InvA (abs (init m)).
Proof. constructor; cbn.
  - constructor.
  - tauto.
  - reflexivity.
  - intros x [].
  - constructor.
  - intros g. unfold in_range. destruct ((0 <=? g) && (g <? 0)) eqn:E; [lia | reflexivity].
  - intros g. unfold in_range. destruct ((0 <=? g) && (g <? 0)) eqn:E; [lia | reflexivity].
  - exact I.
  - reflexivity.
  - lia.
Qed.

Lemma count_add_bk g h : count_add g (bk h) = count_add g h.
Proof. unfold count_add, bk. induction h as [|o h IH]; cbn; [reflexivity|]. destruct o; cbn; rewrite ?IH; try reflexivity.
  destruct (gid =? g); cbn; rewrite ?IH; reflexivity. Qed.
Lemma count_cancel_bk g h : count_cancel g (bk h) = count_cancel g h.
Proof. unfold count_cancel, bk. induction h as [|o h IH]; cbn; [reflexivity|]. destruct o; cbn; rewrite ?IH; try reflexivity.
  destruct (gid =? g); cbn; rewrite ?IH; reflexivity. Qed.
Lemma balance_bk h : balance (bk h) = balance h.
Proof. unfold bk. induction h as [|o h IH]; cbn; [reflexivity|]. destruct o; cbn; rewrite ?IH; reflexivity. Qed.
Lemma counts_ok_bk h : counts_ok (bk h) <-> counts_ok h.
Proof. unfold bk. induction h as [|o h IH]; cbn; [tauto|]. destruct o; cbn; fold (bk h); rewrite ?balance_bk; tauto. Qed.

Lemma cq_of_abs s s' : abs s' = abs s -> s_cancelq s' = s_cancelq s.
Proof. intros H. apply (f_equal a_cq) in H. exact H. Qed.
Lemma cq_flush s : s_cancelq (flush_cancels s) = []. Proof. reflexivity. Qed.
Lemma cq_advance fuel s t : s_cancelq s = [] -> s_cancelq (advance fuel s t) = [].
Proof. apply (advance_pres (fun s0 => s_cancelq s0 = [])). reflexivity. Qed.
Lemma cq_step s e : s_cancelq s = [] -> s_cancelq (step s e) = [].
Proof.
  intros H. destruct e; cbn [step]; try reflexivity; try exact H.
  - (* ERequest *) destruct (s_down s); [exact H|]. destruct (in_recent s r mid) as [st|]; [|reflexivity].
    destruct con; [|exact H]. destruct st; [|exact H]. rewrite (cq_of_abs s); [exact H | apply abs_send_initially].
  - (* EAck *) destruct (s_down s); [exact H | reflexivity].
  - (* ERst *) destruct (s_down s); [exact H | reflexivity].
  - (* ERenderDone *) apply (render_done_ind (fun s' => s_cancelq s' = [])); [exact H | reflexivity].
  - (* EAdvance *) change (s_cancelq (advance (advance_fuel s) s (s_now s + dt)) = []). apply cq_advance. exact H.
  - (* EShutdown *) destruct (s_down s); [exact H | reflexivity].
Qed.

Lemma run_inv : forall es s, InvA (abs s) -> s_cancelq s = [] -> InvA (abs (run s es)) /\ s_cancelq (run s es) = [].
Proof. induction es as [|e es IH]; intros s H1 H2; cbn; [tauto|].
  apply IH; [eapply InvA_areach; [apply areach_step | exact H1] | apply cq_step; exact H2]. Qed.

Lemma gids_observers s : InvA (abs s) -> s_cancelq s = [] -> map g_gid (s_regs s) = s_observers s.
Proof. intros H Hq. pose proof (iq_gids _ _ H) as G. cbn [abs a_gids a_obs a_cq] in G. rewrite Hq in G. rewrite G. apply filter_true. Qed.

Lemma bookkeeping : forall mid0 es, let s := run (init mid0) es in
  map g_gid (s_regs s) = s_observers s /\ NoDup (s_observers s) /\
  (forall g, count_add g (s_hist s) = if in_range g (s_gidctr s) then 1%nat else 0%nat) /\
  (forall g, count_cancel g (s_hist s) = if in_range g (s_gidctr s) && negb (memZ g (s_observers s)) then 1%nat else 0%nat) /\
  counts_ok (s_hist s) /\ Z.of_nat (length (s_observers s)) = balance (s_hist s).
Proof.
  intros mid0 es s. destruct (run_inv es (init mid0) (InvA_init mid0) eq_refl) as [H Hq]. fold s in H, Hq.
  split; [apply gids_observers; assumption|]. destruct H as [H1 _ _ _ _ H6 H7 H8 H9 _]. cbn [abs a_obs a_ctr a_bk] in *.
  split; [exact H1 | split; [|split; [|split]]].
  - intros g. rewrite <- count_add_bk. apply H6.
  - intros g. rewrite <- count_cancel_bk. apply H7.
  - apply counts_ok_bk. exact H8.
  - rewrite <- balance_bk. exact H9.
Qed.
