(* C05 — retried block exchanges: behind the deduplicating message layer a server looks to the block-wise client like the server itself,
   whatever the network duplicates; an exchange that dies is a transport failure of that one sub-request. *)
From Verif Require Import Lib.Py Lib.PyLemmas Lib.Tactics Gen.block_kernels Model.C05 Model.C05Retry Proofs.C05Machine.
Open Scope Z_scope.

Section Retry.
  Context {S : Type}.
  Variable serve : S -> request -> S * sresult.

  Lemma deliver_n_spec n : forall st mid rq s' r, lookup mid (r_cache st) = None -> serve (r_inner st) rq = (s', r) ->
    deliver_n serve (Datatypes.S n) st mid rq =
      ({| r_inner := s'; r_cache := (mid, r) :: r_cache st; r_mid := r_mid st; r_sched := r_sched st |}, repeat r (Datatypes.S n)).
  Proof.
    intros st mid rq s' r Hl Hs. cbn [deliver_n]. unfold dedup_deliver at 1. rewrite Hl, Hs.
    set (st1 := {| r_inner := s'; r_cache := (mid, r) :: r_cache st; r_mid := r_mid st; r_sched := r_sched st |}).
    assert (Hdup : forall k, deliver_n serve k st1 mid rq = (st1, repeat r k)).
    { induction k as [|k IHk]; [reflexivity|]. cbn [deliver_n]. unfold dedup_deliver. cbn [st1 r_cache lookup]. rewrite Nat.eqb_refl.
      fold st1. rewrite IHk. reflexivity. }
    rewrite Hdup. reflexivity.
  Qed.

  Lemma arriving_identical r n dr : Forall (eq r) (arriving (repeat r (Datatypes.S n)) dr) /\ hd SFail (arriving (repeat r (Datatypes.S n)) dr) = r.
  Proof.
    split; [|reflexivity]. unfold arriving. apply Forall_forall. intros x Hx. apply in_flat_map in Hx as (y & Hy & Hxy).
    apply repeat_spec in Hy. subst y. apply repeat_spec in Hxy. congruence.
  Qed.

  (* same application state; message ids from r_mid on are fresh; unless the network is [lossy], no exchange of the schedule dies *)
  Definition retry_rel (lossy : Prop) (s : S) (st : rstate) : Prop :=
    r_inner st = s /\ (forall m, (r_mid st <= m)%nat -> lookup m (r_cache st) = None) /\
    (lossy \/ forallb is_delivered (r_sched st) = true).

  Lemma retry_step lossy s st rq s' r : retry_rel lossy s st -> serve s rq = (s', r) ->
    (exists st', serve_retried serve st rq = (st', r) /\ retry_rel lossy s' st') \/
    (lossy /\ exists st', serve_retried serve st rq = (st', SFail)).
  Proof.
    intros (Hin & Hfresh & Hsched) Hs. unfold serve_retried.
    destruct (hd (Delivered 0 0) (r_sched st)) as [dq dr|arrived] eqn:Hhd.
    - left.
      set (st0 := {| r_inner := r_inner st; r_cache := r_cache st; r_mid := Datatypes.S (r_mid st); r_sched := tl (r_sched st) |}).
      rewrite (deliver_n_spec dq st0 (r_mid st) rq s' r); [|cbn [st0 r_cache]; apply Hfresh; lia|cbn [st0 r_inner]; rewrite Hin; exact Hs].
      eexists. split; [f_equal; apply arriving_identical|].
      split; [reflexivity|]. cbn [st0 r_mid r_cache r_sched lookup]. split.
      + intros m Hm. replace (Nat.eqb (r_mid st) m) with false by (symmetry; apply Nat.eqb_neq; lia). apply Hfresh. lia.
      + destruct Hsched as [Hl|Hd]; [left; exact Hl|right]. destruct (r_sched st) as [|f rest]; [reflexivity|].
        apply andb_prop in Hd. apply Hd.
    - right. split.
      + destruct Hsched as [Hl|Hd]; [exact Hl|]. destruct (r_sched st) as [|f rest]; [discriminate Hhd|].
        cbn [hd] in Hhd. subst f. discriminate Hd.
      + destruct arrived; [destruct (deliver_n _ _ _ _ _)|]; eexists; reflexivity.
  Qed.

  Lemma run_retried lossy cfg fuel s sched s' tr o : lossy \/ forallb is_delivered sched = true ->
    run serve fuel s cfg = (s', tr, o) ->
    exists st' tr2 o2, run (serve_retried serve) fuel (rinit s sched) cfg = (st', tr2, o2) /\
                       same_or_cut (retry_rel lossy) lossy s' tr o st' tr2 o2.
  Proof.
    intros Hsched. rewrite !run_machine. apply mloop_cut; [apply retry_step|].
    split; [reflexivity|]. split; [reflexivity|exact Hsched].
  Qed.

End Retry.
