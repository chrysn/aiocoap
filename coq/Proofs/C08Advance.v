(* C08 — the fuel of [advance] is never exhausted: after step (EAdvance dt) no timer that is due is left, in any state.
   (The model's only "internal error" outcome, returning early with timers still due, is unreachable.) *)
From Verif Require Import Lib.Py Lib.Tactics Model.C08 Proofs.C08.
Open Scope Z_scope.

Definition wsum (l : list timer) : nat := list_sum (map timer_weight l).
Lemma fold_weight l : forall a, fold_left (fun a t => (a + timer_weight t)%nat) l a = (a + wsum l)%nat.
Proof. unfold wsum, list_sum. induction l as [|x l IH]; intros a; cbn [fold_left fold_right map]; [lia|]. rewrite IH. lia. Qed.
Lemma advance_fuel_eq s : advance_fuel s = S (wsum (s_timers s)).
Proof. unfold advance_fuel. rewrite fold_weight. reflexivity. Qed.
Lemma wsum_app a b : wsum (a ++ b) = (wsum a + wsum b)%nat.
Proof. unfold wsum. rewrite map_app, list_sum_app. reflexivity. Qed.
Lemma wsum_filter_le (p : timer -> bool) l : (wsum (filter p l) <= wsum l)%nat.
Proof. unfold wsum, list_sum. induction l as [|x l IH]; cbn [filter map fold_right]; [lia|]. destruct (p x); cbn [map fold_right]; lia. Qed.
Lemma wsum_filter_out (p : timer -> bool) l x : In x l -> p x = false -> (wsum (filter p l) + timer_weight x <= wsum l)%nat.
Proof. pose proof (wsum_filter_le p) as Le. unfold wsum, list_sum in *. induction l as [|y l IH]; [intros []|]. cbn [filter map fold_right]. intros [->|Hi] Hp.
  - rewrite Hp. specialize (Le l). lia.
  - specialize (IH Hi Hp). destruct (p y); cbn [map fold_right]; lia. Qed.

Lemma min_timer_None l : min_timer l = None -> l = [].
Proof. destruct l as [|x l]; [reflexivity|]. cbn. destruct (min_timer l) as [v|]; [destruct (timer_lt v x)|]; discriminate. Qed.
Lemma min_timer_spec l u : min_timer l = Some u -> In u l /\ forall x, In x l -> t_due u <= t_due x.
Proof. revert u. induction l as [|y l IH]; cbn; [discriminate|]. intros u. destruct (min_timer l) as [v|] eqn:E.
  - destruct (IH v eq_refl) as [Iv Lv]. destruct (timer_lt v y) eqn:Lt; intros H; inversion H; subst; unfold timer_lt in Lt.
    + split; [right; exact Iv|]. intros x [<-|Hx]; [lia | apply Lv, Hx].
    + split; [left; reflexivity|]. intros x [<-|Hx]; [lia | specialize (Lv x Hx); lia].
  - intros H; inversion H; subst. rewrite (min_timer_None l E). split; [left; reflexivity|]. intros x [<-|[]]. lia.
Qed.

(* firing a timer adds at most one timer, lighter than the one fired *)
Lemma timers_fire s k : s_timers (fire s k) = s_timers s \/
  exists nt, s_timers (fire s k) = s_timers s ++ [nt] /\ forall d q, (S (timer_weight nt) <= timer_weight (mktimer d q k))%nat.
Proof.
  destruct k as [r tok|m t c|r mid]; cbn [fire].
  - left. destruct (piggy_find s r tok); reflexivity.
  - unfold retransmit. destruct (c <? MAX_RETRANSMIT) eqn:E.
    + right. eexists. split; [reflexivity|]. intros d q. unfold timer_weight, MAX_RETRANSMIT in *. cbn [t_kind]. lia.
    + left. unfold stop_remote. rewrite fold_stop_field by reflexivity. reflexivity.
  - left. reflexivity.
Qed.

Lemma advance_drains fuel : forall s t, (wsum (s_timers s) < fuel)%nat -> forall tm, In tm (s_timers (advance fuel s t)) -> t < t_due tm.
Proof.
  induction fuel as [|f IH]; intros s t Hw tm Hin; [lia|]. cbn [advance] in Hin.
  destruct (min_timer (s_timers s)) as [u|] eqn:Em.
  2:{ rewrite (min_timer_None _ Em) in Hin. destruct Hin. }
  destruct (t_due u <=? t) eqn:Ed.
  - revert Hin. apply IH. rewrite flush_field by reflexivity.
    match goal with |- context [fire ?x (t_kind u)] => set (s1 := x) end.
    assert (T1 : s_timers s1 = filter (fun v => negb (t_seq v =? t_seq u)) (s_timers s)) by reflexivity.
    assert (W1 : (wsum (s_timers s1) + timer_weight u <= wsum (s_timers s))%nat).
    { rewrite T1. apply wsum_filter_out; [apply (min_timer_spec _ _ Em) | rewrite Z.eqb_refl; reflexivity]. }
    assert (Wu : (1 <= timer_weight u)%nat) by (unfold timer_weight; destruct (t_kind u); lia).
    destruct (timers_fire s1 (t_kind u)) as [E|(nt & E & Hn)]; rewrite E.
    + lia.
    + rewrite wsum_app. assert (W2 : wsum [nt] = timer_weight nt) by (unfold wsum; cbn; lia). rewrite W2. specialize (Hn (t_due u) (t_seq u)).
      replace (mktimer (t_due u) (t_seq u) (t_kind u)) with u in Hn by (destruct u; reflexivity). lia.
  - pose proof (proj2 (min_timer_spec _ _ Em) tm Hin). lia.
Qed.
Lemma advance_event_drains s dt : forall tm, In tm (s_timers (step s (EAdvance dt))) -> s_now s + dt < t_due tm.
Proof. intros tm H. cbn [step] in H. apply (advance_drains (advance_fuel s) s (s_now s + dt)); [rewrite advance_fuel_eq; lia | exact H]. Qed.
