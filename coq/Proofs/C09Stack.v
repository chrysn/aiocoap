(* C09 — the stack model (Model/C09Stack.v): per-request accounting of final responses over all scripts, the response of
   a request is its own, the other requests' entries are untouched; the case table of the message layer *)
From Verif Require Import Lib.Py Lib.PyLemmas Lib.Tactics Model.C09 Model.C09Stack Proofs.C09.
Open Scope Z_scope.

Definition eid (e : entry) : Z := r_id (e_req e).
Definition ids (s : state) : list Z := map eid (s_incoming s).
(* every registered rendering has its pipes in the set-up state (ended ones are dropped), ids are unique *)
Definition Inv (s : state) : Prop := NoDup (ids s) /\ Forall (fun e => e_pipes e = live) (s_incoming s).
Definition unf (id : Z) (l : list entry) : bool := existsb (fun e => (eid e =? id) && negb (e_finished e)) l.
Definition req_ids (evs : list sevent) : list Z := flat_map (fun ev => match ev with Req r => [r_id r] | _ => [] end) evs.
(* request ids in the script are new *)
Definition fresh (s : state) (evs : list sevent) : Prop := NoDup (req_ids evs) /\ forall i, In i (req_ids evs) -> ~ In i (ids s).
Definition b2n (b : bool) : nat := if b then 1%nat else 0%nat.
Definition new_entry (r : request) : entry := {| e_req := r; e_pipes := setup_pipes; e_finished := false |}.
Lemma live_setup : setup_pipes = live. Proof. reflexivity. Qed.

(* the common tail of send_message: own message id, type from the request, NSTART backlog *)
Definition send_plain (s : state) (r : request) (m : msg) : state * list wire :=
  let t := if r_con r then T_CON else T_NON in
  let mid := s_mid s in
  let s1 := set_mid s (Z.land 65535 (1 + mid)) in
  let w := mk_wire r t mid m in
  if (t =? T_CON) && has_backlog s1 (r_remote r) then (append_backlog s1 (r_remote r) w, []) else send_initially s1 w.
Lemma send_message_unfold s r m :
  send_message s r m =
  if negb (is_response (code_of m)) then send_plain s r m
  else match lookup_piggy (key_of r) (s_piggy s) with
       | Some (mid, _) =>
           let s1 := set_piggy s (remove_piggy (key_of r) (s_piggy s)) in
           if suppressed m then send_initially s1 (empty_ack (r_remote r) mid) else send_initially s1 (mk_wire r T_ACK mid m)
       | None => if suppressed m then (s, []) else send_plain s r m
       end.
Proof. reflexivity. Qed.

(* nothing goes out, or the common tail, or a datagram on the pending ACK's message id *)
Lemma send_message_shape s r m :
  send_message s r m = (s, []) \/ send_message s r m = send_plain s r m \/
  exists mid, send_message s r m = send_initially (set_piggy s (remove_piggy (key_of r) (s_piggy s)))
                                     (if suppressed m then empty_ack (r_remote r) mid else mk_wire r T_ACK mid m).
Proof.
  rewrite send_message_unfold. destruct (negb _); [right; left; reflexivity|].
  destruct (lookup_piggy _ _) as [[mid due]|].
  - right; right. exists mid. destruct (suppressed m); reflexivity.
  - destruct (suppressed m); [left|right; left]; reflexivity.
Qed.

(* a remote's backlog taken out of the table; what deleting and replacing it do, and that appending to it is replacing it *)
Lemma find_backlog_split remote l b : find_backlog remote l = Some b ->
  exists l1 l2, l = l1 ++ (remote, b) :: l2 /\ backlog_del remote l = l1 ++ l2 /\
                forall b', backlog_set remote b' l = l1 ++ (remote, b') :: l2.
Proof.
  induction l as [|[q c] l IH]; [discriminate|]. cbn [find_backlog backlog_del backlog_set]. destruct (q =? remote) eqn:E.
  - intros [= ->]. apply Z.eqb_eq in E. subst q. exists [], l. repeat split.
  - intros H. destruct (IH H) as (l1 & l2 & El & Hd & Hs). exists ((q, c) :: l1), l2. cbn [app]. rewrite Hd, <- El.
    repeat split. intros b'. rewrite Hs. reflexivity.
Qed.
Lemma backlog_append_set remote w l b : find_backlog remote l = Some b ->
  backlog_append remote w l = backlog_set remote (b ++ [w]) l.
Proof.
  induction l as [|[q c] l IH]; [discriminate|]. cbn [find_backlog backlog_append backlog_set]. destruct (q =? remote).
  - intros [= ->]. reflexivity.
  - intros H. rewrite (IH H). reflexivity.
Qed.
Lemma find_backlog_has remote l : existsb (fun y => fst y =? remote) l = true -> find_backlog remote l <> None.
Proof.
  induction l as [|[q b] l IH]; [discriminate|]. cbn [existsb fst find_backlog]. destruct (q =? remote); [discriminate|exact IH].
Qed.
(* the common tail sends at once, or appends to the backlog the remote has *)
Lemma send_plain_shape s r m :
  let w := mk_wire r (if r_con r then T_CON else T_NON) (s_mid s) m in
  let s1 := set_mid s (Z.land 65535 (1 + s_mid s)) in
  send_plain s r m = send_initially s1 w \/
  exists l1 b l2, s_backlog s = l1 ++ (r_remote r, b) :: l2 /\
                  send_plain s r m = (set_backlog s1 (l1 ++ (r_remote r, b ++ [w]) :: l2), []).
Proof.
  unfold send_plain. cbv zeta. destruct (_ && _) eqn:Ec; [right|left; reflexivity].
  apply andb_prop in Ec as [_ Hb]. apply find_backlog_has in Hb. cbn [s_backlog set_mid] in Hb.
  destruct (find_backlog (r_remote r) (s_backlog s)) as [b|] eqn:E; [clear Hb|destruct (Hb eq_refl)].
  destruct (find_backlog_split _ _ _ E) as (l1 & l2 & El & _ & Hset). exists l1, b, l2. split; [exact El|].
  unfold append_backlog. cbn [s_backlog set_mid]. rewrite (backlog_append_set _ _ _ _ E), Hset. reflexivity.
Qed.
(* nothing happens, or the remote's empty backlog is dropped, or its first datagram is released *)
Lemma continue_backlog_shape s remote :
  continue_backlog s remote = (s, []) \/
  exists l1 b l2, s_backlog s = l1 ++ (remote, b) :: l2 /\ has_active s remote = false /\
    continue_backlog s remote = match b with
                                | [] => (set_backlog s (l1 ++ l2), [])
                                | w :: rest => send_initially (set_backlog s (l1 ++ (remote, rest) :: l2)) w
                                end.
Proof.
  unfold continue_backlog. destruct (has_active s remote); [left; reflexivity|].
  destruct (find_backlog remote (s_backlog s)) as [b|] eqn:E; [right|left; reflexivity].
  destruct (find_backlog_split _ _ _ E) as (l1 & l2 & El & Hd & Hset). exists l1, b, l2.
  destruct b as [|w rest]; [rewrite Hd|rewrite Hset]; auto.
Qed.

Lemma send_initially_incoming s w : s_incoming (fst (send_initially s w)) = s_incoming s.
Proof. unfold send_initially. destruct (w_type w =? T_CON); reflexivity. Qed.
Lemma send_plain_incoming s r m : s_incoming (fst (send_plain s r m)) = s_incoming s.
Proof. unfold send_plain. destruct (_ && _); [reflexivity|exact (send_initially_incoming _ _)]. Qed.
Lemma send_message_incoming s r m : s_incoming (fst (send_message s r m)) = s_incoming s.
Proof.
  destruct (send_message_shape s r m) as [->|[->|(mid & ->)]];
    [reflexivity|apply send_plain_incoming|exact (send_initially_incoming _ _)].
Qed.
(* whatever send_message keeps, perform keeps *)
Lemma perform_preserves (P : state -> Prop) : (forall s r m, P s -> P (fst (send_message s r m))) ->
  forall acts s r, P s -> P (fst (fst (perform s r acts))).
Proof.
  intros Hs. induction acts as [|[m l|l] acts IH]; intros s r H; cbn [perform]; [exact H| |].
  - specialize (Hs s r (tm_fill r m) H). destruct (send_message s r (tm_fill r m)) as [s1 w].
    specialize (IH s1 r Hs). destruct (perform s1 r acts) as [[s2 w2] l2]. exact IH.
  - specialize (IH s r H). destruct (perform s r acts) as [[s2 w2] l2]. exact IH.
Qed.
Lemma perform_incoming acts s r : s_incoming (fst (fst (perform s r acts))) = s_incoming s.
Proof.
  apply (perform_preserves (fun s' => s_incoming s' = s_incoming s)); [|reflexivity].
  intros s0 r0 m H. rewrite send_message_incoming. exact H.
Qed.
Lemma continue_backlog_incoming s remote : s_incoming (fst (continue_backlog s remote)) = s_incoming s.
Proof.
  destruct (continue_backlog_shape s remote) as [->|(l1 & b & l2 & _ & _ & ->)]; [reflexivity|].
  destruct b; [reflexivity|exact (send_initially_incoming _ _)].
Qed.
Lemma remove_id_cons i e l : remove_id i (e :: l) = if eid e =? i then remove_id i l else e :: remove_id i l.
Proof. unfold remove_id, eid. cbn [filter]. destruct (r_id (e_req e) =? i); reflexivity. Qed.
Lemma replace_id_cons i e' e l : replace_id i e' (e :: l) = (if eid e =? i then e' else e) :: replace_id i e' l.
Proof. reflexivity. Qed.
Lemma find_by_id_cons id e l : find_by_id id (e :: l) = if eid e =? id then Some e else find_by_id id l.
Proof. reflexivity. Qed.

Lemma find_by_id_some id l e : find_by_id id l = Some e -> In e l /\ eid e = id.
Proof.
  induction l as [|x l IH]; [discriminate|]. rewrite find_by_id_cons. destruct (eid x =? id) eqn:E.
  - intros H; inversion H; subst. split; [left; reflexivity|lia].
  - intros H. destruct (IH H). split; [right|]; assumption.
Qed.
Lemma find_in_ids id l e : find_by_id id l = Some e -> In id (map eid l).
Proof. intros H. destruct (find_by_id_some _ _ _ H) as (Hin & <-). apply in_map. exact Hin. Qed.
Lemma find_by_id_absent id l : ~ In id (map eid l) -> find_by_id id l = None.
Proof. intros H. destruct (find_by_id id l) eqn:E; [|reflexivity]. destruct H. eapply find_in_ids. exact E. Qed.
Lemma find_by_key_some k l e : find_by_key k l = Some e -> In e l /\ key_eqb k (key_of (e_req e)) = true.
Proof.
  induction l as [|x l IH]; [discriminate|]. cbn [find_by_key]. destruct (key_eqb k (key_of (e_req x))) eqn:E.
  - intros H; inversion H; subst. split; [left; reflexivity|exact E].
  - intros H. destruct (IH H). split; [right|]; assumption.
Qed.
(* lookup after each of the three updates the model makes *)
Lemma find_remove i id l : find_by_id id (remove_id i l) = if i =? id then None else find_by_id id l.
Proof.
  induction l as [|x l IH]; [destruct (i =? id); reflexivity|]. rewrite remove_id_cons. destruct (eid x =? i) eqn:E.
  - rewrite IH, find_by_id_cons. destruct (i =? id) eqn:E2; [reflexivity|]. replace (eid x =? id) with false by lia. reflexivity.
  - rewrite !find_by_id_cons, IH. destruct (eid x =? id) eqn:E2; [|reflexivity]. replace (i =? id) with false by lia. reflexivity.
Qed.
Lemma find_replace i id e' l : eid e' = i ->
  find_by_id id (replace_id i e' l) = if i =? id then option_map (fun _ => e') (find_by_id id l) else find_by_id id l.
Proof.
  intros He. induction l as [|x l IH]; [destruct (i =? id); reflexivity|]. rewrite replace_id_cons, !find_by_id_cons, IH.
  destruct (eid x =? i) eqn:E, (i =? id) eqn:E2.
  - replace (eid e' =? id) with true by lia. replace (eid x =? id) with true by lia. reflexivity.
  - replace (eid e' =? id) with false by lia. replace (eid x =? id) with false by lia. reflexivity.
  - replace (eid x =? id) with false by lia. reflexivity.
  - reflexivity.
Qed.
Lemma find_snoc id l x :
  find_by_id id (l ++ [x]) = match find_by_id id l with Some e => Some e | None => if eid x =? id then Some x else None end.
Proof. induction l as [|y l IH]; [reflexivity|]. cbn [app]. rewrite !find_by_id_cons, IH. destruct (eid y =? id); reflexivity. Qed.

Lemma ids_replace_id i e' l : eid e' = i -> map eid (replace_id i e' l) = map eid l.
Proof.
  intros H. induction l as [|e l IH]; [reflexivity|]. rewrite replace_id_cons. cbn [map]. rewrite IH. f_equal.
  destruct (eid e =? i) eqn:E; [|reflexivity]. lia.
Qed.
Lemma in_ids_remove i j l : In j (map eid (remove_id i l)) -> In j (map eid l).
Proof. exact (incl_map eid (incl_filter _ l) j). Qed.
Lemma Forall_remove_id (P : entry -> Prop) i l : Forall P l -> Forall P (remove_id i l).
Proof. exact (incl_Forall (incl_filter _ l)). Qed.
Lemma Forall_replace_id (P : entry -> Prop) i e' l : Forall P l -> P e' -> Forall P (replace_id i e' l).
Proof. unfold replace_id. intros H He. induction H; cbn [map]; constructor; auto. destruct (r_id (e_req x) =? i); auto. Qed.
Lemma Inv_live s e : Inv s -> In e (s_incoming s) -> e_pipes e = live.
Proof. intros [_ HF]. rewrite Forall_forall in HF. apply HF. Qed.

(* the rendering registered for id has not finished yet: the potential of the counting argument.  Defined from the lookup,
   so that the three equations above say how it moves. *)
Definition pending (id : Z) (l : list entry) : bool :=
  match find_by_id id l with Some e => negb (e_finished e) | None => false end.
Lemma find_by_id_none id l : find_by_id id l = None -> unf id l = false.
Proof.
  induction l as [|x l IH]; [reflexivity|]. rewrite find_by_id_cons. cbn [unf existsb]. destruct (eid x =? id); [discriminate|exact IH].
Qed.

Lemma finals_for_tag id j (l : list (msg * bool)) :
  finals_for id (map (fun x => (j, fst x, snd x)) l) = if j =? id then map fst (filter snd l) else [].
Proof.
  induction l as [|[m last] l IH]; cbn; [destruct (j =? id); reflexivity|].
  unfold finals_for in IH. rewrite IH. destruct (j =? id); [|reflexivity]. destruct last; reflexivity.
Qed.
Lemma finals_for_app id a b : finals_for id (a ++ b) = finals_for id a ++ finals_for id b.
Proof. unfold finals_for. apply flat_map_app. Qed.
Lemma sends_of_cons a acts : sends_of (a :: acts) = (match a with Send m l => [(m, l)] | _ => [] end) ++ sends_of acts.
Proof. reflexivity. Qed.
Lemma sends_of_app a b : sends_of (a ++ b) = sends_of a ++ sends_of b.
Proof. unfold sends_of. apply flat_map_app. Qed.
Lemma sends_of_logs logs : sends_of (map Log logs) = [].
Proof. induction logs as [|l logs IH]; [reflexivity|]. cbn [map]. rewrite sends_of_cons. exact IH. Qed.
Lemma sends_of_filter acts : sends_of (filter is_send acts) = sends_of acts.
Proof.
  induction acts as [|a acts IH]; [reflexivity|]. destruct a as [m l|l]; cbn [filter is_send].
  - rewrite !sends_of_cons, IH. reflexivity.
  - rewrite sends_of_cons, IH. reflexivity.
Qed.
Lemma sends_of_finals acts : length (filter snd (sends_of acts)) = count_final acts.
Proof.
  unfold count_final. induction acts as [|a acts IH]; [reflexivity|].
  rewrite sends_of_cons, filter_app, app_length, IH. destruct a as [m [|]|l]; reflexivity.
Qed.
Lemma entry_finals_le srv e j id : e_pipes e = live ->
  (length (finals_for id (map (fun x => (j, fst x, snd x)) (entry_sends srv e))) <= b2n (Z.eqb j id))%nat.
Proof.
  intros He. rewrite finals_for_tag. destruct (j =? id); [|cbn; lia]. cbn [b2n]. rewrite map_length.
  unfold entry_sends. rewrite He. pose proof (run_ractions_live (respond srv (e_req e))) as Hl.
  destruct (run_ractions live (respond srv (e_req e))) as [[q a] n]. rewrite sends_of_finals. apply once_count, Hl.
Qed.
Lemma entry_sends_own srv e : e_pipes e = live -> finalising srv (e_req e) ->
  entry_sends srv e = match final_message srv (e_req e) with Some m => [(m, true)] | None => [] end.
Proof.
  intros He Hn. unfold entry_sends. rewrite He. destruct (coroutine_final_once srv (e_req e) Hn) as (m & acts & n & -> & -> & Hf).
  rewrite <- sends_of_filter, Hf. reflexivity.
Qed.

(* its entry is dropped, or stays as a finished one with its pipes still set up *)
Lemma run_entry_incoming srv s e : e_pipes e = live ->
  s_incoming (fst (run_entry srv s e)) = remove_id (eid e) (s_incoming s) \/
  s_incoming (fst (run_entry srv s e)) = replace_id (eid e) {| e_req := e_req e; e_pipes := live; e_finished := true |} (s_incoming s).
Proof.
  intros H. unfold run_entry. rewrite H. pose proof (run_ractions_live (respond srv (e_req e))) as Hl.
  destruct (run_ractions live (respond srv (e_req e))) as [[q a] n]. destruct Hl as (Hq & _).
  match goal with |- context [perform ?s0 ?r0 a] => pose proof (perform_incoming a s0 r0) as Hp; destruct (perform s0 r0 a) as [[s2 w] l] end.
  cbn [fst] in *. rewrite Hp. destruct Hq as [-> | ->]; [right|left]; reflexivity.
Qed.
Lemma run_entry_inv srv s e : Inv s -> e_pipes e = live ->
  Inv (fst (run_entry srv s e)) /\ forall i, In i (ids (fst (run_entry srv s e))) -> In i (ids s).
Proof.
  intros [H1 H2] He. unfold Inv, ids. destruct (run_entry_incoming srv s e He) as [-> | ->].
  - split; [|intros i; apply in_ids_remove]. split; [apply NoDup_map_filter; exact H1|apply Forall_remove_id; exact H2].
  - rewrite ids_replace_id by reflexivity. split; [|auto]. split; [exact H1|]. apply Forall_replace_id; [exact H2|reflexivity].
Qed.
Lemma run_entry_find_other srv s e id : e_pipes e = live -> eid e <> id ->
  find_by_id id (s_incoming (fst (run_entry srv s e))) = find_by_id id (s_incoming s).
Proof.
  intros He Hn. destruct (run_entry_incoming srv s e He) as [-> | ->]; [rewrite find_remove|rewrite find_replace by reflexivity];
    replace (eid e =? id) with false by lia; reflexivity.
Qed.
Lemma run_entry_settled srv s e : e_pipes e = live -> pending (eid e) (s_incoming (fst (run_entry srv s e))) = false.
Proof.
  intros He. unfold pending. destruct (run_entry_incoming srv s e He) as [-> | ->]; [rewrite find_remove|rewrite find_replace by reflexivity];
    rewrite Z.eqb_refl; [reflexivity|]. destruct (find_by_id (eid e) (s_incoming s)); reflexivity.
Qed.
(* the accounting of one rendering's run: what it hands over as final for id, plus what is still pending for id afterwards *)
Lemma run_entry_bound srv s e id : e_pipes e = live ->
  (length (finals_for id (map (fun x => (eid e, fst x, snd x)) (entry_sends srv e)))
     + b2n (pending id (s_incoming (fst (run_entry srv s e))))
   <= if Z.eqb (eid e) id then 1 else b2n (pending id (s_incoming s)))%nat.
Proof.
  intros He. pose proof (entry_finals_le srv e (eid e) id He) as Hle. destruct (eid e =? id) eqn:E.
  - apply Z.eqb_eq in E. subst id. rewrite (run_entry_settled srv s e He). cbn [b2n] in *. lia.
  - unfold pending. rewrite run_entry_find_other by (try exact He; lia). cbn [b2n] in Hle. lia.
Qed.

(* the renderings left after the one registered under key k, if any, has been overridden *)
Definition displaced (k : key) (l : list entry) : list entry :=
  match find_by_key k l with Some old => remove_id (eid old) l | None => l end.
(* the state after the first half of step_req — piggy-back registration, override, the new entry.  The model calls stop()
   on the overridden rendering's pipes and performs what that yields; on live pipes it yields nothing (live_stop) *)
Definition arrive (s : state) (r : request) : state :=
  let k := key_of r in
  let s1 := if r_con r then set_piggy s (remove_piggy k (s_piggy s) ++ [(k, (r_mid r, s_now s + EMPTY_ACK_DELAY))]) else s in
  set_incoming s1 (displaced k (s_incoming s) ++ [new_entry r]).
Lemma step_req_arrive srv s r : Inv s ->
  step_req srv s r = if r_slow r && reaches_handler srv r then (arrive s r, ([], [], 0))
                     else run_entry srv (arrive s r) (new_entry r).
Proof.
  intros HI. unfold step_req, arrive, displaced, new_entry. cbv zeta.
  set (s1 := if r_con r then _ else s).
  assert (H1: s_incoming s1 = s_incoming s) by (subst s1; destruct (r_con r); reflexivity). rewrite H1.
  destruct (find_by_key (key_of r) (s_incoming s)) as [old|] eqn:E.
  - rewrite (Inv_live s old HI (proj1 (find_by_key_some _ _ _ E))), live_stop. cbn [perform app].
    destruct (r_slow r && reaches_handler srv r); [reflexivity|].
    destruct (run_entry srv _ _) as [s4 [[w l] n]]. reflexivity.
  - cbv beta iota. rewrite H1. destruct (r_slow r && reaches_handler srv r); [reflexivity|].
    destruct (run_entry srv _ _) as [s4 [[w l] n]]. reflexivity.
Qed.
Lemma arrive_incoming s r : s_incoming (arrive s r) = displaced (key_of r) (s_incoming s) ++ [new_entry r].
Proof. reflexivity. Qed.

Lemma displaced_cases k l : displaced k l = l \/ exists old, find_by_key k l = Some old /\ displaced k l = remove_id (eid old) l.
Proof. unfold displaced. destruct (find_by_key k l) as [old|]; [right; exists old; split; reflexivity|left; reflexivity]. Qed.
Lemma displaced_incl k l : incl (displaced k l) l.
Proof. destruct (displaced_cases k l) as [->|(old & _ & ->)]; [apply incl_refl|apply incl_filter]. Qed.
Lemma displaced_ids k l i : In i (map eid (displaced k l)) -> In i (map eid l).
Proof. exact (incl_map eid (displaced_incl k l) i). Qed.
(* an entry under another key is not the one displaced *)
Lemma find_displaced k l id e : NoDup (map eid l) -> find_by_id id l = Some e -> key_eqb k (key_of (e_req e)) = false ->
  find_by_id id (displaced k l) = Some e.
Proof.
  intros Hnd Ef Hk. destruct (displaced_cases k l) as [->|(old & Hold & ->)]; [exact Ef|]. rewrite find_remove.
  destruct (eid old =? id) eqn:E; [|exact Ef]. exfalso.
  destruct (find_by_id_some _ _ _ Ef) as (Hin & Hid). destruct (find_by_key_some _ _ _ Hold) as (Hino & Hko).
  assert (old = e) by (eapply (NoDup_map_inj_in eid); eauto; lia). subst old. congruence.
Qed.
Lemma pending_displaced k l id : pending id (displaced k l) = true -> pending id l = true.
Proof.
  destruct (displaced_cases k l) as [->|(old & _ & ->)]; [auto|]. unfold pending. rewrite find_remove.
  destruct (eid old =? id); [discriminate|auto].
Qed.
Lemma arrive_inv s r : Inv s -> ~ In (r_id r) (ids s) ->
  Inv (arrive s r) /\ forall i, In i (ids (arrive s r)) -> In i (ids s) \/ In i [r_id r].
Proof.
  intros [H1 H2] Hf. unfold Inv, ids. rewrite arrive_incoming, map_app. split; [split|].
  - apply NoDup_snoc; [|intros H; apply Hf; exact (displaced_ids _ _ _ H)].
    destruct (displaced_cases (key_of r) (s_incoming s)) as [->|(old & _ & ->)]; [exact H1|apply NoDup_map_filter; exact H1].
  - apply Forall_app. split; [exact (incl_Forall (displaced_incl _ _) H2)|repeat constructor].
  - intros i Hi. apply in_app_or in Hi as [Hi|Hi]; [left; exact (displaced_ids _ _ _ Hi)|right; exact Hi].
Qed.
Lemma pending_arrive s r id :
  (b2n (pending id (s_incoming (arrive s r))) <= b2n (pending id (s_incoming s)) + b2n (Z.eqb (r_id r) id))%nat.
Proof.
  rewrite arrive_incoming. unfold pending at 1. rewrite find_snoc. change (eid (new_entry r)) with (r_id r).
  pose proof (pending_displaced (key_of r) (s_incoming s) id) as H. unfold pending at 1 in H.
  destruct (find_by_id id (displaced _ _)) as [e|].
  - destruct (e_finished e); cbn [negb b2n] in *; [lia|]. rewrite H by reflexivity. cbn; lia.
  - destruct (r_id r =? id); cbn; lia.
Qed.
Lemma deferred_entry srv s r : Inv s -> ~ In (r_id r) (ids s) -> r_slow r && reaches_handler srv r = true ->
  find_by_id (r_id r) (s_incoming (fst (step srv s (Req r)))) = Some (new_entry r).
Proof.
  intros HI H1 Hs. cbn [step]. rewrite (step_req_arrive srv s r HI), Hs. cbn [fst]. rewrite arrive_incoming, find_snoc.
  rewrite find_by_id_absent by (intros H; apply H1; exact (displaced_ids _ _ _ H)).
  change (eid (new_entry r)) with (r_id r). rewrite Z.eqb_refl. reflexivity.
Qed.

(* One step in two phases: the event acts on the tables ([settle]: a request is registered, the due empty ACKs go out, an
   acknowledgement releases a backlogged datagram), then at most one rendering gets its turn to run to its end ([turn]). *)
Definition settle (s : state) (ev : sevent) : state * list wire :=
  match ev with
  | Req r => (arrive s r, [])
  | Done _ => (s, [])
  | Tick us => step_tick s us
  | AckFrom remote => step_ack s remote
  end.
Definition turn (srv : option site) (s : state) (ev : sevent) : option entry :=
  match ev with
  | Req r => if r_slow r && reaches_handler srv r then None else Some (new_entry r)
  | Done j => match find_by_id j (s_incoming s) with
              | Some e => if e_finished e then None else Some e
              | None => None
              end
  | _ => None
  end.
Lemma step_phases srv s ev : Inv s ->
  step srv s ev = match turn srv s ev with
                  | Some e => run_entry srv (fst (settle s ev)) e
                  | None => (fst (settle s ev), (snd (settle s ev), [], 0))
                  end.
Proof.
  intros HI. destruct ev as [r|j|us|remote]; cbn [step turn settle fst snd].
  - rewrite (step_req_arrive srv s r HI). destruct (r_slow r && reaches_handler srv r); reflexivity.
  - unfold step_done. destruct (find_by_id j (s_incoming s)) as [e|]; [destruct (e_finished e)|]; reflexivity.
  - destruct (step_tick s us). reflexivity.
  - destruct (step_ack s remote). reflexivity.
Qed.
Lemma step_sends_turn srv s ev :
  step_sends srv s ev = match turn srv s ev with
                        | Some e => map (fun x => (eid e, fst x, snd x)) (entry_sends srv e)
                        | None => []
                        end.
Proof.
  destruct ev as [r|j|us|remote]; cbn [step_sends turn]; try reflexivity.
  - destruct (r_slow r && reaches_handler srv r); reflexivity.
  - destruct (find_by_id j (s_incoming s)) as [e|] eqn:Ef; [|reflexivity]. destruct (e_finished e); [reflexivity|].
    rewrite (proj2 (find_by_id_some _ _ _ Ef)). reflexivity.
Qed.
Lemma turn_cases srv s ev e : turn srv s ev = Some e ->
  (exists r, ev = Req r /\ e = new_entry r) \/
  (ev = Done (eid e) /\ find_by_id (eid e) (s_incoming s) = Some e /\ e_finished e = false).
Proof.
  destruct ev as [r|j|us|remote]; cbn [turn]; try discriminate.
  - destruct (r_slow r && reaches_handler srv r); [discriminate|]. intros [= <-]. left. exists r. split; reflexivity.
  - destruct (find_by_id j (s_incoming s)) as [e'|] eqn:Ef; [|discriminate]. destruct (e_finished e') eqn:Efin; [discriminate|].
    intros [= <-]. right. rewrite (proj2 (find_by_id_some _ _ _ Ef)). auto.
Qed.
(* the rendering whose turn it is is registered and set up, and the event itself has put nothing on the wire *)
Lemma turn_some srv s ev e : Inv s -> turn srv s ev = Some e ->
  e_pipes e = live /\ In e (s_incoming (fst (settle s ev))) /\ snd (settle s ev) = [].
Proof.
  intros HI Et. destruct (turn_cases srv s ev e Et) as [(r & -> & ->)|(-> & Ef & _)]; cbn [settle fst snd].
  - repeat split. rewrite arrive_incoming. apply in_or_app. right. left. reflexivity.
  - pose proof (proj1 (find_by_id_some _ _ _ Ef)) as Hin. repeat split; [exact (Inv_live s e HI Hin)|exact Hin].
Qed.
Lemma settle_incoming s ev :
  s_incoming (fst (settle s ev)) =
  match ev with Req r => displaced (key_of r) (s_incoming s) ++ [new_entry r] | _ => s_incoming s end.
Proof.
  destruct ev as [r|j|us|remote]; cbn [settle fst]; try reflexivity.
  - unfold step_tick. destruct (fire_piggy _ _). reflexivity.
  - unfold step_ack. destruct (remove_first_active remote (s_active s)) as [a|]; [|reflexivity].
    exact (continue_backlog_incoming (set_active s a) remote).
Qed.

Lemma step_inv srv s ev : Inv s -> (forall r, ev = Req r -> ~ In (r_id r) (ids s)) ->
  Inv (fst (step srv s ev)) /\ forall i, In i (ids (fst (step srv s ev))) -> In i (ids s) \/ In i (req_ids [ev]).
Proof.
  intros HI Hf.
  assert (Hs: Inv (fst (settle s ev)) /\ forall i, In i (ids (fst (settle s ev))) -> In i (ids s) \/ In i (req_ids [ev])).
  { destruct ev as [r| | |]; [exact (arrive_inv s r HI (Hf r eq_refl))|unfold Inv, ids; rewrite settle_incoming; auto..]. }
  destruct Hs as (HIs & His). rewrite (step_phases srv s ev HI). destruct (turn srv s ev) as [e|] eqn:Et; [|split; assumption].
  destruct (run_entry_inv srv _ e HIs (proj1 (turn_some srv s ev e HI Et))) as (HIr & Hir). split; auto.
Qed.
Lemma req_ids_cons ev rest : req_ids (ev :: rest) = req_ids [ev] ++ req_ids rest.
Proof. unfold req_ids. cbn [flat_map]. rewrite app_nil_r. reflexivity. Qed.
Lemma fresh_head s r rest : fresh s (Req r :: rest) -> ~ In (r_id r) (ids s).
Proof. intros [_ Hni]. apply Hni. left. reflexivity. Qed.
(* the two standing hypotheses travel along a script *)
Lemma step_ok srv s ev rest : Inv s -> fresh s (ev :: rest) ->
  Inv (fst (step srv s ev)) /\ fresh (fst (step srv s ev)) rest.
Proof.
  intros HI Hf.
  assert (H1: forall r, ev = Req r -> ~ In (r_id r) (ids s)) by (intros r ->; exact (fresh_head _ _ _ Hf)).
  destruct (step_inv srv s ev HI H1) as (HI' & Hids). split; [exact HI'|].
  destruct Hf as [Hnd Hni]. rewrite req_ids_cons in Hnd, Hni. split.
  - destruct ev; cbn in Hnd; try exact Hnd. inversion Hnd; assumption.
  - intros i Hi Hin. apply Hids in Hin as [Hin|Hin].
    + apply (Hni i); [apply in_or_app; right; exact Hi|exact Hin].
    + destruct ev as [r| | |]; cbn in Hin; [|destruct Hin..]. destruct Hin as [<-|[]]. cbn in Hnd. inversion Hnd as [|? ? Hx _]. exact (Hx Hi).
Qed.
Lemma run_cons_fst srv s ev rest : fst (run srv s (ev :: rest)) = fst (run srv (fst (step srv s ev)) rest).
Proof. cbn [run]. destruct (step srv s ev) as [s1 o]. cbn [fst]. destruct (run srv s1 rest) as [s2 os]. reflexivity. Qed.
Lemma run_ok srv : forall a s b, Inv s -> fresh s (a ++ b) -> Inv (fst (run srv s a)) /\ fresh (fst (run srv s a)) b.
Proof.
  induction a as [|ev a IH]; intros s b HI Hf; [split; assumption|]. cbn [app] in Hf.
  destruct (step_ok srv s ev (a ++ b) HI Hf) as (HI' & Hf'). rewrite run_cons_fst. apply IH; assumption.
Qed.

Lemma count_occ_one (x id : Z) : count_occ Z.eq_dec [x] id = b2n (Z.eqb x id).
Proof.
  cbn [count_occ]. destruct (Z.eq_dec x id) as [->|H]; [rewrite Z.eqb_refl|replace (x =? id) with false by lia]; reflexivity.
Qed.
Lemma settle_pending s ev id :
  (b2n (pending id (s_incoming (fst (settle s ev)))) <= b2n (pending id (s_incoming s)) + count_occ Z.eq_dec (req_ids [ev]) id)%nat.
Proof.
  destruct ev as [r| | |]; [|rewrite settle_incoming; lia..]. cbn [req_ids flat_map app]. rewrite count_occ_one. apply pending_arrive.
Qed.
(* a step hands over at most as many final responses for id as it uses up of: id's pending rendering, id's arrival *)
Lemma step_bound srv s ev id : Inv s ->
  (length (finals_for id (step_sends srv s ev)) + b2n (pending id (s_incoming (fst (step srv s ev))))
     <= b2n (pending id (s_incoming s)) + count_occ Z.eq_dec (req_ids [ev]) id)%nat.
Proof.
  intros HI. pose proof (settle_pending s ev id) as Hp. rewrite (step_phases srv s ev HI), step_sends_turn.
  destruct (turn srv s ev) as [e|] eqn:Et; [|cbn [fst finals_for flat_map length]; lia].
  pose proof (run_entry_bound srv (fst (settle s ev)) e id (proj1 (turn_some srv s ev e HI Et))) as Hb.
  destruct (eid e =? id) eqn:E; [|lia].
  (* id's own turn: it arrives with this event, or it was pending *)
  enough (1 <= b2n (pending id (s_incoming s)) + count_occ Z.eq_dec (req_ids [ev]) id)%nat by lia.
  destruct (turn_cases srv s ev e Et) as [(r & -> & ->)|(-> & Ef & Efin)].
  - cbn [req_ids flat_map app]. rewrite count_occ_one. change (eid (new_entry r)) with (r_id r) in E. rewrite E. cbn. lia.
  - apply Z.eqb_eq in E. unfold pending. rewrite <- E, Ef, Efin. cbn. lia.
Qed.
Lemma finals_bound srv : forall evs s id, Inv s -> fresh s evs ->
  (length (finals_for id (run_sends srv s evs)) + b2n (pending id (s_incoming (fst (run srv s evs))))
     <= b2n (pending id (s_incoming s)) + count_occ Z.eq_dec (req_ids evs) id)%nat.
Proof.
  induction evs as [|ev rest IH]; intros s id HI Hf; [cbn; lia|].
  destruct (step_ok srv s ev rest HI Hf) as (HI' & Hf'). pose proof (step_bound srv s ev id HI) as Hb.
  specialize (IH (fst (step srv s ev)) id HI' Hf').
  cbn [run_sends]. rewrite finals_for_app, app_length, run_cons_fst, req_ids_cons, count_occ_app. lia.
Qed.

Lemma at_most_one_final srv evs s id : Inv s -> fresh s evs ->
  (length (finals_for id (run_sends srv s evs)) <= 1)%nat.
Proof.
  intros HI Hf. pose proof (finals_bound srv evs s id HI Hf) as H. destruct Hf as [Hnd Hni].
  destruct (pending id (s_incoming s)) eqn:U.
  - (* id is registered, so it does not arrive again *)
    assert (Hn: ~ In id (req_ids evs)).
    { intros Hin. apply (Hni id Hin). unfold pending in U. destruct (find_by_id id (s_incoming s)) eqn:E; [|discriminate]. exact (find_in_ids _ _ _ E). }
    apply (count_occ_not_In Z.eq_dec) in Hn. cbn [b2n] in H. lia.
  - pose proof (proj1 (NoDup_count_occ Z.eq_dec _) Hnd id). cbn [b2n] in H. lia.
Qed.
Lemma finals_none_after srv evs s id : Inv s -> fresh s evs -> pending id (s_incoming s) = false -> ~ In id (req_ids evs) ->
  finals_for id (run_sends srv s evs) = [].
Proof.
  intros HI Hf U Hn. pose proof (finals_bound srv evs s id HI Hf) as H. apply (count_occ_not_In Z.eq_dec) in Hn. rewrite U, Hn in H.
  destruct (finals_for id (run_sends srv s evs)); [reflexivity|cbn in H; lia].
Qed.
Lemma init_inv mid0 : Inv (init_state mid0).
Proof. split; constructor. Qed.
Lemma init_fresh mid0 evs : NoDup (req_ids evs) -> fresh (init_state mid0) evs.
Proof. intros H. split; [exact H|]. intros i _ []. Qed.

(* a finalising rendering whose turn it is hands over exactly its final message *)
Lemma turn_sends_own srv s ev e : Inv s -> turn srv s ev = Some e -> finalising srv (e_req e) ->
  step_sends srv s ev = match final_message srv (e_req e) with Some m => [(eid e, m, true)] | None => [] end.
Proof.
  intros HI Et Hn. rewrite step_sends_turn, Et, (entry_sends_own srv e (proj1 (turn_some srv s ev e HI Et)) Hn).
  destruct (final_message srv (e_req e)); reflexivity.
Qed.

Definition unrelated (s : state) (id : Z) (e : entry) (ev : sevent) : Prop :=
  match ev with
  | Req r => r_id r <> id /\ key_eqb (key_of r) (key_of (e_req e)) = false /\ ~ In (r_id r) (ids s)
  | Done j => j <> id
  | _ => True
  end.
Lemma step_frame srv s ev id e : Inv s -> find_by_id id (s_incoming s) = Some e -> unrelated s id e ev ->
  find_by_id id (s_incoming (fst (step srv s ev))) = Some e /\ finals_for id (step_sends srv s ev) = [].
Proof.
  intros HI Ef Hu.
  assert (Hs: find_by_id id (s_incoming (fst (settle s ev))) = Some e).
  { rewrite settle_incoming. destruct ev as [r| | |]; try exact Ef. destruct Hu as (_ & Hk & _).
    rewrite find_snoc, (find_displaced _ _ _ e (proj1 HI) Ef Hk). reflexivity. }
  rewrite (step_phases srv s ev HI), step_sends_turn. destruct (turn srv s ev) as [e'|] eqn:Et; [|split; [exact Hs|reflexivity]].
  assert (Hne: eid e' <> id).
  { destruct (turn_cases srv s ev e' Et) as [(r & -> & ->)|(-> & _)]; [exact (proj1 Hu)|exact Hu]. }
  split.
  - rewrite run_entry_find_other; [exact Hs|exact (proj1 (turn_some srv s ev e' HI Et))|exact Hne].
  - rewrite finals_for_tag. replace (eid e' =? id) with false by lia. reflexivity.
Qed.
Lemma run_sends_app srv : forall a s b, run_sends srv s (a ++ b) = run_sends srv s a ++ run_sends srv (fst (run srv s a)) b.
Proof. induction a as [|ev a IH]; intros s b; [reflexivity|]. cbn [app run_sends]. rewrite run_cons_fst, IH, app_assoc. reflexivity. Qed.
(* ... over a whole stretch of the script: after events none of which re-uses its key or completes it, a rendering in
   flight is still there, and nothing final has been handed over for it *)
Lemma in_flight_kept srv id e : forall mid s rest, Inv s -> fresh s (mid ++ rest) -> find_by_id id (s_incoming s) = Some e ->
  Forall (fun ev => match ev with
                    | Req r => key_eqb (key_of r) (key_of (e_req e)) = false
                    | Done j => j <> id
                    | _ => True end) mid ->
  let s' := fst (run srv s mid) in
  Inv s' /\ fresh s' rest /\ find_by_id id (s_incoming s') = Some e /\ finals_for id (run_sends srv s mid) = [].
Proof.
  induction mid as [|ev mid IH]; intros s rest HI Hf Ef Hmid; [exact (conj HI (conj Hf (conj Ef eq_refl)))|].
  inversion Hmid as [|? ? Hev Hmid']; subst. cbn [app] in Hf. destruct (step_ok srv s ev (mid ++ rest) HI Hf) as (HI' & Hf').
  assert (Hu: unrelated s id e ev).
  { destruct ev as [r|j|us|remote]; cbn; auto. pose proof (fresh_head _ _ _ Hf) as H1. split; [|split; assumption].
    intros Heq. apply H1. rewrite Heq. exact (find_in_ids _ _ _ Ef). }
  destruct (step_frame srv s ev id e HI Ef Hu) as (Ef' & Hs). destruct (IH _ rest HI' Hf' Ef' Hmid') as (A & B & C & D).
  cbv zeta. rewrite run_cons_fst. cbn [run_sends]. rewrite finals_for_app, Hs, D. exact (conj A (conj B (conj C eq_refl))).
Qed.

(* From its arrival to its completion, with only unrelated events in between, the rendering of r gets exactly one turn: at
   once, or, deferred, at its Done.  Nothing final is handed over for it before, and its id does not arrive again. *)
Lemma own_turn srv s r mid post : Inv s -> fresh s (Req r :: mid ++ Done (r_id r) :: post) ->
  Forall (fun ev => match ev with
                    | Req r' => key_eqb (key_of r') (key_of r) = false
                    | Done j => j <> r_id r
                    | _ => True end) mid ->
  exists pre ev rest, Req r :: mid ++ Done (r_id r) :: post = pre ++ ev :: rest /\
    (ev = Req r \/ r_slow r && reaches_handler srv r = true) /\
    Inv (fst (run srv s pre)) /\ fresh (fst (run srv s pre)) (ev :: rest) /\
    turn srv (fst (run srv s pre)) ev = Some (new_entry r) /\
    finals_for (r_id r) (run_sends srv s pre) = [] /\ ~ In (r_id r) (req_ids rest).
Proof.
  intros HI Hf Hmid. destruct (r_slow r && reaches_handler srv r) eqn:Hs.
  - destruct (step_ok srv s (Req r) _ HI Hf) as (HI' & Hf').
    destruct (in_flight_kept srv (r_id r) (new_entry r) mid _ _ HI' Hf' (deferred_entry srv s r HI (fresh_head _ _ _ Hf) Hs) Hmid)
      as (HI'' & Hf'' & Ef & Hnone).
    exists (Req r :: mid), (Done (r_id r)), post. rewrite run_cons_fst. cbn [run_sends step_sends]. rewrite Hs. cbn [app].
    refine (conj eq_refl (conj (or_intror eq_refl) (conj HI'' (conj Hf'' (conj _ (conj Hnone _)))))).
    + cbn [turn]. rewrite Ef. reflexivity.
    + intros Hin. exact (proj2 Hf'' (r_id r) Hin (find_in_ids _ _ _ Ef)).
  - exists [], (Req r), (mid ++ Done (r_id r) :: post). cbn [turn]. rewrite Hs.
    refine (conj eq_refl (conj (or_introl eq_refl) (conj HI (conj Hf (conj eq_refl (conj eq_refl _)))))).
    destruct Hf as [Hnd _]. cbn in Hnd. inversion Hnd; assumption.
Qed.
(* a request whose handler gets to finish receives exactly its own final response, and nothing afterwards *)
Lemma exactly_one_final srv s r mid m post :
  Inv s -> fresh s (Req r :: mid ++ Done (r_id r) :: post) ->
  finalising srv r -> final_message srv r = Some m ->
  Forall (fun ev => match ev with
                    | Req r' => key_eqb (key_of r') (key_of r) = false
                    | Done j => j <> r_id r
                    | _ => True end) mid ->
  finals_for (r_id r) (run_sends srv s (Req r :: mid ++ Done (r_id r) :: post)) = [m].
Proof.
  intros HI Hf Hn Hm Hmid.
  destruct (own_turn srv s r mid post HI Hf Hmid) as (pre & ev & rest & -> & _ & HI' & Hf' & Et & Hnone & Hnin).
  destruct (step_ok srv _ ev rest HI' Hf') as (HI'' & Hf'').
  rewrite run_sends_app, finals_for_app, Hnone. cbn [app run_sends].
  rewrite finals_for_app, (turn_sends_own srv _ ev _ HI' Et Hn). cbn [e_req new_entry]. rewrite Hm.
  rewrite finals_none_after; [cbn; rewrite Z.eqb_refl; reflexivity|exact HI''|exact Hf''| |exact Hnin].
  rewrite (step_phases srv _ ev HI'), Et. exact (run_entry_settled srv _ (new_entry r) eq_refl).
Qed.

Definition on_wire_for (r : request) (w : wire) : Prop :=
  w_rid w = r_id r /\ w_remote w = r_remote r /\ w_token w = r_token r.
Lemma find_backlog_append remote w l :
  find_backlog remote (backlog_append remote w l) = option_map (fun b => b ++ [w]) (find_backlog remote l).
Proof.
  induction l as [|[q b] l IH]; [reflexivity|]. cbn [backlog_append find_backlog].
  destruct (q =? remote) eqn:Eq; cbn [find_backlog]; rewrite Eq; [reflexivity|exact IH].
Qed.
Lemma send_plain_cases s r m :
  let '(s', out) := send_plain s r m in
  let w := mk_wire r (if r_con r then T_CON else T_NON) (s_mid s) m in
  (out = [w] \/ (out = [] /\ r_con r = true /\ has_backlog s (r_remote r) = true /\
                 find_backlog (r_remote r) (s_backlog s') = option_map (fun b => b ++ [w]) (find_backlog (r_remote r) (s_backlog s)))).
Proof.
  unfold send_plain. destruct (r_con r) eqn:Ec; [|left; reflexivity].
  change (T_CON =? T_CON) with true. cbn [andb].
  change (has_backlog (set_mid s _) (r_remote r)) with (has_backlog s (r_remote r)).
  destruct (has_backlog s (r_remote r)) eqn:Eb; [right|left; reflexivity].
  repeat split. apply find_backlog_append.
Qed.
Lemma lookup_remove_piggy k l : lookup_piggy k (remove_piggy k l) = None.
Proof.
  induction l as [|[k' v] l IH]; [reflexivity|]. unfold remove_piggy in *. cbn [filter fst].
  destruct (key_eqb k k') eqn:Ek; cbn [negb]; [exact IH|]. cbn [lookup_piggy]. rewrite Ek. exact IH.
Qed.
Lemma send_message_cases s r m : is_response (code_of m) = true ->
  let '(s', out) := send_message s r m in
  match lookup_piggy (key_of r) (s_piggy s) with
  | Some (mid, _) =>
      lookup_piggy (key_of r) (s_piggy s') = None /\
      out = [if suppressed m then empty_ack (r_remote r) mid else mk_wire r T_ACK mid m]
  | None =>
      if suppressed m then s' = s /\ out = []
      else let w := mk_wire r (if r_con r then T_CON else T_NON) (s_mid s) m in
           (out = [w] \/ (out = [] /\ r_con r = true /\ has_backlog s (r_remote r) = true /\
                          find_backlog (r_remote r) (s_backlog s') = option_map (fun b => b ++ [w]) (find_backlog (r_remote r) (s_backlog s))))
  end.
Proof.
  intros Hresp. rewrite send_message_unfold, Hresp. cbn [negb].
  destruct (lookup_piggy (key_of r) (s_piggy s)) as [[mid due]|] eqn:E.
  - destruct (suppressed m); cbn; split; auto; apply lookup_remove_piggy.
  - destruct (suppressed m); [split; reflexivity|]. apply send_plain_cases.
Qed.
Lemma send_message_non_response s r m : is_response (code_of m) = false -> send_message s r m = send_plain s r m.
Proof. intros H. rewrite send_message_unfold, H. reflexivity. Qed.

Lemma perform_send s r m last :
  perform s r [Send m last] = let '(s', w) := send_message s r (tm_fill r m) in (s', w ++ [], []).
Proof. cbn [perform]. destruct (send_message s r (tm_fill r m)). reflexivity. Qed.

(* an observation being established hands its first response to the message layer as a non-final one (no final response:
   the request stays registered, notifications follow — C08) *)
Lemma entry_sends_established s e methods mode : e_pipes e = live ->
  find_resource s (r_path (e_req e)) = Some (Observable methods mode) -> observing (e_req e) = true ->
  establishes methods mode (e_req e) = true ->
  exists m, render methods (e_req e) = Responded m /\ entry_sends (Some s) e = [(set_obs m (Some 0), false)].
Proof.
  intros He Hf Ho Hs. destruct (observable_established s (e_req e) methods mode Hf Ho Hs) as (m & Hr & _ & _ & Hrun).
  exists m. split; [exact Hr|]. unfold entry_sends. rewrite He, Hrun. reflexivity.
Qed.
