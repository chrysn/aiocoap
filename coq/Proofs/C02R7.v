(* C02 — over whole runs. A cancelled observation (flag set by ObsCancel or by an earlier error) is never notified again. Only
   TokenManager.request emits a Token and moves the counter, so the tokens of a run are an initial segment of the counter's sequence
   and the table holds them in order of age. r7_* are the scripts of the non-vacuity Examples. *)
From Verif Require Import Lib.Py Lib.PyLemmas Lib.Tactics Gen.tokenmanager_next_token Model.C02 Proofs.C02.
Open Scope Z_scope.

Definition canc (s : st) (q : Z) : Prop := exists c, get_req s q = Some c /\ cq_obs_cancelled c = true.
Definition silent (q : Z) (x : output) : Prop := forall rid tok from, x <> Notify q rid tok from.
Definition cok (q : Z) : action := keeping (fun s => canc s q) (silent q).

Definition no_notify (x : output) : Prop := forall q rid tok from, x <> Notify q rid tok from.
(* with the flag set no branch of _run emits a Notify or resets it (enumeration) *)
Lemma run_canc : forall q c ev c' o stop keep, cq_obs_cancelled c = true -> _run q c ev = (c', o, stop, keep) ->
  cq_obs_cancelled c' = true /\ Forall no_notify o.
Proof.
  intros q c ev c' o stop keep Hc H. unfold _run in H. rewrite Hc in H.
  repeat dmatch; invpairs; cbn; (split; [try reflexivity; exact Hc|]); repeat constructor; intros ? ? ? ?; discriminate.
Qed.
Lemma stop_interest_flag : forall c c' ks, _stop_interest c = (c', ks) -> cq_obs_cancelled c' = cq_obs_cancelled c.
Proof. intros c c' ks. apply (stop_interest_R (fun c c' _ => cq_obs_cancelled c' = cq_obs_cancelled c)); intros; cbn; congruence. Qed.
Lemma pipe_canc : forall q c ev c' o ks, cq_obs_cancelled c = true -> pipe_add_event q c ev = (c', o, ks) ->
  cq_obs_cancelled c' = true /\ Forall no_notify o.
Proof.
  intros q c ev c' o ks Hc H. revert Hc.
  apply (pipe_add_event_R q ev (keeping (fun c => cq_obs_cancelled c = true) no_notify)) in H; [exact H|apply keeping_refl|apply keeping_trans| |].
  - intros c0 v Hc. split; [exact Hc|constructor].
  - intros c0 c1 o0 st k E Hc. eapply run_canc; eassumption.
Qed.

Lemma canc_frame : forall s s' q, reqs s' = reqs s -> canc s q -> canc s' q.
Proof. intros s s' q H (c & G & F). exists c. unfold get_req in *. rewrite H. split; assumption. Qed.
Lemma silent_ml : forall q o, Forall ml_out o -> Forall (silent q) o.
Proof. intros q o H. eapply Forall_impl; [|exact H]. intros [] Hx; cbn in Hx; try contradiction; intros ? ? ?; discriminate. Qed.
Lemma add_event_canc : forall q s q0 ev s' o, _add_event s q0 ev = (s', o) -> cok q s s' o.
Proof.
  intros q s q0 ev s' o H (c & G & F). pose proof (add_event_out_ok _ _ _ _ _ H) as OK. unfold _add_event in H.
  destruct (get_req s q0) as [c0|] eqn:G0; [|invpairs; split; [exists c; split; assumption|constructor]].
  destruct (pipe_add_event q0 c0 ev) as [[c' o'] ks] eqn:P. invpairs. unfold canc. rewrite get_req_pop_keys, get_req_upd.
  rewrite Forall_forall in *. destruct (q =? q0) eqn:E.
  - apply Z.eqb_eq in E. subst q0. rewrite G in G0. inversion G0. subst c0. apply pipe_canc in P; [|exact F]. destruct P as [P1 P2].
    split; [exists c'; split; [reflexivity|exact P1]|]. rewrite Forall_forall in P2. intros x Hx rid tok from. apply (P2 x Hx).
  - split; [exists c; split; assumption|]. intros x Hx rid tok from ->. apply OK in Hx. destruct Hx as [<- _]. rewrite Z.eqb_refl in E. discriminate.
Qed.
Lemma prim_canc : forall q A s s' o, prim A s s' o -> cok q s s' o.
Proof.
  intros q A s s' o [s0 s1 o0 (_ & R & _) Ho|s0 s1 e (_ & R & _)|s0 q0 ev s1 o0 _ H|s0 og k _].
  - intros HC. split; [eapply canc_frame; eassumption|apply silent_ml; exact Ho].
  - intros HC. split; [eapply canc_frame; eassumption|repeat constructor; discriminate].
  - eapply add_event_canc. exact H.
  - intros HC. split; [exact HC|constructor].
Qed.

(* ClientObservation.cancel() on an observation that is running sets the flag *)
Lemma obs_cancel_sets : forall s q c v, get_req s q = Some c -> cq_runner c = Observing v -> canc (obs_cancel s q) q.
Proof.
  intros s q c v G R. unfold obs_cancel. rewrite G, R. destruct (cq_obs_cancelled c) eqn:F; [exists c; split; assumption|].
  unfold canc. rewrite get_req_upd, Z.eqb_refl. eexists. split; reflexivity.
Qed.
Lemma app_canc : forall q e s s' o, app_prim e s s' o -> cok q s s' o.
Proof.
  intros q e s s' o [s0 q0 r mt obs G0|s0 q0 r mt obs og G0 _|s0 q0 c0 c' ks G0 _ S|s0 q0 c0 G0|s0 x rest _|s0] HC.
  - split; [|constructor]. destruct HC as (c & G & F). exists c. split; [|exact F]. rewrite get_req_upd.
    destruct (q =? q0) eqn:E; [apply Z.eqb_eq in E; subst q0; congruence|exact G].
  - rewrite (register_eq _ _ _ _ _ G0). destruct HC as (c & G & F). split; [|repeat constructor; discriminate]. unfold canc. cbn zeta. rewrite get_req_upd.
    destruct (q =? q0) eqn:E; [apply Z.eqb_eq in E; subst q0; rewrite G in G0; inversion G0; subst c; discriminate|exists c; split; assumption].
  - destruct HC as (c & G & F). split; [|repeat constructor; discriminate].
    unfold canc. rewrite get_req_pop_keys, get_req_upd. destruct (q =? q0) eqn:E; [|exists c; split; assumption].
    apply Z.eqb_eq in E. subst q0. rewrite G in G0. inversion G0. subst c0. exists c'. split; [reflexivity|].
    rewrite (stop_interest_flag _ _ _ S). exact F.
  - destruct HC as (c & G & F). split; [|constructor]. unfold canc. rewrite get_req_upd.
    destruct (q =? q0); [|exists c; split; assumption]. eexists. split; reflexivity.
  - split; [exact HC|constructor].
  - split; [exact HC|constructor].
Qed.
Lemma run_canc_all : forall q es s s' os, run s es = (s', os) -> cok q s s' (concat os).
Proof.
  intros q. apply run_closed; [apply keeping_closed|]. intros s e. apply (step_closed e); [apply keeping_closed|apply prim_canc|apply app_canc].
Qed.


Lemma run_app : forall a b s, run s (a ++ b) = (fst (run (fst (run s a)) b), snd (run s a) ++ snd (run (fst (run s a)) b)).
Proof.
  induction a as [|e a IH]; intros b s; cbn [run app fst snd]; [destruct (run s b); reflexivity|].
  destruct (step s e) as [s1 o]. rewrite IH. destruct (run s1 a) as [s2 os]. cbn [fst snd]. destruct (run s2 b). reflexivity.
Qed.
Lemma run_length : forall es s, length (snd (run s es)) = length es.
Proof.
  induction es as [|e es IH]; intros s; cbn [run]; [reflexivity|]. destruct (step s e) as [s1 o]. specialize (IH s1).
  destruct (run s1 es). cbn [snd length] in *. rewrite IH. reflexivity.
Qed.

Lemma obs_cancel_silences_run : forall s0 es1 es2 q c v,
  get_req (fst (run s0 es1)) q = Some c -> cq_runner c = Observing v ->
  forall os rid tok from, In os (skipn (length es1) (snd (run s0 (es1 ++ ObsCancel q :: es2)))) -> ~ In (Notify q rid tok from) os.
Proof.
  intros s0 es1 es2 q c v G R os rid tok from Hin. rewrite run_app in Hin. cbn [snd] in Hin.
  rewrite <- (run_length es1 s0) in Hin. rewrite skipn_app, skipn_all, Nat.sub_diag in Hin. cbn [skipn app] in Hin.
  set (s := fst (run s0 es1)) in *. cbn [run step] in Hin.
  pose proof (obs_cancel_sets s q c v G R) as HC.
  destruct (run (obs_cancel s q) es2) as [s' os2] eqn:RR. apply (run_canc_all q) in RR. destruct RR as [_ RR]; [exact HC|].
  cbn [snd] in Hin. destruct Hin as [E|Hin]; [subst os; intros []|]. intros Hn. rewrite Forall_forall in RR.
  eapply (RR (Notify q rid tok from)); [apply in_concat; exists os; split; assumption|reflexivity].
Qed.

Definition r7_notif (mid obsv rid : Z) : wire := {| w_mtype := 1; w_code := 69; w_mid := mid; w_token := [6]; w_observe := Some obsv; w_rid := rid |}.
Definition r7_pre : list event := [Request 0 0 (Some 0) true; Recv 0 false (r7_notif 70 1 1); Recv 0 false (r7_notif 71 2 2)].
Definition r7_post : list event := [Recv 0 false (r7_notif 72 3 3); Fire; Recv 0 false (r7_notif 73 4 4)].
(* the hypotheses hold on a concrete history; without the ObsCancel the same later datagrams DO notify request 0, with it they do not *)
Example r7_nonvacuous :
  (exists c, get_req (fst (run (init 5 10 2000000) r7_pre)) 0 = Some c /\ cq_runner c = Observing 2 /\ cq_obs_cancelled c = false) /\
  snd (run (init 5 10 2000000) r7_pre) = [[Token 0 [6]; Send 0 0 1 10 [6] (Some 0)]; [SetResult 0 1 [6] 0]; [Notify 0 2 [6] 0]] /\
  skipn 3 (snd (run (init 5 10 2000000) (r7_pre ++ r7_post))) = [[Notify 0 3 [6] 0]; [Send 0 0 1 10 [6] (Some 0)]; [Notify 0 4 [6] 0]] /\
  skipn 3 (snd (run (init 5 10 2000000) (r7_pre ++ ObsCancel 0 :: r7_post))) = [[]; []; [Send 0 0 1 10 [6] (Some 0)]; []] /\
  (exists c, get_req (fst (run (init 5 10 2000000) (r7_pre ++ [ObsCancel 0]))) 0 = Some c /\ cq_obs_cancelled c = true).
Proof. vm_compute. repeat split; try reflexivity; eexists; repeat split; reflexivity. Qed.

Definition nt (o : output) : Prop := match o with Token _ _ => False | _ => True end.
Definition toks (o : list output) : list token := flat_map (fun x => match x with Token _ t => [t] | _ => [] end) o.
Lemma toks_app : forall a b, toks (a ++ b) = toks a ++ toks b.
Proof. intros. unfold toks. apply flat_map_app. Qed.
Lemma toks_nt : forall o, Forall nt o -> toks o = [].
Proof. induction o as [|x o IH]; intros H; [reflexivity|]. inversion H; subst. unfold toks in *. cbn [flat_map]. rewrite IH by assumption. destruct x; try reflexivity. contradiction. Qed.
Lemma toks_in : forall q t o, In (Token q t) o -> In t (toks o).
Proof. intros q t o H. unfold toks. apply in_flat_map. exists (Token q t). split; [exact H|left; reflexivity]. Qed.

Lemma nt_ml : forall o, Forall ml_out o -> Forall nt o.
Proof. intros o H. eapply Forall_impl; [|exact H]. intros [] Hx; cbn in Hx; try contradiction; exact I. Qed.
Lemma nt_add_event : forall s q ev s' o, _add_event s q ev = (s', o) -> Forall nt o.
Proof. intros s q ev s' o H. apply add_event_out_ok in H. eapply Forall_impl; [|exact H]. intros [] Hx; cbn in Hx; try contradiction; exact I. Qed.

Notation M64 := (2 ^ 64).
(* the tokens the next k calls of next_token return when the counter is T, and the counter afterwards *)
Fixpoint tokseq (T : Z) (k : nat) : list token :=
  match k with O => [] | S k' => tokbytes ((T + 1) mod M64) :: tokseq ((T + 1) mod M64) k' end.
Lemma tokseq_length : forall k T, length (tokseq T k) = k.
Proof. induction k as [|k IH]; intros T; cbn [tokseq length]; [reflexivity|]. rewrite IH. reflexivity. Qed.
Lemma tokseq_in : forall k T x, In x (tokseq T k) -> exists i, 1 <= i <= Z.of_nat k /\ x = tokbytes ((T + i) mod M64).
Proof.
  induction k as [|k IH]; intros T x H; cbn [tokseq] in H; [contradiction|]. destruct H as [E|H].
  - exists 1. split; [lia|]. symmetry. exact E.
  - apply IH in H. destruct H as (i & Hi & E). exists (i + 1). split; [lia|]. rewrite E. f_equal.
    rewrite Zplus_mod_idemp_l. f_equal. lia.
Qed.
Lemma tokseq_nodup : forall k T, Z.of_nat k <= M64 -> NoDup (tokseq T k).
Proof.
  induction k as [|k IH]; intros T Hk; cbn [tokseq]; [constructor|]. constructor; [|apply IH; lia].
  intros Hin. apply tokseq_in in Hin. destruct Hin as (i & Hi & E). symmetry in E. revert E.
  apply tokens_distinct; [apply Z.mod_pos_bound; reflexivity|lia].
Qed.

(* an action that hands out no token leaves the counter alone; registration hands out the next one *)
Definition quiet (s s' : st) (o : list output) : Prop := tmst s' = tmst s /\ toks o = [].
Definition issued (s s' : st) (o : list output) : Prop :=
  tm_token (tmst s') = (tm_token (tmst s) + 1) mod M64 /\ toks o = [tokbytes ((tm_token (tmst s) + 1) mod M64)].
Lemma quiet_closed : closed quiet.
Proof.
  split; [intros s; split; reflexivity|]. intros s s1 s2 o1 o2 [A1 A2] [B1 B2]. split; [congruence|]. rewrite toks_app, A2, B2. reflexivity.
Qed.
Lemma pop_keys_tmst : forall ks s, tmst (pop_keys s ks) = tmst s.
Proof. intros. rewrite pop_keys_eq. destruct (outgoing s); reflexivity. Qed.
Lemma prim_quiet : forall A s s' o, prim A s s' o -> quiet s s' o.
Proof.
  intros A s s' o [s0 s1 o0 (_ & _ & T) Ho|s0 s1 e (_ & _ & T)|s0 q ev s1 o0 _ H|s0 og k _].
  - split; [exact T|apply toks_nt, nt_ml; exact Ho].
  - split; [exact T|reflexivity].
  - split; [destruct (add_event_pops _ _ _ _ _ H) as (rq & ks & ->); rewrite pop_keys_tmst; reflexivity|apply toks_nt; eapply nt_add_event; exact H].
  - split; reflexivity.
Qed.
Lemma acts_quiet : forall A s s' o, acts (prim A) s s' o -> quiet s s' o.
Proof. intros A. apply acts_closed; [exact quiet_closed|apply prim_quiet]. Qed.
Lemma app_quiet : forall e s s' o, (forall q r mt obs, e <> Request q r mt obs) -> app_prim e s s' o -> quiet s s' o.
Proof.
  intros e s s' o He P. revert He. destruct P as [s0 q r mt obs _|s0 q r mt obs og _ _|s0 q c c' ks _ _ _|s0 q c _|s0 x rest _|s0]; intros He;
    try (exfalso; eapply He; reflexivity); try (split; reflexivity).
  split; [rewrite pop_keys_tmst|]; reflexivity.
Qed.
Lemma register_tmst : forall s q r og, tm_token (tmst (register s q r og)) = next_tok (tmst s).
Proof.
  intros. unfold register, on_interest_end. destruct (get_req _ q); [|reflexivity].
  destruct (pipe_on_interest_end c _). rewrite pop_keys_tmst. reflexivity.
Qed.
Lemma step_toks : forall s e s' o, step s e = (s', o) -> quiet s s' o \/ issued s s' o.
Proof.
  intros s e s' o H.
  assert (Q : (forall q r mt obs, e <> Request q r mt obs) -> quiet s s' o).
  { intros He. revert H. apply (step_closed e); [exact quiet_closed|apply prim_quiet|intros s0 s1 o0; apply app_quiet; exact He]. }
  destruct e; try (left; apply Q; discriminate). clear Q. cbn [step] in H. destruct (get_req s q) eqn:G.
  { unfold new_request in H. rewrite G in H. invpairs. left. split; reflexivity. }
  rewrite (new_request_eq _ _ _ _ _ G) in H. cbn zeta in H. destruct (outgoing s) as [og|].
  - right. set (s2 := register _ q r og) in H. assert (T2 : tm_token (tmst s2) = next_tok (tmst s)) by (unfold s2; rewrite register_tmst; reflexivity). clearbody s2.
    assert (K : forall s3 o3, quiet s2 s3 o3 -> issued s s3 (Token q (tokbytes (next_tok (tmst s))) :: o3)).
    { intros s3 o3 [K1 K2]. split; [rewrite K1; exact T2|]. change (Token q ?t :: o3) with ([Token q t] ++ o3). rewrite toks_app, K2. reflexivity. }
    destruct (send_message s2 r mtype _ obs q) as [[s3 o3]|e] eqn:SM.
    + invpairs. apply K. eapply (acts_quiet (fun _ _ => True)), send_message_acts; [intros; exact I|exact SM].
    + destruct (add_exception s2 q e) as [s3 o3] eqn:A. invpairs. apply K. eapply (prim_quiet (fun _ _ => True)), p_event; [exact I|exact A].
  - left. split; [destruct (add_event_pops _ _ _ _ _ H) as (rq & ks & ->); rewrite pop_keys_tmst; reflexivity|apply toks_nt; eapply nt_add_event; exact H].
Qed.
Lemma run_toks : forall es s s' os, run s es = (s', os) ->
  exists k, (k <= length es)%nat /\ toks (concat os) = tokseq (tm_token (tmst s)) k.
Proof.
  induction es as [|e es IH]; intros s s' os H; cbn [run] in H; [invpairs; exists O; split; [lia|reflexivity]|].
  destruct (step s e) as [s1 o] eqn:S. destruct (run s1 es) as [s2 os2] eqn:R. invpairs. apply IH in R. destruct R as (k & Hk & E).
  cbn [concat length]. rewrite toks_app, E. apply step_toks in S. destruct S as [[Q1 Q2]|[I1 I2]].
  - exists k. split; [lia|]. rewrite Q1, Q2. reflexivity.
  - exists (S k). split; [lia|]. rewrite I1, I2. reflexivity.
Qed.

Lemma run_tokens_unique : forall s es, Z.of_nat (length es) <= M64 -> NoDup (toks (concat (snd (run s es)))).
Proof.
  intros s es Hn. destruct (run s es) as [s' os] eqn:R. apply run_toks in R. destruct R as (k & Hk & E). cbn [snd]. rewrite E.
  apply tokseq_nodup. lia.
Qed.
Lemma nodup_app_disj : forall {A} (a b : list A) x, NoDup (a ++ b) -> In x a -> In x b -> False.
Proof.
  intros A. induction a as [|y a IH]; intros b x H Ha Hb; [contradiction|]. cbn [app] in H. inversion H; subst. destruct Ha as [->|Ha].
  - apply H2. apply in_or_app. right. exact Hb.
  - eapply IH; eauto.
Qed.
Definition r7_tok_script : list event :=
  [Request 0 0 (Some 0) false; Request 1 0 (Some 1) false; Recv 0 false {| w_mtype := 2; w_code := 69; w_mid := 10; w_token := [6]; w_observe := None; w_rid := 1 |};
   Request 2 1 (Some 1) true; Shutdown; Request 3 0 (Some 1) false].
Example r7_tokens_nonvacuous :
  toks (concat (snd (run (init 5 10 2000000) r7_tok_script))) = [[6]; [7]; [8]] /\
  toks (concat (snd (run (init (2 ^ 64 - 2) 10 2000000) r7_tok_script))) = [[255; 255; 255; 255; 255; 255; 255; 255]; []; [1]] /\
  In (Token 0 [6]) (nth 0 (snd (run (init 5 10 2000000) r7_tok_script)) []) /\
  In (Token 2 [8]) (nth 3 (snd (run (init 5 10 2000000) r7_tok_script)) []).
Proof. vm_compute. repeat split; try reflexivity; auto. Qed.


(* ages (how many next_token calls ago the entry's token was handed out) strictly decrease along the table, within [lo, hi) *)
Fixpoint aged (T lo hi : Z) (og : list (key * Z)) : Prop :=
  match og with
  | [] => True
  | (k, _) :: rest => exists a, lo <= a < hi /\ fst k = tokbytes ((T - a) mod 2 ^ 64) /\ aged T lo a rest
  end.

Lemma aged_weaken : forall T og lo hi lo' hi', lo' <= lo -> hi <= hi' -> aged T lo hi og -> aged T lo' hi' og.
Proof.
  intros T. induction og as [|[k v] rest IH]; intros lo hi lo' hi' Hl Hh H; [exact I|].
  destruct H as (a & Ha & Hk & Hr). exists a. split; [lia|]. split; [exact Hk|]. eapply IH; [exact Hl| |exact Hr]. lia.
Qed.
Lemma aged_aremove : forall T k og lo hi, aged T lo hi og -> aged T lo hi (aremove key_eqb k og).
Proof.
  intros T k. induction og as [|[k1 v1] rest IH]; intros lo hi H; [exact I|]. cbn [aremove].
  destruct H as (a & Ha & Hk & Hr). destruct (key_eqb k k1).
  - eapply aged_weaken; [| |apply IH; exact Hr]; lia.
  - exists a. split; [exact Ha|]. split; [exact Hk|]. apply IH. exact Hr.
Qed.
Lemma aged_shift : forall T og lo hi, aged T lo hi og -> aged ((T + 1) mod 2 ^ 64) (lo + 1) (hi + 1) og.
Proof.
  intros T. induction og as [|[k v] rest IH]; intros lo hi H; [exact I|].
  destruct H as (a & Ha & Hk & Hr). exists (a + 1). split; [lia|]. split; [|apply IH; exact Hr].
  rewrite Hk. f_equal. rewrite Zminus_mod_idemp_l. f_equal. lia.
Qed.
Lemma aged_snoc : forall T k q og hi, fst k = tokbytes (T mod 2 ^ 64) -> 0 < hi -> aged T 1 hi og -> aged T 0 hi (og ++ [(k, q)]).
Proof.
  intros T k q. induction og as [|[k1 v1] rest IH]; intros hi Hk Hh H.
  - cbn [app aged]. exists 0. split; [lia|]. split; [rewrite Z.sub_0_r; exact Hk|exact I].
  - destruct H as (a & Ha & Hk1 & Hr). cbn [app aged]. exists a. split; [lia|]. split; [exact Hk1|]. apply IH; [exact Hk|lia|exact Hr].
Qed.
Lemma aged_in : forall T og lo hi e, aged T lo hi og -> In e og -> exists a, lo <= a < hi /\ fst (fst e) = tokbytes ((T - a) mod 2 ^ 64).
Proof.
  intros T. induction og as [|[k v] rest IH]; intros lo hi e H Hin; [contradiction|].
  destruct H as (a & Ha & Hk & Hr). destruct Hin as [<-|Hin]; [exists a; split; assumption|].
  destruct (IH lo a e Hr Hin) as (a' & Ha' & He). exists a'. split; [lia|exact He].
Qed.
Lemma aged_nodup : forall T og lo hi, 0 <= lo -> hi <= 2 ^ 64 -> aged T lo hi og -> NoDup (map (fun e => fst (fst e)) og).
Proof.
  intros T. induction og as [|[k v] rest IH]; intros lo hi Hl Hh H; [constructor|].
  destruct H as (a & Ha & Hk & Hr). cbn [map fst]. constructor.
  - intros Hin. apply in_map_iff in Hin. destruct Hin as (e & He & Hin).
    destruct (aged_in T rest lo a e Hr Hin) as (a' & Ha' & He'). rewrite He' in He. rewrite Hk in He.
    apply tokbytes_mod_inj in He; lia.
  - eapply IH; [exact Hl| |exact Hr]. lia.
Qed.

Definition TokInv (n : Z) (s : st) : Prop :=
  0 <= tm_token (tmst s) < 2 ^ 64 /\ 0 <= n /\
  match outgoing s with None => True | Some og => aged (tm_token (tmst s)) 0 n og end.
Lemma TokInv_frame : forall n s s', tmst s' = tmst s -> outgoing s' = outgoing s -> TokInv n s -> TokInv n s'.
Proof. intros n s s' H1 H2 H. unfold TokInv in *. rewrite H1, H2. exact H. Qed.
Lemma TokInv_pop_keys : forall n ks s, TokInv n s -> TokInv n (pop_keys s ks).
Proof.
  intros n. induction ks as [|k r IH]; intros s H; cbn [pop_keys]; [exact H|]. apply IH. unfold pop_outgoing.
  destruct (outgoing s) as [og|] eqn:Hog; [|exact H]. destruct H as (HT & Hn & HA). rewrite Hog in HA.
  split; [exact HT|]. split; [exact Hn|]. cbn [outgoing set_outgoing]. apply aged_aremove. exact HA.
Qed.
(* every action hands out as many tokens as it lets the oldest entry age *)
Definition tok_step : action := fun s s' o =>
  forall n, TokInv n s -> n + Z.of_nat (length (toks o)) <= 2 ^ 64 -> TokInv (n + Z.of_nat (length (toks o))) s'.
Lemma tok_closed : closed tok_step.
Proof.
  split; [intros s n H _; cbn; rewrite Z.add_0_r; exact H|]. intros s s1 s2 o1 o2 H1 H2 n H Hn.
  rewrite toks_app, app_length, Nat2Z.inj_add, Z.add_assoc in *. apply H2; [apply H1; [exact H|lia]|exact Hn].
Qed.
Lemma tok_quiet : forall s s' o, toks o = [] -> (forall n, TokInv n s -> TokInv n s') -> tok_step s s' o.
Proof. intros s s' o Q H n HI _. rewrite Q. cbn. rewrite Z.add_0_r. apply H. exact HI. Qed.
Lemma prim_tok : forall A s s' o, prim A s s' o -> tok_step s s' o.
Proof.
  intros A s s' o P. apply tok_quiet; [eapply prim_quiet; exact P|]. intros n HI.
  destruct P as [s0 s1 o0 (F1 & _ & F3) _|s0 s1 e (F1 & _ & F3)|s0 q ev s1 o0 _ H|s0 og k Hog].
  - eapply TokInv_frame; eassumption.
  - eapply TokInv_frame; eassumption.
  - destruct (add_event_pops _ _ _ _ _ H) as (rq & ks & ->). apply TokInv_pop_keys. exact HI.
  - destruct HI as (HT & Hn & HA). rewrite Hog in HA. split; [exact HT|]. split; [exact Hn|]. apply aged_aremove. exact HA.
Qed.
(* registration: the new entry has age 0 and goes to the end, every other entry is one older; the token is fresh because no
   entry has age 0 any more *)
Lemma register_tok : forall n s q r og, outgoing s = Some og -> TokInv n s -> n + 1 <= 2 ^ 64 -> TokInv (n + 1) (register s q r og).
Proof.
  intros n s q r og Hog (HT & H0 & HA) Hn. rewrite Hog in HA. unfold register. cbn zeta.
  pose proof (next_tok_range (tmst s)) as HT'. set (T' := next_tok (tmst s)) in *. set (k := (tokbytes T', _)).
  assert (A1 : aged T' 1 (n + 1) og). { pose proof (aged_shift _ _ _ _ HA) as A1. replace (0 + 1) with 1 in A1 by lia. exact A1. }
  assert (Fresh : forall e, In e og -> key_eqb k (fst e) = false).
  { intros e He. destruct (aged_in T' og 1 (n + 1) e A1 He) as (a & Ha & Hk).
    destruct (key_eqb k (fst e)) eqn:E; [|reflexivity]. apply key_eqb_spec in E. exfalso.
    assert (E2 : tokbytes ((T' - 0) mod 2 ^ 64) = tokbytes ((T' - a) mod 2 ^ 64)).
    { rewrite <- Hk, <- E. cbn [fst k]. rewrite Z.sub_0_r, Z.mod_small by exact HT'. reflexivity. }
    apply tokbytes_mod_inj in E2; lia. }
  unfold on_interest_end. destruct (get_req _ q); [destruct (pipe_on_interest_end c k); apply TokInv_pop_keys|];
    (split; [exact HT'|]; split; [lia|]; cbn [outgoing upd_req set_reqs set_outgoing set_tmst tmst tm_token];
     rewrite (aset_append key_eqb k q og Fresh); apply aged_snoc; [|lia|exact A1]; cbn [fst k]; rewrite Z.mod_small by exact HT'; reflexivity).
Qed.
Lemma app_tok : forall e s s' o, app_prim e s s' o -> tok_step s s' o.
Proof.
  intros e s s' o [s0 q r mt obs _|s0 q r mt obs og _ Hog|s0 q c c' ks _ _ _|s0 q c _|s0 x rest Hog|s0].
  - apply tok_quiet; [reflexivity|]. intros n. apply TokInv_frame; reflexivity.
  - intros n HI Hn. apply register_tok; assumption.
  - apply tok_quiet; [reflexivity|]. intros n HI. apply TokInv_pop_keys. exact HI.
  - apply tok_quiet; [reflexivity|]. intros n. apply TokInv_frame; reflexivity.
  - apply tok_quiet; [reflexivity|]. intros n (HT & Hn & HA). rewrite Hog in HA. destruct x as [k v]. destruct HA as (a & Ha & _ & HA).
    split; [exact HT|]. split; [exact Hn|]. eapply aged_weaken; [| |exact HA]; lia.
  - apply tok_quiet; [reflexivity|]. intros n (HT & Hn & _). split; [exact HT|]. split; [exact Hn|exact I].
Qed.
Lemma outstanding_tokens_distinct : forall t m a es og, 0 <= t < 2 ^ 64 -> Z.of_nat (length es) <= 2 ^ 64 ->
  outgoing (fst (run (init t m a) es)) = Some og -> NoDup (map (fun e => fst (fst e)) og).
Proof.
  intros t m a es og Ht Hn Hog. destruct (run (init t m a) es) as [s' os] eqn:R.
  destruct (run_toks _ _ _ _ R) as (k & Hk & E).
  apply (run_closed tok_step tok_closed) in R; [|intros s e; apply (step_closed e); [exact tok_closed|apply prim_tok|apply app_tok]].
  assert (L : Z.of_nat (length (toks (concat os))) <= 2 ^ 64).
  { rewrite E, tokseq_length. lia. }
  destruct (R 0) as (_ & _ & HA); [split; [exact Ht|split; [lia|exact I]]|lia|]. cbn [fst] in Hog. rewrite Hog in HA.
  eapply aged_nodup; [| |exact HA]; lia.
Qed.

(* the tie between the table and the Token outputs:
   an entry (tok, _) -> q of outgoing_requests is there because `Token q tok` was emitted (or it was there at the start) *)
Definition ent_step : action := fun s s' o => forall og' k q, outgoing s' = Some og' -> In (k, q) og' ->
  (exists og, outgoing s = Some og /\ In (k, q) og) \/ In (Token q (fst k)) o.
Lemma ent_closed : closed ent_step.
Proof.
  split; [intros s og' k q E Hin; left; exists og'; split; assumption|]. intros s s1 s2 o1 o2 H1 H2 og' k q E Hin.
  destruct (H2 _ _ _ E Hin) as [(og1 & E1 & I1)|T]; [|right; apply in_or_app; right; exact T].
  destruct (H1 _ _ _ E1 I1) as [B|T]; [left; exact B|right; apply in_or_app; left; exact T].
Qed.
(* actions that only remove entries *)
Lemma ent_sub : forall s s' o, (forall og', outgoing s' = Some og' -> exists og, outgoing s = Some og /\ forall x, In x og' -> In x og) -> ent_step s s' o.
Proof. intros s s' o H og' k q E Hin. left. destruct (H _ E) as (og & Hog & Sub). exists og. split; [exact Hog|apply Sub; exact Hin]. Qed.
Lemma pop_keys_sub : forall ks s og', outgoing (pop_keys s ks) = Some og' -> exists og, outgoing s = Some og /\ forall x, In x og' -> In x og.
Proof.
  intros ks s og' E. rewrite pop_keys_outgoing in E. destruct (outgoing s) as [og|]; [|discriminate]. inversion E. subst og'.
  exists og. split; [reflexivity|]. intros x Hx. apply In_fold_aremove in Hx. apply Hx.
Qed.
Lemma prim_ent : forall A s s' o, prim A s s' o -> ent_step s s' o.
Proof.
  intros A s s' o [s0 s1 o0 (F1 & _) _|s0 s1 e (F1 & _)|s0 q ev s1 o0 _ H|s0 og k Hog]; apply ent_sub; intros og' E.
  - rewrite F1 in E. eauto.
  - rewrite F1 in E. eauto.
  - destruct (add_event_pops _ _ _ _ _ H) as (rq & ks & ->). apply pop_keys_sub in E. exact E.
  - inversion E. subst og'. exists og. split; [exact Hog|]. intros x Hx. apply In_aremove in Hx. apply Hx.
Qed.
Lemma app_ent : forall e s s' o, app_prim e s s' o -> ent_step s s' o.
Proof.
  intros e s s' o [s0 q r mt obs _|s0 q r mt obs og G Hog|s0 q c c' ks _ _ _|s0 q c _|s0 x rest Hog|s0].
  - apply ent_sub. intros og' E. eauto.
  - intros og' k q0 E Hin. rewrite (register_eq _ _ _ _ _ G) in E. cbn in E. inversion E. subst og'. apply In_aset in Hin.
    destruct Hin as [Hin|Hin]; [inversion Hin; subst; right; left; reflexivity|left; exists og; split; assumption].
  - apply ent_sub. intros og' E. apply pop_keys_sub in E. exact E.
  - apply ent_sub. intros og' E. eauto.
  - apply ent_sub. intros og' E. inversion E. subst og'. exists (x :: rest). split; [exact Hog|]. intros y Hy. right. exact Hy.
  - intros og' k q E. discriminate.
Qed.
Example r7_entry_nonvacuous :
  outgoing (fst (run (init 5 10 2000000) [Request 0 0 (Some 0) false; Request 1 0 (Some 1) true])) = Some [(([6], Some 0), 0); (([7], Some 0), 1)] /\
  snd (run (init 5 10 2000000) [Request 0 0 (Some 0) false; Request 1 0 (Some 1) true]) = [[Token 0 [6]; Send 0 0 1 10 [6] None]; [Token 1 [7]; Send 0 1 1 11 [7] (Some 0)]].
Proof. vm_compute. split; reflexivity. Qed.
