(* C10 — the acknowledgement layer (opportunities, their empty-ACK handles, the clock, the running handlers).  Seen from it the steps of
   Proofs/C10.v come in seven kinds ([astep], [step_a]): whatever happens inside the message layer is a frame step.  Its properties are
   proved on the seven kinds; first, each ACK under a peer's message ID consumes one recorded opportunity ([acks_bounded]). *)
From Verif Require Import Lib.Py Lib.Tactics Model.C10 Proofs.C10.
Open Scope Z_scope.

(* frame: the acknowledgement layer untouched ([pframe]), the registered message IDs kept and no Forget handle added ([mkeep]) *)
Definition forget_kind (t : timer) : Prop := exists p md, kind t = Forget p md.
(* [T'] holds no Forget handle that [T] does not hold, counted with multiplicity *)
Definition keeps_forgets (T T' : list timer) : Prop :=
  (forall f, In f T' -> forget_kind f -> In f T) /\
  forall g : timer -> bool, (forall t, g t = true -> forget_kind t) -> (length (filter g T') <= length (filter g T))%nat.
Definition mkeep (s s' : st) : Prop :=
  (forall k, aget zz_eqb (recent s') k = None <-> aget zz_eqb (recent s) k = None) /\ keeps_forgets (rtimers s) (rtimers s').
Definition frame (s s' : st) : Prop := pframe s s' /\ mkeep s s'.

Lemma kf_refl T : keeps_forgets T T.
Proof. split; auto. Qed.
Lemma kf_trans a b c : keeps_forgets a b -> keeps_forgets b c -> keeps_forgets a c.
Proof. intros [A1 A2] [B1 B2]. split; [auto|]. intros g Hg. specialize (A2 g Hg). specialize (B2 g Hg). lia. Qed.
Lemma filter_filter_le {A} (g h : A -> bool) l : (length (filter g (filter h l)) <= length (filter g l))%nat.
Proof. induction l as [|x l IH]; cbn; [lia|]. destruct (h x); cbn; destruct (g x); cbn; lia. Qed.
Lemma kf_cancel T id : keeps_forgets T (cancel T id).
Proof. split; [intros f Hf _; apply filter_In in Hf; tauto|intros g _; apply filter_filter_le]. Qed.
Lemma kf_snoc T x : ~ forget_kind x -> keeps_forgets T (T ++ [x]).
Proof.
  intros Hx. split.
  - intros f Hf Hk. apply in_app_or in Hf as [Hf|[<-|[]]]; [exact Hf|contradiction].
  - intros g Hg. rewrite filter_app, app_length. cbn. destruct (g x) eqn:E; [destruct (Hx (Hg x E))|cbn; lia].
Qed.
Lemma frame_refl s : frame s s.
Proof. unfold frame, pframe, mkeep. repeat split; try lia; auto using incl_refl. Qed.
Lemma frame_trans a b c : frame a b -> frame b c -> frame a c.
Proof.
  intros [(A1 & A2 & A3 & A4 & A5 & A6) [A7 A8]] [(B1 & B2 & B3 & B4 & B5 & B6) [B7 B8]].
  split; [repeat split; try congruence; try lia; eapply incl_tran; eauto|]. split; [intros k; rewrite B7; apply A7|eapply kf_trans; eauto].
Qed.
Ltac frame_by_fields := unfold frame, pframe, mkeep; cbn; repeat match goal with |- _ /\ _ => split end;
  try reflexivity; try lia; try apply incl_refl; try tauto; try apply kf_refl; try apply kf_cancel;
  try (apply kf_snoc; intros (? & ? & H); discriminate H).

Lemma frame_store s r m : frame s (_store_response_for_duplicates s r m).
Proof.
  unfold _store_response_for_duplicates. destruct (mtype m); try apply frame_refl;
    destruct (amem zz_eqb (recent s) (rpeer r, mid m)) eqn:E; try apply frame_refl; frame_by_fields;
    intros k; rewrite (aget_aset_none _ zz_ok); (split; [tauto|]); intros Hn; (split; [exact Hn|]); intros <-; unfold amem in E; rewrite Hn in E; discriminate.
Qed.
Lemma frame_add_exchange s r m mon : frame s (_add_exchange s r m mon).
Proof. unfold _add_exchange, call_later_r. destruct (amem _ _ _); frame_by_fields. Qed.
Lemma frame_send_initially s r m mon : frame s (fst (_send_initially s r m mon)).
Proof.
  unfold _send_initially. cbn [fst]. destruct (mtype m); try apply frame_store.
  eapply frame_trans; [apply frame_add_exchange|apply frame_store].
Qed.
Lemma frame_fail_request s q e : frame s (fst (fail_request s q e)).
Proof. unfold fail_request. destruct (find_req _ _); cbn [fst]; [frame_by_fields|apply frame_refl]. Qed.
Lemma frame_run_monitor s mon : frame s (fst (run_monitor s mon)).
Proof. destruct mon; cbn [run_monitor]; [apply frame_fail_request|apply frame_refl]. Qed.
Lemma frame_tm_dispatch_error s p e : frame s (fst (tm_dispatch_error s p e)).
Proof. unfold tm_dispatch_error. cbn [fst]. frame_by_fields. intros x Hin. apply filter_In in Hin. tauto. Qed.
Lemma frame_replay s r m stored : aget zz_eqb (recent s) (rpeer r, mid m) = Some stored -> frame s (fst (fst (_deduplicate_message s r m))).
Proof.
  intros E. unfold _deduplicate_message. rewrite E. destruct (mtype m); cbn [fst]; try apply frame_refl. destruct stored as [[r' m']|]; [|apply frame_refl].
  pose proof (frame_send_initially s r' m' MonResp). destruct (_send_initially s r' m' MonResp). exact H.
Qed.
Lemma pframe_register s p md : pframe s (register s p md).
Proof. unfold register, call_later_r. frame_by_fields. Qed.
Lemma frame_continue_loop bl s p : frame s (fst (_continue_backlog_loop s p bl)).
Proof.
  destruct (_continue_backlog_loop s p bl) as [s' o] eqn:E. revert E.
  apply (continue_loop_rel (fun s _ s' => frame s s') (fun _ _ => True)); [| | | |auto].
  - intros; eapply frame_trans; eauto.
  - intros; frame_by_fields.
  - intros; frame_by_fields.
  - intros; apply frame_send_initially.
Qed.
Lemma frame_continue_backlog s p : frame s (fst (_continue_backlog s p)).
Proof. unfold _continue_backlog. destruct (aget Z.eqb (backlogs s) p); [apply frame_continue_loop|apply frame_refl]. Qed.
Lemma frame_remove_exchange s r m : frame s (fst (_remove_exchange s r m)).
Proof.
  unfold _remove_exchange. destruct (aget zz_eqb (exch s) (rpeer r, mid m)) as [[mon h]|]; [|apply frame_refl].
  set (s1 := cancel_r _ h). assert (H1 : frame s s1) by (subst s1; frame_by_fields).
  set (q := match mtype m with RST => run_monitor s1 mon | _ => (s1, []) end).
  assert (Hq : frame s1 (fst q)) by (subst q; destruct (mtype m); try apply frame_refl; apply frame_run_monitor).
  destruct q as [s2 o1]. cbn [fst] in Hq.
  pose proof (frame_continue_backlog s2 (rpeer r)) as H3. destruct (_continue_backlog s2 (rpeer r)) as [s3 o2]. cbn [fst] in *.
  eapply frame_trans; [exact H1|eapply frame_trans; eauto].
Qed.
Lemma frame_retransmit s r m to c : frame s (fst (_retransmit s r m to c)).
Proof.
  unfold _retransmit. destruct (aget zz_eqb (exch s) (rpeer r, mid m)) as [[mon h]|]; [|apply frame_refl].
  set (s1 := cancel_r _ h). assert (H1 : frame s s1) by (subst s1; frame_by_fields).
  destruct (c <? MAX_RETRANSMIT); [unfold call_later_r; cbn [fst]; eapply frame_trans; [exact H1|frame_by_fields]|].
  destruct (amem Z.eqb (backlogs s1) (rpeer r)); [|exact H1].
  eapply frame_trans; [exact H1|]. eapply frame_trans; [|apply frame_tm_dispatch_error]. frame_by_fields.
Qed.
Lemma frame_run_timer s t : (forall p md, kind t <> Forget p md) -> frame s (fst (run_timer s t)).
Proof. unfold run_timer. intros Hk. destruct (kind t) as [| |p md]; [apply frame_refl|apply frame_retransmit|destruct (Hk p md eq_refl)]. Qed.

Lemma arm_piggy s r m :
  piggy (arm s r m) = aset pk_eqb (adel pk_eqb (piggy s) (rpeer r, token m)) (rpeer r, token m) (mid m, seq s).
Proof.
  unfold arm, call_later_a. cbn [piggy set_atimers]. destruct (aget pk_eqb (piggy s) (rpeer r, token m)) as [[pm old]|] eqn:E.
  - reflexivity.
  - cbn [piggy set_piggy set_atimers]. rewrite (adel_none _ _ _ E). reflexivity.
Qed.
Definition new_handle (s : st) (r : remote) (m : wire) : timer :=
  {| due := now s + EMPTY_ACK_DELAY; tid := seq s; kind := EmptyAck r (token m) |}.
Lemma arm_atimers s r m :
  atimers (arm s r m) = match aget pk_eqb (piggy s) (rpeer r, token m) with
                        | Some (_, old) => cancel (atimers s ++ [new_handle s r m]) old
                        | None => atimers s ++ [new_handle s r m]
                        end.
Proof. unfold arm, call_later_a. cbn [piggy set_atimers]. destruct (aget pk_eqb (piggy s) (rpeer r, token m)) as [[pm old]|]; reflexivity. Qed.
Lemma arm_rest s r m : now (arm s r m) = now s /\ seq (arm s r m) = seq s + 1 /\ incoming (arm s r m) = incoming s /\ next_srv (arm s r m) = next_srv s.
Proof. unfold arm, call_later_a. cbn [piggy set_atimers]. destruct (aget pk_eqb (piggy s) (rpeer r, token m)) as [[pm old]|]; auto. Qed.

(* every ACK-typed message in [o] goes out under a (peer, mid) in [K] *)
Definition Kout (K : Z * Z -> Prop) (o : list output) : Prop := forall r w, In (Send r w) o -> mtype w = ACK -> K (rpeer r, mid w).
Lemma Kout_nil K : Kout K []. Proof. intros r w []. Qed.
Lemma Kout_one (K : Z * Z -> Prop) x : match x with Send r w => mtype w = ACK -> K (rpeer r, mid w) | _ => True end -> Kout K [x].
Proof. intros H r w [->|[]]. exact H. Qed.
Lemma Kout_quiet K o : quiet o -> Kout K o.
Proof.
  intros Hq r w Hin Hw. unfold quiet in Hq. rewrite Forall_forall in Hq. destruct (Hq _ Hin) as [Hr _]. cbn in Hr. rewrite Hw in Hr. discriminate.
Qed.

(* what a frame step does to the registrations: nothing; a new message ID is registered; the firing handle forgets one *)
Inductive mstep : st -> st -> Prop :=
| m_keep s s' : mkeep s s' -> mstep s s'
| m_register s p md : aget zz_eqb (recent s) (p, md) = None -> mstep s (register s p md)
| m_forget s t p md : In t (rtimers s) -> kind t = Forget p md -> (forall x, In x (atimers s) -> due t <= due x) ->
    mstep s (set_recent (cancel_r s (tid t)) (adel zz_eqb (recent s) (p, md))).

Lemma Kout_benign K o : benign o -> Kout K o.
Proof. intros H r w Hin _. destruct (H _ Hin). Qed.
Lemma msame_mkeep s s' : msame s s' -> mkeep s s'.
Proof. intros (H1 & _ & _ & H4). unfold mkeep. rewrite H1, H4. split; [tauto|apply kf_refl]. Qed.

Section AStep.
(* [K]: (peer, mid) under which a frame step may emit an ACK-typed message; [C]: the (peer, token) pairs whose opportunity may be consumed
   or for whose request a handler may be started; [A]: the CON requests that may arm a handle *)
Variables (K : Z * Z -> Prop) (C : Z * list Z -> Prop) (A : remote -> wire -> Prop).
Inductive astep : st -> list output -> st -> Prop :=
| a_frame s o s' : pframe s s' -> mstep s s' -> Kout K o -> astep s o s'
  (* the opportunity under [k] is consumed — by the answer, with its own handle, or by a firing handle — and the ACK goes out *)
| a_ack s k pm h id r w : C k -> aget pk_eqb (piggy s) k = Some (pm, h) -> id = h \/ fired s id k ->
    rpeer r = fst k -> mtype w = ACK -> mid w = pm -> astep s [Send r w] (consumed s k id)
  (* a handle fires that is not an empty-ACK handle with its opportunity *)
| a_stale s t : In t (atimers s) -> (forall r tok, kind t = EmptyAck r tok -> aget pk_eqb (piggy s) (rpeer r, tok) = None) ->
    astep s [] (cancel_a s (tid t))
| a_arm s r m : A r m -> mtype m = CON -> just_registered s (rpeer r) (mid m) -> astep s [] (arm s r m)
| a_start s r m : C (rpeer r, token m) ->
    astep s [StartHandler (next_srv s)]
      (set_next_srv (set_incoming s (aset ik_eqb (incoming s) (token m, rpeer r) {| sv_id := next_srv s; sv_remote := r; sv_req := m |})) (next_srv s + 1))
| a_tick s b t : next_timer s = Some (b, t) -> astep s [] (set_now s (Z.max (now s) (due t)))
| a_wait s d : astep s [] (fst (step s (Wait d))).
Inductive asteps : st -> list output -> st -> Prop :=
| as_nil s : asteps s [] s
| as_cons s o s1 o' s2 : astep s o s1 -> asteps s1 o' s2 -> asteps s (o ++ o') s2.
Lemma asteps_one s o s' : astep s o s' -> asteps s o s'.
Proof. intros H. rewrite <- (app_nil_r o). eapply as_cons; [exact H|apply as_nil]. Qed.
Lemma asteps_app s o s1 o' s2 : asteps s o s1 -> asteps s1 o' s2 -> asteps s (o ++ o') s2.
Proof. induction 1 as [|x o1 x1 o2 x2 H1 _ IH]; intros H2; [exact H2|]. rewrite <- app_assoc. eapply as_cons; eauto. Qed.
Lemma asteps_frame s o s' : frame s s' -> Kout K o -> asteps s o s'.
Proof. intros [Hp Hm] Ho. apply asteps_one, a_frame; [exact Hp|apply m_keep; exact Hm|exact Ho]. Qed.

Lemma asteps_rel (R : st -> list output -> st -> Prop) :
  (forall s, R s [] s) -> (forall s o s1 o' s2, R s o s1 -> R s1 o' s2 -> R s (o ++ o') s2) ->
  (forall s o s', astep s o s' -> R s o s') -> forall s o s', asteps s o s' -> R s o s'.
Proof. intros Hn Ha Hs. induction 1; eauto. Qed.

(* a replayed reply was stored under the duplicate's own (peer, mid) *)
Lemma dedup_out s r m s' o b : _deduplicate_message s r m = (s', o, b) -> BInv s -> K (rpeer r, mid m) -> Kout K o.
Proof.
  unfold _deduplicate_message. intros H HB Hk. destruct (aget zz_eqb (recent s) (rpeer r, mid m)) as [stored|] eqn:Eg.
  - destruct (mtype m); try (inv H; apply Kout_nil; fail). destruct stored as [[r' m']|]; [|inv H; apply Kout_nil].
    pose proof (send_initially_out s r' m' MonResp) as [Ho _]. destruct (_send_initially s r' m' MonResp) as [s1 o1]. cbn [snd] in Ho. inv H.
    apply Kout_one. intros _. apply (aget_In _ zz_ok) in Eg. destruct HB as (_ & _ & H3). apply H3 in Eg as [_ Hkey]. inv Hkey. exact Hk.
  - unfold call_later_r in H. inv H. apply Kout_nil.
Qed.
(* a retransmission repeats a confirmable message *)
Lemma run_timer_out s t : (forall r m to c, kind t = Retransmit r m to c -> mtype m = CON) -> Kout K (snd (run_timer s t)).
Proof.
  unfold run_timer. intros Hc. destruct (kind t) as [r tok|r m to c|p md]; try apply Kout_nil.
  unfold _retransmit. destruct (aget zz_eqb (exch s) (rpeer r, mid m)) as [[mon h]|]; [|apply Kout_one; exact I].
  destruct (c <? MAX_RETRANSMIT). { unfold call_later_r. apply Kout_one. rewrite (Hc _ _ _ _ eq_refl). discriminate. }
  destruct (amem Z.eqb _ (rpeer r)); [|apply Kout_one; exact I].
  intros r' w Hin. destruct (dispatch_error_sends_nothing _ _ _ _ _ Hin).
Qed.

Lemma ustep_a (L : Prop) s o s' : ustep L K C A s o s' -> (L -> BInv s) -> asteps s o s'.
Proof.
  intros H HB. destruct H as [s o s' Hm Hp Ho|s r build mt md mon rq s' o e H Hb Hk|s r w mon silent _ Hk|s r m s' o d HL H Hk|s r m s' o HL H|s t s' o HL Hin Hmin H
                            |s k pm h id r w Hc Hg Hid Hr Hw Hpm|s t o Hin Hn Ho|s r m Ha Hcon Hreg|s r m Hc|s b t En|s d].
  - (* u_same *) apply asteps_frame; [split; [exact Hp|apply msame_mkeep; exact Hm]|apply Kout_benign; exact Ho].
  - (* u_tail *) apply tail_cases in H as [(_ & _ & -> & ->)|(s2 & md1 & _ & Hm & Hp & _ & Hc)]; [apply asteps_frame; [apply frame_refl|apply Kout_nil]|].
    assert (Hf : frame s s2) by (split; [exact Hp|apply msame_mkeep; exact Hm]).
    destruct Hc as [(_ & _ & _ & -> & ->)|(_ & -> & ->)]; (apply asteps_frame; [eapply frame_trans; [exact Hf|]|]).
    + frame_by_fields.
    + apply Kout_nil.
    + apply frame_send_initially.
    + apply Kout_one. rewrite Hb. intros Hs. apply Hk, Hs.
  - (* u_send *) apply asteps_frame; [apply frame_send_initially|destruct silent; [apply Kout_nil|apply Kout_one; auto]].
  - (* u_dedup *) destruct (aget zz_eqb (recent s) (rpeer r, mid m)) as [stored|] eqn:Eg.
    + pose proof (frame_replay s r m stored Eg) as Hf. rewrite H in Hf. apply asteps_frame; [exact Hf|eapply dedup_out; eauto].
    + rewrite (dedup_fresh _ _ _ Eg) in H. inv H. apply asteps_one, a_frame; [apply pframe_register|apply m_register; exact Eg|apply Kout_nil].
  - (* u_remove *) pose proof (frame_remove_exchange s r m) as Hf. rewrite H in Hf. apply asteps_frame; [exact Hf|apply Kout_quiet; eapply remove_exchange_quiet; eauto].
  - (* u_timer *) destruct (kind t) as [rr tk|rr mm to cc|p md] eqn:Ek.
    3:{ unfold run_timer in H. rewrite Ek in H. inv H. apply asteps_one, a_frame; [frame_by_fields|apply (m_forget s t p md Hin Ek Hmin)|apply Kout_nil]. }
    all: pose proof (frame_run_timer (cancel_r s (tid t)) t) as Hf; pose proof (run_timer_out (cancel_r s (tid t)) t) as Hout; rewrite H in Hf, Hout;
      (apply asteps_frame; [eapply frame_trans; [|apply Hf; rewrite Ek; discriminate]; frame_by_fields|]); apply Hout; intros r0 m0 to0 c0 Hk0;
      destruct (HB HL) as (_ & H2 & _); eapply H2; eauto; congruence.
  - (* u_ack *) apply asteps_one. eapply a_ack; eauto.
  - (* u_stale *) rewrite <- (app_nil_l o). eapply as_cons; [apply (a_stale s t); assumption|].
    apply asteps_frame; [apply frame_refl|destruct Ho as [-> | ->]; [apply Kout_nil|apply Kout_one; exact I]].
  - (* u_arm *) apply asteps_one, a_arm; assumption.
  - (* u_start *) apply asteps_one, a_start; assumption.
  - (* u_tick *) apply asteps_one. eapply a_tick; eauto.
  - (* u_wait *) apply asteps_one. apply a_wait.
Qed.
Lemma usteps_a (L : Prop) s o s' : usteps L K C A s o s' -> (L -> BInv s) -> (L -> BInv s') /\ asteps s o s'.
Proof.
  revert s o s'. apply (usteps_rel L K C A (fun s o s' => (L -> BInv s) -> (L -> BInv s') /\ asteps s o s')).
  - intros x HB. split; [exact HB|apply as_nil].
  - intros x o1 x1 o2 x2 H1 H2 HB. destruct (H1 HB) as [HB1 S1]. destruct (H2 HB1) as [HB2 S2]. split; [exact HB2|eapply asteps_app; eauto].
  - intros x o1 x' Hu HB. split; [intros HL; eapply ustep_ok; eauto|eapply ustep_a; eauto].
Qed.
Theorem step_a s e s' o : step s e = (s', o) -> BInv s -> allows K C A s e -> asteps s o s'.
Proof. intros H HB Hal. eapply (usteps_a True); [eapply step_u; eauto|auto]. Qed.
(* inside tm_process_request no state of the message layer proper is entered *)
Lemma tm_process_request_a s r m s' o : tm_process_request s r m = (s', o) -> C (rpeer r, token m) -> asteps s o s'.
Proof. intros H Hc. eapply (usteps_a False); [eapply tm_process_request_u; eauto|tauto]. Qed.
End AStep.

Lemma step_rel K C A (R : st -> list output -> st -> Prop) :
  (forall s, R s [] s) -> (forall s o s1 o' s2, R s o s1 -> R s1 o' s2 -> R s (o ++ o') s2) ->
  (forall s o s', astep K C A s o s' -> R s o s') ->
  forall s e s' o, step s e = (s', o) -> BInv s -> allows K C A s e -> R s o s'.
Proof. intros Hn Ha Hs s e s' o H HB Hal. eapply asteps_rel; eauto. eapply step_a; eauto. Qed.

(* an invariant of the micro-steps is an invariant of every history *)
Lemma run_ainv (I : st -> Prop) :
  (forall s o s', astep (fun _ => True) (fun _ => True) (fun _ _ => True) s o s' -> I s -> I s') ->
  forall es s s' os, run s es = (s', os) -> BInv s -> I s -> I s'.
Proof.
  intros Hs es s s' os H HB. eapply (run_relB (fun s _ s' => I s -> I s') (fun _ => True)); eauto using Forall_True.
  intros x e x' o _ Hx HBx. apply (step_rel (fun _ => True) (fun _ => True) (fun _ _ => True) (fun s _ s' => I s -> I s')) with (e := e) (o := o); auto using allows_all.
Qed.

Definition counts (p M : Z) (e : (Z * list Z) * (Z * Z)) : bool := (fst (fst e) =? p) && (fst (snd e) =? M).
Definition cnt (p M : Z) (pg : list ((Z * list Z) * (Z * Z))) : nat := length (filter (counts p M) pg).
Definition okp (p M : Z) (s : st) (o : list output) (s' : st) : Prop := (acks p M o + cnt p M (piggy s') <= cnt p M (piggy s))%nat.

Lemma acks_app p M a b : acks p M (a ++ b) = (acks p M a + acks p M b)%nat.
Proof. unfold acks. rewrite filter_app, app_length. reflexivity. Qed.
Lemma acks_Kout p M K o : Kout K o -> (forall k, K k -> k <> (p, M)) -> acks p M o = 0%nat.
Proof.
  intros Hk Hne. unfold acks. induction o as [|x o IH]; [reflexivity|]. cbn [filter].
  assert (Hx : is_ack_for p M x = false).
  { destruct x as [r w| | | | |]; try reflexivity. cbn. destruct (mtype w) eqn:Ew; try reflexivity. cbn.
    destruct (rpeer r =? p) eqn:E1; [|reflexivity]. destruct (mid w =? M) eqn:E2; [|reflexivity]. exfalso.
    apply Z.eqb_eq in E1, E2. apply (Hne (rpeer r, mid w)); [apply Hk; [left; reflexivity|exact Ew]|congruence]. }
  rewrite Hx. apply IH. intros r w Hin. apply Hk. right. exact Hin.
Qed.

Lemma cnt_adel_le p M l k : (cnt p M (adel pk_eqb l k) <= cnt p M l)%nat.
Proof.
  unfold cnt. induction l as [|[k0 v0] l IH]; cbn; [lia|]. destruct (pk_eqb k0 k); cbn; destruct (counts p M (k0, v0)); cbn; lia.
Qed.
Lemma cnt_adel_hit p M l k h : aget pk_eqb l k = Some (M, h) -> fst k = p -> (cnt p M (adel pk_eqb l k) + 1 <= cnt p M l)%nat.
Proof.
  unfold cnt. induction l as [|[k0 v0] l IH]; cbn; [discriminate|]. destruct (pk_eqb k0 k) eqn:E.
  - intros H Hk. inv H. apply pk_ok in E. subst k0. unfold counts at 2. cbn. rewrite !Z.eqb_refl. cbn.
    pose proof (cnt_adel_le (fst k) M l k) as Hle. unfold cnt in Hle. lia.
  - intros H Hk. specialize (IH H Hk). cbn. destruct (counts p M (k0, v0)); cbn; lia.
Qed.
Lemma cnt_aset_fresh p M l k v : aget pk_eqb l k = None -> cnt p M (aset pk_eqb l k v) = (cnt p M l + (if counts p M (k, v) then 1 else 0))%nat.
Proof.
  intros Hn. unfold aset, amem. rewrite Hn. unfold cnt. rewrite filter_app, app_length. cbn. destruct (counts p M (k, v)); reflexivity.
Qed.
Lemma cnt_arm p M s r m :
  cnt p M (piggy (arm s r m)) =
  (cnt p M (adel pk_eqb (piggy s) (rpeer r, token m)) + (if counts p M ((rpeer r, token m), (mid m, seq s)) then 1 else 0))%nat.
Proof. rewrite arm_piggy. apply cnt_aset_fresh. apply (aget_adel_same _ pk_ok). Qed.

Lemma astep_okp p M K C A s o s' : astep K C A s o s' -> (forall k, K k -> k <> (p, M)) -> (forall r m, A r m -> (rpeer r, mid m) <> (p, M)) ->
  okp p M s o s'.
Proof.
  intros H Hk Ha. unfold okp. destruct H as [s o s' (-> & _) _ Ho|s k pm h id r w _ Hg _ Hr Hw Hm|s t| s r m Har _ _|s r m _|s b t _|s d]; cbn [piggy consumed cancel_a set_piggy set_atimers set_next_srv set_incoming set_now step fst];
    try (cbn; lia).
  - (* a_frame *) rewrite (acks_Kout _ _ _ _ Ho Hk). lia.
  - (* a_ack *) unfold acks. cbn. rewrite Hw, Hr, Hm. cbn. pose proof (cnt_adel_le p M (piggy s) k).
    destruct ((fst k =? p) && (pm =? M)) eqn:E; cbn; [|lia]. apply andb_true_iff in E as [E1 E2]. apply Z.eqb_eq in E1, E2. subst pm. rewrite E2 in Hg.
    pose proof (cnt_adel_hit p M (piggy s) k h Hg E1). lia.
  - (* a_arm *) rewrite cnt_arm. pose proof (cnt_adel_le p M (piggy s) (rpeer r, token m)).
    destruct (counts p M _) eqn:E; [|change (acks p M []) with 0%nat; lia]. unfold counts in E. cbn in E. apply andb_true_iff in E as [E1 E2]. apply Z.eqb_eq in E1, E2.
    exfalso. apply (Ha r m Har). congruence.
Qed.
Lemma okp_nil p M s : okp p M s [] s.
Proof. unfold okp. cbn. lia. Qed.
Lemma okp_app p M s o s1 o' s2 : okp p M s o s1 -> okp p M s1 o' s2 -> okp p M s (o ++ o') s2.
Proof. unfold okp. rewrite acks_app. lia. Qed.
Lemma asteps_okp p M K C A s o s' : asteps K C A s o s' -> (forall k, K k -> k <> (p, M)) -> (forall r m, A r m -> (rpeer r, mid m) <> (p, M)) ->
  okp p M s o s'.
Proof. intros H Hk Ha. revert s o s' H. apply asteps_rel; [apply okp_nil|apply okp_app|]. intros. eapply astep_okp; eauto. Qed.

Definition app_mtype_ok (mt : option mtype_t) : Prop := mt = None \/ mt = Some CON \/ mt = Some NON.
Definition ev_ok (p M : Z) (e : event) : Prop :=
  match e with
  | Recv r m => (rpeer r, mid m) <> (p, M)
  | Request _ mt _ => app_mtype_ok mt
  | _ => True
  end.
Lemma ev_ok_allows p M s e : ev_ok p M e ->
  allows (fun k => k <> (p, M)) (fun _ => True) (fun r m => (rpeer r, mid m) <> (p, M)) s e.
Proof.
  destruct e as [r m|k c rnr pl|pe mt ob| |d]; cbn; auto.
  intros [-> | [-> | ->]]; discriminate.
Qed.

(* every acknowledgement consumes an opportunity: over any history that contains no (other) message from [p] with message ID [M]
   and in which the application does not itself send ACK-typed requests *)
Theorem acks_bounded es s s' os p M : run s es = (s', os) -> BInv s -> Forall (ev_ok p M) es ->
  (acks p M (outputs_of os) + cnt p M (piggy s') <= cnt p M (piggy s))%nat.
Proof.
  intros H HB Hev. eapply (run_relB (okp p M) (ev_ok p M)); eauto using okp_nil, okp_app.
  intros x e x' o He Hx HBx. eapply asteps_okp; [eapply step_a; [exact Hx|exact HBx|apply ev_ok_allows; exact He]|auto|auto].
Qed.
