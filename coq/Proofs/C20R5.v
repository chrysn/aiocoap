(* C20 — what a successful write sets, as equations over the request's parameters; declarative meaning of the lookup
   criteria; change notifications *)
From Coq Require Import String.
From Verif Require Import Lib.Py Lib.PyLemmas Lib.Tactics Model.C20Str Model.C20 Model.C20Spec Proofs.C20Dict Proofs.C20 Proofs.C20More Proofs.C20Refine.
Open Scope Z_scope.

Lemma sdget_ddel_same (q : query) k : NoDup (map fst q) -> dget String.eqb (ddel String.eqb q k) k = None.
Proof. apply (dget_ddel_same String.eqb_eq). Qed.

Lemma existsb_false_forall {A} (f : A -> bool) l : existsb f l = false <-> forall x, In x l -> f x = false.
Proof.
  split.
  - intros H x Hin. destruct (f x) eqn:E; [|reflexivity]. assert (existsb f l = true) by (apply existsb_exists; eauto). congruence.
  - intros H. destruct (existsb f l) eqn:E; [|reflexivity]. apply existsb_exists in E. destruct E as (x & Hin & Fx). rewrite (H x Hin) in Fx. discriminate.
Qed.

(* a key that no parameter may carry is absent *)
Lemma forbidden_absent (p : query) ks k : existsb (fun kv => in_strs (fst kv) ks) p = false -> in_strs k ks = true -> dget String.eqb p k = None.
Proof.
  intros F Hk. apply (notin_dget_None String.eqb_eq). intros Hin. apply in_map_iff in Hin. destruct Hin as ([k' v] & <- & Hin).
  rewrite (proj1 (existsb_false_forall _ _) F _ Hin) in Hk. discriminate.
Qed.

Lemma write_request_ok p p2 nl nb : NoDup (map fst p) -> write_request p = Ok (p2, nl, nb) ->
  (dget String.eqb p "ep" = None /\ dget String.eqb p "d" = None) /\
  ((dget String.eqb p "lt" = None /\ nl = None) \/ exists s n, dget String.eqb p "lt" = Some [Some s] /\ parse_int s = Some n /\ nl = Some n) /\
  ((dget String.eqb p "base" = None /\ nb = None) \/ exists b, dget String.eqb p "base" = Some [Some b] /\ nb = Some b) /\
  NoDup (map fst p2) /\ forall k, k <> "lt"%string -> k <> "base"%string -> dget String.eqb p2 k = dget String.eqb p k.
Proof.
  intros ND. unfold write_request. destruct (existsb _ p) eqn:F; [discriminate|].
  match goal with |- context [if ?c then _ else _] => destruct c end; [discriminate|].
  intros H. split; [split; apply (forbidden_absent _ _ _ F); reflexivity|].
  destruct (lt_step_cases p) as [E|[[El E]|(s & n & El & Pn & E)]]; rewrite E in H; [discriminate| |];
    match type of H with context [base_step ?q] => destruct (base_step_cases q) as [E'|[[Eb E']|(b & Eb & E')]] end;
    rewrite E' in H; inv H; try rewrite (dget_ddel_other String.eqb_eq) in Eb by discriminate;
    (split; [eauto 6|split; [eauto|split; [auto using (NoDup_ddel String.eqb_eq)|]]]);
    intros k N1 N2; rewrite ?(dget_ddel_other String.eqb_eq) by assumption; reflexivity.
Qed.

Lemma dget_dict_update (d u : query) k : NoDup (map fst u) ->
  dget String.eqb (dict_update d u) k = match dget String.eqb u k with Some v => Some v | None => dget String.eqb d k end.
Proof.
  unfold dict_update. revert d. induction u as [|[k1 v1] u IH]; intros d ND; cbn [fold_left dget fst snd]; [reflexivity|].
  inv ND. rewrite IH by assumption. destruct (String.eqb k1 k) eqn:E.
  - apply String.eqb_eq in E. subst k1. rewrite (notin_dget_None String.eqb_eq u k H1).
    apply (dget_dset_same String.eqb_eq).
  - destruct (dget String.eqb u k); [reflexivity|]. apply (dget_dset_other String.eqb_eq).
    intros ->. rewrite String.eqb_refl in E. discriminate.
Qed.

Lemma dget_new_params d u k : NoDup (map fst u) ->
  dget String.eqb (new_params d u) k = match dget String.eqb u k with Some v => Some v | None => dget String.eqb d k end.
Proof.
  intros ND. unfold new_params. destruct (existsb _ u) eqn:EE; [apply dget_dict_update; exact ND|].
  destruct (dget String.eqb u k) as [v|] eqn:Ev; [|reflexivity].
  pose proof (proj1 (existsb_false_forall _ _) EE (k, v) (dget_In String.eqb_eq _ _ _ Ev)) as F. cbn [fst snd] in F.
  apply negb_false_iff in F. destruct (dget String.eqb d k) as [v'|]; [|discriminate]. apply (list_eqb_eq ostr_eqb ostr_eqb_spec) in F. subst. reflexivity.
Qed.

Lemma write_sets_parameters : forall r remote p init t seq r', NoDup (map fst p) ->
  update_params r remote p init t seq = UpOk r' ->
  r_lt r' = match dget String.eqb p "lt" with
            | Some [Some s] => match parse_int s with Some n => n | None => r_lt r end
            | _ => r_lt r end /\
  (forall b, dget String.eqb p "base" = Some [Some b] -> r_base r' = b /\ r_base_explicit r' = true) /\
  (dget String.eqb p "base" = None -> r_base_explicit r' = r_base_explicit r /\
     (r_base_explicit r = false -> exists u, remote = Some u /\ r_base r' = u) /\
     (r_base_explicit r = true -> r_base r' = r_base r)) /\
  (forall k, k <> "lt"%string -> k <> "base"%string ->
     dget String.eqb (r_params r') k = match dget String.eqb p k with Some v => Some v | None => dget String.eqb (r_params r) k end) /\
  (dget String.eqb p "ep" = None /\ dget String.eqb p "d" = None).
Proof.
  intros r remote p init t seq r' ND H.
  destruct (update_params_ok_inv _ _ _ _ _ _ _ H) as (p2 & nl & nb & b & ex & W & B & ->).
  destruct (write_request_ok _ _ _ _ ND W) as (K & L & Bs & ND2 & P2). unfold written; cbn [r_lt r_base r_base_explicit r_params].
  split; [|split; [|split; [|split; [|exact K]]]].
  - destruct L as [[-> ->]|(s & n & -> & -> & ->)]; reflexivity.
  - intros b0 E. destruct Bs as [[E' _]|(b1 & E' & ->)]; rewrite E' in E; inv E. cbn in B. inv B. auto.
  - intros E. destruct Bs as [[_ ->]|(b1 & E' & _)]; [|congruence]. unfold new_base in B.
    destruct (r_base_explicit r), remote as [u|]; try destruct init; inv B; (split; [reflexivity|split; intros X; try discriminate X; eauto]).
  - intros k N1 N2. rewrite (dget_new_params _ _ _ ND2), (P2 k N1 N2). reflexivity.
Qed.

Lemma query_add_nodup q k v : NoDup (map fst q) -> NoDup (map fst (query_add q k v)).
Proof.
  intros ND. unfold query_add. destruct (dget String.eqb q k) as [vs|] eqn:E.
  - apply (NoDup_dset String.eqb_eq). exact ND.
  - rewrite map_app. cbn. apply NoDup_snoc; [exact ND|]. apply (dget_None_notin String.eqb_eq). exact E.
Qed.
Lemma query_split_nodup qs : NoDup (map fst (query_split qs)).
Proof.
  unfold query_split. assert (G : forall acc, NoDup (map fst acc) ->
    NoDup (map fst (fold_left (fun acc s => let '(k, v) := split_eq s in query_add acc k v) qs acc))).
  { induction qs as [|s qs IH]; intros acc ND; cbn [fold_left]; [exact ND|]. apply IH. destruct (split_eq s) as [k v]. apply query_add_nodup. exact ND. }
  apply G. constructor.
Qed.

(* a criterion value against one (possibly valueless) attribute value: exact, or prefix when the criterion ends in "*" *)
Definition token_ok (m : matcher) (ox : ostr) : Prop :=
  match m with
  | MPrefix s => exists x, ox = Some x /\ String.prefix s x = true
  | MEq v => ox = v
  end.
(* for rt / if any of the whitespace-separated items of the value may match *)
Definition value_ok (m : matcher * bool) (ox : ostr) : Prop :=
  if snd m then exists xs tok, ox = Some xs /\ In tok (split_ws xs) /\ token_ok (fst m) (Some tok)
  else token_ok (fst m) ox.
(* the values a criterion is compared with: for an endpoint, its registration parameter of that name or that attribute of one of
   its (resolved) links; for href, the registration resource's path or a link target *)
Definition ep_candidate (c : crit) (r : reg) (ox : ostr) : Prop :=
  if c_href c then ox = Some (href r) \/ exists l, In l (get_based_links r) /\ ox = Some (l_href l)
  else (exists vs, dget String.eqb (r_params r) (c_key c) = Some vs /\ In ox vs) \/
       (exists l, In l (get_based_links r) /\ In (c_key c, ox) (l_attrs l)).
Definition res_candidate (c : crit) (e : reg) (l : link) (ox : ostr) : Prop :=
  if c_href c then ox = Some (l_href l) \/ ox = Some (href e)
  else In (c_key c, ox) (l_attrs l) \/ (exists vs, dget String.eqb (r_params e) (c_key c) = Some vs /\ In ox vs).

Lemma base_match_spec m ox : base_match m ox = true <-> token_ok m ox.
Proof.
  unfold base_match, token_ok. destruct m as [s|v].
  - destruct ox as [x|]; split.
    + intros H. exists x. auto.
    + intros (x' & E & H). inv E. exact H.
    + discriminate.
    + intros (x' & E & _). discriminate.
  - apply ostr_eqb_spec.
Qed.
Lemma matches_spec m ox : matches m ox = true <-> value_ok m ox.
Proof.
  unfold matches, value_ok. destruct (snd m); [|apply base_match_spec]. destruct ox as [xs|]; split.
  - intros H. apply existsb_exists in H. destruct H as (tok & Hin & Hm). exists xs, tok. split; [reflexivity|split; [exact Hin|apply base_match_spec; exact Hm]].
  - intros (xs' & tok & E & Hin & Hm). inv E. apply existsb_exists. exists tok. split; [exact Hin|apply base_match_spec; exact Hm].
  - discriminate.
  - intros (xs' & tok & E & _). discriminate.
Qed.
Lemma _link_matches_spec l k m : _link_matches l k m = true <-> exists ox, In (k, ox) (l_attrs l) /\ value_ok m ox.
Proof.
  unfold _link_matches. rewrite existsb_exists. split.
  - intros ([k' ox] & Hin & H). cbn [fst snd] in H. apply andb_prop in H. destruct H as [E H]. apply String.eqb_eq in E. subst k'.
    exists ox. split; [exact Hin|apply matches_spec; exact H].
  - intros (ox & Hin & H). exists (k, ox). split; [exact Hin|]. cbn [fst snd]. rewrite String.eqb_refl. apply matches_spec. exact H.
Qed.
Lemma params_match_spec r k m : params_match r k m = true <-> exists vs ox, dget String.eqb (r_params r) k = Some vs /\ In ox vs /\ value_ok m ox.
Proof.
  unfold params_match. destruct (dget String.eqb (r_params r) k) as [vs|]; split.
  - intros H. apply existsb_exists in H. destruct H as (ox & Hin & H). exists vs, ox. split; [reflexivity|split; [exact Hin|apply matches_spec; exact H]].
  - intros (vs' & ox & E & Hin & H). inv E. apply existsb_exists. exists ox. split; [exact Hin|apply matches_spec; exact H].
  - discriminate.
  - intros (vs' & ox & E & _). discriminate.
Qed.

Lemma ep_keep_spec c r : ep_keep c r = true <-> exists ox, ep_candidate c r ox /\ value_ok (c_m c) ox.
Proof.
  unfold ep_keep, ep_candidate. destruct (c_href c); rewrite orb_true_iff.
  - rewrite matches_spec, existsb_exists. split.
    + intros [H|(l & Hin & H)]; [exists (Some (href r)); split; [left; reflexivity|exact H]|].
      exists (Some (l_href l)). split; [right; exists l; auto|apply matches_spec; exact H].
    + intros (ox & [->|(l & Hin & ->)] & H); [left; exact H|right; exists l; split; [exact Hin|apply matches_spec; exact H]].
  - rewrite params_match_spec, existsb_exists. split.
    + intros [(vs & ox & E & Hin & H)|(l & Hin & H)]; [exists ox; split; [left; exists vs; auto|exact H]|].
      apply _link_matches_spec in H. destruct H as (ox & Ha & H). exists ox. split; [right; exists l; auto|exact H].
    + intros (ox & [(vs & E & Hin)|(l & Hin & Ha)] & H); [left; exists vs, ox; auto|].
      right. exists l. split; [exact Hin|apply _link_matches_spec; exists ox; auto].
Qed.
Lemma res_keep_spec c e l : res_keep c (e, l) = true <-> exists ox, res_candidate c e l ox /\ value_ok (c_m c) ox.
Proof.
  unfold res_keep, res_candidate. destruct (c_href c); rewrite orb_true_iff.
  - rewrite !matches_spec. split.
    + intros [H|H]; eexists; (split; [|exact H]); auto.
    + intros (ox & [->| ->] & H); auto.
  - rewrite _link_matches_spec, params_match_spec. split.
    + intros [(ox & Ha & H)|(vs & ox & E & Hin & H)]; exists ox; (split; [|exact H]); [left; exact Ha|right; exists vs; auto].
    + intros (ox & [Ha|(vs & E & Hin)] & H); [left; exists ox; auto|right; exists vs, ox; auto].
Qed.

(* the criteria of a query: one per value of every key other than page / count; "v*" is a prefix criterion; rt and if compare items *)
Lemma criteria_of_spec q c : In c (criteria_of q) <->
  exists k vs v, In (k, vs) q /\ is_paging k = false /\ In v vs /\
    c = {| c_key := k; c_m := (make_matcher v, in_strs k ["if"; "rt"]%string); c_href := String.eqb k "href" |}.
Proof.
  unfold criteria_of. rewrite in_flat_map. split.
  - intros ([k vs] & Hin & H). cbn [fst snd] in H. destruct (is_paging k) eqn:P; [contradiction|]. apply in_map_iff in H.
    destruct H as (v & <- & Hv). exists k, vs, v. auto.
  - intros (k & vs & v & Hin & P & Hv & ->). exists (k, vs). split; [exact Hin|]. cbn [fst snd]. rewrite P. apply in_map_iff. exists v. auto.
Qed.
Lemma make_matcher_spec v : make_matcher v = match v with
                                              | Some s => if ends_with_star s then MPrefix (drop_last s) else MEq (Some s)
                                              | None => MEq None end.
Proof. reflexivity. Qed.

Lemma drain_count_nonneg st : Inv st -> 0 <= blen (by_key st) - blen (by_key (drain st)).
Proof. intros I. unfold drain. rewrite (proj1 (fire_all st _ I)). unfold blen. pose proof (filter_length_le (not_due st (now st)) (by_key st)). lia. Qed.
Lemma drain_count_pos st : Inv st -> by_key (drain st) <> by_key st -> 0 < blen (by_key st) - blen (by_key (drain st)).
Proof. intros I H. unfold drain in *. rewrite (proj1 (fire_all st _ I)) in *. unfold blen. pose proof (filter_shorter _ _ H). lia. Qed.

(* whenever the set of listed registrations changes — registration, re-registration, removal, expiry — the change callbacks run *)
Lemma notified_when_listing_changes st o st' r : Inv st -> Settled st -> step st o = (st', r) ->
  by_key st' <> by_key st -> 0 < notify_count st o.
Proof.
  intros I S. unfold step, notify_count. destruct (handle st o) as [st1 r1] eqn:EH. intros H; inv H. intros Hne.
  destruct (handle_Inv _ _ _ _ I EH) as (I1 & _ & _). pose proof (drain_count_nonneg st1 I1) as NNeg.
  destruct (handle_cases _ _ _ _ I EH) as [[-> _]|W]; [destruct Hne; rewrite (drain_id st S); reflexivity|].
  destruct W as [remote q b r0 links Rp Tm|path remote q b tid r' EP EU|path remote q b tid r' links EP EU|path tid EP|dt].
  - destruct (_ =? _); lia.
  - pose proof (drain_count_pos _ I1 Hne). rewrite EP. destruct (reg_changed _ _); lia.
  - rewrite EP. destruct (reg_changed _ _); lia.
  - lia.
  - rewrite (drain_id (advance st dt)) in * by (apply advance_Settled; assumption).
    rewrite (proj1 (fire_all st (now st + dt) I) : by_key (advance st dt) = _) in *. unfold blen. pose proof (filter_shorter _ _ Hne). lia.
Qed.

Definition vis (r : reg) := (r_path r, r_params r, r_base r, r_links r).
Lemma vis_links a b : vis a = vis b -> get_host_link a = get_host_link b /\ get_based_links a = get_based_links b.
Proof. destruct a, b. unfold vis. cbn. intros H. inv H. split; reflexivity. Qed.

Lemma query_eqb_eq a b : query_eqb a b = true -> a = b.
Proof.
  apply list_eqb_eq. intros [k1 v1] [k2 v2]. cbn [fst snd]. unfold olist_eqb.
  rewrite andb_true_iff, String.eqb_eq, (list_eqb_eq ostr_eqb ostr_eqb_spec). split; [intros [-> ->]; reflexivity|intros H; inv H; auto].
Qed.
Lemma reg_unchanged_fields r r' : reg_changed r r' = false -> r_lt r = r_lt r' /\ r_base r = r_base r' /\ r_params r = r_params r'.
Proof.
  unfold reg_changed. intros H. apply orb_false_iff in H. destruct H as [H H3]. apply orb_false_iff in H. destruct H as [H1 H2].
  apply negb_false_iff in H1, H2, H3. apply String.eqb_eq in H2. apply query_eqb_eq in H3. split; [lia|auto].
Qed.

Lemma key_list_dec (a b : list (key * Z)) : {a = b} + {a <> b}.
Proof. repeat decide equality. Qed.

Lemma plain_lookups_of_vis st st' : by_key st' = by_key st ->
  (forall k id, In (k, id) (by_key st) -> vis (obj st' id) = vis (obj st id)) ->
  ep_lookup st' [] None = ep_lookup st [] None /\ res_lookup st' [] None = res_lookup st [] None.
Proof.
  intros Ebk V. rewrite !ep_lookup_plain, !res_lookup_plain. unfold get_endpoints. rewrite Ebk.
  assert (E1 : map get_host_link (map (fun kv : key * Z => obj st' (snd kv)) (by_key st)) = map get_host_link (map (fun kv : key * Z => obj st (snd kv)) (by_key st))).
  { rewrite !map_map. apply map_ext_in. intros [k id] H. cbn [snd]. apply (vis_links _ _ (V k id H)). }
  assert (E2 : flat_map get_based_links (map (fun kv : key * Z => obj st' (snd kv)) (by_key st)) = flat_map get_based_links (map (fun kv : key * Z => obj st (snd kv)) (by_key st))).
  { rewrite !flat_map_concat_map, !map_map. f_equal. apply map_ext_in. intros [k id] H. cbn [snd]. apply (vis_links _ _ (V k id H)). }
  rewrite E1, E2. split; reflexivity.
Qed.

(* if no change callback runs during a step, both unfiltered lookups show afterwards exactly what they showed before *)
Lemma silent_step_shows_the_same st o st' r : Inv st -> Settled st -> step st o = (st', r) ->
  notify_count st o = 0 -> ep_lookup st' [] None = ep_lookup st [] None /\ res_lookup st' [] None = res_lookup st [] None.
Proof.
  intros I S Hs N0.
  destruct (key_list_dec (by_key st') (by_key st)) as [Ebk|Ne].
  2:{ pose proof (notified_when_listing_changes st o st' r I S Hs Ne). lia. }
  apply plain_lookups_of_vis; [exact Ebk|]. intros k id Hin.
  unfold step in Hs. unfold notify_count in N0. destruct (handle st o) as [st1 r1] eqn:EH. injection Hs as <- <-.
  destruct (handle_Inv _ _ _ _ I EH) as (I1 & _ & _). pose proof (drain_count_nonneg st1 I1) as NNeg.
  pose proof (proj2 (fire_all st1 _ I1) k id : In _ (by_key (drain st1)) -> obj (drain st1) id = _) as Ed. rewrite Ebk in Ed. specialize (Ed Hin).
  destruct (handle_cases _ _ _ _ I EH) as [[-> _]|W]; [rewrite (drain_id st S); reflexivity|].
  destruct W as [remote q b r0 links Rp Tm|path remote q b tid r' EP EU|path remote q b tid r' links EP EU|path tid EP|dt].
  - destruct (_ =? _); lia.
  - (* POST: no field that the lookups show has changed *)
    rewrite EP in N0. destruct (reg_changed (obj st tid) (obj (updated st tid r') tid)) eqn:RC; [lia|].
    rewrite Ed.
    destruct (Z.eq_dec id tid) as [->|Nid]; [|rewrite (obj_other st tid r' id Nid : obj (updated st tid r') id = _); reflexivity].
    rewrite (obj_set_obj st tid r' : obj (updated st tid r') tid = r') in *.
    destruct (reg_unchanged_fields _ _ RC) as (_ & Eb & Ep). destruct (update_params_ok _ _ _ _ _ _ _ EU) as (_ & Epath & Elinks & _).
    unfold vis. rewrite Epath, Elinks, <- Eb, <- Ep. reflexivity.
  - rewrite EP in N0. destruct (reg_changed _ _); lia.
  - lia.
  - rewrite (drain_id (advance st dt)) in * by (apply advance_Settled; assumption).
    f_equal. rewrite <- Ebk in Hin. exact (proj2 (fire_all st (now st + dt) I) k id Hin).
Qed.
