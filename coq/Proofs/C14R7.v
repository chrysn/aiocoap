(* C14 — the remote r itself is refused by the transport.  For EVERY event (whatever it is about, whatever else is
   refused) the step either keeps r's exchange and queue (new confirmable submissions appended, nothing leaves the queue) or
   ends the exchange and discards the whole queue in that very step; and no datagram for r reaches the wire. *)
From Verif Require Import Lib.Tactics Model.C14 Model.C14refuse Proofs.C14 Proofs.C14step Proofs.C14refuse Proofs.C14live Proofs.C14gen.
Import ListNotations.
Open Scope Z_scope.

(* nothing in [o] is a datagram handed successfully to the transport for r *)
Definition wire_ok (r : Z) (x : output) : Prop :=
  match x with Tx m _ => m_remote m <> r | TxEmpty r' _ _ => r' <> r | _ => True end.
Definition wsil (r : Z) (o : list output) : Prop := forall x, In x o -> wire_ok r x.

Lemma wsil_nil r : wsil r []. Proof. intros x []. Qed.
Lemma wsil_app r a b : wsil r a -> wsil r b -> wsil r (a ++ b).
Proof. intros A B x H. apply in_app_or in H. destruct H; auto. Qed.
Lemma wsil_cons r x o : wire_ok r x -> wsil r o -> wsil r (x :: o).
Proof. intros A B y [<-|H]; auto. Qed.
Lemma wsil_silent r o : silent r o = true -> wsil r o.
Proof. unfold silent. rewrite forallb_forall. intros H x Hx. specialize (H x Hx). destruct x; cbn in *; try exact I; lia. Qed.

Lemma wsil_map {A} (f : A -> output) r l : (forall a, wire_ok r (f a)) -> wsil r (map f l).
Proof. intros H x Hx. apply in_map_iff in Hx. destruct Hx as (a & <- & _). apply H. Qed.

Lemma tm_dispatch_error_wsil e r0 s r' : wsil r' (snd (tm_dispatch_error e r0 s)).
Proof. unfold tm_dispatch_error. cbn [snd]. apply wsil_app; apply wsil_map; intros a; exact I. Qed.
Lemma dropped_wsil q r' : wsil r' (map Dropped q).
Proof. apply wsil_map. intros a. exact I. Qed.
Lemma dispatch_error_wsil r0 s r' : wsil r' (snd (dispatch_error r0 s)).
Proof. unfold dispatch_error. pose proof (tm_dispatch_error_wsil NetworkError r0 s r') as H.
  destruct (tm_dispatch_error NetworkError r0 s) as [s1 o1]. cbn [fst snd] in *. apply wsil_app; [exact H|apply dropped_wsil]. Qed.
Lemma reset_monitor_wsil mt w s r : wsil r (snd (reset_monitor mt w s)).
Proof. unfold reset_monitor, call_monitor, stop_responder. destruct (mt =? 3); [|apply wsil_nil].
  destruct (m_sub w); [destruct (existsb _ _)| |destruct (alive _ _)]; cbn [snd]; try apply wsil_nil; intros x [<-|[]]; exact I. Qed.

(* what a piece of the step does to the exchange of the refused remote r: ends it ([b] = true), or leaves it as it is with
   nothing leaving the queue; either way no datagram for r reaches the wire *)
Definition RefusedStep (r : Z) (b : bool) (s : st) (o : list output) (s' : st) : Prop :=
  (if b then exs r s' = [] else exs r s' = exs r s /\ left r o = []) /\ wsil r o.

Lemma refused_step_refl r s : RefusedStep r false s [] s.
Proof. split; [split; reflexivity|apply wsil_nil]. Qed.
Lemma refused_step_trans r b1 b2 s o1 s1 o2 s2 : RefusedStep r b1 s o1 s1 -> RefusedStep r b2 s1 o2 s2 -> RefusedStep r (b1 || b2) s (o1 ++ o2) s2.
Proof. intros (A & W1) (B & W2). split; [|apply wsil_app; assumption]. destruct b1, b2; cbn [orb]; try exact B.
  - destruct B as (B & _). rewrite B. exact A.
  - destruct A as (A1 & A2), B as (B1 & B2). split; [congruence|rewrite left_app, A2, B2; reflexivity]. Qed.
Lemma refused_step_same r s o s' : active_exchanges s' = active_exchanges s -> left r o = [] -> wsil r o -> RefusedStep r false s o s'.
Proof. intros A B C. split; [split; [unfold exs; rewrite A; reflexivity|exact B]|exact C]. Qed.
Lemma refused_step_neutral r s o s' : active_exchanges s' = active_exchanges s -> forallb neutral o = true -> wsil r o -> RefusedStep r false s o s'.
Proof. intros A B C. apply refused_step_same; [exact A|apply (neutral_logs r o B)|exact C]. Qed.

(* the two alternatives, in full: what "discarded" and "kept" mean for the queue of r in the step s --e--> *)
Definition Discarded (l : list Z) (r : Z) (s : st) (e : event) : Prop :=
  let s' := fst (step_ev l s e) in let o := snd (step_ev l s e) in
  aget r (backlogs s') = None /\ exs r s' = [] /\ left r o = backlog_of r s ++ subm r o.
Definition Kept (l : list Z) (r : Z) (s : st) (e : event) : Prop :=
  let s' := fst (step_ev l s e) in let o := snd (step_ev l s e) in
  exs r s' = exs r s /\ left r o = [] /\ backlog_of r s' = backlog_of r s ++ subm r o /\
  (aget r (backlogs s') = None <-> aget r (backlogs s) = None).

Lemma alt_gone l r s e : Inv s -> exs r (fst (step_ev l s e)) = [] -> Discarded l r s e.
Proof. intros HI D. unfold Discarded. cbn zeta. destruct (general_step l s e HI) as (HI' & B & _).
  set (s' := fst (step_ev l s e)) in *. set (o := snd (step_ev l s e)) in *. specialize (B r).
  assert (Ha : aget r (backlogs s') = None).
  { destruct (inv_cases s' r HI') as [[_ H]|(x & q & Hx & _)]; [exact H|rewrite D in Hx; discriminate]. }
  split; [exact Ha|]. split; [exact D|].
  assert (Hb : backlog_of r s' = []) by (unfold backlog_of; rewrite Ha; reflexivity).
  rewrite Hb, app_nil_r in B. symmetry. exact B. Qed.
Lemma alt_kept l r s e : Inv s -> exs r (fst (step_ev l s e)) = exs r s -> left r (snd (step_ev l s e)) = [] -> Kept l r s e.
Proof. intros HI D1 D2. unfold Kept. cbn zeta. destruct (general_step l s e HI) as (HI' & B & _).
  set (s' := fst (step_ev l s e)) in *. set (o := snd (step_ev l s e)) in *. specialize (B r).
  split; [exact D1|]. split; [exact D2|]. split; [rewrite D2 in B; symmetry; exact B|].
  destruct (inv_cases s r HI) as [[Hc Hn]|(x & q & Hx & Hq & _)]; destruct (inv_cases s' r HI') as [[Hc' Hn']|(x' & q' & Hx' & Hq' & _)].
  - split; intros; assumption.
  - exfalso. rewrite D1, Hc in Hx'. discriminate.
  - exfalso. rewrite <- D1, Hc' in Hx. discriminate.
  - rewrite Hq, Hq'. split; discriminate. Qed.

(* WHICH alternative: decided by the event and the state before.
   [attempts s e r]: the step hands a datagram for r to the transport (first transmission of a NON or of a CON that is not held
   back, the empty ACK/RST answering a CON from r, a retransmission), or ends r's exchange (matching ACK/RST, transport error,
   final time-out). *)
Definition held (mt r : Z) (s : st) : bool := (resolve_mtype mt =? 0) && in_backlogs r s.
Definition attempts (s : st) (e : event) (r : Z) : bool :=
  match e with
  | Request _ r' mt _ | RawSend _ r' mt _ _ => (r' =? r) && negb (held mt r s)
  | RecvEmpty r' mt mid | RecvResp r' mt mid _ =>
      (r' =? r) && ((mt =? 0) || (((mt =? 2) || (mt =? 3)) && match xget r mid (active_exchanges s) with Some _ => true | None => false end))
  | TransportError r' => r' =? r
  | Fire => match min_timer (active_exchanges s) with Some x => m_remote (x_msg x) =? r | None => false end
  | Respond _ k _ _ => match find (fun v => v_k v =? k) (incoming_requests s) with
                       | Some v => (v_remote v =? r) && negb (held (if v_mtype v =? 1 then 7 else 8) r s)
                       | None => false end
  | Advance _ | Cancel _ | Serve _ _ _ _ => false
  end.
Lemma attempts_touches s e r : attempts s e r = true -> touches s e r = true.
Proof. destruct e; cbn; try discriminate; try (intros H; lia).
  - destruct (min_timer _); [auto|discriminate].
  - destruct (find _ _); [intros H; lia|discriminate]. Qed.

Section Refused.
Variable l : list Z.
Variable r : Z.
Hypothesis Href : refuses l r = true.

(* any datagram for r: the hand-over IS dispatch_error(r) *)
Lemma send_via_refused what s : RefusedStep r true s (snd (send_via_transport l what r s)) (fst (send_via_transport l what r s)).
Proof. unfold send_via_transport. rewrite Href.
  pose proof (dispatch_error_exs r s r) as A. rewrite Z.eqb_refl in A. pose proof (dispatch_error_wsil r s r) as B.
  destruct (dispatch_error r s) as [s1 o1]. cbn [fst snd] in *. split; [exact A|]. apply wsil_app; [|exact B].
  destruct what; try apply wsil_nil. destruct retr; [apply wsil_nil|]. intros x [<-|[]]. exact I. Qed.

Lemma release_refused s : exs r s = [] -> RefusedStep r true s (snd (release l r s)) (fst (release l r s)).
Proof. intros Hz. unfold release. destruct (backlog_of r s) as [|m q]; [split; [exact Hz|apply wsil_nil]|].
  destruct (send_via_refused (Tx m false) (add_exchange m (upd_bl s (aset r q (backlogs s))))) as (A & B). split; assumption. Qed.

Lemma remove_exchange_which mid mt s : Inv s ->
  RefusedStep r (match xget r mid (active_exchanges s) with Some _ => true | None => false end) s
    (snd (remove_exchange l r mid mt s)) (fst (remove_exchange l r mid mt s)).
Proof. intros HI. destruct (xget r mid (active_exchanges s)) as [x|] eqn:Ex.
  2:{ unfold remove_exchange. rewrite Ex. apply refused_step_refl. }
  destruct (remove_exchange_nf l r mid mt s x HI Ex) as (_ & q & _ & (Hz & _) & ->).
  destruct (reset_monitor_frame mt (x_msg x) (upd_ex s (xdel r mid (active_exchanges s)))) as (He & _).
  pose proof (reset_monitor_wsil mt (x_msg x) (upd_ex s (xdel r mid (active_exchanges s))) r) as Hw.
  destruct (reset_monitor _ _ _) as [s2 o2]. cbn [fst snd] in *.
  destruct (release_refused s2) as (A & B); [unfold exs; rewrite He; exact Hz|]. destruct (release l r s2) as [s3 o3]. cbn [fst snd] in *.
  split; [exact A|apply wsil_app; assumption]. Qed.

Lemma send_message_which who mt code tok maxre s : Inv s ->
  RefusedStep r (negb (held mt r s)) s (snd (send_message l who r mt code tok maxre s)) (fst (send_message l who r mt code tok maxre s)).
Proof. intros HI. unfold held, in_backlogs.
  destruct (send_message_nf l who r mt code tok maxre s HI) as [(q & Hc & Ha & ->)|(Hidle & ->)]; cbn [fst snd].
  - rewrite Hc, Ha. apply refused_step_same; [reflexivity|reflexivity|intros x [<-|[]]; exact I].
  - replace ((resolve_mtype mt =? 0) && _) with false by (destruct Hidle as [H|H]; [replace (resolve_mtype mt =? 0) with false by lia; reflexivity|rewrite H, andb_false_r; reflexivity]).
    unfold send_initially. cbn [new_msg m_remote].
    match goal with |- context [send_via_transport l ?w r ?t] => destruct (send_via_refused w t) as (A & B); destruct (send_via_transport l w r t) as [s1 o1] end.
    split; [exact A|apply wsil_cons; [exact I|exact B]]. Qed.

Lemma reply_which mt code mid tok s : RefusedStep r (mt =? 0) s (snd (reply l r mt code mid tok s)) (fst (reply l r mt code mid tok s)).
Proof. unfold reply, send_empty. destruct (code =? 0); [destruct (mt =? 0); [apply send_via_refused|apply refused_step_refl]|].
  destruct (mt =? 3) eqn:E3; [replace (mt =? 0) with false by lia; apply refused_step_refl|].
  pose proof (tm_process_response_frame r tok s) as (He & _ & Hn).
  assert (Hw : wsil r (snd (fst (tm_process_response r tok s)))) by (unfold tm_process_response; destruct (find _ _); cbn [fst snd]; [intros x [<-|[]]; exact I|apply wsil_nil]).
  destruct (tm_process_response r tok s) as [[s2 o2] ok]. cbn [fst snd] in *. pose proof (refused_step_neutral r s o2 s2 He Hn Hw) as W2.
  destruct (mt =? 0); [|exact W2]. pose proof (send_via_refused (TxEmpty r (if ok then 2 else 3) mid) s2) as W3.
  destruct (send_via_transport l _ r s2). exact (refused_step_trans r false true s o2 s2 _ _ W2 W3). Qed.

Lemma dispatch_message_which mt code mid tok s : Inv s ->
  RefusedStep r ((mt =? 0) || (((mt =? 2) || (mt =? 3)) && match xget r mid (active_exchanges s) with Some _ => true | None => false end)) s
    (snd (dispatch_message l r mt code mid tok s)) (fst (dispatch_message l r mt code mid tok s)).
Proof. intros HI. rewrite orb_comm, (dispatch_message_nf l r mt code mid tok s HI).
  assert (W1 : let first := if (mt =? 2) || (mt =? 3) then remove_exchange l r mid mt s else (s, []) in
               RefusedStep r (((mt =? 2) || (mt =? 3)) && match xget r mid (active_exchanges s) with Some _ => true | None => false end) s (snd first) (fst first))
    by (destruct ((mt =? 2) || (mt =? 3)); [apply remove_exchange_which; exact HI|apply refused_step_refl]).
  destruct (if (mt =? 2) || (mt =? 3) then _ else _) as [s1 o1]. cbn [fst snd] in W1.
  pose proof (reply_which mt code mid tok s1) as W2. destruct (reply l r mt code mid tok s1) as [s2 o2].
  exact (refused_step_trans r _ _ s o1 s1 o2 s2 W1 W2). Qed.

Lemma retransmit_refused x s : Inv s -> In x (active_exchanges s) -> m_remote (x_msg x) = r ->
  RefusedStep r true s (snd (retransmit l x s)) (fst (retransmit l x s)).
Proof. intros HI Hin Hr. destruct (retransmit_nf l x s HI Hin) as (q & _ & (Hz & _) & ->). rewrite Hr in *.
  destruct (x_counter x <? m_maxre (x_msg x)); [apply send_via_refused|]. unfold final_timeout.
  match goal with |- context [tm_dispatch_error ?e ?rr ?ss] =>
    pose proof (tm_dispatch_error_frame e rr ss) as (He & _); pose proof (tm_dispatch_error_wsil e rr ss r) as Hw;
    destruct (tm_dispatch_error e rr ss) as [s2 o2] end.
  cbn [fst snd active_exchanges upd_bl] in *. split; [unfold exs; rewrite He; exact Hz|apply wsil_app; [apply dropped_wsil|exact Hw]]. Qed.

Theorem step_which s e : Inv s -> RefusedStep r (attempts s e r) s (snd (step_ev l s e)) (fst (step_ev l s e)).
Proof. intros HI. destruct (touches s e r) eqn:Ht.
  2:{ destruct (attempts s e r) eqn:Ea; [rewrite (attempts_touches s e r Ea) in Ht; discriminate|].
      destruct (step_ev_frame l s e r HI Ht) as (A & _ & C). split; [split; [exact A|apply (silent_logs r _ C)]|apply wsil_silent; exact C]. }
  destruct e; cbn in Ht; cbn [step_ev attempts]; try discriminate; try (assert (r0 = r) by lia; subst r0; rewrite Z.eqb_refl; cbn [andb]).
  - (* Request *) unfold tm_request, next_token. cbn -[send_message Z.pow Z.modulo RefusedStep held].
    match goal with |- context [send_message l ?a ?b ?c ?d ?e ?f ?s1] => exact (send_message_which a c d e f s1 (inv_ext s s1 eq_refl eq_refl HI)) end.
  - (* RawSend *) apply send_message_which; exact HI.
  - (* RecvEmpty *) apply dispatch_message_which; exact HI.
  - (* RecvResp *) apply dispatch_message_which; exact HI.
  - (* TransportError *) cbn [C14.step]. split; [|apply dispatch_error_wsil]. rewrite dispatch_error_exs, Z.eqb_refl. reflexivity.
  - (* Fire *) unfold fire. destruct (min_timer (active_exchanges s)) as [x|] eqn:E; [|discriminate]. rewrite Ht.
    set (s0 := upd_now s (Z.max (now s) (x_due x))).
    destruct (retransmit_refused x s0 (inv_ext s s0 eq_refl eq_refl HI) (min_timer_in _ _ E) ltac:(lia)) as (A & B).
    destruct (retransmit l x s0) as [s1 o1]. split; [exact A|apply wsil_cons; [exact I|exact B]].
  - (* Serve *) cbn [C14.step]. unfold tm_process_request. cbn [fst snd]. apply refused_step_neutral; [reflexivity|apply neutral_map; reflexivity|apply wsil_map; intros a; exact I].
  - (* Respond *) unfold respond. destruct (find (fun v => v_k v =? k) (incoming_requests s)) as [v|] eqn:Ef; [|discriminate]. rewrite Ht. cbn [andb].
    replace (v_remote v) with r by lia.
    pose proof (send_message_which (Resp j k) (if v_mtype v =? 1 then 7 else 8) 69 (v_tok v) maxre s HI) as W1.
    destruct (send_message l (Resp j k) r _ 69 (v_tok v) maxre s) as [s1 o1]. cbn [fst snd] in W1.
    destruct last; [|exact W1]. destruct (alive k s1) eqn:Ea; [|exact W1].
    unfold stop_responder. rewrite Ea. cbn [fst snd]. rewrite <- (orb_false_r (negb _)). apply (refused_step_trans r _ false s o1 s1); [exact W1|].
    apply refused_step_same; [reflexivity|reflexivity|intros x [<-|[]]; exact I]. Qed.

Theorem refused_remote_step_which s e : Inv s ->
  if attempts s e r then Discarded l r s e else Kept l r s e.
Proof. intros HI. destruct (step_which s e HI) as (H & _). destruct (attempts s e r).
  - apply alt_gone; assumption.
  - destruct H as (A & B). apply alt_kept; assumption. Qed.

Theorem refused_remote_step s e : Inv s ->
  let s' := fst (step_ev l s e) in let o := snd (step_ev l s e) in
  Inv s' /\ (forall x, ~ In (Crash x) o) /\ wsil r o /\ (Discarded l r s e \/ Kept l r s e).
Proof. intros HI. cbn zeta. destruct (general_step l s e HI) as (HI' & _ & C). destruct (step_which s e HI) as (_ & Hw).
  split; [exact HI'|]. split; [exact C|]. split; [exact Hw|].
  pose proof (refused_remote_step_which s e HI) as D. destruct (attempts s e r); [left|right]; exact D. Qed.
End Refused.

(* with r refused the liveness bound is 1 *)
Lemma progress_attempts s e r : progress s e r = true -> attempts s e r = true.
Proof. unfold progress. destruct e; cbn; try discriminate; try (destruct (xget _ _ _)); try (destruct (min_timer _)); intros H; try lia; try discriminate. Qed.

Theorem refused_progress_discards l r s e : refuses l r = true -> Inv s -> progress s e r = true ->
  Discarded l r s e /\ forall m, In m (backlog_of r s) -> In m (left r (snd (step_ev l s e))).
Proof. intros Href HI Hp. pose proof (refused_remote_step_which l r Href s e HI) as H. rewrite (progress_attempts s e r Hp) in H.
  split; [exact H|]. destruct H as (_ & _ & H). cbn zeta in H. intros m Hm. rewrite H. apply in_or_app. left. exact Hm. Qed.

(* non-vacuity: remote 0 busy with one message queued, then refused.  A further confirmable request is appended (second
   alternative, queue non-empty); the retransmission timer discards the queue (first alternative, queue non-empty). *)
Definition s_busy : st := fst (fst (rrun (init 10 100 [], []) [Ev (Request 1 0 0 4); Ev (Request 2 0 0 4)])).
Example refused_remote_step_nontrivial :
  refuses [0] 0 = true /\ map m_sub (backlog_of 0 s_busy) = [Req 2] /\
  (* retransmission timer: attempt, queue discarded *)
  attempts s_busy Fire 0 = true /\ progress s_busy Fire 0 = true /\
  left 0 (snd (step_ev [0] s_busy Fire)) = backlog_of 0 s_busy /\ aget 0 (backlogs (fst (step_ev [0] s_busy Fire))) = None /\
  exs 0 (fst (step_ev [0] s_busy Fire)) = [] /\
  (* a further CON: no attempt, appended *)
  attempts s_busy (Request 3 0 0 4) 0 = false /\
  map m_sub (backlog_of 0 (fst (step_ev [0] s_busy (Request 3 0 0 4)))) = [Req 2; Req 3] /\
  exs 0 (fst (step_ev [0] s_busy (Request 3 0 0 4))) = exs 0 s_busy /\
  (* a NON: attempt, queue (and the NON) discarded *)
  attempts s_busy (Request 4 0 1 4) 0 = true /\
  map m_sub (left 0 (snd (step_ev [0] s_busy (Request 4 0 1 4)))) = [Req 2] /\
  aget 0 (backlogs (fst (step_ev [0] s_busy (Request 4 0 1 4)))) = None /\
  (* a CON response from r that needs an (empty) reply: attempt, discarded; a NON response: kept *)
  attempts s_busy (RecvResp 0 0 777 5) 0 = true /\ map m_sub (left 0 (snd (step_ev [0] s_busy (RecvResp 0 0 777 5)))) = [Req 2] /\
  attempts s_busy (RecvResp 0 1 777 5) 0 = false /\ map m_sub (backlog_of 0 (fst (step_ev [0] s_busy (RecvResp 0 1 777 5)))) = [Req 2] /\
  (* an event about another remote: kept *)
  attempts s_busy (Request 5 1 0 4) 0 = false /\ map m_sub (backlog_of 0 (fst (step_ev [0] s_busy (Request 5 1 0 4)))) = [Req 2].
Proof. vm_compute. repeat split. Qed.
