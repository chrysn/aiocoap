(* C15 — totality: no exception other than UnparsableMessage leaves the parser, none leaves data_received. *)
From Verif Require Import Lib.Py Lib.Tactics Lib.PyLemmas Gen.options_ext Gen.tcp_framing Model.C15 Proofs.C15.
Open Scope Z_scope.

(* "a result satisfying P, or UnparsableMessage": the shape of every totality statement below; it goes through [bind] *)
Definition parses {A} (r : M A) (P : A -> Prop) : Prop :=
  match r with Ok a => P a | Raise e => e = UnparsableMessage end.
Lemma parses_bind {A B} (m : M A) (f : A -> M B) (P : A -> Prop) (Q : B -> Prop) :
  parses m P -> (forall a, P a -> parses (f a) Q) -> parses (bind m f) Q.
Proof. destruct m; cbn; [auto|intros -> _; reflexivity]. Qed.
Lemma parses_elim {A} (r : M A) (P : A -> Prop) : parses r P -> (exists a, r = Ok a /\ P a) \/ r = Raise UnparsableMessage.
Proof. destruct r; cbn; [eauto|intros ->; auto]. Qed.

Lemma read_ext_total : forall nib raw, bytes_ok raw = true -> 0 <= nib ->
  parses (read_extended_field_value nib raw)
    (fun vr => 0 <= fst vr <= 65804 /\ bytes_ok (snd vr) = true /\ (length (snd vr) <= length raw)%nat).
Proof.
  intros nib raw Hok Hn. rewrite read_extended_field_value_eq.
  destruct ((nib >=? 0) && (nib <? 13)) eqn:H1. { cbn. repeat split; auto; lia. }
  destruct (nib =? 13).
  { destruct raw as [|e0 r]; [reflexivity|].
    rewrite bytes_ok_cons in Hok. apply andb_prop in Hok as [He Hr]. unfold byte_ok in He. cbn. repeat split; auto; lia. }
  destruct (nib =? 14); [|reflexivity]. destruct raw as [|e0 [|e1 r]]; [reflexivity..|].
  rewrite !bytes_ok_cons in Hok. apply andb_prop in Hok as [He0 Hok]. apply andb_prop in Hok as [He1 Hr].
  unfold byte_ok in *. cbn. repeat split; auto; lia.
Qed.

Lemma option_value_total n raw : parses (option_value n raw) (fun _ => True).
Proof. unfold option_value. destruct (format_of n); [destruct (utf8_valid raw)| |]; cbn; auto. Qed.

Lemma options_decode_loop_parses : forall fuel num raw, bytes_ok raw = true -> 0 <= num -> (length raw < fuel)%nat ->
  parses (options_decode_loop fuel num raw) (fun osp => Forall (fun o => 0 <= fst o <= num + 65804 * blen raw) (fst osp)).
Proof.
  induction fuel as [|k IH]; intros num raw Hok Hnum Hf; [lia|].
  destruct raw as [|b0 rest]; [constructor|]. rewrite options_decode_loop_cons.
  destruct (b0 =? 255); [constructor|].
  rewrite bytes_ok_cons in Hok. apply andb_prop in Hok as [Hb0 Hrest]. unfold byte_ok in Hb0.
  assert (Hd0 : 0 <= Z.shiftr (Z.land b0 240) 4) by (apply Z.shiftr_nonneg, Z.land_nonneg; lia).
  assert (Hl0 : 0 <= Z.land b0 15) by (apply Z.land_nonneg; lia).
  eapply parses_bind; [exact (read_ext_total _ rest Hrest Hd0)|]. intros [d r1] (Hd & Hr1 & L1). cbn [fst snd] in *.
  eapply parses_bind; [exact (read_ext_total _ r1 Hr1 Hl0)|]. intros [l r2] (Hl & Hr2 & L2). cbn [fst snd] in *.
  destruct (blen r2 <? l) eqn:Hlen; [reflexivity|].
  eapply parses_bind; [apply option_value_total|]. intros v _.
  assert (Hsk : (length (bfrom r2 l) <= length r2)%nat) by (unfold bfrom; rewrite skipn_length; lia).
  eapply parses_bind; [exact (IH (num + d) (bfrom r2 l) (bytes_ok_skipn _ _ Hr2) ltac:(lia) ltac:(cbn [length] in Hf; lia))|].
  intros [os p] Hos. cbn [fst] in Hos. cbn [parses fst].
  assert (Hb : blen (bfrom r2 l) <= blen rest) by (unfold blen; lia).
  rewrite blen_cons. pose proof (blen_nonneg (bfrom r2 l)). pose proof (blen_nonneg rest).
  constructor; [cbn [fst]; lia|]. eapply Forall_impl; [|exact Hos]. intros o Ho. cbv beta in *. lia.
Qed.

Lemma decode_message_total f a t l : bytes_ok f = true -> header f = Some (a, t, l) -> a + t + l = blen f ->
  (exists m, decode_message f = Ok m /\ blen (token m) <= 8 /\
     Forall (fun o => 0 <= fst o <= 65804 * blen f) (opts m)) \/
  decode_message f = Raise UnparsableMessage.
Proof.
  intros Hok Hh Hlen. destruct (header_bounds f a t l Hok Hh) as (Ha & Ht & Hl & _).
  apply (parses_elim _ (fun m => blen (token m) <= 8 /\ Forall (fun o => 0 <= fst o <= 65804 * blen f) (opts m))).
  unfold decode_message. rewrite extract_message_size_spec, Hh. cbn [bind].
  destruct (t >? 8) eqn:Ht8; [reflexivity|]. rewrite bget_ok by lia. cbn [bind].
  set (raw := bfrom f (a + t)).
  assert (Hrawok : bytes_ok raw = true) by (apply bytes_ok_skipn; exact Hok).
  eapply parses_bind; [exact (options_decode_loop_parses (S (length raw)) 0 raw Hrawok ltac:(lia) ltac:(lia))|].
  intros [os p] Hos. cbn [parses fst token opts] in *. split.
  - unfold bslice, blen. rewrite skipn_length, firstn_length. lia.
  - eapply Forall_impl; [|exact Hos]. intros o Ho. cbv beta in *.
    assert (blen raw <= blen f) by (unfold raw, bfrom, blen; rewrite skipn_length; lia).
    pose proof (blen_nonneg raw). lia.
Qed.

Lemma abort_none_esc c t : serialize (abort_msg t None) = Ok (abort_frame t) -> esc (snd (fst (abort c t None))) = false.
Proof. intros H. rewrite (abort_none c t H). reflexivity. Qed.

Lemma process_signaling_no_esc c m : blen (token m) <= 8 -> Forall (fun o => 0 <= fst o < 2 ^ 64) (opts m) ->
  esc (snd (fst (process_signaling c m))) = false.
Proof.
  intros Ht Hall. unfold process_signaling. destruct (code m =? CSM).
  { destruct (process_csm_options_eq (opts m)
      match remote_settings c with Some s => s | None => {| max_message_size := None; block_wise_transfer := false |} end) as [st1 E].
    rewrite E. destruct (find _ (opts m)) as [o|] eqn:F; [|reflexivity]. apply find_some in F as [Hin _].
    rewrite Forall_forall in Hall. destruct (serialize_abort_bad (fst o) (Hall o Hin)) as [b Hb].
    unfold abort. rewrite Hb. reflexivity. }
  destruct ((code m =? PING) || (code m =? PONG) || (code m =? RELEASE) || (code m =? ABORT)).
  { destruct (has_critical (opts m)).
    { rewrite abort_none by apply serialize_abort_texts. reflexivity. }
    destruct (code m =? PING).
    { unfold send_message. rewrite serialize_pong by exact Ht. reflexivity. }
    destruct (code m =? PONG); [reflexivity|]. destruct (code m =? RELEASE); reflexivity. }
  rewrite abort_none by apply serialize_abort_texts. reflexivity.
Qed.

Lemma handle_message_no_esc c m : blen (token m) <= 8 -> Forall (fun o => 0 <= fst o < 2 ^ 64) (opts m) ->
  esc (snd (fst (handle_message c m))) = false.
Proof.
  intros Ht Hall. unfold handle_message. destruct (is_signalling (code m)).
  { pose proof (process_signaling_no_esc c m Ht Hall) as H.
    destruct (process_signaling c m) as [[c1 o1] res]. cbn [fst snd] in *.
    destruct res; cbn [fst snd]; [exact H| |exact H]. rewrite esc_app, H. reflexivity. }
  destruct (remote_settings c).
  - unfold dispatch_incoming. destruct (code m =? 0); [reflexivity|]. destruct (is_response (code m)); reflexivity.
  - rewrite abort_none by apply serialize_abort_texts. reflexivity.
Qed.

Lemma frame_step_no_esc c f r : bytes_ok (spool c) = true -> view_of (my_max_message_size c) (spool c) = VFrame f r ->
  my_max_message_size c <= 2 ^ 40 -> esc (snd (fst (frame_step c f r))) = false.
Proof.
  intros Hok V Hmax. destruct (view_frame_facts _ _ _ _ Hok V) as (_ & _ & Hfok & _ & a & t & l & Hh & Hfl & Hfm).
  unfold frame_step. destruct (decode_message_total f a t l Hfok Hh Hfl) as [(m & E & Htok & Hopts)|E]; rewrite E.
  2:{ unfold decode_failed. rewrite abort_none by apply serialize_abort_texts. reflexivity. }
  apply handle_message_no_esc; [exact Htok|].
  eapply Forall_impl; [|exact Hopts]. intros o Ho. cbv beta in *.
  change (2 ^ 40) with 1099511627776 in Hmax. change (2 ^ 64) with 18446744073709551616. lia.
Qed.

Lemma loop_no_esc : forall c, bytes_ok (spool c) = true -> my_max_message_size c <= 2 ^ 40 -> esc (snd (fst (loop' c))) = false.
Proof.
  apply (loop'_ind (fun c r => my_max_message_size c <= 2 ^ 40 -> esc (snd (fst r)) = false)).
  - reflexivity.
  - intros c _ _ _. rewrite abort_none by apply serialize_abort_texts. reflexivity.
  - intros c f r c1 o1 Hok V FS Hmax. pose proof (frame_step_no_esc c f r Hok V Hmax) as F. rewrite FS in F. exact F.
  - intros c f r c1 o1 Hok V FS _ Hm IH Hmax. pose proof (frame_step_no_esc c f r Hok V Hmax) as F. rewrite FS in F.
    rewrite Hm in IH. specialize (IH Hmax).
    destruct (loop' c1) as [[c2 o2] k]. cbn [fst snd] in *. rewrite esc_app, F, IH. reflexivity.
Qed.
