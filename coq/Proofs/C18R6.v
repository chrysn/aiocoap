(* C18 — Context.shutdown over a transport that does not finish closing ([cstep]/[crun]): at the call everything is failed as with a
   prompt transport; afterwards silence, at most one return, and no waiting once the clock has reached call time + SHUTDOWN_TIMEOUT
   (that the clock gets there is not stated). *)
From Verif Require Import Lib.Py Lib.PyLemmas Lib.Tactics Model.C18 Proofs.C18 Proofs.C18Inv Proofs.C18Req.
Open Scope Z_scope.

Definition count_done (l : list output) : nat := length (filter is_done l).
Definition waiting (c : cst) : nat := match c_wait c with Some _ => 1%nat | None => 0%nat end.
Definition quiet_or_done (o : output) : bool := quiet o || is_done o.

Lemma count_done_app a b : count_done (a ++ b) = (count_done a + count_done b)%nat.
Proof. unfold count_done. rewrite filter_app, app_length. reflexivity. Qed.
Lemma quiet_not_done o : quiet o = true -> is_done o = false.
Proof. destruct o; cbn; try discriminate; auto. Qed.
Lemma count_done_quiet l : forallb quiet l = true -> count_done l = 0%nat.
Proof.
  unfold count_done. induction l as [|o l IH]; cbn; [reflexivity|]. intro H. apply andb_true_iff in H. destruct H as [Q H].
  rewrite (quiet_not_done o Q). apply IH. exact H.
Qed.

Lemma shutdown_outcome_not_done o : forallb (fun x => negb (is_done x)) (shutdown_outcome o) = true.
Proof. unfold shutdown_outcome. destruct (o_first o); [reflexivity|]. destruct (o_observe o); reflexivity. Qed.

Lemma hung_shutdown_call s xs : exchanges (mm s) = Some xs -> timers_owned (mm s) ->
  cstep {| c_base := s; c_wait := None |} (CShutdown false) =
    ({| c_base := fst (shutdown s); c_wait := Some (now (mm s) + SHUTDOWN_TIMEOUT) |},
     map (fun i => OHCancel (i_h i)) (ilist (tm s)) ++ flat_map shutdown_outcome (olist (tm s))).
Proof.
  intros E Own. pose proof (shutdown_step s xs E Own) as (_ & O & _). cbn [cstep c_base c_wait].
  destruct (shutdown s) as [s' out]. cbn [fst snd] in *. subst out.
  assert (D : existsb is_done (map (fun i => OHCancel (i_h i)) (ilist (tm s)) ++ flat_map shutdown_outcome (olist (tm s)) ++ [OShutdownDone]) = true).
  { rewrite !existsb_app. cbn. rewrite !orb_true_r. reflexivity. }
  rewrite D. cbn [orb negb]. f_equal.
  rewrite !filter_app. cbn [filter is_done negb]. rewrite app_nil_r. f_equal.
  - apply filter_all. intros x I. apply in_map_iff in I. destruct I as (i & <- & _). reflexivity.
  - apply filter_all. intros x I. apply in_flat_map in I. destruct I as (o & _ & I).
    pose proof (shutdown_outcome_not_done o) as H. rewrite forallb_forall in H. exact (H x I).
Qed.

(* [dl]: the deadline of the time-out *)
Definition CW (c : cst) (dl : Z) : Prop :=
  Down (c_base c) /\ G (mm (c_base c)) /\ (c_wait c = None \/ (c_wait c = Some dl /\ now (mm (c_base c)) < dl)).

(* the time-out timer alone: it ends the wait at most once, and only from its deadline on *)
Lemma release_spec c dl : c_wait c = None \/ c_wait c = Some dl ->
  c_base (fst (release c)) = c_base c /\ forallb quiet_or_done (snd (release c)) = true /\
  (count_done (snd (release c)) + waiting (fst (release c)) = waiting c)%nat /\
  (c_wait (fst (release c)) = None \/ (c_wait (fst (release c)) = Some dl /\ now (mm (c_base c)) < dl)).
Proof.
  unfold release, waiting. intros [W|W]; rewrite W.
  - cbn. rewrite W. auto.
  - destruct (dl <=? now (mm (c_base c))) eqn:R; cbn; rewrite ?W; repeat split; auto. right. split; [reflexivity|lia].
Qed.

Lemma cstep_waiting c dl e : CW c dl -> in_scope e = true ->
  CW (fst (cstep c (CEvent e))) dl /\ forallb quiet_or_done (snd (cstep c (CEvent e))) = true /\
  (count_done (snd (cstep c (CEvent e))) + waiting (fst (cstep c (CEvent e))) = waiting c)%nat.
Proof.
  intros (D & Gs & W) Sc. cbn [cstep].
  pose proof (step_down (c_base c) e D Gs Sc) as (Q & D' & G'). destruct (step (c_base c) e) as [s' out]. cbn [fst snd] in *.
  assert (Qd : forallb quiet_or_done out = true) by (apply (forallb_impl quiet); [intros x H; unfold quiet_or_done; rewrite H; reflexivity|exact Q]).
  destruct (release_spec {| c_base := s'; c_wait := c_wait c |} dl) as (B & Qr & C & W'); [cbn; tauto|].
  destruct (release _) as [c' o2]. cbn [fst snd c_base c_wait] in *.
  split; [unfold CW; rewrite B; auto|]. split; [rewrite forallb_app, Qd; exact Qr|].
  rewrite count_done_app, (count_done_quiet out Q). exact C.
Qed.

Lemma crun_waiting : forall es c dl, CW c dl -> forallb in_scope es = true ->
  let r := crun c (map CEvent es) in
  CW (fst r) dl /\ forallb (forallb quiet_or_done) (snd r) = true /\ (count_done (concat (snd r)) + waiting (fst r) = waiting c)%nat.
Proof.
  induction es as [|e es IH]; intros c dl H Sc; cbn [map crun]; [cbn; auto|].
  cbn [forallb] in Sc. apply andb_true_iff in Sc. destruct Sc as [S1 S2].
  pose proof (cstep_waiting c dl e H S1) as (H1 & Q1 & C1). destruct (cstep c (CEvent e)) as [c1 o]. cbn [fst snd] in *.
  specialize (IH c1 dl H1 S2). cbv zeta in IH. destruct IH as (H2 & Q2 & C2). destruct (crun c1 (map CEvent es)) as [c2 os]. cbn [fst snd concat forallb] in *.
  split; [exact H2|]. split; [rewrite Q1, Q2; reflexivity|]. rewrite count_done_app. lia.
Qed.

Theorem shutdown_times_out : forall u m t before after,
  forallb not_shutdown before = true -> forallb in_scope after = true ->
  let s := fst (run (init u m t) before) in
  let r1 := cstep {| c_base := s; c_wait := None |} (CShutdown false) in
  let r2 := crun (fst r1) (map CEvent after) in
  (* at the call: handlers cancelled, requests failed — only the return is missing *)
  snd r1 = map (fun i => OHCancel (i_h i)) (ilist (tm s)) ++ flat_map shutdown_outcome (olist (tm s)) /\
  (* afterwards the context is silent, Context.shutdown returns at most once ... *)
  forallb (forallb quiet_or_done) (snd r2) = true /\
  (count_done (concat (snd r2)) + waiting (fst r2) = 1)%nat /\
  (* ... and it is no longer waiting once the clock has reached call time + SHUTDOWN_TIMEOUT *)
  (now (mm s) + SHUTDOWN_TIMEOUT <= now (mm (c_base (fst r2))) -> c_wait (fst r2) = None /\ count_done (concat (snd r2)) = 1%nat).
Proof.
  intros u m t before after NS Sc s r1 r2.
  destruct (reachable_owned before u m t NS) as (Own & xs & E). fold s in Own, E.
  pose proof (hung_shutdown_call s xs E Own) as C. fold r1 in C.
  pose proof (shutdown_step s xs E Own) as (D & _).
  assert (Gs' : G (mm (fst (shutdown s)))) by (apply (G_step s Shutdown); apply reachable_G).
  assert (H0 : CW (fst r1) (now (mm s) + SHUTDOWN_TIMEOUT)).
  { rewrite C. split; [exact D|split; [exact Gs'|right; split; [reflexivity|]]]. cbn [c_base].
    unfold shutdown. rewrite (mm_shutdown_spec (mm s) xs E Own).
    destruct (tm_shutdown_incoming (tm s)) as [tm1 o1]. destruct (tm_shutdown_outgoing (now (mm s)) tm1) as [tm2 o2].
    cbn. unfold SHUTDOWN_TIMEOUT. lia. }
  pose proof (crun_waiting after (fst r1) _ H0 Sc) as (H2 & Q2 & C2). fold r2 in H2, Q2, C2.
  assert (W1 : waiting (fst r1) = 1%nat) by (rewrite C; reflexivity). rewrite W1 in C2.
  split; [rewrite C; reflexivity|]. split; [exact Q2|]. split; [exact C2|].
  intro T. destruct H2 as (_ & _ & [W|[W Lt]]).
  - split; [exact W|]. unfold waiting in C2. rewrite W in C2. lia.
  - exfalso. lia.
Qed.

(* with a hanging transport, too, every request ever submitted is settled at the call (or is still in its remote lookup) *)
Theorem hung_shutdown_settles_requests : forall u m t before after, wf_history t before after ->
  let s := fst (run (init u m t) before) in
  let outs := concat (snd (run (init u m t) before)) in
  let r1 := cstep {| c_base := s; c_wait := None |} (CShutdown false) in
  forallb lib_outcome (snd r1) = true /\
  forall q ob, In (q, ob) (reqs_of before) ->
     (exists o, In o (outs ++ snd r1) /\ settles ob q o = true) \/
     (exists x, In x (resolving (tm (c_base (fst r1)))) /\ rlabel x = q /\ snd x = ob).
Proof.
  intros u m t before after WF s outs r1.
  pose proof (shutdown_at_any_moment u m t before after WF) as (O & L & S & _). fold s in O, L, S. fold outs in S.
  destruct WF as (NS & _).
  destruct (reachable_owned before u m t NS) as (Own & xs & E). fold s in Own, E.
  pose proof (hung_shutdown_call s xs E Own) as C. fold r1 in C. rewrite C. cbn [fst snd c_base].
  split.
  - rewrite O, app_assoc, forallb_app in L. apply andb_true_iff in L. exact (proj1 L).
  - (* the outputs of the call are those of a prompt shutdown without OShutdownDone, which settles nothing *)
    intros q ob I. destruct (S q ob I) as [(o & Io & So)|X]; [|right; exact X]. left. exists o. split; [|exact So].
    apply in_app_or in Io. apply in_or_app. destruct Io as [Io|Io]; [left; exact Io|right].
    rewrite O, app_assoc in Io. apply in_app_or in Io. destruct Io as [Io|[<-|[]]]; [exact Io|discriminate So].
Qed.
