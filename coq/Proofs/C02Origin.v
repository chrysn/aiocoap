(* C02 — proofs: where the outputs of a step come from. Completions carry library errors only; a response is handed to the
   application only by the datagram that carries it, and only to the request its (token, source) is matched to; what a
   response that matches / does not match is answered with. *)
From Verif Require Import Lib.Py Lib.PyLemmas Lib.Tactics Gen.tokenmanager_next_token Model.C02 Proofs.C02.
Open Scope Z_scope.

(* outputs not produced by a Pipe event *)
Definition non_pipe (o : output) : Prop :=
  match o with Send _ _ _ _ _ _ | Token _ _ | Cancelled _ | Raised _ | LoopExc _ | Crash _ => True | _ => False end.

Section Origin.
  Variable A : pev -> Prop.       (* the Pipe events the step under consideration may inject *)
  Definition orig (o : output) : Prop := non_pipe o \/ exists q ev, A ev /\ out_ok q ev o.

  Lemma orig_ml : forall o, Forall ml_out o -> Forall orig o.
  Proof. intros o H. eapply Forall_impl; [|exact H]. intros [] Hx; cbn in Hx; try contradiction; left; exact I. Qed.
  Lemma orig_add_event : forall s q ev s' o, A ev -> _add_event s q ev = (s', o) -> Forall orig o.
  Proof. intros s q ev s' o Ha H. apply add_event_out_ok in H. eapply Forall_impl; [|exact H]. intros x Hx. right. eauto. Qed.
  Lemma prim_orig : forall s s' o, prim (fun _ => A) s s' o -> Forall orig o.
  Proof.
    intros s s' o [s0 s1 o0 _ Ho|s0 s1 e _|s0 q ev s1 o0 Ha H|s0 og k _].
    - apply orig_ml. exact Ho.
    - repeat constructor.
    - eapply orig_add_event; eassumption.
    - constructor.
  Qed.
End Origin.

Lemma step_origin : forall s e s' o, step s e = (s', o) -> Forall (orig (pev_allowed e)) o.
Proof.
  intros s e. apply (step_closed e (emits (orig (pev_allowed e)))); [apply emits_closed|apply prim_orig|].
  intros s0 s1 o0 []; unfold emits; repeat constructor.
Qed.

(* classes derived from aiocoap.error.Error that the client request path can fail with *)
Definition lib_error (e : exn) : bool :=
  match e with LibraryShutdown | NetworkError | ConRetransmitsExceeded | MessageError | ConToMulticast => true | _ => false end.
Definition event_wf (e : event) : Prop := match e with Err _ (ENet x) => lib_error x = true | _ => True end.

Lemma completion_kinds : forall s e s' o x, step s e = (s', o) -> event_wf e -> In x o ->
  match x with
  | SetException q err => lib_error err = true
  | SetResult q rid tok from => exists mcl w, e = Recv from mcl w /\ rid = w_rid w /\ tok = w_token w
  | Notify q rid tok from => exists mcl w, e = Recv from mcl w /\ rid = w_rid w /\ tok = w_token w
  | _ => True
  end.
Proof.
  intros s e s' o x H Hwf Hin. apply step_origin in H. rewrite Forall_forall in H. specialize (H x Hin).
  destruct H as [H|(q & ev & Ha & Hok)]; destruct x; cbn in *; try contradiction; try exact I.
  - destruct Hok as [_ (w & l & -> & -> & ->)]. destruct e; cbn in Ha; try contradiction;
      repeat (destruct Ha as [Ha|Ha]; try discriminate); try discriminate.
    destruct Ha as [f Ha]. inversion Ha. subst. eauto.
  - destruct Hok as [_ ->]. destruct e; cbn in Ha; try contradiction;
      repeat (destruct Ha as [Ha|Ha]; try (inversion Ha; reflexivity)); try (inversion Ha; reflexivity).
    + destruct Ha as [f Ha]. discriminate.
    + inversion Ha. destruct k; cbn in *; [reflexivity|exact Hwf].
  - destruct Hok as [_ (w & l & -> & -> & ->)]. destruct e; cbn in Ha; try contradiction;
      repeat (destruct Ha as [Ha|Ha]; try discriminate); try discriminate.
    destruct Ha as [f Ha]. inversion Ha. subst. eauto.
Qed.

(* the message layer only removes table entries *)
Definition shrinks (s s' : st) : Prop :=
  match outgoing s, outgoing s' with
  | Some og, Some og' => forall k, alookup key_eqb k og' = alookup key_eqb k og \/ alookup key_eqb k og' = None
  | None, None => True
  | _, _ => False
  end.
Lemma shrinks_eq : forall s s', outgoing s' = outgoing s -> shrinks s s'.
Proof. intros s s' H. unfold shrinks. rewrite H. destruct (outgoing s); [left; reflexivity|exact I]. Qed.
Lemma shrinks_trans : forall s s1 s2, shrinks s s1 -> shrinks s1 s2 -> shrinks s s2.
Proof.
  intros s s1 s2 H1 H2. unfold shrinks in *. destruct (outgoing s), (outgoing s1), (outgoing s2); try contradiction; try exact I.
  intros k. destruct (H2 k) as [E|E]; [rewrite E; apply H1|right; exact E].
Qed.
Lemma alookup_fold_aremove : forall ks (og : list (key * Z)) k,
  alookup key_eqb k (fold_left (fun l k => aremove key_eqb k l) ks og) = alookup key_eqb k og \/
  alookup key_eqb k (fold_left (fun l k => aremove key_eqb k l) ks og) = None.
Proof.
  induction ks as [|k0 r IH]; intros og k; cbn [fold_left]; [left; reflexivity|].
  destruct (IH (aremove key_eqb k0 og) k) as [E|E]; [|right; exact E].
  rewrite E, alookup_aremove by exact key_eqb_spec. destruct (key_eqb k k0); [right|left]; reflexivity.
Qed.
Lemma add_event_shrinks : forall s q ev s' o, _add_event s q ev = (s', o) -> shrinks s s'.
Proof.
  intros s q ev s' o H. unfold _add_event in H. destruct (get_req s q); [|invpairs; apply shrinks_eq; reflexivity].
  destruct (pipe_add_event q c ev) as [[c' o'] ks]. invpairs. unfold shrinks. rewrite pop_keys_outgoing.
  cbn [outgoing upd_req set_reqs]. destruct (outgoing s); [|exact I]. intros k. apply alookup_fold_aremove.
Qed.
Lemma acts_shrinks : forall A s s' o, acts (prim A) s s' o -> shrinks s s'.
Proof.
  intros A. apply (acts_closed _ (fun s s' _ => shrinks s s')).
  - split; [intros; apply shrinks_eq; reflexivity|intros; eapply shrinks_trans; eassumption].
  - intros s s' o [s0 s1 o0 (F & _) _|s0 s1 e (F & _)|s0 q ev s1 o0 _ H|s0 og k Hog].
    + apply shrinks_eq. exact F.
    + apply shrinks_eq. exact F.
    + eapply add_event_shrinks. exact H.
    + unfold shrinks. cbn [outgoing set_outgoing]. rewrite Hog. intros k0. rewrite alookup_aremove by exact key_eqb_spec.
      destruct (key_eqb k0 k); [right|left]; reflexivity.
Qed.
Lemma remove_exchange_shrinks : forall s r w s' o x, _remove_exchange s r w = (s', o, x) -> shrinks s s'.
Proof. intros s r w s' o x H. eapply (acts_shrinks (fun _ _ => True)), remove_exchange_acts; [| |exact H]; intros; exact I. Qed.
Lemma shrinks_some : forall s s', shrinks s s' -> outgoing s <> None -> outgoing s' <> None.
Proof. intros s s' H Hs. unfold shrinks in H. destruct (outgoing s); [|contradiction]. destruct (outgoing s'); [discriminate|contradiction]. Qed.
Lemma shrinks_unmatched : forall s s' og tok r, shrinks s s' -> outgoing s = Some og -> matching og tok r = None ->
  exists og', outgoing s' = Some og' /\ matching og' tok r = None.
Proof.
  intros s s' og tok r H Hog M. unfold shrinks in H. rewrite Hog in H. destruct (outgoing s') as [og'|]; [|contradiction].
  exists og'. split; [reflexivity|]. unfold matching in *.
  destruct (alookup key_eqb (tok, Some r) og) eqn:L1; [discriminate|].
  destruct (H (tok, Some r)) as [E|E]; rewrite E, ?L1; destruct (H (tok, None)) as [E2|E2]; rewrite E2; try exact M; reflexivity.
Qed.

(* while the transport accepts datagrams for r, sending is just an output *)
Definition ml_only (s s' : st) (o : list output) : Prop := tl_same s s' /\ refusing s' = refusing s /\ Forall ml_out o.
Lemma send_initially_frame : forall s r w m s' o, refuses s r = false -> _send_initially s r w m = (s', o) -> ml_only s s' o.
Proof.
  intros s r w m s' o Hr H. unfold _send_initially, _send_via_transport in H. fold (before_send s r w m) in H.
  destruct (before_send_frame s r w m) as [F1 F2]. unfold refuses in *. rewrite F2, Hr in H. invpairs.
  repeat split; try apply F1; [exact F2|repeat constructor].
Qed.
Lemma continue_loop_frame : forall r fuel s s' o x, refuses s r = false -> _continue_backlog_loop fuel s r = (s', o, x) -> ml_only s s' o.
Proof.
  intros r. induction fuel as [|f IH]; intros s s' o x Hr H; cbn [_continue_backlog_loop] in H; [invpairs; repeat split; constructor|].
  destruct (exchanges s); [|invpairs; repeat split; constructor].
  destruct (alookup Z.eqb r (backlogs s)) as [bl|]; [|invpairs; repeat split; constructor].
  destruct (has_exchange r l); [invpairs; repeat split; constructor|].
  destruct bl as [|[w m] rest]; [invpairs; repeat split; constructor|].
  destruct (_send_initially _ r w (Some m)) as [s1 o1] eqn:S. apply send_initially_frame in S; [|exact Hr].
  destruct S as (S1 & S2 & S3). cbn in S2.
  destruct (_continue_backlog_loop f s1 r) as [[s2 o2] x2] eqn:L. apply IH in L; [|unfold refuses in *; rewrite S2; exact Hr].
  destruct L as (L1 & L2 & L3). invpairs.
  split; [eapply tl_same_trans; [exact S1|exact L1]|]. split; [congruence|apply Forall_app; split; assumption].
Qed.
(* an incoming ACK never touches the request table (while the transport accepts datagrams for r) *)
Lemma remove_exchange_ack : forall s r w s' o x, refuses s r = false -> w_mtype w <> RST -> _remove_exchange s r w = (s', o, x) -> ml_only s s' o.
Proof.
  intros s r w s' o x Hr Hm H. unfold _remove_exchange in H.
  destruct (exchanges s); [|invpairs; repeat split; constructor].
  destruct (alookup rm_eqb (r, w_mid w) l); [|invpairs; repeat split; constructor].
  replace (w_mtype w =? RST) with false in H by (symmetry; apply Z.eqb_neq; exact Hm).
  destruct (_continue_backlog _ r) as [[s3 o3] x3] eqn:C. invpairs.
  unfold _continue_backlog in C. cbn [backlogs set_exchanges] in C.
  destruct (alookup Z.eqb r (backlogs s)); [|invpairs; repeat split; repeat constructor].
  apply continue_loop_frame in C; [exact C|exact Hr].
Qed.

Definition pr_final (s : st) (q : Z) (w : wire) : bool :=
  negb ((match get_req s q with Some c => cq_observe c | None => false end) && match w_observe w with Some _ => true | None => false end).
Definition pr_key (og : list (key * Z)) (tok : token) (r : remote) : key :=
  if amem key_eqb (tok, Some r) og then (tok, Some r) else (tok, None).
Definition pr_state (s : st) (og : list (key * Z)) (q : Z) (r : remote) (w : wire) : st :=
  if pr_final s q w then set_outgoing s (Some (aremove key_eqb (pr_key og (w_token w) r) og)) else s.

Lemma process_response_spec : forall s r w og, outgoing s = Some og ->
  process_response s r w =
  match matching og (w_token w) r with
  | None => (false, s, [])
  | Some q => (true, fst (add_response (pr_state s og q r w) q w r (pr_final s q w)),
                     snd (add_response (pr_state s og q r w) q w r (pr_final s q w)))
  end.
Proof.
  intros s r w og Hog. unfold matching, process_response, pr_state, pr_final, pr_key. rewrite Hog. unfold amem.
  destruct (alookup key_eqb (w_token w, Some r) og) as [q|] eqn:L1.
  - rewrite L1. destruct (add_response _ q w r _) eqn:A. reflexivity.
  - destruct (alookup key_eqb (w_token w, None) og) as [q|] eqn:L2; [|reflexivity].
    destruct (add_response _ q w r _) eqn:A. reflexivity.
Qed.

Lemma dm_pre_shrinks : forall s r w, shrinks s (fst (fst (dm_pre s r w))).
Proof.
  intros. unfold dm_pre. destruct ((w_mtype w =? ACK) || (w_mtype w =? RST)); [|apply shrinks_eq; reflexivity].
  destruct (_remove_exchange s r w) as [[s1 o1] x1] eqn:RE. cbn [fst]. eapply remove_exchange_shrinks; eauto.
Qed.
Lemma delivery_origin : forall A s s' o x, acts (prim A) s s' o -> In x o -> is_delivery x = true -> exists q ev, A q ev /\ out_ok q ev x.
Proof.
  intros A s s' o x H Hin Hd. revert H x Hin Hd. rewrite <- Forall_forall. revert s s' o.
  apply (acts_closed _ (emits _) (emits_closed _)). intros s s' o [s0 s1 o0 _ Ho|s0 s1 e _|s0 q ev s1 o0 Ha H|s0 og k _]; unfold emits.
  - apply ml_out_no_delivery in Ho. eapply Forall_impl; [|exact Ho]. cbn. intros a E1 E2. congruence.
  - repeat constructor. discriminate.
  - apply add_event_out_ok in H. eapply Forall_impl; [|exact H]. cbn. eauto.
  - constructor.
Qed.
(* what dispatch_message s r _ w injects, and to whom: errors; the datagram itself, if it is a response and not RST-typed, to the
   request matching in the table as it is when it is consulted *)
Definition dm_events (s : st) (r : remote) (w : wire) (q : Z) (ev : pev) : Prop :=
  (exists e, ev = PException e) \/
  (exists f og, ev = PResponse w r f /\ is_response (w_code w) = true /\ w_mtype w <> RST /\
     outgoing (fst (fst (dm_pre s r w))) = Some og /\ matching og (w_token w) r = Some q).
Lemma deliver_core : forall s r mcl w s' outs o,
  dispatch_message s r mcl w = (s', outs) -> In o outs -> is_delivery o = true ->
  exists og1 q, outgoing (fst (fst (dm_pre s r w))) = Some og1 /\ matching og1 (w_token w) r = Some q /\
    (o = SetResult q (w_rid w) (w_token w) r \/ o = Notify q (w_rid w) (w_token w) r) /\
    is_response (w_code w) = true /\ w_mtype w <> RST.
Proof.
  intros s r mcl w s' outs o H Hin Hd. apply (dispatch_message_acts (dm_events s r w)) in H.
  2, 3: intros; left; eexists; reflexivity.
  2: { intros Hr Ht og q f Hog M. right. exists f, og. repeat split; assumption. }
  destruct (delivery_origin _ _ _ _ _ H Hin Hd) as (q & ev & [[e ->]|(f & og & -> & Hr & Ht & Hog & M)] & OK);
    destruct o; try discriminate; cbn in OK; destruct OK as [-> (w0 & l & E & -> & ->)]; try discriminate; inversion E; subst.
  - exists og, q. repeat split; try assumption. left. reflexivity.
  - exists og, q. repeat split; try assumption. right. reflexivity.
Qed.
(* with the side condition (for piggy-backed responses) under which the ACK leaves the table alone: matching in the table before *)
Lemma deliver_only_matching : forall s r mcl w s' outs o,
  (w_mtype w = ACK -> refuses s r = false) ->
  dispatch_message s r mcl w = (s', outs) -> In o outs -> is_delivery o = true ->
  exists og q, outgoing s = Some og /\ matching og (w_token w) r = Some q /\
    (o = SetResult q (w_rid w) (w_token w) r \/ o = Notify q (w_rid w) (w_token w) r) /\
    is_response (w_code w) = true /\ w_mtype w <> RST.
Proof.
  intros s r mcl w s' outs o Hack H Hin Hd.
  destruct (deliver_core s r mcl w s' outs o H Hin Hd) as (og & q & Hog & M & Ho & Hr & Ht).
  exists og, q. split; [|repeat split; assumption]. rewrite <- Hog. symmetry. unfold dm_pre.
  destruct ((w_mtype w =? ACK) || (w_mtype w =? RST)) eqn:T; [|reflexivity].
  destruct (_remove_exchange s r w) as [[s1 o1] x1] eqn:RE. cbn [fst].
  eapply remove_exchange_ack in RE; [apply RE| |exact Ht]. apply Hack. unfold ACK, RST in *. lia.
Qed.
(* without it: whatever the message layer did before the table was consulted (it only removes entries), the request had an
   entry in the table as it was BEFORE the datagram, under its token and either its source endpoint or None *)
Lemma deliver_only_matching_gen : forall s r mcl w s' outs o og, outgoing s = Some og ->
  dispatch_message s r mcl w = (s', outs) -> In o outs -> is_delivery o = true ->
  exists q k, alookup key_eqb k og = Some q /\ fst k = w_token w /\ (snd k = Some r \/ snd k = None) /\
    (o = SetResult q (w_rid w) (w_token w) r \/ o = Notify q (w_rid w) (w_token w) r) /\
    is_response (w_code w) = true /\ w_mtype w <> RST.
Proof.
  intros s r mcl w s' outs o og Hog H Hin Hd.
  destruct (deliver_core s r mcl w s' outs o H Hin Hd) as (og1 & q & Hog1 & M & Ho & Hr & Ht).
  pose proof (dm_pre_shrinks s r w) as SH. unfold shrinks in SH. rewrite Hog, Hog1 in SH.
  destruct (matching_In _ _ _ _ M) as (k & L & Hk & Hs). exists q, k. destruct (SH k) as [E|E]; [|congruence].
  rewrite <- E. repeat split; assumption.
Qed.

(* settle the head tests of dispatch_message for a response-coded datagram of the given type *)
Ltac dm_head Hcon Hresp :=
  unfold dispatch_message;
  match goal with |- context [is_request (w_code ?w)] =>
    let Hreq := fresh "Hreq" in let Hne := fresh "Hne" in
    assert (Hreq : is_request (w_code w) = false) by (unfold is_request, is_response in *; lia);
    assert (Hne : (w_code w =? EMPTY) = false) by (unfold is_response, EMPTY in *; lia);
    rewrite Hreq, Hcon, Hresp, Hne; cbn [CON ACK RST NON Z.eqb Pos.eqb orb andb]
  end.

(* general form: the Reset is handed to the transport (which may refuse it, see _send_via_transport) *)
Lemma unmatched_con_rst_general : forall s r mcl w og, outgoing s = Some og ->
  is_response (w_code w) = true -> w_mtype w = CON -> matching og (w_token w) r = None ->
  dispatch_message s r mcl w = if mcl then (s, []) else _send_via_transport s r (empty_msg RST (w_mid w)).
Proof.
  intros s r mcl w og Hog Hresp Hcon M. dm_head Hcon Hresp.
  rewrite (process_response_spec s r w og Hog), M. destruct mcl; cbn [negb]; [reflexivity|].
  unfold _send_initially. cbn. destruct (_send_via_transport s r _). reflexivity.
Qed.
(* an unmatched piggy-backed response only has its message-layer effect (the exchange with that mid ends) *)
Lemma unmatched_ack : forall s r mcl w og, outgoing s = Some og ->
  is_response (w_code w) = true -> w_mtype w = ACK -> matching og (w_token w) r = None ->
  dispatch_message s r mcl w = fst (_remove_exchange s r w).
Proof.
  intros s r mcl w og Hog Hresp Hack M. dm_head Hack Hresp.
  destruct (_remove_exchange s r w) as [[s1 o1] x1] eqn:RE. cbn [fst snd].
  destruct x1; [reflexivity|].
  apply remove_exchange_shrinks in RE. destruct (shrinks_unmatched s s1 og (w_token w) r RE Hog M) as (og1 & Hog1 & M1).
  rewrite (process_response_spec s1 r w og1 Hog1), M1. rewrite app_nil_r. reflexivity.
Qed.
(* a matched CON response is acknowledged exactly once (and not reset); nothing else is put on the wire *)
Lemma matched_con_acked : forall s r mcl w og q, outgoing s = Some og -> refuses s r = false ->
  is_response (w_code w) = true -> w_mtype w = CON -> matching og (w_token w) r = Some q ->
  exists s' o, dispatch_message s r mcl w = (s', o ++ [Send r ACK EMPTY (w_mid w) [] None]) /\
               Forall (fun x => is_send x = false) o.
Proof.
  intros s r mcl w og q Hog Hr Hresp Hcon M. dm_head Hcon Hresp.
  rewrite (process_response_spec s r w og Hog), M.
  destruct (add_response (pr_state s og q r w) q w r (pr_final s q w)) as [s2 o2] eqn:A. cbn [fst snd].
  assert (Hr2 : refuses s2 r = false).
  { destruct (add_event_fields _ _ _ _ _ A) as (rq & og' & ->). unfold pr_state. destruct (pr_final s q w); exact Hr. }
  unfold _send_initially, _send_via_transport. cbn [w_mtype empty_msg]. cbn [ACK CON Z.eqb Pos.eqb]. rewrite Hr2.
  eexists. exists o2. split; [reflexivity|]. eapply add_event_no_send; eauto.
Qed.
