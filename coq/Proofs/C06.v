(* C06 — block-wise server: the model state refines time-free reference ("ghost") reassembly and rendering maps over every
   event history; at the end the schedule model of overlapping handlers and its tie to the atomic model. *)
From Verif Require Import Lib.Py Lib.PyLemmas Lib.Tactics Model.C06 Proofs.C06TimeoutDict.
Open Scope Z_scope.

Lemma opt_eqb_eq a b : opt_eqb a b = true <-> a = b.
Proof.
  destruct a as [n v], b as [n' v']. unfold opt_eqb; cbn [fst snd].
  rewrite andb_true_iff, Z.eqb_eq, list_eqb_Z_eq. split; [intros [-> ->]; reflexivity|intros [= -> ->]; auto].
Qed.
Lemma key_eqb_eq (a b : key) : key_eqb a b = true <-> a = b.
Proof.
  destruct a as [[r c] o], b as [[r' c'] o']. unfold key_eqb.
  rewrite !andb_true_iff, !Z.eqb_eq, (list_eqb_eq opt_eqb opt_eqb_eq).
  split; [intros [[-> ->] ->]; reflexivity|intros [= -> -> ->]; auto].
Qed.
Lemma key_dec (a b : key) : {a = b} + {a <> b}.
Proof. exact (keqb_dec key_eqb key_eqb_eq a b). Qed.
Lemma key_eqb_refl (k : key) : key_eqb k k = true. Proof. apply key_eqb_eq; reflexivity. Qed.
Lemma key_eqb_neq (a b : key) : a <> b -> key_eqb a b = false.
Proof. exact (keqb_neq key_eqb key_eqb_eq a b). Qed.

Definition kget {V} (k : key) (d : td key V) : option V := alist_get key_eqb k (td_items d).

Lemma kget_accessed {V} T now k k' (d : td key V) : kget k' (td_accessed T now k d) = kget k' d.
Proof. unfold kget, td_accessed. destruct (td_timer d) as [[due rec]|]; reflexivity. Qed.
Lemma kget_mutate_same {V} k (v : V) d : kget k (td_mutate key_eqb k v d) = Some v.
Proof. apply (alist_get_set_same key_eqb key_eqb_eq). Qed.
Lemma kget_mutate_other {V} k k' (v : V) d : k' <> k -> kget k' (td_mutate key_eqb k v d) = kget k' d.
Proof. apply (alist_get_set_other key_eqb key_eqb_eq). Qed.
Lemma kget_setitem_same {V} T now k (v : V) d : kget k (td_setitem key_eqb T now k v d) = Some v.
Proof. unfold td_setitem. rewrite kget_accessed. apply kget_mutate_same. Qed.
Lemma kget_setitem_other {V} T now k k' (v : V) d : k' <> k -> kget k' (td_setitem key_eqb T now k v d) = kget k' d.
Proof. unfold td_setitem. rewrite kget_accessed. apply kget_mutate_other. Qed.
Lemma kget_pop_same {V} k (d : td key V) : kget k (td_pop key_eqb k d) = None.
Proof. unfold kget, td_pop; cbn [td_items]. rewrite (alist_get_remove key_eqb key_eqb_eq), key_eqb_refl. reflexivity. Qed.
Lemma kget_pop_other {V} k k' (d : td key V) : k' <> k -> kget k' (td_pop key_eqb k d) = kget k' d.
Proof. intros N. unfold kget, td_pop; cbn [td_items]. rewrite (alist_get_remove key_eqb key_eqb_eq), key_eqb_neq by exact N. reflexivity. Qed.
Lemma td_getitem_kget {V} T now k (d : td key V) :
  td_getitem key_eqb T now k d = match kget k d with Some v => Some (v, td_accessed T now k d) | None => None end.
Proof. reflexivity. Qed.
Lemma kget_refresh {V} T now k k' (d : td key V) v : kget k d = Some v ->
  kget k' (td_setitem key_eqb T now k v (td_accessed T now k d)) = kget k' d.
Proof.
  intros H. destruct (key_dec k' k) as [->|N].
  - rewrite kget_setitem_same. symmetry. exact H.
  - rewrite kget_setitem_other by exact N. apply kget_accessed.
Qed.

(* expiry only removes entries *)
Lemma kget_fire {V} T target k (d : td key V) v : kget k (td_fire key_eqb T target d) = Some v -> kget k d = Some v.
Proof.
  unfold td_fire. destruct (td_timer d) as [[due rec]|] eqn:Tm; [|auto]. destruct (due <=? target); [|auto].
  unfold kget. rewrite (items_tick key_eqb T due d due rec Tm), (alist_get_filter key_eqb key_eqb_eq (fun k => kmem key_eqb k rec)).
  destruct (kmem key_eqb k rec); [auto|discriminate].
Qed.
Lemma kget_advance {V} T target k (d : td key V) v : kget k (td_advance key_eqb T target d) = Some v -> kget k d = Some v.
Proof. unfold td_advance. intros H. apply kget_fire in H. apply kget_fire in H. exact H. Qed.

(* the payload length of a block agrees with its Block1 option: BlockwiseTuple.is_valid_for_payload_size
   (M=1: exactly the block size, BERT a multiple of 1024; M=0: at most the block size, BERT anything) *)
Definition size_ok (b : blockopt) (r : msg) : bool := is_valid_for_payload_size b (blen (m_payload r)).

Definition appended (self nb : msg) (b : blockopt) : msg :=
  set_payload_block1_id_block2 self (m_payload self ++ m_payload nb) (Some b) (m_id nb)
    (if negb (b_more b) then match m_block2 nb with Some b2 => Some b2 | None => m_block2 self end else m_block2 self).

Lemma append_cases self nb b : m_block1 nb = Some b -> is_request (m_code self) = true ->
  (size_ok b nb = false /\ append_request_block self nb = RRaise (EBadRequest txt_size_mismatch)) \/
  (size_ok b nb = true /\ b_start b = blen (m_payload self) /\ append_request_block self nb = ROk (appended self nb b)) \/
  (size_ok b nb = true /\ b_start b <> blen (m_payload self) /\ append_request_block self nb = RRaise (EOther ValueError)).
Proof.
  intros Hb Hr. unfold append_request_block, size_ok, appended. rewrite Hr, Hb. cbn [negb].
  destruct (is_valid_for_payload_size b (blen (m_payload nb))); cbn [negb]; [right|left; split; reflexivity].
  destruct (Z.eqb_spec (b_start b) (blen (m_payload self))); [left|right]; repeat split; assumption.
Qed.

(* blockwise.py:84-92, once the block is in the spool as part of [m] *)
Definition fat_take (k : key) (b : blockopt) (sp : spool) (m : msg) : spool * R msg :=
  if b_more b then (sp, RRaise (EContinue b)) else (td_pop key_eqb k sp, ROk m).

Lemma fat_none T now sp req : m_block1 req = None -> feed_and_take T now sp req = (sp, ROk req).
Proof. intros H. unfold feed_and_take. rewrite H. reflexivity. Qed.

(* feed_and_take in closed form, for a spool whose assemblies are requests (else _append_request_block refuses them) *)
Definition fat_spec (T now : Z) (sp : spool) (req : msg) : spool * R msg :=
  match m_block1 req with
  | None => (sp, ROk req)
  | Some b =>
    let k := extract_block_key req in
    if b_num b =? 0 then fat_take k b (td_setitem key_eqb T now k req sp) req
    else match kget k sp with
         | None => (sp, RRaise EIncomplete)
         | Some asm =>
           let sp1 := td_accessed T now k sp in
           if negb (size_ok b req) then (sp1, RRaise (EBadRequest txt_size_mismatch))
           else if b_start b =? blen (m_payload asm)
                then fat_take k b (td_mutate key_eqb k (appended asm req b) sp1) (appended asm req b)
                else (sp1, RRaise EIncomplete)
         end
  end.
Lemma fat_take_eq k b sp m : kget k sp = Some m ->
  (if b_more b then (sp, RRaise (EContinue b))
   else match alist_get key_eqb k (td_items sp) with
        | Some asm => (td_pop key_eqb k sp, ROk asm) | None => (sp, RRaise (EOther AttributeError)) end) = fat_take k b sp m.
Proof. unfold kget, fat_take. intros ->. reflexivity. Qed.
Lemma fat_eq T now sp req :
  (forall asm, kget (extract_block_key req) sp = Some asm -> is_request (m_code asm) = true) ->
  feed_and_take T now sp req = fat_spec T now sp req.
Proof.
  intros Hr. unfold feed_and_take, fat_spec. destruct (m_block1 req) as [b|] eqn:Hb; [|reflexivity].
  set (k := extract_block_key req) in *. destruct (b_num b =? 0).
  - apply fat_take_eq, kget_setitem_same.
  - rewrite td_getitem_kget. destruct (kget k sp) as [asm|] eqn:Hg; [|reflexivity].
    destruct (append_cases asm req b Hb (Hr asm eq_refl)) as [[S A]|[(S & St & A)|(S & St & A)]]; rewrite A, S; cbn [negb].
    + reflexivity.
    + rewrite (proj2 (Z.eqb_eq _ _) St). apply fat_take_eq, kget_mutate_same.
    + rewrite (proj2 (Z.eqb_neq _ _) St). reflexivity.
Qed.

Definition b2_start (szx num : Z) : Z := if szx =? 7 then num * 1024 else num * 2 ^ (szx + 4).
Definition b2_size (szx mps : Z) : Z := if szx =? 7 then 1024 * (mps / 1024) else 2 ^ (szx + 4).
Definition needs_chunking (req : msg) (r : resp) : bool :=
  (blen (p_payload r) >? m_mps req)
  || match m_block2 req with Some b2 => (blen (p_payload r) >? b_size b2) || negb (b_num b2 =? 0) | None => false end.

Lemma slice_end {A} (l : list A) start size :
  let end_ := if start + size <? blen l then start + size else blen l in
  (end_ <? blen l) = (start + size <? blen l) /\ bslice l start end_ = bslice l start (start + size).
Proof.
  cbn zeta. destruct (start + size <? blen l) eqn:E; [rewrite E; split; reflexivity|].
  rewrite Z.ltb_irrefl. split; [reflexivity|]. unfold bslice, blen in *. rewrite Nat2Z.id, !firstn_all2; [reflexivity|lia|lia].
Qed.

(* the arithmetic of Message._extract_block: exactly the slice [start, start+size) with the more-flag
   set exactly when bytes remain, 4.00 when the block starts at or beyond the end *)
Lemma extract_block_spec R number szx mps :
  let start := b2_start szx number in let size := b2_size szx mps in
  extract_block R number szx mps =
    if start >=? blen (p_payload R) then RRaise (EBadRequest txt_out_of_bounds)
    else ROk {| p_code := p_code R; p_block1 := p_block1 R;
                p_block2 := Some {| b_num := number; b_more := start + size <? blen (p_payload R); b_szx := szx |};
                p_payload := bslice (p_payload R) start (start + size) |}.
Proof.
  cbn zeta. unfold extract_block, b2_start, b2_size.
  destruct (szx =? 7); cbn iota beta.
  - destruct (slice_end (p_payload R) (number * 1024) (1024 * (mps / 1024))) as [-> ->]. reflexivity.
  - destruct (slice_end (p_payload R) (number * 2 ^ (szx + 4)) (2 ^ (szx + 4))) as [-> ->]. reflexivity.
Qed.
Lemma b2_start_0 szx : b2_start szx 0 = 0.
Proof. unfold b2_start. destruct (szx =? 7); lia. Qed.

(* is this a request that makes the handler render (block 0 or no Block2)? *)
Definition is_first (req1 : msg) : bool := match m_block2 req1 with Some b2 => b_num b2 =? 0 | None => true end.
Lemma is_first_hyp req1 : is_first req1 = true -> match m_block2 req1 with Some b2 => b_num b2 = 0 | None => True end.
Proof. unfold is_first. destruct (m_block2 req1) as [b2|]; [lia|trivial]. Qed.
Lemma is_first_false req1 : is_first req1 = false -> exists b2, m_block2 req1 = Some b2 /\ b_num b2 <> 0.
Proof. unfold is_first. destruct (m_block2 req1) as [b2|]; [|discriminate]. intros H. exists b2. split; [reflexivity|lia]. Qed.

Lemma eoi_later T now ca req b2 rendering : m_block2 req = Some b2 -> b_num b2 <> 0 ->
  let k := extract_block_key req in
  extract_or_insert T now ca req rendering =
  match kget k ca with
  | None => (ca, [], RRaise EIncomplete)
  | Some R => (td_setitem key_eqb T now k R (td_accessed T now k ca), [], extract_block R (b_num b2) (b_szx b2) (m_mps req))
  end.
Proof.
  intros Hb Hn k. unfold extract_or_insert. rewrite Hb. replace (b_num b2 =? 0) with false by lia.
  rewrite td_getitem_kget. fold k. destruct (kget k ca) as [R|]; [|reflexivity].
  cbn [negb]. rewrite !orb_true_r. reflexivity.
Qed.

Lemma eoi_first T now ca req rendering :
  match m_block2 req with Some b2 => b_num b2 = 0 | None => True end ->
  let k := extract_block_key req in
  extract_or_insert T now ca req rendering =
    if needs_chunking req rendering
    then (td_setitem key_eqb T now k rendering ca, [req],
          extract_block rendering 0 (match m_block2 req with Some b2 => b_szx b2 | None => m_mbse req end) (m_mps req))
    else (td_pop key_eqb k ca, [req], ROk rendering).
Proof.
  intros Hb k. unfold extract_or_insert, needs_chunking. destruct (m_block2 req) as [b2|] eqn:E.
  - rewrite Hb. cbn [Z.eqb]. fold k. destruct ((blen (p_payload rendering) >? m_mps req) || ((blen (p_payload rendering) >? b_size b2) || negb true)); reflexivity.
  - fold k. destruct ((blen (p_payload rendering) >? m_mps req) || false); reflexivity.
Qed.

(* the time-free reference: per block key, the blocks accepted since the latest block 0 *)
Definition concat_payloads (bs : list msg) : list Z := concat (map m_payload bs).
Definition gasm := key -> option (list msg).
Definition gset {A} (g : key -> option A) (k : key) (v : A) : key -> option A :=
  fun k' => if key_eqb k' k then Some v else g k'.
Definition ghost1_step (g : gasm) (r : msg) : gasm :=
  match m_block1 r with
  | None => g
  | Some b =>
    let k := extract_block_key r in
    if b_num b =? 0 then gset g k [r]
    else match g k with
         | Some bs => if size_ok b r && (b_start b =? blen (concat_payloads bs)) then gset g k (bs ++ [r]) else g
         | None => g
         end
  end.

Lemma gset_same {A} (g : key -> option A) k v : gset g k v k = Some v.
Proof. unfold gset. rewrite key_eqb_refl. reflexivity. Qed.
Lemma gset_other {A} (g : key -> option A) k k' v : k' <> k -> gset g k v k' = g k'.
Proof. intros N. unfold gset. rewrite key_eqb_neq by exact N. reflexivity. Qed.

Lemma ghost1_plain g r : m_block1 r = None -> ghost1_step g r = g.
Proof. intros Hb. unfold ghost1_step. rewrite Hb. reflexivity. Qed.
Lemma ghost1_start g r b : m_block1 r = Some b -> b_num b = 0 -> ghost1_step g r = gset g (extract_block_key r) [r].
Proof. intros Hb Hn. unfold ghost1_step. rewrite Hb, Hn. reflexivity. Qed.
Lemma ghost1_cont g r b bs : m_block1 r = Some b -> b_num b <> 0 -> g (extract_block_key r) = Some bs ->
  ghost1_step g r =
  if size_ok b r && (b_start b =? blen (concat_payloads bs)) then gset g (extract_block_key r) (bs ++ [r]) else g.
Proof. intros Hb Hn G. unfold ghost1_step. rewrite Hb, G. replace (b_num b =? 0) with false by lia. reflexivity. Qed.
Lemma ghost1_other g r k : k <> extract_block_key r -> ghost1_step g r k = g k.
Proof.
  intros N. unfold ghost1_step. destruct (m_block1 r) as [b|]; [|reflexivity].
  destruct (b_num b =? 0); [apply gset_other; exact N|].
  destruct (g (extract_block_key r)) as [bs|]; [|reflexivity].
  destruct (size_ok b r && (b_start b =? blen (concat_payloads bs))); [apply gset_other; exact N|reflexivity].
Qed.

(* what "in-order concatenation of blocks 0..n of one transfer" means *)
Inductive chain (k : key) : list msg -> Prop :=
| chain_first r b : m_block1 r = Some b -> b_num b = 0 -> extract_block_key r = k -> chain k [r]
| chain_next bs r b : chain k bs -> m_block1 r = Some b -> b_num b <> 0 -> extract_block_key r = k ->
    size_ok b r = true -> b_start b = blen (concat_payloads bs) -> chain k (bs ++ [r]).
Definition gasm_wf (g : gasm) : Prop := forall k bs, g k = Some bs -> chain k bs.

Lemma ghost1_step_wf g r : gasm_wf g -> gasm_wf (ghost1_step g r).
Proof.
  intros W k bs. destruct (key_dec k (extract_block_key r)) as [->|N]; [|rewrite ghost1_other by exact N; apply W].
  unfold ghost1_step. destruct (m_block1 r) as [b|] eqn:Hb; [|apply W].
  destruct (Z.eqb_spec (b_num b) 0) as [Hn|Hn].
  - rewrite gset_same. intros [= <-]. exact (chain_first _ r b Hb Hn eq_refl).
  - destruct (g (extract_block_key r)) as [bs0|] eqn:G; [|apply W].
    destruct (size_ok b r && (b_start b =? blen (concat_payloads bs0))) eqn:C; [|apply W].
    apply andb_prop in C as [C1 C2]. rewrite gset_same. intros [= <-].
    apply (chain_next _ bs0 r b); try assumption; [exact (W _ _ G)|reflexivity|lia].
Qed.

(* the stored assembly [m] is the reassembly of the block list [bs] *)
Definition assembled_from (m : msg) (bs : list msg) : Prop :=
  match bs with
  | [] => False
  | b0 :: _ =>
    m_remote m = m_remote b0 /\ m_mps m = m_mps b0 /\ m_mbse m = m_mbse b0 /\ m_code m = m_code b0 /\ m_opts m = m_opts b0 /\
    m_payload m = concat_payloads bs /\ m_block1 m = m_block1 (last bs b0) /\ m_id m = m_id (last bs b0)
  end.
Lemma assembled_key m bs b0 : assembled_from m (b0 :: bs) -> extract_block_key m = extract_block_key b0.
Proof. cbn. intros (H1 & _ & _ & H4 & H5 & _). unfold extract_block_key, get_cache_key. rewrite H1, H4, H5. reflexivity. Qed.
Lemma assembled_payload m bs : assembled_from m bs -> m_payload m = concat_payloads bs.
Proof. destruct bs as [|b0 bs]; [contradiction|]. cbn. tauto. Qed.
Lemma assembled_single r : assembled_from r [r].
Proof. cbn. repeat split. unfold concat_payloads. cbn. rewrite app_nil_r. reflexivity. Qed.
Lemma concat_payloads_snoc bs r : concat_payloads (bs ++ [r]) = concat_payloads bs ++ m_payload r.
Proof. unfold concat_payloads. rewrite map_app, concat_app. cbn. rewrite app_nil_r. reflexivity. Qed.
Lemma assembled_snoc asm bs r b : assembled_from asm bs -> m_block1 r = Some b -> assembled_from (appended asm r b) (bs ++ [r]).
Proof.
  destruct bs as [|b0 bs]; [contradiction|]. intros (A1 & A2 & A3 & A4 & A5 & A6 & _) Hb.
  change ((b0 :: bs) ++ [r]) with (b0 :: (bs ++ [r])). cbn [assembled_from].
  change (b0 :: (bs ++ [r])) with ((b0 :: bs) ++ [r]). rewrite last_last, concat_payloads_snoc, <- A6.
  repeat split; try assumption. symmetry. exact Hb.
Qed.

Definition wf_req (r : msg) : Prop := is_request (m_code r) = true.

Definition spool_inv (g : gasm) (sp : spool) : Prop :=
  forall k m, kget k sp = Some m ->
    exists bs, g k = Some bs /\ assembled_from m bs /\ extract_block_key m = k /\ is_request (m_code m) = true.

Lemma spool_inv_empty g : spool_inv g td_empty.
Proof. intros k m H. discriminate. Qed.
Lemma spool_inv_request g sp : spool_inv g sp -> forall k m, kget k sp = Some m -> is_request (m_code m) = true.
Proof. intros I k m H. destruct (I k m H) as (bs & _ & _ & _ & Ra). exact Ra. Qed.
Lemma spool_inv_accessed g T now k sp : spool_inv g sp -> spool_inv g (td_accessed T now k sp).
Proof. intros I k' m H. rewrite kget_accessed in H. exact (I k' m H). Qed.
Lemma spool_inv_pop g sp k : spool_inv g sp -> spool_inv g (td_pop key_eqb k sp).
Proof.
  intros I k' m H. destruct (key_dec k' k) as [->|N]; [rewrite kget_pop_same in H; discriminate|].
  rewrite kget_pop_other in H by exact N. exact (I k' m H).
Qed.
Lemma spool_inv_advance g T target sp : spool_inv g sp -> spool_inv g (td_advance key_eqb T target sp).
Proof. intros I k m H. apply kget_advance in H. exact (I k m H). Qed.
(* what feed_and_take hands to the next stage *)
Definition taken_ok (g' : gasm) (req : msg) (res : R msg) : Prop :=
  match res with
  | ROk req1 =>
    match m_block1 req with
    | None => req1 = req
    | Some b => b_more b = false /\
                exists bs, g' (extract_block_key req) = Some bs /\ assembled_from req1 bs /\
                           last bs req = req /\ extract_block_key req1 = extract_block_key req
    end
  | RRaise e =>
    match m_block1 req with
    | None => False
    | Some b => (b_more b = true /\ e = EContinue b) \/ (b_num b <> 0 /\ e = EIncomplete) \/
                (b_num b <> 0 /\ size_ok b req = false /\ e = EBadRequest txt_size_mismatch)
    end
  end.

(* [sp1] is [sp] with the reassembly [m] of [bs] put under the key (assigned, or mutated in place) *)
Lemma fat_take_inv g sp sp1 req b m bs : m_block1 req = Some b -> spool_inv g sp ->
  let k := extract_block_key req in
  kget k sp1 = Some m -> (forall k', k' <> k -> kget k' sp1 = kget k' sp) ->
  assembled_from m bs -> last bs req = req -> extract_block_key m = k -> is_request (m_code m) = true ->
  let '(sp', res) := fat_take k b sp1 m in spool_inv (gset g k bs) sp' /\ taken_ok (gset g k bs) req res.
Proof.
  intros Hb I k Hk Ho A L K Rm.
  assert (I1 : spool_inv (gset g k bs) sp1).
  { intros k' m' H. destruct (key_dec k' k) as [->|N].
    - rewrite Hk in H. injection H as <-. exists bs. rewrite gset_same. split; [reflexivity|split; [exact A|split; [exact K|exact Rm]]].
    - rewrite Ho in H by exact N. rewrite gset_other by exact N. exact (I k' m' H). }
  unfold fat_take, taken_ok. rewrite Hb. destruct (b_more b).
  - split; [exact I1|]. left. split; reflexivity.
  - split; [apply spool_inv_pop; exact I1|]. split; [reflexivity|]. exists bs. rewrite gset_same. repeat split; assumption.
Qed.

Lemma feed_and_take_inv T now g sp req : wf_req req -> spool_inv g sp ->
  let '(sp', res) := feed_and_take T now sp req in
  spool_inv (ghost1_step g req) sp' /\ taken_ok (ghost1_step g req) req res.
Proof.
  intros Wr I. rewrite (fat_eq T now sp req (spool_inv_request g sp I _)). unfold fat_spec.
  destruct (m_block1 req) as [b|] eqn:Hb.
  2:{ rewrite ghost1_plain by exact Hb. unfold taken_ok. rewrite Hb. split; [exact I|reflexivity]. }
  set (k := extract_block_key req).
  assert (Inc : b_num b <> 0 -> taken_ok (ghost1_step g req) req (RRaise EIncomplete)).
  { intros Hn. unfold taken_ok. rewrite Hb. right. left. split; [exact Hn|reflexivity]. }
  destruct (Z.eqb_spec (b_num b) 0) as [Hn|Hn].
  - (* block 0: a fresh assembly *)
    rewrite (ghost1_start g req b Hb Hn). fold k.
    apply (fat_take_inv g sp _ req b req [req] Hb I);
      [apply kget_setitem_same|intros k'; apply kget_setitem_other|apply assembled_single|reflexivity|reflexivity|exact Wr].
  - destruct (kget k sp) as [asm|] eqn:Hg.
    2:{ (* no assembly: the reference may move on at k, where the spool holds nothing *)
        split; [|exact (Inc Hn)]. intros k' m H. destruct (key_dec k' k) as [->|N]; [congruence|].
        rewrite ghost1_other by exact N. exact (I k' m H). }
    destruct (I k asm Hg) as (bs & G & A & Ka & Ra).
    pose proof (spool_inv_accessed g T now k sp I) as I1.
    rewrite (ghost1_cont g req b bs Hb Hn G), <- (assembled_payload asm bs A). fold k.
    destruct (size_ok b req) eqn:S; cbn [andb negb].
    2:{ split; [exact I1|]. unfold taken_ok. rewrite Hb. right. right. repeat split; assumption. }
    destruct (Z.eqb_spec (b_start b) (blen (m_payload asm))) as [St|St]; [|split; [exact I1|exact (Inc Hn)]].
    (* the block extends the assembly *)
    apply (fat_take_inv g _ _ req b (appended asm req b) (bs ++ [req]) Hb I1);
      [apply kget_mutate_same|intros k'; apply kget_mutate_other|apply assembled_snoc; assumption|apply last_last|exact Ka|exact Ra].
Qed.

Lemma fat_frame T now g sp req k' : spool_inv g sp -> k' <> extract_block_key req ->
  kget k' (fst (feed_and_take T now sp req)) = kget k' sp.
Proof.
  intros I N. rewrite (fat_eq T now sp req (spool_inv_request g sp I _)). unfold fat_spec, fat_take.
  destruct (m_block1 req) as [b|]; [|reflexivity].
  destruct (b_num b =? 0).
  - destruct (b_more b); cbn [fst]; rewrite ?kget_pop_other by exact N; apply kget_setitem_other; exact N.
  - destruct (kget (extract_block_key req) sp) as [asm|]; [|reflexivity].
    destruct (negb (size_ok b req)); [apply kget_accessed|].
    destruct (b_start b =? blen (m_payload asm)); [|apply kget_accessed].
    destruct (b_more b); cbn [fst]; rewrite ?kget_pop_other, kget_mutate_other by exact N; apply kget_accessed.
Qed.

(* reference for the cache: the rendering stored by the latest block-0 request that was chunked *)
Definition grend := key -> option resp.
Definition gclr {A} (g : key -> option A) (k : key) : key -> option A :=
  fun k' => if key_eqb k' k then None else g k'.
Lemma gclr_same {A} (g : key -> option A) k : gclr g k k = None.
Proof. unfold gclr. rewrite key_eqb_refl. reflexivity. Qed.
Lemma gclr_other {A} (g : key -> option A) k k' : k' <> k -> gclr g k k' = g k'.
Proof. intros N. unfold gclr. rewrite key_eqb_neq by exact N. reflexivity. Qed.
(* stored rendering: that of the latest rendering request of the key if it needed chunking, none if it was answered whole *)
Definition ghost2_step (g : grend) (req1 : msg) (rendering : resp) : grend :=
  if is_first req1
  then (if needs_chunking req1 rendering then gset g (extract_block_key req1) rendering else gclr g (extract_block_key req1))
  else g.
(* the rendering made for the latest rendering (block-0 / Block2-less) request of each key, whether stored or not *)
Definition glatest_step (g : grend) (req1 : msg) (rendering : resp) : grend :=
  if is_first req1 then gset g (extract_block_key req1) rendering else g.
Definition stored_is_latest (g gl : grend) : Prop := forall k R, g k = Some R -> gl k = Some R.
Lemma stored_is_latest_step g gl req1 rendering :
  stored_is_latest g gl -> stored_is_latest (ghost2_step g req1 rendering) (glatest_step gl req1 rendering).
Proof.
  intros H k R. unfold ghost2_step, glatest_step. destruct (is_first req1); [|apply H].
  destruct (key_dec k (extract_block_key req1)) as [->|N].
  - rewrite gset_same. destruct (needs_chunking req1 rendering); [rewrite gset_same; auto|rewrite gclr_same; discriminate].
  - rewrite gset_other by exact N. destruct (needs_chunking req1 rendering); [rewrite gset_other by exact N|rewrite gclr_other by exact N]; apply H.
Qed.
Lemma ghost2_step_P (P : resp -> Prop) g req1 rendering :
  (forall k R, g k = Some R -> P R) -> P rendering -> forall k R, ghost2_step g req1 rendering k = Some R -> P R.
Proof.
  intros Hg Hr k R. unfold ghost2_step. destruct (is_first req1); [|apply Hg].
  destruct (key_dec k (extract_block_key req1)) as [->|N]; destruct (needs_chunking req1 rendering).
  - rewrite gset_same; intros [= <-]; exact Hr.
  - rewrite gclr_same; discriminate.
  - rewrite gset_other by exact N; apply Hg.
  - rewrite gclr_other by exact N; apply Hg.
Qed.

Definition cache_inv (g : grend) (ca : cache) : Prop := forall k R, kget k ca = Some R -> g k = Some R.
Lemma cache_inv_empty g : cache_inv g td_empty.
Proof. intros k m H. discriminate. Qed.
Lemma cache_inv_advance g T target ca : cache_inv g ca -> cache_inv g (td_advance key_eqb T target ca).
Proof. intros I k m H. apply kget_advance in H. exact (I k m H). Qed.
Lemma cache_inv_setitem g T now ca k R : cache_inv g ca -> cache_inv (gset g k R) (td_setitem key_eqb T now k R ca).
Proof.
  intros I k' R' H. destruct (key_dec k' k) as [->|N].
  - rewrite kget_setitem_same in H. rewrite gset_same. exact H.
  - rewrite kget_setitem_other in H by exact N. rewrite gset_other by exact N. exact (I k' R' H).
Qed.
Lemma cache_inv_pop g ca k : cache_inv g ca -> cache_inv (gclr g k) (td_pop key_eqb k ca).
Proof.
  intros I k' R H. destruct (key_dec k' k) as [->|N]; [rewrite kget_pop_same in H; discriminate|].
  rewrite kget_pop_other in H by exact N. rewrite gclr_other by exact N. exact (I k' R H).
Qed.

(* the answer to a request that reaches the Block2 stage, in terms of the reference rendering *)
Definition block2_ok (g : grend) (req1 : msg) (rendering : resp) (calls : list msg) (res : R resp) : Prop :=
  match m_block2 req1 with
  | Some b2 =>
    if b_num b2 =? 0 then
      calls = [req1] /\
      res = (if needs_chunking req1 rendering then extract_block rendering 0 (b_szx b2) (m_mps req1) else ROk rendering)
    else
      calls = [] /\
      (res = RRaise EIncomplete \/
       exists Rn, g (extract_block_key req1) = Some Rn /\ res = extract_block Rn (b_num b2) (b_szx b2) (m_mps req1))
  | None =>
    calls = [req1] /\
    res = (if needs_chunking req1 rendering then extract_block rendering 0 (m_mbse req1) (m_mps req1) else ROk rendering)
  end.
(* the two rendering cases of [block2_ok] are one *)
Lemma block2_ok_first g req1 rendering calls res : is_first req1 = true ->
  calls = [req1] ->
  res = (if needs_chunking req1 rendering
         then extract_block rendering 0 (match m_block2 req1 with Some b2 => b_szx b2 | None => m_mbse req1 end) (m_mps req1)
         else ROk rendering) ->
  block2_ok g req1 rendering calls res.
Proof. unfold is_first, block2_ok. destruct (m_block2 req1) as [b2|]; [intros ->|intros _]; split; assumption. Qed.

Lemma extract_or_insert_inv T now g ca req1 rendering : cache_inv g ca ->
  let '(ca', calls, res) := extract_or_insert T now ca req1 rendering in
  cache_inv (ghost2_step g req1 rendering) ca' /\ block2_ok g req1 rendering calls res.
Proof.
  intros I. set (k := extract_block_key req1). unfold ghost2_step. fold k. destruct (is_first req1) eqn:F.
  - rewrite (eoi_first T now ca req1 rendering (is_first_hyp req1 F)). fold k.
    destruct (needs_chunking req1 rendering) eqn:C;
      (split; [|apply (block2_ok_first _ _ _ _ _ F); [reflexivity|rewrite C; reflexivity]]).
    + apply cache_inv_setitem. exact I.
    + apply cache_inv_pop. exact I.
  - destruct (is_first_false req1 F) as (b2 & Hb & Hn).
    rewrite (eoi_later T now ca req1 b2 rendering Hb Hn). fold k.
    unfold block2_ok. rewrite Hb. replace (b_num b2 =? 0) with false by lia.
    destruct (kget k ca) as [Rn|] eqn:Hg.
    + split; [|split; [reflexivity|right; exists Rn; split; [exact (I k Rn Hg)|reflexivity]]].
      intros k' R' H. rewrite (kget_refresh T now k k' ca Rn Hg) in H. exact (I k' R' H).
    + split; [exact I|]. split; [reflexivity|left; reflexivity].
Qed.

Definition render_result (r0 : R resp) (b1 : option blockopt) : resp :=
  match r0 with ROk x => set_block1 x b1 | RRaise e => error_to_message e end.
Definition resp_ok (ga' : gasm) (gr : grend) (req : msg) (rendering : resp) (calls : list msg) (res : resp) : Prop :=
  (exists e, calls = [] /\ res = error_to_message e /\ taken_ok ga' req (RRaise e)) \/
  (exists req1 r0, taken_ok ga' req (ROk req1) /\ block2_ok gr req1 rendering calls r0 /\ res = render_result r0 (m_block1 req1)).
Definition grend_step (T now : Z) (gr : grend) (sp : spool) (req : msg) (rendering : resp) : grend :=
  match feed_and_take T now sp req with
  | (_, ROk req1) => ghost2_step gr req1 rendering
  | (_, RRaise _) => gr
  end.

Definition glatest_stage (T now : Z) (gl : grend) (sp : spool) (req : msg) (rendering : resp) : grend :=
  match feed_and_take T now sp req with
  | (_, ROk req1) => glatest_step gl req1 rendering
  | (_, RRaise _) => gl
  end.
Lemma stored_is_latest_stage T now gr gl sp req rendering : stored_is_latest gr gl ->
  stored_is_latest (grend_step T now gr sp req rendering) (glatest_stage T now gl sp req rendering).
Proof.
  intros H. unfold grend_step, glatest_stage. destruct (feed_and_take T now sp req) as [sp' [req1|e]]; [|exact H].
  apply stored_is_latest_step. exact H.
Qed.

(* the inner match as [render_result]: the form the equations of the two stages rewrite *)
Lemma rtp_eq T now s req rendering :
  render_to_pipe T now s req rendering =
  match feed_and_take T now (block1 s) req with
  | (sp, RRaise e) => ({| block1 := sp; block2 := block2 s |}, [], error_to_message e)
  | (sp, ROk req1) =>
    let '(ca, calls, r0) := extract_or_insert T now (block2 s) req1 rendering in
    ({| block1 := sp; block2 := ca |}, calls, render_result r0 (m_block1 req1))
  end.
Proof.
  unfold render_to_pipe. destruct (feed_and_take T now (block1 s) req) as [sp [req1|e]]; [|reflexivity].
  destruct (extract_or_insert T now (block2 s) req1 rendering) as [[ca calls] [res|e]]; reflexivity.
Qed.
(* a request stopped by the spool (2.31 / 4.00 / 4.08) does not touch the cache and does not reach the handler *)
Lemma spool_error_keeps_cache T now s req rendering sp e :
  feed_and_take T now (block1 s) req = (sp, RRaise e) ->
  render_to_pipe T now s req rendering = ({| block1 := sp; block2 := block2 s |}, [], error_to_message e).
Proof. intros H. rewrite rtp_eq, H. reflexivity. Qed.
Lemma rtp_block1 T now s req rendering :
  block1 (fst (fst (render_to_pipe T now s req rendering))) = fst (feed_and_take T now (block1 s) req).
Proof.
  rewrite rtp_eq. destruct (feed_and_take T now (block1 s) req) as [sp [req1|e]]; [|reflexivity].
  destruct (extract_or_insert T now (block2 s) req1 rendering) as [[ca calls] r0]. reflexivity.
Qed.

Lemma render_to_pipe_inv T now ga gr s req rendering :
  wf_req req -> spool_inv ga (block1 s) -> cache_inv gr (block2 s) ->
  let '(s', calls, res) := render_to_pipe T now s req rendering in
  spool_inv (ghost1_step ga req) (block1 s') /\
  cache_inv (grend_step T now gr (block1 s) req rendering) (block2 s') /\
  resp_ok (ghost1_step ga req) gr req rendering calls res.
Proof.
  intros Wr I1 I2. rewrite rtp_eq. unfold grend_step.
  pose proof (feed_and_take_inv T now ga (block1 s) req Wr I1) as F.
  destruct (feed_and_take T now (block1 s) req) as [sp [req1|e]]; destruct F as [F1 F2].
  - pose proof (extract_or_insert_inv T now gr (block2 s) req1 rendering I2) as E.
    destruct (extract_or_insert T now (block2 s) req1 rendering) as [[ca calls] r0]. destruct E as [E1 E2]. cbn [block1 block2].
    split; [exact F1|]. split; [exact E1|]. right. exists req1, r0. split; [exact F2|]. split; [exact E2|reflexivity].
  - cbn [block1 block2]. split; [exact F1|]. split; [exact I2|]. left. exists e. split; [reflexivity|]. split; [reflexivity|exact F2].
Qed.

(* answers in the form the statements of Props/C06.v use *)
Definition continue_resp (b : blockopt) : resp := {| p_code := CONTINUE; p_block1 := Some b; p_block2 := None; p_payload := [] |}.
Definition incomplete_resp : resp := {| p_code := REQUEST_ENTITY_INCOMPLETE; p_block1 := None; p_block2 := None; p_payload := [] |}.
Definition bad_request_resp (t : list Z) : resp := {| p_code := BAD_REQUEST; p_block1 := None; p_block2 := None; p_payload := t |}.
Definition slice_resp (Rn : resp) (num szx mps : Z) : resp :=
  {| p_code := p_code Rn; p_block1 := None;
     p_block2 := Some {| b_num := num; b_more := b2_start szx num + b2_size szx mps <? blen (p_payload Rn); b_szx := szx |};
     p_payload := bslice (p_payload Rn) (b2_start szx num) (b2_start szx num + b2_size szx mps) |}.

Lemma block_resp Rn num szx mps :
  render_result (extract_block Rn num szx mps) None =
  if b2_start szx num >=? blen (p_payload Rn) then bad_request_resp txt_out_of_bounds else slice_resp Rn num szx mps.
Proof. rewrite extract_block_spec. cbn zeta. destruct (b2_start szx num >=? blen (p_payload Rn)); reflexivity. Qed.

(* a later block: the answer depends on the stored rendering alone *)
Lemma rtp_later T now s req rendering b2 : m_block1 req = None -> m_block2 req = Some b2 -> b_num b2 <> 0 ->
  let k := extract_block_key req in
  render_to_pipe T now s req rendering =
  match kget k (block2 s) with
  | None => (s, [], incomplete_resp)
  | Some Rn => ({| block1 := block1 s; block2 := td_setitem key_eqb T now k Rn (td_accessed T now k (block2 s)) |}, [],
                if b2_start (b_szx b2) (b_num b2) >=? blen (p_payload Rn) then bad_request_resp txt_out_of_bounds
                else slice_resp Rn (b_num b2) (b_szx b2) (m_mps req))
  end.
Proof.
  intros H1 H2 Hn k. rewrite rtp_eq, (fat_none T now (block1 s) req H1), (eoi_later T now (block2 s) req b2 rendering H2 Hn), H1. fold k.
  destruct (kget k (block2 s)) as [Rn|]; [rewrite block_resp; reflexivity|destruct s; reflexivity].
Qed.
Lemma rtp_first T now s req rendering :
  m_block1 req = None -> match m_block2 req with Some b2 => b_num b2 = 0 | None => True end ->
  let k := extract_block_key req in
  let szx := match m_block2 req with Some b2 => b_szx b2 | None => m_mbse req end in
  render_to_pipe T now s req rendering =
  if needs_chunking req rendering
  then ({| block1 := block1 s; block2 := td_setitem key_eqb T now k rendering (block2 s) |}, [req],
        if 0 >=? blen (p_payload rendering) then bad_request_resp txt_out_of_bounds else slice_resp rendering 0 szx (m_mps req))
  else ({| block1 := block1 s; block2 := td_pop key_eqb k (block2 s) |}, [req], set_block1 rendering None).
Proof.
  intros H1 H2 k szx. rewrite rtp_eq, (fat_none T now (block1 s) req H1), (eoi_first T now (block2 s) req rendering H2), H1. fold k szx.
  destruct (needs_chunking req rendering); [rewrite block_resp, b2_start_0|]; reflexivity.
Qed.

Lemma block2_ok_inv g req1 rendering calls r0 : block2_ok g req1 rendering calls r0 ->
  (calls = [req1] /\ (r0 = ROk rendering \/ exists szx, r0 = extract_block rendering 0 szx (m_mps req1))) \/
  (calls = [] /\ (r0 = RRaise EIncomplete \/
                  exists Rn n szx, g (extract_block_key req1) = Some Rn /\ r0 = extract_block Rn n szx (m_mps req1))).
Proof.
  unfold block2_ok. destruct (m_block2 req1) as [b2|]; [destruct (b_num b2 =? 0)|]; intros [-> B].
  - left. split; [reflexivity|]. subst r0. destruct (needs_chunking req1 rendering); [right; eexists|left]; reflexivity.
  - right. split; [reflexivity|]. destruct B as [B|(Rn & G & B)]; [left; exact B|right; eauto].
  - left. split; [reflexivity|]. subst r0. destruct (needs_chunking req1 rendering); [right; eexists|left]; reflexivity.
Qed.
Lemma resp_ok_calls ga' gr req rendering calls res : resp_ok ga' gr req rendering calls res ->
  calls = [] \/ exists req1, calls = [req1] /\ taken_ok ga' req (ROk req1).
Proof.
  intros [(e & Hc & _)|(req1 & r0 & Tk & B & _)]; [left; exact Hc|].
  destruct (block2_ok_inv _ _ _ _ _ B) as [[-> _]|[-> _]]; eauto.
Qed.

Lemma block_code R n szx mps b1 :
  p_code (render_result (extract_block R n szx mps) b1) = p_code R \/ p_code (render_result (extract_block R n szx mps) b1) = BAD_REQUEST.
Proof. rewrite extract_block_spec. cbn zeta. destruct (b2_start szx n >=? blen (p_payload R)); [right|left]; reflexivity. Qed.

(* where the code of an answer comes from: the three codes the blockwise layer produces itself, the rendering of this
   request, or a stored rendering *)
Lemma resp_ok_code ga' gr req rendering calls res : resp_ok ga' gr req rendering calls res ->
  In (p_code res) [CONTINUE; BAD_REQUEST; REQUEST_ENTITY_INCOMPLETE] \/ p_code res = p_code rendering \/
  exists k Rn, gr k = Some Rn /\ p_code res = p_code Rn.
Proof.
  intros [(e & _ & -> & Tk)|(req1 & r0 & _ & B & ->)].
  - left. unfold taken_ok in Tk. destruct (m_block1 req) as [b|]; [|contradiction].
    destruct Tk as [[_ ->]|[[_ ->]|(_ & _ & ->)]]; cbn; auto.
  - destruct (block2_ok_inv _ _ _ _ _ B) as [[_ [->|(szx & ->)]]|[_ [->|(Rn & n & szx & G & ->)]]].
    + right. left. reflexivity.
    + destruct (block_code rendering 0 szx (m_mps req1) (m_block1 req1)) as [-> | ->]; cbn; auto.
    + left. cbn; auto.
    + destruct (block_code Rn n szx (m_mps req1) (m_block1 req1)) as [-> | ->]; [right; right; eauto|cbn; auto].
Qed.

Record ghost := { g_asm : nat -> gasm; g_rend : nat -> grend; g_latest : nat -> grend }.
Definition ghost_init : ghost := {| g_asm := fun _ _ => None; g_rend := fun _ _ => None; g_latest := fun _ _ => None |}.
Definition fset {A} (f : nat -> A) (i : nat) (v : A) : nat -> A := fun j => if Nat.eqb j i then v else f j.
Definition step_ghost (T : Z) (sv : server) (gh : ghost) (e : event) : ghost :=
  match e with
  | Advance _ => gh
  | Request i req rendering =>
    let s := nth i (resources sv) rstate_empty in
    {| g_asm := fset (g_asm gh) i (ghost1_step (g_asm gh i) req);
       g_rend := fset (g_rend gh) i (grend_step T (now sv) (g_rend gh i) (block1 s) req rendering);
       g_latest := fset (g_latest gh) i (glatest_stage T (now sv) (g_latest gh i) (block1 s) req rendering) |}
  end.
Definition server_inv (gh : ghost) (sv : server) : Prop :=
  forall i, spool_inv (g_asm gh i) (block1 (nth i (resources sv) rstate_empty)) /\
            cache_inv (g_rend gh i) (block2 (nth i (resources sv) rstate_empty)) /\
            gasm_wf (g_asm gh i) /\ stored_is_latest (g_rend gh i) (g_latest gh i).
Definition wf_event (e : event) : Prop := match e with Request _ req _ => wf_req req | Advance _ => True end.
Definition out_ok (T : Z) (sv : server) (gh : ghost) (e : event) (o : output) : Prop :=
  match e, o with
  | Request i req rendering, ORequest calls res _ _ =>
      resp_ok (g_asm (step_ghost T sv gh e) i) (g_rend gh i) req rendering calls res /\ gasm_wf (g_asm (step_ghost T sv gh e) i)
  | Advance _, OAdvance _ => True
  | _, _ => False
  end.
Fixpoint run_ok (T : Z) (sv : server) (gh : ghost) (es : list event) (os : list output) : Prop :=
  match es, os with
  | [], [] => True
  | e :: es', o :: os' => out_ok T sv gh e o /\ run_ok T (fst (step T sv e)) (step_ghost T sv gh e) es' os'
  | _, _ => False
  end.

Lemma nth_set_nth {A} (l : list A) i j x d :
  nth j (set_nth i x l) d = if (Nat.eqb j i && (i <? length l)%nat)%bool then x else nth j l d.
Proof.
  revert l j. induction i as [|i IH]; intros [|y l] j; cbn [set_nth].
  - rewrite andb_false_r. reflexivity.
  - destruct j; reflexivity.
  - rewrite andb_false_r. reflexivity.
  - destruct j as [|j]; [reflexivity|]. cbn [nth length]. rewrite IH. reflexivity.
Qed.
Lemma nth_map_default {A} (f : A -> A) l i d : f d = d -> nth i (map f l) d = f (nth i l d).
Proof. intros H. rewrite <- H at 1. apply map_nth. Qed.
Lemma fset_same {A} (f : nat -> A) i v : fset f i v i = v.
Proof. unfold fset. rewrite Nat.eqb_refl. reflexivity. Qed.
Lemma fset_other {A} (f : nat -> A) i j v : j <> i -> fset f i v j = f j.
Proof. intros N. unfold fset. destruct (Nat.eqb j i) eqn:E; [apply Nat.eqb_eq in E; contradiction|reflexivity]. Qed.

Lemma server_inv_init n : server_inv ghost_init (server_init n).
Proof.
  intros i. cbn. rewrite nth_repeat.
  split; [apply spool_inv_empty|]. split; [apply cache_inv_empty|]. split; intros k bs H; discriminate.
Qed.

Lemma step_inv T sv gh e : wf_event e -> server_inv gh sv ->
  server_inv (step_ghost T sv gh e) (fst (step T sv e)) /\ out_ok T sv gh e (snd (step T sv e)).
Proof.
  intros We I. destruct e as [i req rendering|dt].
  - cbn [wf_event] in We. destruct (I i) as (I1 & I2 & I3 & I4).
    pose proof (render_to_pipe_inv T (now sv) (g_asm gh i) (g_rend gh i) (nth i (resources sv) rstate_empty) req rendering We I1 I2) as Rp.
    pose proof (ghost1_step_wf (g_asm gh i) req I3) as W.
    cbn [step]. destruct (render_to_pipe T (now sv) (nth i (resources sv) rstate_empty) req rendering) as [[s' calls] res].
    destruct Rp as (R1 & R2 & R3). cbn [fst snd]. split.
    + intros j. cbn [resources step_ghost g_asm g_rend g_latest]. rewrite nth_set_nth.
      destruct (Nat.eqb_spec j i) as [->|N]; cbn [andb]; [|rewrite !fset_other by exact N; exact (I j)].
      rewrite !fset_same. pose proof (fun sp => stored_is_latest_stage T (now sv) _ _ sp req rendering I4) as L.
      destruct (i <? length (resources sv))%nat eqn:Lt; [split; [exact R1|split; [exact R2|split; [exact W|apply L]]]|].
      (* no such resource: the state stays empty whatever the references become *)
      rewrite nth_overflow by (apply Nat.ltb_ge; exact Lt).
      split; [apply spool_inv_empty|]. split; [apply cache_inv_empty|]. split; [exact W|apply L].
    + cbn [out_ok step_ghost g_asm]. rewrite fset_same. split; [exact R3|exact W].
  - cbn [step fst snd step_ghost out_ok]. split; [|exact Logic.I]. intros j. cbn [resources].
    rewrite nth_map_default by reflexivity. destruct (I j) as (I1 & I2 & I3 & I4). unfold rstate_advance; cbn [block1 block2].
    split; [apply spool_inv_advance; exact I1|]. split; [apply cache_inv_advance; exact I2|split; [exact I3|exact I4]].
Qed.

Lemma run_cons T sv e es :
  run T sv (e :: es) = (fst (run T (fst (step T sv e)) es), snd (step T sv e) :: snd (run T (fst (step T sv e)) es)).
Proof. cbn [run]. destruct (step T sv e) as [sv1 o]. cbn [fst snd]. destruct (run T sv1 es). reflexivity. Qed.

Theorem run_refines T es : forall sv gh, Forall wf_event es -> server_inv gh sv -> run_ok T sv gh es (snd (run T sv es)).
Proof.
  induction es as [|e es IH]; intros sv gh F I; [exact Logic.I|].
  inversion F as [|? ? We Fr]; subst. rewrite run_cons. cbn [snd run_ok].
  destruct (step_inv T sv gh e We I) as [I' O]. split; [exact O|exact (IH _ _ Fr I')].
Qed.

Fixpoint run_ghost (T : Z) (sv : server) (gh : ghost) (es : list event) : ghost :=
  match es with
  | [] => gh
  | e :: r => run_ghost T (fst (step T sv e)) (step_ghost T sv gh e) r
  end.
Lemma run_inv T es : forall sv gh, Forall wf_event es -> server_inv gh sv ->
  server_inv (run_ghost T sv gh es) (fst (run T sv es)).
Proof.
  induction es as [|e es IH]; intros sv gh F I; [exact I|].
  inversion F as [|? ? We Fr]; subst. rewrite run_cons. cbn [fst run_ghost].
  exact (IH _ _ Fr (proj1 (step_inv T sv gh e We I))).
Qed.
Definition reachable (T : Z) (sv : server) (gh : ghost) : Prop :=
  exists n es, Forall wf_event es /\ sv = fst (run T (server_init n) es) /\ gh = run_ghost T (server_init n) ghost_init es.
Lemma reachable_inv T sv gh : reachable T sv gh -> server_inv gh sv.
Proof. intros (n & es & F & -> & ->). apply run_inv; [exact F|apply server_inv_init]. Qed.
Lemma reachable_tables T sv gh : reachable T sv gh -> forall i,
  let s := nth i (resources sv) rstate_empty in
  spool_inv (g_asm gh i) (block1 s) /\ cache_inv (g_rend gh i) (block2 s) /\ gasm_wf (g_asm gh i) /\
  stored_is_latest (g_rend gh i) (g_latest gh i).
Proof. intros R i. exact (reachable_inv T sv gh R i). Qed.

Lemma handler_bodies T now ga s req rendering :
  wf_req req -> spool_inv ga (block1 s) -> gasm_wf ga ->
  forall c, In c (snd (fst (render_to_pipe T now s req rendering))) ->
  match m_block1 req with
  | None => c = req
  | Some b =>
    b_more b = false /\
    exists bs, ghost1_step ga req (extract_block_key req) = Some bs /\ chain (extract_block_key req) bs /\
               last bs req = req /\ assembled_from c bs
  end.
Proof.
  intros Wr I1 W c Hc.
  (* nothing is asked of the cache: it is its own reference *)
  pose proof (render_to_pipe_inv T now ga (fun k => kget k (block2 s)) s req rendering Wr I1 (fun k R H => H)) as Rp.
  destruct (render_to_pipe T now s req rendering) as [[s' calls] res]. destruct Rp as (_ & _ & R3). cbn [fst snd] in Hc.
  destruct (resp_ok_calls _ _ _ _ _ _ R3) as [->|(req1 & -> & Tk)]; [contradiction|].
  destruct Hc as [<-|[]]. unfold taken_ok in Tk. destruct (m_block1 req) as [b|]; [|exact Tk].
  destruct Tk as (Hm & bs & G & A & L & _). split; [exact Hm|]. exists bs. split; [exact G|].
  split; [exact (ghost1_step_wf ga req W _ _ G)|]. split; assumption.
Qed.

Lemma block1_table T now ga s req rendering b :
  m_block1 req = Some b -> spool_inv ga (block1 s) ->
  let k := extract_block_key req in
  let '(s', calls, res) := render_to_pipe T now s req rendering in
  (b_more b = true -> b_num b = 0 -> calls = [] /\ res = continue_resp b /\ kget k (block1 s') = Some req) /\
  (b_num b <> 0 -> kget k (block1 s) = None -> calls = [] /\ res = incomplete_resp /\ s' = s) /\
  (forall asm, b_num b <> 0 -> kget k (block1 s) = Some asm ->
     (size_ok b req = false -> calls = [] /\ res = bad_request_resp txt_size_mismatch /\ kget k (block1 s') = Some asm) /\
     (size_ok b req = true -> b_start b <> blen (m_payload asm) -> calls = [] /\ res = incomplete_resp /\ kget k (block1 s') = Some asm) /\
     (size_ok b req = true -> b_start b = blen (m_payload asm) -> b_more b = true ->
        calls = [] /\ res = continue_resp b /\ kget k (block1 s') = Some (appended asm req b))) /\
  (forall k', k' <> k -> kget k' (block1 s') = kget k' (block1 s)).
Proof.
  intros Hb I k.
  pose proof (fun k' => fat_frame T now ga (block1 s) req k' I) as D. rewrite <- rtp_block1 with (rendering := rendering) in D.
  pose proof (spool_error_keeps_cache T now s req rendering) as E.
  pose proof (fat_eq T now (block1 s) req (spool_inv_request ga _ I _)) as F. unfold fat_spec, fat_take in F. rewrite Hb in F. fold k in F.
  destruct (render_to_pipe T now s req rendering) as [[s' calls] res]. cbn [fst] in D.
  split; [|split; [|split; [|exact D]]].
  - intros Hm Hn. rewrite Hn, Hm in F. injection (E _ _ F) as -> -> ->. repeat split. apply kget_setitem_same.
  - intros Hn Hg. rewrite (proj2 (Z.eqb_neq _ _) Hn), Hg in F. injection (E _ _ F) as -> -> ->. destruct s; repeat split.
  - intros asm Hn Hg. rewrite (proj2 (Z.eqb_neq _ _) Hn), Hg in F. split; [|split].
    + intros S. rewrite S in F. injection (E _ _ F) as -> -> ->. repeat split. cbn [block1]. rewrite kget_accessed. exact Hg.
    + intros S St. rewrite S, (proj2 (Z.eqb_neq _ _) St) in F.
      injection (E _ _ F) as -> -> ->. repeat split. cbn [block1]. rewrite kget_accessed. exact Hg.
    + intros S St Hm. rewrite S, St, Z.eqb_refl, Hm in F. injection (E _ _ F) as -> -> ->. repeat split. apply kget_mutate_same.
Qed.

(* a predicate on codes that holds of 2.31, 4.00, 4.08 and of every rendering the handlers return holds of every answer;
   [c <> 5.00] and "not of class 5" are the instances *)
Section Codes.
  Variable P : Z -> Prop.
  Hypothesis own_codes : P CONTINUE /\ P BAD_REQUEST /\ P REQUEST_ENTITY_INCOMPLETE.
  Definition ev_codes (e : event) : Prop := match e with Request _ _ r => P (p_code r) | Advance _ => True end.
  Definition out_codes (o : output) : Prop := match o with ORequest _ res _ _ => P (p_code res) | OAdvance _ => True end.
  Definition rend_codes (gh : ghost) : Prop := forall i k R, g_rend gh i k = Some R -> P (p_code R).

  Lemma step_codes T sv gh e : wf_event e -> ev_codes e -> server_inv gh sv -> rend_codes gh ->
    rend_codes (step_ghost T sv gh e) /\ out_codes (snd (step T sv e)).
  Proof.
    intros We Ce I Rc. destruct e as [i req rendering|dt]; [|split; [exact Rc|exact Logic.I]]. split.
    - intros j k R. cbn [step_ghost g_rend].
      destruct (Nat.eq_dec j i) as [->|N]; [rewrite fset_same|rewrite fset_other by exact N; apply Rc].
      unfold grend_step. destruct (feed_and_take T (now sv) (block1 (nth i (resources sv) rstate_empty)) req) as [sp [req1|e]]; [|apply Rc].
      apply (ghost2_step_P (fun R => P (p_code R))); [apply Rc|exact Ce].
    - generalize (proj2 (step_inv T sv gh _ We I)).
      destruct (snd (step T sv (Request i req rendering))) as [calls res n1 n2|sz]; cbn [out_ok out_codes]; [intros [O _]|intros []].
      destruct (resp_ok_code _ _ _ _ _ _ O) as [H|[H|(k & Rn & G & H)]].
      + destruct own_codes as (P1 & P2 & P3). cbn in H. destruct H as [<-|[<-|[<-|[]]]]; assumption.
      + rewrite H. exact Ce.
      + rewrite H. exact (Rc i k Rn G).
  Qed.
  Lemma run_codes T es : forall sv gh, Forall wf_event es -> Forall ev_codes es -> server_inv gh sv -> rend_codes gh ->
    Forall out_codes (snd (run T sv es)).
  Proof.
    induction es as [|e es IH]; intros sv gh F C I Rc; [constructor|].
    inversion F as [|? ? We Fr]; subst. inversion C as [|? ? Ce Cr]; subst. rewrite run_cons. cbn [snd].
    destruct (step_codes T sv gh e We Ce I Rc) as [Rc' Oc].
    constructor; [exact Oc|exact (IH _ _ Fr Cr (proj1 (step_inv T sv gh e We I)) Rc')].
  Qed.
  Lemma run_codes_init T n es : Forall wf_event es -> Forall ev_codes es -> Forall out_codes (snd (run T (server_init n) es)).
  Proof.
    intros F C. apply (run_codes T es (server_init n) ghost_init F C (server_inv_init n)). intros i k R H. discriminate.
  Qed.
End Codes.

Definition ev_code_ok (e : event) : Prop := match e with Request _ _ r => p_code r <> INTERNAL_SERVER_ERROR | Advance _ => True end.
Definition out_code_ok (o : output) : Prop := match o with ORequest _ res _ _ => p_code res <> INTERNAL_SERVER_ERROR | OAdvance _ => True end.
Definition is_5xx (c : Z) : bool := (160 <=? c) && (c <? 192).
Definition ev_class_ok (e : event) : Prop := match e with Request _ _ r => is_5xx (p_code r) = false | Advance _ => True end.
Definition out_class_ok (o : output) : Prop := match o with ORequest _ res _ _ => is_5xx (p_code res) = false | OAdvance _ => True end.

(* overlapping renderings (schedule model).  With a handler that returns at once the schedule model is the atomic model:
   [SBegin] directly followed by its [SFinish] is the [Request] step (requests without Block1 that make the handler
   render): the builder is still the latest one of its key when it returns *)
Lemma eoi_late_true T now ca req rendering : match m_block2 req with Some b2 => b_num b2 = 0 | None => True end ->
  extract_or_insert T now ca req rendering =
  let '(ca', r) := extract_or_insert_late T now ca req rendering true in (ca', [req], r).
Proof.
  intros Hb. rewrite (eoi_first T now ca req rendering Hb). cbn zeta.
  unfold extract_or_insert_late. fold (needs_chunking req rendering).
  destruct (m_block2 req) as [b2|]; [rewrite Hb|]; destruct (needs_chunking req rendering); reflexivity.
Qed.
Lemma atomic_schedule_is_request T st id req rendering : m_block1 req = None -> is_first req = true ->
  let '(st1, o1) := sstep T st (SBegin id req) in
  let '(st2, o2) := sstep T st1 (SFinish id rendering) in
  let '(s', calls, res) := render_to_pipe T (s_now st) (s_res st) req rendering in
  o1 = SOBegin calls /\ o2 = SOFinish (Some res) (snd (rsizes s')) /\ s_res st2 = s' /\ s_now st2 = s_now st.
Proof.
  intros H1 Hf. cbn [sstep]. cbn [s_pending pending_get s_now s_res s_latest]. rewrite Z.eqb_refl.
  rewrite (alist_get_set_same key_eqb key_eqb_eq), Z.eqb_refl.
  rewrite rtp_eq, (fat_none T (s_now st) (block1 (s_res st)) req H1).
  rewrite (eoi_late_true T (s_now st) (block2 (s_res st)) req rendering (is_first_hyp req Hf)).
  destruct (extract_or_insert_late T (s_now st) (block2 (s_res st)) req rendering true) as [ca r].
  rewrite H1. destruct r as [x|e]; repeat split.
Qed.

(* under overlap the stored rendering of a key is the one returned by the handler of the LATEST begun rendering request
   of that key *)
Record sghost := { sg_latest : key -> option Z;            (* id of the latest begun rendering request of the key *)
                   sg_fin : key -> option (Z * resp) }.    (* (id, rendering) once that request's handler has returned and the rendering was stored *)
Definition sghost_init : sghost := {| sg_latest := fun _ => None; sg_fin := fun _ => None |}.
Definition marker (st : sstate) (k : key) : option Z := alist_get key_eqb k (s_latest st).
Definition sghost_step (st : sstate) (g : sghost) (e : sevent) : sghost :=
  match e with
  | SBegin id req =>
    let k := extract_block_key req in {| sg_latest := gset (sg_latest g) k id; sg_fin := gclr (sg_fin g) k |}
  | SFinish id rendering =>
    match pending_get id (s_pending st) with
    | None => g
    | Some req =>
      let k := extract_block_key req in
      if match marker st k with Some i => i =? id | None => false end
      then {| sg_latest := sg_latest g;
              sg_fin := if needs_chunking req rendering then gset (sg_fin g) k (id, rendering) else gclr (sg_fin g) k |}
      else g
    end
  | SLater _ => g
  | SAdvance _ => g
  end.
Definition wf_sevent (e : sevent) : Prop :=
  match e with
  | SLater req => m_block1 req = None /\ exists b2, m_block2 req = Some b2 /\ b_num b2 <> 0
  | _ => True
  end.
Definition sinv (st : sstate) (g : sghost) : Prop :=
  (forall k i, marker st k = Some i -> sg_latest g k = Some i) /\
  (forall k R, marker st k = None -> kget k (block2 (s_res st)) = Some R -> exists i, sg_fin g k = Some (i, R)) /\
  (forall k i R, sg_fin g k = Some (i, R) -> sg_latest g k = Some i).

Lemma sinv_init : sinv sstate_init sghost_init.
Proof. split; [|split]; intros; discriminate. Qed.
(* the invariant looks at the state through the markers and the content of the cache, and is monotone in the latter *)
Lemma sinv_shrink st st' g : sinv st g -> s_latest st' = s_latest st ->
  (forall k R, kget k (block2 (s_res st')) = Some R -> kget k (block2 (s_res st)) = Some R) -> sinv st' g.
Proof.
  intros (M & C & F) El Hc. unfold sinv, marker. rewrite El. split; [exact M|split; [|exact F]].
  intros k R Mn H. exact (C k R Mn (Hc k R H)).
Qed.

Lemma eoi_late_cache T now ca req rendering is_latest :
  fst (extract_or_insert_late T now ca req rendering is_latest) =
    if is_latest then (if needs_chunking req rendering then td_setitem key_eqb T now (extract_block_key req) rendering ca
                       else td_pop key_eqb (extract_block_key req) ca)
    else ca.
Proof.
  unfold extract_or_insert_late. fold (needs_chunking req rendering).
  destruct (needs_chunking req rendering), is_latest; reflexivity.
Qed.

Lemma sstep_inv T st g e : wf_sevent e -> sinv st g -> sinv (fst (sstep T st e)) (sghost_step st g e).
Proof.
  intros We I. destruct e as [id req|id rendering|req|dt].
  - (* a rendering request arrives: it becomes the latest builder of its key *)
    destruct I as (M & C & F).
    cbn [sstep fst sghost_step]. set (k0 := extract_block_key req). unfold sinv, marker; cbn [s_latest s_res sg_latest sg_fin].
    split; [|split]; intros k; destruct (key_dec k k0) as [->|N].
    + rewrite (alist_get_set_same key_eqb key_eqb_eq), gset_same. auto.
    + rewrite (alist_get_set_other key_eqb key_eqb_eq), gset_other by exact N. apply M.
    + rewrite (alist_get_set_same key_eqb key_eqb_eq). discriminate.
    + rewrite (alist_get_set_other key_eqb key_eqb_eq), gclr_other by exact N. apply C.
    + rewrite gclr_same. discriminate.
    + rewrite gclr_other, gset_other by exact N. apply F.
  - (* a handler returns: only the latest builder of its key stores or evicts, and it is then no longer pending *)
    cbn [sstep sghost_step]. destruct (pending_get id (s_pending st)) as [req|]; [|exact I].
    set (k0 := extract_block_key req). fold (marker st k0).
    set (latest := match marker st k0 with Some i => i =? id | None => false end).
    pose proof (eoi_late_cache T (s_now st) (block2 (s_res st)) req rendering latest) as Ec. fold k0 in Ec.
    destruct (extract_or_insert_late T (s_now st) (block2 (s_res st)) req rendering latest) as [ca r]. cbn [fst] in Ec |- *. subst ca.
    destruct latest eqn:L; [|apply (sinv_shrink st _ g I); [reflexivity|auto]].
    destruct I as (M & C & F).
    assert (Mk : marker st k0 = Some id).
    { subst latest. destruct (marker st k0) as [i|]; [|discriminate]. apply Z.eqb_eq in L. congruence. }
    unfold sinv, marker; cbn [s_latest s_res block2 sg_latest sg_fin]. split; [|split].
    + intros k i. rewrite (alist_get_remove key_eqb key_eqb_eq). destruct (key_eqb k k0); [discriminate|apply M].
    + intros k R. rewrite (alist_get_remove key_eqb key_eqb_eq). destruct (key_dec k k0) as [->|N].
      * intros _. destruct (needs_chunking req rendering).
        -- rewrite kget_setitem_same, gset_same. intros [= <-]. eauto.
        -- rewrite kget_pop_same. discriminate.
      * rewrite key_eqb_neq by exact N. intros Mn. destruct (needs_chunking req rendering).
        -- rewrite kget_setitem_other by exact N. rewrite gset_other by exact N. exact (C k R Mn).
        -- rewrite kget_pop_other by exact N. rewrite gclr_other by exact N. exact (C k R Mn).
    + intros k i R. destruct (key_dec k k0) as [->|N].
      * destruct (needs_chunking req rendering); [rewrite gset_same; intros [= <- _]; exact (M k0 id Mk)|rewrite gclr_same; discriminate].
      * destruct (needs_chunking req rendering); [rewrite gset_other by exact N|rewrite gclr_other by exact N]; apply F.
  - (* a later block: the cache keeps its content *)
    destruct We as (H1 & b2 & H2 & Hn). cbn [sstep sghost_step].
    rewrite (rtp_later T (s_now st) (s_res st) req _ b2 H1 H2 Hn).
    destruct (kget (extract_block_key req) (block2 (s_res st))) as [Rn|] eqn:Hg; cbn [fst]; apply (sinv_shrink st _ g I); try reflexivity; cbn [s_res block2]; [|auto].
    intros k R H. rewrite (kget_refresh _ _ _ k _ Rn Hg) in H. exact H.
  - cbn [sstep fst sghost_step]. apply (sinv_shrink st _ g I); [reflexivity|]. intros k R. apply kget_advance.
Qed.

Fixpoint srun_state (T : Z) (st : sstate) (g : sghost) (es : list sevent) : sstate * sghost :=
  match es with
  | [] => (st, g)
  | e :: r => srun_state T (fst (sstep T st e)) (sghost_step st g e) r
  end.
Lemma srun_state_inv T es : forall st g, Forall wf_sevent es -> sinv st g ->
  sinv (fst (srun_state T st g es)) (snd (srun_state T st g es)).
Proof.
  induction es as [|e es IH]; intros st g F I; [exact I|].
  inversion F as [|? ? We Fr]; subst. cbn [srun_state]. apply IH; [exact Fr|]. apply sstep_inv; assumption.
Qed.

Lemma sinv_stored st g k Rn : sinv st g -> marker st k = None -> kget k (block2 (s_res st)) = Some Rn ->
  exists i, sg_fin g k = Some (i, Rn) /\ sg_latest g k = Some i.
Proof. intros (_ & C & F) Mn Hg. destruct (C k Rn Mn Hg) as (i & Fi). exists i. split; [exact Fi|exact (F k i Rn Fi)]. Qed.
