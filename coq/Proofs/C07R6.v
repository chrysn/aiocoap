(* C07 — over every datagram history of the stack model, an end signal handed to the observer means the observation's token
   is released at the end of the history, and every later confirmable notification on it is answered with a Reset: the
   hypothesis [k_token k = false] of late_notification_rejected becomes derivable.  The argument, one walk over the stack's
   call tree ([str]): every step moves the requester model by transitions in which an end signal for k ends the pipe's
   interest ([tr]), and keeps the token held only while the interest lasts (WF). *)
From Verif Require Import Lib.Py Lib.Tactics Model.C07 Model.C07Stack Proofs.C07 Proofs.C07Stack.
Open Scope Z_scope.

(* not the type Proofs.C07.sig: the predicate "observer k is handed an end signal among outs" *)
Definition sig (k : Z) (outs : list out) : Prop := end_signals (view k outs) <> [].

Lemma sig_app k a b : sig k (a ++ b) -> sig k a \/ sig k b.
Proof.
  unfold sig. rewrite view_app, end_signals_app. destruct (end_signals (view k a)); [right; exact H|left; discriminate].
Qed.

(* a transition of the requester: an end signal for k ends the pipe's interest; an ended interest stays ended *)
Definition tr (k : Z) (s s' : sys) (outs : list out) : Prop :=
  (sig k outs -> s_ended s' = true) /\ (s_ended s = true -> s_ended s' = true).

Lemma tr_silent k s s' outs : view k outs = [] -> s_ended s' = s_ended s -> tr k s s' outs.
Proof. intros V E. unfold tr, sig. rewrite V, E. split; [intros H; elim H; reflexivity|auto]. Qed.
Lemma tr_id k s : tr k s s []. Proof. apply tr_silent; reflexivity. Qed.
Lemma tr_comp k s s1 s2 o1 o2 : tr k s s1 o1 -> tr k s1 s2 o2 -> tr k s s2 (o1 ++ o2).
Proof. intros [A1 A2] [B1 B2]. split; auto. intros H. apply sig_app in H as [H|H]; auto. Qed.

Lemma tr_add_event k s now ev : tr k s (fst (add_event s now ev)) (snd (add_event s now ev)).
Proof.
  split; [apply add_event_end_signal_ends|]. intros E. rewrite add_event_ended by exact E. exact E.
Qed.
Lemma tr_drain k s : tr k s (fst (drain s)) (snd (drain s)).
Proof. apply tr_silent; [apply drain_view|apply drain_ended]. Qed.
Lemma tr_registered k s it l : cnt k [l] = O -> tr k s (fst (registered s it l)) (snd (registered s it l)).
Proof. intros H. apply tr_silent; [apply (registered_other k s it l H)|apply registered_ended]. Qed.

(* every op of the requester: an event and a loop run as above; the application's cancels and registrations hand k nothing
   (response.cancel() ends the interest itself), and what is composed of these composes *)
Lemma tr_step k s o : (forall k', o = OpRegister k' -> k' <> k) -> tr k s (fst (step s o)) (snd (step s o)).
Proof.
  intros Hk. destruct o as [now ev| | |k'| |]; [apply tr_add_event| | | | |apply tr_drain].
  - cbn [step]. destruct (negb (s_has_obs s)); [|destruct (cancelled (s_obs s))]; apply tr_silent; reflexivity.
  - rewrite step_cancel_resp. destruct (s_resp s); [|apply tr_drain..]. cbn [fst snd].
    apply (tr_comp k s (resp_cancelled s)); [split; reflexivity|apply tr_drain].
  - rewrite step_register. destruct (negb (s_has_obs s)); [apply tr_id|]. apply tr_registered, cnt_other, Hk. reflexivity.
  - rewrite step_iter. destruct (negb (s_has_obs s) || it_started (s_iter s)); [apply tr_drain|]. cbn [fst snd].
    apply (tr_comp k s (fst (registered s idle LIterator))); [apply tr_registered; reflexivity|apply tr_drain].
Qed.

(* a transition of the stack: the requester moves by [tr], and the token stays registered only while the interest lasts *)
Definition str (k : Z) (st st' : stack) (outs : list out) : Prop :=
  tr k (k_sys st) (k_sys st') outs /\ (WF st -> WF st').

Lemma str_id k st : str k st st []. Proof. split; [apply tr_id|auto]. Qed.
Lemma str_comp k st st1 st2 o1 o2 : str k st st1 o1 -> str k st1 st2 o2 -> str k st st2 (o1 ++ o2).
Proof. intros [A1 A2] [B1 B2]. split; [exact (tr_comp _ _ _ _ _ _ A1 B1)|auto]. Qed.
(* whatever the stack does to the requester, it ends in [sync], which drops the token with the interest *)
Lemma str_sync k st st0 s' tok ex outs : tr k (k_sys st) s' outs -> str k st (sync st0 s' tok ex) outs.
Proof. intros T. split; [exact T|intros _; apply WF_sync]. Qed.

Lemma str_drain_stack k st : str k st (fst (drain_stack st)) (snd (drain_stack st)).
Proof. rewrite drain_stack_eq. apply str_sync, tr_drain. Qed.

Lemma str_add_event k st st0 now ev tok ex :
  str k st (sync st0 (fst (add_event (k_sys st) now ev)) tok ex) (snd (add_event (k_sys st) now ev)).
Proof. apply str_sync, tr_add_event. Qed.

Lemma str_dispatch_error k st e : str k st (fst (dispatch_error st e)) (snd (dispatch_error st e)).
Proof.
  unfold dispatch_error. destruct (k_token st); [|apply str_sync, tr_id].
  pose proof (str_add_event k st st 0 (EvExn e) true None) as T. destruct (add_event _ _ _) as [s' o]. exact T.
Qed.
Lemma str_timeouts k st now : str k st (fst (timeouts st now)) (snd (timeouts st now)).
Proof.
  unfold timeouts. destruct (k_exchange st) as [d|]; [|apply str_id]. destruct (d <=? now); [apply str_dispatch_error|apply str_id].
Qed.
Lemma str_pass_time k st now : str k st (fst (pass_time st now)) (snd (pass_time st now)).
Proof.
  unfold pass_time. destruct (k_now st <? now); [|apply str_id].
  pose proof (str_drain_stack k st) as T1. destruct (drain_stack st) as [k1 o1].
  pose proof (str_timeouts k k1 now) as T2. destruct (timeouts k1 now) as [k2 o2].
  pose proof (str_drain_stack k k2) as T3. destruct (drain_stack k2) as [k3 o3]. cbn [fst snd] in *.
  exact (str_comp _ _ _ _ _ _ T1 (str_comp _ _ _ _ _ _ T2 T3)).
Qed.
Lemma str_process_response k st now id observe tok :
  str k st (fst (fst (process_response st now id observe tok))) (snd (fst (process_response st now id observe tok))).
Proof.
  unfold process_response. destruct (negb (tok && k_token st)); [apply str_id|]. cbv zeta.
  set (ev := EvMsg id observe _). pose proof (str_add_event k st st now ev) as T. destruct (add_event (k_sys st) now ev) as [s' o]. apply T.
Qed.
Lemma str_empty_step k st now mt mid : str k st (fst (empty_step st now mt mid)) (apps (snd (empty_step st now mt mid))).
Proof.
  unfold empty_step. destruct mt, mid, (k_exchange st); cbn [fst snd apps flat_map]; try apply str_id; [apply str_sync, tr_id|].
  pose proof (str_add_event k st st now (EvExn MessageError) (k_token st) None) as T. destruct (add_event _ _ _) as [s' o].
  cbn [fst snd] in *. rewrite apps_map_App. exact T.
Qed.

Definition not_rereg (k : Z) (o : sop) : Prop := forall t k', o = SApp t (OpRegister k') -> k' <> k.

Lemma str_response_step k st now mt id observe tok mid :
  str k st (fst (response_step st now mt id observe tok mid)) (apps (snd (response_step st now mt id observe tok mid))).
Proof.
  destruct (response_step_apps st now mt id observe tok mid) as [-> ->].
  set (k1 := match mt with ACK => if mid then sync st (k_sys st) (k_token st) None else st | _ => st end).
  assert (S1 : str k st k1 []) by (unfold k1; destruct mt; try apply str_id; destruct mid; [apply str_sync, tr_id|apply str_id]).
  exact (str_comp _ _ _ _ _ _ S1 (str_process_response k k1 now id observe tok)).
Qed.

Lemma str_sstep k st o : not_rereg k o -> str k st (fst (sstep st o)) (apps (snd (sstep st o))).
Proof.
  intros Hn.
  assert (E : forall n mt mid, str k st (fst (sstep st (SEmpty n mt mid))) (apps (snd (sstep st (SEmpty n mt mid))))).
  { intros n mt mid. unfold sstep. pose proof (str_pass_time k st n) as T0. destruct (pass_time st n) as [k0 outs0].
    pose proof (str_empty_step k k0 n mt mid) as TX. destruct (empty_step k0 n mt mid) as [k' outs']. cbn [fst snd] in *.
    rewrite apps_app, apps_map_App. exact (str_comp _ _ _ _ _ _ T0 TX). }
  destruct o as [n mt id observe tok mid | n mt mid | n | n a]; [|apply E|unfold sstep..].
  - destruct (rst_or_not mt) as [->|D]; [apply (E n RST mid)|]. rewrite sstep_response by exact D.
    pose proof (str_pass_time k st n) as T0. destruct (pass_time st n) as [k0 outs0].
    pose proof (str_response_step k k0 n mt id observe tok mid) as TX. destruct (response_step k0 n mt id observe tok mid) as [k' outs'].
    cbn [fst snd] in *. rewrite apps_app, apps_map_App. exact (str_comp _ _ _ _ _ _ T0 TX).
  - pose proof (str_pass_time k st n) as [T0 _]. destruct (pass_time st n) as [k0 outs0].
    pose proof (str_dispatch_error k k0 NetworkError) as [TX _]. destruct (dispatch_error k0 NetworkError) as [k1 outs]. cbn [fst snd] in *.
    rewrite apps_app, !apps_map_App. apply str_sync. exact (tr_comp _ _ _ _ _ _ T0 TX).
  - pose proof (str_pass_time k st n) as [T0 _]. destruct (pass_time st n) as [k0 outs0].
    assert (Ha : forall k', a = OpRegister k' -> k' <> k) by (intros k' ->; apply (Hn n k'); reflexivity).
    pose proof (tr_step k (k_sys k0) a Ha) as TX. destruct (step (k_sys k0) a) as [s' outs]. cbn [fst snd] in *.
    rewrite apps_app, !apps_map_App. apply str_sync. exact (tr_comp _ _ _ _ _ _ T0 TX).
Qed.

(* the token is registered only while the pipe's interest lasts — over every history.  For a datagram this is the second
   half of str_sstep (no datagram registers anybody); an application op ends in [sync] *)
Theorem WF_sstep st o : WF st -> WF (fst (sstep st o)).
Proof.
  destruct o as [n mt id observe tok mid | n mt mid | n | n a]; [apply (str_sstep 0); intros t k' E; discriminate E..|].
  intros _. unfold sstep. destruct (pass_time st n) as [k0 outs0]. destruct (step (k_sys k0) a) as [s' outs]. apply WF_sync.
Qed.
Lemma WF_srun_state : forall ops st, WF st -> WF (srun_state st ops).
Proof. induction ops as [|o r IH]; intros st W; [exact W|]. cbn. apply IH. apply WF_sstep. exact W. Qed.

Definition history_apps (l : list (list sout)) : list out := apps (concat l).

Lemma str_srun k : forall ops st, (forall o, In o ops -> not_rereg k o) ->
  str k st (srun_state st ops) (history_apps (fst (srun st ops))).
Proof.
  induction ops as [|o r IH]; intros st Hn; [apply str_id|].
  rewrite srun_fst_cons. cbn [srun_state]. unfold history_apps. cbn [concat]. rewrite apps_app.
  eapply str_comp; [apply str_sstep; apply Hn; left; reflexivity|].
  apply IH. intros o' Hin. apply Hn. right. exact Hin.
Qed.

(* from any well-formed stack state: an end signal anywhere in the history means the token is gone at its end *)
Lemma end_signal_releases_token_from k st ops : WF st -> (forall o, In o ops -> not_rereg k o) ->
  sig k (history_apps (fst (srun st ops))) -> snd (srun st ops) = false.
Proof.
  intros W Hn S. rewrite srun_snd. destruct (str_srun k ops st Hn) as [[T _] W'].
  exact (WF_ended _ (W' W) (T S)).
Qed.

Theorem stack_end_signal_releases_token : forall k has_obs reset con t0 ops,
  (forall o, In o ops -> not_rereg k o) ->
  sig k (history_apps (fst (srun (stack0 has_obs reset con t0) (SApp t0 (OpRegister k) :: ops)))) ->
  snd (srun (stack0 has_obs reset con t0) (SApp t0 (OpRegister k) :: ops)) = false.
Proof.
  intros k has_obs reset con t0 ops Hn S.
  rewrite srun_fst_cons in S. unfold history_apps in S. cbn [concat] in S. rewrite apps_app in S.
  assert (E1 : ~ sig k (apps (snd (sstep (stack0 has_obs reset con t0) (SApp t0 (OpRegister k)))))).
  { unfold sstep, pass_time. cbn [stack0 k_now]. replace (t0 <? t0) with false by lia.
    destruct has_obs; cbn; unfold sig; cbn; rewrite ?Z.eqb_refl; cbn; congruence. }
  apply sig_app in S as [S|S]; [contradiction|].
  cbn [srun]. destruct (sstep (stack0 has_obs reset con t0) (SApp t0 (OpRegister k))) as [st1 o1] eqn:E.
  pose proof (WF_sstep (stack0 has_obs reset con t0) (SApp t0 (OpRegister k)) (WF_stack0 _ _ _ _)) as W1. rewrite E in W1. cbn [fst snd] in *.
  pose proof (end_signal_releases_token_from k st1 ops W1 Hn S) as R. destruct (srun st1 ops). exact R.
Qed.

(* ... and so the next confirmable notification on that token is answered with a Reset, a non-confirmable one is ignored,
   and nobody is told — the hypothesis of later_notifications_rejected is discharged by the history *)
Theorem stack_notification_after_end_rejected : forall k has_obs reset con t0 ops now mt id observe tok mid j,
  (forall o, In o ops -> not_rereg k o) -> (mt = CON \/ mt = NON) ->
  let hist := SApp t0 (OpRegister k) :: ops in
  sig k (history_apps (fst (srun (stack0 has_obs reset con t0) hist))) ->
  let r := sstep (srun_state (stack0 has_obs reset con t0) hist) (SResponse now mt id observe tok mid) in
  k_token (fst r) = false /\ wires (snd r) = (match mt with CON => [RST] | _ => [] end) /\ view j (apps (snd r)) = [].
Proof.
  intros k has_obs reset con t0 ops now mt id observe tok mid j Hn Hmt hist S. cbv zeta.
  apply late_notification_rejected; [|exact Hmt]. rewrite <- srun_snd. apply stack_end_signal_releases_token; assumption.
Qed.
