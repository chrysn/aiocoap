(* C01 — the kernels of the codec: bit fields of the header bytes, extended delta / length fields, minimal uints,
   Block values, the format table, the per-format value codecs.  The tactic [settle], which decides the tests of the
   translated code by lia, is defined in Proofs/C01Utf8.v. *)
From Verif Require Import Lib.Py Lib.Tactics Lib.PyLemmas Gen.options_ext Gen.optiontypes_min Gen.optnum_table Model.C01Types Model.C01Utf8 Model.C01 Model.C01Rfc Proofs.C01Utf8 Proofs.C01Parse.
Open Scope Z_scope.

(* masking with k ones shifted left by n keeps the k binary digits from position n on *)
Lemma land_field b n k : 0 <= n -> 0 <= k -> Z.land b (Z.shiftl (Z.ones k) n) = (b / 2 ^ n) mod 2 ^ k * 2 ^ n.
Proof.
  intros Hn Hk. rewrite <- Z.shiftl_mul_pow2, <- Z.land_ones, <- Z.shiftr_div_pow2 by lia.
  apply Z.bits_inj'. intros i Hi. rewrite Z.land_spec, !Z.shiftl_spec, Z.land_spec by lia.
  destruct (Z.ltb_spec i n) as [L|G].
  - rewrite !(Z.testbit_neg_r _ (i - n)) by lia. apply andb_false_r.
  - rewrite Z.shiftr_spec by lia. replace (i - n + n) with i by lia. reflexivity.
Qed.
Lemma bitfield b n k : 0 <= n -> 0 <= k -> Z.shiftr (Z.land b (Z.shiftl (Z.ones k) n)) n = (b / 2 ^ n) mod 2 ^ k.
Proof. intros Hn Hk. rewrite land_field, Z.shiftr_div_pow2, Z.div_mul by lia. reflexivity. Qed.

Lemma byte_hi b : Z.shiftr (Z.land b 240) 4 = (b / 16) mod 16.
Proof. apply (bitfield b 4 4); lia. Qed.
Lemma byte_version b : Z.shiftr (Z.land b 192) 6 = (b / 64) mod 4.
Proof. apply (bitfield b 6 2); lia. Qed.
Lemma byte_type b : Z.shiftr (Z.land b 48) 4 = (b / 16) mod 4.
Proof. apply (bitfield b 4 2); lia. Qed.
Lemma land15 x : Z.land x 15 = x mod 16.
Proof. apply (Z.land_ones x 4). lia. Qed.
Lemma land7 x : Z.land x 7 = x mod 8.
Proof. apply (Z.land_ones x 3). lia. Qed.
Lemma land3 x : Z.land x 3 = x mod 4.
Proof. apply (Z.land_ones x 2). lia. Qed.
Lemma land8 x : (Z.land x 8 =? 0) = negb ((x / 8) mod 2 =? 1).
Proof. replace (Z.land x 8) with ((x / 8) mod 2 * 8) by (symmetry; apply (land_field x 3 1); lia). lia. Qed.
Lemma shiftl4 x : Z.shiftl x 4 = x * 16.
Proof. apply (Z.shiftl_mul_pow2 x 4). lia. Qed.
Lemma shiftr4 x : Z.shiftr x 4 = x / 16.
Proof. apply (Z.shiftr_div_pow2 x 4). lia. Qed.

(* ExtField is the graph of (nibble, extended) on 0..65804 *)
Lemma ExtField_of v : 0 <= v <= 65804 -> ExtField (nibble v) (extended v) v.
Proof.
  intros H. unfold nibble, extended. destruct (v <? 13) eqn:A; [constructor; lia|].
  destruct (v <? 269) eqn:B.
  - replace v with (v - 13 + 13) at 2 by lia. constructor. lia.
  - replace v with ((v - 269) / 256 * 256 + (v - 269) mod 256 + 269) at 3 by lia. constructor; lia.
Qed.
Lemma ExtField_inv nib ext v : ExtField nib ext v -> 0 <= v <= 65804 /\ nibble v = nib /\ extended v = ext.
Proof.
  intros H. unfold nibble, extended. destruct H; settle; repeat split; try lia; repeat f_equal; lia.
Qed.
Lemma nibble_range v : 0 <= v -> 0 <= nibble v <= 14.
Proof. unfold nibble. intros H. destruct (v <? 13) eqn:A; [lia|]. destruct (v <? 269); lia. Qed.
Lemma blen_extended v : 0 <= blen (extended v) <= 2.
Proof. unfold extended. destruct (v <? 13); [cbn; lia|]. destruct (v <? 269); cbn; lia. Qed.

Lemma bytes_of_int_ok x : 0 <= x < 256 -> bytes_of_int x = Ok [x].
Proof. intros H. unfold bytes_of_int, byte_ok. replace ((0 <=? x) && (x <? 256)) with true by lia. reflexivity. Qed.
Lemma to_bytes_big_1 x : 0 <= x < 256 -> to_bytes_big x 1 = Ok [x].
Proof.
  intros H. unfold to_bytes_big. change (2 ^ (8 * 1)) with 256. settle.
  change (Z.to_nat 1) with 1%nat. rewrite tb1, Z.mod_small by lia. reflexivity.
Qed.
Lemma to_bytes_big_2 x : 0 <= x < 65536 -> to_bytes_big x 2 = Ok [x / 256; x mod 256].
Proof.
  intros H. unfold to_bytes_big. change (2 ^ (8 * 2)) with 65536. settle.
  change (Z.to_nat 2) with 2%nat. rewrite tb2, (Z.mod_small (x / 256)) by lia. reflexivity.
Qed.

Lemma write_ext_spec v : 0 <= v <= 65804 -> write_extended_field_value v = Ok (nibble v, extended v).
Proof.
  intros H. unfold write_extended_field_value, nibble, extended.
  assert (v < 13 \/ 13 <= v < 269 \/ 269 <= v) as [C|[C|C]] by lia; settle.
  - reflexivity.
  - rewrite to_bytes_big_1 by lia. reflexivity.
  - rewrite to_bytes_big_2 by lia. reflexivity.
Qed.
Lemma write_ext_reject v : v < 0 \/ 65805 <= v -> write_extended_field_value v = Raise ValueError.
Proof. intros H. unfold write_extended_field_value. settle. reflexivity. Qed.

Lemma from_bytes_big_2 a b : from_bytes_big [a; b] = a * 256 + b.
Proof. unfold from_bytes_big. cbn [from_bytes_big_acc]. lia. Qed.

(* the translated reader is the specification's parse_ext, with UnparsableMessage for None *)
Lemma read_ext_parse nib raw : 0 <= nib < 16 ->
  read_extended_field_value nib raw = match parse_ext nib raw with Some p => Ok p | None => Raise UnparsableMessage end.
Proof.
  intros H. unfold read_extended_field_value, parse_ext.
  assert (nib < 13 \/ nib = 13 \/ nib = 14 \/ nib = 15) as [C|[C|[C|C]]] by lia; try subst nib.
  - settle. reflexivity.
  - destruct raw as [|x raw]; [reflexivity|]. rewrite blen_cons. pose proof (blen_nonneg raw). settle.
    rewrite bget_cons0. reflexivity.
  - destruct raw as [|x [|y raw]]; [reflexivity|reflexivity|]. rewrite !blen_cons. pose proof (blen_nonneg raw). settle.
    rewrite <- from_bytes_big_2. reflexivity.
  - reflexivity.
Qed.
Lemma read_ext_ExtField nib ext v rest : ExtField nib ext v -> read_extended_field_value nib (ext ++ rest) = Ok (v, rest).
Proof.
  intros H. destruct (ExtField_range _ _ _ H). rewrite read_ext_parse, (parse_ext_complete _ _ _ rest H) by lia. reflexivity.
Qed.

(* uint: _to_minimum_bytes and the RFC's minimal big-endian digits both are to_bytes_big_n on bytecount n digits *)
Definition bytecount (n : Z) : Z := (bit_length n + 7) / 8.

Lemma bytecount_0 : bytecount 0 = 0. Proof. reflexivity. Qed.
Lemma bytecount_pos n : 0 < n -> bytecount n = (Z.log2 n + 8) / 8.
Proof. intros H. unfold bytecount, bit_length. replace (n <=? 0) with false by lia. f_equal. lia. Qed.
Lemma bytecount_nonneg n : 0 <= bytecount n.
Proof. unfold bytecount, bit_length. destruct (n <=? 0); [cbn; lia|]. pose proof (Z.log2_nonneg n). lia. Qed.
Lemma bytecount_step n : 0 < n -> bytecount n = bytecount (n / 256) + 1.
Proof.
  intros H. rewrite (bytecount_pos n H).
  destruct (Z.lt_ge_cases n 256) as [L|G].
  - rewrite (Z.div_small n 256) by lia. rewrite bytecount_0.
    assert (Z.log2 n < 8) by (apply Z.log2_lt_pow2; [lia|change (2 ^ 8) with 256; lia]).
    pose proof (Z.log2_nonneg n). lia.
  - assert (P : 0 < n / 256) by lia. rewrite (bytecount_pos _ P).
    replace (n / 256) with (Z.shiftr n 8) by (rewrite Z.shiftr_div_pow2 by lia; reflexivity).
    rewrite Z.log2_shiftr by lia.
    assert (8 <= Z.log2 n) by (change 8 with (Z.log2 256); apply Z.log2_le_mono; lia). lia.
Qed.
(* bytecount n is the least k with n < 256 ^ k *)
Lemma bytecount_le n k : 0 <= n -> 0 <= k -> (bytecount n <= k <-> n < 2 ^ (8 * k)).
Proof.
  intros Hn Hk. destruct (Z.eq_dec n 0) as [->|N].
  - rewrite bytecount_0. assert (0 < 2 ^ (8 * k)) by (apply Z.pow_pos_nonneg; lia). lia.
  - rewrite bytecount_pos, Z.log2_lt_pow2 by lia. lia.
Qed.
Lemma bytecount_bound n k : 0 <= k -> 0 <= n < 2 ^ (8 * k) -> bytecount n <= k.
Proof. intros Hk H. apply bytecount_le; lia. Qed.
Lemma lt_pow_bytecount n : 0 <= n -> n < 2 ^ (8 * bytecount n).
Proof. intros H. apply bytecount_le; [exact H|apply bytecount_nonneg|lia]. Qed.

Lemma to_minimum_bytes_py_eq n : 0 <= n -> to_minimum_bytes_py n = Ok (to_bytes_big_n (Z.to_nat (bytecount n)) n).
Proof.
  intros H. unfold to_minimum_bytes_py, to_bytes_big. fold (bytecount n).
  pose proof (lt_pow_bytecount n H). replace ((n <? 0) || (2 ^ (8 * bytecount n) <=? n)) with false by lia. reflexivity.
Qed.
Lemma to_minimum_bytes_py_neg n : n < 0 -> to_minimum_bytes_py n = Raise OverflowError.
Proof. intros H. unfold to_minimum_bytes_py, to_bytes_big. replace (n <? 0) with true by lia. reflexivity. Qed.

Lemma uint_digits_eq fuel : forall n, 0 <= n < 2 ^ Z.of_nat fuel -> uint_digits fuel n = to_bytes_big_n (Z.to_nat (bytecount n)) n.
Proof.
  induction fuel as [|k IH]; intros n H.
  - change (2 ^ Z.of_nat 0) with 1 in H. replace n with 0 by lia. reflexivity.
  - cbn [uint_digits]. destruct (n <=? 0) eqn:E.
    + replace n with 0 by lia. reflexivity.
    + assert (P : 0 < n) by lia. rewrite (bytecount_step n P).
      pose proof (bytecount_nonneg (n / 256)).
      replace (Z.to_nat (bytecount (n / 256) + 1)) with (S (Z.to_nat (bytecount (n / 256)))) by lia.
      cbn [to_bytes_big_n]. rewrite IH; [reflexivity|].
      rewrite Nat2Z.inj_succ, Z.pow_succ_r in H by lia. lia.
Qed.
Lemma rfc_uint_eq n : 0 <= n -> rfc_uint n = to_bytes_big_n (Z.to_nat (bytecount n)) n.
Proof.
  intros H. unfold rfc_uint. apply uint_digits_eq. split; [lia|].
  destruct (Z.eq_dec n 0) as [->|Hn]; [reflexivity|].
  pose proof (Z.log2_nonneg n). apply Z.log2_lt_pow2; lia.
Qed.

Lemma to_minimum_bytes_is_rfc n : 0 <= n -> to_minimum_bytes_py n = Ok (rfc_uint n).
Proof. intros H. rewrite rfc_uint_eq by exact H. apply to_minimum_bytes_py_eq. exact H. Qed.
Lemma from_bytes_rfc_uint n : 0 <= n -> from_bytes_big (rfc_uint n) = n.
Proof.
  intros H. rewrite rfc_uint_eq by exact H. apply from_bytes_big_to; [apply bytecount_nonneg|].
  split; [exact H|apply lt_pow_bytecount; exact H].
Qed.
Lemma rfc_uint_ok n : 0 <= n -> bytes_ok (rfc_uint n) = true.
Proof. intros H. rewrite rfc_uint_eq by exact H. apply to_bytes_big_n_ok. Qed.
Lemma blen_rfc_uint n : 0 <= n -> blen (rfc_uint n) = bytecount n.
Proof. intros H. rewrite rfc_uint_eq by exact H. unfold blen. rewrite to_bytes_big_n_length. pose proof (bytecount_nonneg n). lia. Qed.

Lemma rfc_uint_value_eq b : rfc_uint_value b = from_bytes_big b.
Proof.
  unfold rfc_uint_value, from_bytes_big. generalize 0.
  induction b as [|x b IH]; intros acc; cbn [fold_left from_bytes_big_acc]; [reflexivity|apply IH].
Qed.
Lemma from_bytes_big_acc_bounds b : forall acc, 0 <= acc -> bytes_ok b = true ->
  acc * 2 ^ (8 * blen b) <= from_bytes_big_acc acc b < (acc + 1) * 2 ^ (8 * blen b).
Proof.
  induction b as [|x b IH]; intros acc Ha Hb.
  - cbn. lia.
  - apply bytes_ok_cons_inv in Hb as [Hx Hb].
    cbn [from_bytes_big_acc]. rewrite blen_cons. pose proof (blen_nonneg b).
    replace (8 * (1 + blen b)) with (8 + 8 * blen b) by lia. rewrite Z.pow_add_r by lia. change (2 ^ 8) with 256.
    assert (A : 0 <= acc * 256 + x) by lia. specialize (IH (acc * 256 + x) A Hb).
    assert (0 < 2 ^ (8 * blen b)) by (apply Z.pow_pos_nonneg; lia). nia.
Qed.
Lemma from_bytes_big_bounds b : bytes_ok b = true -> 0 <= from_bytes_big b < 2 ^ (8 * blen b).
Proof. intros H. pose proof (from_bytes_big_acc_bounds b 0 (Z.le_refl 0) H) as B. unfold from_bytes_big. lia. Qed.
Lemma blen_rfc_uint_from_bytes b : bytes_ok b = true -> blen (rfc_uint (from_bytes_big b)) <= blen b.
Proof.
  intros H. pose proof (from_bytes_big_bounds b H) as B. rewrite blen_rfc_uint by lia.
  apply bytecount_bound; [apply blen_nonneg|exact B].
Qed.

Lemma find_none {A} (tbl : list (Z * A)) n : ~ In n (map fst tbl) -> find (fun p => fst p =? n) tbl = None.
Proof.
  induction tbl as [|p tbl IH]; cbn [find map In]; [reflexivity|]. intros H.
  destruct (Z.eqb_spec (fst p) n); [tauto|]. apply IH. tauto.
Qed.
(* both sides are a lookup with a default: they agree on the numbers that occur in one of the two tables by evaluation,
   and on every other number because both lookups fail *)
Lemma table_matches_rfc n : get_format n = class_of (rfc_format_of n).
Proof.
  destruct (in_dec Z.eq_dec n (map fst format_table ++ map fst rfc_table)) as [I|I].
  - revert n I. apply Forall_forall. cbv [map fst app format_table rfc_table]. repeat constructor.
  - unfold get_format, rfc_format_of. rewrite !find_none; [reflexivity| |]; intros J; apply I, in_or_app; tauto.
Qed.

Lemma block_as_integer num (m : bool) szx : Z.shiftl num 4 + (if m then 1 else 0) * 8 + szx = rfc_block num m szx.
Proof. rewrite shiftl4. unfold rfc_block. destruct m; lia. Qed.
Lemma rfc_block_fields a : rfc_block (a / 16) ((a / 8) mod 2 =? 1) (a mod 8) = a.
Proof. unfold rfc_block. destruct ((a / 8) mod 2 =? 1) eqn:E; lia. Qed.
Lemma rfc_block_nonneg num (m : bool) szx : 0 <= num -> 0 <= szx -> 0 <= rfc_block num m szx.
Proof. unfold rfc_block. destruct m; lia. Qed.

Lemma option_encode_is_rfc f v : legal f v = true -> option_encode v = Ok (rfc_value v) /\ bytes_ok (rfc_value v) = true.
Proof.
  destruct f, v; cbn [legal]; try discriminate; intros H; cbn [option_encode rfc_value].
  - split; [reflexivity|exact H].
  - destruct (utf8_roundtrip s H) as (b & E & _ & O). unfold StringOption_encode. rewrite E. split; [reflexivity|exact O].
  - unfold UintOption_encode. split; [apply to_minimum_bytes_is_rfc; lia|apply rfc_uint_ok; lia].
  - unfold BlockOption_encode. rewrite block_as_integer.
    assert (0 <= rfc_block block_number more size_exponent) by (apply rfc_block_nonneg; lia).
    split; [apply to_minimum_bytes_is_rfc; lia|apply rfc_uint_ok; lia].
  - unfold ContentFormatOption_encode. split; [apply to_minimum_bytes_is_rfc; lia|apply rfc_uint_ok; lia].
Qed.

(* the code's reading of a value is the RFC's, a string that is not UTF-8 being the only failure *)
Lemma create_option_decode_interp n raw :
  create_option_decode n raw = match rfc_interp n raw with Some v => Ok v | None => Raise UnicodeDecodeError end.
Proof.
  unfold create_option_decode, rfc_interp. rewrite (table_matches_rfc n), !rfc_uint_value_eq.
  destruct (rfc_format_of n); cbn [class_of]; try reflexivity.
  - unfold StringOption_decode. destruct (utf8_decode raw) as [s|e] eqn:D; [reflexivity|].
    rewrite (utf8_decode_raises raw e D). reflexivity.
  - unfold BlockOption_decode. rewrite shiftr4, land7, land8, negb_involutive. reflexivity.
Qed.
(* what it yields is legal for the class of the number and is not encoded to more bytes than were read *)
Lemma rfc_interp_legal n raw v : bytes_ok raw = true -> rfc_interp n raw = Some v ->
  legal (get_format n) v = true /\ blen (rfc_value v) <= blen raw.
Proof.
  intros Hok. unfold rfc_interp. rewrite (table_matches_rfc n), !rfc_uint_value_eq.
  pose proof (from_bytes_big_bounds raw Hok) as B. pose proof (blen_rfc_uint_from_bytes raw Hok) as L.
  destruct (rfc_format_of n); cbn [class_of]; try (intros E; injection E as <-; cbn [legal rfc_value]; split; [assumption||lia|assumption||lia]).
  - destruct (utf8_decode raw) as [s|e] eqn:D; [|discriminate]. intros E; injection E as <-.
    destruct (utf8_encode_decode raw s D) as [Es S]. cbn [legal rfc_value]. rewrite Es. split; [exact S|lia].
  - intros E; injection E as <-. set (a := from_bytes_big raw) in *. cbn [legal rfc_value].
    rewrite rfc_block_fields. split; [lia|exact L].
Qed.
Lemma rfc_interp_rfc_value n v : legal (get_format n) v = true -> rfc_interp n (rfc_value v) = Some v.
Proof.
  unfold rfc_interp. rewrite (table_matches_rfc n), !rfc_uint_value_eq.
  destruct (rfc_format_of n), v; cbn [class_of legal]; try discriminate; intros H; cbn [rfc_value].
  - reflexivity.
  - reflexivity.
  - rewrite from_bytes_rfc_uint by lia. reflexivity.
  - destruct (utf8_roundtrip s H) as (b & E & D & _). rewrite E, D. reflexivity.
  - assert (0 <= rfc_block block_number more size_exponent) by (apply rfc_block_nonneg; lia).
    rewrite from_bytes_rfc_uint by lia. unfold rfc_block. destruct more; repeat f_equal; lia.
  - rewrite from_bytes_rfc_uint by lia. reflexivity.
Qed.
Lemma create_option_decode_rfc_value n v : legal (get_format n) v = true -> create_option_decode n (rfc_value v) = Ok v.
Proof. intros H. rewrite create_option_decode_interp, (rfc_interp_rfc_value n v H). reflexivity. Qed.
