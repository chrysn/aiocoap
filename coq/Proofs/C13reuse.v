(* C13 — proofs, part 3: the nonce of a request is used again for a response at most once over a whole history.
   unprotect hands on RequestIdentifiers with can_reuse_nonce = "no replay error when they were built"; protect(request_id=...)
   reuses the request's (kid, Partial IV) as nonce exactly when that flag is set, and clears it.  A reused nonce therefore
   belongs to a request accepted through the window check, and no request number is accepted twice (Proofs/C13replay.v). *)
From Verif Require Import Lib.Py Lib.PyLemmas Lib.Tactics Gen.oscore_replay Model.C12 Model.C13 Proofs.C12 Proofs.C13 Proofs.C13replay.
Open Scope Z_scope.

(* C13's [pend_of] is the flag C12's [pstep] hands on *)
Lemma pend_of_true c r n : CtxInv c -> 0 <= seqno r ->
  pend_of c r (snd (unprotect_request c r)) = Some (n, true) ->
  snd (unprotect_request c r) = Accept /\ n = seqno r /\ window c <> None.
Proof.
  intros HI Hn H. unfold pend_of in H. destruct (handed_on (snd (unprotect_request c r))) eqn:Eh; [|discriminate]. injection H as <- Hc.
  destruct (reuse_only_when_fresh c r (snd (unprotect_request c r)) HI Hn) as (Ho & _ & w & Ew & _).
  { cbn [pstep]. destruct (unprotect_request c r) as [c' o]. cbn [snd] in *. f_equal. exact (andb_true_intro (conj Eh Hc)). }
  split; [exact Ho|]. split; [reflexivity|congruence].
Qed.

(* [A] numbers accepted so far, [R] request numbers whose nonce has been reused for a response so far; [RI], the reuse
   invariant: reusable identifiers belong to a number in A not in R, and R is a duplicate-free part of A *)
Definition PendOK (w : world) (A R : list Z) : Prop :=
  match w_proc w with
  | Some p => match pend p with Some (n, true) => In n A /\ ~ In n R | _ => True end
  | None => True
  end.
Definition RI (w : world) (A R : list Z) : Prop := PendOK w A R /\ (forall n, In n R -> In n A) /\ NoDup R.

Lemma PendOK_grow p A R B : (match pend p with Some (n, true) => In n A /\ ~ In n R | _ => True end) ->
  match pend p with Some (n, true) => In n (A ++ B) /\ ~ In n R | _ => True end.
Proof. destruct (pend p) as [[n [|]]|]; auto. intros [H1 H2]. split; [apply in_or_app; left; exact H1|exact H2]. Qed.

Definition reuses (A R : list Z) (ev : event) (wo : world * output) : Prop :=
  RI (fst wo) (A ++ acc_of ev (snd wo)) (R ++ reused_of (snd wo)).
Lemma reuses_none A R ev wo : acc_of ev (snd wo) = [] -> reused_of (snd wo) = [] -> RI (fst wo) A R -> reuses A R ev wo.
Proof. unfold reuses. intros -> ->. rewrite !app_nil_r. auto. Qed.

Lemma issue_ri sz p d A R ev x : number_frame p d x -> (forall o, acc_of ev o = []) -> RI (mkw sz (Some p) d) A R -> reuses A R ev (issue sz x).
Proof.
  destruct x as [[p' d'] []]; intros ((_ & _ & Hp) & _) Hev (HPd & HR); (apply reuses_none; [apply Hev|reflexivity|]);
    (split; [|exact HR]); unfold PendOK in *; cbn [issue fst w_proc mkw] in *; try rewrite Hp; auto.
Qed.
Lemma hand_on_ri sz p d r A R ev x : CtxInv (uc p) -> 0 <= seqno r -> arrival ev r -> request_frame p d r x ->
  accepts A ev (hand_on sz (uc p) r x) -> RI (mkw sz (Some p) d) A R -> reuses A R ev (hand_on sz (uc p) r x).
Proof.
  intros HI Hn Hev Hf (_ & Hnew) (_ & Hsub & Hnd). destruct x as [[p' d'] [o|e|]]; cbn [hand_on fst snd] in *.
  - destruct Hf as (_ & _ & _ & Ho). unfold reuses, RI, PendOK. cbn [fst snd reused_of w_proc mkw pend set_pend]. rewrite app_nil_r.
    split; [|split; [intros n Hin; apply in_or_app; left; apply Hsub, Hin|exact Hnd]].
    destruct (pend_of (uc p) r o) as [[n [|]]|] eqn:Epo; try exact I.
    subst o. destruct (pend_of_true (uc p) r n HI Hn Epo) as (Hacc & -> & _). rewrite Hev, Hacc in *. cbn [accepted_by] in *.
    split; [apply in_or_app; right; left; reflexivity|].
    intros Hin. apply (Hnew (seqno r)); [left; reflexivity|apply Hsub, Hin].
  - apply reuses_none; [apply Hev|reflexivity|exact (conj I (conj Hsub Hnd))].
  - apply reuses_none; [apply Hev|reflexivity|exact (conj I (conj Hsub Hnd))].
Qed.

Lemma step_ri w ev A R : ROK w A -> ev_ok2 ev -> echo_cond w A ev -> RI w A R -> reuses A R ev (step w ev).
Proof.
  intros HR Hok Hecho HRI. pose proof (step_rok w ev A HR Hok Hecho) as Hacc. revert HR Hok Hecho HRI Hacc.
  destruct w as [sz [p|] d]; intros (Hs & HD & HP) Hok Hecho HRI; cbn [w_size w_disk w_proc echo_cond ev_ok2] in *;
    destruct ev as [a|n a|r a|a| |start lim echo|a|k|r k]; try rewrite step_live; cbn [step w_proc w_size w_disk]; intros Hacc;
    try (apply reuses_none; [reflexivity|reflexivity|exact HRI]).
  - (* Protect *) apply (issue_ri sz p d); [apply nsn_frame|reflexivity|exact HRI].
  - (* Seq *) pose proof (seq_loop_frame (Z.to_nat n) p d a []) as Hf. destruct HRI as (HPd & HRs).
    destruct (seq_loop (Z.to_nat n) p d a []) as [[[p1 d1] l] []]; (apply reuses_none; [reflexivity|reflexivity|]); (split; [|exact HRs]);
      unfold PendOK in *; cbn [fst w_proc mkw] in *; try exact I; destruct Hf as (_ & _ & ->); exact HPd.
  - (* Unprotect *) destruct HP as (Hsz & _ & Hw & _).
    apply (hand_on_ri sz p d r A R); [exact (WinOK_ctxinv sz A (uc p) Hs Hsz Hw)|exact Hok|exact (fun _ => eq_refl)|apply unprotect_frame|exact Hacc|exact HRI].
  - (* CleanStop *) destruct (_destroy p d a) as [d' died]. apply reuses_none; [destruct died; reflexivity..|exact (conj I (proj2 HRI))].
  - (* Kill *) apply reuses_none; [reflexivity..|exact (conj I (proj2 HRI))].
  - (* Respond: a reusable identifier is used up; its number was accepted and has not been reused before *)
    destruct HRI as (HPd & Hsub & Hnd). unfold PendOK in HPd. cbn [w_proc] in HPd.
    destruct (pend p) as [[m [|]]|] eqn:Epe; [|apply (issue_ri sz p d); [apply nsn_frame|reflexivity|]..];
      try (split; [unfold PendOK; cbn [w_proc mkw]; rewrite Epe; exact I|exact (conj Hsub Hnd)]).
    destruct HPd as [HinA HniR]. unfold reuses, RI, PendOK. cbn [fst snd reused_of acc_of w_proc mkw pend set_pend]. rewrite app_nil_r.
    split; [exact I|]. split; [|apply NoDup_snoc; assumption].
    intros x Hx. apply in_app_or in Hx as [Hx|[<-|[]]]; [apply Hsub, Hx|exact HinA].
  - (* ProtectFails *) apply (issue_ri sz p d); [apply nsn_fails_frame|reflexivity|exact HRI].
  - (* UnprotectFails *) destruct HP as (Hsz & _ & Hw & _).
    apply (hand_on_ri sz p d r A R); [exact (WinOK_ctxinv sz A (uc p) Hs Hsz Hw)|exact Hok|exact (fun _ => eq_refl)|apply unprotect_fails_frame|exact Hacc|exact HRI].
Qed.

Lemma run_ri evs : forall w A R, ROK w A -> Forall ev_ok2 evs -> fresh_echo_run w A evs -> NoDup A -> RI w A R ->
  let os := snd (run w evs) in
  NoDup (R ++ reused os) /\ (forall n, In n (R ++ reused os) -> In n (A ++ accepted evs os)).
Proof.
  induction evs as [|e r IH]; intros w A R HR Hok Hfr HndA HRI; cbn [run].
  - cbn. rewrite !app_nil_r. destruct HRI as (_ & Hsub & Hnd). auto.
  - inversion Hok as [|? ? He Hr]; subst. cbn [fresh_echo_run] in Hfr. destruct Hfr as (Hec & Hfr).
    pose proof (step_rok w e A HR He Hec) as Hs. pose proof (step_ri w e A R HR He Hec HRI) as Hri.
    pose proof (accepts_nodup A e _ Hs HndA) as Hnd1.
    destruct (step w e) as [w1 o]. cbn [fst snd] in *.
    specialize (IH w1 _ _ (proj1 Hs) Hr Hfr Hnd1 Hri).
    destruct (run w1 r) as [w2 os]. cbn [fst snd] in *. cbv zeta in IH.
    unfold reused in *. cbn [flat_map]. rewrite accepted_cons, !app_assoc. exact IH.
Qed.
