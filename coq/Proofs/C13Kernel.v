(* C13 — tie T for the sender sequence number kernels: the hand-written [new_sequence_number] / [post_seqnoincrease] of
   Model/C13.v ARE the code translated from aiocoap/oscore.py (CanProtect.new_sequence_number,
   FilesystemSecurityContext.post_seqnoincrease; coq/Gen/oscore_seqno.v, translator job oscore_seqno, regenerated from the
   source on every check), under the projection of the process record onto the four counters and with self._store()
   instantiated by the model's four file-system steps (a crash inside _store = the exception [Crashed]).
   Only the "tie T" section of Props/C13.v uses this file; _replay_window_changed (Gen/oscore_rwchanged.v) is tied at the end. *)
From Verif Require Import Lib.Py Lib.Tactics Gen.oscore_replay Model.C12 Model.C13.
(* Model.C13Kernel is required only to keep the driver of the `kernels` stream in the cone of Props/C13.v *)
From Verif Require Gen.oscore_seqno Gen.oscore_rwchanged Model.C13Kernel.
Open Scope Z_scope.

Definition proj (p : proc) : oscore_seqno.fsc :=
  {| oscore_seqno.fsc_sender_sequence_number := ssn p; oscore_seqno.fsc_sequence_number_persisted := persisted p;
     oscore_seqno.fsc_sequence_number_chunksize := chunk p; oscore_seqno.fsc_sequence_number_chunksize_limit := limit p |}.
(* the process record with the counters taken from [s] (everything _store reads besides them is untouched by the kernels) *)
Definition with_fsc (p : proc) (s : oscore_seqno.fsc) : proc :=
  {| ssn := oscore_seqno.fsc_sender_sequence_number s; persisted := oscore_seqno.fsc_sequence_number_persisted s;
     chunk := oscore_seqno.fsc_sequence_number_chunksize s; limit := oscore_seqno.fsc_sequence_number_chunksize_limit s;
     wpers := wpers p; uc := uc p; pend := pend p |}.
Definition Crashed : exn := OtherError 13.
(* self._store(): the model's file-system steps on disk [d] with crash plan [a]; dying inside it aborts the caller *)
Definition store_cb (p : proc) (d : disk) (a : option Z) (s : oscore_seqno.fsc) : M oscore_seqno.fsc :=
  if snd (_store (with_fsc p s) d a) then Raise Crashed else Ok s.
Definition lift {A B} (f : proc -> A -> B) (x : proc * disk * res A) : M B :=
  match x with (p', _, Val v) => Ok (f p' v) | (_, _, Exn e) => Raise e | (_, _, Died) => Raise Crashed end.

Lemma max_seqno_is_source : oscore_seqno.MAX_SEQNO = C13.MAX_SEQNO.
Proof. reflexivity. Qed.

Theorem post_seqnoincrease_is_source p d a :
  oscore_seqno.post_seqnoincrease (store_cb p d a) (proj p) = lift (fun p' u => (proj p', u)) (C13.post_seqnoincrease p d a) /\
  (let '(p', d', _) := C13.post_seqnoincrease p d a in
   uc p' = uc p /\ wpers p' = wpers p /\ d' = if ssn p >? persisted p then fst (_store p' d a) else d).
Proof.
  destruct p as [s pe ch li wp u pd].
  unfold oscore_seqno.post_seqnoincrease, C13.post_seqnoincrease, store_cb, lift, proj, with_fsc, set_chunk, set_persisted. cbn -[_store Z.min].
  destruct (s >? pe); [|cbn; auto].
  destruct (_store _ d a) as [d' died] eqn:Es. cbn -[_store Z.min]. destruct died; cbn -[_store Z.min]; [rewrite Es; auto|].
  destruct (s <=? pe + ch); cbn -[_store Z.min]; rewrite Es; auto.
Qed.

Theorem new_sequence_number_is_source p d a :
  oscore_seqno.new_sequence_number (store_cb p d a) (proj p) = lift (fun p' v => (proj p', v)) (C13.new_sequence_number p d a) /\
  (let '(p', d', _) := C13.new_sequence_number p d a in
   uc p' = uc p /\ wpers p' = wpers p /\
   d' = if ssn p >=? C13.MAX_SEQNO then d else if ssn p + 1 >? persisted p then fst (_store p' d a) else d).
Proof.
  unfold oscore_seqno.new_sequence_number, C13.new_sequence_number.
  change oscore_seqno.MAX_SEQNO with C13.MAX_SEQNO.
  cbn [proj oscore_seqno.fsc_sender_sequence_number oscore_seqno.fsc_sequence_number_persisted
       oscore_seqno.fsc_sequence_number_chunksize oscore_seqno.fsc_sequence_number_chunksize_limit].
  destruct (ssn p >=? C13.MAX_SEQNO); [cbn; auto|].
  pose proof (post_seqnoincrease_is_source (set_ssn p (ssn p + 1)) d a) as [H1 H2].
  change (store_cb (set_ssn p (ssn p + 1)) d a) with (store_cb p d a) in H1.
  unfold proj in H1; cbn [set_ssn ssn persisted chunk limit] in H1. rewrite H1. clear H1.
  destruct (C13.post_seqnoincrease (set_ssn p (ssn p + 1)) d a) as [[p' d'] [u|e|]];
    cbn [lift bind set_ssn ssn persisted uc wpers] in *; auto.
Qed.

(* FilesystemSecurityContext._replay_window_changed *)
Definition projw (p : proc) : oscore_rwchanged.rwc := {| oscore_rwchanged.rwc_replay_window_persisted := wpers p |}.
Definition store_cbw (p : proc) (d : disk) (a : option Z) (s : oscore_rwchanged.rwc) : M oscore_rwchanged.rwc :=
  if snd (_store (set_wpers p (oscore_rwchanged.rwc_replay_window_persisted s)) d a) then Raise Crashed else Ok s.
Theorem replay_window_changed_is_source p d a :
  oscore_rwchanged.replay_window_changed (store_cbw p d a) (projw p) =
    (let '(p', _, died) := C13._replay_window_changed p d a in if died then Raise Crashed else Ok (projw p', tt)) /\
  (let '(p', d', _) := C13._replay_window_changed p d a in
   p' = (if wpers p then set_wpers p false else p) /\ d' = if wpers p then fst (_store p' d a) else d).
Proof.
  unfold oscore_rwchanged.replay_window_changed, C13._replay_window_changed, store_cbw, projw.
  cbn [oscore_rwchanged.rwc_replay_window_persisted].
  destruct (wpers p) eqn:Ew; [|cbn; rewrite Ew; auto].
  destruct (_store (set_wpers p false) d a) as [d' died] eqn:Es.
  cbn [snd fst]. destruct died; cbn; rewrite Es; auto.
Qed.
