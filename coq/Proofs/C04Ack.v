(* C04 — the reply remembered for a key is an ACK (never an RST) as long as the
   peer does not reuse the live message ID for a non-request confirmable message (ping / unmatched CON response).
   Relation [AO P k s s']: the method appends outputs among which (under P) every ACK/RST sent under key k is an ACK,
   and it keeps the backlog free of anything but CONs. *)
From Verif Require Import Lib.Py Lib.Tactics Model.C04 Proofs.C04.
Import ListNotations.
Open Scope Z_scope.

(* an output / a message to r that, if it is an ACK or RST under key k at all, is an ACK *)
Definition okout (k : Z * Z) (o : output) : Prop := forall r w, reply_of k o = Some (r, w) -> w_type w = ACK.
Definition okw (k : Z * Z) (r : Z) (w : wire) : Prop :=
  (r =? fst k) && (w_mid w =? snd k) && is_ackrst (w_type w) = true -> w_type w = ACK.
Definition CONs (b : list wire) : Prop := Forall (fun w => w_type w = CON) b.
Definition BOKl (l : list (Z * list wire)) : Prop := Forall (fun b => CONs (snd b)) l.
Definition BOK (s : st) : Prop := BOKl (backlogs s).

Record AO (P : Prop) (k : Z * Z) (s s' : st) : Prop := {
  ao_bok : BOK s -> BOK s';
  ao_outs : exists new, outs s' = outs s ++ new /\ (P -> Forall (okout k) new) }.

Lemma AO_refl (P : Prop) k s : AO P k s s.
Proof. split; auto. exists []. rewrite app_nil_r. split; auto. Qed.
Lemma AO_trans (P : Prop) k s1 s2 s3 : AO P k s1 s2 -> AO P k s2 s3 -> AO P k s1 s3.
Proof.
  intros [B1 (n1 & O1 & K1)] [B2 (n2 & O2 & K2)]. split; auto.
  exists (n1 ++ n2). rewrite O2, O1, app_assoc. split; auto. intros HP. apply Forall_app; auto.
Qed.
Lemma AO_frame (P : Prop) k s s' : outs s' = outs s -> backlogs s' = backlogs s -> AO P k s s'.
Proof.
  intros O B. split; [unfold BOK; rewrite B; auto|]. exists []. rewrite app_nil_r. split; auto.
Qed.
Ltac aframe := apply AO_frame; reflexivity.

Lemma ao_set_tseq (P : Prop) k v s : AO P k s (set_tseq v s). Proof. aframe. Qed.
Lemma ao_set_piggy (P : Prop) k v s : AO P k s (set_piggy v s). Proof. aframe. Qed.
Lemma ao_cancel (P : Prop) k h s : AO P k s (cancel h s). Proof. aframe. Qed.
Lemma ao_set_backlogs (P : Prop) k v s : (BOK s -> BOKl v) -> AO P k s (set_backlogs v s).
Proof. intros H. split; [exact H|]. exists []. simpl. rewrite app_nil_r. split; auto. Qed.

Lemma BOKl_aget l r b : BOKl l -> aget Z.eqb r l = Some b -> CONs b.
Proof.
  induction l as [|[r' b'] l IH]; simpl; intros H G; [discriminate|].
  inversion H; subst. destruct (r =? r'); [inversion G; subst; assumption | apply IH; assumption].
Qed.
Lemma BOKl_aremove l r : BOKl l -> BOKl (aremove Z.eqb r l).
Proof.
  induction l as [|[r' b'] l IH]; simpl; intros H; [constructor|].
  inversion H; subst. destruct (r =? r'); [apply IH; assumption | constructor; [assumption | apply IH; assumption]].
Qed.
Lemma BOKl_areplace l r b : BOKl l -> CONs b -> BOKl (areplace Z.eqb r b l).
Proof.
  induction l as [|[r' b'] l IH]; simpl; intros H Hb; [constructor|].
  inversion H; subst. destruct (r =? r'); constructor; try assumption. apply IH; assumption.
Qed.
Lemma BOKl_aset l r b : BOKl l -> CONs b -> BOKl (aset Z.eqb r b l).
Proof.
  intros H Hb. unfold aset. destruct (aget Z.eqb r l); [apply BOKl_areplace; auto|].
  apply Forall_app; split; [exact H | constructor; [exact Hb | constructor]].
Qed.

Lemma BOKl_next l r w rest : BOKl l -> aget Z.eqb r l = Some (w :: rest) -> w_type w = CON /\ BOKl (aset Z.eqb r rest l).
Proof.
  intros H G. pose proof (BOKl_aget _ _ _ H G) as Hc. inversion Hc; subst. split; [assumption | apply BOKl_aset; assumption].
Qed.
Lemma BOKl_queue l r b w : BOKl l -> aget Z.eqb r l = Some b -> w_type w = CON -> BOKl (aset Z.eqb r (b ++ [w]) l).
Proof.
  intros H G Hw. apply BOKl_aset; [exact H|].
  apply Forall_app; split; [apply (BOKl_aget _ _ _ H G) | constructor; [exact Hw | constructor]].
Qed.

Lemma okout_exn k t e : okout k (Exn t e). Proof. intros r w H; discriminate. Qed.
Lemma okout_refused k t r0 : okout k (Refused t r0). Proof. intros r w H; discriminate. Qed.
Lemma okout_start k t sid r mid tok : okout k (Start t sid r mid tok). Proof. intros r' w H; discriminate. Qed.
Lemma okout_send k t r w : okw k r w -> okout k (Send t r w).
Proof.
  intros H r' w' E. simpl in E.
  destruct ((r =? fst k) && (w_mid w =? snd k) && is_ackrst (w_type w)) eqn:C; [|discriminate].
  inversion E; subst. apply H; exact C.
Qed.
Lemma okw_not_ackrst k r w : is_ackrst (w_type w) = false -> okw k r w.
Proof. intros H C. rewrite H, andb_false_r in C. discriminate. Qed.
Lemma okw_ack k r w : w_type w = ACK -> okw k r w.
Proof. intros H _. exact H. Qed.

Lemma ao_emit (P : Prop) k o s : (P -> okout k o) -> AO P k s (emit o s).
Proof. intros H. split; auto. exists [o]. split; [reflexivity|]. intros HP. constructor; auto. Qed.
Lemma ao_emit_exn (P : Prop) k t e s : AO P k s (emit (Exn t e) s).
Proof. apply ao_emit. intros _. apply okout_exn. Qed.

Lemma ao_set_refused (P : Prop) k v s : AO P k s (set_refused v s). Proof. aframe. Qed.
Lemma ao_walk (P : Prop) k : Walk (AO P k) BOK (fun r w => P -> okw k r w).
Proof.
  split.
  - split; [apply AO_refl | apply AO_trans | intros; apply AO_frame; assumption].
  - apply ao_bok.
  - apply ao_cancel.
  - intros. aframe.
  - intros. aframe.
  - intros. apply ao_set_backlogs, BOKl_aremove.
  - intros. apply ao_set_backlogs. intros H. apply BOKl_aset; [exact H | constructor].
  - intros r w rest s HB G. destruct (BOKl_next _ _ _ _ HB G) as [Hw Hrest].
    split; [intros _; apply okw_not_ackrst; rewrite Hw; reflexivity | apply ao_set_backlogs; intros _; exact Hrest].
  - intros. apply ao_emit_exn.
  - intros. apply ao_emit. intros _. apply okout_refused.
  - intros r w s H. eapply AO_trans; [|apply ao_emit; intros HP; apply okout_send, H, HP].
    unfold _store_response_for_duplicates. destruct (negb (is_ackrst (w_type w))); [apply AO_refl|].
    destruct (aget key_eqb (r, w_mid w) (recent s)); [aframe | apply AO_refl].
  - intros r w Hc _. apply okw_not_ackrst. rewrite Hc. reflexivity.
Qed.
Lemma ao_send_initially (P : Prop) k r w mon s : (P -> okw k r w) -> AO P k s (_send_initially r w mon s).
Proof. apply (walk_send_initially (ao_walk P k)). Qed.

Lemma ao_send_message (P : Prop) k m a s : AO P k s (send_message m a s).
Proof.
  apply send_message_ind.
  - apply AO_refl.
  - intros mid h w _ Hw _. eapply AO_trans; [|apply ao_send_initially; intros _; apply okw_ack; exact Hw]. aframe.
  - intros t Ht _. eapply AO_trans; [|apply ao_send_initially; intros _; apply okw_not_ackrst; exact Ht]. aframe.
  - intros b G. eapply AO_trans; [|apply ao_set_backlogs; intros H; apply (BOKl_queue _ _ _ _ H G); reflexivity]. aframe.
Qed.

Lemma ao_on_timeout (P : Prop) k r tok s : AO P k s (on_timeout r tok s).
Proof.
  unfold on_timeout. destruct (aget tokkey_eqb (r, tok) (piggy s)) as [[mid h]|]; [|apply ao_emit_exn].
  eapply AO_trans; [apply ao_set_piggy | apply ao_send_initially; intros _; apply okw_ack; reflexivity].
Qed.

Lemma ao_mm_process_request (P : Prop) k m s : AO P k s (_process_request m s).
Proof.
  rewrite _process_request_eq. eapply AO_trans; [|apply (walk_process_request (ao_walk P k) (ao_send_message P k))].
  - destruct (i_type m); try apply AO_refl. unfold open_piggy. destruct (aget tokkey_eqb _ _) as [[mid old]|]; aframe.
  - intros sid m0 s0. apply ao_emit. intros _. apply okout_start.
Qed.

(* the peer reuses key k for a confirmable message that is not a request *)
Definition reuses (k : Z * Z) (m : inmsg) : bool :=
  key_eqb (msg_key m) k && negb (is_request (i_code m)) && mtype_eqb (i_type m) CON.

Lemma okw_rst_other k m : reuses k m = false -> is_request (i_code m) = false -> mtype_eqb (i_type m) CON = true ->
  okw k (i_remote m) {| w_type := RST; w_code := EMPTY; w_mid := i_mid m; w_token := []; w_payload := [] |}.
Proof.
  intros Hr Q T C. simpl in C. rewrite andb_true_r in C.
  unfold reuses, msg_key, key_eqb in Hr. simpl in Hr. rewrite C, Q, T in Hr. discriminate.
Qed.

Lemma ao_dispatch_rest (P : Prop) k m s : BOK s -> (P -> reuses k m = false) -> AO P k s (dispatch_rest m s).
Proof.
  intros HB Hp.
  assert (E1 : AO P k s (if is_ackrst (i_type m) then _remove_exchange (i_remote m) (i_mid m) s else s))
    by (destruct (is_ackrst (i_type m)); [apply (walk_remove_exchange (ao_walk P k)); exact HB | apply AO_refl]).
  apply dispatch_rest_ind.
  - intros _. exact E1.
  - intros Q T. eapply AO_trans; [exact E1|]. apply ao_send_initially. intros HP. apply okw_rst_other; auto.
  - intros _ _. apply ao_mm_process_request.
Qed.

Lemma fire_ao (P : Prop) k s : Inv s -> AO P k s (fire s).
Proof.
  intros HI. apply fire_ind; [exact HI | apply AO_refl | ..].
  - intros. aframe.
  - intros d q r tok _ _. eapply AO_trans; [|apply ao_on_timeout]. aframe.
  - intros d q r w t c _ _ Hc. eapply AO_trans; [|apply (walk_retransmit (ao_walk P k)); exact Hc]. aframe.
Qed.

Lemma advance_ao (P : Prop) k d s : Inv s -> AO P k s (advance d s).
Proof.
  intros HI. apply (advance_ind (fun s' => AO P k s s')); [| |exact HI | apply AO_refl].
  - intros s1 HI1 E1. eapply AO_trans; [exact E1 | apply fire_ao; exact HI1].
  - intros s1 v _ E1 _. eapply AO_trans; [exact E1 | aframe].
Qed.

Definition polite (k : Z * Z) (e : event) : Prop :=
  match e with Recv m => reuses k m = false | _ => True end.
Definition stored_ack (k : Z * Z) (s : st) : Prop :=
  forall r w, aget key_eqb k (recent s) = Some (Some (r, w)) -> w_type w = ACK.

Lemma ao_insert (P : Prop) k k0 s : AO P k s (insert_key k0 s).
Proof. aframe. Qed.

Lemma step_ao (P : Prop) k s e : Inv s -> BOK s -> (P -> polite k e) -> (P -> stored_ack k s) -> AO P k s (step s e).
Proof.
  intros HI HB Hpol Hst. destruct e as [m | | d | sid a | sid x | r0 b0 | r0]; simpl.
  - (* Recv *) apply dispatch_message_ind.
    + intros Q. apply ao_dispatch_rest; [exact HB | exact Hpol].
    + intros Q G. eapply AO_trans; [apply ao_insert|]. apply ao_dispatch_rest; [exact HB|].
      intros _. unfold reuses. rewrite Q. simpl. rewrite andb_false_r. reflexivity.
    + intros. apply AO_refl.
    + intros r w Q G. apply ao_send_initially. intros HP C.
      apply andb_true_iff in C as [C _]. apply (key_eqb_eq (r, w_mid w) k) in C.
      rewrite (stored_key s _ r w HI G) in C. rewrite C in G. apply (Hst HP r w G).
  - (* Fire *) apply fire_ao; exact HI.
  - (* Advance *) apply advance_ao; exact HI.
  - (* Respond *) apply (walk_handler (ao_walk P k) (ao_send_message P k)).
  - (* RaiseIn *) apply (walk_handler (ao_walk P k) (ao_send_message P k)).
  - (* Refuse *) apply ao_set_refused.
  - (* NetError *) apply (walk_mm_dispatch_error (ao_walk P k)).
Qed.

Lemma BOK_step s e : Inv s -> BOK s -> BOK (step s e).
Proof.
  intros HI HB. apply (ao_bok False (0, 0) s (step s e)); [|exact HB].
  apply step_ao; auto; intros [].
Qed.
Lemma BOK_run evs : forall s, Inv s -> BOK s -> BOK (run s evs).
Proof. exact (run_keeps BOK BOK_step evs). Qed.
Lemma BOK_init mid0 u : BOK (init mid0 u).
Proof. constructor. Qed.

Lemma step_okout k s e : Inv s -> BOK s -> polite k e -> stored_ack k s -> Forall (okout k) (log_since s (step s e)).
Proof.
  intros HI HB Hp Hs. destruct (step_ao True k s e HI HB (fun _ => Hp) (fun _ => Hs)) as [_ (new & O & K)].
  rewrite (log_since_app _ _ _ O). apply K. exact I.
Qed.

Lemma last_reply_ack k l v : Forall (okout k) l -> (forall r w, v = Some (r, w) -> w_type w = ACK) ->
  forall r w, last_reply k l v = Some (r, w) -> w_type w = ACK.
Proof.
  intros Hl Hv r w H. apply last_reply_inv in H as [H | (o & Hin & Ho)]; [eapply Hv; exact H|].
  rewrite Forall_forall in Hl. apply (Hl o Hin r w Ho).
Qed.

(* while the key is alive and the peer is polite about it, everything sent under it is an ACK *)
Lemma ack_run k evs : forall s v D q, Inv s -> BOK s -> aget key_eqb k (recent s) = Some v ->
  (forall r w, v = Some (r, w) -> w_type w = ACK) -> In (D, q, k) (forgets s) ->
  now (run s evs) < D -> Forall (polite k) evs ->
  Forall (okout k) (log_since s (run s evs)).
Proof.
  induction evs as [|e evs IH]; intros s v D q HI HB G Hv HD Hn Hp.
  - simpl. rewrite (log_since_app s s []) by (symmetry; apply app_nil_r). constructor.
  - inversion Hp as [|? ? Hpe Hp']; subst.
    rewrite (log_since_cons e evs s HI). simpl in Hn.
    assert (Hs : stored_ack k s) by (intros r w G'; rewrite G in G'; inversion G'; subst; eapply Hv; reflexivity).
    pose proof (step_okout k s e HI HB Hpe Hs) as K1.
    apply Forall_app; split; [exact K1|].
    destruct (alive_step k s e evs v D q HI G HD Hn) as (HI1 & new & O & _ & A & F). rewrite (log_since_app _ _ _ O) in K1.
    apply (IH (step s e) (last_reply k new v) D q HI1 (BOK_step s e HI HB) A); auto.
    apply last_reply_ack; assumption.
Qed.

(* with a polite peer the repeated reply is an ACK *)
Lemma dup_reply_is_ack s0 m evs r w : Inv s0 -> BOK s0 ->
  is_request (i_code m) = true -> aget key_eqb (msg_key m) (recent s0) = None ->
  let s2 := run (step s0 (Recv m)) evs in
  now s2 < now s0 + EXCHANGE_LIFETIME ->
  Forall (polite (msg_key m)) evs ->
  last_reply (msg_key m) (log_since s0 s2) None = Some (r, w) -> w_type w = ACK.
Proof.
  intros HI HB Q G s2 Hn Hp.
  set (k := msg_key m) in *. set (s1 := step s0 (Recv m)) in *.
  destruct (first_arrival_run s0 m evs HI Q G Hn) as (HI1 & new & q & O & L & A & F & _). fold s1 s2 k in HI1, O, L, A, F.
  assert (Pm : polite k (Recv m)).
  { simpl. unfold reuses. rewrite Q. simpl. rewrite andb_false_r. reflexivity. }
  assert (Hs0 : stored_ack k s0) by (intros r' w' G'; fold k in G; rewrite G in G'; discriminate).
  pose proof (step_okout k s0 (Recv m) HI HB Pm Hs0) as K1. fold s1 in K1. rewrite (log_since_app _ _ _ O) in K1.
  assert (Hv : forall r' w', last_reply k new None = Some (r', w') -> w_type w' = ACK).
  { apply last_reply_ack; [exact K1 | intros; discriminate]. }
  pose proof (ack_run k evs s1 _ _ q HI1 (BOK_step s0 (Recv m) HI HB) A Hv F Hn Hp) as K2. fold s2 in K2.
  rewrite L, last_reply_app. apply last_reply_ack; [exact K2 | exact Hv].
Qed.
