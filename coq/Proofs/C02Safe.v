(* C02 — in Python a second set_result / set_exception on a done future raises InvalidStateError; the model renders that branch as
   the output Crash. ReqInv (while the generator waits for its first event the future is pending) rules it out; Proofs/C02R6.v
   carries it through the steps together with the message-layer invariant. *)
From Verif Require Import Lib.Py Lib.PyLemmas Lib.Tactics Gen.tokenmanager_next_token Model.C02 Proofs.C02.
Open Scope Z_scope.

(* per request object: while the generator waits for its first event the future is pending *)
Definition creq_ok (c : creq) : Prop := cq_runner c = AwaitFirst -> cq_fut c = FPending.
Definition ReqInv (s : st) : Prop := forall q c, get_req s q = Some c -> creq_ok c.
Definition nocrash (o : output) : Prop := match o with Crash _ => False | _ => True end.

(* Crash comes from AwaitFirst with a done future only, which creq_ok excludes (enumeration of the branches of _run) *)
Lemma run_ok : forall q c ev c' o stop keep, creq_ok c -> _run q c ev = (c', o, stop, keep) -> creq_ok c' /\ Forall nocrash o.
Proof.
  intros q c ev c' o stop keep Hc H. unfold _run, creq_ok in *.
  destruct (cq_runner c) eqn:R.
  - rewrite (Hc eq_refl) in H. repeat dmatch; invpairs; cbn; (split; [intros; discriminate|repeat constructor]).
  - repeat dmatch; invpairs; cbn; (split; [intros; discriminate|repeat constructor]).
  - invpairs. split; [rewrite R; intros; discriminate|constructor].
  - invpairs. split; [rewrite R; intros; discriminate|constructor].
Qed.
Lemma creq_ok_same : forall c c', cq_runner c' = cq_runner c -> cq_fut c' = cq_fut c -> creq_ok c -> creq_ok c'.
Proof. intros c c' H1 H2 H. unfold creq_ok in *. rewrite H1, H2. exact H. Qed.
Lemma stop_interest_ok : forall c c' ks, creq_ok c -> _stop_interest c = (c', ks) -> creq_ok c'.
Proof.
  intros c c' ks H S. revert S H. apply (stop_interest_R (fun c c' _ => creq_ok c -> creq_ok c')); [auto|auto|].
  intros c0 v. apply creq_ok_same; reflexivity.
Qed.
Lemma pipe_add_event_ok : forall q c ev c' o ks, creq_ok c -> pipe_add_event q c ev = (c', o, ks) -> creq_ok c' /\ Forall nocrash o.
Proof.
  intros q c ev c' o ks Hc H. revert Hc. apply (pipe_add_event_R q ev (keeping creq_ok nocrash)) in H; [exact H|apply keeping_refl|apply keeping_trans| |].
  - intros c0 v Hc. split; [revert Hc; apply creq_ok_same; reflexivity|constructor].
  - intros c0 c1 o0 st k E Hc. eapply run_ok; eassumption.
Qed.

Lemma ReqInv_frame : forall s s', reqs s' = reqs s -> ReqInv s -> ReqInv s'.
Proof. intros s s' H HI q c G. apply (HI q c). unfold get_req in *. rewrite <- H. exact G. Qed.
Lemma ReqInv_upd : forall s q c, ReqInv s -> creq_ok c -> ReqInv (upd_req s q c).
Proof.
  intros s q c HI Hc q' c' G. rewrite get_req_upd in G. destruct (q' =? q); [inversion G; subst; exact Hc|eapply HI; eauto].
Qed.
Lemma add_event_ok : forall s q ev s' o, ReqInv s -> _add_event s q ev = (s', o) -> ReqInv s' /\ Forall nocrash o.
Proof.
  intros s q ev s' o HI H. unfold _add_event in H. destruct (get_req s q) as [c|] eqn:G; [|invpairs; split; [exact HI|constructor]].
  destruct (pipe_add_event q c ev) as [[c' o'] ks] eqn:P. apply pipe_add_event_ok in P; [|eapply HI; eauto]. destruct P as [P1 P2]. invpairs.
  split; [|exact P2]. intros q' c0. rewrite get_req_pop_keys. apply ReqInv_upd; assumption.
Qed.
(* client-side events: no request codes in incoming datagrams (the server side is outside this model) *)
Definition ev_client (e : event) : Prop := match e with Recv _ _ w => is_request (w_code w) = false | _ => True end.

Lemma app_reqinv : forall e s s' o, app_prim e s s' o -> ReqInv s -> ReqInv s'.
Proof.
  intros e s s' o [s0 q r mt obs G|s0 q r mt obs og G Hog|s0 q c c' ks G F S|s0 q c G|s0 x rest Hog|s0] HI.
  - apply ReqInv_upd; [exact HI|intros _; reflexivity].
  - rewrite (register_eq _ _ _ _ _ G). apply ReqInv_upd; [exact HI|intros _; reflexivity].
  - apply stop_interest_ok in S; [|intros R; discriminate]. intros q' c0. rewrite get_req_pop_keys. apply ReqInv_upd; assumption.
  - apply ReqInv_upd; [exact HI|]. eapply creq_ok_same; [| |eapply HI; exact G]; reflexivity.
  - exact HI.
  - exact HI.
Qed.
