(* C16 — what holds of every accepted URI, and URI -> options -> URI -> options from there. *)
From Verif Require Import Lib.Py Lib.Tactics Lib.PyLemmas Model.C16Str Gen.uri_kernels Model.C16 Proofs.C16Str Proofs.C16.
Open Scope Z_scope.

Lemma mapM_unquote_facts l r : forallb valid_str l = true -> mapM unquote l = Ok r ->
  forallb valid_str r = true /\ (r = [[]] -> l = [[]]).
Proof.
  intros Hl H. apply mapM_ok in H. split.
  - induction H as [|s x l r Hx _ IH]; [reflexivity|]. cbn [forallb] in Hl |- *. apply andb_prop in Hl as [Hs Hl].
    rewrite (proj1 (unquote_facts s x Hs Hx)), IH by exact Hl. reflexivity.
  - intros ->. inversion H as [|s x l' r' Hx Hrest]; subst. inversion Hrest; subst.
    cbn [forallb] in Hl. apply andb_prop in Hl as [Hs _]. rewrite (proj2 (unquote_facts s [] Hs Hx) eq_refl). reflexivity.
Qed.
Lemma split_on_nonnil c r : split_on c r <> [].
Proof. destruct r as [|y r]; cbn [split_on]; [discriminate|]. destruct (y =? c); [discriminate|]. destruct (split_on c r); discriminate. Qed.
Lemma split_on_single c r x : split_on c r = [x] -> r = x.
Proof.
  revert x. induction r as [|y r IH]; intros x H; cbn [split_on] in H. { injection H as <-. reflexivity. }
  destruct (y =? c). { injection H as _ H. exfalso. exact (split_on_nonnil c r H). }
  destruct (split_on c r) as [|a t] eqn:E; [exfalso; exact (split_on_nonnil c r E)|].
  injection H as <- ->. f_equal. apply IH. reflexivity.
Qed.

(* the decomposed Uri-Path / Uri-Query are never the degenerate [""] and consist of encodable strings *)
Lemma unquote_segments_facts c t l : valid_str t = true -> unquote_segments c t = Ok l -> l <> [[]] /\ forallb valid_str l = true.
Proof.
  intros Hv H. unfold unquote_segments in H. destruct (is_nil t) eqn:E. { ok_inj H. split; [discriminate | reflexivity]. }
  destruct (mapM_unquote_facts (split_on c t) l) as [V N]; [apply split_on_forallb; exact Hv | exact H|].
  split; [|exact V]. intros El. specialize (N El). apply split_on_single in N. subst t. discriminate.
Qed.
Lemma unquote_path_facts path p : valid_str path = true -> (path = [] \/ startswith path [47] = true) -> unquote_path path = Ok p ->
  p <> [[]] /\ forallb valid_str p = true.
Proof.
  intros Hv Hshape H. destruct path as [|c r]. { ok_inj H. split; [discriminate | reflexivity]. }
  destruct Hshape as [|Hs]; [discriminate|]. cbn [startswith] in Hs. apply andb_prop in Hs as [Hc _]. apply Z.eqb_eq in Hc. subst c.
  rewrite unquote_path_slash in H. cbn [valid_str forallb] in Hv. apply andb_prop in Hv as [_ Hr]. exact (unquote_segments_facts 47 r p Hr H).
Qed.

Lemma splitnetloc_forallb (P : Z -> bool) s : forallb P s = true ->
  forallb P (fst (splitnetloc s)) = true /\ forallb P (snd (splitnetloc s)) = true.
Proof.
  induction s as [|x s IH]; intros H; [split; reflexivity|]. cbn [forallb] in H. apply andb_prop in H as [Hx Hs].
  cbn [splitnetloc]. destruct (is_delim x). { cbn [fst snd forallb]. rewrite Hx, Hs. split; reflexivity. }
  destruct (IH Hs) as [I1 I2]. destruct (splitnetloc s) as [a b]. cbn [fst snd] in *. cbn [forallb]. rewrite Hx, I1. split; [reflexivity | exact I2].
Qed.
Lemma splitnetloc_rest s : snd (splitnetloc s) = [] \/ exists c r, snd (splitnetloc s) = c :: r /\ is_delim c = true.
Proof.
  induction s as [|x s IH]; [left; reflexivity|]. cbn [splitnetloc]. destruct (is_delim x) eqn:E; [right; exists x, s; auto|].
  destruct (splitnetloc s) as [a b]. exact IH.
Qed.
Definition nonneg_char (c : Z) : bool := 0 <=? c.
Lemma scalar_nonneg s : valid_str s = true -> forallb nonneg_char s = true.
Proof. unfold valid_str. intros H. apply forallb_forall. intros x Hin. rewrite forallb_forall in H. specialize (H x Hin). unfold scalar, nonneg_char in *. lia. Qed.
Lemma lower_c_scalar c : scalar c = true -> scalar (lower_c c) = true.
Proof. unfold lower_c, is_upper, scalar, is_surrogate. destruct ((65 <=? c) && (c <=? 90)) eqn:E; lia. Qed.

Section Inversion.
Variable ip_address : list Z -> ipres.

Lemma splitnetloc_nodelim s : forallb no_delim (fst (splitnetloc s)) = true.
Proof.
  induction s as [|x s IH]; [reflexivity|]. cbn [splitnetloc]. destruct (is_delim x) eqn:E; [reflexivity|].
  destruct (splitnetloc s) as [a b]. cbn [fst] in *. cbn [forallb]. unfold no_delim at 1. rewrite E, IH. reflexivity.
Qed.
Lemma urlsplit_forallb (P : Z -> bool) uri s netloc path query frag : urlsplit ip_address uri = Ok (s, netloc, path, query, frag) ->
  forallb P (remove_unsafe (lstrip_c0 uri)) = true -> forallb P netloc = true /\ forallb P path = true /\ forallb P query = true.
Proof.
  intros H V0. pose proof (urlsplit_spec ip_address uri) as S. rewrite H in S. destruct S as (url & rest & -> & _ & Hn & -> & ->).
  set (u0 := remove_unsafe (lstrip_c0 uri)) in *.
  assert (V1 : forallb P (snd (split_scheme u0)) = true).
  { unfold split_scheme. destruct (partition_forallb P 58 u0 V0) as [_ I2]. destruct (partition 58 u0) as [[a h] b]. cbn [snd] in I2.
    destruct (_ && _); [exact I2 | exact V0]. }
  assert (Vn : forallb P netloc = true /\ forallb P rest = true).
  { destruct Hn as [[-> ->] | [E _]]; [split; [reflexivity | exact V1]|].
    pose proof (splitnetloc_forallb P _ (skipn_forallb P 2 _ V1)) as I. rewrite <- E in I. exact I. }
  destruct Vn as [Vn Vr]. destruct (partition_forallb P 35 rest Vr) as [F1 _]. destruct (partition_forallb P 63 _ F1) as [G1 G2]. auto.
Qed.

Lemma urlsplit_shape uri s netloc path query frag : valid_str uri = true ->
  urlsplit ip_address uri = Ok (s, netloc, path, query, frag) ->
  valid_str netloc = true /\ valid_str path = true /\ valid_str query = true /\
  (netloc <> [] -> path = [] \/ startswith path [47] = true).
Proof.
  intros Hv H.
  destruct (urlsplit_forallb scalar _ _ _ _ _ _ H) as (Vn & Vp & Vq); [apply filter_forallb, lstrip_forallb; exact Hv|].
  repeat (split; [assumption|]). intros Hne.
  pose proof (urlsplit_spec ip_address uri) as S. rewrite H in S. destruct S as (url & rest & _ & _ & [[Hn _] | [E _]] & -> & _); [congruence|].
  (* after a non-empty network location the rest is empty or starts with "/", "?" or "#"; only "/" stays in the path *)
  pose proof (splitnetloc_rest (skipn 2 url)) as Hr. rewrite <- E in Hr. cbn [snd] in Hr.
  destruct Hr as [-> | (c & r & -> & Hc)]; [left; reflexivity|]. cbn [partition]. unfold is_delim in Hc.
  destruct (c =? 35) eqn:C35; [left; reflexivity|]. destruct (partition 35 r) as [[a1 h1] b1]. cbn [fst partition].
  destruct (c =? 63) eqn:C63; [left; reflexivity|]. destruct (partition 63 a1) as [[a2 h2] b2]. right. cbn [fst startswith].
  replace (c =? 47) with true by lia. destruct a2; reflexivity.
Qed.

Lemma hostname_of_valid netloc hostname : valid_str netloc = true -> hostname_of netloc = Ok (Some hostname) ->
  valid_str hostname = true /\ hostname <> [].
Proof.
  intros Hv H. apply hostname_of_some in H as (Hne & _ & ->). split; [|apply lower_before_pct_nonempty; exact Hne].
  apply lower_before_pct_forallb; [exact lower_c_scalar | apply hostinfo_of_forallb, rpartition_forallb; exact Hv].
Qed.

(* a non-empty network location is what _splitnetloc cut out of the text that had lost tab/CR/LF, and passed the bracket checks *)
Lemma urlsplit_netloc_facts uri s netloc path query frag :
  urlsplit ip_address uri = Ok (s, netloc, path, query, frag) -> netloc <> [] ->
  all_ascii netloc = true /\ brackets_ok ip_address netloc /\ forallb no_delim netloc = true /\ forallb url_safe netloc = true.
Proof.
  intros H Hne. destruct (urlsplit_forallb url_safe _ _ _ _ _ _ H (filter_self url_safe _)) as (Vn & _).
  pose proof (urlsplit_spec ip_address uri) as S. rewrite H in S. destruct S as (url & rest & _ & Ha & [[Hn _] | [E Hb]] & _); [congruence|].
  repeat (split; [assumption|]). split; [|exact Vn].
  pose proof (splitnetloc_nodelim (skipn 2 url)) as Hd. rewrite <- E in Hd. exact Hd.
Qed.

(* each class of unacceptable text IS rejected (clause by clause)
   no scheme -> IncompleteUrlError; fragment, no host, user info, non-UTF-8 escapes in path / query / host, non-numeric or
   out-of-range port, unusable bracketed literal, unbalanced brackets (urlsplit's ValueError) -> MalformedUrlError. *)
Theorem rejects_each_class uri flag :
  (urlsplit ip_address uri = Raise ValueError -> set_request_uri ip_address uri flag = Raise MalformedUrlError) /\
  forall s netloc path query frag, urlsplit ip_address uri = Ok (s, netloc, path, query, frag) ->
    (frag <> [] -> set_request_uri ip_address uri flag = Raise MalformedUrlError) /\
    (frag = [] -> s = [] -> set_request_uri ip_address uri flag = Raise IncompleteUrlError) /\
    (frag = [] -> existsb (beqb s) coap_schemes = true ->
       (hostname_of netloc = Ok None -> set_request_uri ip_address uri flag = Raise MalformedUrlError) /\
       (forall hn, hostname_of netloc = Ok (Some hn) ->
          ((let '(u, pw) := userinfo_of netloc in truthy u || truthy pw) = true ->
             set_request_uri ip_address uri flag = Raise MalformedUrlError) /\
          ((let '(u, pw) := userinfo_of netloc in truthy u || truthy pw) = false ->
             ((exists e, unquote_path path = Raise e) \/ (exists e, unquote_query query = Raise e) \/ (exists e, port_of netloc = Raise e) ->
                set_request_uri ip_address uri flag = Raise MalformedUrlError) /\
             (forall p q port, unquote_path path = Ok p -> unquote_query query = Ok q -> port_of netloc = Ok port ->
                (undecided_remote ip_address s netloc = Raise ValueError -> set_request_uri ip_address uri flag = Raise MalformedUrlError) /\
                (forall r, undecided_remote ip_address s netloc = Ok r -> flag = true -> mem 91 netloc = false ->
                   is_ipv4_literal hn = Ok false -> (exists e, unquote hn = Raise e) ->
                   set_request_uri ip_address uri flag = Raise MalformedUrlError))))).
Proof.
  split. { intros H. unfold set_request_uri. rewrite H. reflexivity. }
  intros s netloc path query frag Eu. unfold set_request_uri. rewrite Eu. cbn [catch_value bind].
  split. { intros Hf. destruct frag; [congruence | reflexivity]. }
  split. { intros -> ->. reflexivity. }
  intros -> Hs. cbn [is_nil negb]. destruct s as [|s0 sr]; [discriminate|]. cbn [is_nil]. rewrite Hs. cbn [negb].
  split. { intros Hh. rewrite Hh. reflexivity. }
  intros hn Hh. rewrite Hh. cbn [bind]. destruct (userinfo_of netloc) as [u pw].
  split. { intros Ht. rewrite Ht. reflexivity. }
  intros Ht. rewrite Ht. split.
  - intros Hbad.
    destruct (unquote_path path) as [p|e1] eqn:Ep; [|rewrite (unquote_path_raises _ _ Ep); reflexivity].
    cbn [catch_unicode bind].
    destruct (unquote_query query) as [q|e2] eqn:Eq; [|rewrite (unquote_query_raises _ _ Eq); reflexivity].
    cbn [catch_unicode bind].
    destruct (port_of netloc) as [port|e3] eqn:Eport; [|rewrite (port_of_raises _ _ Eport); reflexivity].
    exfalso. destruct Hbad as [(e & He) | [(e & He) | (e & He)]]; discriminate.
  - intros p q port Ep Eq Eport. rewrite Ep, Eq, Eport. cbn [catch_unicode catch_value bind]. split.
    + intros Hr. rewrite Hr. reflexivity.
    + intros r Hr -> N91 Hlit (e & He). rewrite Hr, N91, Hlit. cbn [catch_value bind andb negb]. rewrite He, (unquote_raises _ _ He). reflexivity.
Qed.

(* C16_uri_options_uri of Props/C16.v, where the statement is explained *)
Theorem uri_options_uri uri s hi uh p q : valid_str uri = true ->
  set_request_uri ip_address uri true = Ok (DRequest s hi uh p q) ->
  existsb (beqb s) coap_schemes = true /\ p <> [[]] /\ q <> [[]] /\ forallb valid_str p = true /\ forallb valid_str q = true /\
  match uh with
  | Some h =>
      h <> [] /\ valid_str h = true /\ Forall not_upper h /\
      (ip_address (strip_brackets h) = IpBad -> is_ipv4_literal h = Ok false ->
       exists u' e h0 port, hostportsplit hi = Ok (h0, port) /\ get_request_uri ip_address (opts_of (DRequest s hi uh p q)) = Ok u' /\
         quote quote_for_host_chars h = Ok e /\
         set_request_uri ip_address u' true = Ok (DRequest s (e ++ port_text port) (Some h) p q))
  | None =>
      exists u', get_request_uri ip_address (opts_of (DRequest s hi None p q)) = Ok u' /\
      (forall netloc path query, urlsplit ip_address uri = Ok (s, netloc, path, query, []) -> mem 91 netloc = false ->
         hi = netloc /\ set_request_uri ip_address u' true = Ok (DRequest s hi None p q)) /\
      (forall t p0, hi = 91 :: t ++ 93 :: port_text p0 -> ip6_text_ok ip_address t -> port_ok p0 ->
         set_request_uri ip_address u' true = Ok (DRequest s hi None p q))
  end.
Proof.
  intros Hv H. destruct (decompose_spec _ _ _ _ _ _ _ _ H) as (Hs & netloc & path & query & hostname & port & Eu & Eh & Eui & Ep & Eq & Eport & Hpok & Hsp & Erem & Hplain & Hbr & Huh).
  destruct (urlsplit_shape _ _ _ _ _ _ Hv Eu) as (Vn & Vp & Vq & Hshape).
  destruct (hostname_of_valid _ _ Vn Eh) as (Vh & Hhne).
  assert (Hnl : netloc <> []). { intros ->. cbn in Eh. discriminate. }
  destruct (unquote_path_facts _ _ Vp (Hshape Hnl) Ep) as (Pd & Pv). destruct (unquote_segments_facts 38 _ _ Vq Eq) as (Qd & Qv).
  split; [exact Hs|]. split; [exact Pd|]. split; [exact Qd|]. split; [exact Pv|]. split; [exact Qv|].
  destruct uh as [h|].
  - destruct Huh as (_ & N91 & _ & h' & Hh' & ->). destruct (unquote_facts _ _ Vh Hh') as (Vh' & Hne').
    rewrite translate_lower in *.
    assert (Hn : lower_ascii h' <> []). { destruct h' as [|c r]; [exfalso; apply Hhne; apply Hne'; reflexivity | discriminate]. }
    pose proof (lower_ascii_forallb scalar h' lower_c_scalar Vh') as Vt. pose proof (lower_ascii_no_upper h') as Hup.
    split; [exact Hn|]. split; [exact Vt|]. split; [exact Hup|].
    intros Hip Hlit. rewrite (Hplain N91) in *.
    destruct (options_uri_options_name ip_address (opts_of (DRequest s netloc (Some (lower_ascii h')) p q)) (lower_ascii h') (Some hostname) port)
      as (u' & e & G & Q & D); [repeat (split; [assumption || reflexivity|]); assumption|].
    exists u', e, (Some hostname), port. auto.
  - destruct (get_request_uri_composed ip_address (opts_of (DRequest s hi None p q)) hi eq_refl eq_refl eq_refl Pv Qv)
      as (ptext & qtext & Ept & Eqt & G).
    eexists. split; [exact G|]. split.
    + intros netloc0 path0 query0 Eu0 N91. rewrite Eu in Eu0. apply Ok_inj in Eu0. injection Eu0 as <- <- <-.
      pose proof (Hplain N91) as Ehi. split; [exact Ehi|]. subst hi.
      destruct (urlsplit_netloc_facts _ _ _ _ _ _ Eu Hnl) as (Fa & Fb & Fd & Fs).
      assert (Hl : is_ipv4_literal hostname = Ok true) by (destruct Huh as [? | [? | ?]]; [discriminate | congruence | assumption]).
      eapply (decompose_composed ip_address s netloc hostname port netloc true); try eassumption.
      * rewrite N91. exact Hl.
      * reflexivity.
    + intros t p0 -> Hok Hp0. apply decompose_composed_ip6; assumption.
Qed.
End Inversion.

(* host:port strings, the other direction: split, then join, then split.
   Whatever hostportsplit returns as host (without "[" inside, which only junk like "[a[b]" produces) can be joined with the
   returned port into a string that splits into exactly the same pair: the normal form of a host:port string *)
Theorem hostport_split_join j h p : hostportsplit j = Ok (Some h, p) -> mem 91 h = false ->
  exists j', hostportjoin h p = Ok j' /\ hostportsplit j' = Ok (Some h, p).
Proof.
  unfold hostportsplit. intros H N91.
  apply bind_ok in H as (ho & Hh & H). apply bind_ok in H as (po & Hp & H). apply Ok_inj in H. injection H as -> ->.
  pose proof (port_of_ok _ _ Hp) as Hpok. apply hostname_of_some in Hh as (Hne & Ha & ->).
  set (raw := fst (hostinfo_of j)) in *.
  (* the host is its own normal form and has no "@"; lower-casing adds none of the characters looked for below *)
  pose proof (lower_before_pct_idem raw) as Hlow. apply host_ascii_part_lower in Ha. apply lower_before_pct_nonempty in Hne.
  assert (Hmem : forall d, is_lower d = false -> mem d raw = false -> mem d (lower_before_pct raw) = false).
  { intros d Hd Hr. apply forallb_neq_mem. apply lower_before_pct_forallb; [intros c; apply lower_c_neq; exact Hd|].
    apply forallb_neq_mem. exact Hr. }
  assert (H64 : mem 64 (lower_before_pct raw) = false).
  { apply Hmem; [reflexivity|]. apply forallb_neq_mem, hostinfo_of_forallb, forallb_neq_mem, rpartition_snd_nomem. }
  destruct (mem 58 (lower_before_pct raw)) eqn:E58.
  - (* contains ":" : it came out of brackets, and goes back into brackets *)
    assert (H93 : mem 93 (lower_before_pct raw) = false).
    { destruct (hostinfo_of_cut j) as [C | C]; [|apply Hmem; [reflexivity | exact C]]. rewrite (Hmem 58) in E58 by (reflexivity || exact C). discriminate. }
    destruct (hostport_join_split_ip6 _ p Hpok Ha E58 H93 N91 H64) as (j' & Hj & _ & Hs). rewrite Hlow in Hs. eauto.
  - destruct (hostport_join_split_name _ p Hpok Hne Ha E58 H64 N91) as (j' & Hj & Hs). rewrite Hlow in Hs. eauto.
Qed.
