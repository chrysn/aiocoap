(* C16 — lemmas about the str/bytes primitives of Model/C16Str.v. *)
From Verif Require Import Lib.Py Lib.Tactics Lib.PyLemmas Model.C16Str.
Open Scope Z_scope.

(* [Ok x = Ok y] -> x = y without any reduction of x, y (injection/inversion unfold Z.add on literals) *)
Lemma Ok_inj {A} (x y : A) : Ok x = Ok y -> x = y.
Proof. intros H. exact (f_equal (fun m => match m with Ok a => a | Raise _ => x end) H). Qed.
Ltac ok_inj H := apply Ok_inj in H; try subst.
Lemma bind_raise {A B} (m : M A) (f : A -> M B) e : bind m f = Raise e ->
  m = Raise e \/ exists a, m = Ok a /\ f a = Raise e.
Proof. destruct m as [a|e']; cbn [bind]; intros H; [right; eauto | left; congruence]. Qed.

Lemma utf8_dec1 b0 rest : 0 <= b0 < 128 ->
  utf8_decode (b0 :: rest) = (r <- utf8_decode rest ;; Ok (b0 :: r)).
Proof. intros H. cbn [utf8_decode]. repeat decide_if. reflexivity. Qed.
Lemma utf8_dec2 b0 b1 rest : 194 <= b0 < 224 -> 128 <= b1 < 192 ->
  utf8_decode (b0 :: b1 :: rest) = (r <- utf8_decode rest ;; Ok (((b0 - 192) * 64 + (b1 - 128)) :: r)).
Proof. intros H0 H1. cbn [utf8_decode]. unfold is_cont. repeat decide_if. reflexivity. Qed.
Lemma utf8_dec3 b0 b1 b2 rest : 224 <= b0 < 240 -> 128 <= b1 < 192 -> 128 <= b2 < 192 ->
  (b0 = 224 -> 160 <= b1) -> (b0 = 237 -> b1 < 160) ->
  utf8_decode (b0 :: b1 :: b2 :: rest) = (r <- utf8_decode rest ;; Ok (((b0 - 224) * 4096 + (b1 - 128) * 64 + (b2 - 128)) :: r)).
Proof. intros H0 H1 H2 H3 H4. cbn [utf8_decode]. unfold is_cont. repeat decide_if. reflexivity. Qed.
Lemma utf8_dec4 b0 b1 b2 b3 rest : 240 <= b0 < 245 -> 128 <= b1 < 192 -> 128 <= b2 < 192 -> 128 <= b3 < 192 ->
  (b0 = 240 -> 144 <= b1) -> (b0 = 244 -> b1 < 144) ->
  utf8_decode (b0 :: b1 :: b2 :: b3 :: rest) =
  (r <- utf8_decode rest ;; Ok (((b0 - 240) * 262144 + (b1 - 128) * 4096 + (b2 - 128) * 64 + (b3 - 128)) :: r)).
Proof. intros H0 H1 H2 H3 H4 H5. cbn [utf8_decode]. unfold is_cont. repeat decide_if. reflexivity. Qed.

(* In each case one lia call, the only one that sees division, gives the ranges of the bytes and that they spell c;
   then the bytes are made opaque. *)
Lemma utf8_encode_char_spec c :
  match utf8_encode_char c with
  | Ok b => scalar c = true /\ b <> [] /\ bytes_ok b = true /\ (b = [c] \/ forallb (fun x => 128 <=? x) b = true) /\
            forall rest, utf8_decode (b ++ rest) = (r <- utf8_decode rest ;; Ok (c :: r))
  | Raise e => scalar c = false /\ e = UnicodeEncodeError
  end.
Proof.
  unfold utf8_encode_char, scalar, is_surrogate, bytes_ok, byte_ok.
  destruct (c <? 0) eqn:E0; [split; [lia | reflexivity]|].
  destruct (c <? 128) eqn:E1.
  { cbn [forallb]. split; [lia|]. split; [discriminate|]. split; [lia|]. split; [left; reflexivity|].
    intros rest. cbn [app]. apply utf8_dec1. lia. }
  destruct (c <? 2048) eqn:E2.
  { set (b0 := 192 + c / 64). set (b1 := 128 + c mod 64).
    assert (R : 194 <= b0 < 224 /\ 128 <= b1 < 192 /\ (b0 - 192) * 64 + (b1 - 128) = c) by (unfold b0, b1; lia).
    clearbody b0 b1. destruct R as (R0 & R1 & R).
    cbn [forallb]. split; [lia|]. split; [discriminate|]. split; [lia|]. split; [right; lia|].
    intros rest. cbn [app]. rewrite utf8_dec2, R by assumption. reflexivity. }
  destruct (c <? 65536) eqn:E3.
  { destruct ((55296 <=? c) && (c <=? 57343)) eqn:E4; [split; [lia | reflexivity]|].
    set (b0 := 224 + c / 4096). set (b1 := 128 + (c / 64) mod 64). set (b2 := 128 + c mod 64).
    assert (R : 224 <= b0 < 240 /\ 128 <= b1 < 192 /\ 128 <= b2 < 192 /\ (b0 = 224 -> 160 <= b1) /\ (b0 = 237 -> b1 < 160) /\
                (b0 - 224) * 4096 + (b1 - 128) * 64 + (b2 - 128) = c) by (unfold b0, b1, b2; lia).
    clearbody b0 b1 b2. destruct R as (R0 & R1 & R2 & R3 & R4 & R).
    cbn [forallb]. split; [lia|]. split; [discriminate|]. split; [lia|]. split; [right; lia|].
    intros rest. cbn [app]. rewrite utf8_dec3, R by assumption. reflexivity. }
  destruct (c <? 1114112) eqn:E5; [|split; [lia | reflexivity]].
  set (b0 := 240 + c / 262144). set (b1 := 128 + (c / 4096) mod 64). set (b2 := 128 + (c / 64) mod 64). set (b3 := 128 + c mod 64).
  assert (R : 240 <= b0 < 245 /\ 128 <= b1 < 192 /\ 128 <= b2 < 192 /\ 128 <= b3 < 192 /\ (b0 = 240 -> 144 <= b1) /\ (b0 = 244 -> b1 < 144) /\
              (b0 - 240) * 262144 + (b1 - 128) * 4096 + (b2 - 128) * 64 + (b3 - 128) = c) by (unfold b0, b1, b2, b3; lia).
  clearbody b0 b1 b2 b3. destruct R as (R0 & R1 & R2 & R3 & R4 & R5 & R).
  cbn [forallb]. split; [lia|]. split; [discriminate|]. split; [lia|]. split; [right; lia|].
  intros rest. cbn [app]. rewrite utf8_dec4, R by assumption. reflexivity.
Qed.

Lemma utf8_encode_ok_ind (P : list Z -> list Z -> Prop) :
  P [] [] ->
  (forall c s bc bs, utf8_encode_char c = Ok bc -> utf8_encode s = Ok bs -> P s bs -> P (c :: s) (bc ++ bs)) ->
  forall s b, utf8_encode s = Ok b -> P s b.
Proof.
  intros H0 Hc. induction s as [|c s IH]; intros b H; cbn [utf8_encode] in H. { ok_inj H. exact H0. }
  apply bind_ok in H as (bc & Ec & H). apply bind_ok in H as (bs & Es & H). ok_inj H. apply Hc; auto.
Qed.

Theorem utf8_decode_encode s : forall b, utf8_encode s = Ok b -> utf8_decode b = Ok s.
Proof.
  revert s. apply utf8_encode_ok_ind; [reflexivity|]. intros c s bc bs Ec _ IH.
  pose proof (utf8_encode_char_spec c) as Hc. rewrite Ec in Hc. destruct Hc as (_ & _ & _ & _ & Hc). rewrite Hc, IH. reflexivity.
Qed.

Lemma utf8_encode_spec s :
  match utf8_encode s with
  | Ok b => valid_str s = true /\ bytes_ok b = true
  | Raise e => valid_str s = false /\ e = UnicodeEncodeError
  end.
Proof.
  unfold valid_str. induction s as [|c s IH]; [split; reflexivity|]. cbn [utf8_encode forallb].
  pose proof (utf8_encode_char_spec c) as Hc. destruct (utf8_encode_char c) as [bc|e]; cbn [bind].
  - destruct Hc as (-> & _ & Bc & _). destruct (utf8_encode s) as [bs|e]; cbn [bind]; [|exact IH].
    destruct IH as [-> Bs]. rewrite bytes_ok_app, Bc, Bs. split; reflexivity.
  - destruct Hc as (-> & ->). split; reflexivity.
Qed.
Lemma utf8_encode_ok s : valid_str s = true -> exists b, utf8_encode s = Ok b /\ bytes_ok b = true.
Proof.
  intros V. pose proof (utf8_encode_spec s) as H. destruct (utf8_encode s) as [b|e]; [|destruct H; congruence].
  exists b. split; [reflexivity | apply H].
Qed.
Lemma utf8_encode_invalid s : valid_str s = false -> utf8_encode s = Raise UnicodeEncodeError.
Proof. intros V. pose proof (utf8_encode_spec s) as H. destruct (utf8_encode s); [destruct H; congruence | destruct H as [_ ->]; reflexivity]. Qed.

Lemma utf8_encode_ascii s : forallb (fun c => (0 <=? c) && (c <? 128)) s = true -> utf8_encode s = Ok s.
Proof.
  induction s as [|c s IH]; intros H; [reflexivity|]. cbn in H. apply andb_prop in H as [Hc Hs].
  cbn [utf8_encode]. unfold utf8_encode_char. replace (c <? 0) with false by lia. replace (c <? 128) with true by lia.
  cbn [bind]. rewrite IH by exact Hs. reflexivity.
Qed.
Lemma utf8_decode_ascii b : forallb (fun c => (0 <=? c) && (c <? 128)) b = true -> utf8_decode b = Ok b.
Proof. intros H. apply utf8_decode_encode, utf8_encode_ascii, H. Qed.

(* the decoder's own range tests bound the code point: nothing is assumed about the bytes *)
Lemma utf8_decode_cons b0 r :
  utf8_decode (b0 :: r) = Raise UnicodeDecodeError \/
  exists c r', scalar c = true /\ (length r' <= length r)%nat /\
    utf8_decode (b0 :: r) = (rest <- utf8_decode r' ;; Ok (c :: rest)).
Proof.
  cbn [utf8_decode]. unfold is_cont, scalar, is_surrogate.
  destruct ((0 <=? b0) && (b0 <? 128)) eqn:E1. { right. exists b0, r. split; [lia | split; [apply le_n | reflexivity]]. }
  destruct ((194 <=? b0) && (b0 <? 224)) eqn:E2.
  { destruct r as [|b1 r']; [left; reflexivity|]. destruct ((128 <=? b1) && (b1 <? 192)) eqn:C; [|left; reflexivity].
    right. eexists _, r'. split; [|split; [cbn [length]; lia | reflexivity]]. lia. }
  destruct ((224 <=? b0) && (b0 <? 240)) eqn:E3.
  { destruct r as [|b1 [|b2 r']]; try (left; reflexivity).
    destruct (_ && _ && implb (b0 =? 224) (160 <=? b1) && implb (b0 =? 237) (b1 <? 160)) eqn:C; [|left; reflexivity].
    right. eexists _, r'. split; [|split; [cbn [length]; lia | reflexivity]]. lia. }
  destruct ((240 <=? b0) && (b0 <? 245)) eqn:E4; [|left; reflexivity].
  destruct r as [|b1 [|b2 [|b3 r']]]; try (left; reflexivity).
  destruct (_ && _ && _ && implb (b0 =? 240) (144 <=? b1) && implb (b0 =? 244) (b1 <? 144)) eqn:C; [|left; reflexivity].
  right. eexists _, r'. split; [|split; [cbn [length]; lia | reflexivity]]. lia.
Qed.
Theorem utf8_decode_spec b :
  match utf8_decode b with
  | Ok s => valid_str s = true /\ (s = [] -> b = [])
  | Raise e => e = UnicodeDecodeError
  end.
Proof.
  remember (length b) as n eqn:Hn. revert b Hn. induction n as [n IH] using lt_wf_ind. intros b ->.
  destruct b as [|b0 r]; [split; reflexivity|].
  destruct (utf8_decode_cons b0 r) as [-> | (c & r' & Hc & Hl & ->)]; [reflexivity|].
  specialize (IH (length r') ltac:(cbn [length]; lia) r' eq_refl).
  destruct (utf8_decode r') as [s|e]; cbn [bind]; [|exact IH].
  split; [|discriminate]. unfold valid_str in *. cbn [forallb]. rewrite Hc. apply IH.
Qed.

Lemma mem_app c a b : mem c (a ++ b) = mem c a || mem c b.
Proof. unfold mem. apply existsb_app. Qed.
Lemma mem_cons c x a : mem c (x :: a) = (c =? x) || mem c a.
Proof. reflexivity. Qed.
Lemma mem_rev c a : mem c (rev a) = mem c a.
Proof. induction a as [|x a IH]; [reflexivity|]. cbn [rev]. rewrite mem_app, IH, mem_cons. cbn. rewrite orb_false_r. apply orb_comm. Qed.
Lemma mem_false_forall c a : mem c a = false <-> Forall (fun x => x <> c) a.
Proof.
  induction a as [|x a IH]; split; intros H; auto.
  - rewrite mem_cons in H. apply orb_false_elim in H as [H1 H2]. constructor; [lia| apply IH; exact H2].
  - inv H. rewrite mem_cons. apply IH in H3. rewrite H3. lia.
Qed.
Lemma mem_true_in c a : mem c a = true <-> In c a.
Proof.
  unfold mem. rewrite existsb_exists. split.
  - intros (x & Hin & E). apply Z.eqb_eq in E. subst. exact Hin.
  - intros H. exists c. split; [exact H | apply Z.eqb_refl].
Qed.

Section Classes.
Variable P : Z -> bool.
Lemma forallb_mem_false s d : forallb P s = true -> P d = false -> mem d s = false.
Proof.
  intros Hs Hd. apply mem_false_forall. rewrite forallb_forall in Hs. apply Forall_forall. intros x Hin E. subst.
  rewrite (Hs _ Hin) in Hd. discriminate.
Qed.
Lemma forallb_over L s : forallb (fun c => mem c L) s = true -> forallb P L = true -> forallb P s = true.
Proof.
  intros Hs HL. rewrite forallb_forall in *. intros x Hin. apply HL, mem_true_in, Hs, Hin.
Qed.
Lemma forallb_rev s : forallb P (rev s) = forallb P s.
Proof. induction s as [|x s IH]; [reflexivity|]. cbn [rev]. rewrite forallb_app, IH. cbn. rewrite andb_true_r. apply andb_comm. Qed.
Lemma forallb_repeat x n : P x = true -> forallb P (repeat x n) = true.
Proof. intros H. induction n as [|n IH]; [reflexivity|]. cbn [repeat forallb]. rewrite H. exact IH. Qed.
Lemma partition_forallb c s : forallb P s = true ->
  forallb P (fst (fst (partition c s))) = true /\ forallb P (snd (partition c s)) = true.
Proof.
  induction s as [|x s IH]; intros H; [split; reflexivity|]. cbn [forallb] in H. apply andb_prop in H as [Hx Hs].
  cbn [partition]. destruct (x =? c); [split; [reflexivity | exact Hs]|]. destruct (IH Hs) as [I1 I2].
  destruct (partition c s) as [[a h] b]. cbn [fst snd] in *. cbn [forallb]. rewrite Hx, I1. split; [reflexivity | exact I2].
Qed.
Lemma rpartition_forallb c s : forallb P s = true -> forallb P (snd (rpartition c s)) = true.
Proof.
  intros H. unfold rpartition. pose proof (partition_forallb c (rev s)) as Hp. rewrite forallb_rev in Hp. destruct (Hp H) as [I1 I2].
  destruct (partition c (rev s)) as [[a h] b]. cbn [fst snd] in *. destruct h; cbn [snd]; [rewrite forallb_rev; exact I1 | exact H].
Qed.
Lemma split_on_forallb c s : forallb P s = true -> forallb (forallb P) (split_on c s) = true.
Proof.
  induction s as [|x s IH]; intros H; [reflexivity|]. cbn [forallb] in H. apply andb_prop in H as [Hx Hs]. specialize (IH Hs).
  cbn [split_on]. destruct (x =? c); [cbn [forallb]; exact IH|]. destruct (split_on c s) as [|a t]; cbn [forallb] in *; [rewrite Hx; reflexivity|].
  apply andb_prop in IH as [I1 I2]. rewrite Hx, I1, I2. reflexivity.
Qed.
Lemma lstrip_forallb s : forallb P s = true -> forallb P (lstrip_c0 s) = true.
Proof. induction s as [|x s IH]; intros H; [reflexivity|]. cbn [lstrip_c0]. destruct (_ && _); [|exact H]. cbn [forallb] in H. apply andb_prop in H as [_ H]. apply IH. exact H. Qed.
Lemma filter_forallb (f : Z -> bool) s : forallb P s = true -> forallb P (filter f s) = true.
Proof. induction s as [|x s IH]; intros H; [reflexivity|]. cbn [forallb] in H. apply andb_prop in H as [Hx Hs]. cbn [filter]. destruct (f x); [cbn [forallb]; rewrite Hx|]; apply IH; exact Hs. Qed.
Lemma filter_self s : forallb P (filter P s) = true.
Proof. induction s as [|x s IH]; [reflexivity|]. cbn [filter]. destruct (P x) eqn:E; [cbn [forallb]; rewrite E|]; exact IH. Qed.
End Classes.
Lemma forallb_neq_mem d s : forallb (fun c => negb (c =? d)) s = true <-> mem d s = false.
Proof.
  induction s as [|x s IH]; [split; reflexivity|]. cbn [forallb]. rewrite mem_cons. split.
  - intros H. apply andb_prop in H as [H1 H2]. apply IH in H2. rewrite H2. lia.
  - intros H. apply orb_false_elim in H as [H1 H2]. apply IH in H2. rewrite H2. lia.
Qed.
Lemma forallb_not_in (P : Z -> bool) D s : (forall c, P c = false -> In c D) -> Forall (fun d => mem d s = false) D -> forallb P s = true.
Proof.
  intros HP HD. apply forallb_forall. intros x Hin. destruct (P x) eqn:E; [reflexivity|].
  rewrite Forall_forall in HD. specialize (HD x (HP x E)). apply mem_true_in in Hin. congruence.
Qed.
Lemma skipn_forallb {A} (Q : A -> bool) n l : forallb Q l = true -> forallb Q (skipn n l) = true.
Proof. revert l. induction n as [|n IH]; intros [|x l] H; cbn [skipn]; auto. cbn [forallb] in H. apply andb_prop in H as [_ H]. apply IH. exact H. Qed.

Lemma partition_found c a b : mem c a = false -> partition c (a ++ c :: b) = (a, true, b).
Proof.
  induction a as [|x a IH]; intros H; cbn [app partition].
  - rewrite Z.eqb_refl. reflexivity.
  - rewrite mem_cons in H. apply orb_false_elim in H as [H1 H2].
    replace (x =? c) with false by lia. rewrite IH by exact H2. reflexivity.
Qed.
Lemma partition_head c b : partition c (c :: b) = ([], true, b).
Proof. cbn [partition]. rewrite Z.eqb_refl. reflexivity. Qed.
Lemma partition_notfound c a : mem c a = false -> partition c a = (a, false, []).
Proof.
  induction a as [|x a IH]; intros H; cbn [partition]; [reflexivity|].
  rewrite mem_cons in H. apply orb_false_elim in H as [H1 H2].
  replace (x =? c) with false by lia. rewrite IH by exact H2. reflexivity.
Qed.
Lemma partition_spec c s : forall a f b, partition c s = (a, f, b) ->
  mem c a = false /\ s = a ++ (if f then c :: b else []) /\ (f = false -> b = []).
Proof.
  induction s as [|x s IH]; intros a f b E; cbn [partition] in E. { injection E as <- <- <-. auto. }
  destruct (x =? c) eqn:Ex.
  { injection E as <- <- <-. apply Z.eqb_eq in Ex. subst. split; [reflexivity | split; [reflexivity | discriminate]]. }
  destruct (partition c s) as [[a1 f1] b1]. injection E as <- <- <-. destruct (IH _ _ _ eq_refl) as (M & -> & N).
  split; [rewrite mem_cons, M; lia | split; [reflexivity | exact N]].
Qed.
Lemma rpartition_notfound c s : mem c s = false -> rpartition c s = ([], false, s).
Proof. intros H. unfold rpartition. rewrite partition_notfound by (rewrite mem_rev; exact H). reflexivity. Qed.
Lemma rpartition_snd_nomem c s : mem c (snd (rpartition c s)) = false.
Proof.
  unfold rpartition. destruct (partition c (rev s)) as [[a f] b] eqn:E. destruct (partition_spec _ _ _ _ _ E) as (M & Es & Hb).
  destruct f; cbn [snd]; [rewrite mem_rev; exact M|]. rewrite <- mem_rev, Es, app_nil_r. exact M.
Qed.
Lemma rpartition_found c a b : mem c b = false -> rpartition c (a ++ c :: b) = (a, true, b).
Proof.
  intros H. unfold rpartition. rewrite rev_app_distr. cbn [rev]. rewrite <- app_assoc. cbn [app].
  rewrite partition_found by (rewrite mem_rev; exact H). rewrite !rev_involutive. reflexivity.
Qed.

Lemma split_on_none c a : mem c a = false -> split_on c a = [a].
Proof.
  induction a as [|x a IH]; intros H; cbn [split_on]; [reflexivity|].
  rewrite mem_cons in H. apply orb_false_elim in H as [H1 H2].
  replace (x =? c) with false by lia. rewrite IH by exact H2. reflexivity.
Qed.
Lemma split_on_app c a rest : mem c a = false -> split_on c (a ++ c :: rest) = a :: split_on c rest.
Proof.
  induction a as [|x a IH]; intros H; cbn [app split_on].
  - rewrite Z.eqb_refl. reflexivity.
  - rewrite mem_cons in H. apply orb_false_elim in H as [H1 H2].
    replace (x =? c) with false by lia. rewrite IH by exact H2. reflexivity.
Qed.
(* c.join(l) splits back into l, unless l is empty (then [""] comes back) *)
Lemma split_on_join c l : l <> [] -> forallb (forallb (fun x => negb (x =? c))) l = true -> split_on c (join [c] l) = l.
Proof.
  induction l as [|a l IH]; intros Hne H; [congruence|]. cbn [forallb] in H. apply andb_prop in H as [Ha Hl]. apply forallb_neq_mem in Ha.
  destruct l as [|a' l'].
  - cbn [join]. apply split_on_none. exact Ha.
  - change (join [c] (a :: a' :: l')) with (a ++ [c] ++ join [c] (a' :: l')). cbn [app].
    rewrite split_on_app by exact Ha. rewrite IH; [reflexivity | discriminate | exact Hl].
Qed.
(* "".join("/" + x for x in l) is "/".join([""] + l) *)
Lemma prefixed_join c l : flat_map (fun x => c :: x) l = join [c] ([] :: l).
Proof.
  enough (G : forall a, a ++ flat_map (fun x => c :: x) l = join [c] (a :: l)) by exact (G []).
  induction l as [|b l IH]; intros a; [apply app_nil_r|]. cbn [flat_map].
  change (join [c] (a :: b :: l)) with (a ++ c :: join [c] (b :: l)). rewrite <- IH. reflexivity.
Qed.

Lemma lower_ascii_forallb (P : Z -> bool) s : (forall c, P c = true -> P (lower_c c) = true) ->
  forallb P s = true -> forallb P (lower_ascii s) = true.
Proof.
  intros HP H. unfold lower_ascii. rewrite forallb_forall in *. intros y Hin.
  apply in_map_iff in Hin as (c & <- & Hin). apply HP, H, Hin.
Qed.
Lemma lower_c_neq d c : is_lower d = false -> negb (c =? d) = true -> negb (lower_c c =? d) = true.
Proof. unfold lower_c, is_upper, is_lower. destruct ((65 <=? c) && (c <=? 90)) eqn:E; lia. Qed.

Definition decf (a c : Z) : Z := a * 10 + (c - 48).
Lemma parse_dec_unfold s : parse_dec s = fold_left decf s 0. Proof. reflexivity. Qed.
Lemma dec_digits_value fuel : forall n acc, (1 <= fuel)%nat -> 0 <= n < 2 ^ Z.of_nat fuel ->
  fold_left decf (dec_digits fuel n acc) 0 = fold_left decf acc n.
Proof.
  induction fuel as [|f IH]; intros n acc Hf Hn; [lia|].
  cbn [dec_digits]. destruct (n <? 10) eqn:E.
  - cbn [fold_left]. unfold decf at 2. f_equal. lia.
  - rewrite Nat2Z.inj_succ, Z.pow_succ_r in Hn by lia.
    assert (Hq : 1 <= n / 10 < 2 ^ Z.of_nat f) by lia.
    destruct f as [|f']. { cbn in Hq. lia. }
    rewrite IH by lia. cbn [fold_left]. unfold decf at 2. f_equal. lia.
Qed.
Lemma dec_digits_digits fuel : forall n acc, 0 <= n -> forallb is_digit acc = true -> forallb is_digit (dec_digits fuel n acc) = true.
Proof.
  induction fuel as [|f IH]; intros n acc Hn Ha; [exact Ha|].
  cbn [dec_digits].
  assert (Hd : forallb is_digit ((48 + n mod 10) :: acc) = true).
  { cbn [forallb]. rewrite Ha. unfold is_digit. lia. }
  destruct (n <? 10); [exact Hd|]. apply IH; [lia | exact Hd].
Qed.
Lemma dec_digits_length fuel : forall n acc, (length (dec_digits fuel n acc) <= fuel + length acc)%nat.
Proof.
  induction fuel as [|f IH]; intros n acc; [cbn; lia|].
  cbn [dec_digits]. destruct (n <? 10). { cbn [length]. lia. }
  specialize (IH (n / 10) ((48 + n mod 10) :: acc)). cbn [length] in IH. lia.
Qed.
Lemma dec_digits_nonempty fuel n acc : (1 <= fuel)%nat -> dec_digits fuel n acc <> [].
Proof.
  revert n acc. induction fuel as [|f IH]; intros n acc Hf; [lia|].
  cbn [dec_digits]. destruct (n <? 10); [discriminate|].
  destruct f as [|f']; [cbn; discriminate|]. apply IH. lia.
Qed.

Lemma parse_dec_nonneg s : forallb is_digit s = true -> forall a, 0 <= a -> 0 <= fold_left decf s a.
Proof.
  induction s as [|c s IH]; intros H a Ha; [exact Ha|]. cbn [forallb] in H. apply andb_prop in H as [Hc Hs].
  cbn [fold_left]. apply IH; [exact Hs|]. unfold decf, is_digit in *. lia.
Qed.
Lemma log2_fuel n : 0 <= n -> n < 2 ^ Z.of_nat (S (Z.to_nat (Z.log2 n))).
Proof.
  intros H. rewrite Nat2Z.inj_succ, Z2Nat.id by apply Z.log2_nonneg.
  destruct (Z.eq_dec n 0) as [->|Hz]; [cbn; lia|].
  apply Z.log2_spec. lia.
Qed.
Theorem parse_print_nat_dec n : 0 <= n -> parse_dec (print_nat_dec n) = n.
Proof.
  intros H. unfold print_nat_dec. rewrite parse_dec_unfold, dec_digits_value; [reflexivity | lia |].
  split; [exact H | apply log2_fuel; exact H].
Qed.
Lemma print_dec_nonneg n : 0 <= n -> print_dec n = print_nat_dec n.
Proof. intros H. unfold print_dec. replace (n <? 0) with false by lia. reflexivity. Qed.
Lemma print_nat_dec_digits n : 0 <= n -> forallb is_digit (print_nat_dec n) = true /\ print_nat_dec n <> [].
Proof. intros H. split; [apply dec_digits_digits; auto | apply dec_digits_nonempty; lia]. Qed.
Lemma print_nat_dec_short n : 0 <= n <= 65535 -> blen (print_nat_dec n) <= 17.
Proof.
  intros H. unfold print_nat_dec, blen.
  pose proof (dec_digits_length (S (Z.to_nat (Z.log2 n))) n []) as L. cbn [length] in L.
  assert (Z.log2 n <= 15).
  { destruct (Z.eq_dec n 0) as [->|Hz]; [cbn; lia|]. assert (H' : Z.log2 n <= Z.log2 65535) by (apply Z.log2_le_mono; lia). change (Z.log2 65535) with 15 in H'. lia. }
  lia.
Qed.
