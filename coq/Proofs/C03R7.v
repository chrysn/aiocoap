(* C03 -- the CLASS of the error delivered for an unanswered CON request. Chains exchange_request_pending (Pend) and the
   at-most-once invariant OnceInv (Proofs/C03R6b.v) into the give-up theorem: while the exchange is still active the request has not failed with
   anything; once it gave up, ConRetransmitsExceeded at the deadline is the one and only failure output of the request. *)
From Verif Require Import Lib.Py Lib.Tactics Model.C03 Proofs.C03 Proofs.C03struct Proofs.C03hist Proofs.C03main Proofs.C03tm Proofs.C03R6b.
Open Scope Z_scope.

Lemma fails_in : forall rid o t e, In (OFail t rid e) o -> (1 <= fails rid o)%nat.
Proof. intros rid o t e Hin. apply in_split in Hin. destruct Hin as (a & b & ->). rewrite fails_app. cbn. rewrite Z.eqb_refl. lia. Qed.

(* at most one failure output of rid: two failure outputs of rid in the trace are the same output *)
Lemma fails_unique : forall rid o t1 e1 t2 e2, (fails rid o <= 1)%nat -> In (OFail t1 rid e1) o -> In (OFail t2 rid e2) o -> t1 = t2 /\ e1 = e2.
Proof.
  intros rid o t1 e1 t2 e2 Hle H1 H2. apply in_split in H1. destruct H1 as (a & b & ->).
  apply in_app_iff in H2. destruct H2 as [H2|[H2|H2]]; [|inv H2; auto|]; apply in_split in H2; destruct H2 as (c & d & ->).
  - rewrite <- app_assoc in Hle. pose proof (fails_two rid _ t2 e2 t1 e1 c d b eq_refl). cbn [app] in Hle. lia.
  - pose proof (fails_two rid _ t1 e1 t2 e2 a c d eq_refl). lia.
Qed.

(* a request that has failed (with whatever exception) is no longer pending in the token manager, towards any remote; every history *)
Lemma failed_not_pending : forall mid0 draws evs tf rid x, wf_run draws evs -> In (OFail tf rid x) (trace_of mid0 draws evs) ->
  forall r, ~ In (rid, r) (outgoing_requests (final_of mid0 draws evs)).
Proof.
  intros mid0 draws evs tf rid x W Hi r Hp. destruct (final_once_inv mid0 draws evs W) as (_ & _ & Hf). destruct (Hf rid) as [A B].
  apply fails_in in Hi. assert (E : fails rid (trace_of mid0 draws evs) = 1%nat) by lia. destruct (B E) as [_ Q]. apply Q.
  unfold pending. apply in_map_iff. exists (rid, r). split; auto.
Qed.

(* the request of an outstanding exchange has not failed with ANY exception class (unless it was cancelled or answered before) *)
Lemma active_exchange_not_failed : forall mid0 draws evs e, wf_run draws evs -> In e (active_exchanges (final_of mid0 draws evs)) ->
  ~ In (gone_key (e_rid e)) (recv_keys evs) -> forall tf x, ~ In (OFail tf (e_rid e) x) (trace_of mid0 draws evs).
Proof.
  intros mid0 draws evs e W He Hg tf x Hi. destruct (exchange_request_pending _ _ _ _ W He) as [Hp|Hp]; [|auto].
  eapply failed_not_pending; eauto.
Qed.

(* the give-up theorem with the class of EVERY failure output of the request, for every history (refusing transports included):
   exchange still waiting => the request has not failed at all; gave up => ConRetransmitsExceeded at the deadline is its only failure;
   refused by the transport => NetworkError is its only failure *)
Lemma gives_up_class : forall mid0 draws evs t m, wf_run draws evs -> In (OSend t m) (trace_of mid0 draws evs) ->
  ~ In (m_remote m, m_mid m) (recv_keys evs) -> ~ In (err_key (m_remote m)) (recv_keys evs) -> ~ In (gone_key (m_rid m)) (recv_keys evs) ->
  exists T0 t0 n, copies (m_rid m) (trace_of mid0 draws evs) = sched_of m T0 t0 n /\ (0 < n)%nat /\ range (m_tuning m) t0 /\
    Z.of_nat n <= MAX_RETRANSMIT (m_tuning m) + 1 /\
    ( ((exists e, In e (active_exchanges (final_of mid0 draws evs)) /\ h_message (e_timer e) = m /\
                  h_due (e_timer e) = T0 + t0 * (2 ^ Z.of_nat n - 1) /\ now (final_of mid0 draws evs) <= h_due (e_timer e)) /\
       (forall tf x, ~ In (OFail tf (m_rid m) x) (trace_of mid0 draws evs))) \/
      (Z.of_nat n = MAX_RETRANSMIT (m_tuning m) + 1 /\
       In (OFail (T0 + t0 * (2 ^ (MAX_RETRANSMIT (m_tuning m) + 1) - 1)) (m_rid m) ConRetransmitsExceeded) (trace_of mid0 draws evs) /\
       (forall tf x, In (OFail tf (m_rid m) x) (trace_of mid0 draws evs) ->
          tf = T0 + t0 * (2 ^ (MAX_RETRANSMIT (m_tuning m) + 1) - 1) /\ x = ConRetransmitsExceeded)) \/
      (exists tf, In (OFail tf (m_rid m) NetworkError) (trace_of mid0 draws evs) /\
         (forall tf' x, In (OFail tf' (m_rid m) x) (trace_of mid0 draws evs) -> tf' = tf /\ x = NetworkError)) ).
Proof.
  intros mid0 draws evs t m W Hin H1 H2 H3.
  destruct (gives_up _ _ _ _ _ W Hin H1 H2 H3) as (T0 & t0 & n & Hc & Hn & Hr & Hle & Hcase).
  pose proof (request_fails_at_most_once mid0 draws evs (m_rid m) W) as Honce.
  exists T0, t0, n. split; [exact Hc|]. split; [exact Hn|]. split; [exact Hr|]. split; [exact Hle|].
  destruct Hcase as [(e & He & Hm & Hd & Hnow)|[(Hn' & Hf)|(tf & Hf)]].
  - left. split; [exists e; auto|]. intros tf x Hi.
    assert (Er : e_rid e = m_rid m) by (unfold e_rid; rewrite Hm; reflexivity).
    rewrite <- Er in Hi. revert Hi. apply active_exchange_not_failed; auto. rewrite Er. exact H3.
  - right; left. split; [exact Hn'|]. split; [exact Hf|]. intros tf x Hi. exact (fails_unique _ _ _ _ _ _ Honce Hi Hf).
  - right; right. exists tf. split; [exact Hf|]. intros tf' x Hi. exact (fails_unique _ _ _ _ _ _ Honce Hi Hf).
Qed.

(* ... on a transport that never refuses and reports no error for the remote this request was addressed to: exactly the two outcomes
   of the property text, each with the complete list of the request's failure outputs *)
Lemma gives_up_class_plain_remote : forall mid0 draws evs t m, wf_run draws evs -> no_refusal evs ->
  (forall r tn, In (ERequest (m_rid m) r tn) evs -> ~ In (EError r) evs) ->
  In (OSend t m) (trace_of mid0 draws evs) ->
  ~ In (m_remote m, m_mid m) (recv_keys evs) -> ~ In (err_key (m_remote m)) (recv_keys evs) -> ~ In (gone_key (m_rid m)) (recv_keys evs) ->
  exists T0 t0 n, copies (m_rid m) (trace_of mid0 draws evs) = sched_of m T0 t0 n /\ (0 < n)%nat /\ range (m_tuning m) t0 /\
    Z.of_nat n <= MAX_RETRANSMIT (m_tuning m) + 1 /\
    ( ((exists e, In e (active_exchanges (final_of mid0 draws evs)) /\ h_message (e_timer e) = m /\
                  h_due (e_timer e) = T0 + t0 * (2 ^ Z.of_nat n - 1) /\ now (final_of mid0 draws evs) <= h_due (e_timer e)) /\
       (forall tf x, ~ In (OFail tf (m_rid m) x) (trace_of mid0 draws evs))) \/
      (Z.of_nat n = MAX_RETRANSMIT (m_tuning m) + 1 /\
       In (OFail (T0 + t0 * (2 ^ (MAX_RETRANSMIT (m_tuning m) + 1) - 1)) (m_rid m) ConRetransmitsExceeded) (trace_of mid0 draws evs) /\
       (forall tf x, In (OFail tf (m_rid m) x) (trace_of mid0 draws evs) ->
          tf = T0 + t0 * (2 ^ (MAX_RETRANSMIT (m_tuning m) + 1) - 1) /\ x = ConRetransmitsExceeded)) ).
Proof.
  intros mid0 draws evs t m W Hn He Hin H1 H2 H3.
  destruct (gives_up_class _ _ _ _ _ W Hin H1 H2 H3) as (T0 & t0 & n & Hc & Hn' & Hr & Hle & Hcase).
  exists T0, t0, n. split; [exact Hc|]. split; [exact Hn'|]. split; [exact Hr|]. split; [exact Hle|].
  destruct Hcase as [Hc1|[Hc2|(tf & Hf & _)]]; [left; exact Hc1|right; exact Hc2|].
  exfalso. destruct (network_error_for_remote _ _ _ _ _ Hn Hf) as (r & tn & Hq & Hre). eapply He; eauto.
Qed.

(* non-vacuity: concrete runs satisfying the hypotheses, one per theorem *)
Definition r7_tn : tuning := {| ACK_TIMEOUT := 2000000; ARF_num := 3; ARF_den := 2; MAX_RETRANSMIT := 4 |}.
Definition r7_m : message := {| m_remote := 7; m_mid := 65535; m_rid := 1; m_tuning := r7_tn |}.
(* request 1 gives up (request 2, backlogged behind it, fails with it); a foreign ACK in between *)
Definition r7_giveup : list event := [ERequest 1 7 r7_tn; ERequest 2 7 r7_tn; ERecv 7 false 99; EFire; EFire; EFire; EFire; EFire; EFire].
(* the same, stopped after two retransmissions: exchange still waiting *)
Definition r7_waiting : list event := [ERequest 1 7 r7_tn; ERequest 2 7 r7_tn; ERecv 7 false 99; EFire; EFire].
(* the third retransmission is refused by the transport *)
Definition r7_refused : list event := [ERequest 1 7 r7_tn; EFire; EFire; ERefuse 7 true; EFire].

Lemma r7_wf : wf_run [500] r7_giveup /\ wf_run [500] r7_waiting /\ wf_run [500] r7_refused.
Proof.
  unfold wf_run, r7_giveup, r7_waiting, r7_refused, wf_tuning, r7_tn, RNG_DEN. cbn.
  repeat split; try lia; try (repeat constructor; lia); intuition discriminate.
Qed.

(* the hypotheses of the give-up theorems: first copy of r7_m at 0, no ACK / RST / transport error / cancellation / response for it *)
Definition r7_hyps (evs : list event) : Prop :=
  wf_run [500] evs /\ In (OSend 0 r7_m) (trace_of 65535 [500] evs) /\
  ~ In (m_remote r7_m, m_mid r7_m) (recv_keys evs) /\ ~ In (err_key (m_remote r7_m)) (recv_keys evs) /\ ~ In (gone_key (m_rid r7_m)) (recv_keys evs).
Lemma r7_hyps_hold : r7_hyps r7_giveup /\ r7_hyps r7_waiting /\ r7_hyps r7_refused.
Proof.
  destruct r7_wf as (W1 & W2 & W3). unfold r7_hyps.
  split; [|split]; (split; [assumption|]); vm_compute; intuition congruence.
Qed.

(* failed_not_pending: request 1 failed, and is indeed pending nowhere *)
Example failed_not_pending_nonvacuous :
  wf_run [500] r7_giveup /\ In (OFail 77500000 1 ConRetransmitsExceeded) (trace_of 65535 [500] r7_giveup) /\
  outgoing_requests (final_of 65535 [500] r7_giveup) = [].
Proof. split; [exact (proj1 r7_wf)|]. vm_compute. intuition congruence. Qed.

(* active_exchange_not_failed: while waiting there is an exchange of request 1, not cancelled / answered, request 1 (and 2) pending *)
Example active_exchange_not_failed_nonvacuous :
  wf_run [500] r7_waiting /\
  (exists e, In e (active_exchanges (final_of 65535 [500] r7_waiting)) /\ e_rid e = 1 /\ h_counter (e_timer e) = 2 /\
             ~ In (gone_key (e_rid e)) (recv_keys r7_waiting)) /\
  outgoing_requests (final_of 65535 [500] r7_waiting) = [(1, 7); (2, 7)].
Proof.
  split; [exact (proj1 (proj2 r7_wf))|]. split; [|vm_compute; reflexivity].
  eexists. split; [vm_compute; left; reflexivity|]. vm_compute. intuition congruence.
Qed.

(* gives_up_class: each of the three outcomes is realised by a run satisfying the hypotheses *)
Example gives_up_class_nonvacuous :
  (r7_hyps r7_waiting /\ (exists e, In e (active_exchanges (final_of 65535 [500] r7_waiting)) /\ h_message (e_timer e) = r7_m /\ h_due (e_timer e) = 17500000) /\
     fails 1 (trace_of 65535 [500] r7_waiting) = O) /\
  (r7_hyps r7_giveup /\ In (OFail 77500000 1 ConRetransmitsExceeded) (trace_of 65535 [500] r7_giveup) /\
     fails 1 (trace_of 65535 [500] r7_giveup) = 1%nat /\ 77500000 = 0 + 2500000 * (2 ^ (MAX_RETRANSMIT r7_tn + 1) - 1)) /\
  (r7_hyps r7_refused /\ In (OFail 17500000 1 NetworkError) (trace_of 65535 [500] r7_refused) /\
     fails 1 (trace_of 65535 [500] r7_refused) = 1%nat).
Proof.
  destruct r7_hyps_hold as (G & Wt & Rf). split; [|split]; (split; [assumption|]).
  - split; [|vm_compute; reflexivity]. eexists. split; [vm_compute; left; reflexivity|]. vm_compute. split; reflexivity.
  - vm_compute. intuition congruence.
  - vm_compute. intuition congruence.
Qed.

(* gives_up_class_plain_remote / C03_unanswered_error_is_ConRetransmitsExceeded: the extra hypotheses hold for the give-up run, and a
   failure output of request 1 exists *)
Example unanswered_error_is_ConRetransmitsExceeded_nonvacuous :
  r7_hyps r7_giveup /\ no_refusal r7_giveup /\
  (forall r tn, In (ERequest (m_rid r7_m) r tn) r7_giveup -> ~ In (EError r) r7_giveup) /\
  In (OFail 77500000 (m_rid r7_m) ConRetransmitsExceeded) (trace_of 65535 [500] r7_giveup) /\
  copies 1 (trace_of 65535 [500] r7_giveup) = sched_of r7_m 0 2500000 (Z.to_nat (MAX_RETRANSMIT r7_tn + 1)).
Proof.
  split; [exact (proj1 r7_hyps_hold)|]. split; [|split; [|split]].
  - intros r. vm_compute. intuition congruence.
  - intros r tn _. vm_compute. intuition congruence.
  - vm_compute. intuition congruence.
  - vm_compute. reflexivity.
Qed.
Example gives_up_class_plain_remote_nonvacuous :
  r7_hyps r7_waiting /\ no_refusal r7_waiting /\ (forall r tn, In (ERequest (m_rid r7_m) r tn) r7_waiting -> ~ In (EError r) r7_waiting) /\
  copies 1 (trace_of 65535 [500] r7_waiting) = sched_of r7_m 0 2500000 3.
Proof.
  split; [exact (proj1 (proj2 r7_hyps_hold))|]. split; [|split].
  - intros r. vm_compute. intuition congruence.
  - intros r tn _. vm_compute. intuition congruence.
  - vm_compute. reflexivity.
Qed.
(* C03_unanswered_error_class: the NetworkError alternative is realised by a refusing transport *)
Example unanswered_error_class_nonvacuous :
  r7_hyps r7_refused /\ In (OFail 17500000 (m_rid r7_m) NetworkError) (trace_of 65535 [500] r7_refused) /\
  Z.of_nat (length (copies 1 (trace_of 65535 [500] r7_refused))) < MAX_RETRANSMIT r7_tn + 1.
Proof. split; [exact (proj2 (proj2 r7_hyps_hold))|]. vm_compute. intuition congruence. Qed.
