(* C04 — at most one distinct ACK per key generation.  Relation [SA b k s s']: every ACK the method sends under key k costs
   one piggy-back opportunity carrying k's message id for k's remote (b = opportunities it may create); by [Timely] of
   C04R6.v none is left for an unknown key, so the count starts at zero. *)
From Verif Require Import Lib.Py Lib.PyLemmas Lib.Tactics Model.C04 Proofs.C04 Proofs.C04Ack Proofs.C04R6.
Import ListNotations.
Open Scope Z_scope.

Definition isack (k : Z * Z) (r : Z) (w : wire) : bool := (r =? fst k) && (w_mid w =? snd k) && mtype_eqb (w_type w) ACK.
Definition ack_of (k : Z * Z) (o : output) : option wire :=
  match o with Send _ r w => if isack k r w then Some w else None | _ => None end.
Definition acks (k : Z * Z) (l : list output) : list wire :=
  flat_map (fun o => match ack_of k o with Some w => [w] | None => [] end) l.
(* the opportunities of k's remote that carry k's message id; [cnt] counts them *)
Definition pig (k : Z * Z) (e : (Z * list Z) * (Z * Z)) : bool := (fst (fst e) =? fst k) && (fst (snd e) =? snd k).
Definition cnt (k : Z * Z) (s : st) : nat := length (filter (pig k) (piggy s)).

Lemma acks_app k a b : acks k (a ++ b) = acks k a ++ acks k b.
Proof. unfold acks. apply flat_map_app. Qed.

(* [sa_bok] as [ao_bok]: the backlog loop needs CON-only queues in every intermediate state *)
Record SA (b : nat) (k : Z * Z) (s s' : st) : Prop := {
  sa_bok : BOK s -> BOK s';
  sa_outs : exists new, outs s' = outs s ++ new /\ (cnt k s' + length (acks k new) <= cnt k s + b)%nat }.

Lemma SA_refl k s : SA 0 k s s.
Proof. split; auto. exists []. rewrite app_nil_r. simpl. split; [reflexivity | lia]. Qed.
Lemma SA_trans b1 b2 k s1 s2 s3 : SA b1 k s1 s2 -> SA b2 k s2 s3 -> SA (b1 + b2) k s1 s3.
Proof.
  intros [B1 (n1 & O1 & K1)] [B2 (n2 & O2 & K2)]. split; auto.
  exists (n1 ++ n2). rewrite O2, O1, app_assoc. split; [reflexivity|]. rewrite acks_app, app_length. lia.
Qed.
Lemma SA_trans0 k s1 s2 s3 : SA 0 k s1 s2 -> SA 0 k s2 s3 -> SA 0 k s1 s3.
Proof. intros A B. exact (SA_trans 0 0 k _ _ _ A B). Qed.
Lemma SA_frame k s s' : outs s' = outs s -> backlogs s' = backlogs s -> piggy s' = piggy s -> SA 0 k s s'.
Proof.
  intros O B P. split; [unfold BOK; rewrite B; auto|]. exists []. rewrite app_nil_r. unfold cnt. rewrite P. simpl. split; [exact O | lia].
Qed.
Ltac sframe := apply SA_frame; reflexivity.

Lemma sa_emit k o s : ack_of k o = None -> SA 0 k s (emit o s).
Proof. intros H. split; auto. exists [o]. split; [reflexivity|]. unfold acks; simpl. rewrite H. simpl. unfold cnt; simpl. lia. Qed.
Lemma sa_emit_exn k t e s : SA 0 k s (emit (Exn t e) s).
Proof. apply sa_emit. reflexivity. Qed.
Lemma isack_type k r w : w_type w <> ACK -> isack k r w = false.
Proof. intros H. unfold isack. destruct (w_type w); try (rewrite andb_false_r; reflexivity). contradiction. Qed.

Section Cnt.
  Context {K V : Type} (eqb : K -> K -> bool) (sp : forall a b, eqb a b = true <-> a = b) (f : K * V -> bool).
  Notation c l := (length (filter f l)).
  Lemma cnt_rm k (l : list (K * V)) : (c (aremove eqb k l) <= c l)%nat.
  Proof.
    induction l as [|[k' v'] l IH]; simpl; [lia|]. destruct (eqb k k'); simpl; destruct (f (k', v')); simpl; lia.
  Qed.
  Lemma cnt_rm_in k v (l : list (K * V)) : aget eqb k l = Some v -> (c (aremove eqb k l) + (if f (k, v) then 1 else 0) <= c l)%nat.
  Proof.
    induction l as [|[k' v'] l IH]; simpl; [discriminate|]. destruct (eqb k k') eqn:E.
    - intros H; inversion H; subst. apply sp in E; subst k'. pose proof (cnt_rm k l). destruct (f (k, v)); simpl; lia.
    - intros H. specialize (IH H). simpl. destruct (f (k', v')); simpl; lia.
  Qed.
  Lemma cnt_rep k v (l : list (K * V)) : (c (areplace eqb k v l) <= c l + (if f (k, v) then 1 else 0))%nat.
  Proof.
    induction l as [|[k' v'] l IH]; simpl; [lia|]. destruct (eqb k k') eqn:E; simpl.
    - apply sp in E; subst k'. destruct (f (k, v)), (f (k, v')); simpl; lia.
    - destruct (f (k', v')); simpl; lia.
  Qed.
  Lemma cnt_set k v (l : list (K * V)) : (c (aset eqb k v l) <= c l + (if f (k, v) then 1 else 0))%nat.
  Proof.
    unfold aset. destruct (aget eqb k l); [apply cnt_rep|]. rewrite filter_app, app_length. simpl. destruct (f (k, v)); simpl; lia.
  Qed.
End Cnt.

Definition cost (k : Z * Z) (r : Z) (w : wire) : nat := if isack k r w then 1%nat else 0%nat.
Lemma SA_le b b' k s s' : SA b k s s' -> (b <= b')%nat -> SA b' k s s'.
Proof. intros [B (n & O & K)] L. split; auto. exists n. split; [exact O | lia]. Qed.

Lemma sa_set_tseq k v s : SA 0 k s (set_tseq v s). Proof. sframe. Qed.
Lemma sa_rm_piggy k pk s : SA 0 k s (set_piggy (aremove tokkey_eqb pk (piggy s)) s).
Proof.
  split; auto. exists []. rewrite app_nil_r. split; [reflexivity|]. unfold cnt; simpl. pose proof (cnt_rm tokkey_eqb tokkey_eqb_eq (pig k) pk (piggy s)). lia.
Qed.
Lemma sa_cancel k h s : SA 0 k s (cancel h s). Proof. sframe. Qed.
Lemma sa_set_backlogs k v s : (BOK s -> BOKl v) -> SA 0 k s (set_backlogs v s).
Proof. intros H. split; [exact H|]. exists []. simpl. rewrite app_nil_r. split; auto. Qed.

Lemma sa_set_refused k v s : SA 0 k s (set_refused v s). Proof. sframe. Qed.
Lemma sa_store k r w s : SA 0 k s (_store_response_for_duplicates r w s).
Proof.
  unfold _store_response_for_duplicates. destruct (negb (is_ackrst (w_type w))); [apply SA_refl|].
  destruct (aget key_eqb (r, w_mid w) (recent s)); [sframe | apply SA_refl].
Qed.
Lemma sa_walk k : Walk (SA 0 k) BOK (fun r w => isack k r w = false).
Proof.
  split.
  - split; [apply SA_refl | apply SA_trans0 | intros; apply SA_frame; assumption].
  - apply sa_bok.
  - apply sa_cancel.
  - intros. sframe.
  - intros. sframe.
  - intros. apply sa_set_backlogs, BOKl_aremove.
  - intros. apply sa_set_backlogs. intros H. apply BOKl_aset; [exact H | constructor].
  - intros r w rest s HB G. destruct (BOKl_next _ _ _ _ HB G) as [Hw Hrest].
    split; [apply isack_type; rewrite Hw; discriminate | apply sa_set_backlogs; intros _; exact Hrest].
  - intros. apply sa_emit_exn.
  - intros. apply sa_emit. reflexivity.
  - intros r w s H. eapply SA_trans0; [apply sa_store | apply sa_emit; simpl; rewrite H; reflexivity].
  - intros r w Hc. apply isack_type. rewrite Hc. discriminate.
Qed.
Lemma sa_send_initially k r w mon s : isack k r w = false -> SA 0 k s (_send_initially r w mon s).
Proof. apply (walk_send_initially (sa_walk k)). Qed.
(* an ACK may cost one *)
Lemma sa_send_ack k r w mon s : w_type w = ACK -> SA (cost k r w) k s (_send_initially r w mon s).
Proof.
  intros T. unfold _send_initially, _send_via_transport. rewrite T.
  set (s1 := _store_response_for_duplicates r w s).
  assert (E : SA (cost k r w) k s1 (send_log r w s1)).
  { unfold send_log. split; auto. exists [Send (now s1) r w]. split; [reflexivity|].
    unfold acks, cost; simpl. unfold cnt; simpl. destruct (isack k r w); simpl; lia. }
  apply (SA_le (0 + (cost k r w + 0))); [|lia].
  exact (SA_trans _ _ k _ _ _ (sa_store k r w s) (SA_trans _ _ k _ _ _ E (walk_refusal (sa_walk k) r _))).
Qed.

(* using up a piggy-back opportunity: the ACK sent under its message id is paid for by the entry *)
Lemma sa_consume k r tok mid h w mon s s1 : aget tokkey_eqb (r, tok) (piggy s) = Some (mid, h) -> w_type w = ACK -> w_mid w = mid ->
  piggy s1 = aremove tokkey_eqb (r, tok) (piggy s) -> outs s1 = outs s -> backlogs s1 = backlogs s ->
  SA 0 k s (_send_initially r w mon s1).
Proof.
  intros G T Hm Pg Ou Bl. destruct (sa_send_ack k r w mon s1 T) as [B (n & O & K)].
  split; [unfold BOK in *; rewrite Bl in B; exact B|]. exists n. rewrite <- Ou. split; [exact O|].
  assert (C1 : (cnt k s1 + (if pig k ((r, tok), (mid, h)) then 1 else 0) <= cnt k s)%nat).
  { unfold cnt. rewrite Pg. apply (cnt_rm_in tokkey_eqb tokkey_eqb_eq (pig k)). exact G. }
  assert (C2 : (cost k r w <= (if pig k ((r, tok), (mid, h)) then 1 else 0))%nat).
  { unfold cost, isack, pig; simpl. rewrite Hm. destruct ((r =? fst k) && (mid =? snd k)); simpl; [destruct (mtype_eqb (w_type w) ACK)|]; lia. }
  lia.
Qed.

Lemma sa_send_message k m a s : SA 0 k s (send_message m a s).
Proof.
  apply send_message_ind.
  - apply SA_refl.
  - intros mid h w G T Hm. apply (sa_consume k _ _ _ _ _ _ _ _ G T Hm); reflexivity.
  - intros t Ht _. eapply SA_trans0; [|apply sa_send_initially, isack_type; simpl; intros E; rewrite E in Ht; discriminate]. sframe.
  - intros b G. eapply SA_trans0; [|apply sa_set_backlogs; intros H; apply (BOKl_queue _ _ _ _ H G); reflexivity]. sframe.
Qed.

Lemma sa_on_timeout k r tok s : SA 0 k s (on_timeout r tok s).
Proof.
  unfold on_timeout. destruct (aget tokkey_eqb (r, tok) (piggy s)) as [[mid h]|] eqn:G; [|apply sa_emit_exn].
  apply (sa_consume k _ _ _ _ _ _ _ _ G); reflexivity.
Qed.

Definition budget (k : Z * Z) (m : inmsg) : nat := if key_eqb (msg_key m) k then 1%nat else 0%nat.
Lemma sa_add_piggy k pk v s : SA (if pig k (pk, v) then 1 else 0) k s (set_piggy (aset tokkey_eqb pk v (piggy s)) s).
Proof.
  split; auto. exists []. rewrite app_nil_r. split; [reflexivity|]. unfold cnt; simpl.
  pose proof (cnt_set tokkey_eqb tokkey_eqb_eq (pig k) pk v (piggy s)). lia.
Qed.
Lemma sa_open_piggy k m s : SA (budget k m) k s (open_piggy m s).
Proof.
  unfold open_piggy. set (pk := (i_remote m, i_token m)). set (s1 := fst (call_later _ _ s)). cbv zeta.
  assert (E1 : SA 0 k s s1) by (subst s1; sframe).
  set (s2 := match aget tokkey_eqb pk (piggy s) with Some _ => _ | None => _ end).
  assert (E2 : SA 0 k s1 s2).
  { subst s2. destruct (aget tokkey_eqb pk (piggy s)) as [[mo old]|]; [|apply SA_refl].
    eapply SA_trans0; [apply (sa_rm_piggy k pk s1) | apply sa_cancel]. }
  exact (SA_trans 0 _ k _ _ _ (SA_trans0 k _ _ _ E1 E2) (sa_add_piggy k pk (i_mid m, tseq s) s2)).
Qed.
Lemma sa_mm_process_request k m s : SA (budget k m) k s (_process_request m s).
Proof.
  rewrite _process_request_eq.
  eapply SA_le; [eapply SA_trans; [|apply (walk_process_request (sa_walk k) (sa_send_message k)); intros; apply sa_emit; reflexivity] | rewrite Nat.add_0_r; apply le_n].
  destruct (i_type m); try (eapply SA_le; [apply SA_refl | lia]). apply sa_open_piggy.
Qed.

Definition rest_budget (k : Z * Z) (m : inmsg) : nat := if is_request (i_code m) && negb (is_ackrst (i_type m)) then budget k m else 0%nat.
Lemma sa_dispatch_rest k m s : BOK s -> SA (rest_budget k m) k s (dispatch_rest m s).
Proof.
  intros HB.
  assert (E1 : SA 0 k s (if is_ackrst (i_type m) then _remove_exchange (i_remote m) (i_mid m) s else s))
    by (destruct (is_ackrst (i_type m)); [apply (walk_remove_exchange (sa_walk k)); exact HB | apply SA_refl]).
  unfold rest_budget. apply dispatch_rest_ind.
  - intros ->. exact E1.
  - intros -> _. eapply SA_trans0; [exact E1|]. apply sa_send_initially, isack_type. discriminate.
  - intros -> ->. apply sa_mm_process_request.
Qed.

Lemma fire_sa k s : Inv s -> SA 0 k s (fire s).
Proof.
  intros HI. apply fire_ind; [exact HI | apply SA_refl | ..].
  - intros. sframe.
  - intros d q r tok _ _. eapply SA_trans0; [|apply sa_on_timeout]. sframe.
  - intros d q r w t c _ _ Hc. eapply SA_trans0; [|apply (walk_retransmit (sa_walk k)); exact Hc]. sframe.
Qed.

Lemma advance_sa k d s : Inv s -> SA 0 k s (advance d s).
Proof.
  intros HI. apply (advance_ind (fun s' => SA 0 k s s')); [| |exact HI | apply SA_refl].
  - intros s1 HI1 E1. eapply SA_trans0; [exact E1 | apply fire_sa; exact HI1].
  - intros s1 v _ E1 _. eapply SA_trans0; [exact E1 | sframe].
Qed.

Lemma mm_dispatch_error_fields r s : outs (mm_dispatch_error r s) = outs s /\ piggy (mm_dispatch_error r s) = piggy s.
Proof. apply (mm_dispatch_error_ind (fun s' => outs s' = outs s /\ piggy s' = piggy s)); auto. Qed.

Lemma replay_ack k r w s : isack k r w = true ->
  exists new, outs (_send_initially r w false s) = outs s ++ new /\ acks k new = [w]
    /\ cnt k (_send_initially r w false s) = cnt k s.
Proof.
  intros H. assert (T : w_type w = ACK).
  { unfold isack in H. apply andb_true_iff in H as [_ H]. destruct (w_type w); simpl in H; try discriminate. reflexivity. }
  unfold _send_initially. rewrite T. unfold _send_via_transport, refusal, send_log.
  set (s1 := _store_response_for_duplicates r w s).
  assert (S1 : outs s1 = outs s /\ piggy s1 = piggy s).
  { subst s1. unfold _store_response_for_duplicates. destruct (negb (is_ackrst (w_type w))); [auto|].
    destruct (aget key_eqb (r, w_mid w) (recent s)); auto. }
  destruct S1 as [O1 P1].
  set (s2 := emit (Send (now s1) r w) s1).
  assert (O2 : outs s2 = outs s ++ [Send (now s1) r w]) by (subst s2; simpl; rewrite O1; reflexivity).
  assert (P2 : piggy s2 = piggy s) by (subst s2; simpl; exact P1).
  destruct (is_refused r s2).
  - set (s3 := emit (Refused (now s2) r) s2).
    destruct (mm_dispatch_error_fields r s3) as [O3 P3].
    exists [Send (now s1) r w; Refused (now s2) r]. rewrite O3. split; [change (outs s3) with (outs s2 ++ [Refused (now s2) r]); rewrite O2, <- app_assoc; reflexivity|].
    split; [unfold acks; simpl; rewrite H; reflexivity|]. unfold cnt. rewrite P3. change (piggy s3) with (piggy s2). rewrite P2. reflexivity.
  - exists [Send (now s1) r w]. split; [exact O2|]. split; [unfold acks; simpl; rewrite H; reflexivity|].
    unfold cnt. rewrite P2. reflexivity.
Qed.

(* one event while key k is known with remembered reply v: its ACKs under k are paid for by opportunities, or it is the
   replay of the remembered ACK *)
Definition paid (k : Z * Z) (v : option (Z * wire)) (s s' : st) : Prop :=
  exists new, outs s' = outs s ++ new /\
    ((cnt k s' + length (acks k new) <= cnt k s)%nat
     \/ (cnt k s' = cnt k s /\ exists r w, v = Some (r, w) /\ isack k r w = true /\ acks k new = [w])).
Lemma step_sa_alive k s e v : Inv s -> BOK s -> aget key_eqb k (recent s) = Some v -> paid k v s (step s e).
Proof.
  intros HI HB G.
  assert (Z0 : forall s', SA 0 k s s' -> paid k v s s').
  { intros s' [_ (n & O & K)]. exists n. split; [exact O|]. left. lia. }
  destruct e as [m | | d | sid a | sid x | r b | r]; simpl.
  - (* Recv *) apply dispatch_message_ind.
    + intros Rq. apply Z0. pose proof (sa_dispatch_rest k m s HB) as X. unfold rest_budget in X. rewrite Rq in X. exact X.
    + intros Rq G0.
      assert (N : key_eqb (msg_key m) k = false) by (apply key_eqb_neq; intros E; rewrite E in G0; congruence).
      apply Z0. apply (SA_trans0 k s (insert_key (msg_key m) s)); [apply SA_frame; reflexivity|].
      pose proof (sa_dispatch_rest k m (insert_key (msg_key m) s) HB) as X. unfold rest_budget, budget in X. rewrite N in X.
      destruct (is_request (i_code m) && negb (is_ackrst (i_type m))); exact X.
    + intros. apply Z0, SA_refl.
    + intros r w Rq G0. destruct (isack k r w) eqn:Ia; [|apply Z0; apply sa_send_initially; exact Ia].
      assert (Hk : msg_key m = k).
      { pose proof Ia as Ik. apply andb_true_iff in Ik as [Ik _]. apply (key_eqb_eq (r, w_mid w) k) in Ik.
        rewrite <- Ik. symmetry. apply (stored_key s _ r w HI G0). }
      rewrite Hk, G in G0. assert (Hv : v = Some (r, w)) by congruence.
      destruct (replay_ack k r w s Ia) as (new & O & A & C). exists new. split; [exact O|]. right. split; [exact C|]. exists r, w. auto.
  - (* Fire *) apply (Z0 _ (fire_sa k s HI)).
  - (* Advance *) apply (Z0 _ (advance_sa k d s HI)).
  - (* Respond *) apply (Z0 _ (proj1 (walk_handler (sa_walk k) (sa_send_message k) sid s) a)).
  - (* RaiseIn *) apply (Z0 _ (proj2 (walk_handler (sa_walk k) (sa_send_message k) sid s) x)).
  - (* Refuse *) apply (Z0 _ (sa_set_refused k _ s)).
  - (* NetError *) apply (Z0 _ (walk_mm_dispatch_error (sa_walk k) r s)).
Qed.

Definition allsame (l : list wire) : Prop := forall a b, In a l -> In b l -> a = b.

Lemma in_acks k o w l : In o l -> ack_of k o = Some w -> In w (acks k l).
Proof.
  intros HI HA. unfold acks. apply in_flat_map. exists o. split; [exact HI|]. rewrite HA. left; reflexivity.
Qed.
Lemma last_reply_in_acks k l r w : last_reply k l None = Some (r, w) -> isack k r w = true -> In w (acks k l).
Proof.
  intros H Ia. apply last_reply_inv in H as [H | (o & HI & Ho)]; [discriminate|].
  apply reply_of_props in Ho as (_ & _ & _ & t & ->). apply (in_acks k _ w _ HI). simpl. rewrite Ia. reflexivity.
Qed.
Lemma allsame_short l : (length l <= 1)%nat -> allsame l.
Proof.
  destruct l as [|a [|b l]]; simpl; intros H x y Hx Hy; try lia; try contradiction.
  destruct Hx as [<-|[]], Hy as [<-|[]]. reflexivity.
Qed.

(* all ACKs sent under k while it stays known are one and the same message *)
Lemma single_ack_run k evs : forall s v D q L0, Inv s -> BOK s -> aget key_eqb k (recent s) = Some v ->
  In (D, q, k) (forgets s) -> now (run s evs) < D ->
  v = last_reply k L0 None -> allsame (acks k L0) ->
  (cnt k s + (match acks k L0 with [] => 0 | _ => 1 end) <= 1)%nat ->
  allsame (acks k (L0 ++ log_since s (run s evs))).
Proof.
  induction evs as [|e evs IH]; intros s v D q L0 HI HB G HD Hn Hv Hs Hc.
  - simpl. rewrite (log_since_app s s []) by (symmetry; apply app_nil_r). rewrite app_nil_r. exact Hs.
  - rewrite (log_since_cons e evs s HI), app_assoc. simpl in Hn.
    destruct (alive_step k s e evs v D q HI G HD Hn) as (HI1 & new & O & _ & A & F). rewrite (log_since_app _ _ _ O).
    destruct (step_sa_alive k s e v HI HB G) as (new' & O' & K).
    assert (new' = new) by (rewrite O in O'; apply app_inv_head in O'; congruence). subst new'.
    apply (IH (step s e) (last_reply k new v) D q (L0 ++ new) HI1 (BOK_step s e HI HB) A F Hn).
    + rewrite last_reply_app, <- Hv. reflexivity.
    + rewrite acks_app. destruct K as [K | (K & r & w & -> & Ia & Aw)].
      * destruct (acks k L0) eqn:EL.
        -- simpl. apply allsame_short. simpl in Hc. lia.
        -- simpl in Hc. assert (length (acks k new) = 0)%nat by lia. destruct (acks k new); [|simpl in *; lia]. rewrite app_nil_r. exact Hs.
      * rewrite Aw. pose proof (last_reply_in_acks k L0 r w (eq_sym Hv) Ia) as Hin.
        intros a b Ha Hb. apply in_app_iff in Ha, Hb.
        assert (Ea : a = w) by (destruct Ha as [Ha | [Ha | []]]; [apply (Hs a w Ha Hin) | symmetry; exact Ha]).
        assert (Eb : b = w) by (destruct Hb as [Hb | [Hb | []]]; [apply (Hs b w Hb Hin) | symmetry; exact Hb]).
        congruence.
    + rewrite acks_app. destruct K as [K | (K & r & w & -> & Ia & Aw)].
      * destruct (acks k L0) eqn:EL; simpl in *; [destruct (acks k new); simpl in *; lia | lia].
      * rewrite K, Aw. pose proof (last_reply_in_acks k L0 r w (eq_sym Hv) Ia) as Hin.
        destruct (acks k L0); [contradiction | simpl in *; lia].
Qed.

(* conditional form: no piggy-back opportunity for k is left over when k arrives *)
Lemma single_ack_conditional s0 m evs : Inv s0 -> BOK s0 ->
  is_request (i_code m) = true -> aget key_eqb (msg_key m) (recent s0) = None ->
  cnt (msg_key m) s0 = 0%nat ->
  let s2 := run (step s0 (Recv m)) evs in
  now s2 < now s0 + EXCHANGE_LIFETIME ->
  allsame (acks (msg_key m) (log_since s0 s2)).
Proof.
  intros HI HB Rq G C0 s2 Hn. set (k := msg_key m) in *. set (s1 := step s0 (Recv m)) in *.
  destruct (first_arrival_run s0 m evs HI Rq G Hn) as (HI1 & new & q & O & L & A & F & _). fold s1 s2 k in HI1, O, L, A, F.
  assert (K1 : (cnt k s1 + length (acks k new) <= 1)%nat).
  { assert (X : SA 1 k s0 s1).
    { unfold s1. simpl. rewrite (dispatch_fresh m s0 Rq G). eapply SA_le; [apply (SA_trans 0 (rest_budget k m) k s0 (insert_key (msg_key m) s0)); [apply SA_frame; reflexivity | apply sa_dispatch_rest; exact HB]|].
      unfold rest_budget, budget. destruct (is_request (i_code m) && negb (is_ackrst (i_type m))); destruct (key_eqb (msg_key m) k); lia. }
    destruct X as [_ (n & O' & K)]. assert (n = new) by (rewrite O in O'; apply app_inv_head in O'; congruence). subst n. lia. }
  rewrite L.
  apply (single_ack_run k evs s1 _ _ q new HI1 (BOK_step s0 (Recv m) HI HB) A F Hn eq_refl).
  - apply allsame_short. lia.
  - destruct (acks k new); simpl in *; lia.
Qed.

(* no opportunity is left over for a key that is not (any more / yet) known *)
Lemma cnt_unknown k s : Inv s -> Timely s -> aget key_eqb k (recent s) = None -> cnt k s = 0%nat.
Proof.
  intros (I1 & _) (_ & _ & _ & _ & E) G. unfold cnt.
  destruct (filter (pig k) (piggy s)) as [|[[r tok] [mid h]] l] eqn:F; [reflexivity|]. exfalso.
  assert (HI : In ((r, tok), (mid, h)) (filter (pig k) (piggy s))) by (rewrite F; left; reflexivity).
  apply filter_In in HI as [HI Hp]. apply (key_eqb_eq (r, mid) k) in Hp.
  destruct (E _ _ _ _ HI) as (_ & D & q & _ & Fg & _).
  apply (proj2 (I1 k)); [|exact G]. apply in_map_iff. exists (D, q, (r, mid)). split; [exact Hp | exact Fg].
Qed.
