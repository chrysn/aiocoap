(* C02 — proofs: every request completes at most once. A budget (1 while the response future is or will be pending, 0 once
   it is done) that no primitive action exceeds, hence no step and no run. *)
From Verif Require Import Lib.Py Lib.PyLemmas Lib.Tactics Gen.tokenmanager_next_token Model.C02 Proofs.C02.
Open Scope Z_scope.

Definition is_completion (q : Z) (o : output) : bool :=
  match o with SetResult q' _ _ _ | SetException q' _ | Cancelled q' => q' =? q | _ => false end.
Definition ncomp (q : Z) (outs : list output) : nat := length (filter (is_completion q) outs).
(* 1 while the response future of q is (or will be created) pending, 0 once it is done *)
Definition fpend (c : creq) : nat := match cq_fut c with FPending => 1 | _ => 0 end.
Definition pend (s : st) (q : Z) : nat := match get_req s q with None => 1 | Some c => fpend c end.
(* the budget argument: completions emitted + what may still be emitted <= what could be emitted before *)
Definition budget_ok (s s' : st) (o : list output) : Prop := forall q, (ncomp q o + pend s' q <= pend s q)%nat.
(* budget_ok for the one request object q that a Pipe event works on *)
Definition obj_budget (q : Z) (c c' : creq) (o : list output) : Prop :=
  forall q', (ncomp q' o + (if Z.eqb q' q then fpend c' else 0) <= (if Z.eqb q' q then fpend c else 0))%nat.

Lemma ncomp_app : forall q a b, ncomp q (a ++ b) = (ncomp q a + ncomp q b)%nat.
Proof. intros. unfold ncomp. rewrite filter_app, app_length. reflexivity. Qed.
Lemma ncomp_nil : forall q, ncomp q [] = 0%nat. Proof. reflexivity. Qed.
Lemma ncomp_ml : forall q o, Forall ml_out o -> ncomp q o = 0%nat.
Proof. intros q o H. induction H as [|x l Hx Hl IH]; [reflexivity|]. unfold ncomp in *. cbn [filter].
  destruct x; cbn in Hx; try contradiction; cbn [is_completion]; exact IH. Qed.
Lemma budget_refl : forall s, budget_ok s s []. Proof. intros s q. cbn. lia. Qed.
Lemma budget_trans : forall s s1 s2 o1 o2, budget_ok s s1 o1 -> budget_ok s1 s2 o2 -> budget_ok s s2 (o1 ++ o2).
Proof. intros s s1 s2 o1 o2 H1 H2 q. specialize (H1 q). specialize (H2 q). rewrite ncomp_app. lia. Qed.
Lemma budget_frame : forall s s' o, reqs s' = reqs s -> (forall q, ncomp q o = 0%nat) -> budget_ok s s' o.
Proof. intros s s' o H1 H2 q. rewrite H2. unfold pend, get_req. rewrite H1. lia. Qed.
Lemma obj_budget_refl : forall q c, obj_budget q c c []. Proof. intros q c q'. cbn. lia. Qed.
Lemma obj_budget_trans : forall q c c1 c2 o1 o2, obj_budget q c c1 o1 -> obj_budget q c1 c2 o2 -> obj_budget q c c2 (o1 ++ o2).
Proof. intros q c c1 c2 o1 o2 H1 H2 q'. specialize (H1 q'). specialize (H2 q'). rewrite ncomp_app. lia. Qed.
Lemma obj_budget_fut : forall q c c', cq_fut c' = cq_fut c -> obj_budget q c c' [].
Proof. intros q c c' H q'. unfold fpend. rewrite H. cbn. lia. Qed.

(* only the branch AwaitFirst / FPending of _run completes the future, once (enumeration of its branches) *)
Lemma run_obj_budget : forall q c ev c' o stop keep, _run q c ev = (c', o, stop, keep) -> obj_budget q c c' o.
Proof.
  intros q c ev c' o stop keep H q'. unfold _run in H.
  repeat dmatch; invpairs; unfold fpend, ncomp; cbn; repeat dmatch; cbn; try lia;
    repeat match goal with H : cq_fut _ = _ |- _ => rewrite H in * end; try discriminate; try lia.
Qed.
Lemma stop_interest_fut : forall c c' ks, _stop_interest c = (c', ks) -> cq_fut c' = cq_fut c.
Proof. intros c c' ks. apply (stop_interest_R (fun c c' _ => cq_fut c' = cq_fut c)); intros; cbn; congruence. Qed.
Lemma pipe_add_event_obj_budget : forall q c ev c' o ks, pipe_add_event q c ev = (c', o, ks) -> obj_budget q c c' o.
Proof.
  intros q c ev. apply (pipe_add_event_R q ev (obj_budget q) (obj_budget_refl q) (obj_budget_trans q)); [intros; apply obj_budget_fut; reflexivity|].
  intros c0 c1 o st k H. eapply run_obj_budget. exact H.
Qed.

Lemma add_event_budget : forall s q ev s' o, _add_event s q ev = (s', o) -> budget_ok s s' o.
Proof.
  intros s q ev s' o H. unfold _add_event in H. destruct (get_req s q) as [c|] eqn:G; [|invpairs; apply budget_refl].
  destruct (pipe_add_event q c ev) as [[c' o'] ks] eqn:P. apply pipe_add_event_obj_budget in P. invpairs.
  intros q'. specialize (P q'). unfold pend. rewrite get_req_pop_keys, get_req_upd.
  destruct (q' =? q) eqn:E; [apply Z.eqb_eq in E; subst q'; rewrite G; exact P|]. destruct (get_req s q'); lia.
Qed.

Lemma budget_ml : forall s s' o, reqs s' = reqs s -> Forall ml_out o -> budget_ok s s' o.
Proof. intros. apply budget_frame; [assumption|]. intros q. apply ncomp_ml. assumption. Qed.

Lemma prim_budget : forall A s s' o, prim A s s' o -> budget_ok s s' o.
Proof.
  intros A s s' o [s0 s1 o0 (_ & R & _) Ho|s0 s1 e (_ & R & _)|s0 q ev s1 o0 _ H|s0 og k _].
  - apply budget_ml; assumption.
  - apply budget_frame; [exact R|reflexivity].
  - eapply add_event_budget; exact H.
  - apply budget_frame; reflexivity.
Qed.
Lemma app_budget : forall e s s' o, app_prim e s s' o -> budget_ok s s' o.
Proof.
  intros e s s' o [s0 q r mt obs G|s0 q r mt obs og G _|s0 q c c' ks G F S|s0 q c G|s0 x rest _|s0]; intros q'.
  - unfold pend. rewrite get_req_upd. destruct (q' =? q) eqn:E; [apply Z.eqb_eq in E; subst q'; rewrite G|destruct (get_req s0 q')]; cbn; lia.
  - rewrite (register_eq _ _ _ _ _ G). unfold pend. cbn zeta. rewrite get_req_upd. unfold get_req in *. cbn [reqs set_outgoing set_tmst].
    destruct (q' =? q) eqn:E; [apply Z.eqb_eq in E; subst q'; rewrite G|]; cbn; lia.
  - apply stop_interest_fut in S. unfold pend. rewrite get_req_pop_keys, get_req_upd. unfold ncomp. cbn [filter is_completion].
    rewrite (Z.eqb_sym q q'). destruct (q' =? q) eqn:E.
    + apply Z.eqb_eq in E. subst. rewrite G. unfold fpend. rewrite S, F. cbn. lia.
    + cbn. destruct (get_req s0 q'); lia.
  - unfold pend. rewrite get_req_upd. destruct (q' =? q) eqn:E; [apply Z.eqb_eq in E; subst q'; rewrite G; unfold fpend|]; cbn; lia.
  - apply budget_frame; reflexivity.
  - apply budget_frame; reflexivity.
Qed.

Lemma budget_closed : closed budget_ok.
Proof. split; [exact budget_refl|exact budget_trans]. Qed.
Lemma run_budget : forall es s s' os, run s es = (s', os) -> budget_ok s s' (concat os).
Proof.
  apply run_closed; [exact budget_closed|]. intros s e. apply (step_closed e); [exact budget_closed|apply prim_budget|apply app_budget].
Qed.
