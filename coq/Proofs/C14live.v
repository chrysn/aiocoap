(* C14 — liveness for every schedule: a held-back message leaves its queue (first transmission, or discarded with
   its request failed) after at most [budget] "progress" steps of the exchange ahead of it — steps in which that
   exchange is acknowledged/reset, fails, or its retransmission timer fires.  Fairness (timers keep firing) is
   exactly what makes the number of progress steps grow; the measure is the retransmission budget of the exchange
   ahead plus that of the messages queued ahead ([weight], [measure]: end of Proofs/C14step.v). *)
From Verif Require Import Lib.Tactics Model.C14 Proofs.C14 Proofs.C14step.
Import ListNotations.
Open Scope Z_scope.

Definition progress (s : st) (e : event) (r : Z) : bool := acks s e r || fails s e r || fires_on s e r.
Fixpoint count_progress (s : st) (es : list event) (r : Z) : nat :=
  match es with
  | [] => 0
  | e :: es' => ((if progress s e r then 1 else 0) + count_progress (fst (step s e)) es' r)%nat
  end.

(* transmissions a message may get once it is released: 1 + MAX_RETRANSMIT *)
Definition cost (m : msg) : nat := S (Z.to_nat (m_maxre m)).
(* what is left for the exchange ahead, plus the cost of the [k] messages queued ahead *)
Definition budget (r : Z) (k : nat) (s : st) : nat :=
  (match exs r s with x :: _ => weight x | [] => 0 end + list_sum (map cost (firstn k (backlog_of r s))))%nat.

Lemma backlog_of_aget r s k m : nth_error (backlog_of r s) k = Some m -> aget r (backlogs s) = Some (backlog_of r s).
Proof. unfold backlog_of. destruct (aget r (backlogs s)); [reflexivity|]. destruct k; discriminate. Qed.

(* the variant; [s'], [o]: the step's result in either model *)
Lemma budget_step s e r s' o k m : Inv s -> Trichotomy s e r s' o -> nth_error (backlog_of r s) k = Some m ->
  In m (left r o) \/
  exists k', nth_error (backlog_of r s') k' = Some m /\ (budget r k' s' + (if progress s e r then 1 else 0) <= budget r k s)%nat.
Proof. intros HI T Hn. pose proof (backlog_of_aget r s k m Hn) as Ha.
  destruct (inv_cases s r HI) as [[_ Hno]|(x & q & Hx & Hq & _)]; [congruence|]. clear Ha. specialize (T q Hq).
  unfold progress, budget, backlog_of in *. rewrite Hx, Hq in *.
  destruct (acks s e r).
  - (* the exchange ahead is acknowledged / reset: the head goes on the wire, the others move up *)
    destruct T as (_ & T). destruct q as [|m0 rest]; [destruct k; discriminate|]. cbv iota in T. destruct T as (_ & Hl & Ha1 & x' & Hx' & Hm' & Hc').
    destruct k as [|k]; [left; cbn in Hn; inv Hn; rewrite Hl; left; reflexivity|right]. exists k.
    rewrite Ha1, Hx'. split; [exact Hn|]. cbn [firstn map orb]. change (list_sum (?a :: ?t)) with (a + list_sum t)%nat.
    assert (Hw : weight x' = cost m0) by (unfold weight, cost; rewrite Hm', Hc'; f_equal; f_equal; lia).
    assert (1 <= weight x)%nat by (unfold weight; lia). lia.
  - destruct (fails s e r).
    + (* the endpoint fails: everything queued is discarded *)
      left. destruct T as (-> & _). apply (nth_error_In _ _ Hn).
    + (* otherwise the message keeps its place; a firing of the timer uses up one retransmission *)
      right. exists k. destruct T as (Ha1 & _ & x0 & x' & Hx0 & Hx' & Hm' & Hd). rewrite Hx in Hx0. inv Hx0.
      assert (Hk : (k < length q)%nat) by (apply nth_error_Some; congruence).
      rewrite Ha1, Hx'. split; [rewrite nth_error_app1 by exact Hk; exact Hn|].
      rewrite firstn_app. replace (k - length q)%nat with 0%nat by lia. cbn [firstn orb]. rewrite app_nil_r.
      destruct (fires_on s e r); [|subst x'; lia]. destruct Hd as (Hc1 & Hc2).
      assert (S (weight x') = weight x0) by (unfold weight; rewrite Hm', Hc1; lia). lia. Qed.

Lemma budget_pos s r k m : Inv s -> nth_error (backlog_of r s) k = Some m -> (1 <= budget r k s)%nat.
Proof. intros HI Hn. pose proof (backlog_of_aget r s k m Hn) as Ha.
  destruct (inv_cases s r HI) as [[_ Hno]|(x & q & Hx & _)]; [congruence|]. unfold budget. rewrite Hx. unfold weight. lia. Qed.

Theorem eventually_leaves : forall es s r k m, Inv s -> nth_error (backlog_of r s) k = Some m ->
  (budget r k s <= count_progress s es r)%nat -> In m (left r (concat (snd (run s es)))).
Proof. induction es as [|e es IH]; intros s r k m HI Hn Hb; [pose proof (budget_pos s r k m HI Hn); cbn in Hb; lia|].
  cbn [run count_progress] in *. pose proof (step_trans s e HI) as (HI1 & _).
  destruct (budget_step s e r _ _ k m HI (step_trichotomy s e r HI) Hn) as [Hl|(k' & Hn' & Hb')];
    destruct (step s e) as [s1 o1]; cbn [fst snd] in *; specialize (IH s1 r); destruct (run s1 es) as [s2 os];
    cbn [snd concat]; rewrite left_app; apply in_or_app; [left; exact Hl|right].
  apply (IH k' m HI1 Hn'). lia. Qed.

Definition schedule := nat -> event.
Fixpoint prefix (sch : schedule) (n : nat) : list event :=
  match n with O => [] | S n => prefix sch n ++ [sch n] end.
Definition state_at (sch : schedule) (s : st) (n : nat) : st := fst (run s (prefix sch n)).
Definition trace_to (sch : schedule) (s : st) (n : nat) : list output := concat (snd (run s (prefix sch n))).

(* timers keep firing: from every point on there is a later step at which the exchange open with r is acknowledged
   or reset, fails, or has its retransmission timer fired — or at which nothing is outstanding at r at all *)
Definition fair (sch : schedule) (s : st) (r : Z) : Prop :=
  forall n, exists n', (n <= n')%nat /\
    (progress (state_at sch s n') (sch n') r = true \/ exs r (state_at sch s n') = []).

Lemma run_app a : forall s b, fst (run s (a ++ b)) = fst (run (fst (run s a)) b).
Proof. induction a as [|e a IH]; intros s b; [reflexivity|]. cbn [app run].
  destruct (step s e) as [s1 o1]. specialize (IH s1 b). destruct (run s1 (a ++ b)), (run s1 a). cbn [fst] in *. exact IH. Qed.

Lemma count_progress_app a : forall s b r,
  count_progress s (a ++ b) r = (count_progress s a r + count_progress (fst (run s a)) b r)%nat.
Proof. induction a as [|e a IH]; intros s b r; [reflexivity|]. cbn [app count_progress run].
  rewrite IH. destruct (step s e) as [s1 o1]. cbn [fst]. destruct (run s1 a). cbn [fst]. lia. Qed.

(* a counter that never goes down and is incremented again and again, unless P happens, passes every bound, unless P happens *)
Lemma unbounded_or (cnt : nat -> nat) (P : nat -> Prop) : (forall n, cnt n <= cnt (S n))%nat ->
  (forall n, exists n', (n <= n')%nat /\ (cnt (S n') = S (cnt n') \/ P n')) -> forall B, exists n, (B <= cnt n)%nat \/ P n.
Proof. intros Hmono Hf. assert (Hle : forall n n', (n <= n')%nat -> (cnt n <= cnt n')%nat) by (induction 1 as [|n' _ IH]; [lia|specialize (Hmono n'); lia]).
  induction B as [|B IH]; [exists 0%nat; left; lia|]. destruct IH as (n & [Hc|Hp]); [|exists n; right; exact Hp].
  destruct (Hf n) as (n' & Hn & [Hs|Hp]); [exists (S n'); left; specialize (Hle n n' Hn); lia|exists n'; right; exact Hp]. Qed.

Lemma idle_means_left s o s' r k m : Trans s o s' -> nth_error (backlog_of r s) k = Some m -> exs r s' = [] -> In m (left r o).
Proof. intros (HI' & B & _) Hn He. specialize (B r).
  destruct (inv_cases _ r HI') as [[_ Hno]|(x & q & Hx & _)]; [|rewrite He in Hx; discriminate].
  unfold backlog_of at 2 in B. rewrite Hno, app_nil_r in B. rewrite <- B. apply in_or_app. left. apply (nth_error_In _ _ Hn). Qed.

Theorem fair_eventually_leaves sch s r k m : Inv s -> nth_error (backlog_of r s) k = Some m -> fair sch s r ->
  exists n, In m (left r (trace_to sch s n)).
Proof. intros HI Hn Hf.
  destruct (unbounded_or (fun n => count_progress s (prefix sch n) r) (fun n => In m (left r (trace_to sch s n)))) with (B := budget r k s) as (n & [Hc|Hl]).
  - intros n. cbn [prefix]. rewrite count_progress_app. lia.
  - intros n. destruct (Hf n) as (n' & Hle & [Hp|He]); exists n'; (split; [exact Hle|]).
    + left. cbn [prefix]. rewrite count_progress_app. cbn [count_progress]. fold (state_at sch s n'). rewrite Hp. lia.
    + right. exact (idle_means_left s _ _ r k m (run_trans (prefix sch n') s HI) Hn He).
  - exists n. apply (eventually_leaves (prefix sch n) s r k m HI Hn Hc).
  - exists n. exact Hl. Qed.

Lemma list_sum_filter (p : exchange -> bool) l :
  list_sum (map weight l) = (list_sum (map weight (filter p l)) + list_sum (map weight (filter (fun x => negb (p x)) l)))%nat.
Proof. unfold list_sum. induction l as [|x l IH]; [reflexivity|]. cbn -[weight]. destruct (p x); cbn -[weight]; rewrite IH; lia. Qed.

Lemma measure_xdel s x : Inv s -> In x (active_exchanges s) ->
  (list_sum (map weight (xdel (m_remote (x_msg x)) (m_mid (x_msg x)) (active_exchanges s))) + weight x = measure s)%nat.
Proof. intros HI Hin. unfold measure. destruct (inv_busy s x HI Hin) as (Hx & _). set (r := m_remote (x_msg x)) in *. set (mid := m_mid (x_msg x)).
  rewrite (list_sum_filter (key_eqb r mid) (active_exchanges s)). unfold xdel.
  rewrite <- (filter_keep (key_eqb r mid) (to_remote r)) by (intros y; unfold key_eqb, to_remote; lia). fold (exs r s). rewrite Hx. cbn [filter]. replace (key_eqb r mid x) with true by (unfold key_eqb, r, mid; lia).
  cbn -[weight]. lia. Qed.

Lemma fire_measure s : Inv s -> active_exchanges s <> [] -> S (measure (fst (step s Fire))) = measure s.
Proof. intros HI Hne. cbn [step]. unfold fire. destruct (min_timer (active_exchanges s)) as [x|] eqn:E; [|apply min_timer_none in E; contradiction].
  pose proof (min_timer_in _ _ E) as Hin. set (s0 := upd_now s (Z.max (now s) (x_due x))).
  pose proof (measure_xdel s x HI Hin) as Hm.
  unfold retransmit. rewrite (xget_own s0 x (proj1 (inv_busy s x HI Hin))).
  destruct (x_counter x <? m_maxre (x_msg x)) eqn:Ec.
  - unfold measure in *. unfold schedule_retransmit. cbn [fst snd upd_ex active_exchanges upd_now s0 map]. unfold xdel in *. rewrite filter_keep by auto.
    change (list_sum (?a :: ?l)) with (a + list_sum l)%nat.
    unfold weight at 1. cbn [x_msg x_counter]. unfold weight in Hm at 2. lia.
  - cbn [backlogs upd_ex upd_now s0]. destruct (inv_busy s x HI Hin) as (_ & q & -> & _).
    unfold measure in *. unfold tm_dispatch_error. cbn [fst snd upd_in upd_out upd_bl upd_ex active_exchanges upd_now s0].
    unfold weight in Hm at 2. lia. Qed.

Lemma no_exchange_no_backlog s : Inv s -> active_exchanges s = [] -> backlogs s = [].
Proof. intros HI He. destruct (backlogs s) as [|[k v] l] eqn:Eb; [reflexivity|]. exfalso.
  destruct (HI k) as (_ & B & _). unfold count_r, exs in B. rewrite He, Eb in B. cbn in B. rewrite Z.eqb_refl in B.
  assert (0 = 1)%nat by (apply B; discriminate). lia. Qed.

Lemma fires_quiesce n : forall s, Inv s -> (measure s <= n)%nat -> active_exchanges (fst (run s (repeat Fire n))) = [].
Proof. induction n as [|n IH]; intros s HI Hm.
  - cbn. destruct (active_exchanges s) as [|x l] eqn:E; [reflexivity|]. unfold measure in Hm. rewrite E in Hm. cbn in Hm. unfold weight in Hm. lia.
  - cbn [repeat run]. pose proof (step_trans s Fire HI) as (HI1 & _). pose proof (fire_measure s HI) as Hd.
    destruct (active_exchanges s) as [|x l] eqn:E.
    + clear Hd. cbn [step] in *. unfold fire in *. rewrite E in *. cbn [min_timer fst] in *.
      specialize (IH s HI). destruct (run s (repeat Fire n)) as [s2 os]. apply IH. unfold measure. rewrite E. cbn. lia.
    + destruct (step s Fire) as [s1 o1]. cbn [fst] in *. specialize (IH s1 HI1). destruct (run s1 (repeat Fire n)) as [s2 os]. cbn [fst] in *. apply IH.
      specialize (Hd ltac:(discriminate)). lia. Qed.

Lemma fire_no_subm s r : subm r (snd (step s Fire)) = [].
Proof. cbn [step]. unfold fire. destruct (min_timer (active_exchanges s)) as [x|]; [|reflexivity].
  unfold retransmit. destruct (xget _ _ _); [|reflexivity]. destruct (x_counter x <? m_maxre (x_msg x)); [reflexivity|].
  destruct (aget _ _) as [q|]; [|reflexivity].
  match goal with |- context [tm_dispatch_error ?e ?rr ?ss] => destruct (tm_dispatch_error_frame e rr ss) as (_ & _ & Hn); destruct (tm_dispatch_error e rr ss) as [s1 o1] end.
  cbn [fst snd] in *. unfold subm. cbn [flat_map subm_o app]. fold (subm r (map Dropped q ++ o1)).
  rewrite subm_app, subm_dropped. destruct (neutral_logs r _ Hn) as (N1 & _). exact N1. Qed.

Lemma fires_no_subm n : forall s r, subm r (concat (snd (run s (repeat Fire n)))) = [].
Proof. induction n as [|n IH]; intros s r; [reflexivity|]. cbn [repeat run].
  pose proof (fire_no_subm s r) as H. destruct (step s Fire) as [s1 o1]. cbn [snd] in H.
  specialize (IH s1 r). destruct (run s1 (repeat Fire n)) as [s2 os]. cbn [snd concat] in *. rewrite subm_app, H, IH. reflexivity. Qed.

Theorem quiesces_when_peers_silent s : Inv s ->
  let s' := fst (run s (repeat Fire (measure s))) in let tr := concat (snd (run s (repeat Fire (measure s)))) in
  active_exchanges s' = [] /\ backlogs s' = [] /\ forall r, left r tr = backlog_of r s.
Proof. intros HI. cbn zeta. pose proof (run_trans (repeat Fire (measure s)) s HI) as (HI' & B & _).
  pose proof (fires_quiesce (measure s) s HI (le_n _)) as He.
  pose proof (no_exchange_no_backlog _ HI' He) as Hb.
  split; [exact He|]. split; [exact Hb|]. intros r. specialize (B r). rewrite fires_no_subm, app_nil_r in B.
  unfold backlog_of at 2 in B. rewrite Hb in B. cbn in B. rewrite app_nil_r in B. symmetry. exact B. Qed.

(* non-vacuity of [fair]: the schedule in which only timers fire is fair for every remote, from every state *)
Lemma prefix_fire n : prefix (fun _ => Fire) n = repeat Fire n.
Proof. induction n as [|n IH]; [reflexivity|]. cbn [prefix]. rewrite IH. symmetry. apply repeat_cons. Qed.
Theorem timers_only_schedule_is_fair s r : Inv s -> fair (fun _ => Fire) s r.
Proof. intros HI n. exists (Nat.max n (measure s)). split; [lia|]. right. unfold state_at. rewrite prefix_fire.
  unfold exs. rewrite (fires_quiesce _ s HI); [reflexivity|lia]. Qed.
