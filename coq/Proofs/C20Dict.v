(* C20 — lemmas about the insertion-ordered dictionaries of Model/C20.v *)
From Coq Require Import String.
From Verif Require Import Lib.Py Lib.PyLemmas Lib.Tactics Model.C20Str Model.C20.
Open Scope Z_scope.

Section DictLemmas.
  Context {K V : Type} {eqb : K -> K -> bool}.
  Hypothesis eqb_spec : forall a b, eqb a b = true <-> a = b.

  Lemma eqb_refl' k : eqb k k = true. Proof. apply eqb_spec. reflexivity. Qed.
  Lemma eqb_neq a b : a <> b -> eqb a b = false.
  Proof. intros H. destruct (eqb a b) eqn:E; [|reflexivity]. apply eqb_spec in E. contradiction. Qed.

  Lemma dget_In (d : list (K * V)) k v : dget eqb d k = Some v -> In (k, v) d.
  Proof.
    induction d as [|[k' v'] d IH]; cbn; [discriminate|].
    destruct (eqb k' k) eqn:E; intros H.
    - apply eqb_spec in E. inv H. left. reflexivity.
    - right. apply IH. exact H.
  Qed.
  Lemma In_dget (d : list (K * V)) k v : NoDup (map fst d) -> In (k, v) d -> dget eqb d k = Some v.
  Proof.
    induction d as [|[k' v'] d IH]; cbn; intros ND H; [contradiction|].
    inv ND. destruct H as [H|H].
    - inv H. rewrite eqb_refl'. reflexivity.
    - destruct (eqb k' k) eqn:E.
      + apply eqb_spec in E. subst. exfalso. apply H2. apply (in_map fst) in H. exact H.
      + apply IH; assumption.
  Qed.
  Lemma dget_None_notin (d : list (K * V)) k : dget eqb d k = None -> ~ In k (map fst d).
  Proof.
    induction d as [|[k' v'] d IH]; cbn; intros H; [tauto|].
    destruct (eqb k' k) eqn:E; [discriminate|]. intros [A|A].
    - subst. rewrite eqb_refl' in E. discriminate.
    - apply IH; assumption.
  Qed.
  Lemma notin_dget_None (d : list (K * V)) k : ~ In k (map fst d) -> dget eqb d k = None.
  Proof.
    intros H. destruct (dget eqb d k) eqn:E; [|reflexivity]. exfalso. apply H.
    apply dget_In in E. apply (in_map fst) in E. exact E.
  Qed.
  Lemma dmem_true (d : list (K * V)) k : dmem eqb d k = true <-> exists v, dget eqb d k = Some v.
  Proof. unfold dmem. destruct (dget eqb d k); split; intros H; try discriminate; eauto. destruct H; discriminate. Qed.
  Lemma dmem_false (d : list (K * V)) k : dmem eqb d k = false <-> dget eqb d k = None.
  Proof. unfold dmem. destruct (dget eqb d k); split; intros H; try discriminate; eauto. Qed.

  Lemma dmem_keys (d : list (K * V)) k : dmem eqb d k = true <-> In k (map fst d).
  Proof.
    split.
    - intros H. apply dmem_true in H. destruct H as [v H]. apply dget_In in H. apply (in_map fst) in H. exact H.
    - intros H. destruct (dmem eqb d k) eqn:E; [reflexivity|]. apply dmem_false, dget_None_notin in E. contradiction.
  Qed.

  Lemma dset_keys_in (d : list (K * V)) k v k0 : In k0 (map fst (dset eqb d k v)) <-> k0 = k \/ In k0 (map fst d).
  Proof.
    induction d as [|[k' v'] d IH]; cbn.
    - split; intros [H|H]; auto; try contradiction.
    - destruct (eqb k' k) eqn:E; cbn.
      + apply eqb_spec in E. subst. intuition (subst; auto).
      + rewrite IH. intuition (subst; auto).
  Qed.
  Lemma NoDup_dset (d : list (K * V)) k v : NoDup (map fst d) -> NoDup (map fst (dset eqb d k v)).
  Proof.
    induction d as [|[k' v'] d IH]; cbn; intros ND.
    - constructor; [tauto|constructor].
    - inv ND. destruct (eqb k' k) eqn:E; cbn.
      + constructor; assumption.
      + constructor; [|apply IH; assumption]. rewrite dset_keys_in. intros [A|A]; [|contradiction].
        subst. rewrite eqb_refl' in E. discriminate.
  Qed.
  Lemma In_dmem (d : list (K * V)) k v : In (k, v) d -> dmem eqb d k = true.
  Proof. intros H. apply dmem_keys. exact (in_map fst _ _ H). Qed.

  Lemma dget_app_mem (d e : list (K * V)) k v : dget eqb d k = Some v -> dget eqb (d ++ e) k = Some v.
  Proof. induction d as [|[k' v'] d IH]; cbn; [discriminate|]. destruct (eqb k' k); auto. Qed.
  Lemma dget_app_other (d : list (K * V)) k v k0 : k0 <> k -> dget eqb (d ++ [(k, v)]) k0 = dget eqb d k0.
  Proof. intros N. induction d as [|[k' v'] d IH]; cbn; [rewrite eqb_neq; auto|]. rewrite IH. reflexivity. Qed.
  Lemma dset_app_mem (d e : list (K * V)) k v : dmem eqb d k = true -> dset eqb (d ++ e) k v = dset eqb d k v ++ e.
  Proof.
    unfold dmem. induction d as [|[k' v'] d IH]; cbn; [discriminate|].
    destruct (eqb k' k) eqn:E; cbn; intros H; [reflexivity|]. rewrite IH; auto.
  Qed.
  Lemma dset_notin_app (d : list (K * V)) k v : ~ In k (map fst d) -> dset eqb d k v = d ++ [(k, v)].
  Proof.
    induction d as [|[k' v'] d IH]; cbn; intros N; [reflexivity|].
    destruct (eqb k' k) eqn:E; [apply eqb_spec in E; subst; tauto|]. rewrite IH; tauto.
  Qed.
  Lemma dget_dset_same (d : list (K * V)) k v : dget eqb (dset eqb d k v) k = Some v.
  Proof.
    induction d as [|[k' v'] d IH]; cbn; [rewrite eqb_refl'; reflexivity|].
    destruct (eqb k' k) eqn:E; cbn; rewrite E; auto.
  Qed.
  Lemma dget_dset_other (d : list (K * V)) k v k0 : k0 <> k -> dget eqb (dset eqb d k v) k0 = dget eqb d k0.
  Proof.
    intros N. induction d as [|[k' v'] d IH]; cbn.
    - rewrite eqb_neq; auto.
    - destruct (eqb k' k) eqn:E; cbn.
      + apply eqb_spec in E. subst. rewrite eqb_neq; auto.
      + rewrite IH. reflexivity.
  Qed.
  Lemma In_iff_dget (d : list (K * V)) k v : NoDup (map fst d) -> (In (k, v) d <-> dget eqb d k = Some v).
  Proof. intros ND. split; [apply In_dget; exact ND|apply dget_In]. Qed.
  Lemma In_dset (d : list (K * V)) k v k0 v0 : NoDup (map fst d) ->
    (In (k0, v0) (dset eqb d k v) <-> (k0 = k /\ v0 = v) \/ (k0 <> k /\ In (k0, v0) d)).
  Proof.
    intros ND. rewrite (In_iff_dget _ _ _ (NoDup_dset d k v ND)), (In_iff_dget _ _ _ ND). destruct (eqb k0 k) eqn:E.
    - apply eqb_spec in E. subst k0. rewrite dget_dset_same. split; [intros H; inv H; auto|intros [[_ ->]|[N _]]; [reflexivity|contradiction]].
    - assert (N : k0 <> k) by (intros ->; rewrite eqb_refl' in E; discriminate). rewrite (dget_dset_other _ _ _ _ N). tauto.
  Qed.
  Lemma dset_same (d : list (K * V)) k v : dget eqb d k = Some v -> dset eqb d k v = d.
  Proof.
    induction d as [|[k' v'] d IH]; cbn; [discriminate|].
    destruct (eqb k' k) eqn:E; intros H.
    - inv H. reflexivity.
    - rewrite IH; auto.
  Qed.
  Lemma dset_length_mem (d : list (K * V)) k v : dmem eqb d k = true -> length (dset eqb d k v) = length d.
  Proof.
    unfold dmem. induction d as [|[k' v'] d IH]; cbn; [discriminate|].
    destruct (eqb k' k) eqn:E; cbn; intros H; auto.
  Qed.
  Lemma map_fst_dset_mem (d : list (K * V)) k v : dmem eqb d k = true -> map fst (dset eqb d k v) = map fst d.
  Proof.
    unfold dmem. induction d as [|[k' v'] d IH]; cbn; [discriminate|].
    destruct (eqb k' k) eqn:E; cbn; intros H; auto. rewrite IH; auto.
  Qed.

  Lemma dget_ddel_other (d : list (K * V)) k k0 : k0 <> k -> dget eqb (ddel eqb d k) k0 = dget eqb d k0.
  Proof.
    intros N. induction d as [|[k' v'] d IH]; cbn; [reflexivity|].
    destruct (eqb k' k) eqn:E; cbn.
    - apply eqb_spec in E. subst. rewrite eqb_neq; auto.
    - rewrite IH. reflexivity.
  Qed.
  Lemma ddel_notin (d : list (K * V)) k : ~ In k (map fst d) -> ddel eqb d k = d.
  Proof.
    induction d as [|[k' v'] d IH]; cbn; intros H; [reflexivity|].
    destruct (eqb k' k) eqn:E.
    - apply eqb_spec in E. subst. tauto.
    - rewrite IH; tauto.
  Qed.
  (* with unique keys, deleting is filtering; what the result holds is read off [filter] *)
  Lemma ddel_filter (d : list (K * V)) k : NoDup (map fst d) -> ddel eqb d k = filter (fun kv => negb (eqb (fst kv) k)) d.
  Proof.
    induction d as [|[k' v'] d IH]; cbn; intros ND; [reflexivity|].
    inv ND. destruct (eqb k' k) eqn:E; cbn.
    - apply eqb_spec in E. subst. rewrite <- (IH H2). symmetry. apply ddel_notin. assumption.
    - rewrite IH by assumption. reflexivity.
  Qed.
  Lemma neqb_spec a b : negb (eqb a b) = true <-> a <> b.
  Proof. rewrite <- eqb_spec. destruct (eqb a b); cbn; split; congruence. Qed.
  Lemma In_ddel (d : list (K * V)) k k0 v0 : NoDup (map fst d) -> (In (k0, v0) (ddel eqb d k) <-> k0 <> k /\ In (k0, v0) d).
  Proof. intros ND. rewrite (ddel_filter d k ND), filter_In. cbn [fst]. rewrite neqb_spec. tauto. Qed.
  Lemma ddel_keys_in (d : list (K * V)) k k0 : NoDup (map fst d) -> (In k0 (map fst (ddel eqb d k)) <-> k0 <> k /\ In k0 (map fst d)).
  Proof.
    intros ND. rewrite !in_map_iff. split.
    - intros ([k1 v] & <- & H). apply In_ddel in H; [|exact ND]. split; [apply H|]. exists (k1, v). split; [reflexivity|apply H].
    - intros (N & [k1 v] & <- & H). exists (k1, v). split; [reflexivity|]. apply In_ddel; auto.
  Qed.
  Lemma NoDup_ddel (d : list (K * V)) k : NoDup (map fst d) -> NoDup (map fst (ddel eqb d k)).
  Proof. intros ND. rewrite (ddel_filter d k ND). apply NoDup_map_filter. exact ND. Qed.
  Lemma dget_ddel_same (d : list (K * V)) k : NoDup (map fst d) -> dget eqb (ddel eqb d k) k = None.
  Proof.
    intros ND. apply notin_dget_None. rewrite ddel_keys_in by assumption. tauto.
  Qed.
End DictLemmas.
Arguments dset_length_mem {K V} eqb.
Arguments map_fst_dset_mem {K V} eqb.

Lemma ostr_eqb_spec a b : ostr_eqb a b = true <-> a = b.
Proof.
  destruct a, b; cbn; split; intros H; try discriminate; try reflexivity.
  - apply String.eqb_eq in H. congruence.
  - inv H. apply String.eqb_refl.
Qed.
Lemma key_eqb_spec (a b : key) : key_eqb a b = true <-> a = b.
Proof.
  destruct a as [a1 a2], b as [b1 b2]. unfold key_eqb. cbn. rewrite andb_true_iff, String.eqb_eq, ostr_eqb_spec.
  split; [intros [-> ->]; reflexivity | intros H; inv H; auto].
Qed.
Lemma key_eq_dec (a b : key) : {a = b} + {a <> b}.
Proof. repeat decide equality. Qed.
Lemma Zeqb_spec (a b : Z) : Z.eqb a b = true <-> a = b. Proof. apply Z.eqb_eq. Qed.
