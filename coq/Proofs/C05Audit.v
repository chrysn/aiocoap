(* C05 — statements about whole runs against ANY server: the client's Block2 follow-up requests on the wire, what a response handed to the
   caller is made of, which errors a run can end in. *)
From Verif Require Import Lib.Py Lib.PyLemmas Lib.Tactics Gen.block_kernels Model.C05 Proofs.C05Machine Proofs.C05 Proofs.C05Bert.
Open Scope Z_scope.

Lemma block2_request_consistent t acc mbse rq n m szx :
  rs_block2 acc = Some (n, m, szx) -> 0 <= szx <= 7 -> 0 <= mbse ->
  generate_next_block2_request t acc mbse = Ok rq ->
  exists n', rq_block2 rq = Some (n', false, Z.min szx mbse) /\
             n' * bsize (Z.min (Z.min szx mbse) 6) = blen (rs_payload acc) /\
             rq_block1 rq = None /\ rq_payload rq = [] /\ rq_size1 rq = rq_size1 t.
Proof.
  intros Hb Hs Hm. unfold generate_next_block2_request. rewrite Hb.
  unfold bind. rewrite bt_size_spec, bt_start_spec.
  destruct (massert _) eqn:Ha; [|discriminate].
  destruct (bt_reduced_to _ _ _ _) as [[[n' m'] s']|] eqn:Hr; [|discriminate].
  intros H; inv H. cbn [rq_block2 rq_block1 rq_payload rq_size1].
  apply bt_reduced_to_offset in Hr as (H1 & H2 & H3); try lia. subst m' s'.
  unfold massert in Ha. destruct (_ =? _) eqn:E in Ha; [|discriminate].
  exists n'. repeat split; lia.
Qed.

Definition b2req_ok (limit : Z) (rq : request) : Prop :=
  exists n' s', rq_block2 rq = Some (n', false, s') /\ 0 <= n' /\ 0 <= s' <= limit /\ rq_block1 rq = None /\ rq_payload rq = [].

(* [resp] is what the server answered to [rq] at some state *)
Definition serve_answered {S : Type} (serve : S -> request -> S * sresult) (rq : request) (resp : response) : Prop :=
  exists s s1, serve s rq = (s1, SResp resp).

Definition resp_wf2 (r : response) : Prop := resp_wf r = true /\ 0 <= rs_maxexp r.

Lemma b2req_ok_mono a b rq : a <= b -> b2req_ok a rq -> b2req_ok b rq.
Proof. intros Hab (n' & s' & H1 & H2 & H3 & H4). exists n', s'. repeat split; try tauto; lia. Qed.

Lemma fed_answered {S} (serve : S -> request -> S * sresult) tr : forall s xs s', fed serve s tr xs s' -> Forall2 (serve_answered serve) tr xs.
Proof.
  induction tr as [|rq tr IH]; intros s [|x xs] s'; cbn [fed]; try tauto; [constructor|].
  intros (s1 & Hs & Hf). constructor; [exists s, s1; exact Hs|eapply IH; exact Hf].
Qed.

Lemma block1_request_block2 cfg c e rq : block1_request cfg c e = Ok rq -> rq_block2 rq = c_block2 cfg.
Proof.
  unfold block1_request. destruct (_ >? _); [|intros H; inv H; reflexivity].
  destruct (extract_block _ _ _ _) as [[pl bo]|]; intros H; inv H. reflexivity.
Qed.

Section AnyServer.
  Context {S : Type}.
  Variable serve : S -> request -> S * sresult.

  Lemma complete_requests_bounded fuel s t a mbse s' tr o :
    (forall s rq s' r, serve s rq = (s', SResp r) -> resp_wf2 r) -> resp_wf a = true -> 0 <= mbse ->
    complete_by_requesting_block2 serve fuel s t a mbse = (s', tr, o) -> Forall (b2req_ok mbse) tr.
  Proof.
    intros serve_wf2 Hwf Hm. rewrite complete_machine.
    destruct (first_block2 t a mbse) as [c|o'] eqn:Hf; [|intros H; inv H; constructor].
    apply first_block2_inl in Hf as [(szx & Hb) ->]. intros H.
    (* the assembled response keeps a Block2 option with an exponent 0..7: the last block appended came off the wire *)
    apply (mloop_inv client_next client_react serve
             (fun c => match c with
                       | C2 _ acc m => m = mbse /\ exists n mm s, rs_block2 acc = Some (n, mm, s) /\ 0 <= s <= 7
                       | C1 _ _ _ _ => False
                       end)
             (b2req_ok mbse) (fun _ => True) (fun _ x => resp_wf2 x)) in H; [apply H|exact serve_wf2|exact I|exact I| |].
    2:{ split; [reflexivity|]. unfold resp_wf in Hwf. rewrite Hb in Hwf. cbn [bt_wf] in Hwf. exists 0, true, szx. split; [exact Hb|lia]. }
    intros [|t' acc m'] Hc; [destruct Hc|]. destruct Hc as (-> & n & mm & s0 & Hacc & Hs0). cbn [client_next client_react].
    destruct (generate_next_block2_request t' acc mbse) as [rq|] eqn:G; [|exact I].
    destruct (block2_request_consistent _ _ _ _ _ _ _ Hacc Hs0 Hm G) as (n' & H1 & H2 & H3 & H4 & _). split.
    - exists n', (Z.min s0 mbse). repeat split; try assumption; try lia.
      pose proof (bsize_pos (Z.min (Z.min s0 mbse) 6) ltac:(lia)). pose proof (blen_nonneg (rs_payload acc)). nia.
    - intros x [Hx _]. unfold block2_react. destruct (rs_block2 x) as [[[bn bm] bs]|] eqn:Hxb; [|exact I].
      destruct (append_response_block acc x) as [acc'|] eqn:Ha; [|exact I]. destruct (negb _); [exact I|].
      destruct (append_ok _ _ _ _ _ _ Hxb Ha) as (_ & _ & _ & ->). split; [reflexivity|]. exists bn, bm, bs. split; [reflexivity|].
      unfold resp_wf in Hx. rewrite Hxb in Hx. cbn [bt_wf] in Hx. lia.
  Qed.

  (* Every run splits at the hand-over: block1_react breaks on an answer and complete_by_requesting_block2 takes over with a limit that is
     the client's own or a remote's below it (protocol.py:930-937); or there is none and the run does not end in a response. *)
  Lemma block1_loop_shape cfg fuel : forall s cur se mb s' tr o,
    block1_loop serve fuel s cfg cur se mb = (s', tr, o) ->
    (exists f s1 rq resp mbse c e tr1 tr2,
        tr = tr1 ++ rq :: tr2 /\ block1_request cfg c e = Ok rq /\ serve_answered serve rq resp /\
        block1_react rq resp c e = B1Break /\
        mbse <= mb /\ (mbse = mb \/ exists q x, serve_answered serve q x /\ mbse = rs_maxexp x) /\
        Forall (fun q => rq_block2 q = c_block2 cfg) (tr1 ++ [rq]) /\
        complete_by_requesting_block2 serve f s1 rq (clear_block1 resp) mbse = (s', tr2, o)) \/
    ((forall r, o <> Done r) /\ Forall (fun q => rq_block2 q = c_block2 cfg) tr).
  Proof.
    induction fuel as [|f IH]; intros s cur se mb s' tr o; cbn [block1_loop].
    - intros H; inv H. right. split; [discriminate|constructor].
    - destruct (block1_request cfg cur se) as [rq|e] eqn:Hrq; [|intros H; inv H; right; split; [discriminate|constructor]].
      pose proof (block1_request_block2 _ _ _ _ Hrq) as Hq.
      destruct (serve s rq) as [s1 [resp|]] eqn:Hs; [|intros H; inv H; right; split; [discriminate|repeat constructor; exact Hq]].
      assert (Hans : serve_answered serve rq resp) by (exists s, s1; exact Hs).
      set (mb' := if mb <? rs_maxexp resp then mb else rs_maxexp resp).
      assert (Hmb' : mb' <= mb /\ (mb' = mb \/ exists q x, serve_answered serve q x /\ mb' = rs_maxexp x)).
      { subst mb'. destruct (mb <? rs_maxexp resp) eqn:E; (split; [lia|]); [left; reflexivity|right; eauto]. }
      destruct (block1_react rq resp cur se) as [e|c2 e2|] eqn:Hr.
      + intros H; inv H. right. split; [discriminate|repeat constructor; exact Hq].
      + destruct (block1_loop serve f s1 cfg c2 e2 mb') as [[s2 tr2] o2] eqn:R. intros H; inv H.
        destruct (IH _ _ _ _ _ _ _ R) as [(f' & s1' & rq' & resp' & mbse' & c' & e' & tr1 & tr2' & -> & H1 & Ha & H2 & H3 & H4 & H5 & H6)|[Hn Hall]].
        * left. exists f', s1', rq', resp', mbse', c', e', (rq :: tr1), tr2'.
          split; [reflexivity|]. split; [exact H1|]. split; [exact Ha|]. split; [exact H2|]. split; [lia|].
          split; [destruct H4 as [->|H4]; [apply Hmb'|right; exact H4]|]. split; [constructor; assumption|exact H6].
        * right. split; [exact Hn|constructor; assumption].
      + destruct (complete_by_requesting_block2 serve f s1 rq _ mb') as [[s2 tr2] o2] eqn:R. intros H; inv H.
        left. exists f, s1, rq, resp, mb', cur, se, [], tr2.
        split; [reflexivity|]. split; [exact Hrq|]. split; [exact Hans|]. split; [exact Hr|]. split; [apply Hmb'|].
        split; [apply Hmb'|]. split; [repeat constructor; exact Hq|exact R].
  Qed.

  Lemma run_block2_requests_wire cfg fuel s s' tr o :
    (forall s rq s' r, serve s rq = (s', SResp r) -> resp_wf2 r) -> 0 <= c_mbse cfg ->
    run serve fuel s cfg = (s', tr, o) ->
    exists tr1 tr2, tr = tr1 ++ tr2 /\ Forall (fun q => rq_block2 q = c_block2 cfg) tr1 /\ Forall (b2req_ok (c_mbse cfg)) tr2.
  Proof.
    intros Hwf Hm Hrun.
    destruct (block1_loop_shape cfg fuel _ _ _ _ _ _ _ Hrun)
      as [(f & s1 & rq & resp & mbse & c & e & tr1 & tr2 & -> & _ & (sa & sb & Hans) & _ & Hle & Hmb & Hall & Hc)|[_ Hall]].
    - exists (tr1 ++ [rq]), tr2. split; [rewrite <- app_assoc; reflexivity|]. split; [exact Hall|].
      assert (0 <= mbse) by (destruct Hmb as [->|(q & x & (sq & sx & Hq) & ->)]; [exact Hm|apply (Hwf _ _ _ _ Hq)]).
      eapply Forall_impl; [intros q; apply (b2req_ok_mono mbse); exact Hle|].
      apply (complete_requests_bounded f s1 rq (clear_block1 resp) mbse s' tr2 o Hwf); [|assumption|exact Hc].
      destruct (Hwf _ _ _ _ Hans) as [Hw _]. unfold resp_wf in *. cbn [clear_block1 rs_block1 rs_block2 bt_wf].
      apply andb_prop in Hw. apply Hw.
    - exists tr, []. split; [symmetry; apply app_nil_r|]. split; [exact Hall|constructor].
  Qed.

  Lemma run_done_exact cfg fuel s s' tr r :
    run serve fuel s cfg = (s', tr, Done r) ->
    exists rq resp tr1 tr2, tr = tr1 ++ rq :: tr2 /\ serve_answered serve rq resp /\ rq_block2 rq = c_block2 cfg /\
      let initial := clear_block1 resp in
      (r = initial /\ rs_block2 initial = None /\ tr2 = []) \/
      (exists b, rs_block2 initial = Some b /\ bt_more b = false /\
                 (bt_num b = 0 \/ exists rb, c_block2 cfg = Some rb /\ bt_num rb <> 0) /\ r = clear_block2 initial /\ tr2 = []) \/
      (exists szx consumed, rs_block2 initial = Some (0, true, szx) /\ b2_chain initial consumed r /\ Forall2 (serve_answered serve) tr2 consumed).
  Proof.
    intros Hrun. destruct (block1_loop_shape cfg fuel _ _ _ _ _ _ _ Hrun)
      as [(f & s1 & rq & resp & mbse & c & e & tr1 & tr2 & H1 & Hrq & Hans & _ & _ & _ & _ & Hc)|[Hn _]]; [|destruct (Hn r eq_refl)].
    apply block1_request_block2 in Hrq. exists rq, resp, tr1, tr2. repeat split; try assumption. cbv zeta.
    apply complete_done_cases in Hc. rewrite Hrq in Hc.
    destruct Hc as [(_ & -> & -> & Hn)|[(_ & -> & b & Hb)|(szx & consumed & Hb & Hch & Hfed)]]; [left; auto|right; left; exists b; tauto|].
    right. right. exists szx, consumed. apply fed_answered in Hfed. auto.
  Qed.
End AnyServer.

Lemma run_never_mixed {S} (serve : S -> request -> S * sresult) reps cfg fuel s s' tr r : NoDup (map fst reps) ->
  (forall rq x, serve_answered serve rq x -> rs_block2 x <> None -> slice_of reps x) ->
  (c_block2 cfg = None \/ exists m2 s2, c_block2 cfg = Some (0, m2, s2)) ->
  run serve fuel s cfg = (s', tr, Done r) ->
  (exists e rep, In (e, rep) reps /\ rs_payload r = rep) \/
  (exists rq x, serve_answered serve rq x /\ rs_block2 x = None /\ (r = x \/ r = clear_block1 x)).
Proof.
  intros Hnd Hslice Hcb Hrun.
  destruct (run_done_exact serve cfg fuel s s' tr r Hrun) as (rq & resp & tr1 & tr2 & -> & Hans & Hq & Hcases). cbv zeta in Hcases.
  cbn [clear_block1 rs_block2] in Hcases. destruct Hcases as [(-> & Hn & _)|Hcases].
  { right. exists rq, resp. split; [exact Hans|]. split; [exact Hn|right; reflexivity]. }
  (* the last answer of the Block1 phase carries a Block2 option: it is block 0 of a representation *)
  destruct (Hslice rq resp Hans) as (e & rep & Hin & Het & Hx); [destruct Hcases as [(b & -> & _)|(szx & consumed & -> & _)]; discriminate|].
  destruct Hcases as [(b & Hb & Hm & Hnum & -> & _)|(szx & consumed & Hb & Hch & Hall)]; rewrite Hb in Hx.
  - destruct b as [[n m] sz]. unfold bt_more, bt_num in *. cbn [fst snd] in *. subst m. destruct Hx as (Hn & Hsz & Hp & Hmm).
    assert (n = 0). { destruct Hnum as [H|(rb & Hrb & Hne)]; [exact H|]. destruct Hcb as [Hc|(m2 & s2 & Hc)]; rewrite Hc in Hrb; inv Hrb. cbn in Hne. lia. }
    subst n. left. exists e, rep. split; [exact Hin|]. cbn [clear_block2 clear_block1 rs_payload]. rewrite Hp. cbn [Z.mul Z.add].
    symmetry in Hmm. apply Z.ltb_ge in Hmm. rewrite bslice_0. apply bto_all. lia.
  - destruct Hx as (_ & Hsz & Hp & Hmm). cbn [Z.mul Z.add] in Hp, Hmm. symmetry in Hmm. apply Z.ltb_lt in Hmm. pose proof (bsize_pos szx ltac:(lia)) as Hs.
    assert (Hex : forall x, In x consumed -> exists q, serve_answered serve q x).
    { clear - Hall. induction Hall as [|q y trr cs Hqy Hrest IH]; intros x Hx; [destruct Hx|]. destruct Hx as [->|Hx]; [exists q; exact Hqy|apply IH; exact Hx]. }
    destruct (b2_chain_representation_or_single reps Hnd consumed (clear_block1 resp) r e rep (bsize szx) Hin) as [Hl|(x & Hx & Hxn & ->)];
      try assumption; try lia.
    + apply Forall_forall. intros x Hx Hxb.
      destruct (Hex x Hx) as (q & Hqx). exact (Hslice q x Hqx Hxb).
    + left. exact Hl.
    + right. destruct (Hex x Hx) as (q & Hqx). exists q, x. split; [exact Hqx|]. split; [exact Hxn|left; reflexivity].
Qed.

(* BadRequest out of _extract_block (DESIGN section 10: `no_out_of_bounds`; here C05Bert.block1_request_gblock) and every other exception of
   the translated kernels are unreachable *)
Definition client_errors : list exn :=
  [NetworkError; UnexpectedBlock1Option; UnexpectedBlock2; NotImplementedError; ResourceChanged; AssertionError; AttributeError].
Definition classified (o : outcome) : Prop := match o with Err e => In e client_errors | _ => True end.

Ltac in_errors := unfold classified, client_errors; cbn [In]; tauto.

Lemma generate_next_errors t a mbse e : generate_next_block2_request t a mbse = Raise e -> e = AttributeError \/ e = AssertionError.
Proof.
  unfold generate_next_block2_request. destruct (rs_block2 a) as [[[n m] s]|]; [|intros H; inv H; auto].
  unfold bind. rewrite bt_size_spec, bt_start_spec. unfold massert. destruct (_ =? _); [|intros H; inv H; auto].
  unfold bt_reduced_to. repeat match goal with |- context [if ?b then _ else _] => destruct b end; discriminate.
Qed.

Lemma append_errors a x e : append_response_block a x = Raise e ->
  e = AttributeError \/ e = UnexpectedBlock2 \/ e = NotImplementedError \/ e = ResourceChanged.
Proof.
  rewrite append_response_block_eq. unfold append_inline. destruct (rs_block2 x) as [[[n m] s]|]; [|intros H; inv H; auto].
  unfold bt_is_valid_for_payload_size, bt_is_bert, bt_size, bind. rewrite bt_start_spec.
  repeat match goal with |- context [if ?b then _ else _] => destruct b end; intros H; inv H; auto.
Qed.

Lemma block1_react_errors rq resp c e x : block1_react rq resp c e = B1Err x -> x = AttributeError \/ x = UnexpectedBlock1Option.
Proof.
  unfold block1_react. destruct (rs_block1 resp) as [b1|]; [|discriminate]. destruct (rq_block1 rq) as [cb|]; [|intros H; inv H; auto].
  destruct (negb _); [intros H; inv H; auto|]. destruct (reduce_size _ _ _ _).
  repeat match goal with |- context [if ?b then _ else _] => destruct b end; intros H; inv H; auto.
Qed.

(* for any client maximum exponent 0..7, under the hypotheses of C05Bert.run_g_chain *)
Lemma run_classified {S} (serve : S -> request -> S * sresult) cfg :
  (forall s rq s' r n m se, rq_block1 rq = Some (n, m, se) -> 0 <= n -> 0 <= se <= c_mbse cfg ->
     rq_block2 rq = c_block2 cfg -> serve s rq = (s', SResp r) -> resp_wf r = true) ->
  0 <= c_mbse cfg <= 7 -> 0 <= c_mps cfg -> (c_mbse cfg = 7 -> 1024 <= c_mps cfg) ->
  forall fuel s s' tr o, run serve fuel s cfg = (s', tr, o) -> classified o.
Proof.
  intros serve_wf Hm Hp H7 fuel s s' tr o. rewrite run_machine. intros H.
  (* in the Block1 phase the body goes out whole, or the loop invariant g_inv holds: block1_request cannot raise *)
  apply (mloop_inv client_next client_react serve
           (fun c => match c with
                     | C1 cfg' cur se _ => cfg' = cfg /\
                         (blen (c_body cfg) >? fragmentation_threshold (c_mps cfg) se = false \/ se <= c_mbse cfg /\ g_inv cfg cur se)
                     | C2 _ _ _ => True
                     end)
           (fun _ => True) classified
           (fun rq x => forall n m se, rq_block1 rq = Some (n, m, se) -> 0 <= n -> 0 <= se <= c_mbse cfg -> rq_block2 rq = c_block2 cfg ->
                                       resp_wf x = true)) in H; [apply H| |exact I|in_errors| |].
  - intros s0 rq s0' x Hs n m se Hb1 Hn Hse Hq2. exact (serve_wf _ _ _ _ _ _ _ Hb1 Hn Hse Hq2 Hs).
  - assert (Hfirst : forall t a m, match first_block2 t a m with
                                   | inl c => match c with C1 _ _ _ _ => False | C2 _ _ _ => True end
                                   | inr o => classified o end).
    { intros t a m. destruct (first_block2 t a m) as [c|[r|e|]] eqn:Hf; try exact I.
      - apply first_block2_inl in Hf as [_ ->]. exact I.
      - apply first_block2_errors in Hf as ->. in_errors. }
    intros [cfg' cur se mb|t a m].
    + intros (-> & Hcase). cbn [client_next client_react]. destruct Hcase as [Hfrag|[Hse Hinv]].
      * rewrite (block1_request_whole _ _ _ Hfrag). split; [exact I|]. intros x _.
        rewrite block1_react_whole by reflexivity. destruct (rs_block1 x); [in_errors|].
        match goal with |- context [first_block2 ?t ?a ?m] => specialize (Hfirst t a m); destruct (first_block2 t a m) as [[]|] end; tauto.
      * destruct (block1_request_gblock _ _ _ Hinv) as (_ & pl & more & -> & _ & Hmore & _). split; [exact I|]. intros x Hw.
        assert (Hwf : resp_wf x = true) by (destruct Hinv as (? & ? & _); apply (Hw cur more se); (reflexivity || lia)).
        match goal with |- context [block1_react ?rq0 x cur se] => set (rq := rq0) end.
        destruct (block1_react rq x cur se) as [e|c2 e2|] eqn:Hr.
        -- destruct (block1_react_errors _ _ _ _ _ Hr) as [->| ->]; in_errors.
        -- destruct (block1_continue_ginv cfg rq x cur se more c2 e2 Hinv eq_refl Hwf Hmore Hr) as (_ & He2 & _ & Hinv2).
           split; [reflexivity|right; split; [lia|exact Hinv2]].
        -- match goal with |- context [first_block2 ?t ?a ?m] => specialize (Hfirst t a m); destruct (first_block2 t a m) as [[]|] end; tauto.
    + intros _. cbn [client_next client_react].
      destruct (generate_next_block2_request t a m) as [rq|e] eqn:G; [|destruct (generate_next_errors _ _ _ _ G) as [->| ->]; in_errors].
      split; [exact I|]. intros x _. unfold block2_react. destruct (rs_block2 x) as [b2|]; [|exact I].
      destruct (append_response_block a x) as [a'|e] eqn:Ha; [|destruct (append_errors _ _ _ Ha) as [->|[->|[->| ->]]]; in_errors].
      destruct (negb (bt_more b2)); exact I.
  - split; [reflexivity|]. destruct (blen (c_body cfg) >? fragmentation_threshold (c_mps cfg) (c_mbse cfg)) eqn:Hfrag;
      [right; split; [lia|apply g_inv_start; assumption]|left; reflexivity].
Qed.

