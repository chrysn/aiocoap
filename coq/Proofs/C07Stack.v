(* C07 — the token is released when the observation's pipe ends, later notifications on it are rejected like unknown
   responses (RST for CON, silence for NON), and a matched response is handed over as the abstract client does it.
   Over Model/C07Stack.v. *)
From Verif Require Import Lib.Py Lib.Tactics Model.C07 Model.C07Stack Proofs.C07.
Open Scope Z_scope.

Definition WF (k : stack) : Prop := k_token k = true -> s_ended (k_sys k) = false.

Lemma WF_ended k : WF k -> s_ended (k_sys k) = true -> k_token k = false.
Proof. unfold WF. intros W E. destruct (k_token k); [rewrite W in E by reflexivity; discriminate|reflexivity]. Qed.

Lemma WF_sync k s' tok ex : WF (sync k s' tok ex).
Proof. unfold WF, sync. cbn. intros H. apply andb_prop in H as [_ H]. destruct (s_ended s'); [discriminate|reflexivity]. Qed.

Lemma WF_stack0 has_obs reset con t0 : WF (stack0 has_obs reset con t0).
Proof. unfold WF. reflexivity. Qed.

Definition wires (outs : list sout) : list mtype := flat_map (fun o => match o with Wire t => [t] | App _ => [] end) outs.
Definition apps (outs : list sout) : list out := flat_map (fun o => match o with App x => [x] | Wire _ => [] end) outs.

Lemma apps_map_App l : apps (map App l) = l.
Proof. induction l as [|a l IH]; [reflexivity|]. unfold apps in *. cbn [map flat_map app]. rewrite IH. reflexivity. Qed.
Lemma wires_map_App l : wires (map App l) = [].
Proof. induction l as [|a l IH]; [reflexivity|]. unfold wires in *. cbn [map flat_map app]. exact IH. Qed.
Lemma apps_app a b : apps (a ++ b) = apps a ++ apps b. Proof. apply flat_map_app. Qed.
Lemma wires_app a b : wires (a ++ b) = wires a ++ wires b. Proof. apply flat_map_app. Qed.

Definition response_step (k : stack) (now : Z) (mt : mtype) (id : Z) (observe : option Z) (tok mid : bool) : stack * list sout :=
  let k1 := match mt with ACK => if mid then sync k (k_sys k) (k_token k) None else k | _ => k end in
  let '(k2, outs, matched) := process_response k1 now id observe tok in
  if escaped outs then (k2, map App outs)
  else (k2, map App outs ++ match mt with CON => [Wire (if matched then ACK else RST)] | _ => [] end).

Lemma rst_or_not (mt : mtype) : mt = RST \/ mt <> RST.
Proof. destruct mt; auto; right; discriminate. Qed.

Lemma sstep_response k0 now mt id observe tok mid : mt <> RST ->
  sstep k0 (SResponse now mt id observe tok mid)
  = let '(k, outs0) := pass_time k0 now in
    let '(k', outs) := response_step k now mt id observe tok mid in (k', map App outs0 ++ outs).
Proof. intros H. destruct mt; try reflexivity. congruence. Qed.

Lemma response_step_apps k now mt id observe tok (mid : bool) :
  let k1 := match mt with ACK => if mid then sync k (k_sys k) (k_token k) None else k | _ => k end in
  fst (response_step k now mt id observe tok mid) = fst (fst (process_response k1 now id observe tok))
  /\ apps (snd (response_step k now mt id observe tok mid)) = snd (fst (process_response k1 now id observe tok)).
Proof.
  cbv zeta. unfold response_step. destruct (process_response _ now id observe tok) as [[k2 outs] matched]. cbn [fst snd].
  destruct (escaped outs); cbn [fst snd]; rewrite ?apps_app, apps_map_App; [auto|].
  split; [reflexivity|]. destruct mt; cbn; apply app_nil_r.
Qed.

Fixpoint srun_state (k : stack) (ops : list sop) : stack :=
  match ops with [] => k | o :: r => srun_state (fst (sstep k o)) r end.

Lemma srun_snd st ops : snd (srun st ops) = k_token (srun_state st ops).
Proof.
  revert st. induction ops as [|o r IH]; intros st; [reflexivity|]. cbn [srun srun_state].
  destruct (sstep st o) as [st' outs]. specialize (IH st'). destruct (srun st' r). cbn [fst snd] in *. exact IH.
Qed.
Lemma srun_fst_cons st o r : fst (srun st (o :: r)) = snd (sstep st o) :: fst (srun (fst (sstep st o)) r).
Proof. cbn [srun]. destruct (sstep st o) as [st' outs]. cbn [fst snd]. destruct (srun st' r). reflexivity. Qed.

Lemma drain_stack_eq k : drain_stack k = (sync k (fst (drain (k_sys k))) (k_token k) (k_exchange k), snd (drain (k_sys k))).
Proof. unfold drain_stack. destruct (drain (k_sys k)). reflexivity. Qed.

Lemma timeouts_token_gone k now : k_token k = false -> k_token (fst (timeouts k now)) = false /\ snd (timeouts k now) = [].
Proof.
  intros Ht. unfold timeouts, dispatch_error. rewrite Ht. destruct (k_exchange k) as [d|]; [destruct (d <=? now)|]; cbn; auto.
Qed.

Lemma pass_time_token_gone k now j : k_token k = false ->
  k_token (fst (pass_time k now)) = false /\ view j (snd (pass_time k now)) = [].
Proof.
  intros Ht. unfold pass_time. destruct (k_now k <? now); [|cbn; auto]. rewrite (drain_stack_eq k).
  destruct (timeouts_token_gone (sync k (fst (drain (k_sys k))) (k_token k) (k_exchange k)) now) as [T2 O2]; [cbn; rewrite Ht; reflexivity|].
  destruct (timeouts _ now) as [k2 o2]. cbn [fst snd] in *. subst o2. rewrite (drain_stack_eq k2). cbn [fst snd k_token sync].
  rewrite T2, !view_app, !drain_view. auto.
Qed.

(* once the token is gone, a response on it changes nothing, reaches no observer, and is answered like any unknown
   response: Reset if confirmable, silence otherwise *)
Theorem late_notification_rejected : forall k now mt id observe tok mid j,
  k_token k = false -> (mt = CON \/ mt = NON) ->
  let r := sstep k (SResponse now mt id observe tok mid) in
  k_token (fst r) = false
  /\ wires (snd r) = (match mt with CON => [RST] | _ => [] end)
  /\ view j (apps (snd r)) = [].
Proof.
  intros k now mt id observe tok mid j Ht Hmt. cbv zeta. unfold sstep.
  destruct (pass_time_token_gone k now j Ht) as [T0 V0]. destruct (pass_time k now) as [k0 outs0]. cbn [fst snd] in *.
  assert (E : process_response k0 now id observe tok = (k0, [], false)).
  { unfold process_response; rewrite T0, andb_false_r; reflexivity. }
  destruct Hmt as [-> | ->]; rewrite E; cbn [escaped existsb fst snd map app];
    rewrite wires_app, apps_app, wires_map_App, apps_map_App, view_app, V0; cbn; auto.
Qed.

Lemma pass_time_idle j p k now : k_exchange k = None -> s_ended (k_sys k) = false -> R j (k_sys k) p ->
  let k' := fst (pass_time k now) in
  view j (snd (pass_time k now)) = [] /\ R j (k_sys k') p /\ s_reset (k_sys k') = s_reset (k_sys k)
  /\ s_ended (k_sys k') = false /\ k_token k' = k_token k.
Proof.
  intros Ex En HR. cbv zeta. unfold pass_time. destruct (k_now k <? now); [|cbn; auto 10].
  rewrite (drain_stack_eq k). unfold timeouts. cbn [k_exchange sync fst]. rewrite Ex, drain_stack_eq. cbn [fst snd k_sys k_token k_exchange sync].
  destruct (drain_refines j _ p HR) as (V1 & R1 & S1). destruct (drain_refines j _ p R1) as (V2 & R2 & S2).
  rewrite !view_app, V1, V2, S2, S1, !drain_ended, En, !andb_true_r. auto 10.
Qed.

(* a response that matches the token while the interest lasts and no exchange is pending: the stack hands observer j what
   the abstract client hands over for that message, whatever the message type; a response without Observe releases the token *)
Lemma matched_response_refines j st p now mt id observe mid : mt <> RST ->
  R j (k_sys st) p -> s_ended (k_sys st) = false -> k_token st = true -> k_exchange st = None ->
  let ev := EvMsg id observe (negb (is_some observe)) in
  let r := sstep st (SResponse now mt id observe true mid) in
  view j (apps (snd r)) = snd (spec_event (s_reset (k_sys st)) p now ev)
  /\ R j (k_sys (fst r)) (fst (spec_event (s_reset (k_sys st)) p now ev))
  /\ (observe = None -> k_token (fst r) = false).
Proof.
  intros Hmt HR En Tk Ex. cbv zeta.
  rewrite sstep_response by exact Hmt.
  destruct (pass_time_idle j p st now Ex En HR) as (V0 & R2 & Er & En2 & T2).
  destruct (pass_time st now) as [k2 outs0]. cbn [fst snd] in *.
  destruct (response_step_apps k2 now mt id observe true mid) as [E1 E2].
  destruct (response_step k2 now mt id observe true mid) as [k3 outs]. cbn [fst snd] in *. subst k3.
  rewrite apps_app, apps_map_App, view_app, V0, E2.
  set (k2' := match mt with ACK => if mid then sync k2 (k_sys k2) (k_token k2) None else k2 | _ => k2 end).
  assert (K2 : k_sys k2' = k_sys k2 /\ k_token k2' = true).
  { unfold k2'. destruct mt; try destruct mid; cbn [sync k_sys k_token]; rewrite ?En2, T2, Tk; auto. }
  destruct K2 as [S2 T2']. unfold process_response. rewrite T2', S2. pose proof R2 as (Ho & _). rewrite Ho. cbn [andb negb].
  destruct (add_event_refines j (k_sys k2) p now (EvMsg id observe (negb (is_some observe))) R2) as (V & R3 & _).
  destruct (add_event (k_sys k2) now _) as [s' o']. cbn [fst snd sync k_sys k_token] in *.
  rewrite V, Er in *. split; [reflexivity|]. split; [exact R3|]. intros ->. reflexivity.
Qed.

(* the first response carries no Observe option, seen from the network: whatever its type (CON / NON / piggy-backed ACK) the
   observer is told NotObservable and the token is released *)
Lemma stack_first_response_no_observe : forall k reset t0 now mt id mid, mt <> RST ->
  let k1 := fst (sstep (stack0 true reset false t0) (SApp t0 (OpRegister k))) in
  let r := sstep k1 (SResponse now mt id None true mid) in
  view k (apps (snd r)) = [EndSignal (Some NotObservable)] /\ k_token (fst r) = false.
Proof.
  intros k reset t0 now mt id mid Hmt. cbv zeta.
  set (k1 := fst (sstep (stack0 true reset false t0) (SApp t0 (OpRegister k)))).
  assert (K : R k (k_sys k1) PFirst /\ k_token k1 = true /\ k_exchange k1 = None).
  { unfold k1, sstep, pass_time. cbn [stack0 k_now k_sys]. rewrite Z.ltb_irrefl. cbn [stack0 k_sys k_token k_exchange].
    destruct (R_initial k reset) as (HR & _). destruct (step (sys0 true reset) (OpRegister k)) as [s outs].
    cbn [fst snd k_sys k_token k_exchange sync] in *. pose proof HR as (_ & _ & En & _). rewrite En. auto. }
  destruct K as (HR & Tk & Ex). pose proof HR as (_ & _ & En & _).
  destruct (matched_response_refines k k1 PFirst now mt id None mid Hmt HR En Tk Ex) as (V & _ & T).
  split; [exact V|exact (T eq_refl)].
Qed.
