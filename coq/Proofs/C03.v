(* C03 — the two dicts of the retransmission model (Model/C03.v: _active_exchanges, _backlogs) and the order of the loop's timers *)
From Verif Require Import Lib.Py Lib.PyLemmas Lib.Tactics Model.C03.
Open Scope Z_scope.

Lemma key_eqb_true : forall a b, key_eqb a b = true <-> a = b.
Proof. intros [a1 a2] [b1 b2]. unfold key_eqb; cbn. rewrite andb_true_iff, !Z.eqb_eq. split; [intros [-> ->]; auto | intros H; inv H; auto]. Qed.
Lemma key_eqb_false : forall a b, key_eqb a b = false <-> a <> b.
Proof. intros a b. rewrite <- key_eqb_true. destruct (key_eqb a b); split; congruence. Qed.
Lemma key_eqb_refl : forall a, key_eqb a a = true.
Proof. intros a. apply key_eqb_true. reflexivity. Qed.

Definition exch := ((Z * Z) * (Z * timer))%type.
Definition e_timer (e : exch) : timer := snd (snd e).
Definition e_remote (e : exch) : Z := fst (fst e).
Definition e_rid (e : exch) : Z := m_rid (h_message (e_timer e)).

Lemma xget_in : forall k v (l : list exch), xget k l = Some v -> In (k, v) l.
Proof.
  intros k v l. unfold xget. match goal with |- context [find ?f l] => destruct (find f l) as [e|] eqn:F end; [|discriminate].
  intros H; inv H. apply find_some in F. destruct F as [Hin Hk]. apply key_eqb_true in Hk. destruct e as [k' v']; cbn in *; subst. exact Hin.
Qed.
Lemma in_filter_ne : forall {A} (f : A -> Z) r (l : list A) x, In x (filter (fun y => negb (f y =? r)) l) <-> In x l /\ f x <> r.
Proof. intros. rewrite filter_In, negb_true_iff, Z.eqb_neq. reflexivity. Qed.
Lemma in_xdel : forall k (l : list exch) e, In e (xdel k l) <-> In e l /\ fst e <> k.
Proof. intros. unfold xdel. rewrite filter_In, negb_true_iff, key_eqb_false. tauto. Qed.
Lemma in_xset : forall k v (l : list exch) e, In e (xset k v l) <-> e = (k, v) \/ (In e l /\ fst e <> k).
Proof. intros. unfold xset. cbn. rewrite in_xdel. intuition. Qed.

Lemma xget_of_in : forall (l : list exch) k v, NoDup (map e_remote l) -> In (k, v) l -> xget k l = Some v.
Proof.
  intros l k v N Hin. unfold xget. match goal with |- context [find ?f l] => destruct (find f l) as [e|] eqn:F end.
  - apply find_some in F. destruct F as [Hin' Hk]. apply key_eqb_true in Hk.
    assert (e = (k, v)) as -> by (apply (NoDup_map_inj_in e_remote l); auto; unfold e_remote; rewrite Hk; reflexivity). reflexivity.
  - exfalso. apply (find_none _ _ F) in Hin. cbn in Hin. rewrite key_eqb_refl in Hin. discriminate.
Qed.

Lemma has_exchange_iff : forall st r, has_exchange_with st r = true <-> exists e, In e (active_exchanges st) /\ e_remote e = r.
Proof.
  intros. unfold has_exchange_with. rewrite existsb_exists. split; intros [e [H1 H2]]; exists e; split; auto.
  - apply Z.eqb_eq in H2. exact H2.
  - apply Z.eqb_eq. exact H2.
Qed.
Lemma has_exchange_false : forall st r, has_exchange_with st r = false <-> forall e, In e (active_exchanges st) -> e_remote e <> r.
Proof.
  intros. split.
  - intros H e Hin Hr. assert (has_exchange_with st r = true) by (apply has_exchange_iff; eauto). congruence.
  - intros H. destruct (has_exchange_with st r) eqn:E; auto. apply has_exchange_iff in E. destruct E as [e [H1 H2]]. exfalso. eapply H; eauto.
Qed.

Definition bent := (Z * list (message * Z))%type.
Lemma qget_in : forall r q (l : list bent), qget r l = Some q -> In (r, q) l.
Proof.
  intros r q l. unfold qget. match goal with |- context [find ?f l] => destruct (find f l) as [e|] eqn:F end; [|discriminate].
  intros H; inv H. apply find_some in F. destruct F as [Hin Hk]. apply Z.eqb_eq in Hk. destruct e; cbn in *; subst. exact Hin.
Qed.
Lemma qget_none : forall r (l : list bent), qget r l = None <-> ~ In r (map fst l).
Proof.
  intros r l. unfold qget. match goal with |- context [find ?f l] => destruct (find f l) as [e|] eqn:F end.
  - apply find_some in F. destruct F as [Hin Hk]. apply Z.eqb_eq in Hk. split; [discriminate|]. intros H. exfalso. apply H. rewrite <- Hk. apply in_map. exact Hin.
  - split; auto. intros _ Hin. apply in_map_iff in Hin. destruct Hin as [x [Hx Hin]]. apply (find_none _ _ F) in Hin. cbn in Hin. apply Z.eqb_neq in Hin. auto.
Qed.
Lemma in_qdel : forall r (l : list bent) e, In e (qdel r l) <-> In e l /\ fst e <> r.
Proof. intros. exact (in_filter_ne fst r l e). Qed.
Lemma in_qset : forall r v (l : list bent) e, In e (qset r v l) <-> e = (r, v) \/ (In e l /\ fst e <> r).
Proof. intros. unfold qset. cbn. rewrite in_qdel. intuition. Qed.
Lemma qget_qset_same : forall r v (l : list bent), qget r (qset r v l) = Some v.
Proof. intros. unfold qget, qset. cbn. rewrite Z.eqb_refl. reflexivity. Qed.
Lemma qget_qdel_other : forall r r' (l : list bent), r <> r' -> qget r' (qdel r l) = qget r' l.
Proof.
  intros r r' l Hne. unfold qget, qdel. induction l as [|a l IH]; cbn; auto.
  destruct (fst a =? r) eqn:E; cbn.
  - apply Z.eqb_eq in E. assert (fst a =? r' = false) as -> by (apply Z.eqb_neq; congruence). exact IH.
  - destruct (fst a =? r'); auto.
Qed.
Lemma qget_qdel_same : forall r (l : list bent), qget r (qdel r l) = None.
Proof. intros. apply qget_none. intros Hin. apply in_map_iff in Hin. destruct Hin as [x [Hx Hin]]. apply in_qdel in Hin. tauto. Qed.
Lemma qget_qset_other : forall r r' v (l : list bent), r <> r' -> qget r' (qset r v l) = qget r' l.
Proof. intros. unfold qset. unfold qget at 1. cbn. assert (r =? r' = false) as -> by (apply Z.eqb_neq; congruence). fold (qget r' (qdel r l)). apply qget_qdel_other; auto. Qed.
Lemma nodup_qdel : forall r (l : list bent), NoDup (map fst l) -> NoDup (map fst (qdel r l)).
Proof. intros. apply NoDup_map_filter. auto. Qed.
Lemma nodup_qset : forall r v (l : list bent), NoDup (map fst l) -> NoDup (map fst (qset r v l)).
Proof.
  intros. unfold qset. cbn. constructor; [|apply nodup_qdel; auto].
  intros Hin. apply in_map_iff in Hin. destruct Hin as [x [Hx Hin]]. apply in_qdel in Hin. tauto.
Qed.
Lemma qget_of_in : forall (l : list bent) r q, NoDup (map fst l) -> In (r, q) l -> qget r l = Some q.
Proof.
  intros l r q N Hin. unfold qget. match goal with |- context [find ?f l] => destruct (find f l) as [e|] eqn:F end.
  - apply find_some in F. destruct F as [Hin' Hk]. apply Z.eqb_eq in Hk.
    assert (e = (r, q)) as -> by (apply (NoDup_map_inj_in fst l); auto). reflexivity.
  - exfalso. apply (find_none _ _ F) in Hin. cbn in Hin. rewrite Z.eqb_refl in Hin. discriminate.
Qed.

Lemma min_timer_in : forall (l : list exch) h, min_timer l = Some h -> exists e, In e l /\ e_timer e = h.
Proof.
  induction l as [|a l IH]; cbn; intros h H; [discriminate|].
  destruct (min_timer l) as [h'|] eqn:M.
  - destruct (timer_before h' (snd (snd a))); inv H.
    + destruct (IH _ eq_refl) as [e [H1 H2]]. eauto.
    + exists a. auto.
  - inv H. exists a. auto.
Qed.
Lemma min_timer_le : forall (l : list exch) h, min_timer l = Some h -> forall e, In e l -> h_due h <= h_due (e_timer e).
Proof.
  induction l as [|a l IH]; cbn; intros h H e Hin; [tauto|].
  destruct (min_timer l) as [h'|] eqn:M.
  - specialize (IH _ eq_refl). unfold timer_before in H.
    destruct ((h_due h' <? h_due (snd (snd a))) || ((h_due h' =? h_due (snd (snd a))) && (h_seq h' <? h_seq (snd (snd a))))) eqn:B; inv H.
    + destruct Hin as [<-|Hin]; [unfold e_timer; lia | auto].
    + destruct Hin as [<-|Hin]; [unfold e_timer; lia |]. specialize (IH _ Hin). unfold e_timer in *. lia.
  - inv H. destruct Hin as [<-|Hin]; [unfold e_timer; lia|]. destruct l; [inv Hin | cbn in M; destruct (min_timer l); [destruct (timer_before _ _)|]; discriminate].
Qed.
Lemma min_timer_none : forall (l : list exch), min_timer l = None -> l = [].
Proof. destruct l; cbn; auto. destruct (min_timer l); [destruct (timer_before _ _)|]; discriminate. Qed.
