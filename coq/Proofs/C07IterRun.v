(* C07 — what the async iterator yields in a run of the requester model (Model/C07.run), for EVERY op list: message items,
   then at most one end (clean stop or exception), then nothing.  Pipe events never yield; only loop runs do. *)
From Verif Require Import Lib.Py Lib.Tactics Model.C07 Proofs.C07.
Open Scope Z_scope.

Definition it1 (o : out) : list out := match o with OIt _ => [o] | OItStop => [o] | OItExn _ => [o] | _ => [] end.
Definition itf (l : list out) : list out := flat_map it1 l.
Lemma itf_app a b : itf (a ++ b) = itf a ++ itf b. Proof. apply flat_map_app. Qed.

Definition is_end (l : list out) : Prop := l = [OItStop] \/ exists e, l = [OItExn e].
(* shape of the iterator outputs of a piece of a run that starts with the iteration not over *)
Definition shape (fin' : bool) (l : list out) : Prop :=
  exists ids tail, l = map OIt ids ++ tail /\ (tail = [] \/ (is_end tail /\ fin' = true)).

Definition flags (it : iter) : bool * bool := (it_started it, it_finished it).

Lemma push_flags it x : flags (push it x) = flags it.
Proof. unfold push, flags. destruct (it_finished it) eqn:E; [rewrite E; reflexivity|]. destruct (it_w it); reflexivity. Qed.

Lemma npush_flags n x : forall it, flags (npush n it x) = flags it.
Proof. induction n as [|n IH]; intros it; cbn [npush]; [reflexivity|]. rewrite IH. apply push_flags. Qed.
Lemma itf_observers (mk : Z -> out) l : (forall k, it1 (mk k) = []) -> itf (map mk l) = [].
Proof. intros H. induction l as [|k l IH]; [reflexivity|]. cbn. rewrite H. exact IH. Qed.

Lemma apply_actions_it : forall acts s, itf (aa_outs s acts) = [] /\ flags (s_iter (aa_sys s acts)) = flags (s_iter s).
Proof.
  apply (apply_actions_ind (fun s _ s' o _ => itf o = [] /\ flags (s_iter s') = flags (s_iter s))); [auto..|].
  intros s a acts s2 o2 r Ha [I1 I2]. rewrite itf_app, I1, I2, app_nil_r.
  destruct a; try discriminate Ha; cbn [act1]; try destruct (s_ended s); cbn [fst snd s_iter set_parts];
    rewrite ?itf_observers, ?npush_flags by reflexivity; auto.
Qed.

Lemma add_event_it s now ev : itf (snd (add_event s now ev)) = [] /\ flags (s_iter (fst (add_event s now ev))) = flags (s_iter s).
Proof.
  destruct (add_event_cases s now ev) as [(En & ->)|[(En & Er & ->)|(En & Er & ->)]]; [cbn; auto..|].
  unfold run_event. set (ra := Request_run _ _ _ _ now ev).
  destruct (apply_actions_it (snd ra) (set_runner s (fst ra))) as [N F].
  destruct (aa_raised _ _); [|destruct (ev_is_last ev && _)]; cbn [fst snd s_iter set_parts]; rewrite ?itf_app, N; auto.
Qed.

Lemma yield_it x : itf [yield x] = [yield x].
Proof. destruct x as [id|e]; [reflexivity|]. destruct e; reflexivity. Qed.
Lemma yield_msg x : is_err x = false -> exists id, yield x = OIt id.
Proof. destruct x as [id|e]; [intros _; exists id; reflexivity|discriminate]. Qed.
Lemma yield_err x : is_err x = true -> is_end [yield x].
Proof. destruct x as [|e]; [discriminate|]. intros _. unfold is_end. destruct e; cbn; eauto. Qed.

Lemma anext_drain_it it :
  (it_finished it = true -> snd (anext_drain it) = [] /\ fst (anext_drain it) = it)
  /\ (it_finished it = false -> shape (it_finished (fst (anext_drain it))) (itf (snd (anext_drain it))))
  /\ (it_started it = true -> it_started (fst (anext_drain it)) = true)
  /\ (it_started it = false -> anext_drain it = (it, [])).
Proof.
  destruct (anext_drain_cases it) as [->|(Hs & Hf & x & _ & C)].
  { cbn. repeat split; auto. intros _. exists [], []. auto. }
  rewrite Hs, Hf. split; [discriminate|]. split; [intros _|split; [intros _|discriminate]].
  - destruct C as [(Ex & ->)|[(Ex & _ & ->)|(Ex & y & _ & ->)]]; cbn [fst snd it_finished idle].
    + rewrite yield_it. exists [], [yield x]. split; [reflexivity|]. right. split; [apply yield_err; exact Ex|reflexivity].
    + destruct (yield_msg x Ex) as [id Hx]. rewrite yield_it, Hx. exists [id], []. auto.
    + destruct (yield_msg x Ex) as [id Hx]. change [yield x; yield y] with ([yield x] ++ [yield y]). rewrite itf_app, !yield_it, Hx.
      destruct (is_err y) eqn:Ey.
      * exists [id], [yield y]. split; [reflexivity|]. right. split; [apply yield_err; exact Ey|reflexivity].
      * destruct (yield_msg y Ey) as [id2 Hy]. rewrite Hy. exists [id; id2], []. auto.
  - destruct C as [(_ & ->)|[(_ & _ & ->)|(_ & y & _ & ->)]]; reflexivity.
Qed.

(* per op: if the iteration is over nothing is yielded any more; otherwise message items, then at most one end *)
Definition fin (s : sys) : bool := it_finished (s_iter s).
Definition started_if_finished (s : sys) : Prop := it_finished (s_iter s) = true -> it_started (s_iter s) = true.
Definition itstep (s : sys) (outs : list out) (s' : sys) : Prop :=
  (fin s = true -> itf outs = [] /\ fin s' = true) /\ (fin s = false -> shape (fin s') (itf outs)) /\ started_if_finished s'.

Lemma itstep_silent s outs s' : itf outs = [] -> flags (s_iter s') = flags (s_iter s) -> started_if_finished s -> itstep s outs s'.
Proof.
  intros N F W. unfold itstep, fin, started_if_finished, flags in *. inversion F as [[F1 F2]]. rewrite N, F1, F2.
  repeat split; auto. intros _. exists [], []. auto.
Qed.

Lemma drain_it s : started_if_finished s -> itstep s (snd (drain s)) (fst (drain s)).
Proof.
  intros W. unfold itstep, drain, fin, started_if_finished in *. destruct (anext_drain_it (s_iter s)) as (A & B & C & D).
  destruct (anext_drain (s_iter s)) as [it' outs] eqn:E. cbn [fst snd s_iter set_parts] in *. split; [|split].
  - intros H. destruct (A H) as [A1 A2]. subst. split; [reflexivity|exact H].
  - exact B.
  - intros F. destruct (it_started (s_iter s)) eqn:S; [apply C; reflexivity|]. specialize (D eq_refl). inversion D; subst. rewrite F in W. discriminate (W eq_refl).
Qed.

Lemma registered_observer_it s k : itf (snd (registered s (s_iter s) (LObserver k))) = []
  /\ s_iter (fst (registered s (s_iter s) (LObserver k))) = s_iter s.
Proof.
  rewrite registered_eq. destruct (cancelled (s_obs s)); [|destruct (latest_response (s_obs s))]; cbn; auto.
Qed.
Lemma registered_iterator_it s : let r := registered s idle LIterator in
  it_started (s_iter (fst r)) = true
  /\ ((it_finished (s_iter (fst r)) = false /\ itf (snd r) = []) \/ (it_finished (s_iter (fst r)) = true /\ snd r = [OItExn TypeError])).
Proof.
  cbv zeta. rewrite registered_eq.
  destruct (cancelled (s_obs s)); [destruct (cancellation_reason (s_obs s))|destruct (latest_response (s_obs s))]; cbn; auto.
Qed.

Lemma step_it s o : started_if_finished s -> itstep s (snd (step s o)) (fst (step s o)).
Proof.
  intros W. destruct o as [now ev| | |k| |].
  - destruct (add_event_it s now ev) as [N F]. apply itstep_silent; assumption.
  - cbn [step]. destruct (negb (s_has_obs s)); [|destruct (cancelled (s_obs s))]; apply itstep_silent; auto.
  - rewrite step_cancel_resp. destruct (s_resp s); [|apply drain_it; exact W..].
    pose proof (drain_it (resp_cancelled s) W) as D. unfold itstep in *. cbn [fst snd]. rewrite itf_app.
    replace (itf (cancel_outs s)) with (@nil out) by (unfold cancel_outs; destruct (s_ended s); reflexivity). exact D.
  - rewrite step_register. destruct (negb (s_has_obs s)); [apply itstep_silent; auto|].
    destruct (registered_observer_it s k) as [N E]. apply itstep_silent; [exact N|rewrite E; reflexivity|exact W].
  - rewrite step_iter. destruct (negb (s_has_obs s) || it_started (s_iter s)) eqn:Eg; [apply drain_it; exact W|].
    apply orb_false_iff in Eg as [_ Es].
    assert (Ef : fin s = false). { unfold fin, started_if_finished in *. destruct (it_finished (s_iter s)); auto. rewrite W in Es by reflexivity. discriminate. }
    set (r := registered s idle LIterator). cbn [fst snd]. unfold itstep. rewrite Ef, itf_app.
    split; [discriminate|]. destruct (registered_iterator_it s) as [F1 F]; fold r in F1, F.
    assert (W2 : started_if_finished (fst r)) by (intros _; exact F1). destruct (drain_it (fst r) W2) as (A & B & C).
    split; [intros _|exact C]. destruct F as [[F2 N]|[F2 N]]; rewrite N.
    + apply B. exact F2.
    + destruct (A F2) as [A1 A2]. rewrite A1, A2.
      exists [], [OItExn TypeError]. split; [reflexivity|]. right. split; [right; eauto|reflexivity].
  - apply drain_it. exact W.
Qed.

Lemma shape_weaken f l : shape f l -> exists ids tail, l = map OIt ids ++ tail /\ (tail = [] \/ is_end tail).
Proof. intros (ids & tail & E & [T|[T _]]); exists ids, tail; auto. Qed.

Lemma run_it : forall ops s, started_if_finished s ->
  (fin s = true -> itf (concat (run s ops)) = [])
  /\ (fin s = false -> exists ids tail, itf (concat (run s ops)) = map OIt ids ++ tail /\ (tail = [] \/ is_end tail)).
Proof.
  induction ops as [|o ops IH]; intros s W; [cbn; split; auto; intros _; exists [], []; auto|].
  cbn [run]. destruct (step_it s o W) as (A & B & C). destruct (step s o) as [s' outs]. cbn [fst snd concat] in *.
  destruct (IH s' C) as [I1 I2]. rewrite itf_app. split.
  - intros F. destruct (A F) as [A1 A2]. rewrite A1, (I1 A2). reflexivity.
  - intros F. destruct (B F) as (ids & tail & E & T). rewrite E. destruct T as [->|[T Fe]].
    + rewrite app_nil_r. destruct (fin s') eqn:Fs.
      * rewrite (I1 eq_refl), app_nil_r. exists ids, []. rewrite app_nil_r. auto.
      * destruct (I2 eq_refl) as (ids2 & tail2 & E2 & T2). rewrite E2. exists (ids ++ ids2), tail2. rewrite map_app, app_assoc. auto.
    + rewrite (I1 Fe), app_nil_r. exists ids, tail. auto.
Qed.
