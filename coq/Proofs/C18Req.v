(* C18 — the link between what the application has submitted and TokenManager.outgoing_requests (Model/C18.v):
   in every reachable state, a client request that has not been settled yet (no response / failure / cancellation,
   and for an observation no end) has its entry in outgoing_requests — the table that shutdown fails entry by entry —
   or is still in [resolving] (Context.request's remote lookup). *)
From Verif Require Import Lib.Py Lib.PyLemmas Lib.Tactics Model.C18 Proofs.C18 Proofs.C18Inv.
Open Scope Z_scope.

(* output o settles the request q (observe flag ob): response future done for a plain request, observation ended
   (or request failed / cancelled before it started) for an observation *)
Definition settles (ob : bool) (q : Z) (o : output) : bool :=
  match o with
  | OFail q' _ | OCancelled q' => q =? q'
  | OResp q' _ _ => negb ob && (q =? q')
  | OObsEnd q' _ => ob && (q =? q')
  | _ => false
  end.
(* well-formedness of outgoing_requests: an entry whose observation is running belongs to an observe request; request
   labels and (token, remote) keys are unique; tokens were issued by this manager's counter *)
Definition okey (o : oreq) : Z * Z := (o_tok o, o_remote o).
Definition rlabel (x : Z * Z * mtype * bool) : Z := fst (fst (fst x)).
Record TI (s : tmst) : Prop := {
  ti_fo : forall o, In o (olist s) -> o_first o = true -> o_observe o = true;
  ti_q : NoDup (map o_q (olist s));
  ti_key : NoDup (map okey (olist s));
  ti_tok : forall o, In o (olist s) -> o_tok o <= token s;
  ti_pos : 0 <= token s;
  (* requests still looking for their remote: distinct labels, not in the table yet *)
  ti_r : NoDup (map rlabel (resolving s));
  ti_d : forall q, In q (map o_q (olist s)) -> ~ In q (map rlabel (resolving s)) }.
Definition settled (out : list output) (ob : bool) (q : Z) : Prop := exists o, In o out /\ settles ob q o = true.
Lemma settled_incl out out' ob q : incl out out' -> settled out ob q -> settled out' ob q.
Proof. intros Inc (o & I & S). exists o. split; [apply Inc; exact I|exact S]. Qed.
Lemma settled_app_l out out' ob q : settled out ob q -> settled (out ++ out') ob q.
Proof. apply settled_incl, incl_appl, incl_refl. Qed.
Lemma settled_app_r out out' ob q : settled out' ob q -> settled (out ++ out') ob q.
Proof. apply settled_incl, incl_appr, incl_refl. Qed.

Definition kept (b : tmst) (out : list output) (e : oreq) : Prop :=
  (exists e', In e' (olist b) /\ o_q e' = o_q e /\ o_observe e' = o_observe e) \/ settled out (o_observe e) (o_q e).
(* from a to b with outputs [out]: TI stays, no token drawn, no new label, every entry kept or settled *)
Definition keeps (a b : tmst) (out : list output) : Prop :=
  TI a -> TI b /\ token b = token a /\ resolving b = resolving a /\ incl (map o_q (olist b)) (map o_q (olist a)) /\
  forall e, In e (olist a) -> kept b out e.

Lemma keeps_same a b out : olist b = olist a -> token b = token a -> resolving b = resolving a -> keeps a b out.
Proof.
  intros E T R [F Q K Tk P Rn Rd]. split; [constructor; rewrite ?E, ?T, ?R; assumption|]. split; [exact T|]. split; [exact R|]. split; [rewrite E; apply incl_refl|].
  intros e I. left. exists e. rewrite E. auto.
Qed.
Lemma keeps_refl a out : keeps a a out. Proof. apply keeps_same; reflexivity. Qed.

(* the two shapes of an update of the table *)
Lemma TI_filter a b p : TI a -> olist b = filter p (olist a) -> token b = token a -> resolving b = resolving a ->
  TI b /\ incl (map o_q (olist b)) (map o_q (olist a)).
Proof.
  intros [F Q K Tk P Rn Rd] E T R. split; [|rewrite E; exact (incl_map o_q (incl_filter p _))].
  constructor; rewrite ?E, ?T, ?R; auto using NoDup_map_filter.
  - intros o I. apply filter_In in I. apply F. tauto.
  - intros o I. apply filter_In in I. apply Tk. tauto.
  - intros q I. apply Rd. exact (incl_map o_q (incl_filter p _) q I).
Qed.
Lemma keeps_filter a b p out : olist b = filter p (olist a) -> token b = token a -> resolving b = resolving a ->
  (TI a -> forall x, In x (olist a) -> p x = false -> settled out (o_observe x) (o_q x)) ->
  keeps a b out.
Proof.
  intros E T R S Ta. destruct (TI_filter a b p Ta E T R) as [Tb Lb].
  split; [exact Tb|split; [exact T|split; [exact R|split; [exact Lb|]]]].
  intros x Ix. destruct (p x) eqn:Px; [left|right; exact (S Ta x Ix Px)].
  exists x. split; [|auto]. rewrite E. apply filter_In. auto.
Qed.
Lemma oreq_is_unique s tok r x o : TI s -> In x (olist s) -> In o (olist s) ->
  oreq_is tok r x = true -> oreq_is tok r o = true -> x = o.
Proof.
  intros Ta Ix Io Kx Ko. apply (NoDup_map_inj_in okey (olist s)); [exact (ti_key _ Ta)|exact Ix|exact Io|].
  unfold oreq_is in *. apply andb_true_iff in Kx, Ko. rewrite !Z.eqb_eq in *. unfold okey. destruct Kx, Ko. congruence.
Qed.
Lemma keeps_update a b tok r o o' out : In o (olist a) -> oreq_is tok r o = true ->
  olist b = map (fun x => if oreq_is tok r x then o' else x) (olist a) -> token b = token a -> resolving b = resolving a ->
  o_q o' = o_q o -> o_observe o' = o_observe o -> o_tok o' = o_tok o -> o_remote o' = o_remote o ->
  (o_first o' = true -> o_observe o' = true) -> keeps a b out.
Proof.
  intros Io Ko E T R Eq Eo Et Er Fo' Ta.
  assert (Same : forall x, In x (olist a) -> oreq_is tok r x = true -> x = o)
    by (intros x Ix Kx; exact (oreq_is_unique a tok r x o Ta Ix Io Kx Ko)).
  assert (M : forall B (f : oreq -> B), f o' = f o -> map f (olist b) = map f (olist a)).
  { intros B f Ef. rewrite E, map_map. apply map_ext_in. intros x Ix. destruct (oreq_is tok r x) eqn:Kx; [|reflexivity]. rewrite (Same x Ix Kx). exact Ef. }
  pose proof (M _ o_q Eq) as Mq. assert (Mk : map okey (olist b) = map okey (olist a)) by (apply M; unfold okey; congruence).
  split; [|split; [exact T|split; [exact R|split; [rewrite Mq; apply incl_refl|]]]].
  - destruct Ta as [F Q K Tk P Rn Rd]. constructor; rewrite ?Mq, ?Mk, ?T, ?R; auto;
      intros x Ix; rewrite E in Ix; apply in_map_iff in Ix; destruct Ix as (y & Ey & Iy); destruct (oreq_is tok r y); subst x.
    + exact Fo'.
    + apply F; exact Iy.
    + rewrite Et. apply Tk. exact Io.
    + apply Tk. exact Iy.
  - intros x Ix. left. exists (if oreq_is tok r x then o' else x). split; [rewrite E; exact (in_map (fun x => if oreq_is tok r x then o' else x) _ _ Ix)|].
    destruct (oreq_is tok r x) eqn:Kx; [rewrite (Same x Ix Kx)|]; auto.
Qed.

Lemma request_run_spec t o ev : (o_first o = true -> o_observe o = true) ->
  match ev with EvMsg m false => m_obs m <> None | _ => True end ->
  match request_run t o ev with
  | (Some o', _) => o_q o' = o_q o /\ o_observe o' = o_observe o /\ (o_first o' = true -> o_observe o' = true) /\
                    o_tok o' = o_tok o /\ o_remote o' = o_remote o
  | (None, out) => settled out (o_observe o) (o_q o)
  end.
Proof.
  intros Hf Hev. unfold request_run. destruct (o_first o) eqn:F; cbn [negb].
  - specialize (Hf eq_refl). destruct ev as [m last|e].
    + destruct (m_obs m) as [v2|] eqn:Ob.
      * destruct (is_recent (o_v1 o) (o_t1 o) v2 t); destruct last; cbn; try (rewrite Hf; auto 6; fail).
        -- eexists. split; [right; left; reflexivity|cbn; rewrite Hf, Z.eqb_refl; reflexivity].
        -- eexists. split; [left; reflexivity|cbn; rewrite Hf, Z.eqb_refl; reflexivity].
      * destruct last; [|congruence]. eexists. split; [right; left; reflexivity|cbn; rewrite Hf, Z.eqb_refl; reflexivity].
    + eexists. split; [left; reflexivity|cbn; rewrite Hf, Z.eqb_refl; reflexivity].
  - destruct ev as [m last|e].
    + destruct (o_observe o) eqn:Ob; cbn [negb].
      * destruct last.
        -- eexists. split; [right; left; reflexivity|cbn; rewrite Z.eqb_refl; reflexivity].
        -- destruct (m_obs m); [cbn; auto 6|congruence].
      * eexists. split; [left; reflexivity|cbn; rewrite Z.eqb_refl; reflexivity].
    + eexists. split; [left; reflexivity|cbn; rewrite Z.eqb_refl; reflexivity].
Qed.
Lemma request_run_exc t o e : (o_first o = true -> o_observe o = true) ->
  settled (snd (request_run t o (EvExc e))) (o_observe o) (o_q o).
Proof.
  intro Hf. pose proof (request_run_spec t o (EvExc e) Hf I) as H.
  unfold request_run in *. destruct (o_first o); cbn [negb] in *; exact H.
Qed.

Lemma olist_some s os : outgoing s = Some os -> olist s = os.
Proof. intro E. unfold olist. rewrite E. reflexivity. Qed.

Lemma add_exception_keeps t s q e : keeps s (fst (add_exception t s q e)) (snd (add_exception t s q e)).
Proof.
  unfold add_exception. destruct (outgoing s) as [os|] eqn:E; [|apply keeps_refl]. pose proof (olist_some _ _ E) as <-.
  destruct (find (fun o => o_q o =? q) (olist s)) as [o|] eqn:F; [|apply keeps_refl].
  apply find_some in F. destruct F as [Io Qo]. apply Z.eqb_eq in Qo.
  destruct (request_run t o (EvExc e)) as [keep out] eqn:R. cbn [fst snd].
  apply (keeps_filter s _ (fun o => negb (o_q o =? q))); try reflexivity.
  intros Ta x Ix Px. apply negb_false_iff, Z.eqb_eq in Px.
  assert (x = o) by (apply (NoDup_map_inj_in o_q (olist s)); [exact (ti_q _ Ta)| | |congruence]; assumption). subst x.
  pose proof (request_run_exc t o e (ti_fo _ Ta o Io)) as S. rewrite R in S. exact S.
Qed.

Lemma fail_requests_spec t r e : forall os,
  fst (fail_requests t os r e) = filter (fun o => negb (o_remote o =? r)) os /\
  forall x, In x os -> o_remote x = r -> (o_first x = true -> o_observe x = true) ->
    settled (snd (fail_requests t os r e)) (o_observe x) (o_q x).
Proof.
  induction os as [|o rest [IH1 IH2]]; cbn [fail_requests filter]; [split; [reflexivity|intros x []]|].
  destruct (fail_requests t rest r e) as [rest' out'] eqn:R. cbn [fst snd] in *.
  destruct (o_remote o =? r) eqn:Q; cbn [negb fst snd].
  - split; [exact IH1|]. intros x [->|Ix] Hr Fx.
    + apply settled_app_l. exact (request_run_exc t x e Fx).
    + apply settled_app_r. exact (IH2 x Ix Hr Fx).
  - split; [f_equal; exact IH1|]. intros x [->|Ix] Hr Fx; [apply Z.eqb_neq in Q; congruence|exact (IH2 x Ix Hr Fx)].
Qed.

Lemma tm_dispatch_error_keeps t s e r : keeps s (fst (tm_dispatch_error t s e r)) (snd (tm_dispatch_error t s e r)).
Proof.
  unfold tm_dispatch_error. destruct (outgoing s) as [os|] eqn:E; [|apply keeps_refl]. pose proof (olist_some _ _ E) as <-.
  destruct (incoming s) as [is_|]; [|apply keeps_refl].
  pose proof (fail_requests_spec t r e (olist s)) as [S1 S2]. destruct (fail_requests t (olist s) r e) as [os' o1]. cbn [fst snd] in *. subst os'.
  apply (keeps_filter s _ (fun o => negb (o_remote o =? r))); try reflexivity.
  intros Ta x Ix Px. apply negb_false_iff, Z.eqb_eq in Px.
  apply settled_app_l. exact (S2 x Ix Px (ti_fo _ Ta x Ix)).
Qed.

Lemma tm_process_response_keeps t s m :
  keeps s (fst (fst (tm_process_response t s m))) (snd (fst (tm_process_response t s m))).
Proof.
  unfold tm_process_response. destruct (outgoing s) as [os|] eqn:E; [|apply keeps_refl]. pose proof (olist_some _ _ E) as <-.
  destruct (find (oreq_is (m_token m) (m_remote m)) (olist s)) as [o|] eqn:F; [|apply keeps_refl].
  apply find_some in F. destruct F as [Io Ko].
  set (final := negb (o_observe o && match m_obs m with Some _ => true | None => false end)).
  assert (Hev : match EvMsg m final with EvMsg m0 false => m_obs m0 <> None | _ => True end).
  { cbn. destruct final eqn:Fi; [exact I|]. unfold final in Fi. destruct (m_obs m); [discriminate|]. rewrite andb_false_r in Fi. discriminate. }
  intro Ta. pose proof (request_run_spec t o (EvMsg m final) (ti_fo _ Ta o Io) Hev) as Sp. revert Ta.
  destruct (request_run t o (EvMsg m final)) as [[o'|] out]; cbn [fst snd].
  - destruct Sp as (Eq & Eo & Fo' & Et & Er). apply (keeps_update s _ (m_token m) (m_remote m) o o'); auto.
  - apply (keeps_filter s _ (fun x => negb (oreq_is (m_token m) (m_remote m) x))); try reflexivity.
    intros Ta x Ix Px. apply negb_false_iff in Px. rewrite (oreq_is_unique s _ _ x o Ta Ix Io Px Ko). exact Sp.
Qed.

Lemma client_cancel_keeps s q : keeps s (fst (client_cancel s q)) (snd (client_cancel s q)).
Proof.
  unfold client_cancel. destruct (outgoing s) as [os|] eqn:E; [|apply keeps_refl]. pose proof (olist_some _ _ E) as <-.
  destruct (find (fun o => o_q o =? q) (olist s)) as [o|]; [|apply keeps_refl].
  destruct (o_first o); [apply keeps_refl|]. cbn [fst snd].
  apply (keeps_filter s _ (fun o => negb (o_q o =? q))); try reflexivity.
  intros _ x _ Px. apply negb_false_iff in Px. exists (OCancelled q). split; [left; reflexivity|exact Px].
Qed.

Lemma tm_shutdown_outgoing_keeps t s : keeps s (fst (tm_shutdown_outgoing t s)) (snd (tm_shutdown_outgoing t s)).
Proof.
  unfold tm_shutdown_outgoing. destruct (outgoing s) as [os|] eqn:E; [|apply keeps_refl]. pose proof (olist_some _ _ E) as <-.
  cbn [fst snd]. apply (keeps_filter s _ (fun _ => false)); try reflexivity; [clear E; induction (olist s) as [|o l IH]; [reflexivity|exact IH]|].
  intros Ta x Ix _. destruct (request_run_exc t x LibraryShutdown (ti_fo _ Ta x Ix)) as (y & Iy & Sy).
  exists y. split; [apply in_flat_map; exists x; auto|exact Sy].
Qed.

Lemma stop_keeps s h out : keeps s (fst (stop s h)) out.
Proof. unfold stop. destruct (incoming s) as [l|]; [|apply keeps_refl]. destruct (existsb _ l); [apply keeps_same; reflexivity|apply keeps_refl]. Qed.
Lemma call_monitor_keeps t s mon : keeps s (fst (call_monitor t s mon)) (snd (call_monitor t s mon)).
Proof. destruct mon; cbn [call_monitor]; [apply add_exception_keeps|apply stop_keeps|apply keeps_refl]. Qed.
Lemma tm_process_request_keeps s m out : keeps s (fst (tm_process_request s m)) out.
Proof. unfold tm_process_request. destruct (incoming s); [apply keeps_same; reflexivity|apply keeps_refl]. Qed.
Lemma tm_shutdown_incoming_keeps s out : keeps s (fst (tm_shutdown_incoming s)) out.
Proof. unfold tm_shutdown_incoming. destruct (incoming s); [apply keeps_same; reflexivity|apply keeps_refl]. Qed.

Lemma tm_move_keeps a b out : tm_move a b out -> keeps a b out.
Proof.
  intros [t s mon|t s e r|s m|t s m|s q|s h l I].
  - (* tv_monitor *) apply call_monitor_keeps.
  - (* tv_error *) apply tm_dispatch_error_keeps.
  - (* tv_request *) apply tm_process_request_keeps.
  - (* tv_response *) apply tm_process_response_keeps.
  - (* tv_cancel *) apply client_cancel_keeps.
  - (* tv_end *) apply keeps_same; reflexivity.
Qed.

Lemma TI_add a b fr : TI a -> olist b = olist a ++ [fr] -> resolving b = resolving a -> token b = o_tok fr -> token a < o_tok fr ->
  o_first fr = false -> ~ In (o_q fr) (map o_q (olist a)) -> ~ In (o_q fr) (map rlabel (resolving a)) -> TI b.
Proof.
  intros [F Q K Tk P Rn Rd] E R T Lt Ff Nq Nr. constructor; rewrite ?E, ?R, ?T, ?map_app; cbn [map].
  - intros o I. apply in_app_or in I. destruct I as [I|[<-|[]]]; [apply F; exact I|congruence].
  - apply NoDup_snoc; assumption.
  - apply NoDup_snoc; [exact K|]. intro I. apply in_map_iff in I. destruct I as (x & Hx & Ix).
    inversion Hx. pose proof (Tk x Ix). lia.
  - intros o I. apply in_app_or in I. destruct I as [I|[<-|[]]]; [pose proof (Tk o I); lia|lia].
  - lia.
  - exact Rn.
  - intros q0 I. apply in_app_or in I. destruct I as [I|[<-|[]]]; [apply Rd; exact I|exact Nr].
Qed.

Definition reqs_of (es : list event) : list (Z * bool) :=
  flat_map (fun e => match e with ClientRequest q _ _ ob | ClientRequestSlow q _ _ ob => [(q, ob)] | _ => [] end) es.
(* a submitted request is in the table, or settled, or still looking for its remote *)
Definition tracked (L : list (Z * bool)) (b : tmst) (outs : list output) : Prop :=
  forall q ob, In (q, ob) L ->
    (exists e, In e (olist b) /\ o_q e = q /\ o_observe e = ob) \/ (exists o, In o outs /\ settles ob q o = true) \/
    (exists x, In x (resolving b) /\ rlabel x = q /\ snd x = ob).
Definition labels (s : tmst) : list Z := map o_q (olist s) ++ map rlabel (resolving s).
Definition draws (e : event) : Z := match e with ClientRequest _ _ _ _ | Resolved _ => 1 | _ => 0 end.

(* [tracked] for one request *)
Definition accounted (b : tmst) (outs : list output) (q : Z) (ob : bool) : Prop :=
  (exists e, In e (olist b) /\ o_q e = q /\ o_observe e = ob) \/ settled outs ob q \/
  (exists x, In x (resolving b) /\ rlabel x = q /\ snd x = ob).

Lemma tracked_accounted L b outs : tracked L b outs <-> forall q ob, In (q, ob) L -> accounted b outs q ob.
Proof. reflexivity. Qed.

Lemma accounted_step a b outs out q ob : accounted a outs q ob -> (forall e, In e (olist a) -> kept b out e) ->
  (forall x, In x (resolving a) -> rlabel x = q -> In x (resolving b)) -> accounted b (outs ++ out) q ob.
Proof.
  intros [(e & Ie & Eq & Eo)|[S|(x & Ix & X)]] K R.
  - destruct (K e Ie) as [(e' & Ie' & Eq' & Eo')|S].
    + left. exists e'. split; [exact Ie'|split; congruence].
    + right. left. apply settled_app_r. rewrite <- Eq, <- Eo. exact S.
  - right. left. apply settled_app_l. exact S.
  - right. right. exists x. split; [exact (R x Ix (proj1 X))|exact X].
Qed.
(* labels of the tables are among the submitted ones, so a new label is fresh *)
Definition linked (L : list (Z * bool)) (s : tmst) (outs : list output) : Prop :=
  TI s /\ incl (labels s) (map fst L) /\ tracked L s outs.

Lemma linked_keeps L a b outs out : linked L a outs -> keeps a b out -> linked L b (outs ++ out) /\ token b = token a.
Proof.
  intros (Ta & Lab & Tr) K. apply tracked_accounted in Tr. destruct (K Ta) as (Tb & T & R & Lb & Kb).
  split; [|exact T]. split; [exact Tb|]. split; [|apply tracked_accounted; intros q ob I; apply (accounted_step a); [exact (Tr q ob I)|exact Kb|intros x Ix _; rewrite R; exact Ix]].
  unfold labels. rewrite R. exact (incl_tran (incl_app (incl_appl _ Lb) (incl_appr _ (incl_refl _))) Lab).
Qed.

Lemma linked_out L s outs out : linked L s outs -> linked L s (outs ++ out).
Proof. intro H. exact (proj1 (linked_keeps L s s outs out H (keeps_refl s out))). Qed.

Lemma linked_shutdown L s outs : linked L (tm s) outs ->
  linked L (tm (fst (shutdown s))) (outs ++ snd (shutdown s)) /\ token (tm (fst (shutdown s))) = token (tm s).
Proof.
  intro H. unfold shutdown.
  destruct (linked_keeps L _ _ outs (snd (tm_shutdown_incoming (tm s))) H (tm_shutdown_incoming_keeps _ _)) as [H1 T1].
  destruct (tm_shutdown_incoming (tm s)) as [tm1 o1]. cbn [fst snd] in *.
  destruct (linked_keeps L _ _ _ _ H1 (tm_shutdown_outgoing_keeps (now (mm s)) tm1)) as [H2 T2].
  destruct (tm_shutdown_outgoing (now (mm s)) tm1) as [tm2 o2]. destruct (mm_shutdown (mm s)) as [mm1 o3]. cbn [fst snd tm] in *.
  split; [|congruence]. rewrite !app_assoc. apply linked_out, linked_out. exact H2.
Qed.

(* L: the submitted requests after the event — (q, ob) appended for ClientRequest; for Resolved unchanged, (q, ob) being
   the entry that leaves [resolving] *)
Lemma tm_request_linked L s q r mt ob outs : TI (tm s) -> incl (labels (tm s)) (map fst L) -> ~ In q (labels (tm s)) ->
  In q (map fst L) -> token (tm s) + 1 < 2 ^ 64 ->
  (forall q0 ob0, In (q0, ob0) L -> (q0, ob0) = (q, ob) \/ accounted (tm s) outs q0 ob0) ->
  linked L (tm (fst (tm_request s q r mt ob))) (outs ++ snd (tm_request s q r mt ob)) /\
  token (tm (fst (tm_request s q r mt ob))) <= token (tm s) + 1.
Proof.
  intros Ta Lab Fresh InL Bound Acc. unfold tm_request. destruct (outgoing (tm s)) as [os|] eqn:E.
  - pose proof (olist_some _ _ E) as <-. unfold next_token.
    rewrite (Z.mod_small (token (tm s) + 1) (2 ^ 64)) by (pose proof (ti_pos _ Ta); lia). cbn [fst snd].
    destruct (send_message _ _ _ _ _ _ _ _) as [mm1 out]. cbn [fst snd tm].
    set (fr := {| o_tok := token (tm s) + 1; o_remote := r; o_q := q; o_observe := ob; o_first := false; o_v1 := 0; o_t1 := 0 |}).
    set (b := tm_set_outgoing _ _). change (olist b) with (olist (tm s) ++ [fr]) in *.
    split; [|cbn; lia]. split; [|split].
    + apply (TI_add (tm s) b fr Ta); try reflexivity; [cbn; lia| |]; intro I; apply Fresh, in_or_app; auto.
    + unfold labels. change (olist b) with (olist (tm s) ++ [fr]). rewrite map_app, <- app_assoc.
      apply incl_app; [exact (incl_tran (incl_appl _ (incl_refl _)) Lab)|].
      apply incl_app; [intros x [<-|[]]; exact InL|exact (incl_tran (incl_appr _ (incl_refl _)) Lab)].
    + apply tracked_accounted. intros q0 ob0 I. destruct (Acc q0 ob0 I) as [Q|A].
      * inversion Q; subst. left. exists fr. split; [apply in_or_app; right; left; reflexivity|auto].
      * apply (accounted_step (tm s)); [exact A| |auto]. intros e Ie. left. exists e. split; [apply in_or_app; left; exact Ie|auto].
  - cbn [fst snd]. split; [|lia]. split; [exact Ta|split; [exact Lab|]].
    apply tracked_accounted. intros q0 ob0 I. destruct (Acc q0 ob0 I) as [Q|A].
    + inversion Q; subst. right. left. apply settled_app_r. exists (OFail q LibraryShutdown). split; [left; reflexivity|cbn; apply Z.eqb_refl].
    + apply (accounted_step (tm s)); [exact A| |auto]. intros e Ie. left. exists e. auto.
Qed.

Lemma linked_request L s q r mt ob outs : linked L (tm s) outs -> ~ In q (map fst L) -> token (tm s) + 1 < 2 ^ 64 ->
  linked (L ++ [(q, ob)]) (tm (fst (tm_request s q r mt ob))) (outs ++ snd (tm_request s q r mt ob)) /\
  token (tm (fst (tm_request s q r mt ob))) <= token (tm s) + 1.
Proof.
  intros (Ta & Lab & Tr) NL Bound. apply tracked_accounted in Tr. apply tm_request_linked; rewrite ?map_app; [exact Ta| | | |exact Bound|].
  - exact (incl_tran Lab (incl_appl _ (incl_refl _))).
  - intro I. exact (NL (Lab q I)).
  - apply in_or_app. right. left. reflexivity.
  - intros q0 ob0 I. apply in_app_or in I. destruct I as [I|[I|[]]]; [right; exact (Tr q0 ob0 I)|left; symmetry; exact I].
Qed.

(* ClientRequestSlow: the request waits in Context.request's send() task *)
Lemma linked_slow L s q r mt ob outs : linked L s outs -> ~ In q (map fst L) ->
  linked (L ++ [(q, ob)]) (tm_set_resolving s (resolving s ++ [(q, r, mt, ob)])) outs.
Proof.
  intros ([F Q K Tk P Rn Rd] & Lab & Tr) NL. apply tracked_accounted in Tr. split; [|split].
  - constructor; cbn; try assumption.
    + rewrite map_app. apply NoDup_snoc; [exact Rn|]. intro I. apply NL, Lab, in_or_app. right. exact I.
    + intros q0 I J. rewrite map_app in J. apply in_app_or in J. destruct J as [J|[<-|[]]]; [exact (Rd q0 I J)|].
      apply NL, Lab, in_or_app. left. exact I.
  - unfold labels. cbn. rewrite !map_app, app_assoc. exact (incl_app (incl_appl _ Lab) (incl_appr _ (incl_refl _))).
  - apply tracked_accounted. intros q0 ob0 I. apply in_app_or in I. destruct I as [I|[I|[]]].
    + rewrite <- (app_nil_r outs). apply (accounted_step s); [exact (Tr q0 ob0 I)|intros e Ie; left; exists e; auto|].
      intros x Ix _. apply in_or_app. left. exact Ix.
    + inversion I; subst. right. right. exists (q0, r, mt, ob0). split; [apply in_or_app; right; left; reflexivity|auto].
Qed.

Lemma rlabel_filtered q (l : list (Z * Z * mtype * bool)) : ~ In q (map rlabel (filter (fun x => negb (fst (fst (fst x)) =? q)) l)).
Proof.
  intro I. apply in_map_iff in I. destruct I as (x & Hx & I). apply filter_In in I. destruct I as [_ I].
  unfold rlabel in Hx. rewrite Hx, Z.eqb_refl in I. discriminate.
Qed.

(* Resolved: determine_remote returns; only now the token manager sees the request *)
Lemma linked_resolved L s q outs : linked L (tm s) outs -> token (tm s) + 1 < 2 ^ 64 ->
  linked L (tm (fst (step s (Resolved q)))) (outs ++ snd (step s (Resolved q))) /\
  token (tm (fst (step s (Resolved q)))) <= token (tm s) + 1.
Proof.
  intros (Ta & Lab & Tr) Bound. cbn [step].
  destruct (find (fun x => fst (fst (fst x)) =? q) (resolving (tm s))) as [[[[q0 r] mt] ob]|] eqn:Fd.
  2:{ cbn [fst snd]. rewrite app_nil_r. split; [exact (conj Ta (conj Lab Tr))|lia]. }
  apply find_some in Fd. destruct Fd as [Ix Qx]. apply Z.eqb_eq in Qx. cbn in Qx. subst q0.
  set (res' := filter (fun x => negb (fst (fst (fst x)) =? q)) (resolving (tm s))).
  pose proof (rlabel_filtered q (resolving (tm s))) as NotR. fold res' in NotR.
  assert (InR : In q (map rlabel (resolving (tm s)))) by (apply in_map_iff; exists (q, r, mt, ob); auto).
  assert (Sub : incl (map rlabel res') (map rlabel (resolving (tm s)))) by exact (incl_map rlabel (incl_filter _ _)).
  apply (tm_request_linked L {| tm := tm_set_resolving (tm s) res'; mm := mm s |}); cbn [tm mm]; [| | | |exact Bound|].
  - destruct Ta as [F Q K Tk P Rn Rd]. constructor; cbn; try assumption; [apply NoDup_map_filter; exact Rn|].
    intros q1 I J. exact (Rd q1 I (Sub q1 J)).
  - exact (incl_tran (incl_app (incl_appl _ (incl_refl _)) (incl_appr _ Sub)) Lab).
  - intro I. apply in_app_or in I. destruct I as [I|I]; [exact (ti_d _ Ta q I InR)|exact (NotR I)].
  - apply Lab, in_or_app. right. exact InR.
  - intros q0 ob0 I. destruct (proj1 (tracked_accounted _ _ _) Tr q0 ob0 I) as [A|[A|(x & Ixx & X1 & X2)]]; [right; left; exact A|right; right; left; exact A|].
    destruct (Z.eq_dec q0 q) as [->|Ne].
    + left. assert (x = (q, r, mt, ob)) by (apply (NoDup_map_inj_in rlabel (resolving (tm s))); [exact (ti_r _ Ta)|exact Ixx|exact Ix|rewrite X1; reflexivity]).
      subst x. cbn in X2. rewrite X2. reflexivity.
    + right. right. right. exists x. split; [|auto]. apply filter_In. split; [exact Ixx|].
      unfold rlabel in X1. rewrite X1. apply negb_true_iff, Z.eqb_neq. exact Ne.
Qed.

Lemma step_link s e L outs0 : linked L (tm s) outs0 -> token (tm s) + 1 < 2 ^ 64 -> NoDup (map fst (L ++ reqs_of [e])) ->
  linked (L ++ reqs_of [e]) (tm (fst (step s e))) (outs0 ++ snd (step s e)) /\ token (tm (fst (step s e))) <= token (tm s) + 1.
Proof.
  intros H Bound ND.
  assert (NL : forall q ob, reqs_of [e] = [(q, ob)] -> ~ In q (map fst L)).
  { intros q ob RQ I. rewrite RQ, map_app in ND. apply NoDup_remove_2 in ND. rewrite app_nil_r in ND. exact (ND I). }
  destruct (internal e) eqn:I.
  - assert (RQ : reqs_of [e] = []) by (destruct e; try discriminate I; reflexivity). rewrite RQ, app_nil_r.
    destruct (step_walk (fun t _ o => linked L t o /\ token t = token (tm s))) with (s := s) (e := e) (o := outs0) as [H1 T]; auto.
    + intros t _ o o' [A B]. split; [apply linked_out; exact A|exact B].
    + intros a b out _ o M [A B]. destruct (linked_keeps L a b o out A (tm_move_keeps a b out M)) as [A' B']. split; [exact A'|congruence].
    + split; [exact H1|lia].
  - destruct e; try discriminate I.
    + (* ClientRequest *) exact (linked_request L s q r mt observe outs0 H (NL q observe eq_refl) Bound).
    + (* ClientRequestSlow *) cbn [step fst snd tm]. rewrite app_nil_r. split; [exact (linked_slow L (tm s) q r mt observe outs0 H (NL q observe eq_refl))|cbn; lia].
    + (* Resolved *) cbn [reqs_of flat_map app]. rewrite app_nil_r. exact (linked_resolved L s q outs0 H Bound).
    + (* Shutdown *) cbn [step reqs_of flat_map app]. rewrite app_nil_r. destruct (linked_shutdown L s outs0 H) as [H1 T]. split; [exact H1|lia].
Qed.

Lemma NoDup_app_l {A} (l l' : list A) : NoDup (l ++ l') -> NoDup l.
Proof. induction l as [|x l IH]; cbn; intro H; [constructor|]. inversion H; subst. constructor; [intro I; apply H2; apply in_or_app; left; exact I|auto]. Qed.

Lemma run_link : forall es s L outs0, linked L (tm s) outs0 -> token (tm s) + Z.of_nat (length es) < 2 ^ 64 ->
  NoDup (map fst (L ++ reqs_of es)) -> linked (L ++ reqs_of es) (tm (fst (run s es))) (outs0 ++ concat (snd (run s es))).
Proof.
  induction es as [|e es IH]; intros s L outs0 H Bound ND; cbn [run].
  - cbn. rewrite !app_nil_r. exact H.
  - cbn [length] in Bound. rewrite Nat2Z.inj_succ in Bound.
    assert (RQ : reqs_of (e :: es) = reqs_of [e] ++ reqs_of es) by (unfold reqs_of; cbn; rewrite app_nil_r; reflexivity).
    rewrite RQ, app_assoc in *.
    assert (ND0 : NoDup (map fst (L ++ reqs_of [e]))) by (rewrite map_app in ND; apply NoDup_app_l in ND; exact ND).
    assert (B1 : token (tm s) + 1 < 2 ^ 64) by lia.
    destruct (step_link s e L outs0 H B1 ND0) as [H1 Tk1].
    destruct (step s e) as [s1 o]. cbn [fst snd] in *.
    assert (Bd1 : token (tm s1) + Z.of_nat (length es) < 2 ^ 64) by lia.
    pose proof (IH s1 (L ++ reqs_of [e]) (outs0 ++ o) H1 Bd1 ND) as H2.
    destruct (run s1 es) as [s2 os]. cbn [fst snd concat] in *. rewrite (app_assoc outs0 o (concat os)). exact H2.
Qed.

Lemma linked_init u m t : 0 <= t -> linked [] (tm (init u m t)) [].
Proof.
  intro P. split; [|split; [intros x []|intros q ob []]]. constructor; cbn; try constructor; try tauto; try exact P.
Qed.

(* in every reachable state of a context, a submitted request is settled, or has its entry in outgoing_requests, or is
   still inside Context.request's remote lookup *)
Theorem unsettled_requests_are_outstanding : forall es u m t,
  NoDup (map fst (reqs_of es)) -> 0 <= t -> t + Z.of_nat (length es) < 2 ^ 64 ->
  TI (tm (fst (run (init u m t) es))) /\ tracked (reqs_of es) (tm (fst (run (init u m t) es))) (concat (snd (run (init u m t) es))).
Proof.
  intros es u m t ND P B. destruct (run_link es (init u m t) [] [] (linked_init u m t P) B ND) as (Ti & _ & Tr). exact (conj Ti Tr).
Qed.

Definition lib_outcome (o : output) : bool :=
  match o with
  | OHCancel _ | OShutdownDone | OFail _ LibraryShutdown | OObsEnd _ LibraryShutdown | OObsEnd _ NotObservable => true
  | _ => false
  end.
Lemma shutdown_outcome_lib o : forallb lib_outcome (shutdown_outcome o) = true.
Proof. unfold shutdown_outcome. destruct (o_first o); [reflexivity|]. destruct (o_observe o); reflexivity. Qed.
Lemma forallb_flat_map {A B} (p : B -> bool) (f : A -> list B) l : (forall x, forallb p (f x) = true) -> forallb p (flat_map f l) = true.
Proof. intro H. induction l as [|x l IH]; cbn; [reflexivity|]. rewrite forallb_app, H, IH. reflexivity. Qed.

(* Shutdown once, distinct labels, no token wrap: start value + number of events (each draws at most one) < 2^64 *)
Definition wf_history (t : Z) (before after : list event) : Prop :=
  forallb not_shutdown before = true /\ forallb in_scope after = true /\
  NoDup (map fst (reqs_of before)) /\ 0 <= t /\ t + Z.of_nat (length before) < 2 ^ 64.

Theorem shutdown_at_any_moment : forall u m t before after, wf_history t before after ->
  let s := fst (run (init u m t) before) in
  let outs := concat (snd (run (init u m t) before)) in
  let s' := fst (step s Shutdown) in
  let out := snd (step s Shutdown) in
  (* what the Shutdown step does: every handler cancelled, every table entry failed with a library error, returns *)
  out = map (fun i => OHCancel (i_h i)) (ilist (tm s)) ++ flat_map shutdown_outcome (olist (tm s)) ++ [OShutdownDone] /\
  forallb lib_outcome out = true /\
  (* every request ever submitted is settled once shutdown has returned — except those still inside Context.request's
     remote lookup, which no table knows (finding C18:resolving-request-left-hanging) *)
  (forall q ob, In (q, ob) (reqs_of before) ->
     (exists o, In o (outs ++ out) /\ settles ob q o = true) \/
     (exists x, In x (resolving (tm s')) /\ rlabel x = q /\ snd x = ob)) /\
  (* afterwards: silence, and the timers run out *)
  forallb (forallb quiet) (snd (run s' after)) = true /\
  pending (mm (fst (run (fst (run s' after)) (repeat Fire (length (forgets (mm (fst (run s' after))))))))) = [].
Proof.
  intros u m t before after (NS & Sc & ND & P & B) s outs s' out.
  destruct (reachable_owned before u m t NS) as (Own & xs & E). fold s in Own, E.
  pose proof (shutdown_step s xs E Own : Down s' /\ out = _ /\ _) as (D & O & _).
  assert (Gs' : G (mm s')) by (apply G_step; apply reachable_G).
  pose proof (run_down after s' D Gs' Sc) as (Q & D2 & G2).
  split; [exact O|]. split; [|split; [|split; [exact Q|apply timers_run_out; auto]]].
  - rewrite O, !forallb_app. rewrite forallb_flat_map by apply shutdown_outcome_lib.
    cbn [forallb lib_outcome andb]. rewrite andb_true_r. apply forallb_forall. intros x Ix. apply in_map_iff in Ix. destruct Ix as (i & <- & _). reflexivity.
  - intros q ob Iq.
    pose proof (run_link before (init u m t) [] [] (linked_init u m t P) B ND : linked (reqs_of before) (tm s) outs) as Lk.
    destruct (linked_shutdown _ _ _ Lk) as [(_ & _ & Tr) _].
    destruct (proj1 (tracked_accounted _ _ _) Tr q ob Iq) as [(e & Ie & _)|[S|X]]; [|left; exact S|right; exact X].
    exfalso. destruct D as (_ & Dn & _). unfold olist in Ie. change (fst (shutdown s)) with s' in Ie. rewrite Dn in Ie. exact Ie.
Qed.

