(* C19 — block-wise reads over the model's [run]: any sequence of Block2 requests (first one without the option, size
   exponent changing from block to block) whose blocks tile the file reassembles exactly the file; the model's own loop
   [fetch_all] (what [IAll] runs) is the client loop [fetch_var] of C19R7.v with a constant size exponent. *)
From Verif Require Import Lib.Py Lib.PyLemmas Lib.Tactics Model.C19Path Gen.fileserver Model.C19 Proofs.C19Path Proofs.C19 Proofs.C19R7.
Open Scope Z_scope.

(* the block a Block2 option (or its absence) asks for: fileserver.py:289-291, default (0, 0, 6) *)
Definition blk_of (b : option (Z * bool * Z)) : Z * Z := match b with Some (n, _, szx) => (n, szx) | None => (0, 6) end.

(* blocks that tile the content from the first block's start to the end: each next block starts where the previous one
   ended, every block but the last has more bytes after it *)
Inductive tiling (c : list Z) : list (Z * Z) -> Prop :=
| tile_last n szx : 0 <= n -> 0 <= szx -> block_more c n szx = false -> tiling c [(n, szx)]
| tile_more n szx n' szx' rest : 0 <= n -> 0 <= szx -> block_more c n szx = true ->
    blk_start n' szx' = blk_start n szx + blk_size szx -> tiling c ((n', szx') :: rest) -> tiling c ((n, szx) :: (n', szx') :: rest).

Section Tiling.
  Variable self : fileserver.
  Variable req : request.
  Variable p : list (list Z).
  Variable c : list Z.
  Hypothesis Hcode : code req = 1.
  Hypothesis Hobs : opt_observe req = None.
  Hypothesis Hetags : existsb is_cur (opt_etags req) = false.
  Hypothesis Hnba : needs_blockwise_assembly req = false.
  Hypothesis Hpath : request_to_localpath self req = Ok p.

  Lemma serve_block_any b st : fs_stat (st_fs st) (load_parts p) = inr (NFile c) ->
    exists st1 effs, serve self (with_block2 req b) st = (st1, effs, block_response self req c (fst (blk_of b)) (snd (blk_of b)))
                     /\ st_fs st1 = st_fs st.
  Proof. intros Hst. destruct b as [[[n m] szx]|]; (eapply (serve_block self req p c Hcode Hobs Hetags Hnba Hpath); [reflexivity|exact Hst]). Qed.

  Definition payloads (outs : list (list (list effect * response))) : list Z :=
    concat (map (fun g => concat (map (fun o => payload_of (snd o)) g)) outs).
  Definition all_content (outs : list (list (list effect * response))) : Prop :=
    Forall (fun g => Forall (fun o => rcode (snd o) = 69) g) outs.

  Lemma run_tiling bs : tiling c (map blk_of bs) -> forall st,
    fs_stat (st_fs st) (load_parts p) = inr (NFile c) ->
    match run self st (map (fun b => IOne (with_block2 req b)) bs) with
    | (st', outs) => payloads outs = bfrom c (blk_start (fst (hd (0, 0) (map blk_of bs))) (snd (hd (0, 0) (map blk_of bs))))
                     /\ all_content outs /\ st_fs st' = st_fs st
    end.
  Proof.
    remember (map blk_of bs) as bl eqn:Ebl. intros Ht. revert bs Ebl.
    induction Ht as [n szx Hn Hs Hm | n szx n' szx' rest Hn Hs Hm Hnext Ht IH]; intros bs Ebl st Hst.
    - destruct bs as [|b [|b' r]]; try discriminate. cbn [map] in Ebl. injection Ebl as Eb.
      cbn [map run step]. destruct (serve_block_any b st Hst) as [st1 [effs [Hsv H1]]]. rewrite Hsv, <- Eb. cbn [fst snd hd].
      unfold payloads, all_content. cbn. rewrite !app_nil_r. split; [apply block_last; assumption|]. split; [repeat constructor|exact H1].
    - destruct bs as [|b r]; [discriminate|]. cbn [map] in Ebl. injection Ebl as Eb Er.
      cbn [map run step]. destruct (serve_block_any b st Hst) as [st1 [effs [Hsv H1]]]. rewrite Hsv, <- Eb. cbn [fst snd hd].
      assert (fs_stat (st_fs st1) (load_parts p) = inr (NFile c)) as Hst1 by (rewrite H1; exact Hst).
      specialize (IH r Er st1 Hst1).
      destruct (run self st1 (map (fun b0 => IOne (with_block2 req b0)) r)) as [st2 os]. destruct IH as [I1 [I2 I3]].
      cbn [hd fst snd] in I1.
      split; [|split; [constructor; [repeat constructor|exact I2]|congruence]].
      unfold payloads in *. cbn [map concat]. cbn [payload_of snd block_response rbody]. rewrite app_nil_r. rewrite I1, Hnext.
      symmetry. apply block_split_at; assumption.
  Qed.

  (* the model's loop asks for blocks n, n+1, ... of one size: the client loop [fetch_var] started at the offset of block n *)
  Lemma fetch_all_as_var szx : 0 <= szx -> forall fuel k n st, fs_stat (st_fs st) (load_parts p) = inr (NFile c) ->
    fetch_all fuel self req szx n st = fetch_var self req fuel (fun _ => szx) k (blk_start n szx) st.
  Proof.
    intros Hszx. pose proof (blk_size_pos szx Hszx) as Hpos.
    induction fuel as [|f IH]; intros k n st Hst; cbn [fetch_all fetch_var];
      (replace (blk_start n szx / blk_size szx) with n by (unfold blk_start; rewrite Z.div_mul; lia));
      destruct (serve_block self req p c Hcode Hobs Hetags Hnba Hpath (Some (n, false, szx)) n false szx st eq_refl Hst) as [st1 [effs [-> H1]]];
      [reflexivity|].
    rewrite has_more_block. destruct (block_more c n szx) eqn:Em; [|reflexivity].
    cbn [payload_of block_response rbody]. rewrite (block_payload_len_more _ _ _ Hszx Em), <- blk_start_succ.
    rewrite <- (IH (Datatypes.S k) (n + 1) st1) by (rewrite H1; exact Hst). reflexivity.
  Qed.
  Lemma fetch_all_spec szx fuel n st : 0 <= szx -> 0 <= n ->
    fs_stat (st_fs st) (load_parts p) = inr (NFile c) -> (length (bfrom c (blk_start n szx)) <= fuel)%nat ->
    match fetch_all fuel self req szx n st with
    | (st', outs) => concat (map (fun o => payload_of (snd o)) outs) = bfrom c (blk_start n szx)
                     /\ Forall (fun o => rcode (snd o) = 69) outs /\ st_fs st' = st_fs st
                     /\ Z.of_nat (length outs) = ceil_blocks (blen (bfrom c (blk_start n szx))) (blk_size szx)
    end.
  Proof. intros Hszx Hn Hst Hlen. rewrite (fetch_all_as_var szx Hszx fuel O n st Hst).
    pose proof (fetch_var_spec self req p c Hcode Hobs Hetags Hnba Hpath (fun _ => szx) (fun _ => Hszx) (fun _ => Z.le_refl _)
                  fuel O _ st (blk_start_nonneg n szx Hn Hszx) (Z.divide_factor_r _ _) Hst Hlen) as H.
    destruct (fetch_var self req fuel (fun _ => szx) 0 (blk_start n szx) st) as [st' outs].
    destruct H as [(H1 & H2 & H3 & _) H4]. auto. Qed.
End Tiling.
