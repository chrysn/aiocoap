(* C15 — segmentation independence in histories that interleave data with outgoing messages / loss. *)
From Verif Require Import Lib.Py Lib.Tactics Lib.PyLemmas Gen.options_ext Gen.tcp_framing Model.C15 Proofs.C15Framing Proofs.C15Codec Proofs.C15Conn.
Open Scope Z_scope.

Definition data_ok (e : event) : Prop := match e with EData d => bytes_ok d = true | _ => True end.

Lemma step_bytes_ok c e : bytes_ok (spool c) = true -> data_ok e -> bytes_ok (spool (fst (step c e))) = true.
Proof.
  intros Hok He. apply (step_cases (fun r => bytes_ok (spool (fst r)) = true)); [intros o _; exact Hok|]. intros d -> Hcl.
  pose proof (loop_inv _ (feed_ok c d Hok He) Hcl) as HP. destruct (loop' (feed c d)) as [[c1 o1] k]. apply HP.
Qed.

Lemma run_app : forall pre es c, run c (pre ++ es) =
  let '(c1, o1) := run c pre in
  if esc o1 then (c1, o1) else let '(c2, o2) := run c1 es in (c2, o1 ++ o2).
Proof.
  induction pre as [|e pre IH]; intros es c.
  - cbn [app run]. cbn. destruct (run c es) as [c2 o2]. reflexivity.
  - cbn [app]. rewrite !run_cons. destruct (step c e) as [c1 o1]. fold (esc o1).
    destruct (esc o1) eqn:E1; [rewrite E1; reflexivity|].
    rewrite IH. destruct (run c1 pre) as [c2 o2]. rewrite esc_app, E1. cbn [orb].
    destruct (esc o2); [reflexivity|]. destruct (run c2 es) as [c3 o3]. rewrite app_assoc. reflexivity.
Qed.

Lemma run_bytes_ok : forall es c, bytes_ok (spool c) = true -> Forall data_ok es -> bytes_ok (spool (fst (run c es))) = true.
Proof.
  induction es as [|e es IH]; intros c Hok Hes; [exact Hok|].
  inversion Hes as [|? ? He Hes']; subst. rewrite run_cons.
  pose proof (step_bytes_ok c e Hok He) as Hok1. destruct (step c e) as [c1 o1].
  destruct (existsb is_escaped o1); [exact Hok1|].
  specialize (IH c1 Hok1 Hes'). destruct (run c1 es) as [c2 o2]. exact IH.
Qed.

Lemma split_chunk_anywhere : forall pre post c a b, bytes_ok (spool c) = true -> Forall data_ok pre ->
  bytes_ok a = true -> bytes_ok b = true ->
  snd (run c (pre ++ EData (a ++ b) :: post)) = snd (run c (pre ++ EData a :: EData b :: post)).
Proof.
  intros pre post c a b Hok Hpre Ha Hb. rewrite !run_app.
  pose proof (run_bytes_ok pre c Hok Hpre) as Hok1.
  destruct (run c pre) as [c1 o1]. cbn [fst] in Hok1. destruct (esc o1); [reflexivity|].
  pose proof (split_chunk_head c1 a b post Hok1 Ha Hb) as H.
  destruct (run c1 (EData (a ++ b) :: post)) as [c2 o2]. destruct (run c1 (EData a :: EData b :: post)) as [c3 o3].
  cbn [snd] in *. rewrite H. reflexivity.
Qed.
