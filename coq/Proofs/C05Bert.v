(* C05 — size exponent 7 / BERT (RFC 8323 section 6): a message carries 1024 * (maximum_payload_size / 1024) bytes, NUM counts 1024-byte
   blocks.  The Block1 loop invariant and the Block1 chain on the wire are proved once for exponents 0..7 (run_g_chain); theorem 2 is the
   case "at most 6". *)
From Verif Require Import Lib.Py Lib.PyLemmas Lib.Tactics Gen.block_kernels Model.C05 Model.C05Server Proofs.C05.
Open Scope Z_scope.

Definition bert_size (mps : Z) : Z := 1024 * (mps / 1024).

Lemma bert_size_pos mps : 1024 <= mps -> 1024 <= bert_size mps /\ bert_size mps / 1024 * 1024 = bert_size mps.
Proof. intros H. unfold bert_size. split; [lia|]. replace (1024 * (mps / 1024)) with (mps / 1024 * 1024) by lia. rewrite Z.div_mul by lia. reflexivity. Qed.

(* when the server lowers the exponent from 7 the chain goes on with regular blocks *)
Definition unit_of (szx : Z) : Z := if szx =? 7 then 1024 else bsize szx.
Definition blk_of (B szx : Z) : Z := if szx =? 7 then B else bsize szx.

Fixpoint g_chain (body : list Z) (B offset maxszx : Z) (tr : list request) : Prop :=
  match tr with
  | [] => True
  | rq :: rest =>
    match rq_block1 rq with
    | None => no_block1 tr
    | Some (n, m, szx) =>
      0 <= szx <= maxszx /\ n * unit_of szx = offset /\
      bto body offset ++ rq_payload rq = bto body (offset + blen (rq_payload rq)) /\
      (m = true -> blen (rq_payload rq) = blk_of B szx /\ offset + blk_of B szx < blen body) /\
      (m = false -> 0 < blen (rq_payload rq) <= blk_of B szx /\ offset + blen (rq_payload rq) = blen body) /\
      rq_size1 rq = (if offset =? 0 then Some (blen body) else None) /\
      (if m then g_chain body B (offset + blk_of B szx) szx rest else no_block1 rest)
    end
  end.

Lemma no_block1_g_chain body B offset mx tr : no_block1 tr -> g_chain body B offset mx tr.
Proof. intros H. destruct tr as [|rq rest]; [exact I|]. cbn [g_chain]. inversion H as [|? ? H1 H2]; subst. rewrite H1. exact H. Qed.

Lemma g_chain_mono body B offset mx mx' tr : mx <= mx' -> g_chain body B offset mx tr -> g_chain body B offset mx' tr.
Proof. intros Hle. destruct tr as [|r0 rest]; [auto|]. cbn [g_chain]. destruct (rq_block1 r0) as [[[n0 m0] s0]|]; [|auto]. intros (H1 & H2). split; [lia|exact H2]. Qed.

Lemma unit_of_regular szx : szx <= 6 -> unit_of szx = bsize szx.
Proof. intros H. unfold unit_of. replace (szx =? 7) with false by lia. reflexivity. Qed.
Lemma blk_of_regular B szx : szx <= 6 -> blk_of B szx = bsize szx.
Proof. intros H. unfold blk_of. replace (szx =? 7) with false by lia. reflexivity. Qed.
Lemma unit_of_pos szx : 0 <= szx <= 7 -> 16 <= unit_of szx.
Proof. intros H. unfold unit_of. destruct (szx =? 7) eqn:E; [lia|]. apply bsize_pos. lia. Qed.

(* with exponents up to 6 the general chain is the regular one (Proofs/C05.v) *)
Lemma g_chain_regular body B : forall tr offset mx, mx <= 6 -> g_chain body B offset mx tr -> b1_chain body offset mx tr.
Proof.
  induction tr as [|rq rest IH]; intros offset mx Hmx; [auto|]. cbn [b1_chain g_chain].
  destruct (rq_block1 rq) as [[[n m] szx]|]; [|auto].
  intros (H1 & H). rewrite unit_of_regular, blk_of_regular in H by lia. destruct H as (H2 & H3 & H4 & H5 & H6 & H7).
  repeat (split; [assumption|]). destruct m; [apply IH; [lia|exact H7]|exact H7].
Qed.

(* lowering the exponent rescales the cursor so that the byte offset stays; exponents 7 and 6 count in the same 1024-byte unit *)
Lemma reduce_size_offset fuel : forall t c e c2 e2, 0 <= t -> e <= 7 -> fuel = Z.to_nat (e - t) ->
  reduce_size fuel t c e = (c2, e2) -> e2 = Z.min e t /\ c2 * unit_of e2 = c * unit_of e.
Proof.
  induction fuel as [|f IH]; intros t c e c2 e2 Ht He Hf; cbn [reduce_size].
  - replace (t <? e) with false by lia. intros H; inv H. split; [lia|reflexivity].
  - replace (t <? e) with true by lia. intros H. apply IH in H as [-> Hc]; try lia. split; [lia|]. rewrite Hc.
    destruct (e =? 7) eqn:E7; [replace e with 7 by lia; reflexivity|].
    rewrite !unit_of_regular by lia. rewrite (bsize_split e (e - 1)) by lia. replace (e - (e - 1)) with 1 by lia. lia.
Qed.

Lemma block1_react_continue rq resp cursor size_exp n m szx c2 e2 :
  0 <= size_exp <= 7 -> rq_block1 rq = Some (n, m, szx) -> resp_wf resp = true ->
  block1_react rq resp cursor size_exp = B1Continue c2 e2 ->
  m = true /\ 0 <= e2 <= size_exp /\
  c2 * unit_of e2 = (if size_exp =? 7 then cursor + blen (rq_payload rq) / 1024 else cursor + 1) * unit_of size_exp.
Proof.
  intros Hs Hrq Hwf Hreact. unfold block1_react in Hreact. rewrite Hrq in Hreact.
  unfold resp_wf in Hwf. destruct (rs_block1 resp) as [[[bn bm] bs]|]; [|discriminate].
  cbn [bt_wf] in Hwf. unfold bt_num, bt_more, bt_szx in Hreact. cbn [fst snd] in Hreact.
  destruct (bn =? n); cbn [negb] in Hreact; [|discriminate].
  destruct (reduce_size _ _ _ _) as [cc ee] eqn:Hp. apply reduce_size_offset in Hp as [He Hc]; [|lia|lia|reflexivity].
  destruct m; cbn [negb] in Hreact; repeat match type of Hreact with context [if ?b then _ else _] => destruct b end; inv Hreact;
    (split; [reflexivity|split; [lia|exact Hc]]).
Qed.

(* the loop invariant: the cursor names an offset inside the body, which is beyond the current threshold; a BERT message needs room
   for one block *)
Definition g_inv (cfg : ccfg) (cursor size_exp : Z) : Prop :=
  0 <= size_exp <= 7 /\ 0 <= cursor /\ cursor * unit_of size_exp < blen (c_body cfg) /\
  blen (c_body cfg) > fragmentation_threshold (c_mps cfg) size_exp /\ (size_exp = 7 -> 1024 <= c_mps cfg).

Lemma g_inv_start cfg : 0 <= c_mbse cfg <= 7 -> 0 <= c_mps cfg -> (c_mbse cfg = 7 -> 1024 <= c_mps cfg) ->
  blen (c_body cfg) >? fragmentation_threshold (c_mps cfg) (c_mbse cfg) = true -> g_inv cfg 0 (c_mbse cfg).
Proof.
  intros Hm Hp H7 Hfrag. assert (0 <= fragmentation_threshold (c_mps cfg) (c_mbse cfg)).
  { unfold fragmentation_threshold. destruct (c_mbse cfg >=? 6); [exact Hp|apply Z.pow_nonneg; lia]. }
  repeat split; lia.
Qed.

(* a message is a whole number of units *)
Lemma blk_of_units mps szx : 0 <= szx <= 7 -> (szx = 7 -> 1024 <= mps) ->
  16 <= blk_of (bert_size mps) szx /\ (if szx =? 7 then bert_size mps / 1024 else 1) * unit_of szx = blk_of (bert_size mps) szx.
Proof.
  intros Hs H7. unfold blk_of, unit_of. destruct (szx =? 7) eqn:E; [destruct (bert_size_pos mps); lia|].
  pose proof (bsize_pos szx). lia.
Qed.

Lemma block1_request_gblock cfg cursor size_exp : g_inv cfg cursor size_exp ->
  let off := cursor * unit_of size_exp in
  let B := blk_of (bert_size (c_mps cfg)) size_exp in
  16 <= B /\ exists pl more,
    block1_request cfg cursor size_exp =
      Ok {| rq_block1 := Some (cursor, more, size_exp); rq_block2 := c_block2 cfg;
            rq_size1 := if cursor =? 0 then Some (blen (c_body cfg)) else None; rq_payload := pl |} /\
    bto (c_body cfg) off ++ pl = bto (c_body cfg) (off + blen pl) /\
    (more = true -> blen pl = B /\ off + B < blen (c_body cfg)) /\
    (more = false -> 0 < blen pl <= B /\ off + blen pl = blen (c_body cfg)).
Proof.
  intros (Hs & Hc & Hoff & Hfrag & Hmps) off B. pose proof (unit_of_pos size_exp Hs) as Hu.
  destruct (blk_of_units (c_mps cfg) size_exp Hs Hmps) as [HB _]. split; [exact HB|]. unfold block1_request.
  replace (blen (c_body cfg) >? fragmentation_threshold (c_mps cfg) size_exp) with true by lia.
  pose proof (extract_block_eq (c_body cfg) cursor size_exp (c_mps cfg)) as E. cbv zeta in E. rewrite E. clear E.
  destruct (block_partition (c_body cfg) cursor size_exp off B ltac:(subst off; nia) ltac:(lia)) as [_ Hok].
  destruct (Hok Hoff) as (pl & more & Hr & H). unfold off, B, unit_of, blk_of, bert_size in Hr. rewrite Hr.
  exists pl, more. split; [reflexivity|exact H].
Qed.

(* an acknowledged message moves the cursor to the byte after it, in the units of the acknowledged exponent *)
Lemma block1_continue_ginv cfg rq resp cursor size_exp more c2 e2 :
  g_inv cfg cursor size_exp -> rq_block1 rq = Some (cursor, more, size_exp) -> resp_wf resp = true ->
  let off := cursor * unit_of size_exp in
  let B := blk_of (bert_size (c_mps cfg)) size_exp in
  (more = true -> blen (rq_payload rq) = B /\ off + B < blen (c_body cfg)) ->
  block1_react rq resp cursor size_exp = B1Continue c2 e2 ->
  more = true /\ e2 <= size_exp /\ c2 * unit_of e2 = off + B /\ g_inv cfg c2 e2.
Proof.
  intros (Hs & Hc & Hoff & Hfrag & Hmps) Hrq Hwf off B Hmore Hreact.
  destruct (block1_react_continue rq resp cursor size_exp cursor more size_exp c2 e2 Hs Hrq Hwf Hreact) as (-> & He2 & Hc2).
  destruct (Hmore eq_refl) as [Hpl Hlt]. destruct (blk_of_units (c_mps cfg) size_exp Hs Hmps) as [HB Hunits]. fold B in HB, Hunits.
  assert (Hnext : c2 * unit_of e2 = off + B).
  { rewrite Hc2, Hpl. subst off. unfold B at 1, blk_of. destruct (size_exp =? 7); lia. }
  pose proof (unit_of_pos e2 ltac:(lia)) as Hu2. pose proof (unit_of_pos size_exp Hs) as Hu. assert (1 <= c2) by nia.
  repeat split; try lia.
  apply (threshold_after _ size_exp); [lia|exact Hfrag|]. intros He. rewrite (unit_of_regular e2) in * by lia. nia.
Qed.

(* The server is asked to answer the requests of THIS transfer — the application's Block2 option, a Block1
   exponent of at most [mx] — with responses as Message.decode can produce them. *)
Section AnyServer.
  Context {S : Type}.
  Variable serve : S -> request -> S * sresult.
  Variable cfg : ccfg.
  Variable mx : Z.
  Hypothesis serve_wf : forall s rq s' r n m se, rq_block1 rq = Some (n, m, se) -> 0 <= n -> 0 <= se <= mx ->
    rq_block2 rq = c_block2 cfg -> serve s rq = (s', SResp r) -> resp_wf r = true.

  Lemma block1_loop_g_chain fuel : forall s cursor size_exp mbse s' tr o,
    size_exp <= mx -> g_inv cfg cursor size_exp ->
    block1_loop serve fuel s cfg cursor size_exp mbse = (s', tr, o) ->
    g_chain (c_body cfg) (bert_size (c_mps cfg)) (cursor * unit_of size_exp) size_exp tr.
  Proof.
    induction fuel as [|f IH]; intros s cursor size_exp mbse s' tr o Hmx Hinv; cbn [block1_loop]; [intros H; inv H; exact I|].
    destruct (block1_request_gblock cfg cursor size_exp Hinv) as (HB & pl & more & -> & Hcat & Hmore & Hfin).
    pose proof Hinv as (Hs & Hc & _). pose proof (unit_of_pos size_exp Hs) as Hu.
    set (B := bert_size (c_mps cfg)) in *. set (off := cursor * unit_of size_exp) in *.
    set (rq := {| rq_block1 := Some (cursor, more, size_exp); rq_block2 := c_block2 cfg;
                  rq_size1 := if cursor =? 0 then Some (blen (c_body cfg)) else None; rq_payload := pl |}).
    assert (Hhead : forall rest, (if more then g_chain (c_body cfg) B (off + blk_of B size_exp) size_exp rest else no_block1 rest) ->
              g_chain (c_body cfg) B off size_exp (rq :: rest)).
    { intros rest Hrest. cbn [g_chain rq_block1 rq rq_payload rq_size1].
      repeat (split; [first [lia | assumption | reflexivity]|]).
      split; [|exact Hrest]. replace (off =? 0) with (cursor =? 0) by (subst off; nia). reflexivity. }
    assert (Hlast : forall rest, no_block1 rest -> g_chain (c_body cfg) B off size_exp (rq :: rest)).
    { intros rest Hrest. apply Hhead. destruct more; [apply no_block1_g_chain|]; exact Hrest. }
    destruct (serve s rq) as [s1 [resp|]] eqn:Hserve; [|intros H; inv H; apply Hlast; constructor].
    assert (Hwf : resp_wf resp = true) by (apply (serve_wf s rq s1 resp cursor more size_exp); (reflexivity || lia || exact Hserve)).
    destruct (block1_react rq resp cursor size_exp) as [e|c2 e2|] eqn:Hreact.
    - intros H; inv H. apply Hlast. constructor.
    - destruct (block1_continue_ginv cfg rq resp cursor size_exp more c2 e2 Hinv eq_refl Hwf Hmore Hreact) as (-> & He2 & Hc2 & Hinv2).
      destruct (block1_loop serve f s1 cfg c2 e2 _) as [[s2 tr2] o2] eqn:R. intros H; inv H.
      apply Hhead. fold B off in Hc2. rewrite <- Hc2. apply (g_chain_mono _ _ _ e2); [exact He2|]. eapply IH; [lia|exact Hinv2|exact R].
    - destruct (complete_by_requesting_block2 serve f s1 rq (clear_block1 resp) _) as [[s2 tr2] o2] eqn:R. intros H; inv H.
      apply Hlast. eapply complete_no_block1. exact R.
  Qed.
End AnyServer.

(* Theorems 2 and 12 are the cases "at most 6" (with g_chain_regular) and "7" of the client's maximum exponent. *)
Lemma run_g_chain {S} (serve : S -> request -> S * sresult) cfg :
  (forall s rq s' r n m se, rq_block1 rq = Some (n, m, se) -> 0 <= n -> 0 <= se <= c_mbse cfg ->
     rq_block2 rq = c_block2 cfg -> serve s rq = (s', SResp r) -> resp_wf r = true) ->
  0 <= c_mbse cfg <= 7 -> 0 <= c_mps cfg -> (c_mbse cfg = 7 -> 1024 <= c_mps cfg) ->
  forall fuel s s' rq rest o, run serve fuel s cfg = (s', rq :: rest, o) ->
  if blen (c_body cfg) >? fragmentation_threshold (c_mps cfg) (c_mbse cfg)
  then g_chain (c_body cfg) (bert_size (c_mps cfg)) 0 (c_mbse cfg) (rq :: rest)
  else rq_block1 rq = None /\ rq_payload rq = c_body cfg /\ rq_size1 rq = None /\ no_block1 rest.
Proof.
  intros serve_wf Hm Hp H7 fuel s s' rq rest o Hrun.
  destruct (blen (c_body cfg) >? fragmentation_threshold (c_mps cfg) (c_mbse cfg)) eqn:Hfrag.
  - change 0 with (0 * unit_of (c_mbse cfg)).
    apply (block1_loop_g_chain serve cfg (c_mbse cfg) serve_wf) with (3 := Hrun); [lia|apply g_inv_start; assumption].
  - eapply run_unfragmented_wire; eassumption.
Qed.

Definition bert_wire_ok (cfg : ccfg) (tr : list request) : Prop :=
  match tr with
  | [] => True
  | rq :: rest =>
    if blen (c_body cfg) >? c_mps cfg then g_chain (c_body cfg) (bert_size (c_mps cfg)) 0 7 tr
    else rq_block1 rq = None /\ rq_payload rq = c_body cfg /\ rq_size1 rq = None /\ no_block1 rest
  end.

(* the scenario of the defect fixed in /repo 166eafe: the first BERT message (2048 bytes) is acknowledged with exponent 6, the client
   goes on with NUM 2 = offset 2048 in 1024-byte blocks and the conforming server completes the body *)
Definition reduction_scf : scfg :=
  {| s_policy1 := [6]; s_policy2 := [7]; s_reps := [(Some 10, mkbody 5 1)]; s_rep_at := []; s_atomic := true; s_mis := None; s_bert := 2 |}.
Definition reduction_cfg : ccfg := {| c_body := mkbody 5000 1; c_mps := 2048; c_mbse := 7; c_block2 := None |}.

(* The run is evaluated once, and only a summary of it: no 5000-byte literal enters the proof term. *)
Lemma reduction_run_summary :
  let '(st, tr, o) := run (serve_ref reduction_scf) 10 sstate0 reduction_cfg in
  map rq_block1 tr = [Some (0, true, 7); Some (2, true, 6); Some (3, true, 6); Some (4, false, 6)] /\
  match sv_bodies st with [b] => beqb b (c_body reduction_cfg) | _ => false end = true /\
  match o with Done r => rs_code r | _ => -1 end = CHANGED.
Proof. vm_compute. auto. Qed.

Lemma bert_reduction_example : exists scf cfg st tr r,
  s_mis scf = None /\ c_mbse cfg = 7 /\
  run (serve_ref scf) 10 sstate0 cfg = (st, tr, Done r) /\
  map rq_block1 tr = [Some (0, true, 7); Some (2, true, 6); Some (3, true, 6); Some (4, false, 6)] /\
  sv_bodies st = [c_body cfg] /\ rs_code r = CHANGED.
Proof.
  exists reduction_scf, reduction_cfg. generalize reduction_run_summary.
  destruct (run (serve_ref reduction_scf) 10 sstate0 reduction_cfg) as [[st tr] o].
  intros (Htr & Hbody & Hcode).
  destruct o as [r| |]; [|discriminate Hcode..].
  destruct (sv_bodies st) as [|b [|? ?]] eqn:Hst; [discriminate Hbody| |discriminate Hbody].
  apply list_eqb_Z_eq in Hbody. subst b. exists st, tr, r. auto 7.
Qed.

Record honest_bert_cfg (scf : scfg) (e : option Z) (rep : list Z) : Prop := {
  hb_mis : s_mis scf = None;
  hb_reps : s_reps scf = [(e, rep)];
  hb_rep_at : s_rep_at scf = [];
  hb_pol1 : Forall (fun x => 0 <= x) (s_policy1 scf);    (* ANY acknowledgement policy: the exponent may be lowered from 7 at any time *)
  hb_pol2 : forall k, 7 <= pol (s_policy2 scf) k 6;
  hb_bert : 0 < s_bert scf }.

Section BertRef.
  Variable scf : scfg. Variable e : option Z. Variable rep : list Z.
  Hypothesis Hh : honest_bert_cfg scf e rep.
  Let B2 := 1024 * s_bert scf.

  Lemma remote_exp_7 : remote_exp scf = 7.
  Proof. unfold remote_exp. pose proof (hb_bert _ _ _ Hh). replace (0 <? s_bert scf) with true by lia. reflexivity. Qed.

  Lemma honest_is_bert st rq : honest scf st rq = honest_bert scf st rq.
  Proof. unfold honest. pose proof (hb_bert _ _ _ Hh). replace (0 <? s_bert scf) with true by lia. rewrite orb_true_r. reflexivity. Qed.

  Lemma respond_bert k code b1 req_b2 n2 :
    (req_b2 = None /\ n2 = 0) \/ (exists m2, req_b2 = Some (n2, m2, 7)) -> 0 <= n2 -> n2 * 1024 < blen rep \/ (n2 = 0 /\ blen rep = 0) ->
    respond scf k code b1 req_b2 =
      {| rs_code := code; rs_block1 := b1;
         rs_block2 := (let more := n2 * 1024 + B2 <? blen rep in match req_b2 with None => if more then Some (0, more, 7) else None | Some _ => Some (n2, more, 7) end);
         rs_etag := e; rs_payload := bslice rep (n2 * 1024) (n2 * 1024 + B2); rs_maxexp := 7; rs_observe := false |}.
  Proof.
    intros Hreq Hn Hoff. unfold respond. rewrite remote_exp_7. pose proof (hb_pol2 _ _ _ Hh k) as Hp. pose proof (hb_bert _ _ _ Hh) as Hb.
    pose proof (blen_nonneg rep) as Hnn.
    assert (Hwant : (match req_b2 with Some (_, _, s) => s | None => 7 end =? 7) && (7 <=? pol (s_policy2 scf) k 6) = true).
    { destruct Hreq as [[-> _]|(m2 & ->)]; lia. }
    rewrite Hwant. rewrite (current_rep scf e rep _ (hb_reps _ _ _ Hh) (hb_rep_at _ _ _ Hh)). replace (Z.max 1 (s_bert scf)) with (s_bert scf) by lia. fold B2.
    assert (Hn2 : match req_b2 with Some (n, _, _) => n | None => 0 end = n2) by (destruct Hreq as [[-> ->]|(m2 & ->)]; reflexivity).
    rewrite Hn2. replace ((n2 * 1024 >? blen rep) || (n2 * 1024 =? blen rep) && (0 <? n2)) with false by lia. reflexivity.
  Qed.

  Definition bert_inv (acc : response) (got : Z) : Prop := exists nn j, rs_block2 acc = Some (nn, true, 7) /\ got = j * 1024.

  Lemma block2_exchange_bert_ref t st acc got :
    bert_inv acc got -> rs_payload acc = bto rep got -> 0 < got < blen rep -> rs_etag acc = e ->
    exists rq x st' b size,
      generate_next_block2_request t acc 7 = Ok rq /\ rq_block1 rq = None /\ serve_ref scf st rq = (st', SResp x) /\
      sv_bodies st' = sv_bodies st /\
      0 < size /\ rs_block2 x = Some b /\ bt_more b = (got + size <? blen rep) /\ rs_payload x = bslice rep got (got + size) /\
      append_response_block acc x = Ok (appended acc x b) /\ (got + size < blen rep -> bert_inv (appended acc x b) (got + size)).
  Proof.
    intros (nn & j & Hblk & Hj) Hpl Hgot Het. pose proof (hb_bert _ _ _ Hh) as Hb. assert (HB2 : 1024 <= B2) by (subst B2; lia).
    assert (Hlen : blen (rs_payload acc) = got) by (rewrite Hpl; apply blen_bto; lia).
    set (rq := {| rq_block1 := None; rq_block2 := Some (j, false, 7); rq_size1 := rq_size1 t; rq_payload := [] |}).
    exists rq. eexists _, _, (j, got + B2 <? blen rep, 7), B2. split.
    { unfold generate_next_block2_request. rewrite Hblk, bt_size_spec. cbn [bind]. rewrite bt_start_spec. cbn [bind].
      change (bsize (Z.min 7 6)) with 1024. rewrite Hlen, Hj, Z.div_mul, Z.eqb_refl by lia. reflexivity. }
    split; [reflexivity|]. split.
    { unfold serve_ref. rewrite honest_is_bert. unfold honest_bert. cbn [rq rq_block1 rq_block2]. replace (0 <? j) with true by lia.
      rewrite (hb_mis _ _ _ Hh), (respond_bert _ _ _ _ j) by (eauto || lia). rewrite <- Hj. reflexivity. }
    cbv zeta. cbn [rs_block2 rs_payload sv_bodies bt_more fst snd]. repeat (split; [reflexivity || lia|]). split.
    - apply append_accepts; cbn [rs_block2 rs_payload rs_etag]; [reflexivity| |rewrite Hlen, Hj; reflexivity|rewrite Het; apply etag_eqb_refl].
      unfold bt_is_valid_for_payload_size, bt_is_bert. cbn [Z.eqb Pos.eqb bind].
      destruct (got + B2 <? blen rep) eqn:Emore; [|reflexivity]. rewrite blen_bslice by lia.
      replace (got + B2 - got) with (s_bert scf * 1024) by (subst B2; lia). rewrite Z.mod_mul by lia. reflexivity.
    - intros Hlt. exists j, (j + s_bert scf). cbn [appended rs_block2]. replace (got + B2 <? blen rep) with true by lia.
      split; [reflexivity|subst B2; lia].
  Qed.

  Lemma complete_bert_ref fuel st t k code b1 :
    (Z.to_nat (blen rep) < fuel)%nat ->
    exists st' tr r,
      complete_by_requesting_block2 (serve_ref scf) fuel st t (clear_block1 (respond scf k code b1 None)) 7 = (st', tr, Done r) /\
      rs_payload r = rep /\ rs_etag r = e /\ rs_code r = code /\ rs_block1 r = None /\ sv_bodies st' = sv_bodies st /\ no_block1 tr.
  Proof.
    intros Hfuel. pose proof (hb_bert _ _ _ Hh) as Hb. assert (HB2 : 1024 <= B2) by (subst B2; lia). pose proof (blen_nonneg rep) as Hnn.
    rewrite (respond_bert k code b1 None 0) by (auto || lia). cbv zeta. cbn [Z.mul Z.add].
    apply (complete_slices (serve_ref scf) sv_bodies rep e t 7 bert_inv (fun st0 acc0 got0 => block2_exchange_bert_ref t st0 acc0 got0))
      with (size := B2); cbn [clear_block1 rs_block2 rs_payload rs_etag]; try reflexivity; try assumption; try lia.
    - intros Hlt. replace (B2 <? blen rep) with true by lia. split; [eauto|]. exists 0, (s_bert scf). split; [reflexivity|subst B2; lia].
    - intros Hge. replace (B2 <? blen rep) with false by lia. exact I.
  Qed.
End BertRef.

Lemma respond_block1 scf k code b1 req_b2 : rs_block1 (respond scf k code b1 req_b2) = b1 \/ rs_block1 (respond scf k code b1 req_b2) = None.
Proof.
  unfold respond. destruct (_ && _).
  - destruct (nth _ _ _) as [etag rp]. destruct (_ || _); [right; reflexivity|left; reflexivity].
  - unfold slice_response. destruct (nth _ _ _) as [etag rp]. destruct req_b2 as [[[n2 m2] s2]|]; destruct (_ || _); (right; reflexivity) || (left; reflexivity).
Qed.

