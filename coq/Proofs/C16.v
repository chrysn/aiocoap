(* C16 — proofs about the translated quoting kernels (Gen/uri_kernels.v) and the URI model (Model/C16.v). The vocabulary of the
   statements in Props/C16.v comes first (ip6_text_ok, which speaks of the ipaddress parameter, further down). *)
From Verif Require Import Lib.Py Lib.Tactics Lib.PyLemmas Model.C16Str Gen.uri_kernels Model.C16 Proofs.C16Str.
Open Scope Z_scope.

(* SplitResult.hostname on the raw host part: lower-case up to the first "%" *)
Definition lower_before_pct (h : list Z) : list Z :=
  let '(a, pc, z) := partition 37 h in lower_ascii a ++ (if pc then [37] else []) ++ z.
Definition port_ok (p : option Z) : Prop := match p with None => True | Some n => 0 <= n <= 65535 end.
Definition port_text (p : option Z) : list Z := match p with None => [] | Some n => 58 :: print_dec n end.
(* the part of a host that .hostname lower-cases (up to the first "%") is ASCII; otherwise the model answers Unmodelled *)
Definition host_ascii_part (h : list Z) : bool := all_ascii (fst (fst (partition 37 h))).
(* a Uri-Host value that is a lower-case ASCII reg-name (RFC 3986 unreserved / sub-delims, no pct-encoded) *)
Definition regname_char (c : Z) : bool := is_lower c || is_digit c || mem c [45; 46; 95; 126] || mem c sub_delims.
Definition regular_host (h : list Z) : bool := negb (is_nil h) && forallb regname_char h.
Definition not_upper (c : Z) : Prop := is_upper c = false.
Definition dd (c : Z) : bool := is_digit c || (c =? 46).
(* for the concrete witnesses in Props/C16.v *)
Definition no_ip (_ : list Z) : ipres := IpBad.
Definition only_loopback (s : list Z) : ipres := if beqb s [58; 58; 49] then Ip6 [58; 58; 49] else IpBad.
Definition mk_opts scheme hostinfo host path query : request_opts :=
  {| r_scheme := scheme; r_hostinfo := hostinfo; o_uri_host := host; o_uri_port := None; o_uri_path := path; o_uri_query := query;
     o_proxy_uri := None; o_proxy_scheme := None |}.
Definition coap := [99; 111; 97; 112].

Definition qbyte (safe : list Z) (x : Z) : list Z := if mem x safe then [x] else [37] ++ hex02X x.
Lemma quote_unfold safe s : quote safe s = (b <- utf8_encode s ;; Ok (flat_map (qbyte safe) b)).
Proof. reflexivity. Qed.
(* util.quote_nonascii, the second translated kernel; get_request_uri does not call it *)
Lemma quote_nonascii_unfold s :
  quote_nonascii s = (b <- utf8_encode s ;; Ok (flat_map (fun c => if c <=? 127 then [c] else [37] ++ hex02X c) b)).
Proof. reflexivity. Qed.
Lemma quote_ok safe s q : quote safe s = Ok q ->
  exists b, utf8_encode s = Ok b /\ bytes_ok b = true /\ q = flat_map (qbyte safe) b.
Proof.
  rewrite quote_unfold. intros H. apply bind_ok in H as (b & Eb & H). ok_inj H.
  pose proof (utf8_encode_spec s) as Hb. rewrite Eb in Hb. exists b. split; [exact Eb|]. split; [apply Hb | reflexivity].
Qed.

Lemma hexval_hexdigit_upper n : 0 <= n < 16 -> hexval (hexdigit_upper n) = Some n.
Proof.
  intros H. unfold hexval, hexdigit_upper, is_digit.
  destruct (n <? 10) eqn:E.
  - replace ((48 <=? 48 + n) && (48 + n <=? 57)) with true by lia. f_equal. lia.
  - replace ((48 <=? 55 + n) && (55 + n <=? 57)) with false by lia.
    replace ((65 <=? 55 + n) && (55 + n <=? 70)) with true by lia. f_equal. lia.
Qed.
(* the alphabet of quoted text: "%", the upper-case hexadecimal digits and the safe characters *)
Definition qchars (safe : list Z) : list Z := 37 :: [48; 49; 50; 51; 52; 53; 54; 55; 56; 57; 65; 66; 67; 68; 69; 70] ++ safe.
Lemma hexdigit_upper_qchars safe n : 0 <= n < 16 -> mem (hexdigit_upper n) (qchars safe) = true.
Proof.
  intros H. unfold qchars. rewrite mem_cons, mem_app.
  assert (E : n = 0 \/ n = 1 \/ n = 2 \/ n = 3 \/ n = 4 \/ n = 5 \/ n = 6 \/ n = 7 \/ n = 8 \/ n = 9 \/ n = 10 \/ n = 11 \/
              n = 12 \/ n = 13 \/ n = 14 \/ n = 15) by lia.
  repeat (destruct E as [-> | E]; [reflexivity|]). subst. reflexivity.
Qed.
Lemma qbytes_over safe b : bytes_ok b = true -> forallb (fun c => mem c (qchars safe)) (flat_map (qbyte safe) b) = true.
Proof.
  induction b as [|x b IH]; intros Hb; [reflexivity|].
  rewrite bytes_ok_cons in Hb. apply andb_prop in Hb as [Hx Hb]. unfold byte_ok in Hx.
  cbn [flat_map]. rewrite forallb_app, IH by exact Hb. rewrite andb_true_r.
  unfold qbyte. destruct (mem x safe) eqn:Em.
  - cbn [forallb]. unfold qchars. rewrite mem_cons, mem_app, Em, !orb_true_r. reflexivity.
  - unfold hex02X. cbn [app forallb]. rewrite !hexdigit_upper_qchars by lia. reflexivity.
Qed.
(* so a class of characters that contains this alphabet holds of every quoted text *)
Lemma quote_forallb (P : Z -> bool) safe s q : forallb P (qchars safe) = true -> quote safe s = Ok q -> forallb P q = true.
Proof. intros HP Hq. apply quote_ok in Hq as (b & _ & Hb & ->). exact (forallb_over P _ _ (qbytes_over safe b Hb) HP). Qed.

Lemma unquote_impl_plain c r : c <> 37 -> unquote_impl (c :: r) = c :: unquote_impl r.
Proof. intros H. cbn [unquote_impl]. replace (c =? 37) with false by lia. reflexivity. Qed.
Lemma unquote_impl_esc h1 h2 a b r : hexval h1 = Some a -> hexval h2 = Some b ->
  unquote_impl (37 :: h1 :: h2 :: r) = (a * 16 + b) :: unquote_impl r.
Proof. intros E1 E2. cbn [unquote_impl]. change (37 =? 37) with true. cbv iota. rewrite E1, E2. reflexivity. Qed.
Lemma unquote_impl_id s : mem 37 s = false -> unquote_impl s = s.
Proof.
  induction s as [|c s IH]; intros H; [reflexivity|]. rewrite mem_cons in H. apply orb_false_elim in H as [Hc Hs].
  rewrite unquote_impl_plain, IH by (assumption || lia). reflexivity.
Qed.
Lemma unquote_impl_nonempty s : unquote_impl s = [] -> s = [].
Proof.
  destruct s as [|c r]; [reflexivity|]. cbn [unquote_impl]. destruct (c =? 37); [|discriminate].
  destruct r as [|h1 [|h2 r']]; try discriminate. destruct (hexval h1); [|discriminate]. destruct (hexval h2); discriminate.
Qed.

Lemma unquote_impl_qbytes safe b : mem 37 safe = false -> bytes_ok b = true ->
  unquote_impl (flat_map (qbyte safe) b) = b.
Proof.
  intros Hs. induction b as [|x b IH]; intros Hb; [reflexivity|].
  rewrite bytes_ok_cons in Hb. apply andb_prop in Hb as [Hx Hb]. unfold byte_ok in Hx.
  cbn [flat_map]. unfold qbyte at 1. destruct (mem x safe) eqn:Em.
  - cbn [app]. assert (x <> 37) by (intros ->; congruence).
    rewrite unquote_impl_plain by assumption. rewrite IH by exact Hb. reflexivity.
  - unfold hex02X. cbn [app].
    rewrite (unquote_impl_esc _ _ (x / 16) (x mod 16)) by (apply hexval_hexdigit_upper; lia).
    rewrite IH by exact Hb. f_equal. lia.
Qed.

Lemma unquote_parts_ascii s : forall run, all_ascii s = true -> unquote_parts s run = decode_run (rev run ++ s).
Proof.
  induction s as [|c s IH]; intros run H.
  - cbn [unquote_parts]. rewrite app_nil_r. reflexivity.
  - unfold all_ascii in H. cbn [forallb] in H. apply andb_prop in H as [Hc Hs].
    cbn [unquote_parts]. rewrite Hc. rewrite IH by exact Hs. cbn [rev]. rewrite <- app_assoc. reflexivity.
Qed.
Lemma unquote_ascii s : all_ascii s = true -> unquote s = utf8_decode (unquote_impl s).
Proof. intros H. unfold unquote. rewrite unquote_parts_ascii by exact H. reflexivity. Qed.

(* unquote(quote(s)) = s for every string that can be encoded, and every safe set of ASCII characters without "%" *)
Theorem unquote_quote safe s q : mem 37 safe = false -> all_ascii safe = true ->
  quote safe s = Ok q -> unquote q = Ok s.
Proof.
  intros H37 Has Hq. pose proof (quote_forallb is_ascii safe s q) as Hascii.
  apply quote_ok in Hq as (b & Eb & Hb & ->).
  rewrite unquote_ascii by (apply Hascii; [unfold qchars; cbn [forallb]; rewrite forallb_app; exact Has | rewrite quote_unfold, Eb; reflexivity]).
  rewrite unquote_impl_qbytes by assumption. apply utf8_decode_encode. exact Eb.
Qed.
Lemma quote_total safe s : valid_str s = true -> exists q, quote safe s = Ok q.
Proof. intros H. destruct (utf8_encode_ok s H) as (b & Hb & _). rewrite quote_unfold, Hb. eexists. reflexivity. Qed.
Lemma quote_nonempty safe s q : s <> [] -> quote safe s = Ok q -> q <> [].
Proof.
  intros Hne Hq. apply quote_ok in Hq as (b & Eb & _ & ->). destruct s as [|c s]; [congruence|].
  cbn [utf8_encode] in Eb. apply bind_ok in Eb as (bc & Ec & Eb). apply bind_ok in Eb as (bs & _ & Eb). ok_inj Eb.
  pose proof (utf8_encode_char_spec c) as Hc. rewrite Ec in Hc. destruct Hc as (_ & Hbc & _).
  destruct bc as [|x bc]; [congruence|]. cbn [app flat_map]. unfold qbyte at 1. destruct (mem x safe); discriminate.
Qed.

Lemma path_chars_ok : mem 37 quote_for_path_chars = false /\ all_ascii quote_for_path_chars = true /\
  mem 47 quote_for_path_chars = false /\ mem 63 quote_for_path_chars = false /\ mem 35 quote_for_path_chars = false.
Proof. vm_compute. repeat split. Qed.
Lemma query_chars_ok : mem 37 quote_for_query_chars = false /\ all_ascii quote_for_query_chars = true /\
  mem 38 quote_for_query_chars = false /\ mem 35 quote_for_query_chars = false.
Proof. vm_compute. repeat split. Qed.

Lemma decode_run_spec run :
  match decode_run run with
  | Ok r => valid_str r = true /\ (r = [] -> run = [])
  | Raise e => e = UnicodeDecodeError
  end.
Proof.
  unfold decode_run. pose proof (utf8_decode_spec (unquote_impl run)) as H. destruct (utf8_decode _); [|exact H].
  destruct H as [V N]. split; [exact V|]. intros E. apply unquote_impl_nonempty, N, E.
Qed.
Lemma unquote_parts_spec s : forall run,
  match unquote_parts s run with
  | Ok r => (valid_str s = true -> valid_str r = true) /\ (r = [] -> s = [] /\ run = [])
  | Raise e => e = UnicodeDecodeError
  end.
Proof.
  induction s as [|c s IH]; intros run; cbn [unquote_parts].
  - pose proof (decode_run_spec (rev run)) as H. destruct (decode_run (rev run)); [|exact H]. destruct H as [V N].
    split; [intros _; exact V|]. intros E. split; [reflexivity|]. rewrite <- (rev_involutive run), (N E). reflexivity.
  - unfold valid_str. cbn [forallb]. destruct (is_ascii c).
    + specialize (IH (c :: run)). destruct (unquote_parts s (c :: run)); [|exact IH]. destruct IH as [V N].
      split; [intros Hv; apply andb_prop in Hv as [_ Hv]; exact (V Hv)|]. intros E. destruct (N E) as [_ N2]. discriminate.
    + pose proof (decode_run_spec (rev run)) as Hd. destruct (decode_run (rev run)) as [d|]; cbn [bind]; [|exact Hd].
      specialize (IH []). destruct (unquote_parts s []) as [rest|]; cbn [bind]; [|exact IH].
      split; [|intros E; destruct d; discriminate].
      intros Hv. apply andb_prop in Hv as [Hc Hs]. destruct Hd as [Vd _]. destruct IH as [Vr _].
      unfold valid_str in *. rewrite forallb_app. cbn [forallb]. rewrite Vd, Hc, (Vr Hs). reflexivity.
Qed.
Lemma unquote_raises s e : unquote s = Raise e -> e = UnicodeDecodeError.
Proof. intros H. pose proof (unquote_parts_spec s []) as S. unfold unquote in H. rewrite H in S. exact S. Qed.
Lemma unquote_facts s r : valid_str s = true -> unquote s = Ok r -> valid_str r = true /\ (r = [] -> s = []).
Proof.
  intros Hs H. pose proof (unquote_parts_spec s []) as S. unfold unquote in H. rewrite H in S. destruct S as [V N].
  split; [exact (V Hs) | intros E; apply N; exact E].
Qed.

Lemma mapM_ok {A B} (f : A -> M B) l : forall r, mapM f l = Ok r -> Forall2 (fun a b => f a = Ok b) l r.
Proof.
  induction l as [|a l IH]; intros r H; cbn [mapM] in H. { ok_inj H. constructor. }
  apply bind_ok in H as (b & Eb & H). apply bind_ok in H as (rest & Er & H). ok_inj H. constructor; auto.
Qed.
Lemma mapM_of_Forall2 {A B} (f : A -> M B) l r : Forall2 (fun a b => f a = Ok b) l r -> mapM f l = Ok r.
Proof. induction 1 as [|a b l r Hab _ IH]; cbn [mapM]; [reflexivity|]. rewrite Hab, IH. reflexivity. Qed.
Lemma mapM_raises {A B} (f : A -> M B) (P : exn -> Prop) : (forall a e, f a = Raise e -> P e) ->
  forall l e, mapM f l = Raise e -> P e.
Proof.
  intros Hf. induction l as [|a l IH]; intros e H; cbn [mapM] in H; [discriminate|].
  apply bind_raise in H as [H | (b & _ & H)]; [eapply Hf; exact H|].
  apply bind_raise in H as [H | (x & _ & H)]; [apply IH; exact H | discriminate].
Qed.

Lemma mapM_quote_unquote safe l : mem 37 safe = false -> all_ascii safe = true ->
  forall ql, mapM (quote safe) l = Ok ql -> mapM unquote ql = Ok l.
Proof.
  intros H37 Has ql H. apply mapM_of_Forall2. apply mapM_ok in H.
  induction H; constructor; eauto using unquote_quote.
Qed.
Lemma mapM_quote_total safe l : forallb valid_str l = true -> exists ql, mapM (quote safe) l = Ok ql.
Proof.
  induction l as [|s l IH]; intros H. { exists []. reflexivity. }
  cbn [forallb] in H. apply andb_prop in H as [Hs Hl]. destruct (IH Hl) as (ql & Hql).
  destruct (quote_total safe s Hs) as (q & Hq). exists (q :: ql). cbn [mapM]. rewrite Hq, Hql. reflexivity.
Qed.
Lemma mapM_quote_forallb (P : Z -> bool) safe l ql : forallb P (qchars safe) = true ->
  mapM (quote safe) l = Ok ql -> forallb (forallb P) ql = true.
Proof.
  intros HP H. apply mapM_ok in H. induction H as [|s q l ql Hq _ IH]; [reflexivity|].
  cbn [forallb]. rewrite (quote_forallb P safe s q HP Hq), IH. reflexivity.
Qed.
(* only the single empty segment is quoted into the single empty text *)
Lemma mapM_quote_degenerate safe l : mapM (quote safe) l = Ok [[]] -> l = [[]].
Proof.
  intros H. apply mapM_ok in H. inversion H as [|s q l' ql' Hq Hrest]; subst. inversion Hrest; subst. f_equal.
  destruct s as [|c s]; [reflexivity|]. exfalso. exact (quote_nonempty safe (c :: s) [] ltac:(discriminate) Hq eq_refl).
Qed.

Lemma forallb_join (P : Z -> bool) sep l : forallb P sep = true -> forallb (forallb P) l = true -> forallb P (join sep l) = true.
Proof.
  intros Hsep. induction l as [|x l IH]; intros H; [reflexivity|]. cbn [forallb] in H. apply andb_prop in H as [Hx Hl].
  destruct l as [|y l]; [exact Hx|]. change (join sep (x :: y :: l)) with (x ++ sep ++ join sep (y :: l)).
  rewrite !forallb_app, Hx, Hsep, IH by exact Hl. reflexivity.
Qed.
Lemma joined_quoted_forallb (P : Z -> bool) safe sep l ql : forallb P (sep :: qchars safe) = true ->
  mapM (quote safe) l = Ok ql -> forallb P (join [sep] ql) = true.
Proof.
  intros HP H. cbn [forallb] in HP. apply andb_prop in HP as [Hsep HP].
  apply forallb_join; [cbn [forallb]; rewrite Hsep; reflexivity | exact (mapM_quote_forallb P _ _ _ HP H)].
Qed.
(* what unquote_query does at "&", and unquote_path at "/" behind the leading "/": no text, no segments; otherwise the pieces are unquoted *)
Definition unquote_segments (sep : Z) (t : list Z) : M (list (list Z)) :=
  if is_nil t then Ok [] else mapM unquote (split_on sep t).
Lemma unquote_path_slash r : unquote_path (47 :: r) = unquote_segments 47 r.
Proof. destruct r; reflexivity. Qed.
Lemma join_nil c a l : is_nil (join [c] (a :: l)) = true -> a :: l = [[]].
Proof. destruct a; [destruct l; [reflexivity | discriminate] | destruct l; discriminate]. Qed.
(* quoted segments joined with a separator outside the alphabet of quoted text come back; only [""] gives the empty text *)
Lemma joined_quoted_back safe sep l ql : mem 37 safe = false -> all_ascii safe = true ->
  forallb (fun c => negb (c =? sep)) (qchars safe) = true -> l <> [[]] -> mapM (quote safe) l = Ok ql ->
  unquote_segments sep (join [sep] ql) = Ok l.
Proof.
  intros H37 Has Hsep Hdeg El. destruct ql as [|a ql]. { apply mapM_ok in El. inv El. reflexivity. }
  unfold unquote_segments. destruct (is_nil _) eqn:E.
  - apply join_nil in E. rewrite E in El. elim (Hdeg (mapM_quote_degenerate _ _ El)).
  - rewrite split_on_join; [exact (mapM_quote_unquote _ _ H37 Has _ El) | discriminate | exact (mapM_quote_forallb _ _ _ _ Hsep El)].
Qed.
(* the path component is "/" followed by the quoted segments joined with "/" *)
Lemma compose_path_eq p : compose_path p = (l <- mapM (quote quote_for_path_chars) p ;; Ok (47 :: join [47] l)).
Proof.
  unfold compose_path. destruct (mapM _ p) as [l|e]; [|reflexivity]. cbn [bind]. rewrite prefixed_join. destruct l; reflexivity.
Qed.
Lemma compose_path_forallb (P : Z -> bool) p t : forallb P (47 :: qchars quote_for_path_chars) = true ->
  compose_path p = Ok t -> forallb P t = true.
Proof.
  intros HP H. rewrite compose_path_eq in H. apply bind_ok in H as (l & El & H). ok_inj H.
  cbn [forallb]. rewrite (joined_quoted_forallb P _ 47 _ _ HP El). cbn [forallb] in HP. apply andb_prop in HP as [-> _]. reflexivity.
Qed.
Lemma compose_query_forallb (P : Z -> bool) q t : forallb P (38 :: qchars quote_for_query_chars) = true ->
  compose_query q = Ok t -> forallb P t = true.
Proof.
  intros HP H. unfold compose_query in H. apply bind_ok in H as (l & El & H). ok_inj H. exact (joined_quoted_forallb P _ 38 _ _ HP El).
Qed.
Lemma compose_path_total p : forallb valid_str p = true -> exists t, compose_path p = Ok t.
Proof. intros H. destruct (mapM_quote_total quote_for_path_chars p H) as (l & Hl). unfold compose_path. rewrite Hl. eexists. reflexivity. Qed.
Lemma compose_query_total q : forallb valid_str q = true -> exists t, compose_query q = Ok t.
Proof. intros H. destruct (mapM_quote_total quote_for_query_chars q H) as (l & Hl). unfold compose_query. rewrite Hl. eexists. reflexivity. Qed.

Lemma startswith_nil s : startswith s [] = true. Proof. destruct s; reflexivity. Qed.
Lemma startswith_cons c s : startswith (c :: s) [c] = true.
Proof. cbn [startswith]. rewrite Z.eqb_refl, startswith_nil. reflexivity. Qed.
Lemma startswith_cons2 a b s : startswith (a :: b :: s) [a; b] = true.
Proof. cbn [startswith]. rewrite !Z.eqb_refl, startswith_nil. reflexivity. Qed.

(* Uri-Path -> path component -> Uri-Path: everything but the single empty segment *)
Theorem path_roundtrip p : p <> [[]] -> forall text, compose_path p = Ok text ->
  unquote_path text = Ok p /\ mem 63 text = false /\ mem 35 text = false /\ startswith text [47] = true.
Proof.
  intros Hdeg text H.
  pose proof (compose_path_forallb (fun c => negb (c =? 63)) p text eq_refl H) as N63.
  pose proof (compose_path_forallb (fun c => negb (c =? 35)) p text eq_refl H) as N35.
  rewrite compose_path_eq in H. apply bind_ok in H as (l & El & H). ok_inj H. destruct path_chars_ok as (H37 & Has & _).
  split; [|split; [exact (forallb_mem_false _ _ 63 N63 eq_refl) | split; [exact (forallb_mem_false _ _ 35 N35 eq_refl) | apply startswith_cons]]].
  rewrite unquote_path_slash. exact (joined_quoted_back _ 47 _ _ H37 Has eq_refl Hdeg El).
Qed.

(* Uri-Query -> query component -> Uri-Query: everything but the single empty segment *)
Theorem query_roundtrip q : q <> [[]] -> forall text, compose_query q = Ok text ->
  unquote_query text = Ok q /\ mem 35 text = false.
Proof.
  intros Hdeg text H.
  pose proof (compose_query_forallb (fun c => negb (c =? 35)) q text eq_refl H) as N35.
  unfold compose_query in H. apply bind_ok in H as (l & El & H). ok_inj H. destruct query_chars_ok as (H37 & Has & _).
  split; [exact (joined_quoted_back _ 38 _ _ H37 Has eq_refl Hdeg El) | exact (forallb_mem_false _ _ 35 N35 eq_refl)].
Qed.

Definition port_chars : list Z := [58; 48; 49; 50; 51; 52; 53; 54; 55; 56; 57].
Lemma port_text_over p : port_ok p -> forallb (fun c => mem c port_chars) (port_text p) = true.
Proof.
  destruct p as [n|]; [|reflexivity]. cbn [port_ok port_text forallb]. intros Hn. rewrite print_dec_nonneg by lia.
  destruct (print_nat_dec_digits n ltac:(lia)) as [Hd _]. cbn [andb].
  revert Hd. apply forallb_impl. intros c. unfold is_digit, port_chars. cbn [mem existsb]. lia.
Qed.
Lemma port_text_no p c : port_ok p -> mem c port_chars = false -> mem c (port_text p) = false.
Proof. intros Hp Hc. exact (forallb_mem_false _ _ c (port_text_over p Hp) Hc). Qed.
Lemma port_text_inj p q : port_ok p -> port_ok q -> port_text p = port_text q -> p = q.
Proof.
  destruct p as [n|], q as [k|]; cbn; intros Hp Hq H; try discriminate; [|reflexivity].
  injection H as H. rewrite !print_dec_nonneg in H by lia.
  f_equal. rewrite <- (parse_print_nat_dec n), <- (parse_print_nat_dec k) by lia. rewrite H. reflexivity.
Qed.

(* _hostinfo's port string for the suffix  port_text p *)
Definition port_str (p : option Z) : option (list Z) := match p with None => None | Some n => Some (print_dec n) end.
Lemma print_dec_nonnil n : 0 <= n -> is_nil (print_dec n) = false.
Proof.
  intros Hn. rewrite print_dec_nonneg by exact Hn.
  destruct (print_nat_dec_digits n Hn) as [_ Hne]. destruct (print_nat_dec n); [congruence | reflexivity].
Qed.
Lemma port_of_hostinfo s h p : port_ok p -> hostinfo_of s = (h, port_str p) -> port_of s = Ok p.
Proof.
  intros Hp Hi. unfold port_of. rewrite Hi. destruct p as [n|]; [|reflexivity]. cbn [snd port_str]. cbn in Hp.
  rewrite print_dec_nonneg by lia. destruct (print_nat_dec_digits n ltac:(lia)) as [Hd Hne]. rewrite Hd.
  (* at most 17 digits: far from int()'s limit of 4300 *)
  unfold py_int_digits. pose proof (print_nat_dec_short n Hp) as Hs.
  assert (0 < blen (print_nat_dec n)). { destruct (print_nat_dec n); [congruence|]. rewrite blen_cons. pose proof (blen_nonneg l). lia. }
  replace ((4300 <? blen (print_nat_dec n)) || (blen (print_nat_dec n) =? 0)) with false by lia.
  cbn [bind]. rewrite parse_print_nat_dec by lia. replace (n <=? 65535) with true by lia. reflexivity.
Qed.
(* _hostinfo of  host[:port]  without brackets *)
Lemma hostinfo_of_plain h p : port_ok p -> mem 58 h = false -> mem 64 h = false -> mem 91 h = false ->
  hostinfo_of (h ++ port_text p) = (h, port_str p).
Proof.
  intros Hp H58 H64 H91. unfold hostinfo_of.
  rewrite rpartition_notfound by (rewrite mem_app, H64, port_text_no by auto; reflexivity).
  rewrite (partition_notfound 91) by (rewrite mem_app, H91, port_text_no by auto; reflexivity).
  destruct p as [n|]; cbn [port_text port_str].
  - rewrite partition_found by exact H58. rewrite print_dec_nonnil by apply Hp. reflexivity.
  - rewrite app_nil_r, partition_notfound by exact H58. reflexivity.
Qed.
(* _hostinfo of  [host][:port] *)
Lemma hostinfo_of_bracketed h p : port_ok p -> mem 93 h = false -> mem 64 h = false ->
  hostinfo_of (91 :: h ++ 93 :: port_text p) = (h, port_str p).
Proof.
  intros Hp H93 H64. unfold hostinfo_of.
  rewrite rpartition_notfound by (rewrite mem_cons, mem_app, mem_cons, H64, port_text_no by auto; reflexivity).
  rewrite partition_head, (partition_found 93) by exact H93.
  destruct p as [n|]; cbn [port_text port_str]; [|reflexivity].
  rewrite partition_head, print_dec_nonnil by apply Hp. reflexivity.
Qed.

(* .hostname is lower_before_pct of the raw host part, provided that is ASCII up to the zone *)
Lemma hostname_of_eq s : hostname_of s =
  let raw := fst (hostinfo_of s) in
  if is_nil raw then Ok None else if host_ascii_part raw then Ok (Some (lower_before_pct raw)) else Raise Unmodelled.
Proof.
  unfold hostname_of, host_ascii_part, lower_before_pct. cbv zeta. destruct (is_nil _); [reflexivity|].
  destruct (partition 37 _) as [[h pc] z]. reflexivity.
Qed.
Lemma hostname_of_hostinfo s h x : h <> [] -> host_ascii_part h = true -> hostinfo_of s = (h, x) ->
  hostname_of s = Ok (Some (lower_before_pct h)).
Proof. intros Hne Ha Hi. rewrite hostname_of_eq, Hi. cbn [fst]. rewrite Ha. destruct h; [congruence | reflexivity]. Qed.
Lemma hostname_of_some s h : hostname_of s = Ok (Some h) ->
  fst (hostinfo_of s) <> [] /\ host_ascii_part (fst (hostinfo_of s)) = true /\ h = lower_before_pct (fst (hostinfo_of s)).
Proof.
  rewrite hostname_of_eq. cbv zeta. destruct (fst (hostinfo_of s)) as [|c r]; [discriminate|]. cbn [is_nil].
  destruct (host_ascii_part (c :: r)); [|discriminate]. intros H. ok_inj H. injection H as <-. split; [discriminate | auto].
Qed.

Lemma lower_ascii_id h : Forall not_upper h -> lower_ascii h = h.
Proof. induction 1 as [|c h Hc _ IH]; [reflexivity|]. cbn [lower_ascii map]. unfold lower_c. rewrite Hc. f_equal. exact IH. Qed.
Lemma lower_ascii_no_upper s : Forall (fun c => is_upper c = false) (lower_ascii s).
Proof.
  induction s as [|c s IH]; [constructor|]. cbn [lower_ascii map]. constructor; [|exact IH].
  unfold lower_c, is_upper. destruct ((65 <=? c) && (c <=? 90)) eqn:E; lia.
Qed.
Lemma lower_ascii_idem a : lower_ascii (lower_ascii a) = lower_ascii a.
Proof. apply lower_ascii_id, lower_ascii_no_upper. Qed.
Lemma lower_before_pct_partition r :
  partition 37 (lower_before_pct r) = (let '(a, pc, z) := partition 37 r in (lower_ascii a, pc, z)).
Proof.
  unfold lower_before_pct. destruct (partition 37 r) as [[a pc] z] eqn:E. destruct (partition_spec _ _ _ _ _ E) as (M & _ & Hz).
  assert (M' : mem 37 (lower_ascii a) = false).
  { apply forallb_neq_mem. apply lower_ascii_forallb; [intros c; apply lower_c_neq; reflexivity | apply forallb_neq_mem; exact M]. }
  destruct pc; cbn [app]; [apply partition_found; exact M'|]. rewrite (Hz eq_refl), app_nil_r. apply partition_notfound. exact M'.
Qed.
Lemma lower_before_pct_idem r : lower_before_pct (lower_before_pct r) = lower_before_pct r.
Proof.
  unfold lower_before_pct at 1. rewrite lower_before_pct_partition. unfold lower_before_pct.
  destruct (partition 37 r) as [[a pc] z]. rewrite lower_ascii_idem. reflexivity.
Qed.
Lemma lower_before_pct_forallb (P : Z -> bool) r : (forall c, P c = true -> P (lower_c c) = true) ->
  forallb P r = true -> forallb P (lower_before_pct r) = true.
Proof.
  intros HP H. unfold lower_before_pct. destruct (partition 37 r) as [[a pc] z] eqn:E.
  destruct (partition_spec _ _ _ _ _ E) as (_ & -> & Hz). rewrite forallb_app in H. apply andb_prop in H as [Ha Hr].
  rewrite forallb_app, (lower_ascii_forallb P a HP Ha). destruct pc; [exact Hr | rewrite (Hz eq_refl); reflexivity].
Qed.
Lemma host_ascii_part_lower r : host_ascii_part r = true -> host_ascii_part (lower_before_pct r) = true.
Proof.
  unfold host_ascii_part. rewrite lower_before_pct_partition. destruct (partition 37 r) as [[a pc] z]. cbn [fst].
  apply lower_ascii_forallb. intros c. unfold is_ascii, lower_c, is_upper. destruct ((65 <=? c) && (c <=? 90)) eqn:E; lia.
Qed.
Lemma lower_before_pct_nonempty r : r <> [] -> lower_before_pct r <> [].
Proof.
  intros Hr. unfold lower_before_pct. destruct (partition 37 r) as [[a pc] z] eqn:E.
  destruct (partition_spec _ _ _ _ _ E) as (_ & -> & _). destruct a; [destruct pc; [discriminate | elim Hr; reflexivity] | discriminate].
Qed.
(* the raw host part is cut out of what follows the last "@" *)
Lemma hostinfo_of_forallb (P : Z -> bool) j : forallb P (snd (rpartition 64 j)) = true -> forallb P (fst (hostinfo_of j)) = true.
Proof.
  intros R. unfold hostinfo_of. destruct (rpartition 64 j) as [[a0 b0] hostinfo]. cbn [snd] in R.
  destruct (partition_forallb P 91 hostinfo R) as [_ B]. destruct (partition_forallb P 58 hostinfo R) as [C _].
  destruct (partition 91 hostinfo) as [[a1 ob] bracketed]. cbn [snd] in B. destruct ob.
  - destruct (partition_forallb P 93 bracketed B) as [D _]. destruct (partition 93 bracketed) as [[hn x] pt]. cbn [fst] in D.
    destruct (partition 58 pt) as [[y1 y2] y3]. exact D.
  - destruct (partition 58 hostinfo) as [[hn x] pt]. exact C.
Qed.
Lemma hostinfo_of_cut j : mem 58 (fst (hostinfo_of j)) = false \/ mem 93 (fst (hostinfo_of j)) = false.
Proof.
  unfold hostinfo_of. destruct (rpartition 64 j) as [[a0 b0] hostinfo].
  destruct (partition 91 hostinfo) as [[a1 ob] bracketed]. destruct ob.
  - right. destruct (partition 93 bracketed) as [[hn x] pt] eqn:E. destruct (partition 58 pt) as [[y1 y2] y3].
    apply (partition_spec _ _ _ _ _ E).
  - left. destruct (partition 58 hostinfo) as [[hn x] pt] eqn:E. apply (partition_spec _ _ _ _ _ E).
Qed.
Lemma hostportsplit_of_hostinfo s h p : port_ok p -> h <> [] -> host_ascii_part h = true ->
  hostinfo_of s = (h, port_str p) -> hostportsplit s = Ok (Some (lower_before_pct h), p).
Proof.
  intros Hp Hne Ha Hi. unfold hostportsplit.
  rewrite (hostname_of_hostinfo s h _ Hne Ha Hi), (port_of_hostinfo s h p Hp Hi). reflexivity.
Qed.
Lemma userinfo_of_none s : mem 64 s = false -> userinfo_of s = (None, None).
Proof. intros H. unfold userinfo_of. rewrite rpartition_notfound by exact H. reflexivity. Qed.

Lemma endswith_snoc s c : endswith (s ++ [c]) [c] = true.
Proof. unfold endswith. rewrite rev_app_distr. cbn [rev app]. apply startswith_cons. Qed.
Lemma startswith_no s c : mem c s = false -> startswith s [c] = false.
Proof. destruct s as [|x s]; [reflexivity|]. rewrite mem_cons. intros H. cbn [startswith]. replace (x =? c) with false by lia. reflexivity. Qed.

Lemma hostportjoin_plain h p : mem 58 h = false -> hostportjoin h p = Ok (h ++ port_text p).
Proof. intros H. unfold hostportjoin. rewrite H. cbn [andb]. destruct p; cbn [port_text]; [reflexivity | rewrite app_nil_r; reflexivity]. Qed.
Lemma hostportjoin_bare6 h p : mem 58 h = true -> mem 91 h = false -> hostportjoin h p = Ok (91 :: h ++ 93 :: port_text p).
Proof.
  intros H58 H91. unfold hostportjoin. rewrite H58, startswith_no by exact H91. cbn [andb negb].
  destruct p; cbn [port_text app]; rewrite <- ?app_assoc; reflexivity.
Qed.
Lemma hostportjoin_bracketed h p : hostportjoin (91 :: h ++ [93]) p = Ok (91 :: h ++ 93 :: port_text p).
Proof.
  unfold hostportjoin. rewrite startswith_cons. change (91 :: h ++ [93]) with ((91 :: h) ++ [93]). rewrite endswith_snoc.
  cbn [andb negb]. rewrite andb_false_r.
  destruct p; cbn [port_text app]; rewrite <- ?app_assoc; reflexivity.
Qed.

(* names and IPv4 literals: anything without ":", "@", "[" *)
Theorem hostport_join_split_name h p : port_ok p -> h <> [] -> host_ascii_part h = true ->
  mem 58 h = false -> mem 64 h = false -> mem 91 h = false ->
  exists j, hostportjoin h p = Ok j /\ hostportsplit j = Ok (Some (lower_before_pct h), p).
Proof.
  intros Hp Hne Ha H58 H64 H91. exists (h ++ port_text p). split; [apply hostportjoin_plain; exact H58|].
  apply hostportsplit_of_hostinfo; auto. apply hostinfo_of_plain; auto.
Qed.
(* IPv6 literals with optional zone, given bare or in brackets: contain ":", no "]", "[", "@" *)
Theorem hostport_join_split_ip6 h p : port_ok p -> host_ascii_part h = true ->
  mem 58 h = true -> mem 93 h = false -> mem 91 h = false -> mem 64 h = false ->
  exists j, hostportjoin h p = Ok j /\ hostportjoin (91 :: h ++ [93]) p = Ok j /\
            hostportsplit j = Ok (Some (lower_before_pct h), p).
Proof.
  intros Hp Ha H58 H93 H91 H64. exists (91 :: h ++ 93 :: port_text p).
  split; [apply hostportjoin_bare6; auto|]. split; [apply hostportjoin_bracketed|].
  apply hostportsplit_of_hostinfo; auto.
  - intros ->. discriminate.
  - apply hostinfo_of_bracketed; auto.
Qed.

Lemma unquote_path_raises path e : unquote_path path = Raise e -> e = UnicodeDecodeError.
Proof. unfold unquote_path. destruct (_ || _); [discriminate|]. apply (mapM_raises unquote (fun e => e = UnicodeDecodeError)). apply unquote_raises. Qed.
Lemma unquote_query_raises q e : unquote_query q = Raise e -> e = UnicodeDecodeError.
Proof. unfold unquote_query. destruct (is_nil q); [discriminate|]. apply (mapM_raises unquote (fun e => e = UnicodeDecodeError)). apply unquote_raises. Qed.
Lemma port_of_spec netloc : match port_of netloc with Ok p => port_ok p | Raise e => e = ValueError end.
Proof.
  unfold port_of. destruct (snd (hostinfo_of netloc)) as [ds|]; [|exact I].
  destruct (forallb is_digit ds) eqn:Ed; [|reflexivity]. unfold py_int_digits. destruct (_ || _); [reflexivity|]. cbn [bind].
  destruct (parse_dec ds <=? 65535) eqn:El; [|reflexivity]. cbn.
  split; [rewrite parse_dec_unfold; apply parse_dec_nonneg; [exact Ed | lia] | lia].
Qed.
Lemma port_of_raises netloc e : port_of netloc = Raise e -> e = ValueError.
Proof. intros H. pose proof (port_of_spec netloc) as S. rewrite H in S. exact S. Qed.
Lemma port_of_ok netloc port : port_of netloc = Ok port -> port_ok port.
Proof. intros H. pose proof (port_of_spec netloc) as S. rewrite H in S. exact S. Qed.
Lemma hostname_of_raises netloc e : hostname_of netloc = Raise e -> e = Unmodelled.
Proof. rewrite hostname_of_eq. cbv zeta. destruct (is_nil _); [discriminate|]. destruct (host_ascii_part _); congruence. Qed.
Lemma py_int_digits_short x : is_nil x = false -> blen x <= 3 -> exists v, py_int_digits x = Ok v.
Proof.
  intros Hn Hl. unfold py_int_digits. destruct x as [|c x]; [discriminate|]. rewrite blen_cons in *. pose proof (blen_nonneg x).
  replace ((4300 <? 1 + blen x) || (1 + blen x =? 0)) with false by lia. eexists. reflexivity.
Qed.
(* the IPv4-literal test cannot raise: int() only sees non-empty parts of at most three characters *)
Lemma all_octets_total parts : exists b, all_octets parts = Ok b.
Proof.
  induction parts as [|x r IH]; cbn [all_octets]; [eexists; reflexivity|].
  destruct (is_nil x) eqn:En; [eexists; reflexivity|]. destruct (blen x <=? 3) eqn:El; cbn [negb]; [|eexists; reflexivity].
  destruct (py_int_digits_short x En ltac:(lia)) as (v & Hv). rewrite Hv. cbn [bind]. destruct (v <=? 255); [exact IH | eexists; reflexivity].
Qed.
Lemma is_ipv4_literal_total h : exists b, is_ipv4_literal h = Ok b.
Proof. unfold is_ipv4_literal. destruct (_ && _); [apply all_octets_total | eexists; reflexivity]. Qed.
Lemma all_octets_long parts : Exists (fun x => 3 < blen x) parts -> all_octets parts = Ok false.
Proof.
  induction parts as [|x r IH]; intros H; [inv H|]. cbn [all_octets].
  destruct (is_nil x) eqn:En; [reflexivity|]. destruct (blen x <=? 3) eqn:El; cbn [negb]; [|reflexivity].
  destruct (py_int_digits_short x En ltac:(lia)) as (v & ->). cbn [bind]. destruct (v <=? 255); [|reflexivity].
  apply IH. inv H; [lia | assumption].
Qed.
Lemma is_ipv4_literal_long h : Exists (fun x => 3 < blen x) (split_on 46 h) -> is_ipv4_literal h = Ok false.
Proof. intros H. unfold is_ipv4_literal. destruct (_ && _); [apply all_octets_long; exact H | reflexivity]. Qed.


(* the classes of characters that the removal of tab/CR/LF resp. _splitnetloc leave alone *)
Definition url_safe (c : Z) : bool := negb (unsafe_byte c).
Definition no_delim (c : Z) : bool := negb (is_delim c).
Lemma splitnetloc_app netloc c r : forallb no_delim netloc = true -> is_delim c = true ->
  splitnetloc (netloc ++ c :: r) = (netloc, c :: r).
Proof.
  induction netloc as [|x n IH]; intros H Hc; cbn [app splitnetloc]. { rewrite Hc. reflexivity. }
  cbn [forallb] in H. apply andb_prop in H as [Hx Hn]. apply negb_true_iff in Hx. rewrite Hx, IH by assumption. reflexivity.
Qed.

(* what the proof needs to know about a scheme; every element of coap_schemes has these properties *)
Definition scheme_ok (s : list Z) : bool :=
  match s with
  | c :: _ => (32 <? c) && is_ascii c && is_alpha c
  | [] => false
  end && forallb scheme_char s && beqb (lower_ascii s) s && negb (mem 58 s) && forallb url_safe s.
Lemma coap_schemes_ok s : existsb (beqb s) coap_schemes = true -> scheme_ok s = true.
Proof.
  intros H. apply existsb_exists in H as (x & Hin & E). apply list_eqb_Z_eq in E. subst x.
  assert (F : forallb scheme_ok coap_schemes = true) by reflexivity. rewrite forallb_forall in F. exact (F s Hin).
Qed.

(* the composed text: scheme "://" netloc "/" rest-of-path, and "?query" if there is a query *)
Lemma urlunsplit_full scheme netloc pr qtext : scheme <> [] -> netloc <> [] ->
  urlunsplit scheme netloc (47 :: pr) qtext = scheme ++ 58 :: [47; 47] ++ netloc ++ 47 :: (if is_nil qtext then pr else pr ++ 63 :: qtext).
Proof.
  intros Hs Hn. unfold urlunsplit. destruct scheme as [|s0 sr]; [congruence|]. destruct netloc as [|n0 nr]; [congruence|].
  rewrite startswith_cons. cbn [is_nil negb orb andb].
  destruct qtext; cbn [is_nil negb]; rewrite <- ?app_assoc; cbn [app]; rewrite <- ?app_assoc; reflexivity.
Qed.

Section Split.
Variable ip_address : list Z -> ipres.

(* urlsplit's bracket checks pass for this network location (the expression inside urlsplit, the rest of the text replaced by []) *)
Definition brackets_ok (netloc : list Z) : Prop :=
  (if (mem 91 netloc && negb (mem 93 netloc)) || (mem 93 netloc && negb (mem 91 netloc)) then Raise ValueError
   else _ <- (if mem 91 netloc && mem 93 netloc
              then check_bracketed_host ip_address (fst (fst (partition 93 (snd (partition 91 netloc)))))
              else Ok tt) ;; Ok (netloc, @nil Z)) = Ok (netloc, @nil Z).

Lemma check_bracketed_host_raises h e : check_bracketed_host ip_address h = Raise e -> e = ValueError.
Proof.
  unfold check_bracketed_host. destruct (startswith h [118]).
  - destruct (partition 46 (skipn 1 h)) as [[a d] t]. destruct (_ && _); congruence.
  - destruct (ip_address h); congruence.
Qed.
(* urlsplit in one statement: its two errors, and how an accepted text was cut up *)
Lemma urlsplit_spec uri :
  match urlsplit ip_address uri with
  | Ok (s, netloc, path, query, frag) =>
    exists url rest, url = snd (split_scheme (remove_unsafe (lstrip_c0 uri))) /\ all_ascii netloc = true /\
      (netloc = [] /\ rest = url \/ (netloc, rest) = splitnetloc (skipn 2 url) /\ brackets_ok netloc) /\
      path = fst (fst (partition 63 (fst (fst (partition 35 rest))))) /\ query = snd (partition 63 (fst (fst (partition 35 rest))))
  | Raise e => e = ValueError \/ e = Unmodelled
  end.
Proof.
  unfold urlsplit. destruct (split_scheme _) as [scheme url]. cbn [snd].
  set (m := if startswith url [47; 47] then _ else _).
  assert (Hm : match m with
               | Ok (nl, rest) => nl = [] /\ rest = url \/ (nl, rest) = splitnetloc (skipn 2 url) /\ brackets_ok nl
               | Raise e => e = ValueError
               end).
  { unfold m. destruct (startswith url [47; 47]); [|left; auto]. destruct (splitnetloc (skipn 2 url)) as [a b].
    destruct (_ || _) eqn:Ec; [reflexivity|].
    destruct (if mem 91 a && mem 93 a then _ else Ok tt) as [[]|e] eqn:Ek; cbn [bind].
    - right. split; [reflexivity|]. unfold brackets_ok. rewrite Ec, Ek. reflexivity.
    - destruct (mem 91 a && mem 93 a); [exact (check_bracketed_host_raises _ _ Ek) | discriminate]. }
  destruct m as [[nl rest]|e]; cbn [bind]; [|left; exact Hm].
  destruct (partition 35 rest) as [[u hf] fragment] eqn:E35. destruct (partition 63 u) as [[pth hq] qy] eqn:E63.
  destruct (all_ascii nl) eqn:Ea; [|right; reflexivity]. exists url, rest. rewrite E35. cbn [fst]. rewrite E63. cbn [fst snd]. auto.
Qed.
Lemma undecided_remote_spec s n :
  match undecided_remote ip_address s n with Ok r => fst r = s | Raise e => e = ValueError \/ e = Unmodelled end.
Proof.
  unfold undecided_remote. destruct (mem 91 n); [|reflexivity]. unfold hostportsplit.
  pose proof (hostname_of_raises n) as Hh. pose proof (port_of_raises n) as Hp.
  destruct (hostname_of n) as [host|e]; cbn [bind]; [|right; apply Hh; reflexivity].
  destruct (port_of n) as [port|e]; cbn [bind]; [|left; apply Hp; reflexivity].
  destruct host as [host|]; [|left; reflexivity]. destruct (ip_address host); [left; reflexivity | |]; reflexivity.
Qed.

Lemma urlsplit_urlunsplit scheme netloc ptext qtext :
  scheme_ok scheme = true ->
  netloc <> [] -> all_ascii netloc = true -> brackets_ok netloc -> forallb no_delim netloc = true -> forallb url_safe netloc = true ->
  startswith ptext [47] = true -> mem 63 ptext = false -> mem 35 ptext = false -> forallb url_safe ptext = true ->
  mem 35 qtext = false -> forallb url_safe qtext = true ->
  urlsplit ip_address (urlunsplit scheme netloc ptext qtext) = Ok (scheme, netloc, ptext, qtext, []).
Proof.
  intros Hs Hne Hasc Hbr Nd Ns Pst P63 P35 Ps Q35 Qs.
  unfold scheme_ok in Hs. destruct scheme as [|s0 sr]; [discriminate|].
  apply andb_prop in Hs as [Hs Ss]. apply andb_prop in Hs as [Hs S58]. apply andb_prop in Hs as [Hs Hlow].
  apply andb_prop in Hs as [Hs Schars]. apply andb_prop in Hs as [Hs Salpha]. apply andb_prop in Hs as [S32 Sascii].
  apply negb_true_iff in S58. apply list_eqb_Z_eq in Hlow.
  destruct ptext as [|p0 pr]; [discriminate|]. cbn [startswith] in Pst. apply andb_prop in Pst as [Pst _]. apply Z.eqb_eq in Pst. subst p0.
  rewrite urlunsplit_full by (discriminate || exact Hne). set (rest := if is_nil qtext then pr else pr ++ 63 :: qtext).
  assert (Rs : forallb url_safe (47 :: rest) = true).
  { unfold rest. destruct (is_nil qtext); [exact Ps|]. cbn [forallb] in Ps |- *. apply andb_prop in Ps as [-> Ps].
    rewrite forallb_app. cbn [forallb]. rewrite Ps, Qs. reflexivity. }
  (* through the stages of urlsplit: lstrip and removal of tab/CR/LF, scheme, network location, fragment and query *)
  unfold urlsplit.
  cbn [app lstrip_c0]. replace ((0 <=? s0) && (s0 <=? 32)) with false by lia.
  unfold remove_unsafe. rewrite (filter_all url_safe).
  2:{ apply forallb_forall. change (s0 :: sr ++ 58 :: 47 :: 47 :: netloc ++ 47 :: rest) with ((s0 :: sr) ++ [58; 47; 47] ++ netloc ++ 47 :: rest).
      rewrite !forallb_app, Ss, Ns, Rs. reflexivity. }
  unfold split_scheme.
  change (s0 :: sr ++ 58 :: 47 :: 47 :: netloc ++ 47 :: rest) with ((s0 :: sr) ++ 58 :: [47; 47] ++ netloc ++ 47 :: rest).
  rewrite partition_found by exact S58.
  cbn [app]. rewrite Schars, Sascii, Salpha. cbn [andb]. rewrite Hlow.
  rewrite startswith_cons2. cbn [skipn]. rewrite splitnetloc_app by (exact Nd || reflexivity).
  unfold brackets_ok in Hbr.
  destruct ((mem 91 netloc && negb (mem 93 netloc)) || (mem 93 netloc && negb (mem 91 netloc))); [discriminate|].
  destruct (if mem 91 netloc && mem 93 netloc then _ else Ok tt) as [[]|]; [|discriminate]. cbn [bind].
  unfold rest. destruct qtext as [|q0 qr]; cbn [is_nil].
  - rewrite (partition_notfound 35) by exact P35.
    rewrite (partition_notfound 63) by exact P63. rewrite Hasc. reflexivity.
  - change (47 :: pr ++ 63 :: q0 :: qr) with ((47 :: pr) ++ 63 :: q0 :: qr).
    rewrite (partition_notfound 35) by (rewrite mem_app, P35, mem_cons, Q35; reflexivity).
    rewrite (partition_found 63) by exact P63. rewrite Hasc. reflexivity.
Qed.
End Split.

(* the characters of a host part that is ASCII and free of every delimiter of a network location and of a URI *)
Definition host_text (c : Z) : bool := is_ascii c && negb (mem c [58; 64; 91; 93; 47; 63; 35; 9; 10; 13]).
Lemma host_text_props c : host_text c = true -> is_ascii c = true /\ no_delim c = true /\ url_safe c = true.
Proof. unfold host_text, no_delim, is_delim, url_safe, unsafe_byte, is_ascii. cbn [mem existsb]. lia. Qed.
Lemma regname_char_props c : regname_char c = true -> host_text c = true /\ is_upper c = false /\ c <> 37 /\ 0 <= c.
Proof. unfold regname_char, host_text, is_lower, is_digit, is_upper, is_ascii, sub_delims. cbn [mem existsb]. lia. Qed.

(* ascii_lowercase maps the range "A".."Z" to itself shifted by 32; a table of that shape is a conditional *)
Fixpoint shift_tbl (k a : Z) (n : nat) : list (Z * Z) :=
  match n with O => [] | S n => (a, a + k) :: shift_tbl k (a + 1) n end.
Lemma lookup_tbl_shift k n : forall a c,
  lookup_tbl (shift_tbl k a n) c = if (a <=? c) && (c <? a + Z.of_nat n) then c + k else c.
Proof.
  induction n as [|n IH]; intros a c. { cbn [shift_tbl lookup_tbl]. replace ((a <=? c) && (c <? a + Z.of_nat 0)) with false by lia. reflexivity. }
  cbn [shift_tbl lookup_tbl]. rewrite IH, Nat2Z.inj_succ. destruct (a =? c) eqn:E.
  - replace ((a <=? c) && (c <? a + Z.succ (Z.of_nat n))) with true by lia. lia.
  - replace ((a + 1 <=? c) && (c <? a + 1 + Z.of_nat n)) with ((a <=? c) && (c <? a + Z.succ (Z.of_nat n))) by lia. reflexivity.
Qed.
Lemma translate_lower s : translate ascii_lowercase s = lower_ascii s.
Proof.
  apply map_ext. intros c. change ascii_lowercase with (shift_tbl 32 65 26). rewrite lookup_tbl_shift.
  unfold lower_c, is_upper. replace (c <? 65 + Z.of_nat 26) with (c <=? 90) by lia. reflexivity.
Qed.
Lemma regular_not_upper h : forallb regname_char h = true -> Forall not_upper h.
Proof. intros H. apply Forall_forall. intros c Hin. rewrite forallb_forall in H. apply (regname_char_props c (H c Hin)). Qed.

Lemma unquote_plain h : forallb (fun c => (0 <=? c) && (c <? 128)) h = true -> mem 37 h = false -> unquote h = Ok h.
Proof.
  intros Ha H37. rewrite unquote_ascii by (revert Ha; apply forallb_impl; unfold is_ascii; lia).
  rewrite unquote_impl_id by exact H37. apply utf8_decode_ascii. exact Ha.
Qed.

Lemma utf8_no_upper : forall h b, utf8_encode h = Ok b -> Forall not_upper h -> Forall not_upper b.
Proof.
  apply (utf8_encode_ok_ind (fun h b => Forall not_upper h -> Forall not_upper b)); [auto|]. intros c s bc bs Ec _ IH F. inv F. apply Forall_app. split; [|auto].
  pose proof (utf8_encode_char_spec c) as Hc. rewrite Ec in Hc. destruct Hc as (_ & _ & _ & [-> | Hhigh] & _); [auto|].
  apply Forall_forall. intros x Hin. rewrite forallb_forall in Hhigh. specialize (Hhigh x Hin). unfold not_upper, is_upper. lia.
Qed.
Lemma lower_before_pct_cons x s : x <> 37 -> lower_before_pct (x :: s) = lower_c x :: lower_before_pct s.
Proof.
  intros H. unfold lower_before_pct. cbn [partition]. replace (x =? 37) with false by lia.
  destruct (partition 37 s) as [[a pc] z]. reflexivity.
Qed.
Lemma lower_before_pct_qbytes safe b : mem 37 safe = false -> Forall not_upper b ->
  lower_before_pct (flat_map (qbyte safe) b) = flat_map (qbyte safe) b.
Proof.
  intros H37. induction b as [|x b IH]; intros F; [reflexivity|]. inv F. cbn [flat_map]. unfold qbyte at 1 3.
  destruct (mem x safe) eqn:Em.
  - cbn [app]. rewrite lower_before_pct_cons by (intros ->; congruence). rewrite IH by assumption.
    unfold lower_c. unfold not_upper in *. rewrite H1. reflexivity.
  - cbn [app]. unfold lower_before_pct. rewrite partition_head. reflexivity.
Qed.
Lemma dd_chars_safe : forall c, dd c = true -> mem c quote_for_host_chars = true /\ 0 <= c < 128.
Proof.
  intros c H. unfold dd, is_digit in H.
  assert (E : c = 46 \/ c = 48 \/ c = 49 \/ c = 50 \/ c = 51 \/ c = 52 \/ c = 53 \/ c = 54 \/ c = 55 \/ c = 56 \/ c = 57) by lia.
  repeat (destruct E as [-> | E]; [split; [reflexivity | lia]|]). subst. split; [reflexivity | lia].
Qed.
(* a host of digits and dots is left alone by the host quoting ... *)
Lemma quote_host_dd h : forallb dd h = true -> quote quote_for_host_chars h = Ok h.
Proof.
  intros H. rewrite quote_unfold.
  assert (Ha : forallb (fun c => (0 <=? c) && (c <? 128)) h = true).
  { apply forallb_forall. intros x Hin. rewrite forallb_forall in H. destruct (dd_chars_safe x (H x Hin)). lia. }
  rewrite utf8_encode_ascii by exact Ha. cbn [bind]. f_equal.
  induction h as [|c h IH]; [reflexivity|]. cbn [forallb] in H, Ha. apply andb_prop in H as [Hc Hh]. apply andb_prop in Ha as [_ Ha].
  cbn [flat_map]. unfold qbyte at 1. destruct (dd_chars_safe c Hc) as [-> _]. cbn [app]. f_equal. apply IH; assumption.
Qed.
(* ... and only such a host is quoted into digits and dots: text of digits and dots is its own unquoting *)
Lemma quote_dd_back h e : quote quote_for_host_chars h = Ok e -> forallb dd e = true -> e = h.
Proof.
  intros Hq Hd. pose proof (unquote_quote quote_for_host_chars h e eq_refl eq_refl Hq) as U. rewrite unquote_plain in U.
  - ok_inj U. reflexivity.
  - revert Hd. apply forallb_impl. unfold dd, is_digit. lia.
  - apply (forallb_mem_false _ _ 37 Hd). reflexivity.
Qed.
Lemma is_ipv4_literal_quoted h e : quote quote_for_host_chars h = Ok e -> is_ipv4_literal h = Ok false -> is_ipv4_literal e = Ok false.
Proof.
  intros Hq Hl. unfold is_ipv4_literal. fold dd. destruct (forallb dd e) eqn:Ed.
  - pose proof (quote_dd_back _ _ Hq Ed) as E. subst e. unfold is_ipv4_literal in Hl. fold dd in Hl. rewrite Ed in Hl. exact Hl.
  - rewrite andb_false_r. reflexivity.
Qed.
Lemma strip_brackets_id t : mem 91 t = false -> mem 93 t = false -> strip_brackets t = t.
Proof.
  intros H91 H93. unfold strip_brackets. destruct t as [|c r]; [reflexivity|].
  rewrite mem_cons in H91. apply orb_false_elim in H91 as [A _]. replace (c =? 91) with false by lia.
  rewrite <- mem_rev in H93. destruct (rev (c :: r)) as [|y ry]; [reflexivity|].
  rewrite mem_cons in H93. apply orb_false_elim in H93 as [B _]. replace (y =? 93) with false by lia. reflexivity.
Qed.

Section Roundtrip.
Variable ip_address : list Z -> ipres.

Lemma get_request_uri_composed (m : request_opts) netloc :
  o_proxy_uri m = None -> o_proxy_scheme m = None -> compose_netloc ip_address m = Ok netloc ->
  forallb valid_str (o_uri_path m) = true -> forallb valid_str (o_uri_query m) = true ->
  exists ptext qtext, compose_path (o_uri_path m) = Ok ptext /\ compose_query (o_uri_query m) = Ok qtext /\
    get_request_uri ip_address m = Ok (urlunsplit (r_scheme m) netloc ptext qtext).
Proof.
  intros Hpu Hps Enet Hpv Hqv.
  destruct (compose_path_total _ Hpv) as (ptext & Ept). destruct (compose_query_total _ Hqv) as (qtext & Eqt).
  exists ptext, qtext. split; [exact Ept|]. split; [exact Eqt|].
  unfold get_request_uri. rewrite Hpu, Hps, Enet, Eqt, Ept. reflexivity.
Qed.

(* Decomposition of a composed URI, for an abstract network location: everything set_request_uri looks at in the netloc
   is a hypothesis. Instantiated below for quoted host names, reg-names / IPv4 literals and bracketed IPv6 literals. *)
Lemma decompose_composed scheme netloc hn p remote_hi lit path query ptext qtext uh :
  existsb (beqb scheme) coap_schemes = true ->
  all_ascii netloc = true -> brackets_ok ip_address netloc ->
  forallb no_delim netloc = true -> forallb url_safe netloc = true ->
  hostname_of netloc = Ok (Some hn) -> (let '(u, pw) := userinfo_of netloc in truthy u || truthy pw) = false -> port_of netloc = Ok p ->
  undecided_remote ip_address scheme netloc = Ok (scheme, remote_hi) ->
  (if mem 91 netloc then Ok true else is_ipv4_literal hn) = Ok lit ->
  (if lit then uh = None else exists h', unquote hn = Ok h' /\ uh = Some (translate ascii_lowercase h')) ->
  path <> [[]] -> query <> [[]] -> compose_path path = Ok ptext -> compose_query query = Ok qtext ->
  set_request_uri ip_address (urlunsplit scheme netloc ptext qtext) true = Ok (DRequest scheme remote_hi uh path query).
Proof.
  intros Hsch Hasc Hbr Nd Ns Hhn Hui Hport Hrem Hlit Huh Hpd Hqd Ept Eqt.
  assert (Hne : netloc <> []) by (intros ->; discriminate).
  destruct (path_roundtrip _ Hpd _ Ept) as (Pback & P63 & P35 & Pst).
  destruct (query_roundtrip _ Hqd _ Eqt) as (Qback & Q35).
  pose proof (coap_schemes_ok _ Hsch) as Hok.
  unfold set_request_uri.
  rewrite urlsplit_urlunsplit; try assumption;
    [|exact (compose_path_forallb url_safe _ _ eq_refl Ept) | exact (compose_query_forallb url_safe _ _ eq_refl Eqt)].
  cbn [catch_value bind is_nil negb]. destruct scheme as [|s0 sr] eqn:Es; [discriminate|]. cbn [is_nil].
  rewrite Hsch. cbn [negb]. rewrite Hhn. cbn [bind]. destruct (userinfo_of netloc) as [u0 pw0]. rewrite Hui.
  rewrite Pback, Qback. cbn [catch_unicode bind]. rewrite Hport. cbn [catch_value bind]. rewrite Hrem. cbn [catch_value bind fst snd].
  rewrite Hlit. cbn [bind andb]. destruct lit; cbn [negb].
  - subst uh. reflexivity.
  - destruct Huh as (h' & Hu & ->). rewrite Hu. reflexivity.
Qed.

(* network locations  host[:port]  whose host part is free of every delimiter (quoted names, reg-names, IPv4 literals) *)
Definition plain_host (e : list Z) : Prop := e <> [] /\ lower_before_pct e = e /\ forallb host_text e = true.

Lemma decompose_composed_plain scheme e p path query ptext qtext lit uh :
  existsb (beqb scheme) coap_schemes = true -> plain_host e -> port_ok p ->
  is_ipv4_literal e = Ok lit ->
  (if lit then uh = None else exists h', unquote e = Ok h' /\ uh = Some (translate ascii_lowercase h')) ->
  path <> [[]] -> query <> [[]] -> compose_path path = Ok ptext -> compose_query query = Ok qtext ->
  set_request_uri ip_address (urlunsplit scheme (e ++ port_text p) ptext qtext) true = Ok (DRequest scheme (e ++ port_text p) uh path query).
Proof.
  intros Hsch (Hne & Hlow & He) Hp Hlit Huh Hpd Hqd Ept Eqt.
  assert (Hno : forall d, host_text d = false -> mem d e = false) by (intros d; apply forallb_mem_false; exact He).
  set (netloc := e ++ port_text p).
  assert (Nn : forall d, host_text d = false -> mem d port_chars = false -> mem d netloc = false).
  { intros d Hd Hd'. unfold netloc. rewrite mem_app, (Hno d Hd), port_text_no by assumption. reflexivity. }
  (* a class that holds of host text, ":" and the digits holds of the network location *)
  assert (Hcls : forall P : Z -> bool, (forall c, host_text c = true -> P c = true) ->
                   forallb P port_chars = true -> forallb P netloc = true).
  { intros P HP Hd. unfold netloc. rewrite forallb_app, (forallb_impl _ P e HP He), (forallb_over P _ _ (port_text_over p Hp) Hd). reflexivity. }
  assert (Hi : hostinfo_of netloc = (e, port_str p)) by (apply hostinfo_of_plain; auto).
  assert (Hap : host_ascii_part e = true).
  { unfold host_ascii_part. apply partition_forallb. revert He. apply forallb_impl. intros c Hc. apply (host_text_props c Hc). }
  apply (decompose_composed scheme netloc e p netloc lit); try assumption.
  - apply Hcls; [intros c Hc; apply (host_text_props c Hc) | reflexivity].
  - unfold brackets_ok. rewrite (Nn 91), (Nn 93) by reflexivity. reflexivity.
  - apply Hcls; [intros c Hc; apply (host_text_props c Hc) | reflexivity].
  - apply Hcls; [intros c Hc; apply (host_text_props c Hc) | reflexivity].
  - rewrite (hostname_of_hostinfo netloc e _ Hne Hap Hi), Hlow. reflexivity.
  - rewrite userinfo_of_none by (apply Nn; reflexivity). reflexivity.
  - apply (port_of_hostinfo netloc e p Hp Hi).
  - unfold undecided_remote. rewrite (Nn 91) by reflexivity. reflexivity.
  - rewrite (Nn 91) by reflexivity. exact Hlit.
Qed.

Lemma quoted_host_plain h e : h <> [] -> Forall not_upper h -> quote quote_for_host_chars h = Ok e -> plain_host e.
Proof.
  intros Hne Hup Hq. split; [eapply quote_nonempty; eauto|]. split; [|exact (quote_forallb host_text quote_for_host_chars h e eq_refl Hq)].
  apply quote_ok in Hq as (b & Eb & _ & ->). apply lower_before_pct_qbytes; [reflexivity | exact (utf8_no_upper h b Eb Hup)].
Qed.
Lemma regular_host_plain h : regular_host h = true -> plain_host h.
Proof.
  intros Hreg. unfold regular_host in Hreg. apply andb_prop in Hreg as [Hne Hr].
  split; [destruct h; discriminate|]. split.
  - unfold lower_before_pct. rewrite partition_notfound by (apply (forallb_mem_false _ _ 37 Hr); reflexivity).
    rewrite lower_ascii_id, app_nil_r by (apply regular_not_upper; exact Hr). reflexivity.
  - revert Hr. apply forallb_impl. intros c Hc. apply (regname_char_props c Hc).
Qed.
Lemma decompose_composed_regular scheme h p path query ptext qtext lit :
  existsb (beqb scheme) coap_schemes = true -> regular_host h = true -> port_ok p -> is_ipv4_literal h = Ok lit ->
  path <> [[]] -> query <> [[]] -> compose_path path = Ok ptext -> compose_query query = Ok qtext ->
  set_request_uri ip_address (urlunsplit scheme (h ++ port_text p) ptext qtext) true =
    Ok (DRequest scheme (h ++ port_text p) (if lit then None else Some h) path query).
Proof.
  intros Hsch Hreg Hp Hlit Hpd Hqd Ept Eqt.
  eapply decompose_composed_plain; try eassumption; [apply regular_host_plain; exact Hreg|].
  destruct lit; [reflexivity|]. unfold regular_host in Hreg. apply andb_prop in Hreg as [_ Hr].
  exists h. split.
  - apply unquote_plain; [|apply (forallb_mem_false _ _ 37 Hr); reflexivity].
    revert Hr. apply forallb_impl. intros c Hc. destruct (regname_char_props c Hc) as (Ht & _ & _ & H0).
    apply host_text_props in Ht as (Ha & _). unfold is_ascii in Ha. lia.
  - rewrite translate_lower, lower_ascii_id by (apply regular_not_upper; exact Hr). reflexivity.
Qed.

(* The non-degenerate option set with Uri-Host h on a remote whose hostinfo splits into (h0, p0): Uri-Path <> [""],
   Uri-Query <> [""], all strings encodable; Uri-Host non-empty, without upper-case ASCII letters (6.4 always produces such values),
   not itself the text of an IP address (else 6.5 keeps it as a literal), and not passing the IPv4-literal test; effective port in
   0..65535. Uri-Host may contain ANY other character, reserved, "%" and non-ASCII included: it is percent-encoded (_quote_for_host, aiocoap 76b5301). *)
Definition named_opts (m : request_opts) h h0 p0 : Prop :=
  existsb (beqb (r_scheme m)) coap_schemes = true /\ o_proxy_uri m = None /\ o_proxy_scheme m = None /\
  o_uri_host m = Some h /\ h <> [] /\ valid_str h = true /\ Forall not_upper h /\
  ip_address (strip_brackets h) = IpBad /\ is_ipv4_literal h = Ok false /\ hostportsplit (r_hostinfo m) = Ok (h0, p0) /\
  port_ok (match o_uri_port m with Some n => if n =? 0 then p0 else Some n | None => p0 end) /\
  o_uri_path m <> [[]] /\ o_uri_query m <> [[]] /\
  forallb valid_str (o_uri_path m) = true /\ forallb valid_str (o_uri_query m) = true.
Theorem options_uri_options_name (m : request_opts) h h0 p0 : named_opts m h h0 p0 ->
  let p := match o_uri_port m with Some n => if n =? 0 then p0 else Some n | None => p0 end in
  exists u e, get_request_uri ip_address m = Ok u /\ quote quote_for_host_chars h = Ok e /\
            set_request_uri ip_address u true = Ok (DRequest (r_scheme m) (e ++ port_text p) (Some h) (o_uri_path m) (o_uri_query m)).
Proof.
  intros (Hsch & Hpu & Hps & Hh & Hne & Hval & Hup & Hip & Hlit & Hsplit & Hp & Hpd & Hqd & Hpv & Hqv) p.
  destruct (quote_total quote_for_host_chars h Hval) as (e & He).
  pose proof (quoted_host_plain h e Hne Hup He) as Hplain.
  assert (Enet : compose_netloc ip_address m = Ok (e ++ port_text p)).
  { unfold compose_netloc. rewrite Hh, Hsplit. cbn [bind]. fold p. destruct h as [|c0 hr]; [congruence|].
    unfold escape_host. rewrite Hip, He. cbn [bind]. apply hostportjoin_plain.
    destruct Hplain as (_ & _ & Ht). apply (forallb_mem_false _ _ 58 Ht). reflexivity. }
  destruct (get_request_uri_composed m _ Hpu Hps Enet Hpv Hqv) as (ptext & qtext & Ept & Eqt & G).
  exists (urlunsplit (r_scheme m) (e ++ port_text p) ptext qtext), e. split; [exact G|]. split; [exact He|].
  eapply decompose_composed_plain; try eassumption.
  - eapply is_ipv4_literal_quoted; eauto.
  - cbn iota. exists h. split; [apply (unquote_quote quote_for_host_chars h e); [reflexivity | reflexivity | exact He]|].
    rewrite translate_lower, lower_ascii_id by exact Hup. reflexivity.
Qed.

(* The non-degenerate option set whose authority is the remote's (no Uri-Host / Uri-Port): host[:port] with a lower-case ASCII
   reg-name or an IPv4 literal. An IPv4 literal is NOT sent as Uri-Host, a name is. *)
Definition hostinfo_opts (m : request_opts) h p (lit : bool) : Prop :=
  existsb (beqb (r_scheme m)) coap_schemes = true /\ o_proxy_uri m = None /\ o_proxy_scheme m = None /\
  o_uri_host m = None /\ o_uri_port m = None /\ r_hostinfo m = h ++ port_text p /\ regular_host h = true /\
  is_ipv4_literal h = Ok lit /\ port_ok p /\ o_uri_path m <> [[]] /\ o_uri_query m <> [[]] /\
  forallb valid_str (o_uri_path m) = true /\ forallb valid_str (o_uri_query m) = true.
Theorem options_uri_options_hostinfo (m : request_opts) h p lit : hostinfo_opts m h p lit ->
  exists u, get_request_uri ip_address m = Ok u /\
            set_request_uri ip_address u true =
              Ok (DRequest (r_scheme m) (r_hostinfo m) (if lit then None else Some h) (o_uri_path m) (o_uri_query m)).
Proof.
  intros (Hsch & Hpu & Hps & Hh & Hport & Hhi & Hreg & Hlit & Hp & Hpd & Hqd & Hpv & Hqv).
  assert (Enet : compose_netloc ip_address m = Ok (h ++ port_text p)) by (unfold compose_netloc; rewrite Hh, Hport, Hhi; reflexivity).
  destruct (get_request_uri_composed m _ Hpu Hps Enet Hpv Hqv) as (ptext & qtext & Ept & Eqt & G).
  eexists. split; [exact G|]. rewrite Hhi. apply decompose_composed_regular; assumption.
Qed.

(* bracketed IPv6 literals with zone identifiers. [t] is the text str(ipaddress.ip_address(..)) produces. What the proof
   needs to know about it: it is a fixed point of ip_address, contains ":" and none of the characters that delimit it inside
   a URI, is ASCII and lower-case up to the zone, and does not start with "v". *)
Definition ip6_text_ok (t : list Z) : Prop :=
  ip_address t = Ip6 t /\ mem 58 t = true /\ all_ascii t = true /\ lower_before_pct t = t /\ startswith t [118] = false /\
  Forall (fun d => mem d t = false) [64; 91; 93; 47; 63; 35; 9; 10; 13].
Lemma ip6_text_avoids t : ip6_text_ok t -> forall d, mem d [64; 91; 93; 47; 63; 35; 9; 10; 13] = true -> mem d t = false.
Proof. intros (_ & _ & _ & _ & _ & Hno) d Hd. rewrite Forall_forall in Hno. apply Hno, mem_true_in, Hd. Qed.
Lemma hostportsplit_ip6 t q : ip6_text_ok t -> port_ok q -> hostportsplit (91 :: t ++ 93 :: port_text q) = Ok (Some t, q).
Proof.
  intros Hok Hq. pose proof (ip6_text_avoids t Hok) as N. destruct Hok as (_ & H58 & Hasc & Hlow & _).
  rewrite <- Hlow at 2. apply hostportsplit_of_hostinfo; auto.
  - intros ->. discriminate.
  - unfold host_ascii_part. apply partition_forallb. exact Hasc.
  - apply hostinfo_of_bracketed; [exact Hq | apply N; reflexivity | apply N; reflexivity].
Qed.
Lemma decompose_composed_ip6 scheme t p path query ptext qtext :
  existsb (beqb scheme) coap_schemes = true -> ip6_text_ok t -> port_ok p ->
  path <> [[]] -> query <> [[]] -> compose_path path = Ok ptext -> compose_query query = Ok qtext ->
  set_request_uri ip_address (urlunsplit scheme (91 :: t ++ 93 :: port_text p) ptext qtext) true =
    Ok (DRequest scheme (91 :: t ++ 93 :: port_text p) None path query).
Proof.
  intros Hsch Hok Hp Hpd Hqd Ept Eqt.
  pose proof (ip6_text_avoids t Hok) as N. pose proof (hostportsplit_ip6 t p Hok Hp) as Hsplit.
  destruct Hok as (Hfix & H58 & Hasc & Hlow & Hv & Hno).
  set (netloc := 91 :: t ++ 93 :: port_text p) in *.
  (* as in decompose_composed_plain, for a class that excludes only what t avoids *)
  assert (Hcls : forall P : Z -> bool, (forall c, P c = false -> In c [64; 91; 93; 47; 63; 35; 9; 10; 13]) ->
                   forallb P (91 :: 93 :: port_chars) = true -> forallb P netloc = true).
  { intros P HP Hd. cbn [forallb] in Hd. apply andb_prop in Hd as [P91 Hd]. apply andb_prop in Hd as [P93 Hd].
    unfold netloc. cbn [forallb]. rewrite forallb_app. cbn [forallb].
    rewrite P91, P93, (forallb_not_in P _ t HP Hno), (forallb_over P _ _ (port_text_over p Hp) Hd). reflexivity. }
  assert (M91 : mem 91 netloc = true) by reflexivity.
  assert (M64 : mem 64 netloc = false).
  { unfold netloc. rewrite mem_cons, mem_app, mem_cons, N, port_text_no by (assumption || reflexivity). reflexivity. }
  unfold hostportsplit in Hsplit. apply bind_ok in Hsplit as (ho & Hh & Hsplit). apply bind_ok in Hsplit as (po & Hport & Hsplit).
  ok_inj Hsplit. injection Hsplit as -> ->.
  apply (decompose_composed scheme netloc t p netloc true); try assumption.
  - unfold netloc, all_ascii. cbn [forallb]. rewrite forallb_app. cbn [forallb]. fold (all_ascii t).
    rewrite Hasc, (forallb_over is_ascii _ _ (port_text_over p Hp) eq_refl). reflexivity.
  - unfold brackets_ok. rewrite M91. unfold netloc at 1 2 3. rewrite mem_cons, mem_app, (mem_cons 93 93), Z.eqb_refl, !orb_true_r.
    cbn [andb negb orb]. unfold netloc. rewrite partition_head. cbn [snd]. rewrite (partition_found 93) by (apply N; reflexivity). cbn [fst].
    unfold check_bracketed_host. rewrite Hv, Hfix. reflexivity.
  - apply Hcls; [intros c; unfold no_delim, is_delim; cbn [In]; lia | reflexivity].
  - apply Hcls; [intros c; unfold url_safe, unsafe_byte; cbn [In]; lia | reflexivity].
  - rewrite userinfo_of_none by exact M64. reflexivity.
  - unfold undecided_remote, hostportsplit. rewrite M91, Hh, Hport. cbn [bind]. rewrite Hfix.
    rewrite hostportjoin_bare6 by (auto; apply N; reflexivity). reflexivity.
  - rewrite M91. reflexivity.
  - reflexivity.
Qed.
Theorem options_uri_options_ip6 (m : request_opts) t p0 :
  existsb (beqb (r_scheme m)) coap_schemes = true ->
  o_proxy_uri m = None -> o_proxy_scheme m = None -> o_uri_host m = None ->
  r_hostinfo m = 91 :: t ++ 93 :: port_text p0 -> ip6_text_ok t -> port_ok p0 ->
  let p := match o_uri_port m with Some n => if n =? 0 then p0 else Some n | None => p0 end in
  port_ok p ->
  o_uri_path m <> [[]] -> o_uri_query m <> [[]] ->
  forallb valid_str (o_uri_path m) = true -> forallb valid_str (o_uri_query m) = true ->
  exists u, get_request_uri ip_address m = Ok u /\
            set_request_uri ip_address u true = Ok (DRequest (r_scheme m) (91 :: t ++ 93 :: port_text p) None (o_uri_path m) (o_uri_query m)).
Proof.
  intros Hsch Hpu Hps Hh Hhi Hok Hp0 p Hp Hpd Hqd Hpv Hqv.
  assert (Enet : compose_netloc ip_address m = Ok (91 :: t ++ 93 :: port_text p)).
  { unfold compose_netloc. rewrite Hh. destruct (o_uri_port m) as [n|] eqn:Eport; [|unfold p; rewrite Hhi; reflexivity].
    rewrite Hhi, (hostportsplit_ip6 t p0 Hok Hp0). cbn [bind]. fold p.
    pose proof (ip6_text_avoids t Hok) as N. destruct Hok as (Hfix & H58 & _).
    unfold escape_host. rewrite strip_brackets_id by (apply N; reflexivity). rewrite Hfix. cbn [bind].
    apply hostportjoin_bare6; [exact H58 | apply N; reflexivity]. }
  destruct (get_request_uri_composed m _ Hpu Hps Enet Hpv Hqv) as (ptext & qtext & Ept & Eqt & G).
  eexists. split; [exact G|]. apply decompose_composed_ip6; assumption.
Qed.

(* distinct resources never collapse: two such option sets that compose to the same URI agree on scheme, authority, Uri-Path and
   Uri-Query. (A mixed pair decomposes to one and the same result, set_request_uri being a function.) *)
Theorem compose_injective (m1 m2 : request_opts) h1 h2 a1 b1 a2 b2 u : named_opts m1 h1 a1 b1 -> named_opts m2 h2 a2 b2 ->
  get_request_uri ip_address m1 = Ok u -> get_request_uri ip_address m2 = Ok u ->
  r_scheme m1 = r_scheme m2 /\ h1 = h2 /\ o_uri_path m1 = o_uri_path m2 /\ o_uri_query m1 = o_uri_query m2 /\
  match o_uri_port m1 with Some n => if n =? 0 then b1 else Some n | None => b1 end =
  match o_uri_port m2 with Some n => if n =? 0 then b2 else Some n | None => b2 end.
Proof.
  intros N1 N2 U1 U2.
  destruct (options_uri_options_name m1 h1 a1 b1 N1) as (u1 & e1 & G1 & Q1 & D1).
  destruct (options_uri_options_name m2 h2 a2 b2 N2) as (u2 & e2 & G2 & Q2 & D2).
  rewrite U1 in G1. rewrite U2 in G2. apply Ok_inj in G1. apply Ok_inj in G2. subst u1 u2.
  rewrite D1 in D2. apply Ok_inj in D2. injection D2 as Es Ehi Eh Ep Eq. subst h2.
  rewrite Q1 in Q2. apply Ok_inj in Q2. subst e2. apply app_inv_head in Ehi. apply port_text_inj in Ehi; auto; [apply N1 | apply N2].
Qed.
Theorem compose_injective_hostinfo (m1 m2 : request_opts) h1 p1 l1 h2 p2 l2 u : hostinfo_opts m1 h1 p1 l1 -> hostinfo_opts m2 h2 p2 l2 ->
  get_request_uri ip_address m1 = Ok u -> get_request_uri ip_address m2 = Ok u ->
  r_scheme m1 = r_scheme m2 /\ r_hostinfo m1 = r_hostinfo m2 /\ o_uri_path m1 = o_uri_path m2 /\ o_uri_query m1 = o_uri_query m2.
Proof.
  intros N1 N2 U1 U2.
  destruct (options_uri_options_hostinfo m1 h1 p1 l1 N1) as (u1 & G1 & D1).
  destruct (options_uri_options_hostinfo m2 h2 p2 l2 N2) as (u2 & G2 & D2).
  rewrite U1 in G1. rewrite U2 in G2. apply Ok_inj in G1. apply Ok_inj in G2. subst u1 u2.
  rewrite D1 in D2. apply Ok_inj in D2. injection D2 as Es Ehi _ Ep Eq. auto.
Qed.
End Roundtrip.

Section HostRules.
Variable ip_address : list Z -> ipres.
(* set_request_uri in one statement: a failure is one of the documented errors; a success went through urlsplit without fragment
   and with a scheme, then a foreign scheme gives Proxy-Uri and a CoAP scheme every step of 6.4 *)
Lemma set_request_uri_spec uri flag :
  match set_request_uri ip_address uri flag with
  | Ok d =>
    exists s netloc path query, urlsplit ip_address uri = Ok (s, netloc, path, query, []) /\
      if existsb (beqb s) coap_schemes then
        exists hostname p q port hi lit uh, d = DRequest s hi uh p q /\
          hostname_of netloc = Ok (Some hostname) /\ (let '(u, pw) := userinfo_of netloc in truthy u || truthy pw) = false /\
          unquote_path path = Ok p /\ unquote_query query = Ok q /\ port_of netloc = Ok port /\
          undecided_remote ip_address s netloc = Ok (s, hi) /\ (if mem 91 netloc then Ok true else is_ipv4_literal hostname) = Ok lit /\
          match uh with
          | Some h => flag = true /\ lit = false /\ exists h', unquote hostname = Ok h' /\ h = translate ascii_lowercase h'
          | None => flag = false \/ lit = true
          end
      else d = DProxy uri
  | Raise e => e = MalformedUrlError \/ e = IncompleteUrlError \/ e = Unmodelled
  end.
Proof.
  unfold set_request_uri.
  destruct (urlsplit ip_address uri) as [[[[[s netloc] path] query] fragment]|e] eqn:Eu; cbn [catch_value bind].
  2:{ pose proof (urlsplit_spec ip_address uri) as S. rewrite Eu in S. destruct S as [-> | ->]; cbn; auto. }
  destruct fragment; cbn [is_nil negb]; [|auto]. destruct (is_nil s); [auto|].
  destruct (existsb (beqb s) coap_schemes) eqn:Es; cbn [negb]; [|exists s, netloc, path, query; rewrite Es; auto].
  destruct (hostname_of netloc) as [[hostname|]|e] eqn:Eh; cbn [bind]; [| auto | rewrite (hostname_of_raises _ _ Eh); cbn; auto].
  destruct (userinfo_of netloc) as [username password] eqn:Eui. destruct (truthy username || truthy password) eqn:Etr; [auto|].
  destruct (unquote_path path) as [p|e] eqn:Hp; cbn [catch_unicode bind]; [|rewrite (unquote_path_raises _ _ Hp); cbn; auto].
  destruct (unquote_query query) as [q|e] eqn:Hq; cbn [catch_unicode bind]; [|rewrite (unquote_query_raises _ _ Hq); cbn; auto].
  destruct (port_of netloc) as [port|e] eqn:Hport; cbn [catch_value bind]; [|rewrite (port_of_raises _ _ Hport); cbn; auto].
  pose proof (undecided_remote_spec ip_address s netloc) as Hrem.
  destruct (undecided_remote ip_address s netloc) as [[rs hi]|e] eqn:Er; cbn [catch_value bind fst snd] in *;
    [subst rs | destruct Hrem as [-> | ->]; cbn; auto].
  destruct (if mem 91 netloc then Ok true else is_ipv4_literal hostname) as [lit|e] eqn:Hlit; cbn [bind].
  2:{ destruct (mem 91 netloc); [discriminate|]. destruct (is_ipv4_literal_total hostname) as (b & Hb). congruence. }
  destruct (flag && negb lit) eqn:Ef.
  - destruct (unquote hostname) as [h'|e] eqn:Hh; cbn [catch_unicode bind]; [|rewrite (unquote_raises _ _ Hh); cbn; auto].
    exists s, netloc, path, query. split; [reflexivity|]. rewrite Es. exists hostname, p, q, port, hi, lit, (Some (translate ascii_lowercase h')).
    rewrite Eui, Etr. repeat (split; [assumption || reflexivity|]). apply andb_prop in Ef as [-> Hl]. apply negb_true_iff in Hl. eauto.
  - exists s, netloc, path, query. split; [reflexivity|]. rewrite Es. exists hostname, p, q, port, hi, lit, None.
    rewrite Eui, Etr. repeat (split; [assumption || reflexivity|]). destruct flag; [right; apply negb_false_iff; exact Ef | left; reflexivity].
Qed.

(* For EVERY string: set_request_uri fails only with the two documented errors; [Unmodelled] marks the inputs outside the
   model (non-ASCII network location). *)
Theorem rejects_documented uri flag e : set_request_uri ip_address uri flag = Raise e ->
  e = MalformedUrlError \/ e = IncompleteUrlError \/ e = Unmodelled.
Proof. intros H. pose proof (set_request_uri_spec uri flag) as S. rewrite H in S. exact S. Qed.

(* C16_decompose_spec of Props/C16.v, where the statement is explained *)
Theorem decompose_spec uri flag s hi uh p q : set_request_uri ip_address uri flag = Ok (DRequest s hi uh p q) ->
  existsb (beqb s) coap_schemes = true /\
  exists netloc path query hostname port,
    urlsplit ip_address uri = Ok (s, netloc, path, query, []) /\ hostname_of netloc = Ok (Some hostname) /\
    (let '(u, pw) := userinfo_of netloc in truthy u || truthy pw) = false /\
    unquote_path path = Ok p /\ unquote_query query = Ok q /\
    port_of netloc = Ok port /\ port_ok port /\ hostportsplit netloc = Ok (Some hostname, port) /\
    undecided_remote ip_address s netloc = Ok (s, hi) /\
    (mem 91 netloc = false -> hi = netloc) /\
    (mem 91 netloc = true -> exists n, (ip_address hostname = Ip6 n \/ ip_address hostname = Ip4 n) /\ hostportjoin n port = Ok hi) /\
    match uh with
    | Some h => flag = true /\ mem 91 netloc = false /\ is_ipv4_literal hostname = Ok false /\
                exists h', unquote hostname = Ok h' /\ h = translate ascii_lowercase h'
    | None => flag = false \/ mem 91 netloc = true \/ is_ipv4_literal hostname = Ok true
    end.
Proof.
  intros H. pose proof (set_request_uri_spec uri flag) as S. rewrite H in S. clear H. destruct S as (s' & netloc & path & query & Eu & H).
  destruct (existsb (beqb s') coap_schemes) eqn:Es; [|discriminate].
  destruct H as (hostname & p' & q' & port & hi' & lit & uh' & Ed & Eh & Eui & Hp & Hq & Hport & Hrem & Hlit & Huh).
  injection Ed as <- <- <- <- <-.
  assert (Hsp : hostportsplit netloc = Ok (Some hostname, port)) by (unfold hostportsplit; rewrite Eh, Hport; reflexivity).
  assert (Hplain : mem 91 netloc = false -> hi = netloc).
  { intros N. unfold undecided_remote in Hrem. rewrite N in Hrem. ok_inj Hrem. congruence. }
  assert (Hbr : mem 91 netloc = true -> exists n, (ip_address hostname = Ip6 n \/ ip_address hostname = Ip4 n) /\ hostportjoin n port = Ok hi).
  { intros N. unfold undecided_remote in Hrem. rewrite N, Hsp in Hrem. cbn [bind] in Hrem.
    destruct (ip_address hostname) as [|n|n]; [discriminate| |]; apply bind_ok in Hrem as (j & Hj & Hrem); ok_inj Hrem;
      injection Hrem as <-; exists n; auto. }
  split; [exact Es|]. exists netloc, path, query, hostname, port.
  repeat (split; [assumption || exact (port_of_ok _ _ Hport)|]).
  (* the literal test: a "[" settles it, otherwise is_ipv4_literal answers *)
  destruct uh as [h|].
  - destruct Huh as (Hf & -> & Hh). destruct (mem 91 netloc); [discriminate | auto].
  - destruct Huh as [Hf | ->]; [auto|]. destruct (mem 91 netloc); auto.
Qed.

(* 6.4 steps 3-5: the scheme is one of the CoAP schemes (lower-cased by urlsplit); Uri-Host is present exactly when asked for
   and the host is neither a bracketed literal nor an IPv4 literal, and then it is the percent-decoded host name without
   any upper-case ASCII letter *)
Theorem host_rules uri flag s hi uh p q : set_request_uri ip_address uri flag = Ok (DRequest s hi uh p q) ->
  existsb (beqb s) coap_schemes = true /\
  exists netloc path query hostname,
    urlsplit ip_address uri = Ok (s, netloc, path, query, []) /\ hostname_of netloc = Ok (Some hostname) /\
    match uh with
    | Some h => flag = true /\ mem 91 netloc = false /\ is_ipv4_literal hostname = Ok false /\
                (exists h', unquote hostname = Ok h' /\ h = translate ascii_lowercase h') /\ Forall (fun c => is_upper c = false) h
    | None => flag = false \/ mem 91 netloc = true \/ is_ipv4_literal hostname = Ok true
    end.
Proof.
  intros H. apply decompose_spec in H as (Hs & netloc & path & query & hostname & _ & Eu & Eh & _ & _ & _ & _ & _ & _ & _ & _ & _ & Huh).
  split; [exact Hs|]. exists netloc, path, query, hostname. split; [exact Eu|]. split; [exact Eh|].
  destruct uh as [h|]; [|exact Huh]. destruct Huh as (Hf & N91 & Hlit & h' & Hh & ->).
  repeat (split; [assumption|]). split; [eauto|]. rewrite translate_lower. apply lower_ascii_no_upper.
Qed.

(* a URI of any other scheme is kept verbatim as Proxy-Uri and composed back verbatim *)
Theorem proxy_roundtrip uri flag u : set_request_uri ip_address uri flag = Ok (DProxy u) ->
  u = uri /\ get_request_uri ip_address (opts_of (DProxy u)) = Ok uri.
Proof.
  intros H. pose proof (set_request_uri_spec uri flag) as S. rewrite H in S. clear H. destruct S as (s & netloc & path & query & _ & H).
  destruct (existsb (beqb s) coap_schemes).
  - destruct H as (hostname & p & q & port & hi & lit & uh & H & _). discriminate.
  - injection H as ->. split; reflexivity.
Qed.
End HostRules.

(* coap://1.2.3.99..9/ with more than three nines: a regular host whose fourth part is too long for an octet *)
Lemma long_octet_is_a_name n : (3 < n)%nat ->
  let h := [49; 46; 50; 46; 51; 46] ++ repeat 57 n in
  set_request_uri no_ip (coap ++ [58; 47; 47; 49; 46; 50; 46; 51; 46] ++ repeat 57 n ++ [47]) true = Ok (DRequest coap h (Some h) [] []).
Proof.
  intros Hn h.
  assert (Hd : forallb is_digit (repeat 57 n) = true) by (apply forallb_repeat; reflexivity).
  assert (Hreg : regular_host h = true).
  { unfold regular_host, h. rewrite forallb_app, forallb_repeat by reflexivity. reflexivity. }
  assert (Hlit : is_ipv4_literal h = Ok false).
  { apply is_ipv4_literal_long. change h with ([49] ++ 46 :: [50] ++ 46 :: [51] ++ 46 :: repeat 57 n).
    rewrite !split_on_app by reflexivity. rewrite split_on_none by (apply (forallb_mem_false _ _ 46 Hd); reflexivity).
    do 3 apply Exists_cons_tl. apply Exists_cons_hd. unfold blen. rewrite repeat_length. lia. }
  pose proof (decompose_composed_regular no_ip coap h None [] [] [47] [] false eq_refl Hreg I Hlit
                ltac:(discriminate) ltac:(discriminate) eq_refl eq_refl) as H.
  cbn [port_text] in H. rewrite app_nil_r, urlunsplit_full in H by discriminate.
  unfold h in H at 1. rewrite <- app_assoc in H. exact H.
Qed.
