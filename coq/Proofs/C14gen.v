(* C14 — the per-step theorems for a transport that may refuse datagrams.
   An event that is about remote r hands datagrams only to r; so while r itself is not refused, the general step IS the
   base step (whatever else is refused), and an event about another remote leaves r alone even when that remote is refused.
   Hence the trichotomy and the liveness bound carry over to [step_ev l] / [rrun] for every remote that is not refused. *)
From Verif Require Import Lib.Tactics Model.C14 Model.C14refuse Proofs.C14 Proofs.C14step Proofs.C14live.
Import ListNotations.
Open Scope Z_scope.

Section Acc.
Variable l : list Z.
Variable r : Z.
Hypothesis Hacc : refuses l r = false.

Lemma send_via_acc what s : send_via_transport l what r s = (s, [what]).
Proof. unfold send_via_transport. rewrite Hacc. reflexivity. Qed.

Lemma send_initially_acc m s : m_remote m = r -> C14refuse.send_initially l m s = C14.send_initially m s.
Proof. intros H. unfold C14refuse.send_initially, C14.send_initially. rewrite H, send_via_acc. reflexivity. Qed.

Lemma release_acc s : release l r s = release [] r s.
Proof. unfold release. destruct (backlog_of r s); [reflexivity|apply send_via_acc]. Qed.

Lemma remove_exchange_acc mid mt s : Inv s -> C14refuse.remove_exchange l r mid mt s = C14.remove_exchange r mid mt s.
Proof. intros HI. destruct (xget r mid (active_exchanges s)) as [x|] eqn:Ex.
  - destruct (remove_exchange_nf l r mid mt s x HI Ex) as (_ & _ & _ & _ & ->).
    destruct (remove_exchange_base r mid mt s x HI Ex) as (_ & _ & _ & _ & ->).
    destruct (reset_monitor _ _ _) as [s2 o2]. rewrite release_acc. reflexivity.
  - unfold C14refuse.remove_exchange, C14.remove_exchange. rewrite Ex. reflexivity. Qed.

Lemma retransmit_acc x s : m_remote (x_msg x) = r -> C14refuse.retransmit l x s = C14.retransmit x s.
Proof. intros H. unfold C14refuse.retransmit, C14.retransmit. rewrite H. destruct (xget _ _ _); [|reflexivity].
  destruct (x_counter x <? m_maxre (x_msg x)); [|reflexivity]. unfold schedule_retransmit. rewrite send_via_acc. reflexivity. Qed.

Lemma send_message_acc who mt code tok maxre s : C14refuse.send_message l who r mt code tok maxre s = C14.send_message who r mt code tok maxre s.
Proof. unfold C14refuse.send_message, C14.send_message, next_message_id.
  destruct ((_ =? 0) && in_backlogs r _); [reflexivity|]. rewrite send_initially_acc by reflexivity. reflexivity. Qed.

Lemma reply_acc mt code mid tok s : reply l r mt code mid tok s = reply [] r mt code mid tok s.
Proof. unfold reply, C14refuse.send_empty. rewrite !send_via_acc. destruct (tm_process_response r tok s) as [[s2 o2] ok]. rewrite !send_via_acc. reflexivity. Qed.

Lemma dispatch_message_acc mt code mid tok s : Inv s ->
  C14refuse.dispatch_message l r mt code mid tok s = C14.dispatch_message r mt code mid tok s.
Proof. intros HI. rewrite <- (dispatch_message_nil r mt code mid tok s HI), !dispatch_message_nf by exact HI.
  rewrite remove_exchange_acc, <- remove_exchange_nil by exact HI. destruct (if (mt =? 2) || (mt =? 3) then _ else _) as [s1 o1].
  rewrite reply_acc. reflexivity. Qed.

Theorem step_ev_touched s e : Inv s -> touches s e r = true -> step_ev l s e = C14.step s e.
Proof. intros HI Ht. destruct e; cbn in Ht; cbn [step_ev C14.step]; try reflexivity.
  - (* Request *) assert (r0 = r) by lia. subst r0. unfold C14refuse.tm_request, C14.tm_request. destruct (next_token s). rewrite send_message_acc. reflexivity.
  - (* RawSend *) assert (r0 = r) by lia. subst r0. apply send_message_acc.
  - (* RecvEmpty *) assert (r0 = r) by lia. subst r0. apply dispatch_message_acc; exact HI.
  - (* RecvResp *) assert (r0 = r) by lia. subst r0. apply dispatch_message_acc; exact HI.
  - (* Fire *) unfold C14refuse.fire, C14.fire. destruct (min_timer (active_exchanges s)) as [x|]; [|reflexivity].
    rewrite retransmit_acc by lia. reflexivity.
  - (* Respond *) unfold respond. destruct (find (fun v => v_k v =? k) (incoming_requests s)) as [v|]; [|reflexivity].
    replace (v_remote v) with r by lia. rewrite send_message_acc. reflexivity. Qed.
End Acc.

Theorem step_ev_frame l s e r : Inv s -> touches s e r = false ->
  exs r (fst (step_ev l s e)) = exs r s /\ aget r (backlogs (fst (step_ev l s e))) = aget r (backlogs s) /\ silent r (snd (step_ev l s e)) = true.
Proof. intros HI Ht. destruct (step_ev_effect l s e HI) as (_ & _ & _ & U). destruct (U r Ht) as (A & B & C & _). auto. Qed.

Lemma acks_touches s e r : acks s e r = true -> touches s e r = true.
Proof. destruct e; cbn; try discriminate; intros H; lia. Qed.
Lemma fails_touches s e r : fails s e r = true -> touches s e r = true.
Proof. destruct e; cbn; try discriminate; [auto|]. destruct (min_timer _); [|discriminate]. intros H. lia. Qed.

Section NotRefused.
Variable l : list Z.
Variable r : Z.
Hypothesis Hacc : refuses l r = false.

Theorem step_ev_trichotomy s e : Inv s -> Trichotomy s e r (fst (step_ev l s e)) (snd (step_ev l s e)).
Proof. intros HI. destruct (touches s e r) eqn:Ht.
  - rewrite (step_ev_touched l r Hacc s e HI Ht). apply step_trichotomy. exact HI.
  - intros q Ha. destruct (acks s e r) eqn:Eack; [rewrite (acks_touches s e r Eack) in Ht; discriminate|].
    destruct (fails s e r) eqn:Ef; [rewrite (fails_touches s e r Ef) in Ht; discriminate|].
    exact (untouched_stays_queued s e r q _ _ HI Ha Ht (step_ev_frame l s e r HI Ht)). Qed.

Theorem general_held_otherwise s e q : Inv s -> aget r (backlogs s) = Some q -> acks s e r = false -> fails s e r = false ->
  StaysQueued s e r q (fst (step_ev l s e)) (snd (step_ev l s e)).
Proof. intros HI Hq Ha Hf. pose proof (step_ev_trichotomy s e HI q Hq) as T. rewrite Ha, Hf in T. exact T. Qed.
End NotRefused.

(* r is never refused along the run *)
Definition never_refuses (r : Z) (es : list revent) : bool :=
  forallb (fun e => match e with Refuse r' true => negb (r' =? r) | _ => true end) es.

Lemma refuses_app l r r' : refuses l r = false -> r' <> r -> refuses (l ++ [r']) r = false.
Proof. intros H Hne. unfold refuses in *. rewrite existsb_app, H. cbn. replace (r =? r') with false by lia. reflexivity. Qed.
Lemma refuses_filter l r r' : refuses l r = false -> refuses (filter (fun x => negb (x =? r')) l) r = false.
Proof. unfold refuses. induction l as [|a l IH]; [reflexivity|]. cbn. intros H. apply orb_false_elim in H. destruct H as [H1 H2].
  destruct (a =? r'); cbn; [apply IH; exact H2|rewrite H1; apply IH; exact H2]. Qed.

Lemma refuse_other_keeps l r r' (on : bool) s : refuses l r = false -> (if on then negb (r' =? r) else true) = true ->
  exists l1, rstep (s, l) (Refuse r' on) = (s, l1, []) /\ refuses l1 r = false.
Proof. intros Hacc Hne. destruct on; cbn [rstep]; eexists; (split; [reflexivity|]).
  - destruct (refuses l r'); [exact Hacc|apply refuses_app; [exact Hacc|lia]].
  - apply refuses_filter. exact Hacc. Qed.

Fixpoint gcount (sl : st * list Z) (es : list revent) (r : Z) : nat :=
  match es with
  | [] => 0
  | e :: es' => ((match e with Ev e0 => if progress (fst sl) e0 r then 1 else 0 | Refuse _ _ => 0 end) + gcount (fst (rstep sl e)) es' r)%nat
  end.

Theorem general_eventually_leaves : forall es s l r k m, Inv s -> refuses l r = false -> never_refuses r es = true ->
  nth_error (backlog_of r s) k = Some m -> (budget r k s <= gcount (s, l) es r)%nat ->
  In m (left r (concat (snd (rrun (s, l) es)))).
Proof. induction es as [|e es IH]; intros s l r k m HI Hacc Hnr Hn Hb; [pose proof (budget_pos s r k m HI Hn); cbn in Hb; lia|].
  cbn [never_refuses forallb] in Hnr. apply andb_prop in Hnr. destruct Hnr as [Hne Hnr]. cbn [rrun gcount] in *.
  destruct e as [e|r' on].
  - cbn [rstep fst] in *. pose proof (step_ev_trans l s e HI) as (HI1 & _).
    destruct (budget_step s e r _ _ k m HI (step_ev_trichotomy l r Hacc s e HI) Hn) as [Hl|(k' & Hn' & Hb')];
      destruct (step_ev l s e) as [s1 o1]; cbn [fst snd] in *; specialize (IH s1 l r); destruct (rrun (s1, l) es) as [sl2 os];
      cbn [snd concat]; rewrite left_app; apply in_or_app; [left; exact Hl|right].
    apply (IH k' m HI1 Hacc Hnr Hn'). lia.
  - (* the transport changes its mind about another remote: nothing happens to the state *)
    destruct (refuse_other_keeps l r r' on s Hacc Hne) as (l1 & E & Hacc'). rewrite E in *. cbn [fst snd concat app] in *.
    specialize (IH s l1 r k m HI Hacc' Hnr Hn Hb). destruct (rrun (s, l1) es) as [sl2 os]. exact IH. Qed.
