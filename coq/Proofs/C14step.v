(* C14 — what one event does, remote by remote.  First for arbitrary refusals: an event about remote r0 leaves every other
   remote alone, adds no request or responder except the one it is there to add, and discards a message only when it also
   clears the requests and responders of that message's remote.  Then, for Model/C14.v (nothing refused), the queue of the
   remote the event is about: released exactly on ACK/RST, dropped (and the requests failed) exactly on give-up / transport
   error, untouched otherwise; immediate transmission when nothing is outstanding.
   ([Eff] walks the functions a second time after [Trans] of Proofs/C14.v: it needs [silent] and [served_from], defined here.) *)
From Verif Require Import Lib.Tactics Lib.PyLemmas Model.C14 Model.C14refuse Proofs.C14.
Import ListNotations.
Open Scope Z_scope.

(* an ACK or RST from r carrying the message ID of the exchange that is open with r *)
Definition acks (s : st) (e : event) (r : Z) : bool :=
  match e with
  | RecvEmpty r' mt mid | RecvResp r' mt mid _ =>
      (r' =? r) && ((mt =? 2) || (mt =? 3)) && match xget r mid (active_exchanges s) with Some _ => true | None => false end
  | _ => false
  end.
(* a transport error for r, or the last time-out of the exchange that is open with r *)
Definition fails (s : st) (e : event) (r : Z) : bool :=
  match e with
  | TransportError r' => r' =? r
  | Fire => match min_timer (active_exchanges s) with
            | Some x => (m_remote (x_msg x) =? r) && negb (x_counter x <? m_maxre (x_msg x))
            | None => false
            end
  | _ => false
  end.
(* the remote an event is about *)
Definition touches (s : st) (e : event) (r : Z) : bool :=
  match e with
  | Request _ r' _ _ | RawSend _ r' _ _ _ | RecvEmpty r' _ _ | RecvResp r' _ _ _ | TransportError r' => r' =? r
  | Fire => match min_timer (active_exchanges s) with Some x => m_remote (x_msg x) =? r | None => false end
  | Advance _ | Cancel _ => false
  | Serve _ r' _ _ => r' =? r
  | Respond _ k _ _ => match find (fun v => v_k v =? k) (incoming_requests s) with Some v => v_remote v =? r | None => false end
  end.
(* outputs that concern remote r: datagrams to it, and the ghost records of its messages *)
Definition about (r : Z) (o : output) : bool :=
  match o with
  | Tx m _ | Submitted m | Dropped m => m_remote m =? r
  | TxEmpty r' _ _ | Fired r' _ => r' =? r
  | _ => false
  end.
Definition silent (r : Z) (o : list output) : bool := forallb (fun x => negb (about r x)) o.

Lemma silent_app r a b : silent r (a ++ b) = silent r a && silent r b. Proof. apply forallb_app. Qed.
Lemma silent_logs r o : silent r o = true -> subm r o = [] /\ left r o = [].
Proof. induction o as [|x o IH]; [auto|]. unfold silent in *. cbn [forallb]. intros H. apply andb_prop in H. destruct H as [H1 H2].
  destruct (IH H2) as (A & B). unfold subm, left in *. cbn [flat_map]. rewrite A, B.
  destruct x; cbn in *; auto; unfold con_to; try (replace (m_remote m =? r) with false by lia); rewrite ?andb_false_r; auto.
  destruct retr; auto. Qed.
Lemma silent_map {A} (f : A -> output) r l : (forall a, about r (f a) = false) -> silent r (map f l) = true.
Proof. intros H. induction l as [|a l IH]; [reflexivity|]. unfold silent in *. cbn. rewrite H. exact IH. Qed.
Lemma silent_dropped r0 r q : Forall (fun m => con_to r0 m = true) q -> r <> r0 -> silent r (map Dropped q) = true.
Proof. intros H Hne. induction H as [|m q H _ IH]; [reflexivity|]. unfold silent in *. cbn. rewrite IH.
  unfold con_to in H. replace (m_remote m =? r) with false by lia. reflexivity. Qed.
Lemma silent_no_tx r m b o : silent r o = true -> m_remote m = r -> ~ In (Tx m b) o.
Proof. intros H Hr Hi. unfold silent in H. rewrite forallb_forall in H. specialize (H _ Hi). cbn in H. lia. Qed.

Lemma neutral_fails l : forallb neutral (map (fun o : Z * Z * Z => Fail (q_of o) ConRetransmitsExceeded) l) = true.
Proof. apply neutral_map. reflexivity. Qed.
Lemma neutral_fail_map e l : forallb neutral (map (fun o : Z * Z * Z => Fail (q_of o) e) l) = true.
Proof. apply neutral_map. reflexivity. Qed.
Lemma in_dropped_map m q : In m q -> In (Dropped m) (map Dropped q). Proof. apply in_map. Qed.
Lemma no_tx_dropped m b q : ~ In (Tx m b) (map Dropped q).
Proof. intros H. apply in_map_iff in H. destruct H as (? & H & _). discriminate. Qed.

(* the responders serving requests from r *)
Definition served_from (r : Z) (s : st) : list served := filter (fun v => v_remote v =? r) (incoming_requests s).

Definition failed_outcome (r : Z) (q : list msg) (s s' : st) (o : list output) : Prop :=
  left r o = q /\ subm r o = [] /\ (forall m, In m q -> In (Dropped m) o) /\ (forall m b, ~ In (Tx m b) o) /\
  (forall en, In en (reqs r s) -> exists err, In (Fail (q_of en) err) o) /\
  aget r (backlogs s') = None /\ exs r s' = [] /\ reqs r s' = [] /\
  (forall v, In v (served_from r s) -> In (Ended (v_k v)) o) /\ served_from r s' = [].

Lemma tm_dispatch_error_spec e r s :
  let s' := fst (tm_dispatch_error e r s) in let o := snd (tm_dispatch_error e r s) in
  active_exchanges s' = active_exchanges s /\ backlogs s' = backlogs s /\ forallb neutral o = true /\
  (forall m b, ~ In (Tx m b) o) /\ (forall m, ~ In (Dropped m) o) /\
  (forall en, In en (reqs r s) -> In (Fail (q_of en) e) o) /\ reqs r s' = [] /\
  (forall v, In v (served_from r s) -> In (Ended (v_k v)) o) /\ served_from r s' = [].
Proof. cbn zeta. destruct (tm_dispatch_error_frame e r s) as (A & B & C). split; [exact A|]. split; [exact B|]. split; [exact C|].
  unfold tm_dispatch_error, reqs, served_from. cbn [fst snd outgoing_requests incoming_requests upd_in upd_out].
  split; [|split; [|split; [|split; [|split]]]].
  - intros m b H. apply in_app_or in H. destruct H as [H|H]; apply in_map_iff in H; destruct H as (? & H & _); discriminate.
  - intros m H. apply in_app_or in H. destruct H as [H|H]; apply in_map_iff in H; destruct H as (? & H & _); discriminate.
  - intros en Hen. apply in_or_app. left. apply (in_map (fun o => Fail (q_of o) e)). exact Hen.
  - apply (filter_negb_nil (fun o => remote_of o =? r)).
  - intros v Hv. apply in_or_app. right. apply (in_map (fun v => Ended (v_k v))). exact Hv.
  - apply (filter_negb_nil (fun v => v_remote v =? r)). Qed.

Definition NoNew (s s' : st) : Prop :=
  (forall r en, In en (reqs r s') -> In en (reqs r s)) /\ (forall v, In v (incoming_requests s') -> In v (incoming_requests s)).
Definition Clears (o : list output) (s' : st) : Prop :=
  forall m, In (Dropped m) o -> reqs (m_remote m) s' = [] /\ served_from (m_remote m) s' = [].
Definition Untouched (r : Z) (s s' : st) (o : list output) : Prop :=
  exs r s' = exs r s /\ aget r (backlogs s') = aget r (backlogs s) /\ silent r o = true /\ reqs r s' = reqs r s.
(* no new outstanding request or responder; a discarded message leaves neither request to nor responder for its remote;
   remotes other than r0 keep exchange, queue and requests and see no output of theirs *)
Definition Eff (r0 : Z) (s : st) (o : list output) (s' : st) : Prop :=
  NoNew s s' /\ Clears o s' /\ forall r, r <> r0 -> Untouched r s s' o.

Lemma tm_dispatch_error_others e r s : NoNew s (fst (tm_dispatch_error e r s)) /\
  forall r', r' <> r -> reqs r' (fst (tm_dispatch_error e r s)) = reqs r' s /\ silent r' (snd (tm_dispatch_error e r s)) = true.
Proof. unfold tm_dispatch_error, NoNew, reqs. cbn [fst snd outgoing_requests incoming_requests upd_in upd_out]. split; [split|].
  - intros r' en. rewrite !filter_In. tauto.
  - intros v. rewrite filter_In. tauto.
  - intros r' Hne. split; [|rewrite silent_app, !silent_map; reflexivity].
    apply filter_keep. intros a Ha. replace (remote_of a =? r) with false by lia. reflexivity. Qed.

Lemma eff_refl r0 s : Eff r0 s [] s.
Proof. split; [split; auto|]. split; [intros m []|]. intros r _. repeat split. Qed.

Lemma eff_trans r0 s o1 s1 o2 s2 : Eff r0 s o1 s1 -> Eff r0 s1 o2 s2 -> Eff r0 s (o1 ++ o2) s2.
Proof. intros ((N1 & M1) & D1 & U1) ((N2 & M2) & D2 & U2). split; [split; [intros r en H; apply N1, N2, H|intros v H; apply M1, M2, H]|]. split.
  - intros m H. apply in_app_or in H. destruct H as [H|H]; [|apply D2; exact H].
    destruct (D1 m H) as (E1 & E2). split; [|exact (filter_nil_incl _ _ _ M2 E2)].
    destruct (reqs (m_remote m) s2) as [|en t] eqn:E; [reflexivity|]. exfalso.
    assert (Hi : In en (reqs (m_remote m) s1)) by (apply N2; rewrite E; left; reflexivity). rewrite E1 in Hi. exact Hi.
  - intros r Hne. destruct (U1 r Hne) as (A & B & C & D). destruct (U2 r Hne) as (A' & B' & C' & D').
    split; [congruence|]. split; [congruence|]. split; [rewrite silent_app, C, C'; reflexivity|congruence]. Qed.

Lemma eff_after r0 s s1 o s' : Eff r0 s [] s1 -> Eff r0 s1 o s' -> Eff r0 s o s'.
Proof. exact (eff_trans r0 s [] s1 o s'). Qed.

Lemma eff_quiet r0 s o s' p p' :
  filter p (outgoing_requests s) = outgoing_requests s' -> (forall en, remote_of en <> r0 -> p en = true) ->
  filter p' (incoming_requests s) = incoming_requests s' ->
  (forall r, r <> r0 -> exs r s' = exs r s /\ aget r (backlogs s') = aget r (backlogs s) /\ silent r o = true) ->
  (forall m, ~ In (Dropped m) o) -> Eff r0 s o s'.
Proof. intros Ho Hp Hi Hr Hd. unfold Eff, NoNew, reqs. rewrite <- Ho, <- Hi. split; [split|split].
  - intros r en. rewrite !filter_In. tauto.
  - intros v. rewrite filter_In. tauto.
  - intros m H. destruct (Hd m H).
  - intros r Hne. destruct (Hr r Hne) as (A & B & C). split; [exact A|]. split; [exact B|]. split; [exact C|].
    unfold reqs. rewrite <- Ho. apply filter_keep. intros en He. apply Hp. lia. Qed.

Lemma eff_tables r0 s o s' : outgoing_requests s' = outgoing_requests s -> incoming_requests s' = incoming_requests s ->
  (forall r, r <> r0 -> exs r s' = exs r s /\ aget r (backlogs s') = aget r (backlogs s) /\ silent r o = true) ->
  (forall m, ~ In (Dropped m) o) -> Eff r0 s o s'.
Proof. intros Ho Hi. apply (eff_quiet r0 s o s' (fun _ => true) (fun _ => true)); [rewrite Ho; apply filter_true|reflexivity|rewrite Hi; apply filter_true]. Qed.

Lemma eff_pre r0 s0 s o s' : active_exchanges s0 = active_exchanges s -> backlogs s0 = backlogs s ->
  outgoing_requests s0 = outgoing_requests s -> incoming_requests s0 = incoming_requests s -> Eff r0 s0 o s' -> Eff r0 s o s'.
Proof. intros He Hb Ho Hi. unfold Eff, NoNew, Untouched, reqs, exs. rewrite He, Hb, Ho, Hi. auto. Qed.

Lemma not_dropped_one x : (forall m, x <> Dropped m) -> forall m, ~ In (Dropped m) [x].
Proof. intros H m [Hx|[]]. exact (H m Hx). Qed.

Lemma eff_pop r0 mid s : Eff r0 s [] (upd_ex s (xdel r0 mid (active_exchanges s))).
Proof. apply eff_tables; [reflexivity|reflexivity| |intros m []]. intros r Hne. split; [apply filter_xdel_other; exact Hne|]. split; reflexivity. Qed.

Definition QOk (r : Z) (s : st) : Prop := Forall (fun m => con_to r m = true) (backlog_of r s).
Lemma inv_qok s r : Inv s -> QOk r s. Proof. intros HI. destruct (HI r) as (_ & _ & C). exact C. Qed.

Lemma dispatch_error_eff r0 s : QOk r0 s ->
  Eff r0 s (snd (dispatch_error r0 s)) (fst (dispatch_error r0 s)) /\
  reqs r0 (fst (dispatch_error r0 s)) = [] /\ served_from r0 (fst (dispatch_error r0 s)) = [].
Proof. intros Hq. pose proof (dispatch_error_exs r0 s) as He. pose proof (dispatch_error_aget r0 s) as Hb. unfold dispatch_error in *.
  destruct (tm_dispatch_error_spec NetworkError r0 s) as (_ & B & _ & _ & T2 & _ & T4 & _ & T6). destruct (tm_dispatch_error_others NetworkError r0 s) as (N & T7). cbn zeta in *.
  destruct (tm_dispatch_error NetworkError r0 s) as [s1 o1]. cbn [fst snd backlogs upd_ex upd_bl] in *. rewrite B in *.
  split; [|split; [exact T4|exact T6]]. split; [exact N|]. split.
  - intros m H. apply in_app_or in H. destruct H as [H|H]; [destruct (T2 m H)|].
    apply in_map_iff in H. destruct H as (m' & E & Hm). inv E. unfold QOk, backlog_of in Hq.
    rewrite Forall_forall in Hq. specialize (Hq m Hm). replace (m_remote m) with r0 by (unfold con_to in Hq; lia). split; [exact T4|exact T6].
  - intros r Hne. destruct (T7 r Hne) as (T8 & T9). unfold Untouched. rewrite He, Hb. replace (r =? r0) with false by lia.
    split; [reflexivity|]. split; [reflexivity|]. split; [|exact T8]. rewrite silent_app, T9. apply (silent_dropped r0); assumption. Qed.

Lemma final_timeout_eff r0 q s : Forall (fun m => con_to r0 m = true) q -> Eff r0 s (snd (final_timeout r0 q s)) (fst (final_timeout r0 q s)).
Proof. intros Hq. unfold final_timeout.
  destruct (tm_dispatch_error_spec ConRetransmitsExceeded r0 (upd_bl s (adel r0 (backlogs s)))) as (A & B & _ & _ & T2 & _ & T4 & _ & T6).
  destruct (tm_dispatch_error_others ConRetransmitsExceeded r0 (upd_bl s (adel r0 (backlogs s)))) as (N & T7). cbn zeta in *.
  destruct (tm_dispatch_error _ _ _) as [s1 o1]. cbn [fst snd] in *. split; [exact N|]. split.
  - intros m H. apply in_app_or in H. destruct H as [H|H]; [|destruct (T2 m H)].
    apply in_map_iff in H. destruct H as (m' & E & Hm). inv E.
    rewrite Forall_forall in Hq. specialize (Hq m Hm). replace (m_remote m) with r0 by (unfold con_to in Hq; lia). split; [exact T4|exact T6].
  - intros r Hne. destruct (T7 r Hne) as (T8 & T9). split; [unfold exs; rewrite A; reflexivity|]. split; [rewrite B; cbn; apply aget_adel_other; exact Hne|].
    split; [|exact T8]. rewrite silent_app, T9, andb_true_r. apply (silent_dropped r0); assumption. Qed.

Lemma reset_monitor_eff mt w s : Eff (m_remote w) s (snd (reset_monitor mt w s)) (fst (reset_monitor mt w s)).
Proof. unfold reset_monitor. destruct (mt =? 3); [|apply eff_refl]. unfold call_monitor, stop_responder.
  destruct (m_sub w); [destruct (existsb _ _)| |destruct (alive _ _)]; cbn [fst snd]; try apply eff_refl.
  - eapply eff_quiet; [reflexivity| |apply filter_true| |apply not_dropped_one; discriminate]; [|repeat split].
    intros en Hne. unfold key_of. replace (remote_of en =? m_remote w) with false by lia. rewrite andb_false_r. reflexivity.
  - apply eff_tables; [reflexivity|reflexivity|repeat split|apply not_dropped_one; discriminate].
  - eapply eff_quiet; [apply filter_true|reflexivity|reflexivity|repeat split|apply not_dropped_one; discriminate]. Qed.

Section General.
Variable l : list Z.

Lemma send_via_eff what r0 s : QOk r0 s -> (forall r, r <> r0 -> about r what = false) -> (forall m, what <> Dropped m) ->
  Eff r0 s (snd (send_via_transport l what r0 s)) (fst (send_via_transport l what r0 s)).
Proof. intros HQ Hw Hd. unfold send_via_transport. destruct (refuses l r0).
  - destruct (dispatch_error_eff r0 s HQ) as (E & C1 & C2). destruct (dispatch_error r0 s) as [s1 o1]. cbn [fst snd] in *.
    destruct E as (N & D & U). split; [exact N|]. split.
    + intros m H. apply in_app_or in H. destruct H as [H|H]; [|apply D; exact H].
      destruct what; cbn in H; try contradiction. destruct retr; cbn in H; [contradiction|]. destruct H as [H|[]]. inv H.
      destruct (Z.eq_dec (m_remote m) r0) as [->|Hne]; [auto|]. specialize (Hw _ Hne). cbn in Hw. lia.
    + intros r Hne. destruct (U r Hne) as (A & B & C & D'). split; [exact A|]. split; [exact B|]. split; [|exact D'].
      rewrite silent_app, C, andb_true_r. specialize (Hw r Hne). destruct what; try reflexivity. destruct retr; [reflexivity|].
      unfold silent. cbn in *. rewrite Hw. reflexivity.
  - cbn [fst snd]. apply eff_tables; [reflexivity|reflexivity| |apply not_dropped_one; exact Hd].
    intros r Hne. split; [reflexivity|]. split; [reflexivity|]. unfold silent. cbn. rewrite (Hw r Hne). reflexivity. Qed.

Lemma about_tx m b r : r <> m_remote m -> about r (Tx m b) = false. Proof. cbn. lia. Qed.

Lemma release_eff r0 q s : Ready r0 q s -> Eff r0 s (snd (release l r0 s)) (fst (release l r0 s)).
Proof. intros Hrd. pose proof Hrd as (_ & Ha & _). unfold release, backlog_of. rewrite Ha. destruct q as [|m q].
  - cbn [fst snd]. apply eff_tables; [reflexivity|reflexivity| |intros m []].
    intros r Hne. split; [reflexivity|]. split; [cbn; apply aget_adel_other; exact Hne|reflexivity].
  - destruct (ready_head r0 m q s Hrd) as (_ & Hr & HI1 & _). set (s1 := add_exchange m (upd_bl s (aset r0 q (backlogs s)))) in *.
    apply (eff_after r0 s s1).
    + apply eff_tables; [unfold s1; rewrite add_exchange_out; reflexivity|unfold s1; rewrite add_exchange_in; reflexivity| |intros m' []]. intros r Hne. unfold s1.
      rewrite add_exchange_exs_other, add_exchange_aget_other by lia. split; [reflexivity|]. split; [cbn; apply aget_aset_other; exact Hne|reflexivity].
    + apply send_via_eff; [apply inv_qok; exact HI1|intros r Hne; apply about_tx; lia|discriminate]. Qed.

Lemma remove_exchange_eff r0 mid mt s : Inv s ->
  Eff r0 s (snd (remove_exchange l r0 mid mt s)) (fst (remove_exchange l r0 mid mt s)).
Proof. intros HI. destruct (xget r0 mid (active_exchanges s)) as [x|] eqn:Ex.
  2:{ unfold remove_exchange. rewrite Ex. apply eff_refl. }
  destruct (remove_exchange_nf l r0 mid mt s x HI Ex) as (Hr & q & _ & Hrd & ->).
  set (s1 := upd_ex s (xdel r0 mid (active_exchanges s))) in *.
  destruct (reset_monitor_frame mt (x_msg x) s1) as (He & Hb & _). pose proof (reset_monitor_eff mt (x_msg x) s1) as E2. rewrite Hr in E2.
  destruct (reset_monitor _ _ _) as [s2 o2]. cbn [fst snd] in *.
  pose proof (release_eff r0 q s2 (ready_ext r0 q _ s2 He Hb Hrd)) as E3. destruct (release l r0 s2) as [s3 o3]. cbn [fst snd] in *.
  apply (eff_after r0 s s1); [apply eff_pop|apply (eff_trans r0 s1 o2 s2); assumption]. Qed.

Lemma retransmit_eff x s : Inv s -> In x (active_exchanges s) ->
  Eff (m_remote (x_msg x)) s (snd (retransmit l x s)) (fst (retransmit l x s)).
Proof. intros HI Hin. destruct (retransmit_nf l x s HI Hin) as (q & _ & (_ & _ & Hq & _) & ->). set (r0 := m_remote (x_msg x)) in *.
  destruct (x_counter x <? m_maxre (x_msg x)).
  - destruct (rescheduled_spec x s HI Hin) as (HI1 & Hb & Ho & Hi & _ & He). fold r0 in He.
    apply (eff_after r0 s (rescheduled x s)).
    + apply eff_tables; [exact Ho|exact Hi| |intros m []]. intros r Hne. split; [apply He; exact Hne|]. split; [rewrite Hb; reflexivity|reflexivity].
    + apply send_via_eff; [apply inv_qok; exact HI1|intros r Hne; apply about_tx; exact Hne|discriminate].
  - eapply eff_after; [apply eff_pop|apply final_timeout_eff; exact Hq]. Qed.

Lemma send_initially_eff m s : Inv s -> Eff (m_remote m) s (snd (send_initially l m s)) (fst (send_initially l m s)).
Proof. intros HI. unfold send_initially.
  assert (SV : forall s1, QOk (m_remote m) s1 -> Eff (m_remote m) s1 (snd (send_via_transport l (Tx m false) (m_remote m) s1)) (fst (send_via_transport l (Tx m false) (m_remote m) s1)))
    by (intros s1 H1; apply send_via_eff; [exact H1|intros r Hne; apply about_tx; exact Hne|discriminate]).
  destruct (m_mtype m =? 0) eqn:Ec; [|apply SV, inv_qok, HI].
  apply (eff_after _ s (add_exchange m s)).
  - apply eff_tables; [apply add_exchange_out|apply add_exchange_in| |intros m' []]. intros r Hne.
    rewrite add_exchange_exs_other, add_exchange_aget_other by exact Hne. repeat split.
  - apply SV. unfold QOk. rewrite add_exchange_backlog_of. apply inv_qok, HI. Qed.

Lemma send_message_eff who r0 mt code tok maxre s : Inv s ->
  Eff r0 s (snd (send_message l who r0 mt code tok maxre s)) (fst (send_message l who r0 mt code tok maxre s)).
Proof. intros HI. set (m := new_msg who r0 mt code tok maxre s). set (s0 := snd (next_message_id s)).
  assert (Hs : forall r, r <> r0 -> about r (Submitted m) = false) by (intros r Hne; cbn; lia).
  destruct (send_message_nf l who r0 mt code tok maxre s HI) as [(q & _ & _ & ->)|(_ & ->)]; fold m s0; cbn [fst snd].
  - apply eff_tables; [reflexivity|reflexivity| |apply not_dropped_one; discriminate].
    intros r Hne. split; [reflexivity|]. split; [cbn; apply aget_aset_other; exact Hne|]. unfold silent. cbn [forallb]. rewrite (Hs r Hne). reflexivity.
  - apply (eff_pre r0 s0); try reflexivity. change (Submitted m :: ?o) with ([Submitted m] ++ o). apply (eff_trans r0 s0 _ s0).
    + apply eff_tables; [reflexivity|reflexivity| |apply not_dropped_one; discriminate].
      intros r Hne. split; [reflexivity|]. split; [reflexivity|]. unfold silent. cbn [forallb]. rewrite (Hs r Hne). reflexivity.
    + apply (send_initially_eff m s0). apply (inv_ext s); [reflexivity|reflexivity|exact HI]. Qed.

Lemma reply_eff r0 mt code mid tok s : Inv s -> Eff r0 s (snd (reply l r0 mt code mid tok s)) (fst (reply l r0 mt code mid tok s)).
Proof. intros HI. unfold reply, send_empty.
  assert (SE : forall s2 mt', Inv s2 -> let res := send_via_transport l (TxEmpty r0 mt' mid) r0 s2 in Eff r0 s2 (snd res) (fst res))
    by (intros s2 mt' H2; apply send_via_eff; [apply inv_qok, H2|intros r Hne; cbn; lia|discriminate]).
  destruct (code =? 0); [destruct (mt =? 0); [apply SE; exact HI|apply eff_refl]|].
  destruct (mt =? 3); [apply eff_refl|].
  pose proof (tm_process_response_frame r0 tok s) as (He & Hb & _).
  assert (E2 : Eff r0 s (snd (fst (tm_process_response r0 tok s))) (fst (fst (tm_process_response r0 tok s)))).
  { unfold tm_process_response. destruct (find _ _); cbn [fst snd]; [|apply eff_refl].
    eapply eff_quiet; [reflexivity| |apply filter_true|repeat split|apply not_dropped_one; discriminate].
    intros en Hne. cbn beta. replace (remote_of en =? r0) with false by lia. rewrite andb_false_r. reflexivity. }
  destruct (tm_process_response r0 tok s) as [[s2 o2] ok]. cbn [fst snd] in *.
  destruct (mt =? 0); [|exact E2]. specialize (SE s2 (if ok then 2 else 3) (inv_ext s s2 He Hb HI)).
  destruct (send_via_transport l _ r0 s2). apply (eff_trans r0 s o2 s2); assumption. Qed.

Lemma dispatch_message_eff r0 mt code mid tok s : Inv s ->
  Eff r0 s (snd (dispatch_message l r0 mt code mid tok s)) (fst (dispatch_message l r0 mt code mid tok s)).
Proof. intros HI. rewrite (dispatch_message_nf l r0 mt code mid tok s HI).
  assert (E1 : let first := if (mt =? 2) || (mt =? 3) then remove_exchange l r0 mid mt s else (s, []) in Inv (fst first) /\ Eff r0 s (snd first) (fst first)).
  { destruct ((mt =? 2) || (mt =? 3)); [split; [apply remove_exchange_trans; exact HI|apply remove_exchange_eff; exact HI]|split; [exact HI|apply eff_refl]]. }
  destruct (if (mt =? 2) || (mt =? 3) then _ else _) as [s1 o1]. cbn [fst snd] in E1. destruct E1 as (HI1 & E1).
  pose proof (reply_eff r0 mt code mid tok s1 HI1) as E2. destruct (reply l r0 mt code mid tok s1) as [s2 o2].
  apply (eff_trans r0 s o1 s1); assumption. Qed.

(* one event: what [Eff] says, with the exceptions that are the purpose of the event spelled out — a request submission adds
   a request, process_request a responder, a cancellation removes the request whatever its remote *)
Definition Effect (s : st) (e : event) (o : list output) (s' : st) : Prop :=
  Clears o s' /\
  ((forall q r mt maxre, e <> Request q r mt maxre) -> forall r en, In en (reqs r s') -> In en (reqs r s)) /\
  ((forall k r tok mt, e <> Serve k r tok mt) -> forall v, In v (incoming_requests s') -> In v (incoming_requests s)) /\
  forall r, touches s e r = false ->
    exs r s' = exs r s /\ aget r (backlogs s') = aget r (backlogs s) /\ silent r o = true /\
    ((forall q, e <> Cancel q) -> reqs r s' = reqs r s).

Lemma eff_effect r0 s e o s' : Eff r0 s o s' -> (forall r, touches s e r = false -> r <> r0) -> Effect s e o s'.
Proof. intros ((N & M) & D & U) Ht. split; [exact D|]. split; [intros _; exact N|]. split; [intros _; exact M|].
  intros r Hr. destruct (U r (Ht r Hr)) as (A & B & C & E). auto. Qed.

Lemma effect_idle s e s' : active_exchanges s' = active_exchanges s -> backlogs s' = backlogs s ->
  outgoing_requests s' = outgoing_requests s -> incoming_requests s' = incoming_requests s -> Effect s e [] s'.
Proof. intros He Hb Ho Hi. unfold Effect, reqs, exs. rewrite He, Hb, Ho, Hi. split; [intros m []|]. auto 8. Qed.

Theorem step_ev_effect s e : Inv s -> Effect s e (snd (step_ev l s e)) (fst (step_ev l s e)).
Proof. intros HI.
  destruct e; cbn [step_ev Model.C14.step].
  - (* Request: the new entry first, then send_message *)
    unfold tm_request, next_token. cbn -[send_message Z.pow Z.modulo].
    match goal with |- context [send_message l ?a ?b ?c ?d ?e ?f ?s1] =>
      destruct (send_message_eff a b c d e f s1) as ((N & M) & D & U); [apply (inv_ext s); [reflexivity|reflexivity|exact HI]|] end.
    split; [exact D|]. split; [intros H; exfalso; apply (H q r mt maxre); reflexivity|]. split; [intros _; exact M|].
    intros r' Ht. cbn in Ht. destruct (U r' ltac:(lia)) as (A & B & C & E). split; [exact A|]. split; [exact B|]. split; [exact C|]. intros _.
    rewrite E. unfold reqs. cbn [outgoing_requests upd_out]. rewrite filter_app. cbn [filter remote_of fst snd]. replace (r =? r') with false by lia. apply app_nil_r.
  - (* RawSend *) apply (eff_effect r); [apply send_message_eff; exact HI|cbn; intros; lia].
  - (* RecvEmpty *) apply (eff_effect r); [apply dispatch_message_eff; exact HI|cbn; intros; lia].
  - (* RecvResp *) apply (eff_effect r); [apply dispatch_message_eff; exact HI|cbn; intros; lia].
  - (* TransportError *) apply (eff_effect r); [apply (dispatch_error_eff r s (inv_qok s r HI))|cbn; intros; lia].
  - (* Fire *) unfold fire. destruct (min_timer (active_exchanges s)) as [x|] eqn:E.
    2:{ apply effect_idle; reflexivity. }
    set (s0 := upd_now s (Z.max (now s) (x_due x))).
    pose proof (retransmit_eff x s0 (inv_ext s s0 eq_refl eq_refl HI) (min_timer_in _ _ E)) as E1.
    destruct (retransmit l x s0) as [s1 o1]. cbn [fst snd] in *. apply (eff_effect (m_remote (x_msg x))).
    + change (Fired ?a ?b :: o1) with ([Fired a b] ++ o1). apply (eff_trans _ s _ s0); [|exact E1].
      apply eff_tables; [reflexivity|reflexivity| |apply not_dropped_one; discriminate]. intros r Hne. repeat split. unfold silent. cbn. replace (m_remote (x_msg x) =? r) with false by lia. reflexivity.
    + cbn. rewrite E. intros; lia.
  - (* Advance *) cbn [fst snd]. apply effect_idle; unfold advance; destruct (d <? 0); try reflexivity;
      destruct (min_timer (active_exchanges s)) as [x|]; try reflexivity; destruct (x_due x <=? now s + d); reflexivity.
  - (* Cancel *) destruct (outstanding q s); cbn [fst snd].
    2:{ apply effect_idle; reflexivity. }
    split; [intros m [H|[]]; discriminate|]. split; [|split; [auto|]].
    + intros _ r en. unfold reqs, forget_request. cbn [outgoing_requests upd_out]. rewrite !filter_In. tauto.
    + intros r _. split; [reflexivity|]. split; [reflexivity|]. split; [reflexivity|]. intros H. exfalso. apply (H q). reflexivity.
  - (* Serve *) unfold tm_process_request. cbn [fst snd].
    split; [intros m H; apply in_map_iff in H; destruct H as (? & H & _); discriminate|].
    split; [intros _ r0 en H; exact H|]. split; [intros H; exfalso; apply (H k r tok mt); reflexivity|].
    intros r0 _. split; [reflexivity|]. split; [reflexivity|]. split; [apply silent_map; reflexivity|reflexivity].
  - (* Respond *) unfold respond. destruct (find (fun v => v_k v =? k) (incoming_requests s)) as [v|] eqn:Ef.
    2:{ apply effect_idle; reflexivity. }
    apply (eff_effect (v_remote v)); [|cbn; rewrite Ef; intros; lia].
    pose proof (send_message_eff (Resp j k) (v_remote v) (if v_mtype v =? 1 then 7 else 8) 69 (v_tok v) maxre s HI) as E1.
    destruct (send_message l _ _ _ _ _ _ s) as [s1 o1]. cbn [fst snd] in E1.
    destruct last; [|exact E1]. destruct (alive k s1) eqn:Ea; cbn [fst snd]; [|exact E1].
    unfold stop_responder. rewrite Ea. cbn [fst snd]. apply (eff_trans _ s o1 s1); [exact E1|].
    eapply eff_quiet; [apply filter_true|reflexivity|reflexivity|repeat split|apply not_dropped_one; discriminate]. Qed.
End General.

Theorem step_effect s e : Inv s -> Effect s e (snd (step s e)) (fst (step s e)).
Proof. intros HI. rewrite <- (step_without_refusal s e HI). apply step_ev_effect. exact HI. Qed.

Theorem step_frame s e r : Inv s -> touches s e r = false ->
  exs r (fst (step s e)) = exs r s /\ aget r (backlogs (fst (step s e))) = aget r (backlogs s) /\ silent r (snd (step s e)) = true.
Proof. intros HI Ht. destruct (step_effect s e HI) as (_ & _ & _ & U). destruct (U r Ht) as (A & B & C & _). auto. Qed.

Lemma remove_exchange_base r mid mt s x : Inv s -> xget r mid (active_exchanges s) = Some x ->
  m_remote (x_msg x) = r /\ exists q, aget r (backlogs s) = Some q /\ Ready r q (upd_ex s (xdel r mid (active_exchanges s))) /\
  C14.remove_exchange r mid mt s =
    (let '(s2, o2) := reset_monitor mt (x_msg x) (upd_ex s (xdel r mid (active_exchanges s))) in
     let '(s3, o3) := release [] r s2 in (s3, o2 ++ o3)).
Proof. rewrite <- remove_exchange_nil. apply remove_exchange_nf. Qed.

Lemma reply_frame r mt code mid tok s : forallb neutral (snd (reply [] r mt code mid tok s)) = true /\
  active_exchanges (fst (reply [] r mt code mid tok s)) = active_exchanges s /\ backlogs (fst (reply [] r mt code mid tok s)) = backlogs s.
Proof. unfold reply, send_empty, send_via_transport. cbn [refuses existsb].
  destruct (code =? 0); [destruct (mt =? 0); cbn; auto|]. destruct (mt =? 3); [cbn; auto|].
  pose proof (tm_process_response_frame r tok s) as (He & Hb & Hn). destruct (tm_process_response r tok s) as [[s2 o2] ok]. cbn [fst snd] in *.
  destruct (mt =? 0); cbn [fst snd]; rewrite ?forallb_app, ?Hn; auto. Qed.

Lemma dispatch_message_shape r mt code mid tok s : Inv s ->
  let first := if (mt =? 2) || (mt =? 3) then C14.remove_exchange r mid mt s else (s, []) in
  exists tail, snd (C14.dispatch_message r mt code mid tok s) = snd first ++ tail /\ forallb neutral tail = true /\
    active_exchanges (fst (C14.dispatch_message r mt code mid tok s)) = active_exchanges (fst first) /\
    backlogs (fst (C14.dispatch_message r mt code mid tok s)) = backlogs (fst first).
Proof. intros HI. cbn zeta. rewrite <- (dispatch_message_nil r mt code mid tok s HI), (dispatch_message_nf [] r mt code mid tok s HI), remove_exchange_nil.
  destruct (if (mt =? 2) || (mt =? 3) then _ else _) as [s1 o1]. destruct (reply_frame r mt code mid tok s1) as (A & B & C).
  destruct (reply [] r mt code mid tok s1) as [s2 o2]. exists o2. auto. Qed.

(* the timer of the exchange with r fires (and, given [fails s e r = false], retransmits) *)
Definition fires_on (s : st) (e : event) (r : Z) : bool :=
  match e with
  | Fire => match min_timer (active_exchanges s) with Some x => m_remote (x_msg x) =? r | None => false end
  | _ => false
  end.
Lemma fires_on_touches s e r : touches s e r = false -> fires_on s e r = false.
Proof. destruct e; cbn; auto. Qed.

Definition Released (r : Z) (q : list msg) (s' : st) (o : list output) : Prop :=
  subm r o = [] /\
  match q with
  | m :: rest => In (Tx m false) o /\ left r o = [m] /\ aget r (backlogs s') = Some rest /\
                 exists x', exs r s' = [x'] /\ x_msg x' = m /\ x_counter x' = 0
  | [] => left r o = [] /\ aget r (backlogs s') = None /\ exs r s' = []
  end.
Definition StaysQueued (s : st) (e : event) (r : Z) (q : list msg) (s' : st) (o : list output) : Prop :=
  aget r (backlogs s') = Some (q ++ subm r o) /\ left r o = [] /\
  exists x x', exs r s = [x] /\ exs r s' = [x'] /\ x_msg x' = x_msg x /\
    (if fires_on s e r then x_counter x' = x_counter x + 1 /\ x_counter x < m_maxre (x_msg x) else x' = x).
(* what the step s --e--> (s', o) does to the queue q of r *)
Definition Trichotomy (s : st) (e : event) (r : Z) (s' : st) (o : list output) : Prop :=
  forall q, aget r (backlogs s) = Some q ->
  if acks s e r then Released r q s' o else if fails s e r then failed_outcome r q s s' o else StaysQueued s e r q s' o.

Lemma first_tx_needs_ack s e r s' o m : Trichotomy s e r s' o -> In (Tx m false) o -> con_to r m = true ->
  in_backlogs r s = true -> acks s e r = true.
Proof. intros T Hin Hc Hb. unfold in_backlogs in Hb. destruct (aget r (backlogs s)) as [q|] eqn:Eq; [|discriminate]. specialize (T q Eq).
  destruct (acks s e r); [reflexivity|]. exfalso. destruct (fails s e r).
  - destruct T as (_ & _ & _ & Hno & _). exact (Hno m false Hin).
  - destruct T as (_ & Hl & _). pose proof (in_left r m _ Hin Hc) as H. rewrite Hl in H. exact H. Qed.

Lemma release_released r q s : Ready r q s -> Released r q (fst (release [] r s)) (snd (release [] r s)).
Proof. intros Hrd. pose proof Hrd as (Hz & Ha & Hq & _). unfold Released, release, backlog_of. rewrite Ha.
  destruct q as [|m rest]; cbn [fst snd send_via_transport refuses existsb].
  - split; [reflexivity|]. split; [reflexivity|]. split; [apply aget_adel_same|exact Hz].
  - destruct (ready_head r m rest s Hrd) as (_ & Hr & _ & Hb & _). apply Forall_cons_iff in Hq. destruct Hq as [H1 _].
    split; [reflexivity|]. split; [left; reflexivity|]. split; [unfold left; cbn; rewrite H1; reflexivity|]. split; [exact Hb|].
    destruct (add_exchange_exs_same m (upd_bl s (aset r rest (backlogs s)))) as (x' & A & B & C); [rewrite Hr; exact Hz|].
    exists x'. rewrite <- Hr at 1. auto. Qed.

(* neutral outputs around it and a state with the same tables do not change what was released *)
Lemma released_framed r q s1 o pre post s' : Released r q s1 o -> forallb neutral pre = true -> forallb neutral post = true ->
  active_exchanges s' = active_exchanges s1 -> backlogs s' = backlogs s1 -> Released r q s' ((pre ++ o) ++ post).
Proof. intros (R0 & R) Hp Ht He Hb. destruct (neutral_logs r pre Hp) as (P1 & P2 & _). destruct (neutral_logs r post Ht) as (T1 & T2 & _).
  unfold Released, exs. rewrite !subm_app, !left_app, P1, P2, T1, T2, R0, He, Hb, !app_nil_r. cbn [app]. split; [reflexivity|].
  destruct q as [|m rest]; [exact R|]. destruct R as (R1 & R2). split; [apply in_or_app; left; apply in_or_app; right; exact R1|exact R2]. Qed.

Lemma acks_inv s e r : acks s e r = true ->
  exists mt mid x, (mt = 2 \/ mt = 3) /\ xget r mid (active_exchanges s) = Some x /\
    (e = RecvEmpty r mt mid \/ exists tok, e = RecvResp r mt mid tok).
Proof. destruct e; cbn; try discriminate; intros H.
  - destruct (xget r mid (active_exchanges s)) as [x|] eqn:E; [|rewrite andb_false_r in H; discriminate].
    assert (r0 = r) by lia. subst r0. exists mtype, mid, x. split; [lia|]. split; [exact E|left; reflexivity].
  - destruct (xget r mid (active_exchanges s)) as [x|] eqn:E; [|rewrite andb_false_r in H; discriminate].
    assert (r0 = r) by lia. subst r0. exists mtype, mid, x. split; [lia|]. split; [exact E|right; exists tok; reflexivity]. Qed.

Lemma dispatch_message_acked r mt code mid tok s x q : Inv s -> (mt = 2 \/ mt = 3) -> xget r mid (active_exchanges s) = Some x ->
  aget r (backlogs s) = Some q ->
  Released r q (fst (C14.dispatch_message r mt code mid tok s)) (snd (C14.dispatch_message r mt code mid tok s)).
Proof. intros HI Hmt Ex Ha.
  destruct (dispatch_message_shape r mt code mid tok s HI) as (tail & Ho & Hn & He & Hb).
  replace ((mt =? 2) || (mt =? 3)) with true in * by lia.
  destruct (remove_exchange_base r mid mt s x HI Ex) as (_ & q' & Ha' & Hrd & Hnf). rewrite Ha in Ha'. inv Ha'.
  rewrite Hnf in Ho, He, Hb. clear Hnf.
  destruct (reset_monitor_frame mt (x_msg x) (upd_ex s (xdel r mid (active_exchanges s)))) as (He2 & Hb2 & Hn2).
  destruct (reset_monitor _ _ _) as [s2 o2]. cbn [fst snd] in *. apply (ready_ext r q' _ s2 He2 Hb2) in Hrd.
  pose proof (release_released r q' s2 Hrd) as R. destruct (release [] r s2) as [s3 o3]. cbn [fst snd] in *.
  rewrite Ho. exact (released_framed r q' s3 o3 o2 tail _ R Hn2 Hn He Hb). Qed.

Theorem released_when_acked s e r q : Inv s -> acks s e r = true -> aget r (backlogs s) = Some q ->
  Released r q (fst (step s e)) (snd (step s e)).
Proof. intros HI Hack Ha. destruct (acks_inv s e r Hack) as (mt & mid & x & Hmt & Ex & [->|[tok ->]]); cbn [step];
  apply (dispatch_message_acked r mt _ mid _ s x q HI Hmt Ex Ha). Qed.

(* a transport error tells the token manager first and drops the queue after, the last time-out the other way round *)
Lemma tm_failed e r q s s' pre (dropped_first : bool) :
  Forall (fun m => con_to r m = true) q -> forallb neutral pre = true -> (forall m b, ~ In (Tx m b) pre) ->
  aget r (backlogs s') = None -> exs r s' = [] ->
  outgoing_requests s' = outgoing_requests (fst (tm_dispatch_error e r s)) ->
  incoming_requests s' = incoming_requests (fst (tm_dispatch_error e r s)) ->
  failed_outcome r q s s'
    (pre ++ if dropped_first then map Dropped q ++ snd (tm_dispatch_error e r s) else snd (tm_dispatch_error e r s) ++ map Dropped q).
Proof. intros Hq Hp Hpt Ha Hx Ho Hi. destruct (tm_dispatch_error_spec e r s) as (_ & _ & Hn & T1 & _ & T3 & T4 & T5 & T6). cbn zeta in *.
  unfold failed_outcome, reqs, served_from in *. rewrite Ho, Hi. destruct (tm_dispatch_error e r s) as [s1 o1]. cbn [fst snd] in *.
  destruct (neutral_logs r _ Hn) as (N1 & N2 & _). destruct (neutral_logs r _ Hp) as (P1 & P2 & _).
  assert (Hin : forall x, In x o1 \/ In x (map Dropped q) -> In x (pre ++ (if dropped_first then map Dropped q ++ o1 else o1 ++ map Dropped q)))
    by (intros x H; apply in_or_app; right; destruct dropped_first; apply in_or_app; tauto).
  split; [destruct dropped_first; rewrite !left_app, P2, N2, left_dropped_same, ?app_nil_r by assumption; reflexivity|].
  split; [destruct dropped_first; rewrite !subm_app, P1, N1, subm_dropped; reflexivity|].
  split; [intros m Hm; apply Hin; right; apply in_map; exact Hm|].
  split; [|split; [intros en Hen; exists e; apply Hin; left; apply T3; exact Hen|]; repeat split; try assumption; intros v Hv; apply Hin; left; apply T5; exact Hv].
  intros m b H. apply in_app_or in H. destruct H as [H|H]; [exact (Hpt m b H)|].
  destruct dropped_first; apply in_app_or in H; destruct H as [H|H]; solve [exact (T1 m b H)|exact (no_tx_dropped m b q H)]. Qed.

Theorem dropped_when_failed s e r q : Inv s -> fails s e r = true -> aget r (backlogs s) = Some q ->
  failed_outcome r q s (fst (step s e)) (snd (step s e)).
Proof. intros HI Hf Ha. destruct e; cbn in Hf; try discriminate; cbn [step].
  - (* transport error *) assert (r0 = r) by lia. subst r0. pose proof (inv_qok s r HI) as Hq. unfold QOk, backlog_of in Hq. rewrite Ha in Hq.
    pose proof (dispatch_error_exs r s r) as He. pose proof (dispatch_error_aget r s r) as Hb. rewrite Z.eqb_refl in He, Hb.
    pose proof (tm_failed NetworkError r q s (fst (dispatch_error r s)) [] false Hq eq_refl (fun _ _ H => H) Hb He) as F.
    unfold dispatch_error in *. destruct (tm_dispatch_error_frame NetworkError r s) as (_ & B & _).
    destruct (tm_dispatch_error NetworkError r s) as [s1 o1]. cbn [fst snd backlogs upd_ex upd_bl] in *. rewrite B in *. rewrite Ha. apply F; reflexivity.
  - (* the last time-out of r's exchange *) destruct (min_timer (active_exchanges s)) as [x|] eqn:E; [|discriminate]. apply andb_prop in Hf. destruct Hf as [Hr Hc].
    assert (m_remote (x_msg x) = r) by lia. subst r. unfold C14.fire. rewrite E. set (s0 := upd_now s (Z.max (now s) (x_due x))).
    change (C14.retransmit x s0) with (retransmit [] x s0).
    destruct (retransmit_nf [] x s0 (inv_ext s s0 eq_refl eq_refl HI) (min_timer_in _ _ E)) as (q' & Ha' & (Hz & _ & Hq & _) & ->).
    change (backlogs s0) with (backlogs s) in Ha'. rewrite Ha in Ha'. inv Ha'. destruct (x_counter x <? m_maxre (x_msg x)); [discriminate|].
    unfold final_timeout. match goal with |- context [tm_dispatch_error ?e ?rr ?sa] =>
      pose proof (tm_failed e rr q' sa (fst (tm_dispatch_error e rr sa)) [Fired rr (m_mid (x_msg x))] true Hq eq_refl) as F;
      destruct (tm_dispatch_error_frame e rr sa) as (A & B & _); destruct (tm_dispatch_error e rr sa) as [s1 o1] end.
    cbn [fst snd] in *. apply F; [intros m b [H|[]]; discriminate|rewrite B; apply aget_adel_same|unfold exs; rewrite A; exact Hz|reflexivity|reflexivity]. Qed.

Definition submits (e : event) : option (sub * Z * Z) :=
  match e with
  | Request q r mt _ => Some (Req q, r, mt)
  | RawSend k r mt _ _ => Some (Raw k, r, mt)
  | _ => None
  end.

Lemma submits_send s e who r mt : submits e = Some (who, r, mt) ->
  exists code tok maxre s1, step s e = C14.send_message who r mt code tok maxre s1 /\
    active_exchanges s1 = active_exchanges s /\ backlogs s1 = backlogs s.
Proof. intros He. destruct e; cbn in He; inv He; cbn [step].
  - unfold C14.tm_request, next_token. cbn -[C14.send_message Z.pow Z.modulo]. do 4 eexists. split; [reflexivity|]. split; reflexivity.
  - do 4 eexists. split; [reflexivity|]. split; reflexivity. Qed.

Lemma send_message_base who r mt code tok maxre s : Inv s ->
  let m := new_msg who r mt code tok maxre s in let s0 := snd (next_message_id s) in
  (exists q, resolve_mtype mt = 0 /\ aget r (backlogs s) = Some q /\
     C14.send_message who r mt code tok maxre s = (upd_bl s0 (aset r (q ++ [m]) (backlogs s)), [Submitted m])) \/
  ((resolve_mtype mt <> 0 \/ aget r (backlogs s) = None) /\
     C14.send_message who r mt code tok maxre s = (if resolve_mtype mt =? 0 then add_exchange m s0 else s0, [Submitted m; Tx m false])).
Proof. exact (send_message_nf [] who r mt code tok maxre s). Qed.

Theorem not_delayed s e who r mt : submits e = Some (who, r, mt) -> (resolve_mtype mt <> 0 \/ in_backlogs r s = false) ->
  exists m, snd (step s e) = [Submitted m; Tx m false] /\ m_sub m = who /\ m_remote m = r /\ m_mtype m = resolve_mtype mt.
Proof. intros He H. destruct (submits_send s e who r mt He) as (code & tok & maxre & s1 & -> & _ & Hb).
  unfold C14.send_message, next_message_id, C14.send_initially. cbn [m_mtype]. unfold in_backlogs in *. cbn [backlogs]. rewrite Hb.
  replace ((resolve_mtype mt =? 0) && match aget r (backlogs s) with Some _ => true | None => false end) with false
    by (destruct H as [H|H]; [replace (resolve_mtype mt =? 0) with false by lia; reflexivity|rewrite H, andb_false_r; reflexivity]).
  eexists. split; [reflexivity|]. cbn. auto. Qed.

Theorem held_back_when_busy s e who r mt q : Inv s -> submits e = Some (who, r, mt) -> resolve_mtype mt = 0 ->
  aget r (backlogs s) = Some q ->
  exists m, snd (step s e) = [Submitted m] /\ aget r (backlogs (fst (step s e))) = Some (q ++ [m]) /\
    exs r (fst (step s e)) = exs r s /\ m_sub m = who /\ m_remote m = r /\ m_mtype m = 0.
Proof. intros HI He Hc Ha. destruct (submits_send s e who r mt He) as (code & tok & maxre & s1 & -> & Hx & Hb).
  destruct (send_message_base who r mt code tok maxre s1 (inv_ext s s1 Hx Hb HI)) as [(q' & _ & Ha' & ->)|([Hn|Hn] & _)]; [|lia|congruence].
  rewrite Hb, Ha in Ha'. inv Ha'. eexists. cbn [fst snd backlogs upd_bl]. rewrite aget_aset_same, Hb. split; [reflexivity|]. split; [reflexivity|].
  split; [unfold exs; cbn [active_exchanges upd_bl snd next_message_id]; rewrite Hx; reflexivity|]. cbn. auto. Qed.

Lemma send_message_busy who r mt code tok maxre s q x : Inv s -> aget r (backlogs s) = Some q -> exs r s = [x] ->
  aget r (backlogs (fst (C14.send_message who r mt code tok maxre s))) = Some (q ++ subm r (snd (C14.send_message who r mt code tok maxre s))) /\
  left r (snd (C14.send_message who r mt code tok maxre s)) = [] /\ exs r (fst (C14.send_message who r mt code tok maxre s)) = [x].
Proof. intros HI Ha Hx. destruct (send_message_base who r mt code tok maxre s HI) as [(q' & Hc & Ha' & ->)|([Hn|Hn] & ->)]; [| |congruence].
  - rewrite Ha in Ha'. inv Ha'. cbn [fst snd backlogs upd_bl]. rewrite aget_aset_same. unfold subm, left. cbn [flat_map subm_o left_o app].
    replace (con_to r _) with true by (unfold con_to; cbn [new_msg m_mtype m_remote]; lia). split; [reflexivity|]. split; [reflexivity|exact Hx].
  - replace (resolve_mtype mt =? 0) with false by lia. cbn [fst snd]. unfold subm, left. cbn [flat_map subm_o left_o app].
    replace (con_to r _) with false by (unfold con_to; cbn [new_msg m_mtype m_remote]; lia). rewrite app_nil_r. auto. Qed.

(* Request, RawSend and Respond are all a call of send_message for r from a state with the same tables; RecvEmpty and RecvResp
   both dispatch_message *)
Definition Quiet (s : st) (res : st * list output) : Prop :=
  active_exchanges (fst res) = active_exchanges s /\ backlogs (fst res) = backlogs s /\ forallb neutral (snd res) = true.
Definition Submission (r : Z) (s : st) (res : st * list output) : Prop :=
  exists who mt code tok maxre s1 tail, let sent := C14.send_message who r mt code tok maxre s1 in
    active_exchanges s1 = active_exchanges s /\ backlogs s1 = backlogs s /\ snd res = snd sent ++ tail /\ forallb neutral tail = true /\
    active_exchanges (fst res) = active_exchanges (fst sent) /\ backlogs (fst res) = backlogs (fst sent).

Lemma dispatch_message_quiet r mt code mid tok s : Inv s ->
  ((mt =? 2) || (mt =? 3)) && match xget r mid (active_exchanges s) with Some _ => true | None => false end = false ->
  Quiet s (C14.dispatch_message r mt code mid tok s).
Proof. intros HI H. destruct (dispatch_message_shape r mt code mid tok s HI) as (tail & Ho & Hn & He & Hb). unfold Quiet. rewrite Ho, He, Hb.
  assert (Hf : (if (mt =? 2) || (mt =? 3) then C14.remove_exchange r mid mt s else (s, [])) = (s, [])).
  { destruct ((mt =? 2) || (mt =? 3)); [|reflexivity]. unfold C14.remove_exchange. destruct (xget r mid (active_exchanges s)); [discriminate|reflexivity]. }
  rewrite Hf. auto. Qed.

Inductive EventKind (s : st) (e : event) (r : Z) : Prop :=
| KAck : acks s e r = true -> EventKind s e r
| KFail : fails s e r = true -> EventKind s e r
| KQuiet : fires_on s e r = false -> Quiet s (step s e) -> EventKind s e r
| KSubmission : fires_on s e r = false -> Submission r s (step s e) -> EventKind s e r
| KRetransmit x : e = Fire -> min_timer (active_exchanges s) = Some x -> m_remote (x_msg x) = r ->
    (x_counter x <? m_maxre (x_msg x)) = true -> EventKind s e r.

Lemma step_kinds s e r : Inv s -> touches s e r = true -> EventKind s e r.
Proof. intros HI Ht.
  destruct e; cbn in Ht; try discriminate; try (assert (r0 = r) by lia; subst r0).
  - (* Request *) apply KSubmission; [reflexivity|]. destruct (submits_send s (Request q r mt maxre) (Req q) r mt eq_refl) as (code & tok & maxre' & s1 & E & He & Hb).
    rewrite E. exists (Req q), mt, code, tok, maxre', s1, []. cbn zeta. rewrite app_nil_r. auto 8.
  - (* RawSend *) apply KSubmission; [reflexivity|]. exists (Raw k), mt, 69, tok, maxre, s, []. cbn zeta. rewrite app_nil_r. auto 8.
  - (* RecvEmpty *) destruct (acks s (RecvEmpty r mtype mid) r) eqn:E; [apply KAck; exact E|apply KQuiet; [reflexivity|]].
    cbn in E. rewrite Z.eqb_refl in E. apply dispatch_message_quiet; assumption.
  - (* RecvResp *) destruct (acks s (RecvResp r mtype mid tok) r) eqn:E; [apply KAck; exact E|apply KQuiet; [reflexivity|]].
    cbn in E. rewrite Z.eqb_refl in E. apply dispatch_message_quiet; assumption.
  - (* TransportError *) apply KFail. cbn. lia.
  - (* Fire *) destruct (min_timer (active_exchanges s)) as [x|] eqn:E; [|discriminate].
    destruct (x_counter x <? m_maxre (x_msg x)) eqn:Ec; [apply (KRetransmit s Fire r x); auto; lia|apply KFail; cbn; rewrite E, Ht, Ec; reflexivity].
  - (* Serve *) apply KQuiet; [reflexivity|]. cbn [step]. unfold tm_process_request. repeat split. apply neutral_map. reflexivity.
  - (* Respond *) apply KSubmission; [reflexivity|]. cbn [step]. unfold respond. destruct (find (fun v => v_k v =? k) (incoming_requests s)) as [v|]; [|discriminate].
    replace (v_remote v) with r by lia. exists (Resp j k), (if v_mtype v =? 1 then 7 else 8), 69, (v_tok v), maxre, s.
    destruct (C14.send_message _ _ _ _ _ _ s) as [s1 o1]. destruct last; [destruct (alive k s1) eqn:Ea|]; cbn [fst snd];
      [unfold stop_responder; rewrite Ea; exists [Ended k]|exists []; rewrite app_nil_r..]; repeat split. Qed.

Lemma stays_queued_same s e r q x s' o : exs r s = [x] -> exs r s' = [x] -> aget r (backlogs s') = Some (q ++ subm r o) -> left r o = [] ->
  fires_on s e r = false -> StaysQueued s e r q s' o.
Proof. intros Hx Hx' Ha Hl Hf. split; [exact Ha|]. split; [exact Hl|]. exists x, x. rewrite Hf. auto. Qed.

Lemma untouched_stays_queued s e r q s' o : Inv s -> aget r (backlogs s) = Some q -> touches s e r = false ->
  exs r s' = exs r s /\ aget r (backlogs s') = aget r (backlogs s) /\ silent r o = true -> StaysQueued s e r q s' o.
Proof. intros HI Ha Ht (A & B & C). destruct (silent_logs r _ C) as (S1 & S2).
  destruct (inv_cases s r HI) as [[_ Hn]|(x & q' & Hx & _)]; [congruence|].
  apply (stays_queued_same s e r q x); [exact Hx|rewrite A; exact Hx|rewrite B, S1, app_nil_r; exact Ha|exact S2|exact (fires_on_touches s e r Ht)]. Qed.

Theorem held_otherwise s e r q : Inv s -> aget r (backlogs s) = Some q -> acks s e r = false -> fails s e r = false ->
  StaysQueued s e r q (fst (step s e)) (snd (step s e)).
Proof. intros HI Ha Hack Hf.
  destruct (touches s e r) eqn:Ht; [|exact (untouched_stays_queued s e r q _ _ HI Ha Ht (step_frame s e r HI Ht))].
  destruct (inv_cases s r HI) as [[_ Hn]|(x & q' & Hx & Ha' & Hq)]; [congruence|]. rewrite Ha in Ha'. inv Ha'.
  destruct (step_kinds s e r HI Ht) as [H|H|Hfo (He & Hb & Hn)|Hfo (who & mt & code & tok & maxre & s1 & tail & He1 & Hb1 & Ho & Hn & He & Hb)|y -> E Hy Hc]; try congruence.
  - destruct (neutral_logs r _ Hn) as (N1 & N2 & _).
    apply (stays_queued_same s e r q' x); [exact Hx|unfold exs; rewrite He; exact Hx|rewrite Hb, N1, app_nil_r; exact Ha|exact N2|exact Hfo].
  - destruct (send_message_busy who r mt code tok maxre s1 q' x (inv_ext s s1 He1 Hb1 HI)) as (A & B & C); [rewrite Hb1; exact Ha|unfold exs; rewrite He1; exact Hx|].
    destruct (neutral_logs r tail Hn) as (N1 & N2 & _).
    apply (stays_queued_same s e r q' x); [exact Hx|unfold exs; rewrite He; exact C|rewrite Hb, Ho, subm_app, N1, app_nil_r; exact A|rewrite Ho, left_app, B, N2; reflexivity|exact Hfo].
  - (* a retransmission *) unfold StaysQueued. cbn [step fires_on]. unfold C14.fire. rewrite E. pose proof (min_timer_in _ _ E) as Hin.
    replace (m_remote (x_msg y) =? r) with true by lia.
    assert (y = x). { pose proof (in_exs r s y Hin Hy) as Hi. rewrite Hx in Hi. destruct Hi as [Hi|[]]. congruence. } subst y.
    set (s0 := upd_now s (Z.max (now s) (x_due x))). assert (HI0 : Inv s0) by exact (inv_ext s s0 eq_refl eq_refl HI).
    change (C14.retransmit x s0) with (retransmit [] x s0). destruct (retransmit_nf [] x s0 HI0 Hin) as (q0 & _ & _ & ->). rewrite Hc.
    destruct (rescheduled_spec x s0 HI0 Hin) as (_ & Hb & _ & _ & (x' & Hx' & Hm & Hcn) & _). rewrite Hy in Hx'.
    cbn [fst snd send_via_transport refuses existsb]. rewrite Hb. unfold subm, left. cbn. rewrite app_nil_r.
    split; [exact Ha|]. split; [reflexivity|]. exists x, x'. split; [exact Hx|]. split; [exact Hx'|]. split; [exact Hm|]. split; [exact Hcn|lia]. Qed.

Theorem step_trichotomy s e r : Inv s -> Trichotomy s e r (fst (step s e)) (snd (step s e)).
Proof. intros HI q Ha. destruct (acks s e r) eqn:Eack; [apply released_when_acked; assumption|].
  destruct (fails s e r) eqn:Ef; [apply dropped_when_failed; assumption|apply held_otherwise; assumption]. Qed.

(* transmissions still to come before the exchange gives up (the measure of Proofs/C14live.v) *)
Definition weight (x : exchange) : nat := S (Z.to_nat (m_maxre (x_msg x) - x_counter x)).
Definition measure (s : st) : nat := list_sum (map weight (active_exchanges s)).
