(* C02 — foundation: tokens, association lists, what one Pipe event outputs, and the primitive actions every operation of the model
   is a sequence of (one walk over the call tree). The other files prove their invariants per primitive action. *)
From Verif Require Import Lib.Py Lib.PyLemmas Lib.Tactics Gen.tokenmanager_next_token Model.C02.
Open Scope Z_scope.

Definition tokbytes (v : Z) : list Z := blstrip0 (to_bytes_big_n 8 v).

Lemma from_bytes_blstrip0 : forall b, from_bytes_big (blstrip0 b) = from_bytes_big b.
Proof.
  induction b as [|x b IH]; [reflexivity|]. cbn [blstrip0].
  destruct (x =? 0) eqn:E; [|reflexivity].
  apply Z.eqb_eq in E. subst x. rewrite IH. reflexivity.
Qed.

Lemma from_bytes_tokbytes : forall v, 0 <= v < 2 ^ 64 -> from_bytes_big (tokbytes v) = v.
Proof.
  intros v H. unfold tokbytes. rewrite from_bytes_blstrip0.
  change 8%nat with (Z.to_nat 8). apply from_bytes_big_to; [lia|]. exact H.
Qed.

Lemma token_injective : forall a b, 0 <= a < 2 ^ 64 -> 0 <= b < 2 ^ 64 -> tokbytes a = tokbytes b -> a = b.
Proof.
  intros a b Ha Hb E. rewrite <- (from_bytes_tokbytes a Ha), <- (from_bytes_tokbytes b Hb), E. reflexivity.
Qed.

Definition next_tok (t : tm) : Z := (tm_token t + 1) mod 2 ^ 64.
Lemma next_tok_range : forall t, 0 <= next_tok t < 2 ^ 64.
Proof. intros t. apply Z.mod_pos_bound. reflexivity. Qed.

Lemma next_token_spec : forall t,
  next_token t = Ok ({| tm_token := (tm_token t + 1) mod 2 ^ 64 |}, tokbytes ((tm_token t + 1) mod 2 ^ 64)).
Proof.
  intros t. unfold next_token, tokbytes, to_bytes_big. cbn [tm_token]. change (2 ^ (8 * 8)) with (2 ^ 64).
  pose proof (next_tok_range t) as H. unfold next_tok in H.
  destruct (_ <? 0) eqn:E1; [lia|]. destruct (2 ^ 64 <=? _) eqn:E2; [lia|]. reflexivity.
Qed.

Fixpoint next_token_n (d : nat) (t : tm) : tm :=
  match d with O => t | S k => match next_token (next_token_n k t) with Ok (t', _) => t' | Raise _ => t end end.
Lemma next_token_n_val : forall d t, 0 <= tm_token t < 2 ^ 64 ->
  tm_token (next_token_n d t) = (tm_token t + Z.of_nat d) mod 2 ^ 64.
Proof.
  induction d as [|d IH]; intros t H; cbn [next_token_n].
  - rewrite Z.add_0_r, Z.mod_small; [reflexivity|exact H].
  - rewrite next_token_spec. cbn [tm_token]. rewrite IH by exact H.
    rewrite Zplus_mod_idemp_l. f_equal. lia.
Qed.
Lemma tokbytes_mod_inj : forall x y, - 2 ^ 64 < x - y < 2 ^ 64 -> tokbytes (x mod 2 ^ 64) = tokbytes (y mod 2 ^ 64) -> x = y.
Proof.
  intros x y H E. apply token_injective in E; try (apply Z.mod_pos_bound; reflexivity).
  change (2 ^ 64) with 18446744073709551616 in *. lia.
Qed.
Lemma tokens_distinct : forall t d, 0 <= t < 2 ^ 64 -> 0 < d < 2 ^ 64 ->
  tokbytes ((t + d) mod 2 ^ 64) <> tokbytes t.
Proof.
  intros t d Ht Hd E. rewrite <- (Z.mod_small t (2 ^ 64)) in E at 2 by exact Ht. apply tokbytes_mod_inj in E; lia.
Qed.

Section AListLemmas.
  Context {K V : Type} (eqb : K -> K -> bool) (eqb_spec : forall a b, eqb a b = true <-> a = b).
  Lemma eqb_refl_ k : eqb k k = true. Proof. apply eqb_spec. reflexivity. Qed.
  Lemma eqb_neq a b : eqb a b = false <-> a <> b.
  Proof. split; intros H. - intros E. apply eqb_spec in E. congruence.
    - destruct (eqb a b) eqn:E; [apply eqb_spec in E; contradiction|reflexivity]. Qed.
  Lemma alookup_aset k k' (v : V) l :
    alookup eqb k' (aset eqb k v l) = if eqb k' k then Some v else alookup eqb k' l.
  Proof.
    induction l as [|[k1 v1] r IH]; cbn [aset alookup].
    - reflexivity.
    - destruct (eqb k k1) eqn:E1; cbn [alookup].
      + apply eqb_spec in E1. subst k1. destruct (eqb k' k); reflexivity.
      + rewrite IH. destruct (eqb k' k1) eqn:E2; [|reflexivity].
        apply eqb_spec in E2. subst k1. destruct (eqb k' k) eqn:E3; [|reflexivity].
        apply eqb_spec in E3. subst k'. rewrite eqb_refl_ in E1. discriminate.
  Qed.
  Lemma alookup_aremove k k' (l : list (K * V)) :
    alookup eqb k' (aremove eqb k l) = if eqb k' k then None else alookup eqb k' l.
  Proof.
    induction l as [|[k1 v1] r IH]; cbn [aremove alookup].
    - destruct (eqb k' k); reflexivity.
    - destruct (eqb k k1) eqn:E1.
      + apply eqb_spec in E1. subst k1. rewrite IH. destruct (eqb k' k); reflexivity.
      + cbn [alookup]. rewrite IH. destruct (eqb k' k1) eqn:E2; [|reflexivity].
        apply eqb_spec in E2. subst k1. destruct (eqb k' k) eqn:E3; [|reflexivity].
        apply eqb_spec in E3. subst k'. rewrite eqb_refl_ in E1. discriminate.
  Qed.
  Lemma amem_aset k k' (v : V) l : amem eqb k' (aset eqb k v l) = eqb k' k || amem eqb k' l.
  Proof. unfold amem. rewrite alookup_aset. destruct (eqb k' k); reflexivity. Qed.
  Lemma amem_aremove k k' (l : list (K * V)) : amem eqb k' (aremove eqb k l) = negb (eqb k' k) && amem eqb k' l.
  Proof. unfold amem. rewrite alookup_aremove. destruct (eqb k' k); reflexivity. Qed.
  Lemma alookup_In k (v : V) l : alookup eqb k l = Some v -> In (k, v) l.
  Proof.
    induction l as [|[k1 v1] r IH]; cbn [alookup]; [discriminate|].
    destruct (eqb k k1) eqn:E; intros H.
    - apply eqb_spec in E. inversion H. subst. left. reflexivity.
    - right. apply IH. exact H.
  Qed.
  Lemma In_alookup k (v : V) l : In (k, v) l -> exists v', alookup eqb k l = Some v'.
  Proof.
    induction l as [|[k1 v1] r IH]; cbn [alookup In]; [contradiction|].
    intros [H|H].
    - inversion H. subst. rewrite eqb_refl_. eauto.
    - destruct (eqb k k1); eauto.
  Qed.
End AListLemmas.
(* apart from the section above: a proof by lia in there comes to depend on eqb_spec, whether it needs it or not *)
Section AListIn.
  Context {K V : Type} (eqb : K -> K -> bool).
  Lemma In_aremove k (x : K * V) l : In x (aremove eqb k l) -> In x l /\ eqb k (fst x) = false.
  Proof.
    induction l as [|[k1 v1] r IH]; cbn [aremove]; [contradiction|].
    destruct (eqb k k1) eqn:E.
    - intros H. apply IH in H. destruct H. split; [right|]; assumption.
    - intros [<-|H]; [split; [left; reflexivity|exact E]|]. apply IH in H. destruct H. split; [right|]; assumption.
  Qed.
  Lemma In_fold_aremove ks (x : K * V) l : In x (fold_left (fun l k => aremove eqb k l) ks l) ->
    In x l /\ forall k, In k ks -> eqb k (fst x) = false.
  Proof.
    revert l. induction ks as [|k r IH]; intros l H; cbn [fold_left] in H; [split; [exact H|intros k []]|].
    apply IH in H. destruct H as [H1 H2]. apply In_aremove in H1. destruct H1 as [H1 H3].
    split; [exact H1|]. intros k' [<-|Hk]; [exact H3|apply H2; exact Hk].
  Qed.
  Lemma length_aremove k (l : list (K * V)) : (length (aremove eqb k l) <= length l)%nat.
  Proof. induction l as [|[k1 v1] r IH]; cbn [aremove length]; [lia|]. destruct (eqb k k1); cbn [length]; lia. Qed.
  Lemma In_aset k (v : V) (x : K * V) l : In x (aset eqb k v l) -> x = (k, v) \/ In x l.
  Proof.
    induction l as [|[k1 v1] r IH]; cbn [aset]; [intros [<-|[]]; left; reflexivity|].
    destruct (eqb k k1); intros [<-|H]; auto; [right; right; exact H|right; left; reflexivity|].
    apply IH in H. destruct H; [left|right; right]; assumption.
  Qed.
  Lemma In_aset_same k (v : V) l : In (k, v) (aset eqb k v l).
  Proof. induction l as [|[k1 v1] r IH]; cbn [aset]; [left; reflexivity|]. destruct (eqb k k1); [left; reflexivity|right; exact IH]. Qed.
  Lemma aset_append k (v : V) l : (forall e, In e l -> eqb k (fst e) = false) -> aset eqb k v l = l ++ [(k, v)].
  Proof.
    induction l as [|[k1 v1] r IH]; intros H; [reflexivity|]. cbn [aset app].
    pose proof (H (k1, v1) (or_introl eq_refl)) as E. cbn [fst] in E. rewrite E. f_equal. apply IH. intros e He. apply H. right. exact He.
  Qed.
End AListIn.

Lemma Zeqb_spec : forall a b : Z, (a =? b) = true <-> a = b. Proof. intros. apply Z.eqb_eq. Qed.
Lemma opt_eqb_spec : forall a b, opt_eqb a b = true <-> a = b.
Proof. intros [a|] [b|]; cbn; split; intros H; try discriminate; try reflexivity.
  - apply Z.eqb_eq in H. congruence. - inversion H. apply Z.eqb_refl. Qed.
Lemma key_eqb_spec : forall a b : key, key_eqb a b = true <-> a = b.
Proof.
  intros [t1 r1] [t2 r2]. unfold key_eqb. cbn [fst snd]. rewrite andb_true_iff, list_eqb_Z_eq, opt_eqb_spec.
  split; [intros [-> ->]; reflexivity|intros H; inversion H; auto].
Qed.
Lemma key_eqb_refl : forall k, key_eqb k k = true. Proof. intros. apply key_eqb_spec. reflexivity. Qed.
Lemma rm_eqb_spec : forall a b : remote * Z, rm_eqb a b = true <-> a = b.
Proof.
  intros [a1 a2] [b1 b2]. unfold rm_eqb. cbn [fst snd]. rewrite andb_true_iff, !Z.eqb_eq.
  split; [intros [-> ->]; reflexivity|intros H; inversion H; auto].
Qed.

(* every output of delivering event [ev] to the pipe of request [q] is about q and about that very event *)
Definition out_ok (q : Z) (ev : pev) (o : output) : Prop :=
  match o with
  | SetResult q' rid tok from => q' = q /\ exists w l, ev = PResponse w from l /\ rid = w_rid w /\ tok = w_token w
  | Notify q' rid tok from => q' = q /\ exists w l, ev = PResponse w from l /\ rid = w_rid w /\ tok = w_token w
  | SetException q' e => q' = q /\ ev = PException e
  | ObsError q' _ => q' = q
  | Crash _ => True
  | _ => False
  end.

(* case split on a [match] scrutinee; split pair equations *)
Ltac dmatch :=
  match goal with
  | |- context [match ?x with _ => _ end] => destruct x eqn:?
  | H : context [match ?x with _ => _ end] |- _ => destruct x eqn:?
  end.

Ltac invpairs := repeat match goal with H : (_, _) = (_, _) |- _ => inversion H; subst; clear H end.

(* the sweeps over [_run], here and in the other files, enumerate its finitely many branches *)
Lemma run_out_ok : forall q c ev c' o stop keep, _run q c ev = (c', o, stop, keep) -> Forall (out_ok q ev) o.
Proof.
  intros q c ev c' o stop keep H. unfold _run in H.
  repeat dmatch; invpairs;
    repeat (apply Forall_cons || apply Forall_nil || apply Forall_app; try split); cbn; eauto 10.
Qed.

(* Pipe._add_event calls the generator once and otherwise changes only the callback list: what composes, holds of [_run] and
   ignores that list holds of it *)
Section PipeWalk.
  Variables (q : Z) (ev : pev) (R : creq -> creq -> list output -> Prop).
  Hypothesis R_refl : forall c, R c c [].
  Hypothesis R_trans : forall c c1 c2 o1 o2, R c c1 o1 -> R c1 c2 o2 -> R c c2 (o1 ++ o2).
  Hypothesis R_cbs : forall c v, R c (set_cbs c v) [].
  Hypothesis R_run : forall c c' o stop keep, _run q c ev = (c', o, stop, keep) -> R c c' o.
  Lemma end_R : forall c c' ks, _end c = (c', ks) -> R c c' [].
  Proof. intros c c' ks H. unfold _end in H. destruct (cq_cbs c); invpairs; [apply R_cbs|apply R_refl]. Qed.
  Lemma stop_interest_R : forall c c' ks, _stop_interest c = (c', ks) -> R c c' [].
  Proof.
    intros c c' ks H. unfold _stop_interest in H. destruct (cq_cbs c); [|invpairs; apply R_refl].
    destruct (_any_interest _); [invpairs; apply R_cbs|]. apply end_R in H. eapply (R_trans _ _ _ [] []); [apply R_cbs|exact H].
  Qed.
  Lemma call_cb_R : forall c x c' o ks keep, call_cb q c x ev = (c', o, ks, keep) -> R c c' o.
  Proof.
    intros c [|k] c' o ks keep H; cbn [call_cb] in H; [|destruct (pev_is_last ev); invpairs; apply R_refl].
    unfold process in H. destruct (_run q c ev) as [[[c1 o1] stop] kp] eqn:E. apply R_run in E.
    destruct stop; [|invpairs; exact E]. destruct (_stop_interest c1) as [c2 k2] eqn:S. apply stop_interest_R in S. invpairs.
    rewrite <- (app_nil_r o). eapply R_trans; eassumption.
  Qed.
  Lemma loop_R : forall snap c c' o ks early, _add_event_loop q c snap ev = (c', o, ks, early) -> R c c' o.
  Proof.
    induction snap as [|x rest IH]; intros c c' o ks early H; cbn [_add_event_loop] in H; [invpairs; apply R_refl|].
    destruct (call_cb q c x ev) as [[[c1 o1] k1] keep] eqn:C. apply call_cb_R in C. destruct keep.
    - destruct (_add_event_loop q c1 rest ev) as [[[c2 o2] k2] e2] eqn:L. apply IH in L. invpairs. eapply R_trans; eassumption.
    - destruct (cq_cbs c1); [|invpairs; exact C].
      destruct (_add_event_loop q _ rest ev) as [[[c2 o2] k2] e2] eqn:L. apply IH in L. invpairs.
      eapply R_trans; [exact C|]. eapply (R_trans _ _ _ [] o2); [apply R_cbs|exact L].
  Qed.
  Lemma pipe_add_event_R : forall c c' o ks, pipe_add_event q c ev = (c', o, ks) -> R c c' o.
  Proof.
    intros c c' o ks H. unfold pipe_add_event in H. destruct (cq_cbs c); [|invpairs; apply R_refl].
    destruct (_add_event_loop q c l ev) as [[[c1 o1] k1] early] eqn:L. apply loop_R in L.
    destruct early; [invpairs; exact L|]. destruct (cq_cbs c1); [|invpairs; exact L].
    destruct (_any_interest l0); [invpairs; exact L|]. destruct (_end c1) as [c2 k2] eqn:E. apply end_R in E. invpairs.
    rewrite <- (app_nil_r o). eapply R_trans; eassumption.
  Qed.
End PipeWalk.
(* on request objects and on states: I is kept and every output satisfies X *)
Definition keeping {T : Type} (I : T -> Prop) (X : output -> Prop) : T -> T -> list output -> Prop := fun c c' o => I c -> I c' /\ Forall X o.
Lemma keeping_refl : forall T (I : T -> Prop) X c, keeping I X c c []. Proof. intros T I X c H. split; [exact H|constructor]. Qed.
Lemma keeping_trans : forall T (I : T -> Prop) X c c1 c2 o1 o2, keeping I X c c1 o1 -> keeping I X c1 c2 o2 -> keeping I X c c2 (o1 ++ o2).
Proof. intros T I X c c1 c2 o1 o2 H1 H2 H. destruct (H1 H) as [I1 F1]. destruct (H2 I1) as [I2 F2]. split; [exact I2|apply Forall_app; split; assumption]. Qed.

Lemma pipe_add_event_out_ok : forall q c ev c' o ks, pipe_add_event q c ev = (c', o, ks) -> Forall (out_ok q ev) o.
Proof.
  intros q c ev. apply (pipe_add_event_R q ev (fun _ _ o => Forall (out_ok q ev) o)); try (intros; constructor).
  - intros c0 c1 c2 o1 o2 H1 H2. apply Forall_app. split; assumption.
  - intros c0 c1 o st k H. eapply run_out_ok. exact H.
Qed.
Lemma add_event_out_ok : forall s q ev s' o, _add_event s q ev = (s', o) -> Forall (out_ok q ev) o.
Proof.
  intros s q ev s' o H. unfold _add_event in H. destruct (get_req s q); [|invpairs; constructor].
  destruct (pipe_add_event q c ev) as [[c' o'] ks] eqn:P. invpairs. eapply pipe_add_event_out_ok; eauto.
Qed.

Definition is_delivery (o : output) : bool := match o with SetResult _ _ _ _ | Notify _ _ _ _ => true | _ => false end.
Definition is_send (o : output) : bool := match o with Send _ _ _ _ _ _ => true | _ => false end.
(* what the message layer itself can output *)
Definition ml_out (o : output) : Prop := match o with Send _ _ _ _ _ _ | Crash _ | Raised _ => True | _ => False end.
Definition no_deliv (o : list output) : Prop := Forall (fun x => is_delivery x = false) o.

Lemma ml_out_no_delivery : forall o, Forall ml_out o -> no_deliv o.
Proof. intros o H. eapply Forall_impl; [|exact H]. intros []; cbn; intros; try reflexivity; contradiction. Qed.
Lemma add_event_no_send : forall s q ev s' o, _add_event s q ev = (s', o) -> Forall (fun x => is_send x = false) o.
Proof.
  intros s q ev s' o H. apply add_event_out_ok in H. eapply Forall_impl; [|exact H].
  intros [] Hx; cbn in *; try reflexivity; contradiction.
Qed.

Lemma pop_keys_eq : forall ks s, pop_keys s ks =
  match outgoing s with Some og => set_outgoing s (Some (fold_left (fun l k => aremove key_eqb k l) ks og)) | None => s end.
Proof.
  induction ks as [|k r IH]; intros s; cbn [pop_keys fold_left].
  - destruct s as [? [og|] ? ? ? ? ? ? ? ?]; reflexivity.
  - rewrite IH. unfold pop_outgoing. destruct (outgoing s) eqn:E; cbn [outgoing set_outgoing]; [reflexivity|rewrite E; reflexivity].
Qed.
Lemma pop_keys_outgoing : forall ks s,
  outgoing (pop_keys s ks) = match outgoing s with Some og => Some (fold_left (fun l k => aremove key_eqb k l) ks og) | None => None end.
Proof. intros. rewrite pop_keys_eq. destruct (outgoing s) eqn:E; [reflexivity|exact E]. Qed.
Lemma get_req_upd : forall s q c q', get_req (upd_req s q c) q' = if q' =? q then Some c else get_req s q'.
Proof. intros. unfold get_req, upd_req. cbn. apply alookup_aset. exact Zeqb_spec. Qed.
Lemma get_req_pop_keys : forall ks s q, get_req (pop_keys s ks) q = get_req s q.
Proof. intros. rewrite pop_keys_eq. destruct (outgoing s); reflexivity. Qed.
Lemma add_event_pops : forall s q ev s' o, _add_event s q ev = (s', o) -> exists rq ks, s' = pop_keys (set_reqs s rq) ks.
Proof.
  intros s q ev s' o H. unfold _add_event in H. destruct (get_req s q).
  - destruct (pipe_add_event q c ev) as [[c' o'] ks]. invpairs. eexists. eexists. reflexivity.
  - injection H as <- <-. exists (reqs s), []. destruct s; reflexivity.
Qed.
Lemma add_event_fields : forall s q ev s' o, _add_event s q ev = (s', o) -> exists rq og, s' = set_outgoing (set_reqs s rq) og.
Proof.
  intros s q ev s' o H. destruct (add_event_pops _ _ _ _ _ H) as (rq & ks & ->). rewrite pop_keys_eq. exists rq. cbn [outgoing set_reqs].
  destruct s as [t [og|] ? ? ? ? ? ? ? ?]; eexists; reflexivity.
Qed.
Lemma add_event_other : forall s q ev s' o q', q' <> q -> _add_event s q ev = (s', o) -> get_req s' q' = get_req s q'.
Proof.
  intros s q ev s' o q' Hne H. unfold _add_event in H. destruct (get_req s q); [|invpairs; reflexivity].
  destruct (pipe_add_event q c ev) as [[c' o'] ks]. invpairs. rewrite get_req_pop_keys, get_req_upd.
  replace (q' =? q) with false by (symmetry; apply Z.eqb_neq; exact Hne). reflexivity.
Qed.

(* the part of the state the message layer's own bookkeeping never touches *)
Definition tl_same (s s' : st) : Prop := outgoing s' = outgoing s /\ reqs s' = reqs s /\ tmst s' = tmst s.
Lemma tl_same_refl : forall s, tl_same s s. Proof. intros s. repeat split. Qed.
Lemma tl_same_trans : forall s s1 s2, tl_same s s1 -> tl_same s1 s2 -> tl_same s s2.
Proof. intros s s1 s2 (A1 & A2 & A3) (B1 & B2 & B3). repeat split; congruence. Qed.
Lemma add_exchange_frame : forall s r w m, tl_same s (_add_exchange s r w m) /\ refusing (_add_exchange s r w m) = refusing s.
Proof. intros. unfold _add_exchange. destruct (amem Z.eqb r (backlogs s)); cbn; destruct (exchanges s); cbn; repeat split. Qed.
(* _send_initially up to the call of the transport *)
Definition before_send (s : st) (r : remote) (w : wire) (m : option Z) : st :=
  if w_mtype w =? CON then match m with Some m => _add_exchange s r w m | None => s end else s.
Lemma before_send_frame : forall s r w m, tl_same s (before_send s r w m) /\ refusing (before_send s r w m) = refusing s.
Proof. intros. unfold before_send. destruct (w_mtype w =? CON); [destruct m|]; try apply add_exchange_frame; repeat split. Qed.

Definition action := st -> st -> list output -> Prop.
Definition closed (R : action) : Prop :=
  (forall s, R s s []) /\ (forall s s1 s2 o1 o2, R s s1 o1 -> R s1 s2 o2 -> R s s2 (o1 ++ o2)).
Inductive acts (P : action) : action :=
| acts_nil s : acts P s s []
| acts_one s s' o : P s s' o -> acts P s s' o
| acts_app s s1 s2 o1 o2 : acts P s s1 o1 -> acts P s1 s2 o2 -> acts P s s2 (o1 ++ o2).
Lemma acts_closed : forall (P R : action), closed R -> (forall s s' o, P s s' o -> R s s' o) ->
  forall s s' o, acts P s s' o -> R s s' o.
Proof. intros P R [Hn Ha] H1 s s' o H. induction H; [apply Hn|apply H1; assumption|eapply Ha; eassumption]. Qed.
Lemma acts_mono : forall (P Q : action), (forall s s' o, P s s' o -> Q s s' o) -> forall s s' o, acts P s s' o -> acts Q s s' o.
Proof. intros P Q H. apply acts_closed; [split; intros; econstructor; eassumption|intros; apply acts_one; auto]. Qed.
Definition invariant (I : st -> Prop) : action := fun s s' _ => I s -> I s'.
Lemma invariant_closed : forall I, closed (invariant I).
Proof. intros I. split; [intros s H; exact H|intros s s1 s2 o1 o2 H1 H2 H; exact (H2 (H1 H))]. Qed.
Lemma keeping_closed : forall (I : st -> Prop) X, closed (keeping I X).
Proof. intros I X. split; [apply keeping_refl|apply keeping_trans]. Qed.

Definition emits (X : output -> Prop) : action := fun _ _ o => Forall X o.
Lemma emits_closed : forall X, closed (emits X).
Proof. intros X. split; [constructor|]. intros s s1 s2 o1 o2 H1 H2. apply Forall_app. split; assumption. Qed.

(* the request a response with token [tok] from remote [r] is matched to: the entry for (tok, r), else -- "maybe it
   was a multicast" -- the entry for (tok, None) *)
Definition matching (og : list (key * Z)) (tok : token) (r : remote) : option Z :=
  match alookup key_eqb (tok, Some r) og with Some q => Some q | None => alookup key_eqb (tok, None) og end.
Lemma matching_eq : forall og tok r,
  alookup key_eqb (if amem key_eqb (tok, Some r) og then (tok, Some r) else (tok, None)) og = matching og tok r.
Proof. intros. unfold matching, amem. destruct (alookup key_eqb (tok, Some r) og) eqn:E; [exact E|reflexivity]. Qed.
Lemma matching_In : forall og tok r q, matching og tok r = Some q ->
  exists k, alookup key_eqb k og = Some q /\ fst k = tok /\ (snd k = Some r \/ snd k = None).
Proof.
  intros og tok r q M. unfold matching in M. destruct (alookup key_eqb (tok, Some r) og) eqn:L.
  - exists (tok, Some r). rewrite L. auto.
  - exists (tok, None). auto.
Qed.
(* dispatch_message up to the point where the table is consulted: an ACK / RST first ends its exchange *)
Definition dm_pre (s : st) (r : remote) (w : wire) : st * list output * bool :=
  if (w_mtype w =? ACK) || (w_mtype w =? RST) then _remove_exchange s r w else (s, [], false).

(* what the message layer and the token manager's response / error paths are made of: bookkeeping that leaves (outgoing, reqs,
   tmst) alone; an exception for the event loop; a Pipe event ev for request q, with A q ev; the pop of one table entry *)
Inductive prim (A : Z -> pev -> Prop) : action :=
| p_frame s s' o : tl_same s s' -> Forall ml_out o -> prim A s s' o
| p_loopexc s s' e : tl_same s s' -> prim A s s' [LoopExc e]
| p_event s q ev s' o : A q ev -> _add_event s q ev = (s', o) -> prim A s s' o
| p_pop s og k : outgoing s = Some og -> prim A s (set_outgoing s (Some (aremove key_eqb k og))) [].

Section Walk.
  Variable A : Z -> pev -> Prop.
  Notation ml := (acts (prim A)).
  Lemma frame_acts : forall s s' o, tl_same s s' -> Forall ml_out o -> ml s s' o.
  Proof. intros. apply acts_one, p_frame; assumption. Qed.
  Lemma frame_then : forall s s1 s2 o, tl_same s s1 -> ml s1 s2 o -> ml s s2 o.
  Proof. intros s s1 s2 o F H. change o with ([] ++ o). eapply acts_app; [apply frame_acts; [exact F|constructor]|exact H]. Qed.
  Lemma then_frame : forall s s1 s2 o, ml s s1 o -> tl_same s1 s2 -> ml s s2 o.
  Proof. intros s s1 s2 o H F. rewrite <- (app_nil_r o). eapply acts_app; [exact H|apply frame_acts; [exact F|constructor]]. Qed.

  Lemma run_stoppers_acts : forall e, (forall q, A q (PException e)) -> forall qs s s' o, run_stoppers s qs e = (s', o) -> ml s s' o.
  Proof.
    intros e Ha. induction qs as [|q rest IH]; intros s s' o H; cbn [run_stoppers] in H; [invpairs; constructor|].
    destruct (add_exception s q e) as [s1 o1] eqn:E. destruct (run_stoppers s1 rest e) as [s2 o2] eqn:R. invpairs.
    eapply acts_app; [eapply acts_one, p_event; [apply Ha|exact E]|eapply IH; exact R].
  Qed.
  Lemma tm_dispatch_error_acts : forall s k r s' o, (forall q, A q (PException (wrap_error k))) -> tm_dispatch_error s k r = (s', o) -> ml s s' o.
  Proof.
    intros s k r s' o Ha H. unfold tm_dispatch_error in H. destruct (outgoing s); [|invpairs; constructor].
    eapply run_stoppers_acts; eauto.
  Qed.
  Lemma mm_dispatch_error_acts : forall s k r s' o, (forall q, A q (PException (wrap_error k))) -> mm_dispatch_error s k r = (s', o) -> ml s s' o.
  Proof.
    intros s k r s' o Ha H. unfold mm_dispatch_error in H. destruct (exchanges s); [|invpairs; constructor].
    destruct (tm_dispatch_error s k r) as [s1 o1] eqn:T. invpairs.
    eapply then_frame; [eapply tm_dispatch_error_acts; eauto|repeat split].
  Qed.
  (* a transmission refused by the transport injects PException NetworkError (the OSError, wrapped) *)
  Hypothesis Anet : forall q, A q (PException NetworkError).
  Lemma send_via_transport_acts : forall s r w s' o, _send_via_transport s r w = (s', o) -> ml s s' o.
  Proof.
    intros s r w s' o H. unfold _send_via_transport in H. destruct (refuses s r).
    - eapply mm_dispatch_error_acts; [|exact H]. exact Anet.
    - invpairs. apply frame_acts; [apply tl_same_refl|repeat constructor].
  Qed.
  Lemma send_initially_acts : forall s r w m s' o, _send_initially s r w m = (s', o) -> ml s s' o.
  Proof.
    intros s r w m s' o H. eapply frame_then; [apply (before_send_frame s r w m)|]. eapply send_via_transport_acts. exact H.
  Qed.
  Lemma continue_loop_acts : forall r fuel s s' o x, _continue_backlog_loop fuel s r = (s', o, x) -> ml s s' o.
  Proof.
    intros r. induction fuel as [|f IH]; intros s s' o x H; cbn [_continue_backlog_loop] in H; [invpairs; constructor|].
    destruct (exchanges s); [|invpairs; constructor].
    destruct (alookup Z.eqb r (backlogs s)) as [bl|]; [|invpairs; constructor].
    destruct (has_exchange r l); [invpairs; constructor|].
    destruct bl as [|[w m] rest]; [invpairs; apply frame_acts; [repeat split|constructor]|].
    destruct (_send_initially _ r w (Some m)) as [s1 o1] eqn:S. destruct (_continue_backlog_loop f s1 r) as [[s2 o2] x2] eqn:L. invpairs.
    eapply acts_app; [eapply frame_then; [|eapply send_initially_acts; exact S]; repeat split|eapply IH; exact L].
  Qed.
  Lemma continue_backlog_acts : forall s r s' o x, _continue_backlog s r = (s', o, x) -> ml s s' o.
  Proof.
    intros s r s' o x H. unfold _continue_backlog in H. destruct (alookup Z.eqb r (backlogs s)); [eapply continue_loop_acts; eauto|].
    invpairs. apply frame_acts; [apply tl_same_refl|repeat constructor].
  Qed.
  Lemma remove_exchange_acts : forall s r w s' o x, (forall q, A q (PException MessageError)) -> _remove_exchange s r w = (s', o, x) -> ml s s' o.
  Proof.
    intros s r w s' o x Ha H. unfold _remove_exchange in H.
    destruct (exchanges s); [|invpairs; constructor].
    destruct (alookup rm_eqb (r, w_mid w) l); [|invpairs; constructor].
    destruct (if w_mtype w =? RST then _ else _) as [s2 o2] eqn:E.
    destruct (_continue_backlog s2 r) as [[s3 o3] x3] eqn:C. invpairs.
    eapply acts_app; [eapply frame_then; [|]|eapply continue_backlog_acts; exact C].
    - instantiate (1 := set_exchanges s (Some (aremove rm_eqb (r, w_mid w) l))). repeat split.
    - destruct (w_mtype w =? RST); [eapply acts_one, p_event; [apply Ha|exact E]|invpairs; constructor].
  Qed.
  Lemma process_response_acts : forall s r w b s' o,
    (forall og q f, outgoing s = Some og -> matching og (w_token w) r = Some q -> A q (PResponse w r f)) ->
    process_response s r w = (b, s', o) -> ml s s' o.
  Proof.
    intros s r w b s' o Ha H. unfold process_response in H.
    destruct (outgoing s) as [og|] eqn:Hog; [|invpairs; apply frame_acts; [apply tl_same_refl|repeat constructor]].
    cbn zeta in H. rewrite matching_eq in H. destruct (matching og (w_token w) r) as [q|] eqn:M; [|invpairs; constructor].
    destruct (add_response _ q w r _) as [s2 o2] eqn:E. invpairs. change o with ([] ++ o).
    eapply acts_app; [|eapply acts_one, p_event; [eapply Ha; [reflexivity|exact M]|exact E]].
    destruct (negb _); [apply acts_one, p_pop; exact Hog|constructor].
  Qed.
  Lemma dispatch_message_acts : forall s r mcl w s' o, (forall q, A q (PException MessageError)) ->
    (is_response (w_code w) = true -> w_mtype w <> RST -> forall og q f,
       outgoing (fst (fst (dm_pre s r w))) = Some og -> matching og (w_token w) r = Some q -> A q (PResponse w r f)) ->
    dispatch_message s r mcl w = (s', o) -> ml s s' o.
  Proof.
    intros s r mcl w s' o A1 A2 H. unfold dispatch_message in H. fold (dm_pre s r w) in H.
    destruct (is_request (w_code w)). { invpairs. apply frame_acts; [apply tl_same_refl|repeat constructor]. }
    assert (B1 : ml s (fst (fst (dm_pre s r w))) (snd (fst (dm_pre s r w)))).
    { unfold dm_pre. destruct ((w_mtype w =? ACK) || (w_mtype w =? RST)); [|constructor].
      destruct (_remove_exchange s r w) as [[s1 o1] x1] eqn:RE. eapply remove_exchange_acts; eauto. }
    destruct (dm_pre s r w) as [[s1 o1] x1]. cbn [fst snd] in *.
    destruct x1. { invpairs. exact B1. }
    destruct ((w_code w =? EMPTY) && (w_mtype w =? CON)).
    { destruct (_send_initially s1 r _ None) as [s2 o2] eqn:S. apply send_initially_acts in S. invpairs. eapply acts_app; eassumption. }
    destruct ((w_code w =? EMPTY) && ((w_mtype w =? ACK) || (w_mtype w =? RST))). { invpairs. exact B1. }
    destruct (is_response (w_code w) && _) eqn:C; [|invpairs; exact B1]. apply andb_prop in C. destruct C as [C1 C2].
    assert (C3 : w_mtype w <> RST) by (unfold CON, NON, ACK, RST in *; lia).
    destruct (process_response s1 r w) as [[b s2] o2] eqn:P. apply process_response_acts in P; [|exact (A2 C1 C3)].
    destruct b; [destruct (w_mtype w =? CON)|destruct ((w_mtype w =? CON) && negb mcl)];
      try (destruct (_send_initially s2 r _ None) as [s3 o3] eqn:S; apply send_initially_acts in S); invpairs;
      repeat (eapply acts_app; [eassumption|]); eassumption.
  Qed.
  Lemma retransmit_acts : forall s r mid s' o, (forall q, A q (PException ConRetransmitsExceeded)) -> _retransmit s r mid = (s', o) -> ml s s' o.
  Proof.
    intros s r mid s' o Ha H. unfold _retransmit in H. destruct (exchanges s); [|invpairs; constructor].
    destruct (alookup rm_eqb (r, mid) l); [|invpairs; apply acts_one, p_loopexc, tl_same_refl].
    destruct (ex_counter e <? 4).
    - eapply frame_then; [|eapply send_via_transport_acts; exact H]. repeat split.
    - destruct (amem Z.eqb r _); [|invpairs; apply acts_one, p_loopexc; repeat split].
      eapply frame_then; [|eapply tm_dispatch_error_acts; [|exact H]; exact Ha]. repeat split.
  Qed.
  Lemma send_message_acts : forall s r mt tok obs m s' o, send_message s r mt tok obs m = Ok (s', o) -> ml s s' o.
  Proof.
    intros s r mt tok obs m s' o H. unfold send_message in H.
    set (mt' := match mt with None => _ | Some _ => _ end) in H. clearbody mt'.
    destruct ((mt' =? CON) && is_multicast r); [discriminate|]. cbn [_next_message_id] in H.
    set (s1 := set_next_mid s _) in H. assert (F1 : tl_same s s1) by (repeat split). clearbody s1.
    set (w := {| w_mtype := mt' |}) in H. clearbody w.
    destruct ((mt' =? CON) && amem Z.eqb r _).
    - injection H as <- <-. apply frame_acts; [|constructor]. eapply tl_same_trans; [exact F1|repeat split].
    - injection H as H. eapply frame_then; [exact F1|]. eapply send_initially_acts. exact H.
  Qed.
End Walk.

Lemma send_message_raises : forall s r mt tok obs m e, send_message s r mt tok obs m = Raise e -> e = ConToMulticast.
Proof.
  intros s r mt tok obs m e H. unfold send_message in H. set (mt' := match mt with None => _ | Some _ => _ end) in H. clearbody mt'.
  destruct ((mt' =? CON) && is_multicast r); [congruence|]. cbn [_next_message_id] in H.
  set (s1 := set_next_mid s _) in H. clearbody s1. set (w := {| w_mtype := mt' |}) in H. clearbody w.
  destruct ((mt' =? CON) && amem Z.eqb r _); discriminate.
Qed.

(* the Request object Context.request creates *)
Definition fresh_req (r : remote) (obs : bool) : creq :=
  {| cq_remote := r; cq_observe := obs; cq_cbs := Some [CbProcess]; cq_fut := FPending; cq_runner := AwaitFirst; cq_obs_cancelled := false |}.
(* TokenManager.request up to the call of send_message: next token, table entry, on_interest_end *)
Definition register (s : st) (q : Z) (r : remote) (og : list (key * Z)) : st :=
  let k := (tokbytes (next_tok (tmst s)), if is_multicast r then None else Some r) in
  on_interest_end (set_outgoing (set_tmst s {| tm_token := next_tok (tmst s) |}) (Some (aset key_eqb k q og))) q k.

Lemma register_eq : forall s q r obs og, get_req s q = Some (fresh_req r obs) ->
  register s q r og =
  let k := (tokbytes (next_tok (tmst s)), if is_multicast r then None else Some r) in
  upd_req (set_outgoing (set_tmst s {| tm_token := next_tok (tmst s) |}) (Some (aset key_eqb k q og))) q
          (set_cbs (fresh_req r obs) (Some [CbProcess; CbInterestEnd k])).
Proof.
  intros s q r obs og G. unfold register, on_interest_end. cbn zeta. set (s1 := set_outgoing _ _).
  change (get_req s1 q) with (get_req s q). rewrite G. reflexivity.
Qed.
Lemma new_request_eq : forall s q r mt obs, get_req s q = None ->
  new_request s q r mt obs =
  let s0 := upd_req s q (fresh_req r obs) in
  match outgoing s with
  | None => add_exception s0 q LibraryShutdown
  | Some og =>
      let tok := tokbytes (next_tok (tmst s)) in
      match send_message (register s0 q r og) r mt tok obs q with
      | Raise e => let '(s3, o3) := add_exception (register s0 q r og) q e in (s3, Token q tok :: o3)
      | Ok (s3, o3) => (s3, Token q tok :: o3)
      end
  end.
Proof.
  intros s q r mt obs G. unfold new_request, request. rewrite G. cbn [outgoing upd_req set_reqs tmst].
  destruct (outgoing s); [rewrite next_token_spec|]; reflexivity.
Qed.

Definition pev_allowed (e : event) (ev : pev) : Prop :=
  match e with
  | Request _ _ _ _ => ev = PException LibraryShutdown \/ ev = PException ConToMulticast \/ ev = PException NetworkError
  | Recv r _ w => ev = PException MessageError \/ ev = PException NetworkError \/ exists f, ev = PResponse w r f
  | Fire => ev = PException ConRetransmitsExceeded \/ ev = PException NetworkError
  | Err _ k => ev = PException (wrap_error k)
  | Shutdown => ev = PException LibraryShutdown
  | Adv _ | Cancel _ | ObsCancel _ | Refuse _ _ => False
  end.

(* the application's own actions, by event *)
Inductive app_prim : event -> action :=
| a_new s q r mt obs : get_req s q = None -> app_prim (Request q r mt obs) s (upd_req s q (fresh_req r obs)) []
| a_register s q r mt obs og : get_req s q = Some (fresh_req r obs) -> outgoing s = Some og ->
    app_prim (Request q r mt obs) s (register s q r og) [Token q (tokbytes (next_tok (tmst s)))]
| a_cancel s q c c' ks : get_req s q = Some c -> cq_fut c = FPending ->
    _stop_interest (set_runner (set_fut c FCancelled) Dropped) = (c', ks) ->
    app_prim (Cancel q) s (pop_keys (upd_req s q c') ks) [Cancelled q]
| a_obs_cancel s q c : get_req s q = Some c -> app_prim (ObsCancel q) s (upd_req s q (set_obsc c true)) []
| a_drop s x rest : outgoing s = Some (x :: rest) -> app_prim Shutdown s (set_outgoing s (Some rest)) []       (* shutdown's popitem *)
| a_close s : app_prim Shutdown s (set_exchanges (set_outgoing s None) None) [].
Definition step_prim (e : event) : action := fun s s' o => prim (fun _ => pev_allowed e) s s' o \/ app_prim e s s' o.

Lemma lift_acts : forall e s s' o, acts (prim (fun _ => pev_allowed e)) s s' o -> acts (step_prim e) s s' o.
Proof. intros e. apply acts_mono. intros; left; assumption. Qed.
Lemma app_act : forall e s s' o, app_prim e s s' o -> acts (step_prim e) s s' o.
Proof. intros. apply acts_one. right. assumption. Qed.

Lemma cancel_cases : forall s q s' o, cancel s q = (s', o) -> (s' = s /\ o = []) \/ app_prim (Cancel q) s s' o.
Proof.
  intros s q s' o H. unfold cancel in H. destruct (get_req s q) as [c|] eqn:G; [|invpairs; auto].
  destruct (cq_fut c) eqn:F; try (invpairs; auto; fail).
  destruct (_stop_interest _) as [c' ks] eqn:S. invpairs. right. eapply a_cancel; eassumption.
Qed.
Lemma obs_cancel_cases : forall s q, obs_cancel s q = s \/ app_prim (ObsCancel q) s (obs_cancel s q) [].
Proof.
  intros s q. unfold obs_cancel. destruct (get_req s q) as [c|] eqn:G; [|auto]. destruct (cq_runner c); auto.
  destruct (cq_obs_cancelled c); [auto|]. right. apply a_obs_cancel. exact G.
Qed.
Lemma new_request_acts : forall s q r mt obs s' o, new_request s q r mt obs = (s', o) -> acts (step_prim (Request q r mt obs)) s s' o.
Proof.
  intros s q r mt obs s' o H. destruct (get_req s q) eqn:G.
  { unfold new_request in H. rewrite G in H. invpairs. constructor. }
  rewrite (new_request_eq _ _ _ _ _ G) in H. cbn zeta in H.
  apply (acts_app _ s (upd_req s q (fresh_req r obs)) s' [] o); [apply app_act, a_new; exact G|].
  set (s0 := upd_req s q (fresh_req r obs)) in *.
  assert (G0 : get_req s0 q = Some (fresh_req r obs)) by (unfold s0; rewrite get_req_upd, Z.eqb_refl; reflexivity).
  change (outgoing s) with (outgoing s0) in H. change (tmst s) with (tmst s0) in H. clearbody s0.
  destruct (outgoing s0) as [og|] eqn:Hog; [|apply lift_acts, acts_one; eapply p_event; [|exact H]; cbn; auto].
  assert (R : acts (step_prim (Request q r mt obs)) s0 (register s0 q r og) [Token q (tokbytes (next_tok (tmst s0)))])
    by (eapply app_act, a_register; eassumption).
  destruct (send_message _ r mt _ obs q) as [[s3 o3]|e] eqn:SM.
  - invpairs. eapply (acts_app _ _ _ _ [_]); [exact R|]. eapply lift_acts, send_message_acts; [|exact SM]. cbn. auto.
  - apply send_message_raises in SM. subst e. destruct (add_exception _ q ConToMulticast) as [s3 o3] eqn:E. invpairs.
    eapply (acts_app _ _ _ _ [_]); [exact R|]. apply lift_acts, acts_one. eapply p_event; [|exact E]. cbn. auto.
Qed.
Lemma shutdown_loop_acts : forall fuel s s' o, tm_shutdown_loop fuel s = (s', o) -> acts (step_prim Shutdown) s s' o.
Proof.
  induction fuel as [|f IH]; intros s s' o H; cbn [tm_shutdown_loop] in H; [invpairs; constructor|].
  destruct (outgoing s) as [[|[k q] rest]|] eqn:Hog; [invpairs; constructor| |invpairs; constructor].
  destruct (add_exception _ q LibraryShutdown) as [s1 o1] eqn:E. destruct (tm_shutdown_loop f s1) as [s2 o2] eqn:L. invpairs.
  eapply acts_app; [|eapply IH; exact L]. change o1 with ([] ++ o1).
  eapply acts_app; [eapply app_act, a_drop; exact Hog|apply lift_acts, acts_one; eapply p_event; [reflexivity|exact E]].
Qed.

Lemma step_acts : forall s e s' o, step s e = (s', o) -> acts (step_prim e) s s' o.
Proof.
  intros s e s' o H. destruct e; cbn [step] in H.
  - (* Request *) apply new_request_acts. exact H.
  - (* Recv *) destruct (outgoing s); [|invpairs; constructor].
    eapply lift_acts, dispatch_message_acts; [| | |exact H]; cbn; eauto.
  - (* Fire *) destruct (exchanges s); [|invpairs; constructor].
    destruct (next_timer l None) as [[[r mid] e]|]; [|invpairs; constructor].
    apply lift_acts. eapply frame_then; [|eapply retransmit_acts; [| |exact H]]; cbn; auto. repeat split.
  - (* Adv *) apply lift_acts. repeat dmatch; invpairs; (apply frame_acts; [repeat split|constructor]).
  - (* Err *) eapply lift_acts, mm_dispatch_error_acts; [|exact H]. reflexivity.
  - (* Cancel *) destruct (cancel_cases _ _ _ _ H) as [[-> ->]|P]; [constructor|apply app_act; exact P].
  - (* ObsCancel *) invpairs. destruct (obs_cancel_cases s q) as [->|P]; [constructor|apply app_act; exact P].
  - (* Refuse *) invpairs. apply lift_acts, frame_acts; [repeat split|constructor].
  - (* Shutdown *) unfold shutdown in H. destruct (outgoing s); [|invpairs; constructor].
    destruct (tm_shutdown_loop (length l) s) as [s1 o1] eqn:L. invpairs. rewrite <- (app_nil_r o).
    eapply acts_app; [eapply shutdown_loop_acts; exact L|apply app_act, a_close].
Qed.

Lemma step_closed : forall e (R : action), closed R -> (forall s s' o, prim (fun _ => pev_allowed e) s s' o -> R s s' o) ->
  (forall s s' o, app_prim e s s' o -> R s s' o) -> forall s s' o, step s e = (s', o) -> R s s' o.
Proof. intros e R HR H1 H2 s s' o H. apply step_acts in H. revert H. apply acts_closed; [exact HR|]. intros s0 s1 o0 [P|P]; auto. Qed.
Lemma run_closed : forall (R : action), closed R -> (forall s e s' o, step s e = (s', o) -> R s s' o) ->
  forall es s s' os, run s es = (s', os) -> R s s' (concat os).
Proof.
  intros R [Hn Ha] HS. induction es as [|e r IH]; intros s s' os H; cbn [run] in H; [invpairs; apply Hn|].
  destruct (step s e) as [s1 o] eqn:S. destruct (run s1 r) as [s2 os'] eqn:E. invpairs. cbn [concat]. eapply Ha; eauto.
Qed.
