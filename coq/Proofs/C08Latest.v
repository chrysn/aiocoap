(* C08 — "latest state sent" over whole histories: whenever the render task of a live registration is idle, the notification it
   produced last was rendered at the resource's current version (i.e. at or after the last trigger); a render in progress that
   has no newer trigger pending was started at the current version.  With nothing of the registration waiting in the backlog
   (fairness), the FIFO invariant of C08Wire lifts this to the last datagram on the wire. *)
From Coq Require Import Permutation.
From Verif Require Import Lib.Py Lib.PyLemmas Lib.Tactics Model.C08 Proofs.C08 Proofs.C08Silent Proofs.C08Ends Proofs.C08Observe Proofs.C08Wire.
Open Scope Z_scope.

Definition lastp (g : Z) (s : state) : option msg := hd_error (gfilter g (s_prod s)).
(* a rendered notification (m_pk = 1) carries the version the resource has now *)
Definition lastfresh (g : Z) (s : state) : Prop := forall m, lastp g s = Some m -> m_pk m = 1 -> m_pv m = s_version s.
(* per registration: an idle task has no trigger pending and its last production is current; a render in progress with no
   newer trigger pending started at the current version *)
Definition QV (s : state) (g0 : reg) : Prop :=
  -1 <= g_next g0 /\
  match g_phase g0 with
  | PWait => g_trig g0 = None /\ 0 <= g_next g0 /\ lastfresh (g_gid g0) s
  | PFirst v | PNotif v => g_trig g0 = None -> v = s_version s
  end.
Definition LV (s : state) : Prop := forall g0, In g0 (s_regs s) -> QV s g0.
Definition LVx (x : Z) (s : state) : Prop := forall g0, In g0 (s_regs s) -> g_gid g0 <> x -> QV s g0.

(* frame for what is not a render task: version, table entries (some may go) and last productions kept *)
Record LF (s s' : state) : Prop := {
  lf_ver : s_version s' = s_version s;
  lf_regs : forall g0, In g0 (s_regs s') -> In g0 (s_regs s);
  lf_prod : forall g, 0 <= g -> lastp g s' = lastp g s }.
Lemma LF_refl s : LF s s. Proof. constructor; auto. Qed.
Lemma LF_trans s1 s2 s3 : LF s1 s2 -> LF s2 s3 -> LF s1 s3.
Proof. intros [A1 A2 A3] [B1 B2 B3]. constructor; [congruence | auto |]. intros g Hg. rewrite B3, A3; auto. Qed.
Lemma LF_same s s' : s_regs s' = s_regs s -> s_prod s' = s_prod s -> s_version s' = s_version s -> LF s s'.
Proof. intros E1 E2 E3. constructor; [exact E3 | rewrite E1; auto | intros; unfold lastp; rewrite E2; reflexivity]. Qed.
Lemma QV_frame s s' g0 : s_version s' = s_version s -> lastp (g_gid g0) s' = lastp (g_gid g0) s -> QV s g0 -> QV s' g0.
Proof. intros Ev El [H1 H2]. split; [exact H1|]. destruct (g_phase g0); rewrite ?Ev; auto.
  destruct H2 as (A & B & C). repeat split; auto. unfold lastfresh. rewrite El, Ev. exact C. Qed.

Lemma LF_send_initially s m x rt : LF s (send_initially s m x rt).
Proof. apply LF_same; apply send_initially_field; reflexivity. Qed.
Lemma lastp_cons_ne g s s' m : s_prod s' = m :: s_prod s -> m_gid m <> g -> lastp g s' = lastp g s.
Proof. intros E H. unfold lastp. rewrite E, gfilter_cons_ne by exact H. reflexivity. Qed.
Lemma lastp_cons_eq g s s' m : s_prod s' = m :: s_prod s -> m_gid m = g -> lastp g s' = Some m.
Proof. intros E H. unfold lastp. rewrite E, gfilter_cons_eq by exact H. reflexivity. Qed.
Lemma LF_send_other s m c x : m_gid m = -1 -> LF s (send_message s m c x).
Proof. intros Hm. destruct (send_message_cases s m c x) as (t & mid & A & _).
  constructor; [apply send_message_field; reflexivity | rewrite send_message_field by reflexivity; auto|].
  intros g Hg. apply (lastp_cons_ne g s _ _ A). cbn. lia. Qed.
Lemma LF_continue_backlog s r : LF s (continue_backlog s r).
Proof. apply LF_same; apply continue_backlog_field; reflexivity. Qed.
Lemma LF_remove_reg s x : LF s (remove_reg s x).
Proof. constructor; [reflexivity | | reflexivity]. intros g0 H. unfold remove_reg in H. fsimpl. apply filter_In in H. tauto. Qed.
Lemma LF_stop s x : LF s (stop s x).
Proof. unfold stop. destruct (find_reg s x); [|apply LF_refl]. eapply LF_trans; [apply LF_remove_reg | apply LF_same; reflexivity]. Qed.
Lemma LF_fold_stop l s : LF s (fold_left stop l s).
Proof. apply (fold_left_rel LF); [exact LF_refl | exact LF_trans | exact LF_stop]. Qed.
Lemma LF_flush s : LF s (flush_cancels s).
Proof. apply LF_same; apply flush_field; reflexivity. Qed.
Lemma LF_plain s r tok con : LF s (plain s r tok con).
Proof. unfold plain. eapply LF_trans; [apply (LF_same s (log s (ORender (-1) (s_version s)))); reflexivity|].
  destruct (render_outcome _ _); apply LF_send_other; reflexivity. Qed.
Lemma LF_remove_exchange s r mid b : LF s (remove_exchange s r mid b).
Proof. unfold remove_exchange. destruct (find _ (s_exch s)) as [x|]; [|apply LF_refl].
  eapply LF_trans; [|apply LF_continue_backlog]. destruct b; [|apply LF_same; reflexivity].
  eapply LF_trans; [|apply LF_stop]. apply LF_same; reflexivity. Qed.
Lemma LF_dispatch_error s r : LF s (dispatch_error s r).
Proof. unfold dispatch_error. destruct (s_down s); [apply LF_refl|]. eapply LF_trans; [apply LF_fold_stop|]. apply LF_same; reflexivity. Qed.
Lemma LF_fire s k : LF s (fire s k).
Proof. destruct k as [r tok|m t c|r mid]; cbn [fire].
  - destruct (piggy_find s r tok); [|apply LF_refl]. eapply LF_trans; [|apply LF_send_initially]. apply LF_same; reflexivity.
  - unfold retransmit. destruct (c <? MAX_RETRANSMIT); [apply LF_same; reflexivity|].
    eapply LF_trans; [|apply LF_fold_stop]. apply LF_same; reflexivity.
  - apply LF_same; reflexivity. Qed.
Lemma LF_advance fuel s t : LF s (advance fuel s t).
Proof. apply (advance_rel LF LF_refl LF_trans). intros s0 v n k.
  eapply LF_trans; [|apply LF_flush]. eapply LF_trans; [|apply LF_fire]. apply LF_same; reflexivity. Qed.

(* [P]: an alternative that may hold of a registration instead of QV (used while woken tasks have not run yet) *)
Definition LVP (P : reg -> Prop) (s : state) : Prop := forall g0, In g0 (s_regs s) -> QV s g0 \/ P g0.
Definition LVxP (P : reg -> Prop) (x : Z) (s : state) : Prop := forall g0, In g0 (s_regs s) -> g_gid g0 <> x -> QV s g0 \/ P g0.
Lemma LV_LVP s : LV s <-> LVP (fun _ => False) s.
Proof. split; intros H g0 Hg; [left; apply H; exact Hg | destruct (H g0 Hg) as [Q|[]]; exact Q]. Qed.

Lemma emit_eff s g code o pk pv : let s' := emit s g code o pk pv in
  s_regs s' = s_regs s /\ s_version s' = s_version s /\ exists m, s_prod s' = m :: s_prod s /\ m_gid m = g_gid g /\ m_pk m = pk /\ m_pv m = pv.
Proof. split; [apply send_message_field; reflexivity | split; [apply send_message_field; reflexivity|]].
  destruct (emit_spec s g code o pk pv) as (m & A & _ & _ & _ & B & _ & C & D). exists m. auto. Qed.
Lemma LVxP_same3 P x s s' : s_regs s' = s_regs s -> s_prod s' = s_prod s -> s_version s' = s_version s -> LVxP P x s -> LVxP P x s'.
Proof. intros E1 E2 E3 H g0 Hg Hne. rewrite E1 in Hg. destruct (H g0 Hg Hne) as [Q|Q]; [left | right; exact Q].
  apply (QV_frame s); [exact E3 | unfold lastp; rewrite E2; reflexivity | exact Q]. Qed.
Lemma LVxP_emit P s g g2 code o pk pv : g_gid g2 = g_gid g -> LVxP P (g_gid g) s -> LVxP P (g_gid g) (emit s g2 code o pk pv).
Proof. intros Eg H g0 Hg Hne. destruct (emit_eff s g2 code o pk pv) as (A & B & m & C & D & _). rewrite A in Hg.
  destruct (H g0 Hg Hne) as [Q|Q]; [left | right; exact Q].
  apply (QV_frame s); [exact B | apply (lastp_cons_ne _ s _ m C); congruence | exact Q]. Qed.
Lemma put_LV P s x g' : LVxP P x s -> g_gid g' = x -> QV s g' -> LVP P (put_reg s g').
Proof. intros H Eg Q g0 Hg. unfold put_reg in Hg. fsimpl. apply in_map_iff in Hg as [y [Hy Hi]].
  assert (F : forall g1, QV s g1 -> QV (put_reg s g') g1) by (intros g1; apply QV_frame; reflexivity).
  destruct (g_gid y =? g_gid g') eqn:E; subst g0; [left; apply F; exact Q|].
  destruct (H y Hi ltac:(lia)) as [Q1|Q1]; [left; apply F; exact Q1 | right; exact Q1]. Qed.
Lemma remove_LV P s x : LVxP P x s -> LVP P (remove_reg s x).
Proof. intros H g0 Hg. unfold remove_reg in Hg. fsimpl. apply filter_In in Hg as [Hg Hne].
  destruct (H g0 Hg ltac:(lia)) as [Q|Q]; [left | right; exact Q]. apply (QV_frame s); [reflexivity | reflexivity | exact Q]. Qed.
Lemma LVP_same3 P s s' : s_regs s' = s_regs s -> s_prod s' = s_prod s -> s_version s' = s_version s -> LVP P s -> LVP P s'.
Proof. intros E1 E2 E3 H g0 Hg. rewrite E1 in Hg. destruct (H g0 Hg) as [Q|Q]; [left | right; exact Q].
  apply (QV_frame s); [exact E3 | unfold lastp; rewrite E2; reflexivity | exact Q]. Qed.
Lemma LV_to_LVx P x s : LVP P s -> LVxP P x s. Proof. intros H g0 Hg _. apply H. exact Hg. Qed.
Lemma LVP_LF P s s' : LF s s' -> (forall g0, In g0 (s_regs s) -> 0 <= g_gid g0) -> LVP P s -> LVP P s'.
Proof. intros [A1 A2 A3] Hr H g0 Hg. apply A2 in Hg. destruct (H g0 Hg) as [Q|Q]; [left | right; exact Q]. apply (QV_frame s); auto. Qed.
Lemma LV_LF s s' : LF s s' -> (forall g0, In g0 (s_regs s) -> 0 <= g_gid g0) -> LV s -> LV s'.
Proof. intros F Hr H. apply LV_LVP, (LVP_LF _ s s' F Hr), LV_LVP, H. Qed.

(* the task's local copy on (re-)entering the loop *)
Definition Lpre (s : state) (g : reg) : Prop := -1 <= g_next g /\ (g_trig g = None -> 0 <= g_next g /\ lastfresh (g_gid g) s).
Definition res_fresh (s : state) (res : rres) : Prop := match res with RResp _ pk pv => pk = 1 -> pv = s_version s | RRaise _ _ _ => True end.

Lemma fresh_of_version s md v : v = s_version s -> res_fresh s (render_outcome md v).
Proof. intros ->. destruct md; cbn; auto. Qed.
Lemma respond_LV P last n cont s g res : LVxP P (g_gid g) s -> 0 <= n -> (g_trig g = None -> res_fresh s res) ->
  (forall s1 g1, LVxP P (g_gid g) s1 -> g_gid g1 = g_gid g -> g_trig g1 = g_trig g -> Lpre s1 g1 -> LVP P (cont s1 g1)) ->
  LVP P (respond last n cont s g res).
Proof.
  intros H Hn Hr Hc. unfold respond. destruct res as [code pk pv|code pk pv].
  - destruct (last || negb (successful code)).
    + apply (LVP_same3 P (remove_reg (emit s g code None pk pv) (g_gid g))); try reflexivity. apply remove_LV. apply LVxP_emit; auto.
    + set (g1 := set_next g n). destruct (emit_eff s g1 code (Some n) pk pv) as (A & B & m & C & D & E & F).
      apply Hc; [apply (LVxP_emit P s g g1); auto | reflexivity | reflexivity|].
      split; [cbn; lia|]. intros Ht. split; [cbn; lia|]. intros m' Hm' Hpk.
      rewrite (lastp_cons_eq _ s _ m C D) in Hm'. inversion Hm'; subst m'. rewrite F, B. apply (Hr Ht). congruence.
  - apply remove_LV. apply (LVxP_emit P (cancel_cb s (g_gid g)) g g); [reflexivity|]. apply (LVxP_same3 P _ s); auto.
Qed.
Lemma run_loop_idle_LV P f s g : g_trig g = None -> LVxP P (g_gid g) s -> Lpre s g -> LVP P (run_loop (S f) s g).
Proof. intros Ht H [P1 P2]. cbn [run_loop]. rewrite Ht. destruct (P2 Ht) as [P3 P4].
  apply (put_LV P s (g_gid g)); auto. split; [exact P1 | cbn [g_phase set_phase]; auto]. Qed.
Lemma run_loop_LV P f s g : LVxP P (g_gid g) s -> Lpre s g -> LVP P (run_loop (S (S f)) s g).
Proof.
  intros H Pp. destruct (g_trig g) as [tv|] eqn:Et; [|apply run_loop_idle_LV; auto].
  cbn [run_loop]. rewrite Et. destruct Pp as [P1 _].
  set (g1 := set_trig g None (g_late g)).
  assert (Hc : forall s1 res, LVxP P (g_gid g) s1 -> res_fresh s1 res -> LVP P (after_response (run_loop (S f)) s1 g1 res)).
  { intros s1 res A B. rewrite after_response_respond. apply respond_LV; auto; [cbn; lia|].
    intros s2 g2 A2 B2 C2 D2. apply run_loop_idle_LV; [rewrite C2; reflexivity | rewrite B2; exact A2 | exact D2]. }
  destruct tv as [|code k]; [|apply Hc; [exact H | cbn; intros; lia]].
  set (s1 := log s _). assert (H1 : LVxP P (g_gid g1) s1) by (apply (LVxP_same3 P _ s); auto).
  destruct (s_gate s1); [|apply Hc; [exact H1 | apply fresh_of_version; reflexivity]].
  apply (put_LV P s1 (g_gid g)); auto. split; [exact P1|]. cbn [g_phase set_phase]. intros _. reflexivity.
Qed.
Lemma task_LV P last n s g res : LVxP P (g_gid g) s -> 0 <= n -> (g_trig g = None -> res_fresh s res) ->
  LVP P (respond last n (run_loop 2) s g res).
Proof. intros H Hn Hr. apply respond_LV; auto. intros s1 g1 A B C D. apply (run_loop_LV P 0); [rewrite B; exact A | exact D]. Qed.
Lemma accept_LV P s r tok con : LVP P s -> LVP P (accept s r tok con).
Proof.
  intros H. unfold accept.
  set (g := mkreg r tok (s_gidctr s) con PWait (-1) None false).
  match goal with |- context [if s_gate ?x then _ else _] => set (s2 := x) end.
  assert (H2 : LVxP P (g_gid g) s2).
  { intros g0 Hg Hne. assert (Hg' : In g0 (s_regs s ++ [g])) by exact Hg. apply in_app_iff in Hg' as [Hg'|[<-|[]]]; [|exfalso; apply Hne; reflexivity].
    destruct (H g0 Hg') as [Q|Q]; [left | right; exact Q]. apply (QV_frame s); [reflexivity | reflexivity | exact Q]. }
  assert (E : s_gate s2 = s_gate s /\ s_mode s2 = s_mode s /\ s_version s2 = s_version s) by (repeat split; reflexivity).
  destruct E as (E1 & E2 & E3). destruct (s_gate s2).
  - apply (put_LV P s2 (g_gid g)); auto. split; [cbn; lia|]. cbn [g_phase set_phase]. intros _. reflexivity.
  - rewrite first_render_done_respond. apply task_LV; [exact H2 | lia | intros _; apply fresh_of_version; reflexivity].
Qed.

Lemma nth_split_Z (l : list Z) : forall i d, (i < length l)%nat -> l = firstn i l ++ nth i l d :: skipn (S i) l.
Proof. induction l as [|x l IH]; intros i d H; cbn in H; [lia|]. destruct i; cbn; [reflexivity|]. f_equal. apply IH. lia. Qed.
Lemma pick_order_perm perm : forall l, Permutation (pick_order perm l) l.
Proof.
  induction perm as [|p perm IH]; intros l; destruct l as [|x0 l0]; cbn [pick_order]; try apply Permutation_refl.
  set (l := x0 :: l0). set (i := Nat.modulo p (length l)).
  assert (Hi : (i < length l)%nat) by (apply Nat.mod_upper_bound; cbn; lia).
  assert (El : l = firstn i l ++ nth i l x0 :: skipn (S i) l) by (apply nth_split_Z; exact Hi).
  eapply Permutation_trans; [constructor; apply IH|]. eapply Permutation_trans; [apply Permutation_middle|]. rewrite <- El. apply Permutation_refl.
Qed.

(* [trigger] as seen by one entry: on its own number it overwrites the pending value and makes is_last stick *)
Definition trig1 (tv : tval) (l : bool) (g : reg) (x : Z) : reg := if g_gid g =? x then set_trig g (Some tv) (g_late g || l) else g.
Lemma regs_trigger s x tv l : NoDup (map g_gid (s_regs s)) -> s_regs (trigger s x tv l) = map (fun g0 => trig1 tv l g0 x) (s_regs s).
Proof.
  intros Hn. unfold trigger, trig1. destruct (find_reg s x) as [g|] eqn:E.
  - apply find_reg_In in E as [Ei Eg]. unfold put_reg. fsimpl. apply map_ext_in. intros g' Hg'. cbn [g_gid set_trig]. rewrite Eg.
    destruct (g_gid g' =? x) eqn:Ex; [|reflexivity].
    assert (g' = g) by (apply (NoDup_map_inj_in g_gid (s_regs s)); auto; lia). subst g'. reflexivity.
  - rewrite <- (map_id (s_regs s)) at 1. apply map_ext_in. intros g' Hg'. destruct (g_gid g' =? x) eqn:Ex; [|reflexivity].
    exfalso. apply find_reg_None in E. apply E. replace x with (g_gid g') by lia. apply in_map. exact Hg'.
Qed.
(* a round of triggers leaves an entry alone or sets its pending value once: is_last is an "or", so repeats change nothing *)
Lemma trig_all tv l order : forall g,
  fold_left (trig1 tv l) order g = if memZ (g_gid g) order then set_trig g (Some tv) (g_late g || l) else g.
Proof.
  induction order as [|x o IH]; intros g; cbn [fold_left]; [reflexivity|]. rewrite IH. unfold trig1. cbn [memZ existsb].
  destruct (g_gid g =? x); [|reflexivity]. cbn [g_gid set_trig orb]. destruct (memZ (g_gid g) o); [|reflexivity].
  unfold set_trig. cbn. rewrite <- orb_assoc, orb_diag. reflexivity.
Qed.
Lemma regs_trigger_all tv l order : forall s, NoDup (map g_gid (s_regs s)) ->
  s_regs (fold_left (fun s gid => trigger s gid tv l) order s) = map (fun g => fold_left (trig1 tv l) order g) (s_regs s).
Proof.
  induction order as [|x o IH]; intros s Hn; cbn [fold_left]; [symmetry; apply map_id|].
  rewrite IH, (regs_trigger s x tv l Hn), map_map; [reflexivity|].
  rewrite (regs_trigger s x tv l Hn), map_map. erewrite map_ext; [exact Hn|]. intros g. unfold trig1. destruct (g_gid g =? x); reflexivity.
Qed.
(* one state change of a burst, as seen by one entry *)
Definition trig_round (order : list Z) (g : reg) (tb : tval * bool) : reg :=
  if memZ (g_gid g) order then set_trig g (Some (fst tb)) (g_late g || snd tb) else g.
Lemma regs_trigger_burst order burst : forall s, NoDup (map g_gid (s_regs s)) ->
  s_regs (trigger_burst order burst s) = map (fun g => fold_left (trig_round order) burst g) (s_regs s).
Proof.
  unfold trigger_burst. induction burst as [|tb bs IH]; intros s Hn; cbn [fold_left]; [symmetry; apply map_id|].
  assert (C : s_regs (fold_left (fun s2 gid => trigger s2 gid (fst tb) (snd tb)) order (set_version s (s_version s + 1))) =
              map (fun g => trig_round order g tb) (s_regs s)).
  { rewrite (regs_trigger_all (fst tb) (snd tb) order (set_version s (s_version s + 1)) Hn). apply map_ext. intros g. apply trig_all. }
  rewrite IH, C, map_map; [reflexivity|]. rewrite C, map_map. erewrite map_ext; [exact Hn|].
  intros g. unfold trig_round. destruct (memZ (g_gid g) order); reflexivity.
Qed.
Lemma burst_keeps order burst : forall g, let g' := fold_left (trig_round order) burst g in
  g_gid g' = g_gid g /\ g_phase g' = g_phase g /\ g_next g' = g_next g /\ (g_trig g <> None -> g_trig g' <> None) /\
  (burst <> [] -> In (g_gid g) order -> g_trig g' <> None).
Proof.
  induction burst as [|tb bs IH]; intros g; cbv zeta; cbn [fold_left]; [repeat split; auto; congruence|].
  destruct (IH (trig_round order g tb)) as (a1 & a2 & a3 & a4 & _). set (g1 := trig_round order g tb) in *.
  assert (B : g_gid g1 = g_gid g /\ g_phase g1 = g_phase g /\ g_next g1 = g_next g /\ (g_trig g <> None -> g_trig g1 <> None) /\
              (In (g_gid g) order -> g_trig g1 <> None)).
  { unfold g1, trig_round. destruct (memZ (g_gid g) order) eqn:E; cbn; repeat split; auto; try discriminate.
    intros Hi. apply memZ_In in Hi. congruence. }
  destruct B as (b1 & b2 & b3 & b4 & b5). repeat split; try congruence; auto.
Qed.

(* what a run of the task of registration [x] cannot touch *)
Record keep3 (s s' : state) : Prop := { k_ver : s_version s' = s_version s; k_gate : s_gate s' = s_gate s; k_down : s_down s' = s_down s }.
Lemma keep3_refl s : keep3 s s. Proof. constructor; reflexivity. Qed.
Lemma keep3_trans a b c : keep3 a b -> keep3 b c -> keep3 a c. Proof. intros [A1 A2 A3] [B1 B2 B3]. constructor; congruence. Qed.
Definition task_frame (x : Z) (s s' : state) : Prop :=
  keep3 s s' /\ forall g1, g_gid g1 <> x -> (In g1 (s_regs s') <-> In g1 (s_regs s)).
Lemma tf_trans x s1 s2 s3 : task_frame x s1 s2 -> task_frame x s2 s3 -> task_frame x s1 s3.
Proof. intros [A1 A2] [B1 B2]. split; [eapply keep3_trans; eassumption|]. intros g1 Hn. rewrite (B2 g1 Hn). apply A2, Hn. Qed.
Lemma tf_same x s s' : s_regs s' = s_regs s -> keep3 s s' -> task_frame x s s'.
Proof. intros E K. split; [exact K|]. intros g1 _. rewrite E. tauto. Qed.
Lemma tf_put s g : task_frame (g_gid g) s (put_reg s g).
Proof. split; [constructor; reflexivity|]. intros g1 Hn. split; [|intros H; apply In_put_reg_other; assumption].
  intros H. apply In_put_reg in H as [->|[H _]]; [contradiction | exact H]. Qed.
Lemma tf_remove x s : task_frame x s (remove_reg s x).
Proof. split; [constructor; reflexivity|]. intros g1 Hn. rewrite In_remove_reg. tauto. Qed.
Lemma emit_keep s g code o pk pv : keep3 s (emit s g code o pk pv) /\ s_regs (emit s g code o pk pv) = s_regs s.
Proof. split; [constructor|]; apply send_message_field; reflexivity. Qed.
Lemma tf_emit x s g code o pk pv : task_frame x s (emit s g code o pk pv).
Proof. apply tf_same; apply emit_keep. Qed.
Lemma tf_respond last n cont s g res : (forall s1 g1, g_gid g1 = g_gid g -> task_frame (g_gid g) s1 (cont s1 g1)) ->
  task_frame (g_gid g) s (respond last n cont s g res).
Proof. intros Hc. unfold respond. destruct res as [code pk pv|code pk pv].
  - destruct (last || negb (successful code)).
    + eapply tf_trans; [apply tf_emit|]. eapply tf_trans; [apply tf_remove | apply tf_same; [|constructor]; reflexivity].
    + eapply tf_trans; [apply tf_emit | apply Hc; reflexivity].
  - eapply tf_trans; [apply (tf_same _ s (cancel_cb s (g_gid g))); [|constructor]; reflexivity|]. eapply tf_trans; [apply tf_emit | apply tf_remove]. Qed.
Lemma tf_run_loop f : forall s g, task_frame (g_gid g) s (run_loop f s g).
Proof. induction f as [|f IH]; intros s g; cbn [run_loop]; [apply tf_put|].
  destruct (g_trig g) as [tv|]; [|apply (tf_put s (set_phase g PWait))].
  assert (Hc : forall s0 res, task_frame (g_gid g) s0 (after_response (run_loop f) s0 (set_trig g None (g_late g)) res)).
  { intros s0 res. rewrite after_response_respond. apply (tf_respond _ _ _ s0 (set_trig g None (g_late g))). intros s2 g2 E. rewrite <- E. apply IH. }
  destruct tv as [|code k]; [|apply Hc].
  set (s1 := log s _). eapply tf_trans; [apply (tf_same _ s s1); [|constructor]; reflexivity|]. destruct (s_gate s1); [|apply Hc].
  apply (tf_put s1 (set_phase (set_trig g None (g_late g)) (PNotif (s_version s1)))).
Qed.

(* the woken tasks run one after the other *)
Definition pend (l : list Z) (g0 : reg) : Prop := In (g_gid g0) l /\ g_trig g0 <> None /\ -1 <= g_next g0.
Lemma wake_LV l : forall s, NoDup l -> LVP (pend l) s -> (forall g0, In g0 (s_regs s) -> In (g_gid g0) l -> pend l g0) ->
  LV (wake l s).
Proof.
  unfold wake. induction l as [|x l IH]; intros s Hn H HM; cbn [fold_left].
  - intros g0 Hg. destruct (H g0 Hg) as [Q|[[] _]]. exact Q.
  - inv Hn. rename H2 into Hx. rename H3 into Hn.
    assert (Hweak : forall g0, pend (x :: l) g0 -> g_gid g0 <> x -> pend l g0).
    { intros g0 ([E|E] & B & C) Hne; [congruence | repeat split; assumption]. }
    destruct (find_reg s x) as [g|] eqn:E.
    + apply find_reg_In in E as [Ei Eg].
      destruct (HM g Ei ltac:(left; congruence)) as (_ & Ht & Hnx).
      assert (HL : LVxP (pend l) (g_gid g) s).
      { intros g0 Hg Hne. destruct (H g0 Hg) as [Q|Q]; [left; exact Q | right; apply Hweak; [exact Q | congruence]]. }
      assert (HP : Lpre s g) by (split; [exact Hnx | intros Hc; contradiction]).
      apply IH; [exact Hn | apply (run_loop_LV (pend l) 0 s g HL HP)|].
      intros g0 Hg Hin. assert (Hne : g_gid g0 <> g_gid g) by (intros Ec; apply Hx; rewrite Eg in Ec; rewrite <- Ec; exact Hin).
      pose proof (proj1 (proj2 (tf_run_loop 2 s g) g0 Hne) Hg) as Hold. apply Hweak; [apply HM; [exact Hold | right; exact Hin] | congruence].
    + apply IH; [exact Hn | |].
      * intros g0 Hg. destruct (H g0 Hg) as [Q|Q]; [left; exact Q | right; apply Hweak; [exact Q|]].
        intros Ec. apply find_reg_None in E. apply E. rewrite <- Ec. apply in_map. exact Hg.
      * intros g0 Hg Hin. apply Hweak; [apply HM; [exact Hg | right; exact Hin]|].
        intros Ec. apply Hx. rewrite <- Ec. exact Hin.
Qed.

Lemma LV_same3 s s' : s_regs s' = s_regs s -> s_prod s' = s_prod s -> s_version s' = s_version s -> LV s -> LV s'.
Proof. intros E1 E2 E3 H. apply LV_LVP, (LVP_same3 _ s); auto. apply LV_LVP, H. Qed.
Lemma LV_flush s : LV s -> LV (flush_cancels s).
Proof. apply LV_same3; apply flush_field; reflexivity. Qed.

Lemma trigger_event_LV s perm burst : FI None s -> map g_gid (s_regs s) = s_observers s -> LV s -> LV (step s (ETrigger perm burst)).
Proof.
  intros HF Ho H. cbn [step]. apply LV_flush. destruct burst as [|b0 bs]; [exact H|].
  set (order := pick_order perm (s_observers s)). set (waiting := filter (is_waiting s) order).
  pose proof (g_nd s (proj1 HF)) as Hn.
  pose proof (regs_trigger_burst order (b0 :: bs) s Hn) as C.
  set (s1 := trigger_burst order (b0 :: bs) s) in *.
  assert (Hord : forall g0, In g0 (s_regs s) -> In (g_gid g0) order).
  { intros g0 Hg. apply (Permutation_in _ (Permutation_sym (pick_order_perm perm (s_observers s)))). rewrite <- Ho. apply in_map. exact Hg. }
  assert (Hpend : forall g1, In g1 (s_regs s1) -> (In (g_gid g1) waiting -> pend waiting g1) /\ (~ In (g_gid g1) waiting -> QV s1 g1)).
  { intros g1 Hg1. rewrite C in Hg1. apply in_map_iff in Hg1 as [g0 [<- Hg0]].
    destruct (burst_keeps order (b0 :: bs) g0) as (k1 & k2 & k3 & _ & k5).
    assert (Ht : g_trig (fold_left (trig_round order) (b0 :: bs) g0) <> None) by (apply k5; [discriminate | apply Hord; exact Hg0]).
    destruct (H g0 Hg0) as [Hnx _]. split.
    - intros Hi. repeat split; [exact Hi | exact Ht | lia].
    - intros Hni. split; [lia|]. rewrite k2. destruct (g_phase g0) eqn:Ep; try (intros Hc; contradiction).
      exfalso. apply Hni. rewrite k1. apply filter_In. split; [apply Hord; exact Hg0|]. unfold is_waiting. rewrite (find_reg_of_In s g0 Hn Hg0), Ep. reflexivity. }
  apply wake_LV.
  - apply NoDup_filter. apply (Permutation_NoDup (Permutation_sym (pick_order_perm perm (s_observers s)))). rewrite <- Ho. exact Hn.
  - intros g1 Hg1. destruct (Hpend g1 Hg1) as [P1 P2]. destruct (in_dec Z.eq_dec (g_gid g1) waiting); [right; auto | left; auto].
  - intros g1 Hg1 Hi. apply (Hpend g1 Hg1). exact Hi.
Qed.

Lemma step_LV s e : FI None s -> map g_gid (s_regs s) = s_observers s -> LV s -> LV (step s e).
Proof.
  intros HF Ho H. assert (Hp : forall g0, In g0 (s_regs s) -> 0 <= g_gid g0) by (intros g0 Hg; apply (g_rng s (proj1 HF)); exact Hg).
  destruct e; try (apply trigger_event_LV; assumption); cbn [step].
  - (* ERequest *) destruct (s_down s); [exact H|]. destruct (in_recent s r mid) as [st|].
    + destruct con; [|exact H]. destruct st as [m|]; [|exact H]. apply (LV_LF s); auto. apply LF_send_initially.
    + apply LV_flush.
      match goal with |- LV (process_request ?x _ _ _ _) => set (s2 := x) end. unfold process_request.
      set (s3 := match find_key s2 r tok with Some g0 => stop s2 (g_gid g0) | None => s2 end).
      assert (F : LF s (flush_cancels s3)).
      { eapply LF_trans; [|apply LF_flush]. apply (LF_trans _ s2); [subst s2; destruct con; apply LF_same; reflexivity|].
        subst s3. destruct (find_key s2 r tok); [apply LF_stop | apply LF_refl]. }
      destruct obs as [[| |]|]; try (apply (LV_LF s); auto; eapply LF_trans; [exact F | apply LF_plain]).
      apply LV_LVP, accept_LV, LV_LVP, (LV_LF s); auto.
  - (* EAck *) destruct (s_down s); [exact H|]. apply LV_flush. apply (LV_LF s); auto. apply LF_remove_exchange.
  - (* ERst *) destruct (s_down s); [exact H|]. apply LV_flush. apply (LV_LF s); auto. apply LF_remove_exchange.
  - (* ERenderDone *) apply (render_done_ind LV); [exact H|]. intros g v last n E Hv. apply find_key_In in E as [E _].
    pose proof (H g E) as [Hnx Q]. apply LV_flush, LV_LVP, task_LV.
    + apply LV_to_LVx, LV_LVP, H.
    + destruct Hv as [[_ ->]|[_ ->]]; lia.
    + intros Ht. apply fresh_of_version. destruct Hv as [[Ep _]|[Ep _]]; rewrite Ep in Q; apply Q, Ht.
  - (* ESetMode *) apply (LV_same3 s); auto.
  - (* ESetGate *) apply (LV_same3 s); auto.
  - (* EAdvance *) apply (LV_LF s); auto. eapply LF_trans; [apply (LF_advance (advance_fuel s) s (s_now s + dt)) | apply LF_same; reflexivity].
  - (* ETransportError *) apply LV_flush. apply (LV_LF s); auto. apply LF_dispatch_error.
  - (* EShutdown *) destruct (s_down s); [exact H|]. apply LV_flush. apply (LV_LF s); auto.
    eapply LF_trans; [apply (LF_fold_stop (map g_gid (s_regs s)) s) | apply LF_same; reflexivity].
Qed.

Lemma LV_init m : LV (init m). Proof. intros g0 []. Qed.
(* preserved together: LV's step needs FI (registration numbers) and InvA (observers = live registrations) *)
Lemma run_invariants : forall es s, FI None s -> InvA (abs s) -> s_cancelq s = [] -> LV s ->
  FI None (run s es) /\ InvA (abs (run s es)) /\ s_cancelq (run s es) = [] /\ LV (run s es).
Proof.
  induction es as [|e es IH]; intros s H1 H2 H3 H4; cbn; [auto|]. apply IH.
  - apply step_FI; exact H1.
  - eapply InvA_areach; [apply areach_step | exact H2].
  - apply cq_step; exact H3.
  - apply step_LV; auto. apply gids_observers; assumption.
Qed.

(* the last datagram transmitted for the first time for g *)
Definition last_wire (g : Z) (s : state) : option msg := hd_error (rev (wirel g s)).

(* Latest state sent, for every history and every LIVE registration g0 (an ended one is the property's "or the registration
   ended"). Fairness hypotheses: no render of g0 is in progress at the end (its task waits for a trigger) and nothing of g0
   waits in the backlog (the peer acknowledged what was sent before).  Then a datagram for g0 exists on the wire, and the last one,
   if it is a rendered notification (m_pk = 1; an explicit response, m_pk = 2, is whatever the application passed last), carries
   the resource's current version — the version after the last trigger, s_version being changed by ETrigger only. *)
Lemma latest_state_sent : forall mid0 es g0, let s := run (init mid0) es in
  In g0 (s_regs s) -> g_phase g0 = PWait -> queuel (g_gid g0) s = [] ->
  g_trig g0 = None /\
  exists m, last_wire (g_gid g0) s = Some m /\ lastp (g_gid g0) s = Some m /\ (m_pk m = 1 -> m_pv m = s_version s).
Proof.
  intros mid0 es g0 s Hg Hp Hq.
  destruct (run_invariants es (init mid0) (FI_init mid0) (InvA_init mid0) eq_refl (LV_init mid0)) as (HF & _ & _ & HL). fold s in HF, HL.
  destruct (HL g0 Hg) as [Hnx Q]. rewrite Hp in Q. destruct Q as (Ht & Hn0 & Hfr). split; [exact Ht|].
  destruct HF as [HG Ho]. destruct (Ho g0 Hg) as [[R1 R2 R3 [R4 _] R5] _]. rewrite Hq, app_nil_r in R1.
  assert (Hne : gfilter (g_gid g0) (s_prod s) <> []).
  { intros E. unfold prodl in R4. rewrite E in R4. cbn in R4. unfold somes in R4. replace (Z.to_nat (g_next g0 + 1)) with (S (Z.to_nat (g_next g0))) in R4 by lia. discriminate. }
  destruct (gfilter (g_gid g0) (s_prod s)) as [|m rest] eqn:E; [congruence|].
  exists m. unfold last_wire. rewrite <- R1. unfold prodl. rewrite E, rev_involutive. split; [reflexivity|].
  assert (El : lastp (g_gid g0) s = Some m) by (unfold lastp; rewrite E; reflexivity). split; [exact El | apply Hfr; exact El].
Qed.
