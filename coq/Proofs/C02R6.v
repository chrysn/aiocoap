(* C02 — MLInv (every exchange's remote has a backlog entry, at most one exchange per remote) rules out the KeyError /
   AssertionError branches of _retransmit / _continue_backlog. It concerns exactly the fields the primitive actions of Proofs/C02.v
   abstract from, so it is carried through the call tree here, together with ReqInv of Proofs/C02Safe.v. *)
From Verif Require Import Lib.Py Lib.PyLemmas Lib.Tactics Gen.tokenmanager_next_token Model.C02 Proofs.C02 Proofs.C02Origin Proofs.C02Inv Proofs.C02Safe.
Open Scope Z_scope.

Notation exl := (list ((remote * Z) * exch)).
Definition cnt (r : remote) (ex : exl) : nat := length (filter (fun e => fst (fst e) =? r) ex).
Definition MLInv (s : st) : Prop :=
  match exchanges s with
  | None => True
  | Some ex => forall r, (cnt r ex <= 1)%nat /\ (amem Z.eqb r (backlogs s) = false -> cnt r ex = 0%nat)
  end.
Definition clean (o : output) : Prop := match o with Crash _ | Raised _ | LoopExc _ => False | _ => True end.

Lemma has_cnt : forall r (ex : exl), has_exchange r ex = negb (Nat.eqb (cnt r ex) 0).
Proof.
  intros r. induction ex as [|x l IH]; [reflexivity|]. unfold has_exchange, cnt in *. cbn [existsb filter].
  destruct (fst (fst x) =? r); cbn [orb length]; [reflexivity|exact IH].
Qed.
Lemma cnt_aremove_le : forall r k (ex : exl), (cnt r (aremove rm_eqb k ex) <= cnt r ex)%nat.
Proof.
  intros r k. induction ex as [|[k1 e1] l IH]; [cbn; lia|]. cbn [aremove]. unfold cnt in *. cbn [filter fst].
  destruct (rm_eqb k k1); cbn [filter fst]; destruct (fst k1 =? r); cbn [length]; lia.
Qed.
Lemma cnt_aremove_lt : forall k e (ex : exl), alookup rm_eqb k ex = Some e -> (cnt (fst k) (aremove rm_eqb k ex) < cnt (fst k) ex)%nat.
Proof.
  intros k e. induction ex as [|[k1 e1] l IH]; [discriminate|]. cbn [alookup aremove]. unfold cnt in *. cbn [filter fst].
  destruct (rm_eqb k k1) eqn:E.
  - intros _. apply rm_eqb_spec in E. subst k1. rewrite Z.eqb_refl. cbn [length]. pose proof (cnt_aremove_le (fst k) k l). unfold cnt in *. lia.
  - intros H. apply IH in H. cbn [filter fst]. destruct (fst k1 =? fst k); cbn [length]; lia.
Qed.
Lemma cnt_aset_le : forall r k e (ex : exl), (cnt r (aset rm_eqb k e ex) <= cnt r ex + (if Z.eqb (fst k) r then 1 else 0))%nat.
Proof.
  intros r k e. induction ex as [|[k1 e1] l IH]; unfold cnt in *; cbn [aset filter fst].
  - destruct (fst k =? r); cbn; lia.
  - destruct (rm_eqb k k1) eqn:E; cbn [filter fst].
    + apply rm_eqb_spec in E. subst k1. destruct (fst k =? r); cbn [length]; lia.
    + destruct (fst k1 =? r); cbn [length]; destruct (fst k =? r); lia.
Qed.
Lemma cnt_filter_other : forall r r' (ex : exl),
  cnt r' (filter (fun e => negb (fst (fst e) =? r)) ex) = if r' =? r then 0%nat else cnt r' ex.
Proof.
  intros r r'. induction ex as [|x l IH]; [destruct (r' =? r); reflexivity|]. unfold cnt in *. cbn [filter].
  destruct (fst (fst x) =? r) eqn:E1; cbn [negb filter].
  - rewrite IH. destruct (r' =? r) eqn:E2; [reflexivity|]. apply Z.eqb_eq in E1. apply Z.eqb_neq in E2.
    replace (fst (fst x) =? r') with false by (symmetry; apply Z.eqb_neq; congruence). reflexivity.
  - destruct (fst (fst x) =? r') eqn:E3; cbn [length]; rewrite IH.
    + apply Z.eqb_eq in E3. apply Z.eqb_neq in E1. replace (r' =? r) with false by (symmetry; apply Z.eqb_neq; congruence). reflexivity.
    + reflexivity.
Qed.
Lemma alookup_cnt : forall r mid e (ex : exl), alookup rm_eqb (r, mid) ex = Some e -> (1 <= cnt r ex)%nat.
Proof. intros r mid e ex H. pose proof (cnt_aremove_lt (r, mid) e ex H). cbn [fst] in *. lia. Qed.
Lemma In_cnt : forall r mid e (ex : exl), In ((r, mid), e) ex -> (1 <= cnt r ex)%nat.
Proof.
  intros r mid e ex H. destruct (In_alookup rm_eqb rm_eqb_spec _ _ _ H) as [e' L]. eapply alookup_cnt; eauto.
Qed.
Lemma In_alookup_unique : forall r mid e (ex : exl), (cnt r ex <= 1)%nat -> In ((r, mid), e) ex -> alookup rm_eqb (r, mid) ex = Some e.
Proof.
  intros r mid e. induction ex as [|[k1 e1] l IH]; intros Hc Hin; [contradiction|]. cbn [alookup].
  unfold cnt in Hc. cbn [filter fst] in Hc. destruct Hin as [Hin|Hin].
  - inversion Hin. subst. replace (rm_eqb (r, mid) (r, mid)) with true by (symmetry; apply rm_eqb_spec; reflexivity). reflexivity.
  - pose proof (In_cnt r mid e l Hin) as H1. unfold cnt in H1.
    destruct (rm_eqb (r, mid) k1) eqn:E.
    + apply rm_eqb_spec in E. subst k1. cbn [fst] in Hc. rewrite Z.eqb_refl in Hc. cbn [length] in Hc. lia.
    + apply IH; [|exact Hin]. unfold cnt. destruct (fst k1 =? r); cbn [length] in Hc; lia.
Qed.
Lemma next_timer_In : forall (ex : exl) best x, next_timer ex best = Some x -> In x ex \/ best = Some x.
Proof.
  induction ex as [|y l IH]; intros best x H; cbn [next_timer] in H; [right; exact H|].
  apply IH in H. destruct H as [H|H]; [left; right; exact H|].
  destruct best as [b|]; [destruct (earlier (snd y) (snd b))|]; inversion H; subst; auto; left; left; reflexivity.
Qed.

Lemma MLInv_frame : forall s s', exchanges s' = exchanges s -> backlogs s' = backlogs s -> MLInv s -> MLInv s'.
Proof. intros s s' H1 H2 H. unfold MLInv in *. rewrite H1, H2. exact H. Qed.

(* only shutdown's close touches the message layer's tables *)
Lemma app_ml_same : forall e s s' o, app_prim e s s' o -> e <> Shutdown -> exchanges s' = exchanges s /\ backlogs s' = backlogs s.
Proof.
  intros e s s' o [s0 q r mt obs G|s0 q r mt obs og G Hog|s0 q c c' ks G F S|s0 q c G|s0 x rest Hog|s0] He; try congruence; try (split; reflexivity).
  - rewrite (register_eq _ _ _ _ _ G). split; reflexivity.
  - rewrite pop_keys_eq. destruct (outgoing _); split; reflexivity.
Qed.

(* MLInv through the message layer, together with an invariant RI of the request objects that makes the outputs of a Pipe
   event satisfy X (below: ReqInv and [clean]; or nothing and anything, when only MLInv is at hand) *)
Section MLWalk.
  Variable RI : st -> Prop.
  Variable X : output -> Prop.
  Hypothesis RI_frame : forall s s', reqs s' = reqs s -> RI s -> RI s'.
  Hypothesis RI_event : forall s q ev s' o, RI s -> _add_event s q ev = (s', o) -> RI s' /\ Forall X o.
  Hypothesis X_send : forall r w, X (wire_send r w).

  Definition Both (s : st) : Prop := RI s /\ MLInv s.
  Definition both_ok (s' : st) (o : list output) : Prop := Both s' /\ Forall X o.
  Lemma both_ok_nil : forall s, Both s -> both_ok s []. Proof. intros s H. split; [exact H|constructor]. Qed.
  Lemma both_ok_app : forall s o1 o2, Forall X o1 -> both_ok s o2 -> both_ok s (o1 ++ o2).
  Proof. intros s o1 o2 H1 [H2 H3]. split; [exact H2|apply Forall_app; split; assumption]. Qed.
  (* a change of the token layer / of the message layer *)
  Lemma Both_tl : forall s s', exchanges s' = exchanges s -> backlogs s' = backlogs s -> RI s' -> Both s -> Both s'.
  Proof. intros s s' H1 H2 HR [_ HM]. split; [exact HR|eapply MLInv_frame; eassumption]. Qed.
  Lemma Both_frame : forall s s', reqs s' = reqs s -> MLInv s' -> Both s -> Both s'.
  Proof. intros s s' H1 HM [HR _]. split; [eapply RI_frame; eassumption|exact HM]. Qed.

  Lemma add_event_ml : forall s q ev s' o, Both s -> _add_event s q ev = (s', o) ->
    both_ok s' o /\ exchanges s' = exchanges s /\ backlogs s' = backlogs s.
  Proof.
    intros s q ev s' o HS H. destruct (RI_event _ _ _ _ _ (proj1 HS) H) as [R1 R2].
    destruct (add_event_fields _ _ _ _ _ H) as (rq & og & ->). split; [|split; reflexivity].
    split; [eapply Both_tl; [| | |exact HS]; [reflexivity|reflexivity|exact R1]|exact R2].
  Qed.
  Lemma run_stoppers_ml : forall e qs s s' o, Both s -> run_stoppers s qs e = (s', o) ->
    both_ok s' o /\ exchanges s' = exchanges s /\ backlogs s' = backlogs s.
  Proof.
    intros e. induction qs as [|q rest IH]; intros s s' o HI H; cbn [run_stoppers] in H; [invpairs; repeat split; [apply HI..|constructor]|].
    destruct (add_exception s q e) as [s1 o1] eqn:A. apply add_event_ml in A; [|exact HI]. destruct A as ([A1 A2] & A3 & A4).
    destruct (run_stoppers s1 rest e) as [s2 o2] eqn:R. apply IH in R; [|exact A1]. destruct R as (R1 & R2 & R3). invpairs.
    split; [apply both_ok_app; assumption|]. split; congruence.
  Qed.
  Lemma tm_dispatch_error_ml : forall s k r s' o, Both s -> tm_dispatch_error s k r = (s', o) ->
    both_ok s' o /\ exchanges s' = exchanges s /\ backlogs s' = backlogs s.
  Proof.
    intros s k r s' o HI H. unfold tm_dispatch_error in H. destruct (outgoing s); [eapply run_stoppers_ml; eauto|].
    invpairs. split; [apply both_ok_nil; exact HI|split; reflexivity].
  Qed.
  Lemma mm_dispatch_error_ml : forall s k r s' o, Both s -> mm_dispatch_error s k r = (s', o) -> both_ok s' o.
  Proof.
    intros s k r s' o HI H. unfold mm_dispatch_error in H. destruct (exchanges s) as [ex|] eqn:Hex; [|invpairs; apply both_ok_nil; exact HI].
    destruct (tm_dispatch_error s k r) as [s1 o1] eqn:T. apply tm_dispatch_error_ml in T; [|exact HI]. destruct T as ([T0 T3] & T1 & T2). invpairs.
    split; [|exact T3]. eapply Both_frame; [| |exact T0]; [reflexivity|]. destruct HI as [_ HI].
    unfold MLInv in *. cbn [exchanges backlogs set_backlogs set_exchanges]. rewrite T1, Hex. rewrite Hex in HI.
    intros r'. rewrite cnt_filter_other, (amem_aremove Z.eqb Zeqb_spec), T2. destruct (HI r') as [H1 H2]. destruct (r' =? r); cbn [negb andb]; [split; [lia|reflexivity]|split; assumption].
  Qed.
  Lemma send_via_transport_ml : forall s r w s' o, Both s -> _send_via_transport s r w = (s', o) -> both_ok s' o.
  Proof.
    intros s r w s' o HI H. unfold _send_via_transport in H. destruct (refuses s r); [eapply mm_dispatch_error_ml; eauto|invpairs; split; [exact HI|constructor; [apply X_send|constructor]]].
  Qed.
  Lemma add_exchange_ml : forall s r w m, MLInv s -> (forall ex, exchanges s = Some ex -> cnt r ex = 0%nat) -> MLInv (_add_exchange s r w m).
  Proof.
    intros s r w m HI H0. unfold _add_exchange.
    set (s1 := if amem Z.eqb r (backlogs s) then s else _).
    assert (E1 : exchanges s1 = exchanges s) by (subst s1; destruct (amem Z.eqb r (backlogs s)); reflexivity).
    assert (B1 : forall r', amem Z.eqb r' (backlogs s1) = (r' =? r) || amem Z.eqb r' (backlogs s)).
    { intros r'. subst s1. destruct (amem Z.eqb r (backlogs s)) eqn:A; cbn [backlogs set_backlogs].
      - destruct (r' =? r) eqn:E; [apply Z.eqb_eq in E; subst; rewrite A; reflexivity|reflexivity].
      - rewrite (amem_aset Z.eqb Zeqb_spec). reflexivity. }
    clearbody s1. rewrite E1. unfold MLInv in *. destruct (exchanges s) as [ex|] eqn:Hex.
    2: { rewrite E1. exact I. }
    cbn [exchanges backlogs set_seq set_exchanges]. specialize (H0 ex eq_refl).
    intros r'. rewrite B1. destruct (HI r') as [H1 H2]. pose proof (cnt_aset_le r' (r, w_mid w) {| ex_monitor := m; ex_due := now s1 + ack_timeout s1; ex_seq := seq s1; ex_timeout := ack_timeout s1; ex_counter := 0; ex_msg := w |} ex) as L.
    cbn [fst] in L. rewrite (Z.eqb_sym r r') in L. destruct (r' =? r) eqn:E; cbn [orb].
    - apply Z.eqb_eq in E. subst r'. split; [lia|discriminate].
    - split; [lia|]. intros A. specialize (H2 A). lia.
  Qed.
  Lemma send_initially_ml : forall s r w m s' o, Both s ->
    (forall ex, exchanges s = Some ex -> (w_mtype w =? CON) = true -> m <> None -> cnt r ex = 0%nat) ->
    _send_initially s r w m = (s', o) -> both_ok s' o.
  Proof.
    intros s r w m s' o HI H0 H. unfold _send_initially in H. apply send_via_transport_ml in H; [exact H|].
    destruct (w_mtype w =? CON); [destruct m|]; try exact HI.
    eapply Both_frame; [apply add_exchange_frame| |exact HI]. apply add_exchange_ml; [apply HI|]. intros ex Hex. apply H0; [exact Hex|reflexivity|discriminate].
  Qed.
  Lemma send_message_ml : forall s r mt tok obs m s' o, Both s -> send_message s r mt tok obs m = Ok (s', o) -> both_ok s' o.
  Proof.
    intros s r mt tok obs m s' o HI H. unfold send_message in H.
    set (mt' := match mt with None => _ | Some _ => _ end) in H. clearbody mt'.
    destruct ((mt' =? CON) && is_multicast r); [discriminate|]. cbn [_next_message_id] in H.
    set (s1 := set_next_mid s _) in H.
    assert (I1 : Both s1) by (eapply Both_frame; [| |exact HI]; [reflexivity|apply HI]).
    clearbody s1. set (w := {| w_mtype := mt' |}) in H.
    assert (Hw : w_mtype w = mt') by reflexivity. clearbody w.
    destruct ((mt' =? CON) && amem Z.eqb r (backlogs s1)) eqn:C.
    - injection H as <- <-. apply both_ok_nil. eapply Both_frame; [| |exact I1]; [reflexivity|]. apply andb_prop in C. destruct C as [_ C].
      destruct I1 as [_ I1]. unfold MLInv in *. cbn [exchanges backlogs set_backlogs]. destruct (exchanges s1); [|exact I].
      intros r'. rewrite (amem_aset Z.eqb Zeqb_spec). destruct (I1 r') as [H1 H2]. split; [exact H1|]. intros A. apply H2.
      destruct (r' =? r) eqn:E; [discriminate|exact A].
    - destruct (_send_initially s1 r w (Some m)) as [s2 o1] eqn:S. apply send_initially_ml in S; [injection H as <- <-; exact S|exact I1|].
      intros ex Hex Hc _. rewrite Hw in Hc. rewrite Hc in C. cbn [andb] in C. destruct I1 as [_ I1]. unfold MLInv in I1. rewrite Hex in I1. apply (I1 r). exact C.
  Qed.
  Lemma continue_loop_ml : forall r fuel s s' o x, Both s -> _continue_backlog_loop fuel s r = (s', o, x) -> both_ok s' o /\ x = false.
  Proof.
    intros r. induction fuel as [|f IH]; intros s s' o x HI H; cbn [_continue_backlog_loop] in H; [invpairs; split; [apply both_ok_nil; exact HI|reflexivity]|].
    destruct (exchanges s) as [ex|] eqn:Hex; [|invpairs; split; [apply both_ok_nil; exact HI|reflexivity]].
    destruct (alookup Z.eqb r (backlogs s)) as [bl|] eqn:Hbl; [|invpairs; split; [apply both_ok_nil; exact HI|reflexivity]].
    destruct (has_exchange r ex) eqn:Hh; [invpairs; split; [apply both_ok_nil; exact HI|reflexivity]|].
    assert (C0 : cnt r ex = 0%nat). { rewrite has_cnt in Hh. destruct (cnt r ex); [reflexivity|discriminate]. }
    pose proof (proj2 HI) as HM. unfold MLInv in HM. rewrite Hex in HM.
    destruct bl as [|[w m] rest].
    - invpairs. split; [|reflexivity]. apply both_ok_nil. eapply Both_frame; [| |exact HI]; [reflexivity|].
      unfold MLInv. cbn [exchanges backlogs set_backlogs]. rewrite Hex.
      intros r'. rewrite (amem_aremove Z.eqb Zeqb_spec). destruct (HM r') as [H1 H2]. split; [exact H1|]. intros A.
      destruct (r' =? r) eqn:E; [apply Z.eqb_eq in E; subst; exact C0|apply H2; exact A].
    - set (s0 := set_backlogs s _) in H.
      assert (I0 : Both s0).
      { eapply Both_frame; [| |exact HI]; [reflexivity|]. unfold MLInv. subst s0. cbn [exchanges backlogs set_backlogs]. rewrite Hex. intros r'. rewrite (amem_aset Z.eqb Zeqb_spec).
        destruct (HM r') as [H1 H2]. split; [exact H1|]. intros A. apply H2. destruct (r' =? r); [discriminate|exact A]. }
      destruct (_send_initially s0 r w (Some m)) as [s1 o1] eqn:S. apply send_initially_ml in S; [|exact I0|].
      2: { intros ex0 Hex0 _ _. subst s0. cbn [exchanges set_backlogs] in Hex0. rewrite Hex in Hex0. inversion Hex0. subst. exact C0. }
      destruct S as [S1 S2]. destruct (_continue_backlog_loop f s1 r) as [[s2 o2] x2] eqn:L. apply IH in L; [|exact S1]. destruct L as [L1 L3].
      invpairs. split; [apply both_ok_app; assumption|reflexivity].
  Qed.
  Lemma remove_exchange_ml : forall s r w s' o x, Both s -> _remove_exchange s r w = (s', o, x) -> both_ok s' o /\ x = false.
  Proof.
    intros s r w s' o x HI H. unfold _remove_exchange in H.
    destruct (exchanges s) as [ex|] eqn:Hex; [|invpairs; split; [apply both_ok_nil; exact HI|reflexivity]].
    destruct (alookup rm_eqb (r, w_mid w) ex) as [e|] eqn:L; [|invpairs; split; [apply both_ok_nil; exact HI|reflexivity]].
    pose proof (proj2 HI) as HM. unfold MLInv in HM. rewrite Hex in HM.
    set (s1 := set_exchanges s _) in H.
    assert (I1 : Both s1).
    { eapply Both_frame; [| |exact HI]; [reflexivity|]. unfold MLInv. subst s1. cbn [exchanges backlogs set_exchanges]. intros r'. destruct (HM r') as [H1 H2].
      pose proof (cnt_aremove_le r' (r, w_mid w) ex). split; [lia|]. intros A. specialize (H2 A). lia. }
    assert (Bm : amem Z.eqb r (backlogs s1) = true).
    { subst s1. cbn [backlogs set_exchanges]. destruct (HM r) as [_ H2].
      pose proof (alookup_cnt _ _ _ _ L). destruct (amem Z.eqb r (backlogs s)); [reflexivity|]. specialize (H2 eq_refl). lia. }
    clearbody s1.
    destruct (if w_mtype w =? RST then _ else _) as [s2 o2] eqn:A.
    assert (A' : both_ok s2 o2 /\ backlogs s2 = backlogs s1).
    { destruct (w_mtype w =? RST); [apply add_event_ml in A; [split; apply A|exact I1]|invpairs; split; [apply both_ok_nil; exact I1|reflexivity]]. }
    destruct A' as [[A1 A2] A3]. destruct (_continue_backlog s2 r) as [[s3 o3] x3] eqn:C. invpairs.
    unfold _continue_backlog in C. unfold amem in Bm. rewrite <- A3 in Bm. destruct (alookup Z.eqb r (backlogs s2)); [|discriminate].
    apply continue_loop_ml in C; [|exact A1]. destruct C as [C1 C3]. split; [apply both_ok_app; assumption|exact C3].
  Qed.
  Lemma process_response_ml : forall s r w b s' o, Both s -> outgoing s <> None -> process_response s r w = (b, s', o) -> both_ok s' o.
  Proof.
    intros s r w b s' o HI Hog H. unfold process_response in H. destruct (outgoing s) as [og|]; [|contradiction].
    destruct (alookup key_eqb _ og); [|invpairs; apply both_ok_nil; exact HI].
    destruct (add_response _ z w r _) as [s2 o2] eqn:A. apply add_event_ml in A; [invpairs; apply A|].
    destruct (negb _); [|exact HI]. eapply Both_frame; [| |exact HI]; [reflexivity|apply HI].
  Qed.
  Lemma dispatch_message_ml : forall s r mcl w s' o, Both s -> outgoing s <> None -> is_request (w_code w) = false ->
    dispatch_message s r mcl w = (s', o) -> both_ok s' o.
  Proof.
    intros s r mcl w s' o HI Hog Hreq H. unfold dispatch_message in H. rewrite Hreq in H.
    destruct (if (w_mtype w =? ACK) || (w_mtype w =? RST) then _ else _) as [[s1 o1] x1] eqn:RE.
    assert (B : both_ok s1 o1 /\ x1 = false /\ outgoing s1 <> None).
    { destruct ((w_mtype w =? ACK) || (w_mtype w =? RST)).
      - pose proof (remove_exchange_shrinks _ _ _ _ _ _ RE) as SH. apply remove_exchange_ml in RE; [|exact HI]. destruct RE as [R1 R2].
        split; [exact R1|]. split; [exact R2|]. eapply shrinks_some; eauto.
      - invpairs. split; [apply both_ok_nil; exact HI|]. split; [reflexivity|exact Hog]. }
    destruct B as [[B1 B2] [-> B3]].
    assert (SI : forall s2 o2 mt s3 o3, Both s2 -> Forall X o2 -> _send_initially s2 r (empty_msg mt (w_mid w)) None = (s3, o3) -> both_ok s3 (o2 ++ o3)).
    { intros * I2 N2 S. apply both_ok_app; [exact N2|]. eapply send_initially_ml; [exact I2| |exact S]. intros ? ? ? Hn; contradiction. }
    destruct ((w_code w =? EMPTY) && (w_mtype w =? CON)).
    { destruct (_send_initially s1 r _ None) as [s2 o2] eqn:S. invpairs. eapply SI; eauto. }
    destruct ((w_code w =? EMPTY) && ((w_mtype w =? ACK) || (w_mtype w =? RST))). { invpairs. split; assumption. }
    destruct (is_response (w_code w) && _); [|invpairs; split; assumption].
    destruct (process_response s1 r w) as [[b s2] o2] eqn:P. apply process_response_ml in P; [|exact B1|exact B3]. destruct P as [P1 P2].
    assert (N12 : Forall X (o1 ++ o2)) by (apply Forall_app; split; assumption).
    destruct b; [destruct (w_mtype w =? CON)|destruct ((w_mtype w =? CON) && negb mcl)];
      try (destruct (_send_initially s2 r _ None) as [s3 o3] eqn:S; invpairs; rewrite app_assoc; eapply SI; [exact P1|exact N12|exact S]);
      invpairs; split; assumption.
  Qed.
  Lemma retransmit_ml : forall s r mid s' o ex, Both s -> exchanges s = Some ex -> alookup rm_eqb (r, mid) ex <> None ->
    _retransmit s r mid = (s', o) -> both_ok s' o.
  Proof.
    intros s r mid s' o ex HS Hex Hl H. unfold _retransmit in H. rewrite Hex in H.
    destruct (alookup rm_eqb (r, mid) ex) as [e|] eqn:L; [|contradiction].
    pose proof (cnt_aremove_lt (r, mid) e ex L) as Lt. cbn [fst] in Lt.
    pose proof (proj2 HS) as HI. unfold MLInv in HI. rewrite Hex in HI.
    assert (Bm : amem Z.eqb r (backlogs s) = true).
    { destruct (HI r) as [_ H2]. destruct (amem Z.eqb r (backlogs s)); [reflexivity|]. specialize (H2 eq_refl). lia. }
    destruct (ex_counter e <? 4).
    - apply send_via_transport_ml in H; [exact H|]. eapply Both_frame; [| |exact HS]; [reflexivity|].
      unfold MLInv. cbn [exchanges backlogs set_seq set_exchanges]. intros r'. destruct (HI r') as [H1 H2].
      match goal with |- context [aset rm_eqb (r, mid) ?e0 _] => pose proof (cnt_aset_le r' (r, mid) e0 (aremove rm_eqb (r, mid) ex)) as La end.
      pose proof (cnt_aremove_le r' (r, mid) ex) as Lr. cbn [fst] in La. rewrite (Z.eqb_sym r r') in La.
      destruct (r' =? r) eqn:E.
      + apply Z.eqb_eq in E. subst r'. split; [lia|]. intros A. rewrite Bm in A. discriminate.
      + split; [lia|]. intros A. specialize (H2 A). lia.
    - cbn [backlogs set_exchanges] in H. rewrite Bm in H.
      apply tm_dispatch_error_ml in H.
      + destruct H as ([T0 T3] & T1 & T2). split; [exact T0|exact T3].
      + (* without the exchange, and without the backlog entry of r, the invariant still holds *)
        eapply Both_frame; [| |exact HS]; [reflexivity|]. unfold MLInv. cbn [exchanges backlogs set_backlogs set_exchanges].
        intros r'. rewrite (amem_aremove Z.eqb Zeqb_spec). destruct (HI r') as [H1 H2]. pose proof (cnt_aremove_le r' (r, mid) ex) as Lr.
        destruct (r' =? r) eqn:E; [apply Z.eqb_eq in E; subst r'; split; [lia|intros _; lia]|split; [lia|cbn [negb andb]; intros A; specialize (H2 A); lia]].
  Qed.
  (* declared only here: a proof by eauto or lia above would come to depend on them *)
  Hypothesis RI_app : forall e s s' o, app_prim e s s' o -> RI s -> RI s'.
  Hypothesis X_app : forall e s s' o, app_prim e s s' o -> Forall X o.
  Lemma app_both : forall e s s' o, app_prim e s s' o -> e <> Shutdown -> Both s -> Both s'.
  Proof.
    intros e s s' o P He HI. destruct (app_ml_same _ _ _ _ P He) as [E1 E2].
    eapply Both_tl; [exact E1|exact E2|eapply RI_app; [exact P|apply HI]|exact HI].
  Qed.
  Lemma new_request_ml : forall s q r mt obs s' o, Both s -> new_request s q r mt obs = (s', o) -> both_ok s' o.
  Proof.
    intros s q r mt obs s' o HI H. destruct (get_req s q) eqn:G.
    { unfold new_request in H. rewrite G in H. invpairs. apply both_ok_nil. exact HI. }
    rewrite (new_request_eq _ _ _ _ _ G) in H. cbn zeta in H.
    set (s0 := upd_req s q (fresh_req r obs)) in *.
    assert (G0 : get_req s0 q = Some (fresh_req r obs)) by (unfold s0; rewrite get_req_upd, Z.eqb_refl; reflexivity).
    assert (I0 : Both s0) by (apply (app_both _ _ _ _ (a_new s q r mt obs G)); [discriminate|exact HI]).
    destruct (outgoing s) as [og|] eqn:Hog; [|eapply add_event_ml in H; [apply H|exact I0]].
    pose proof (a_register s0 q r mt obs og G0 Hog) as PR.
    assert (I2 : Both (register s0 q r og)) by (apply (app_both _ _ _ _ PR); [discriminate|exact I0]).
    apply X_app in PR.
    destruct (send_message _ r mt _ obs q) as [[s3 o3]|e] eqn:SM.
    - apply send_message_ml in SM; [|exact I2]. invpairs. apply (both_ok_app _ [_]); [exact PR|exact SM].
    - destruct (add_exception _ q e) as [s3 o3] eqn:A. apply add_event_ml in A; [|exact I2]. invpairs.
      apply (both_ok_app _ [_]); [exact PR|apply A].
  Qed.
  Lemma step_ml : forall s e s' o, Both s -> ev_client e -> step s e = (s', o) -> both_ok s' o.
  Proof.
    intros s e s' o HI Hc H.
    destruct e; cbn [step] in H.
    - (* Request *) eapply new_request_ml; eauto.
    - (* Recv *) destruct (outgoing s) eqn:Hog; [|invpairs; apply both_ok_nil; exact HI].
      eapply dispatch_message_ml; [exact HI|rewrite Hog; discriminate|exact Hc|exact H].
    - (* Fire *) destruct (exchanges s) as [ex|] eqn:Hex; [|invpairs; apply both_ok_nil; exact HI].
      destruct (next_timer ex None) as [[[r mid] e]|] eqn:NT; [|invpairs; apply both_ok_nil; exact HI].
      apply next_timer_In in NT. destruct NT as [NT|NT]; [|discriminate].
      destruct (In_alookup rm_eqb rm_eqb_spec _ _ _ NT) as [e' L].
      eapply (retransmit_ml _ r mid s' o ex); [| |rewrite L; discriminate|exact H]; [eapply Both_frame; [| |exact HI]; [reflexivity|apply HI]|exact Hex].
    - (* Adv *) repeat dmatch; invpairs; apply both_ok_nil; try exact HI; (eapply Both_frame; [| |exact HI]; [reflexivity|apply HI]).
    - (* Err *) eapply mm_dispatch_error_ml; eauto.
    - (* Cancel *) destruct (cancel_cases _ _ _ _ H) as [[-> ->]|P]; [apply both_ok_nil; exact HI|].
      split; [eapply app_both; [exact P|discriminate|exact HI]|eapply X_app; exact P].
    - (* ObsCancel *) invpairs. apply both_ok_nil.
      destruct (obs_cancel_cases s q) as [->|P]; [exact HI|eapply app_both; [exact P|discriminate|exact HI]].
    - (* Refuse *) invpairs. apply both_ok_nil. eapply Both_frame; [| |exact HI]; [reflexivity|apply HI].
    - (* Shutdown *) unfold shutdown in H. destruct (outgoing s); [|invpairs; apply both_ok_nil; exact HI].
      destruct (tm_shutdown_loop (length l) s) as [s1 o1] eqn:L. invpairs.
      assert (SL : forall fuel s0 s2 o2, Both s0 -> tm_shutdown_loop fuel s0 = (s2, o2) -> both_ok s2 o2).
      { induction fuel as [|f IH]; intros s0 s2 o2 I0 E; cbn [tm_shutdown_loop] in E; [invpairs; apply both_ok_nil; exact I0|].
        destruct (outgoing s0) as [[|[k q] rest]|]; [invpairs; apply both_ok_nil; exact I0| |invpairs; apply both_ok_nil; exact I0].
        destruct (add_exception _ q LibraryShutdown) as [s3 o3] eqn:A. apply add_event_ml in A; [|eapply Both_frame; [| |exact I0]; [reflexivity|apply I0]].
        destruct (tm_shutdown_loop f s3) as [s4 o4] eqn:L4. apply IH in L4; [|apply A]. invpairs. apply both_ok_app; [apply A|exact L4]. }
      apply SL in L; [|exact HI]. destruct L as [[L1 _] L2]. split; [split; [eapply RI_frame; [|exact L1]; reflexivity|exact I]|exact L2].
  Qed.
  Lemma run_ml : forall es s s' os, Both s -> Forall ev_client es -> run s es = (s', os) -> both_ok s' (concat os).
  Proof.
    induction es as [|e r IH]; intros s s' os HI Hc H; cbn [run] in H; [invpairs; apply both_ok_nil; exact HI|].
    inversion Hc as [|? ? Hc1 Hc2]. subst.
    destruct (step s e) as [s1 o] eqn:S. apply step_ml in S; [|exact HI|exact Hc1]. destruct S as [S1 S2].
    destruct (run s1 r) as [s2 os'] eqn:R. apply IH in R; [|exact S1|exact Hc2]. invpairs. apply both_ok_app; assumption.
  Qed.
End MLWalk.

Lemma add_event_clean : forall s q ev s' o, ReqInv s -> _add_event s q ev = (s', o) -> ReqInv s' /\ Forall clean o.
Proof.
  intros s q ev s' o HI H. destruct (add_event_ok _ _ _ _ _ HI H) as [R1 R2]. pose proof (add_event_out_ok _ _ _ _ _ H) as OK.
  split; [exact R1|]. rewrite Forall_forall in *. intros x Hx. specialize (R2 x Hx). specialize (OK x Hx). destruct x; cbn in *; auto.
Qed.
Lemma app_clean : forall e s s' o, app_prim e s s' o -> Forall clean o.
Proof. intros e s s' o []; repeat constructor. Qed.
Lemma run_clean : forall t m a es s' os, Forall ev_client es -> run (init t m a) es = (s', os) -> MLInv s' /\ Forall clean (concat os).
Proof.
  intros t m a es s' os Hc R. eapply (run_ml ReqInv clean ReqInv_frame add_event_clean (fun _ _ => I) app_reqinv app_clean) in R; [|split|exact Hc].
  - split; apply R.
  - intros q c G. discriminate.
  - unfold MLInv. cbn. intros r. split; [lia|reflexivity].
Qed.

Lemma no_crash_no_escape : forall t m a es x, Forall ev_client es -> In x (concat (snd (run (init t m a) es))) -> clean x.
Proof.
  intros t m a es x Hc Hin. destruct (run (init t m a) es) as [s' os] eqn:R. eapply run_clean in R; [|exact Hc].
  destruct R as [_ R]. rewrite Forall_forall in R. exact (R x Hin).
Qed.

(* the hypotheses of the give-up / piggy-back theorems follow from the invariant *)
Lemma fire_giveup_fails_ml : forall s ex r mid e og tok q c, Inv s -> MLInv s -> exchanges s = Some ex ->
  next_timer ex None = Some ((r, mid), e) -> (ex_counter e <? 4) = false ->
  outgoing s = Some og -> In ((tok, Some r), q) og -> get_req s q = Some c -> cq_fut c = FPending ->
  In (SetException q ConRetransmitsExceeded) (snd (step s Fire)).
Proof.
  intros s ex r mid e og tok q c HI HM Hex NT Hc Hog Hin G Hf.
  pose proof (next_timer_In _ _ _ NT) as [Hi|Hi]; [|discriminate].
  unfold MLInv in HM. rewrite Hex in HM. destruct (HM r) as [H1 H2].
  eapply fire_giveup_fails; eauto.
  - apply In_alookup_unique; assumption.
  - pose proof (In_cnt _ _ _ _ Hi). destruct (amem Z.eqb r (backlogs s)); [reflexivity|]. specialize (H2 eq_refl). lia.
Qed.
