(* C03 — the history invariant [Hist] (per request: the copies put on the wire follow the doubling schedule, at most
   1 + MAX_RETRANSMIT of them, and an exchange ends only by ACK / RST, transport error or the give-up at the deadline) and
   [Pend] (a request whose message is in the message layer is still pending); preservation along [step] and [run] *)
From Verif Require Import Lib.Py Lib.PyLemmas Lib.Tactics Model.C03 Proofs.C03 Proofs.C03struct.
Open Scope Z_scope.

Fixpoint copies (rid : Z) (tr : list output) : list (Z * message) :=
  match tr with
  | [] => []
  | OSend t m :: r => if m_rid m =? rid then (t, m) :: copies rid r else copies rid r
  | _ :: r => copies rid r
  end.
Lemma copies_app : forall rid a b, copies rid (a ++ b) = copies rid a ++ copies rid b.
Proof.
  induction a as [|x a IH]; intros b; cbn; auto. destruct x; auto. destruct (m_rid m =? rid); cbn; rewrite IH; auto.
Qed.
Lemma copies_in : forall rid tr t m, In (t, m) (copies rid tr) <-> In (OSend t m) tr /\ m_rid m = rid.
Proof.
  induction tr as [|x tr IH]; intros t m; cbn; [tauto|].
  destruct x as [t' m'| | | | |]; try (rewrite IH; split; [intros [H1 H2]; auto | intros [[H|H] H2]; [discriminate|auto]]).
  destruct (m_rid m' =? rid) eqn:E; cbn; rewrite IH.
  - apply Z.eqb_eq in E. split; [intros [H|[H1 H2]]; [inv H; auto | auto] | intros [[H|H] H2]; [inv H; auto | auto]].
  - apply Z.eqb_neq in E. split; [intros [H1 H2]; auto | intros [[H|H] H2]; [inv H; congruence | auto]].
Qed.

(* the k-th copy (k = 0, 1, ...) leaves at T0 + t * (2^k - 1) *)
Definition sched_of (m : message) (T0 t : Z) (n : nat) : list (Z * message) :=
  map (fun k => (T0 + t * (2 ^ Z.of_nat k - 1), m)) (seq 0 n).
Lemma pow2_succ : forall c, 0 <= c -> 2 ^ (c + 1) = 2 * 2 ^ c.
Proof. intros. rewrite Z.pow_add_r by lia. lia. Qed.
Lemma sched_of_S : forall m T0 t n, sched_of m T0 t (S n) = sched_of m T0 t n ++ [(T0 + t * (2 ^ Z.of_nat n - 1), m)].
Proof. intros. unfold sched_of. rewrite seq_S, map_app. reflexivity. Qed.

Definition in_backlog (rid : Z) (st : state) : Prop := In rid (back_rids (backlogs st)).

Definition timers_ok (st : state) (rid : Z) (m : message) (T0 t : Z) (n : nat) : Prop :=
  forall e, In e (active_exchanges st) -> e_rid e = rid ->
    h_message (e_timer e) = m /\ Z.of_nat n = h_counter (e_timer e) + 1 /\
    h_timeout (e_timer e) = t * 2 ^ h_counter (e_timer e) /\
    h_due (e_timer e) = T0 + t * (2 ^ (h_counter (e_timer e) + 1) - 1).

(* [ks]: the (remote, mid) pairs of all ACK / RST / piggy-backed-response datagrams received so far; plus [err_key r] for every
   transport error reported for r, and [gone_key rid] for every ECancel of rid and every EResponse carrying rid's token (matched or
   not).  The two extra kinds of event are recorded in the same list under sentinel "message ids" -1 and -2, which no datagram of
   aiocoap carries (message ids are 16 bit); the model's ERecv takes any Z, so `ERecv r _ (-1)` / `ERecv rid _ (-2)` produce the
   same keys: that only makes the hypotheses `~ In (err_key ..) ..`, `~ In (gone_key ..) ..` of the theorems exclude more runs *)
Definition err_key (r : Z) : Z * Z := (r, -1).
Definition gone_key (rid : Z) : Z * Z := (rid, -2).
Definition Good (ks : list (Z * Z)) (st : state) (tr : list output) (rid : Z) : Prop :=
  exists m T0 t n,
    copies rid tr = sched_of m T0 t n /\
    (n <> O -> m_rid m = rid /\ range (m_tuning m) t /\ Z.of_nat n <= MAX_RETRANSMIT (m_tuning m) + 1) /\
    timers_ok st rid m T0 t n /\
    (in_backlog rid st -> n = O) /\
    (n <> O -> (exists e, In e (active_exchanges st) /\ e_rid e = rid) \/ In (m_remote m, m_mid m) ks \/ In (err_key (m_remote m)) ks \/
               (Z.of_nat n = MAX_RETRANSMIT (m_tuning m) + 1 /\
                (In (OFail (T0 + t * (2 ^ (MAX_RETRANSMIT (m_tuning m) + 1) - 1)) rid ConRetransmitsExceeded) tr \/ In (gone_key rid) ks)) \/
               (* ended by MessageManager.dispatch_error running inside send() of a refusing transport: the request failed with it *)
               ((exists tf, In (OFail tf rid NetworkError) tr) \/ In (gone_key rid) ks)).

Definition Hist (seen : list Z) (ks : list (Z * Z)) (st : state) (tr : list output) : Prop :=
  (forall rid, ~ In rid seen -> copies rid tr = []) /\ forall rid, Good ks st tr rid.

(* only the piggy-backed response (type ACK) acknowledges the message ID; a separate CON / NON response does not *)
Definition ack_keys (r ty mid : Z) (ks : list (Z * Z)) : list (Z * Z) := if ty =? 0 then (r, mid) :: ks else ks.
Definition ks_after (ks : list (Z * Z)) (e : event) : list (Z * Z) :=
  match e with
  | ERecv r _ mid => (r, mid) :: ks
  | EError r => err_key r :: ks
  | ECancel rid => gone_key rid :: ks
  | EResponse r ty mid rid => gone_key rid :: ack_keys r ty mid ks
  | _ => ks
  end.

(* a request whose message is in an exchange or in a backlog is still pending in the token manager, unless it was cancelled
   or answered *)
Definition Pend (ks : list (Z * Z)) (st : state) : Prop :=
  (forall e, In e (active_exchanges st) -> In (e_rid e, e_remote e) (outgoing_requests st) \/ In (gone_key (e_rid e)) ks) /\
  (forall r q p, In (r, q) (backlogs st) -> In p q -> In (m_rid (fst p), r) (outgoing_requests st) \/ In (gone_key (m_rid (fst p))) ks).

(* how an exchange can have ended: the last clause of [Good] without "still active" *)
Definition closed (ks : list (Z * Z)) (tr : list output) (rid : Z) (m : message) (T0 t : Z) (n : nat) : Prop :=
  In (m_remote m, m_mid m) ks \/ In (err_key (m_remote m)) ks \/
  (Z.of_nat n = MAX_RETRANSMIT (m_tuning m) + 1 /\
   (In (OFail (T0 + t * (2 ^ (MAX_RETRANSMIT (m_tuning m) + 1) - 1)) rid ConRetransmitsExceeded) tr \/ In (gone_key rid) ks)) \/
  ((exists tf, In (OFail tf rid NetworkError) tr) \/ In (gone_key rid) ks).
Lemma closed_mono : forall ks ks' tr tr' rid m T0 t n, incl ks ks' -> (forall tf x e, In (OFail tf x e) tr -> In (OFail tf x e) tr') ->
  closed ks tr rid m T0 t n -> closed ks' tr' rid m T0 t n.
Proof. unfold closed. intros ks ks' tr tr' rid m T0 t n Hk Ht [H|[H|[[Hn [H|H]]|[[tf H]|H]]]]; eauto 8. Qed.

Lemma good_frame : forall ks st st' tr o rid, Good ks st tr rid -> copies rid o = [] -> same_for rid st st' ->
  Good ks st' (tr ++ o) rid.
Proof.
  intros ks st st' tr o rid (m & T0 & t & n & Hc & Hn & Ht & Hb & Hcl) Ho [H12 H3].
  exists m, T0, t, n. splits; auto.
  - rewrite copies_app, Ho, app_nil_r. exact Hc.
  - intros e He Hr. apply Ht; auto. apply H12; auto.
  - intros Hi. apply Hb. apply H3. exact Hi.
  - intros Hn0. destruct (Hcl Hn0) as [[e [He1 He2]]|Hend]; [left; exists e; split; auto; apply H12; auto|right].
    apply (closed_mono ks ks tr (tr ++ o) rid m T0 t n (incl_refl _)); [|exact Hend]. intros tf x e Hi. apply in_app_iff. auto.
Qed.

(* a message put on the wire for the first time ([_send_initially]) *)
Lemma good_start : forall ks st' tr o rid m T t L sq,
  copies rid tr = [] -> copies rid o = [(T, m)] -> m_rid m = rid -> range (m_tuning m) t -> wf_tuning (m_tuning m) ->
  active_exchanges st' = xset (m_remote m, m_mid m) (rid, {| h_due := T + t; h_seq := sq; h_message := m; h_timeout := t; h_counter := 0 |}) L ->
  (forall e, In e L -> e_rid e <> rid) -> ~ in_backlog rid st' -> Good ks st' (tr ++ o) rid.
Proof.
  intros ks st' tr o rid m T t L sq Hc Ho Hm Hr Hwf Ex HL Hb.
  exists m, T, t, 1%nat. splits.
  - rewrite copies_app, Hc, Ho. cbn. repeat f_equal. lia.
  - intros _. splits; auto. destruct Hwf as (_ & _ & _ & HR). lia.
  - intros e He Hrid. rewrite Ex in He. apply in_xset in He. destruct He as [->|[He _]]; [|exfalso; eapply HL; eauto].
    unfold e_timer. cbn. splits; auto; lia.
  - intros H. tauto.
  - intros _. left. eexists. split; [rewrite Ex; apply in_xset; left; reflexivity|]. unfold e_rid, e_timer. cbn. exact Hm.
Qed.

Lemma copies_fail_only : forall rid (o : list output), (forall t m, ~ In (OSend t m) o) -> copies rid o = [].
Proof.
  induction o as [|x o IH]; intros H; cbn; auto. destruct x; try (apply IH; intros t' m' Hi; apply (H t' m'); right; exact Hi).
  exfalso. apply (H t m). left. reflexivity.
Qed.

Lemma copies_fails : forall x t e (l : list (Z * Z)), copies x (map (fun q => OFail t (fst q) e) l) = [].
Proof. intros. apply copies_fail_only. apply fails_no_send. Qed.

Lemma error_outputs : forall st r rid, In (rid, r) (outgoing_requests st) ->
  In (OFail (now st) rid NetworkError) (map (fun q => OFail (now st) (fst q) NetworkError) (filter (fun q => snd q =? r) (outgoing_requests st))).
Proof. intros. apply in_map_iff. exists (rid, r). split; auto. apply filter_In. split; auto. cbn. apply Z.eqb_refl. Qed.

Lemma good_dispatch : forall seen ks st tr r st' o x, Struct seen st -> Good ks st tr x ->
  (forall e, In e (active_exchanges st) -> e_rid e = x -> e_remote e = r -> In (x, r) (outgoing_requests st) \/ In (gone_key x) ks) ->
  mm_dispatch_error st r = (st', o) -> Good ks st' (tr ++ o) x.
Proof.
  intros seen ks st tr r st' o x S (m & T0 & t & n & Hcp & Hn & Ht & Hb & Hcl) Hp H.
  destruct (error_struct _ _ _ _ _ S H) as (S' & _ & En & Ex & Eb & Eo & ->).
  assert (Hsub : forall e, In e (active_exchanges st') <-> In e (active_exchanges st) /\ e_remote e <> r).
  { intros e. rewrite Ex. apply (in_filter_ne e_remote). }
  exists m, T0, t, n. splits; auto.
  - rewrite copies_app, copies_fails, app_nil_r. exact Hcp.
  - intros e He Hr. apply Hsub in He. apply Ht; tauto.
  - intros Hi. apply Hb. unfold in_backlog in *. rewrite Eb in Hi. exact (in_back_qdel_sub _ _ _ Hi).
  - intros Hn0. destruct (Hcl Hn0) as [[e [He1 He2]]|Hend].
    + destruct (Z.eq_dec (e_remote e) r) as [Hr|Hr]; [|left; exists e; split; auto; apply Hsub; auto].
      right. right. right. right. destruct (Hp e He1 He2 Hr) as [Ho|Hg]; [left|right; exact Hg].
      exists (now st). apply in_app_iff. right. apply error_outputs. exact Ho.
    + right. apply (closed_mono ks ks tr _ x m T0 t n (incl_refl _)); [|exact Hend]. intros tf y e Hi. apply in_app_iff. auto.
Qed.

Lemma good_drop_send : forall ks st tr t m x, Good ks st (tr ++ [OSend t m]) x -> m_rid m <> x -> Good ks st tr x.
Proof.
  intros ks st tr t m x (m0 & T0 & t0 & n & Hcp & Hn & Ht & Hb & Hcl) Hne.
  exists m0, T0, t0, n. splits; auto.
  - rewrite copies_app in Hcp. cbn in Hcp. assert (m_rid m =? x = false) as E by (apply Z.eqb_neq; auto). rewrite E, app_nil_r in Hcp. exact Hcp.
  - intros Hn0. destruct (Hcl Hn0) as [H|Hend]; [left; exact H|right].
    apply (closed_mono ks ks (tr ++ [OSend t m]) tr x m0 T0 t0 n (incl_refl _)); [|exact Hend].
    intros tf y e Hi. apply in_app_iff in Hi. destruct Hi as [Hi|[Hi|[]]]; [exact Hi|discriminate].
Qed.

Lemma sched_of_snoc_inv : forall m0 T0 t0 n l t m, l ++ [(t, m)] = sched_of m0 T0 t0 n ->
  exists n', n = S n' /\ l = sched_of m0 T0 t0 n' /\ m = m0.
Proof.
  intros m0 T0 t0 n l t m H. destruct n as [|n'].
  - unfold sched_of in H. cbn in H. destruct l; discriminate.
  - rewrite sched_of_S in H. apply app_inj_tail in H. destruct H as [H1 H2]. inv H2. exists n'. auto.
Qed.

(* a datagram handed to a refusing transport: [st1] is the state right before message_interface.send, with the invariants that
   would hold had the datagram gone out ([OSend] phantom); what really happens is dispatch_error for the remote, no datagram *)
Lemma hist_refused : forall seen ks st1 tr tm m e1 st' oe,
  Struct seen st1 -> Hist seen ks st1 (tr ++ [OSend tm m]) ->
  In e1 (active_exchanges st1) -> h_message (e_timer e1) = m ->
  (In (m_rid m, m_remote m) (outgoing_requests st1) \/ In (gone_key (m_rid m)) ks) ->
  mm_dispatch_error st1 (m_remote m) = (st', oe) -> Hist seen ks st' (tr ++ oe).
Proof.
  intros seen ks st1 tr tm m e1 st' oe S [Hun Hg] Hin1 Hm1 Hpend H.
  pose proof (s_ex _ _ S) as Hex. rewrite Forall_forall in Hex.
  assert (Hrem : forall e, In e (active_exchanges st1) -> e_remote e = m_remote (h_message (e_timer e))).
  { intros e He. pose proof (Hex e He) as Hok. unfold entry_ok in Hok. destruct Hok as (Hk & _). unfold e_remote. rewrite Hk. reflexivity. }
  destruct (error_struct _ _ _ _ _ S H) as (S' & _ & En & Ex & Eb & Eo & Eoe).
  assert (Hc : forall x, copies x oe = []).
  { intros x. rewrite Eoe. apply copies_fails. }
  split.
  - intros x Hx. rewrite copies_app, Hc, app_nil_r. specialize (Hun x Hx). rewrite copies_app in Hun. apply app_eq_nil in Hun. tauto.
  - intros x. destruct (Z.eq_dec (m_rid m) x) as [<-|Hne].
    + destruct (Hg (m_rid m)) as (m0 & T0 & t0 & n & Hcp & Hn & Ht & Hb & Hcl).
      rewrite copies_app in Hcp. cbn in Hcp. rewrite Z.eqb_refl in Hcp.
      destruct (sched_of_snoc_inv _ _ _ _ _ _ _ Hcp) as (n' & -> & Hcp' & <-).
      destruct (Hn ltac:(discriminate)) as (Hrid & Hrg & Hle).
      exists m, T0, t0, n'. splits; auto.
      * rewrite copies_app, Hc, app_nil_r. exact Hcp'.
      * intros _. splits; auto. lia.
      * intros e He Hr. exfalso. rewrite Ex in He. apply (in_filter_ne e_remote) in He. destruct He as [He Hnr].
        destruct (Ht e He Hr) as (Hme & _). apply Hnr. rewrite (Hrem e He), Hme. reflexivity.
      * intros Hi. exfalso. assert (Datatypes.S n' = O); [|discriminate]. apply Hb. unfold in_backlog in *. rewrite Eb in Hi. exact (in_back_qdel_sub _ _ _ Hi).
      * intros _. right. right. right. right. destruct Hpend as [Ho|Hgn]; [left|right; exact Hgn].
        exists (now st1). apply in_app_iff. right. rewrite Eoe. apply error_outputs. exact Ho.
    + apply (good_dispatch seen ks st1 tr (m_remote m) st' oe x S); auto; [eapply good_drop_send; eauto|].
      intros e He Hr Hrm. exfalso. apply Hne. rewrite <- Hr.
      assert (e = e1) as -> by (apply (NoDup_map_inj_in e_remote (active_exchanges st1)); auto; [apply (s_ex_nodup _ _ S)|rewrite Hrm, (Hrem e1 Hin1), Hm1; reflexivity]).
      unfold e_rid. rewrite Hm1. reflexivity.
Qed.

(* enough to establish the invariant for the state [st1] in which send is called, as if the datagram had gone out *)
Lemma hist_handed : forall seen ks st1 tr pre m e1 st' o2,
  Struct seen st1 -> Hist seen ks st1 (tr ++ pre ++ [OSend (now st1) m]) ->
  In e1 (active_exchanges st1) -> h_message (e_timer e1) = m ->
  (In (m_rid m, m_remote m) (outgoing_requests st1) \/ In (gone_key (m_rid m)) ks) ->
  _send_via_transport st1 m = (st', o2) -> Hist seen ks st' (tr ++ pre ++ o2).
Proof.
  intros seen ks st1 tr pre m e1 st' o2 S H1 Hin Hm Hp V. rewrite app_assoc in *.
  destruct (send_via_cases _ _ _ _ V) as [(_ & -> & ->)|(_ & D)]; [exact H1|eapply hist_refused; eauto].
Qed.

Lemma hist_dispatch : forall seen ks st tr r st' o, Struct seen st -> Hist seen ks st tr -> Pend ks st ->
  mm_dispatch_error st r = (st', o) -> Hist seen ks st' (tr ++ o).
Proof.
  intros seen ks st tr r st' o S [Hun Hg] [P1 _] H.
  destruct (error_struct _ _ _ _ _ S H) as (_ & _ & _ & _ & _ & _ & Eo).
  split.
  - intros x Hx. rewrite copies_app, (Hun x Hx). rewrite Eo. apply copies_fails.
  - intros x. apply (good_dispatch seen ks st tr r st' o x S); auto.
    intros e He Hr Hrm. destruct (P1 e He) as [Ho|Hgn]; [left; rewrite <- Hr, <- Hrm; exact Ho|right; rewrite <- Hr; exact Hgn].
Qed.

Lemma live_exch_seen : forall seen st e, Struct seen st -> In e (active_exchanges st) -> In (e_rid e) seen.
Proof. intros. eapply live_rids_seen; eauto. unfold live_rids. apply in_app_iff. left. apply in_map. auto. Qed.
Lemma live_back_seen : forall seen st x, Struct seen st -> In x (back_rids (backlogs st)) -> In x seen.
Proof. intros. eapply live_rids_seen; eauto. unfold live_rids. apply in_app_iff. right. auto. Qed.

Lemma hist_request : forall seen ks st tr rid r tn st' o, Struct seen st -> Hist seen ks st tr -> ~ In rid seen -> wf_tuning tn ->
  tm_request st rid r tn = (st', o) -> Hist (rid :: seen) ks st' (tr ++ o).
Proof.
  intros seen ks st tr rid r tn st' o S [Hun Hg] Hfresh Hwf H.
  pose proof (request_shape _ _ _ _ _ _ _ S Hfresh Hwf H) as Sh. cbv zeta in Sh.
  set (m := {| m_remote := r; m_mid := message_id st; m_rid := rid; m_tuning := tn |}) in *.
  destruct Sh as (_ & _ & [(q & Q & -> & Ex & Eb & Eo)|(Q & Hno & t & sq & st1 & o2 & Hrg & S1 & En1 & Eo1 & _ & Ex & Eb & Ebl & V & ->)]).
  - (* put into the backlog *)
    split.
    + intros x Hx. rewrite app_nil_r. apply Hun. intros Hi. apply Hx. right. exact Hi.
    + intros x. destruct (Z.eq_dec x rid) as [->|Hne].
      * exists m, 0, 0, O. splits; try tauto.
        -- rewrite app_nil_r. rewrite (Hun rid Hfresh). reflexivity.
        -- intros e He Hr. rewrite Ex in He. exfalso. apply Hfresh. rewrite <- Hr. eapply live_exch_seen; eauto.
      * apply (good_frame ks st st' tr [] x (Hg x)); [reflexivity|apply (same_for_exch x st st' Ex)].
        rewrite Eb. intros Hi. apply in_back_qset in Hi. destruct Hi as [Hi|Hi]; [|exact Hi].
        unfold q_rids in Hi. rewrite map_app in Hi. apply in_app_iff in Hi. destruct Hi as [Hi|[Hi|[]]]; [|cbn in Hi; congruence].
        exact (in_back_queue _ _ _ _ Q Hi).
  - (* handed to the transport right away *)
    set (dr := ODraw (now st) (ACK_TIMEOUT tn) (ACK_TIMEOUT tn * ARF_num tn / ARF_den tn) t).
    apply (hist_handed (rid :: seen) ks st1 tr [dr] m ((r, message_id st), (rid, {| h_due := now st + t; h_seq := sq; h_message := m; h_timeout := t; h_counter := 0 |})) st' o2 S1);
      [|rewrite Ex; apply in_xset; left; reflexivity|reflexivity|left; rewrite Eo1; apply in_app_iff; right; left; reflexivity|exact V].
    rewrite En1. cbn [app].
    split.
    + intros x Hx. rewrite copies_app, (Hun x); [|intros Hi; apply Hx; right; exact Hi]. cbn.
      assert (rid =? x = false) as -> by (apply Z.eqb_neq; intros ->; apply Hx; left; reflexivity). reflexivity.
    + intros x. destruct (Z.eq_dec x rid) as [->|Hne].
      * eapply (good_start ks st1 tr _ rid m (now st) t); eauto.
        -- cbn. rewrite Z.eqb_refl. reflexivity.
        -- intros e He Hr. apply Hfresh. rewrite <- Hr. eapply live_exch_seen; eauto.
        -- intros Hi. apply Eb in Hi. apply Hfresh. eapply live_back_seen; eauto.
      * apply (good_frame ks st st1 tr _ x (Hg x)); [|apply (same_for_add x st st1 _ _ Ex Hno); [|exact (Eb x)]].
        -- cbn. assert (rid =? x = false) as -> by (apply Z.eqb_neq; congruence). reflexivity.
        -- intros E. apply Hne. symmetry. exact E.
Qed.


Lemma hist_recv : forall seen ks st tr r mid b st' o, Struct seen st -> Hist seen ks st tr -> Pend ks st -> In (r, mid) ks ->
  _remove_exchange st r mid b = (st', o) -> Hist seen ks st' (tr ++ o).
Proof.
  intros seen ks st tr r mid b st' o S [Hun Hg] [_ Pd2] Hack H.
  destruct (remove_shape _ _ _ _ _ _ _ S H) as [(X & -> & ->)|(mon & h & o1 & o2 & q & X & Q & -> & Ho1c & S' & _ & Hq)].
  - rewrite app_nil_r. split; assumption.
  - destruct (pop_facts seen st _ mon h S X) as (Hin & Hok & Hmon & Hk & _ & Hrest & Hbr & Hnd & Hcnt). cbn [fst] in *.
    assert (Ho1 : forall x, copies x o1 = []) by (intros x; destruct Ho1c as [->|[_ ->]]; reflexivity).
    assert (Gmon : forall stx o2', copies mon o2' = [] -> (forall e, In e (active_exchanges stx) -> e_rid e <> mon) ->
                   (forall x, In x (back_rids (backlogs stx)) -> x <> mon) -> Good ks stx (tr ++ o1 ++ o2') mon).
    { intros stx o2' Hc2 Hex' Hb'. destruct (Hg mon) as (m & T0 & t & n & Hc & Hn & Ht & Hb & Hcl).
      destruct (Ht _ Hin) as (Hm & Hnc & _); [unfold e_rid, e_timer; cbn; auto|]. unfold e_timer in Hm, Hnc. cbn in Hm, Hnc.
      exists m, T0, t, n. splits; auto.
      - rewrite !copies_app, Ho1, Hc2, !app_nil_r. exact Hc.
      - intros e He Hr. exfalso. eapply Hex'; eauto.
      - intros Hi. exfalso. eapply Hb'; eauto.
      - intros _. right. left. rewrite <- Hm, <- Hk. exact Hack. }
    destruct q as [|[m2 mon2] rest].
    + destruct Hq as (-> & Ex' & Eb' & _). split.
      * intros x Hx. rewrite !copies_app, Ho1, !app_nil_r. auto.
      * intros x. destruct (Z.eq_dec x mon) as [->|Hne].
        -- apply Gmon; auto.
           ++ intros e He. rewrite Ex' in He. apply Hrest in He. tauto.
           ++ intros y Hy. apply Hbr. rewrite Eb' in Hy. exact (in_back_qdel_sub _ _ _ Hy).
        -- apply (good_frame ks st st' tr _ x (Hg x)); auto; [rewrite app_nil_r; apply Ho1|].
           apply (same_for_pop seen st st' _ mon h x S X Ex' Hne). rewrite Eb'. apply in_back_qdel_sub.
    + destruct Hq as (-> & Hr2 & Hwf2 & Hseen2 & t & st1 & os2 & Hrg & S1 & En1 & _ & Hkeep & Ex' & Eb' & V & ->).
      set (dr := ODraw (now st) (ACK_TIMEOUT (m_tuning m2)) (ACK_TIMEOUT (m_tuning m2) * ARF_num (m_tuning m2) / ARF_den (m_tuning m2)) t) in *.
      assert (Hq' : In (r, (m2, m_rid m2) :: rest) (backlogs st)) by (apply qget_in; exact Q).
      assert (Hne2 : m_rid m2 <> mon) by (apply Hbr; apply (in_back_rids _ r _ (m2, m_rid m2) Hq'); left; reflexivity).
      assert (Hb2 : forall y, In y (back_rids (backlogs st1)) -> In y (back_rids (backlogs st)) /\ y <> m_rid m2).
      { intros y Hy. pose proof (s_live _ _ S1) as Hl. unfold live_rids in Hl. split.
        - rewrite Eb' in Hy. eapply (in_back_qset_sub _ r _ rest); eauto. intros z Hz. right. exact Hz.
        - intros ->. eapply nodup_app_disjoint; [exact Hl| |exact Hy]. rewrite Ex'. apply in_map_iff. eexists. split; [|apply in_xset; left; reflexivity]. reflexivity. }
      assert (H1 : Hist seen ks st1 (tr ++ o1 ++ [dr; OSend (now st) m2])).
      2:{ rewrite app_assoc. rewrite app_assoc, <- En1 in H1.
          apply (hist_handed seen _ st1 (tr ++ o1) [dr] m2 ((m_remote m2, m_mid m2), (m_rid m2, mk_timer st m2 t 0)) st' os2 S1 H1);
            [rewrite Ex'; apply in_xset; left; reflexivity|reflexivity| |exact V].
          rewrite Hr2. destruct (Pd2 r _ (m2, m_rid m2) Hq' (or_introl eq_refl)) as [Ho|Hgn]; [left; apply Hkeep; auto|right; exact Hgn]. }
      split.
      * intros x Hx. rewrite !copies_app, Ho1, (Hun x Hx). cbn.
        assert (m_rid m2 =? x = false) as -> by (apply Z.eqb_neq; intros <-; tauto). reflexivity.
      * intros x. destruct (Z.eq_dec x mon) as [->|Hne]; [|destruct (Z.eq_dec x (m_rid m2)) as [->|Hne2']].
        -- apply Gmon.
           ++ cbn. assert (m_rid m2 =? mon = false) as -> by (apply Z.eqb_neq; auto). reflexivity.
           ++ intros e He. rewrite Ex' in He. apply in_xset in He. destruct He as [->|[He _]]; [unfold e_rid, e_timer; cbn; auto|]. apply Hrest in He. tauto.
           ++ intros y Hy. apply Hbr. apply Hb2. exact Hy.
        -- (* the next message from the backlog goes out for the first time *)
           destruct (Hg (m_rid m2)) as (m0 & T00 & t0 & n0 & Hc0 & _ & Ht0 & Hb0 & _).
           assert (n0 = O) by (apply Hb0; apply (in_back_rids _ r _ (m2, m_rid m2) Hq'); left; reflexivity). subst n0.
           rewrite app_assoc. eapply (good_start _ st1 (tr ++ o1) _ (m_rid m2) m2 (now st) t); eauto.
           ++ rewrite copies_app, Ho1, Hc0. reflexivity.
           ++ cbn. rewrite Z.eqb_refl. reflexivity.
           ++ intros e He Hr. apply Hrest in He. destruct He as (He & _). destruct (Ht0 e He Hr) as (_ & Hz & _).
              pose proof (s_ex _ _ S) as Hex. rewrite Forall_forall in Hex. specialize (Hex e He). unfold entry_ok in Hex. cbn in Hz. lia.
           ++ intros Hi. apply Hb2 in Hi. tauto.
        -- apply (good_frame ks st st1 tr _ x (Hg x)); auto.
           ++ rewrite copies_app, Ho1. cbn. assert (m_rid m2 =? x = false) as -> by (apply Z.eqb_neq; auto). reflexivity.
           ++ apply (same_for_replace seen st st1 _ mon h _ _ x S X Ex' Hr2 Hne); [|intros Hy; apply Hb2; exact Hy].
              intros E. apply Hne2'. symmetry. exact E.
Qed.

Lemma hist_retransmit : forall seen ks st tr e1 h st' o, Struct seen st -> Hist seen ks st tr -> Pend ks st ->
  In e1 (active_exchanges st) -> e_timer e1 = h -> now st = h_due h ->
  _retransmit st h = (st', o) -> Hist seen ks st' (tr ++ o).
Proof.
  intros seen ks st tr e1 h st' o SS [Hun Hg] [Hp1 Hp2] Hin Hh Hnow H.
  pose proof (retransmit_struct _ _ _ _ _ _ SS Hin Hh H) as Sh. cbv zeta in Sh.
  set (m := h_message h) in *. set (k := (m_remote m, m_mid m)) in *.
  destruct Sh as (S' & _ & En & X & Sh).
  destruct (pop_facts seen st k (m_rid m) h SS X) as (Hin1 & Hok & _ & _ & _ & Hrest & Hbr & Hnd & Hcnt).
  unfold entry_ok in Hok. cbn [e_timer fst snd] in Hok. fold m in Hok. destruct Hok as (_ & _ & Hwf & Hc & _ & Hto & Hseen).
  destruct (Hg (m_rid m)) as (m' & T0 & t & n & Hcp & Hn & Ht & Hb & Hcl).
  destruct (Ht _ Hin1) as (Hm & Hnc & Hto' & Hdue); [reflexivity|]. unfold e_timer in Hm, Hnc, Hto', Hdue. cbn [snd] in Hm, Hnc, Hto', Hdue. fold m in Hm. subst m'.
  assert (Hn0 : n <> O) by lia. destruct (Hn Hn0) as (_ & Hrg & _).
  destruct Sh as [(Hlt & st1 & S1 & En1 & _ & Ex & Eb & Eo & V)|(Heq & -> & Ex & Eb & Eo)].
  - (* retransmission *)
    assert (H1 : Hist seen ks st1 (tr ++ [OSend (now st) m])).
    2:{ rewrite <- En1 in H1.
        apply (hist_handed seen ks st1 tr [] m (k, (m_rid m, mk_timer st m (h_timeout h * 2) (h_counter h + 1))) st' o S1 H1);
          [rewrite Ex; apply in_xset; left; reflexivity|reflexivity| |exact V].
        rewrite Eo. destruct (Hp1 _ Hin1) as [Ho|Hgn]; [left; exact Ho|right; exact Hgn]. }
    split.
    + intros x Hx. rewrite copies_app, (Hun x Hx). cbn. assert (m_rid m =? x = false) as -> by (apply Z.eqb_neq; intros <-; tauto). reflexivity.
    + intros x. destruct (Z.eq_dec x (m_rid m)) as [->|Hne].
      * exists m, T0, t, (S n). splits.
        -- rewrite copies_app, Hcp, sched_of_S. cbn. rewrite Z.eqb_refl. repeat f_equal.
           rewrite Hnow, Hdue. assert (Z.of_nat n = h_counter h + 1) by lia. rewrite H0. reflexivity.
        -- intros _. splits; auto. lia.
        -- intros e He Hr. rewrite Ex in He. apply in_xset in He. destruct He as [->|[He _]].
           ++ unfold e_timer, mk_timer. cbn. splits; auto; try lia.
              ** rewrite Hto'. rewrite pow2_succ by lia. ring.
              ** rewrite Hnow, Hdue, Hto'. rewrite (pow2_succ (h_counter h + 1)) by lia. rewrite pow2_succ by lia. ring.
           ++ apply Hrest in He. destruct He as (_ & _ & He). exfalso. exact (He Hr).
        -- intros Hi. exfalso. unfold in_backlog in Hi. rewrite Eb in Hi. apply (Hbr _ Hi). reflexivity.
        -- intros _. left. eexists. split; [rewrite Ex; apply in_xset; left; reflexivity|]. reflexivity.
      * apply (good_frame ks st st1 tr _ x (Hg x)).
        -- cbn. assert (m_rid m =? x = false) as -> by (apply Z.eqb_neq; auto). reflexivity.
        -- apply (same_for_replace seen st st1 k (m_rid m) h _ _ x SS X Ex eq_refl Hne); [|rewrite Eb; auto].
           intros E. apply Hne. symmetry. exact E.
  - (* giving up *)
    assert (Hco : forall x, copies x (gave_up_outputs st (m_remote m)) = []) by (intros x; apply copies_fails).
    split.
    + intros x Hx. rewrite copies_app, Hco, app_nil_r. auto.
    + intros x. destruct (Z.eq_dec x (m_rid m)) as [->|Hne].
      * exists m, T0, t, n. splits; auto.
        -- rewrite copies_app, Hco, app_nil_r. exact Hcp.
        -- intros e He Hr. rewrite Ex in He. apply Hrest in He. destruct He as (_ & _ & He). exfalso. exact (He Hr).
        -- intros Hi. exfalso. unfold in_backlog in Hi. rewrite Eb in Hi. apply (Hbr (m_rid m)); auto. exact (in_back_qdel_sub _ _ _ Hi).
        -- intros _. right. right. right. left. split; [lia|]. destruct (Hp1 _ Hin1) as [Hout|Hgone]; [left|right; exact Hgone].
           apply in_app_iff. right. unfold gave_up_outputs. apply in_map_iff.
           exists (m_rid m, m_remote m). split.
           ++ cbn [fst]. f_equal. rewrite Hnow, Hdue, Heq. reflexivity.
           ++ apply filter_In. split; [exact Hout|]. cbn. apply Z.eqb_refl.
      * apply (good_frame ks st st' tr _ x (Hg x)); auto.
        apply (same_for_pop seen st st' k (m_rid m) h x SS X Ex Hne). rewrite Eb. apply in_back_qdel_sub.
Qed.

Lemma hist_same_exch : forall seen ks st st' tr o, Hist seen ks st tr ->
  active_exchanges st' = active_exchanges st -> backlogs st' = backlogs st -> (forall t m, ~ In (OSend t m) o) ->
  Hist seen ks st' (tr ++ o).
Proof.
  intros seen ks st st' tr o [Hun Hg] Ex Eb Ho. assert (Hc : forall x, copies x o = []) by (intros x; apply copies_fail_only; exact Ho).
  split.
  - intros x Hx. rewrite copies_app, Hc, app_nil_r. auto.
  - intros x. apply (good_frame ks st st' tr o x (Hg x)); auto. apply (same_for_exch x st st' Ex). rewrite Eb. auto.
Qed.

(* a step first records its event in [ks]; the lemmas above then keep [ks] as it is *)
Lemma hist_ks_mono : forall seen ks ks' st tr, Hist seen ks st tr -> incl ks ks' -> Hist seen ks' st tr.
Proof.
  intros seen ks ks' st tr [Hun Hg] Hk. split; [exact Hun|]. intros x. destruct (Hg x) as (m & T0 & t & n & Hc & Hn & Ht & Hb & Hcl).
  exists m, T0, t, n. splits; auto. intros Hn0. destruct (Hcl Hn0) as [He|Hend]; [left; exact He|right].
  apply (closed_mono ks ks' tr tr x m T0 t n Hk); auto.
Qed.

Fixpoint wf_events (seen : list Z) (evs : list event) : Prop :=
  match evs with [] => True | e :: r => wf_event seen e /\ wf_events (seen_after seen e) r end.
Fixpoint seen_all (seen : list Z) (evs : list event) : list Z :=
  match evs with [] => seen | e :: r => seen_all (seen_after seen e) r end.
Fixpoint ks_all (ks : list (Z * Z)) (evs : list event) : list (Z * Z) :=
  match evs with [] => ks | e :: r => ks_all (ks_after ks e) r end.
(* the (remote, mid) pairs of the ACK / RST / piggy-backed-response datagrams in an event list, [err_key r] for every transport
   error reported for r, [gone_key rid] for every cancellation of / response to request rid *)
Definition recv_keys (evs : list event) : list (Z * Z) := ks_all [] evs.

Lemma ks_after_app : forall ks e, exists l, ks_after ks e = l ++ ks /\ forall ks', ks_after ks' e = l ++ ks'.
Proof.
  intros ks e. destruct e as [rid r tn|r b mid|t| | |r|rid|r ty mid rid|r on]; cbn;
    [exists []|exists [(r, mid)]|exists []|exists []|exists []|exists [err_key r]|exists [gone_key rid]|
     exists (gone_key rid :: (if ty =? 0 then [(r, mid)] else []))|exists []]; unfold ack_keys; try (destruct (ty =? 0)); split; reflexivity.
Qed.
Lemma ks_after_incl : forall ks e, incl ks (ks_after ks e).
Proof. intros ks e. destruct (ks_after_app ks e) as [l [-> _]]. apply incl_appr, incl_refl. Qed.
Lemma ks_all_mono : forall evs ks1 ks2, incl ks1 ks2 -> incl (ks_all ks1 evs) (ks_all ks2 evs).
Proof.
  induction evs as [|e evs IH]; cbn; intros ks1 ks2 Hi; auto. apply IH. destruct (ks_after_app ks1 e) as [l [E1 E2]]. rewrite E1, (E2 ks2).
  intros x Hx. apply in_app_iff in Hx. apply in_app_iff. destruct Hx; auto.
Qed.
Lemma ks_all_incl : forall evs ks, incl ks (ks_all ks evs).
Proof. induction evs as [|e evs IH]; cbn; intros ks x Hx; auto. apply IH. apply ks_after_incl. exact Hx. Qed.
Lemma ks_all_in : forall evs ks k, In k (ks_all ks evs) -> In k ks \/ In k (recv_keys evs).
Proof.
  unfold recv_keys. induction evs as [|e evs IH]; cbn; intros ks k H; auto.
  destruct (ks_after_app ks e) as [l [E1 E2]]. rewrite E1 in H. apply IH in H. destruct H as [H|H].
  - apply in_app_iff in H. destruct H as [H|H]; auto. right. apply ks_all_incl. rewrite (E2 []). apply in_app_iff. auto.
  - right. revert H. apply ks_all_mono. intros x [].
Qed.

Lemma pend_mono : forall ks ks' st, Pend ks st -> incl ks ks' -> Pend ks' st.
Proof.
  intros ks ks' st [P1 P2] Hk. split.
  - intros e He. destruct (P1 e He); auto.
  - intros r q p Hq Hp. destruct (P2 r q p Hq Hp); auto.
Qed.

Lemma pend_dispatch : forall ks st r st' o, Pend ks st -> mm_dispatch_error st r = (st', o) -> Pend ks st'.
Proof.
  intros ks st r st' o [P1 P2] H. unfold mm_dispatch_error, tm_dispatch_error in H. inv H. split; cbn.
  - intros e He. apply filter_In in He. destruct He as [He Hr]. destruct (P1 e He) as [Ho|Hg]; auto. left. apply filter_In. split; auto.
  - intros r' q p Hq Hp. apply in_qdel in Hq. destruct Hq as [Hq Hne]. destruct (P2 r' q p Hq Hp) as [Ho|Hg]; auto. left.
    apply (in_filter_ne snd). auto.
Qed.

Lemma pend_handed : forall ks st1 m st' o, Pend ks st1 -> _send_via_transport st1 m = (st', o) -> Pend ks st'.
Proof. intros ks st1 m st' o P V. destruct (send_via_cases _ _ _ _ V) as [(_ & -> & _)|(_ & D)]; [exact P|eapply pend_dispatch; eauto]. Qed.

Lemma pend_recv : forall seen ks st r mid b st' o, Struct seen st -> Pend ks st -> _remove_exchange st r mid b = (st', o) ->
  Pend ks st'.
Proof.
  intros seen ks st r mid b st' o S [P1 P2] H.
  destruct (remove_shape _ _ _ _ _ _ _ S H) as [(X & -> & ->)|(mon & h & o1 & o2 & q & X & Q & -> & _ & _ & _ & Hq)].
  + split; assumption.
  + destruct (pop_facts seen st _ mon h S X) as (Hin & _ & _ & _ & _ & Hrest & Hbr & _). cbn [fst] in *. pose proof (qget_in _ _ _ Q) as HQ.
    destruct q as [|[m2 mon2] rest].
    * destruct Hq as (_ & Ex' & Eb' & Hkeep). split.
      -- intros e He. rewrite Ex' in He. destruct (Hrest e He) as (He1 & _ & He3). destruct (P1 e He1) as [Ho|Hg]; [left|right; exact Hg]. apply Hkeep; auto.
      -- intros r' q' p Hq' Hp. rewrite Eb' in Hq'. apply in_qdel in Hq'. destruct Hq' as [Hq' _].
         destruct (P2 r' q' p Hq' Hp) as [Ho|Hg]; [left|right; exact Hg]. apply Hkeep; auto. cbn. apply Hbr. eapply in_back_rids; eauto.
    * destruct Hq as (-> & Hr2 & _ & _ & t & st1 & os2 & _ & _ & _ & _ & Hkeep & Ex' & Eb' & V & _).
      apply (pend_handed _ st1 m2 st' os2); [|exact V].
      split.
      -- intros e He. rewrite Ex' in He. apply in_xset in He. destruct He as [->|[He _]].
         ++ unfold e_rid, e_remote, e_timer. cbn. rewrite Hr2. destruct (P2 r _ (m2, m_rid m2) HQ (or_introl eq_refl)) as [Ho|Hg]; [left|right; exact Hg].
            apply Hkeep; auto. cbn. apply Hbr. apply (in_back_rids _ r _ (m2, m_rid m2) HQ). left. reflexivity.
         ++ destruct (Hrest e He) as (He1 & _ & He3). destruct (P1 e He1) as [Ho|Hg]; [left|right; exact Hg]. apply Hkeep; auto.
      -- intros r' q' p Hq' Hp. rewrite Eb' in Hq'. apply in_qset in Hq'.
         assert (exists q0, In (r', q0) (backlogs st) /\ In p q0) as [q0 [Hq0 Hp0]].
         { destruct Hq' as [Hq'|[Hq' _]]; [inv Hq'; exists ((m2, m_rid m2) :: rest); split; auto; right; exact Hp | eauto]. }
         destruct (P2 r' q0 p Hq0 Hp0) as [Ho|Hg]; [left|right; exact Hg]. apply Hkeep; auto. cbn. apply Hbr. eapply in_back_rids; eauto.
Qed.

Lemma pend_forget : forall ks st1 st2 rid, Pend ks st1 -> In (gone_key rid) ks -> active_exchanges st2 = active_exchanges st1 -> backlogs st2 = backlogs st1 ->
  (forall p, In p (outgoing_requests st1) -> fst p <> rid -> In p (outgoing_requests st2)) -> Pend ks st2.
Proof.
  intros ks st1 st2 rid [Q1 Q2] Hgone Ex Eb Hkeep. split.
  - intros e He. rewrite Ex in He. destruct (Q1 e He) as [Ho|Hg]; [|right; exact Hg].
    destruct (Z.eq_dec (e_rid e) rid) as [<-|Hne]; [right; exact Hgone|left; apply Hkeep; auto].
  - intros r' q' p Hq' Hp. rewrite Eb in Hq'. destruct (Q2 r' q' p Hq' Hp) as [Ho|Hg]; [|right; exact Hg].
    destruct (Z.eq_dec (m_rid (fst p)) rid) as [<-|Hne]; [right; exact Hgone|left; apply Hkeep; auto].
Qed.

Lemma pend_retransmit : forall seen ks st x h st' o, Struct seen st -> Pend ks st -> In x (active_exchanges st) -> e_timer x = h ->
  _retransmit st h = (st', o) -> Pend ks st'.
Proof.
  intros seen ks st x h st' o S [P1 P2] Hx Hh H.
  pose proof (retransmit_struct _ _ _ _ _ _ S Hx Hh H) as Sh. cbv zeta in Sh. destruct Sh as (_ & _ & _ & X & Sh).
  destruct (pop_facts seen _ _ _ h S X) as (Hin & _ & _ & _ & _ & Hrest & _). cbn [fst] in Hrest.
  destruct Sh as [(_ & st1 & _ & _ & _ & Ex & Eb & Eo & V)|(_ & _ & Ex & Eb & Eo)].
  - apply (pend_handed ks st1 (h_message h) st' o); [|exact V].
    split.
    + intros e' He'. rewrite Ex in He'. apply in_xset in He'. rewrite Eo. destruct He' as [->|[He' _]]; [apply (P1 _ Hin)|].
      apply P1. apply Hrest in He'. tauto.
    + intros r' q' p Hq' Hp. rewrite Eb in Hq'. rewrite Eo. eauto.
  - split.
    + intros e' He'. rewrite Ex in He'. destruct (Hrest e' He') as (He1' & He2' & _). destruct (P1 e' He1') as [Ho|Hg]; auto. left. rewrite Eo.
      apply (in_filter_ne snd). auto.
    + intros r' q' p Hq' Hp. rewrite Eb in Hq'. apply in_qdel in Hq'. destruct Hq' as [Hq' Hne]. destruct (P2 r' q' p Hq' Hp) as [Ho|Hg]; auto. left. rewrite Eo.
      apply (in_filter_ne snd). auto.
Qed.

Lemma pend_request : forall seen ks st rid r tn st' o, Struct seen st -> Pend ks st -> ~ In rid seen -> wf_tuning tn ->
  tm_request st rid r tn = (st', o) -> Pend ks st'.
Proof.
  intros seen ks st rid r tn st' o S [P1 P2] W1 W2 H.
  pose proof (request_shape _ _ _ _ _ _ _ S W1 W2 H) as Sh. cbv zeta in Sh.
  destruct Sh as (_ & _ & [(q & Q & -> & Ex & Eb & Eo)|(Q & Hno & t & sq & st1 & o2 & Hrg & S1 & En1 & Eo & _ & Ex & Eb & Ebl & V & _)]).
  - split.
    + intros e He. rewrite Ex in He. destruct (P1 e He) as [Ho|Hg]; auto. left. rewrite Eo. apply in_app_iff. auto.
    + intros r' q' p Hq Hp. rewrite Eb in Hq. apply in_qset in Hq. destruct Hq as [Hq|[Hq _]].
      * inv Hq. apply in_app_iff in Hp. destruct Hp as [Hp|[<-|[]]].
        -- destruct (P2 r q p (qget_in _ _ _ Q) Hp) as [Ho|Hg]; auto. left. rewrite Eo. apply in_app_iff. auto.
        -- left. rewrite Eo. apply in_app_iff. right. left. reflexivity.
      * destruct (P2 r' q' p Hq Hp) as [Ho|Hg]; auto. left. rewrite Eo. apply in_app_iff. auto.
  - apply (pend_handed ks st1 {| m_remote := r; m_mid := message_id st; m_rid := rid; m_tuning := tn |} st' o2); [|exact V].
    split.
    + intros e He. rewrite Ex in He. apply in_xset in He. destruct He as [->|[He _]].
      * left. rewrite Eo. apply in_app_iff. right. left. reflexivity.
      * destruct (P1 e He) as [Ho|Hg]; auto. left. rewrite Eo. apply in_app_iff. auto.
    + intros r' q' p Hq Hp. destruct (Ebl _ Hq) as [Hq'|Hq']; [|inv Hq'; inv Hp].
      destruct (P2 r' q' p Hq' Hp) as [Ho|Hg]; auto. left. rewrite Eo. apply in_app_iff. auto.
Qed.

Lemma step_hist : forall seen ks st tr e st' o, Struct seen st -> Hist seen ks st tr -> Pend ks st -> wf_event seen e -> step st e = (st', o) ->
  Hist (seen_after seen e) (ks_after ks e) st' (tr ++ o) /\ Pend (ks_after ks e) st'.
Proof.
  intros seen ks st tr e st' o S Hh Hp W H.
  apply (hist_ks_mono seen ks (ks_after ks e)) in Hh; [|apply ks_after_incl]. apply (pend_mono ks (ks_after ks e)) in Hp; [|apply ks_after_incl].
  destruct e as [rid r tn|r b mid|t| | |r|rid|r ty mid rid|r on]; cbn [step seen_after ks_after] in *.
  - (* ERequest *) destruct W as [W1 W2]. split; [eapply hist_request; eauto|eapply pend_request; eauto].
  - (* ERecv *) split; [eapply hist_recv; eauto; left; reflexivity|eapply pend_recv; eauto].
  - (* EWaitUntil *) inv H. rewrite app_nil_r. auto.
  - (* EFire *) destruct (fire_cases _ _ _ _ _ S (or_introl eq_refl) H) as [(-> & -> & _)|(h & x & sta & _ & -> & Sa & Hx & Hxh & Hn & R)]; [rewrite app_nil_r; auto|].
    split; [exact (hist_retransmit _ _ _ _ _ _ _ _ Sa Hh Hp Hx Hxh Hn R)|exact (pend_retransmit _ _ _ _ _ _ _ Sa Hp Hx Hxh R)].
  - (* EFireDue *) destruct (fire_cases _ _ _ _ _ S (or_intror eq_refl) H) as [(-> & -> & _)|(h & x & sta & _ & -> & Sa & Hx & Hxh & Hn & R)]; [rewrite app_nil_r; auto|].
    split; [exact (hist_retransmit _ _ _ _ _ _ _ _ Sa Hh Hp Hx Hxh Hn R)|exact (pend_retransmit _ _ _ _ _ _ _ Sa Hp Hx Hxh R)].
  - (* EError *) split; [eapply hist_dispatch; eauto|eapply pend_dispatch; eauto].
  - (* ECancel *) inv H. split; [apply (hist_same_exch seen _ st); auto|].
    apply (pend_forget _ st _ rid Hp); [left; reflexivity|reflexivity|reflexivity|]. intros p Hp' Hf. apply (in_filter_ne fst). auto.
  - (* EResponse *) destruct (response_shape _ _ _ _ _ _ _ _ S H) as (st1 & o1 & st2 & o2 & o3 & E1 & -> & S1 & Hn1 & S2 & En & Ex & Eb & Hinc & Hkeep & Ho2 & Hcase).
    set (K := gone_key rid :: ack_keys r ty mid ks) in *.
    assert (H1 : Hist seen K st1 (tr ++ o1) /\ Pend K st1).
    { revert E1. destruct (ty =? 0) eqn:T; intros E1.
      - assert (Hack : In (r, mid) K) by (unfold K, ack_keys; rewrite T; right; left; reflexivity).
        split; [apply (hist_recv seen K st tr r mid false st1 o1 S Hh Hp Hack E1)|apply (pend_recv seen K st r mid false st1 o1 S Hp E1)].
      - inv E1. rewrite app_nil_r. split; auto. }
    destruct H1 as [H1 P1].
    assert (H2 : Hist seen K st2 ((tr ++ o1) ++ o2)).
    { apply (hist_same_exch seen K st1); auto. destruct Ho2 as [->| ->]; intros t m Hi; cbn in Hi; intuition discriminate. }
    pose proof (pend_forget _ _ _ rid P1 (or_introl eq_refl) Ex Eb Hkeep) as P2.
    replace (tr ++ o1 ++ o2 ++ o3) with (((tr ++ o1) ++ o2) ++ o3) by (rewrite !app_assoc; reflexivity).
    destruct Hcase as [(-> & Ho3)|(_ & D)].
    + split; [|exact P2]. apply (hist_same_exch seen K st2); auto. destruct Ho3 as [->|[b ->]]; intros t m Hi; cbn in Hi; intuition discriminate.
    + split; [eapply hist_dispatch; eauto|eapply pend_dispatch; eauto].
  - (* ERefuse *) inv H. rewrite app_nil_r. auto.
Qed.

Lemma run_inv : forall evs seen ks st tr st' os, Struct seen st -> Hist seen ks st tr -> Pend ks st -> wf_events seen evs ->
  run st evs = (st', os) ->
  Struct (seen_all seen evs) st' /\ Hist (seen_all seen evs) (ks_all ks evs) st' (tr ++ concat os) /\ no_error (concat os) /\
  Pend (ks_all ks evs) st'.
Proof.
  induction evs as [|e evs IH]; intros seen ks st tr st' os S Hh Hp W H; cbn in H.
  - inv H. cbn. rewrite app_nil_r. splits; auto. apply no_error_nil.
  - destruct (step st e) as [st1 o] eqn:E. destruct (run st1 evs) as [st2 os2] eqn:R. inv H. destruct W as [W1 W2].
    destruct (step_struct _ _ _ _ _ S W1 E) as [S1 Hn1]. destruct (step_hist _ _ _ _ _ _ _ S Hh Hp W1 E) as [Hh1 Hp1].
    destruct (IH _ _ _ _ _ _ S1 Hh1 Hp1 W2 R) as (S2 & Hh2 & Hn2 & Hp2). cbn. rewrite app_assoc. splits; auto. apply no_error_app; auto.
Qed.

Lemma pend_init : forall mid0 draws, Pend [] (init mid0 draws).
Proof. intros. split; cbn; intros; tauto. Qed.

Lemma hist_init : forall mid0 draws, Hist [] [] (init mid0 draws) [].
Proof.
  intros. split; [reflexivity|]. intros rid. exists {| m_remote := 0; m_mid := 0; m_rid := 0; m_tuning := {| ACK_TIMEOUT := 0; ARF_num := 0; ARF_den := 0; MAX_RETRANSMIT := 0 |} |}, 0, 0, O.
  splits; try tauto; try reflexivity. intros e He. inv He.
Qed.
