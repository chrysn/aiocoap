(* C15 — the CSM gate for the spool loop, for every event and over whole event histories. *)
From Verif Require Import Lib.Py Lib.Tactics Lib.PyLemmas Gen.options_ext Gen.tcp_framing Model.C15 Proofs.C15Framing Proofs.C15Codec Proofs.C15Conn Proofs.C15Interleave.
Open Scope Z_scope.

Definition nodisp (o : list out) : Prop := existsb is_dispatch o = false.
Lemma nodisp_app a b : nodisp a -> nodisp b -> nodisp (a ++ b).
Proof. unfold nodisp. intros Ha Hb. rewrite existsb_app, Ha, Hb. reflexivity. Qed.
Lemma nodisp_app_inv a b : nodisp (a ++ b) -> nodisp a /\ nodisp b.
Proof. unfold nodisp. rewrite existsb_app. intros H. apply orb_false_elim in H. exact H. Qed.

(* from state [c] to state [c1] with outputs [o1]: settings once set stay set; without settings nothing is dispatched *)
Definition gate_post (c c1 : conn) (o1 : list out) : Prop :=
  (remote_settings c <> None -> remote_settings c1 <> None) /\ (remote_settings c1 = None -> nodisp o1).

Lemma gate_refl c o : nodisp o -> gate_post c c o.
Proof. split; auto. Qed.
Lemma gate_trans c c1 c2 o1 o2 : gate_post c c1 o1 -> gate_post c1 c2 o2 -> gate_post c c2 (o1 ++ o2).
Proof.
  intros [G1 G2] [I1 I2]. split; [auto|]. intros H2. apply nodisp_app; [|auto].
  apply G2. destruct (remote_settings c1); [destruct (I1 ltac:(discriminate) H2)|reflexivity].
Qed.

Lemma effect_gate c c' st x : remote_settings c' = remote_settings c ->
  (existsb is_dispatch (outs x) = true -> remote_settings c <> None) ->
  gate_post c (keep st (act x c')) (outs x).
Proof.
  intros Hrs Hd. split.
  - intros Hc. destruct st, x; cbn; rewrite ?Hrs; (discriminate || exact Hc).
  - intros H1. unfold nodisp. destruct (existsb is_dispatch (outs x)); [|reflexivity].
    destruct (Hd eq_refl). rewrite <- Hrs. destruct st, x; (discriminate H1 || exact H1).
Qed.

Lemma loop_gate : forall c, bytes_ok (spool c) = true -> closed c = false ->
  let '(c1, o1, _) := loop' c in gate_post c c1 o1.
Proof.
  apply (loop'_ind (fun c r => closed c = false -> let '(c1, o1, _) := r in gate_post c c1 o1)).
  - intros c _ _ _. apply gate_refl. reflexivity.
  - intros c _ _ _. destruct (abort_effect txt_overly_large None) as (x & _ & Hd & H). rewrite H.
    apply (effect_gate c c None x eq_refl). rewrite Hd. discriminate.
  - intros c f r c1 o1 _ _ FS Hcl. destruct (frame_step_effect c f r Hcl) as (st & x & sp & E & _ & Hd).
    rewrite FS in E. injection E as -> -> _. exact (effect_gate c (set_spool c sp) st x eq_refl Hd).
  - intros c f r c1 o1 _ _ FS _ _ IH Hcl. destruct (frame_step_effect c f r Hcl) as (st & x & sp & E & _ & Hd).
    rewrite FS in E. destruct (stays x) eqn:Hs; [|discriminate E]. injection E as -> ->.
    assert (Hcl1 : closed (keep st (act x (set_spool c sp))) = false) by (destruct st, x; try discriminate Hs; exact Hcl).
    specialize (IH Hcl1). destruct (loop' _) as [[c2 o2] k]. exact (gate_trans _ _ _ _ _ (effect_gate c (set_spool c sp) st x eq_refl Hd) IH).
Qed.

Lemma step_gate c e : bytes_ok (spool c) = true -> data_ok e -> let '(c1, o1) := step c e in gate_post c c1 o1.
Proof.
  intros Hok He. apply (step_cases (fun r => let '(c1, o1) := r in gate_post c c1 o1)); [exact (gate_refl c)|]. intros d -> Hcl.
  pose proof (loop_gate _ (feed_ok c d Hok He) Hcl) as HG. destruct (loop' (feed c d)) as [[c1 o1] k]. exact HG.
Qed.

Lemma csm_gate_run : forall es c, bytes_ok (spool c) = true -> Forall data_ok es ->
  let '(c1, o1) := run c es in gate_post c c1 o1.
Proof.
  induction es as [|e es IH]; intros c Hok Hes; [apply gate_refl; reflexivity|].
  inversion Hes as [|? ? He Hes']; subst. rewrite run_cons.
  pose proof (step_gate c e Hok He) as G. pose proof (step_bytes_ok c e Hok He) as Hok1. destruct (step c e) as [c1 o1].
  destruct (existsb is_escaped o1); [exact G|].
  specialize (IH c1 Hok1 Hes'). destruct (run c1 es) as [c2 o2]. exact (gate_trans _ _ _ _ _ G IH).
Qed.
