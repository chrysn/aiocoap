(* C19 — a client loop that fetches block after block until the M flag is clear, driven only by the server's answers
   (it does not know the file): the payloads it receives concatenate to exactly the file, and with a constant size
   exponent it sends exactly ceil(len/size) requests (1 for the empty file).  The k-th request carries its own
   exponent [pol k] (any non-increasing sequence: that keeps every offset aligned), the block number computed from the
   bytes received so far as aiocoap's client does (message.py _generate_next_block2_request: number + len(payload) // size,
   rescaled to the new size). *)
From Verif Require Import Lib.Py Lib.PyLemmas Lib.Tactics Model.C19Path Gen.fileserver Model.C19 Proofs.C19Path Proofs.C19.
Open Scope Z_scope.

(* ceil(len/size), at least 1: even the empty file costs one request *)
Definition ceil_blocks (len size : Z) : Z := Z.max 1 ((len + size - 1) / size).

Lemma ceil_blocks_step L s : 0 < s -> s < L -> ceil_blocks L s = 1 + ceil_blocks (L - s) s.
Proof. intros Hs HL. unfold ceil_blocks. replace (L + s - 1) with ((L - s + s - 1) + 1 * s) by lia. rewrite Z_div_plus by lia.
  assert (1 <= (L - s + s - 1) / s) by (apply Z.div_le_lower_bound; lia). lia. Qed.
Lemma ceil_blocks_last L s : 0 < s -> L <= s -> ceil_blocks L s = 1.
Proof. intros Hs HL. unfold ceil_blocks. assert ((L + s - 1) / s < 2) by (apply Z.div_lt_upper_bound; lia). lia. Qed.
Lemma ceil_blocks_exact L s : 0 < s -> 0 < L -> (ceil_blocks L s - 1) * s < L <= ceil_blocks L s * s.
Proof. intros Hs HL. unfold ceil_blocks. pose proof (Z.div_mod (L + s - 1) s ltac:(lia)) as E. pose proof (Z.mod_pos_bound (L + s - 1) s Hs) as B.
  assert (1 <= (L + s - 1) / s) by (apply Z.div_le_lower_bound; lia). rewrite Z.max_r by lia. nia. Qed.

Section ClientLoop.
  Variable self : fileserver.
  Variable req : request.
  Variable p : list (list Z).
  Variable c : list Z.
  Hypothesis Hcode : code req = 1.
  Hypothesis Hobs : opt_observe req = None.
  Hypothesis Hetags : existsb is_cur (opt_etags req) = false.
  Hypothesis Hnba : needs_blockwise_assembly req = false.
  Hypothesis Hpath : request_to_localpath self req = Ok p.

  (* [off] = bytes received so far; request k asks for block off / size_k with exponent pol k and M clear *)
  Fixpoint fetch_var (fuel : nat) (pol : nat -> Z) (k : nat) (off : Z) (st : state) : state * list (list effect * response) :=
    let '(st1, effs, r) := serve self (with_block2 req (Some (off / blk_size (pol k), false, pol k))) st in
    if has_more r then
      match fuel with
      | O => (st1, [(effs, r)])
      | Datatypes.S f => let '(st2, rs) := fetch_var f pol (Datatypes.S k) (off + blen (payload_of r)) st1 in (st2, (effs, r) :: rs)
      end
    else (st1, [(effs, r)]).

  Variable pol : nat -> Z.
  Hypothesis Hpol0 : forall k, 0 <= pol k.
  Hypothesis Hpolmono : forall k, pol (Datatypes.S k) <= pol k.

  (* One step of the loop at an aligned offset: the answer is the block that starts at [off]; either nothing follows it and
     it is the rest of the file, or it is full, the rest of the file follows it, and the next offset is aligned again. *)
  Lemma fetch_step k off st : 0 <= off -> (blk_size (pol k) | off) -> fs_stat (st_fs st) (load_parts p) = inr (NFile c) ->
    exists n st1 effs, serve self (with_block2 req (Some (off / blk_size (pol k), false, pol k))) st = (st1, effs, block_response self req c n (pol k))
      /\ st_fs st1 = st_fs st
      /\ (if block_more c n (pol k)
          then blen (block_payload c n (pol k)) = blk_size (pol k) /\ blk_size (pol k) < blen (bfrom c off)
               /\ bfrom c off = block_payload c n (pol k) ++ bfrom c (off + blk_size (pol k))
               /\ (blk_size (pol (Datatypes.S k)) | off + blk_size (pol k))
          else block_payload c n (pol k) = bfrom c off /\ blen (bfrom c off) <= blk_size (pol k)).
  Proof.
    intros Hoff [q Hq] Hst. pose proof (Hpol0 k) as Hszx. pose proof (blk_size_pos (pol k) Hszx) as Hpos.
    assert (off / blk_size (pol k) = q) as Hn by (subst off; apply Z.div_mul; lia).
    assert (0 <= q) as Hq0 by nia. assert (blk_start q (pol k) = off) as Hstart by (unfold blk_start; lia).
    rewrite Hn. destruct (serve_block self req p c Hcode Hobs Hetags Hnba Hpath (Some (q, false, pol k)) q false (pol k) st eq_refl Hst) as [st1 [effs [Hs H1]]].
    exists q, st1, effs. split; [exact Hs|]. split; [exact H1|].
    pose proof (block_more_spec c q (pol k) Hszx) as Em. rewrite Hstart in Em.
    destruct (block_more c q (pol k)) eqn:Eb.
    - split; [apply block_payload_len_more; assumption|]. split; [lia|].
      split; [pose proof (block_split_at c q (pol k) Hq0 Hszx) as Hsp; rewrite Hstart in Hsp; exact Hsp|].
      pose proof (blk_size_divide (pol (Datatypes.S k)) (pol k) (Hpol0 (Datatypes.S k)) (Hpolmono k)) as D.
      apply Z.divide_add_r; [apply (Z.divide_trans _ _ _ D); exists q; exact Hq|exact D].
    - split; [rewrite <- Hstart; apply block_last; assumption|lia].
  Qed.

  Lemma fetch_var_spec : forall fuel k off st, 0 <= off -> (blk_size (pol k) | off) ->
    fs_stat (st_fs st) (load_parts p) = inr (NFile c) -> (length (bfrom c off) <= fuel)%nat ->
    match fetch_var fuel pol k off st with
    | (st', outs) => (concat (map (fun o => payload_of (snd o)) outs) = bfrom c off
                      /\ Forall (fun o => rcode (snd o) = 69) outs /\ st_fs st' = st_fs st
                      /\ (length outs <= Datatypes.S (length (bfrom c off) / 16))%nat)
                     /\ forall szx, (forall j, pol j = szx) ->
                          Z.of_nat (length outs) = ceil_blocks (blen (bfrom c off)) (blk_size szx)
    end.
  Proof.
    induction fuel as [|f IH]; intros k off st Hoff Hdiv Hst Hlen; cbn [fetch_var];
      destruct (fetch_step k off st Hoff Hdiv Hst) as (n & st1 & effs & -> & H1 & Hm); rewrite has_more_block;
      pose proof (blk_size_pos (pol k) (Hpol0 k)) as Hpos; unfold blen in *; destruct (block_more c n (pol k)).
    2, 4: (* M clear: the answer is the rest of the file, at most one block *)
      destruct Hm as [Hlast Hle]; cbn [map concat snd payload_of block_response rbody length]; rewrite app_nil_r, Hlast;
      (split; [split; [reflexivity|split; [repeat constructor|split; [exact H1|lia]]]|]);
      intros szx Hc; rewrite <- (Hc k), ceil_blocks_last; lia.
    all: destruct Hm as (Hl & Hlt & Hsplit & Hdiv1).
    - (* M set and no fuel left: but the rest is longer than a block *) lia.
    - cbn [payload_of block_response rbody]. rewrite Hl.
      assert (length (bfrom c off) = (length (bfrom c (off + blk_size (pol k))) + Z.to_nat (blk_size (pol k)))%nat) as El
        by (rewrite Hsplit at 1; rewrite app_length; lia).
      assert (fs_stat (st_fs st1) (load_parts p) = inr (NFile c)) as Hst1 by (rewrite H1; exact Hst).
      specialize (IH (Datatypes.S k) (off + blk_size (pol k)) st1 ltac:(lia) Hdiv1 Hst1 ltac:(lia)).
      destruct (fetch_var f pol (Datatypes.S k) (off + blk_size (pol k)) st1) as [st2 rs]. destruct IH as [[I1 [I2 [I3 I4]]] I5].
      cbn [map concat snd payload_of block_response rbody length]. rewrite I1. split.
      + split; [symmetry; exact Hsplit|]. split; [constructor; [reflexivity|exact I2]|]. split; [congruence|].
        (* the block just received had at least 16 bytes *)
        assert (length (bfrom c (off + blk_size (pol k))) / 16 + 1 <= length (bfrom c off) / 16)%nat
          by (rewrite El; apply Nat.div_le_lower_bound; [lia|]; pose proof (Nat.mul_div_le (length (bfrom c (off + blk_size (pol k)))) 16); lia).
        lia.
      + intros szx Hc. rewrite Nat2Z.inj_succ, (I5 szx Hc), <- (Hc k), (ceil_blocks_step (Z.of_nat (length (bfrom c off)))) by lia.
        replace (Z.of_nat (length (bfrom c off)) - blk_size (pol k)) with (Z.of_nat (length (bfrom c (off + blk_size (pol k))))) by lia. lia.
  Qed.
End ClientLoop.
