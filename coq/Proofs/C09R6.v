(* C09 — whole runs: exactly one datagram on the wire for a request that is answered at once or is NON; the message
   layer's internal assertion (backlogs/active_exchange relation) is unreachable; the side conditions are derivable *)
From Verif Require Import Lib.Py Lib.Tactics Model.C09 Model.C09Stack Proofs.C09 Proofs.C09Stack Proofs.C09Wire.
Open Scope Z_scope.

(* log records do not reach the message layer *)
Lemma perform_sends : forall acts s r, fst (perform s r (filter is_send acts)) = fst (perform s r acts).
Proof.
  induction acts as [|[m l|lg] acts IH]; intros s r; cbn [filter is_send perform]; [reflexivity| |].
  - destruct (send_message s r (tm_fill r m)) as [s1 w]. specialize (IH s1 r).
    destruct (perform s1 r (filter is_send acts)) as [[s2 w2] l2], (perform s1 r acts) as [[s3 w3] l3]. cbn [fst] in *. congruence.
  - specialize (IH s r). destruct (perform s r (filter is_send acts)) as [[s2 w2] l2], (perform s r acts) as [[s3 w3] l3]. exact IH.
Qed.

Lemma run_entry_emits srv s e m : e_pipes e = live -> finalising srv (e_req e) -> final_message srv (e_req e) = Some m ->
  r_con (e_req e) = false \/ lookup_piggy (key_of (e_req e)) (s_piggy s) <> None ->
  is_response (code_of m) = true -> suppressed (tm_fill (e_req e) m) = false ->
  exists w, out_of (run_entry srv s e) = [w] /\ is_answer (eid e) w = true.
Proof.
  intros He Hn Hm Hc Hr Hs. unfold run_entry, out_of. rewrite He.
  destruct (coroutine_final_once srv (e_req e) Hn) as (m' & acts & n & Hm' & -> & Hf). rewrite Hm in Hm'. injection Hm' as <-.
  match goal with |- context [perform ?s0 ?r0 acts] =>
    pose proof (perform_sends acts s0 r0) as Hp; rewrite Hf, perform_send in Hp;
    destruct (response_on_wire_at_once s0 r0 (tm_fill r0 m) Hr Hs Hc) as (t & mid & Hw & Ha);
    destruct (send_message s0 r0 (tm_fill r0 m)) as [s1 w1]; destruct (perform s0 r0 acts) as [[s2 w] l] end.
  cbn [fst snd] in *. subst w1. injection Hp as _ <-. eexists. split; [reflexivity|exact Ha].
Qed.

Definition mid_ok (id : Z) (r : request) (ev : sevent) : Prop :=
  match ev with
  | Req r' => key_eqb (key_of r') (key_of r) = false
  | Done j => j <> id
  | _ => True
  end.

Lemma run_app_fst srv : forall a s b, fst (run srv s (a ++ b)) = fst (run srv (fst (run srv s a)) b).
Proof.
  induction a as [|ev a IH]; intros s b; [reflexivity|]. cbn [app]. rewrite !run_cons_fst. apply IH.
Qed.
Lemma run_app_wires srv : forall a s b,
  wires (snd (run srv s (a ++ b))) = wires (snd (run srv s a)) ++ wires (snd (run srv (fst (run srv s a)) b)).
Proof.
  induction a as [|ev a IH]; intros s b; [reflexivity|]. cbn [app]. rewrite !run_cons_wires, run_cons_fst, IH, app_assoc. reflexivity.
Qed.
Lemma req_ids_app a b : req_ids (a ++ b) = req_ids a ++ req_ids b.
Proof. unfold req_ids. apply flat_map_app. Qed.

(* a CON request registers its piggy-back opportunity before anything is rendered *)
Lemma lookup_piggy_snoc k v l : lookup_piggy k (remove_piggy k l ++ [(k, v)]) = Some v.
Proof.
  assert (Hk: key_eqb k k = true).
  { unfold key_eqb. rewrite Z.eqb_refl. cbn. unfold beqb. induction (snd k) as [|x t IH]; [reflexivity|]. cbn. rewrite Z.eqb_refl. exact IH. }
  induction l as [|[k' v'] l IH]; cbn [remove_piggy filter fst app lookup_piggy].
  - rewrite Hk. reflexivity.
  - unfold remove_piggy in *. destruct (key_eqb k k') eqn:E; cbn [negb]; [exact IH|]. cbn [app lookup_piggy]. rewrite E. exact IH.
Qed.
Lemma arrive_piggy s r : r_con r = true ->
  lookup_piggy (key_of r) (s_piggy (arrive s r)) = Some (r_mid r, s_now s + EMPTY_ACK_DELAY).
Proof. intros Hc. unfold arrive. rewrite Hc. apply lookup_piggy_snoc. Qed.

Lemma arrival_on_wire srv s r mid m post :
  Inv s -> fresh s (Req r :: mid ++ Done (r_id r) :: post) ->
  finalising srv r -> final_message srv r = Some m ->
  r_con r = false \/ r_slow r && reaches_handler srv r = false ->
  is_response (code_of m) = true -> suppressed (tm_fill r m) = false ->
  Forall (mid_ok (r_id r) r) mid ->
  exists w, In w (wires (snd (run srv s (Req r :: mid ++ Done (r_id r) :: post)))) /\ is_answer (r_id r) w = true.
Proof.
  intros HI Hf Hn Hm Hc Hr Hs Hmid.
  destruct (own_turn srv s r mid post HI Hf Hmid) as (pre & ev & rest & -> & Hev & HI' & _ & Et & _).
  assert (Hc': r_con r = false \/ lookup_piggy (key_of r) (s_piggy (fst (settle (fst (run srv s pre)) ev))) <> None).
  { destruct (r_con r) eqn:Econ; [right|left; reflexivity]. destruct Hev as [->|Hsl]; [|destruct Hc; congruence].
    cbn [settle fst]. rewrite (arrive_piggy _ r Econ). discriminate. }
  destruct (run_entry_emits srv _ (new_entry r) m eq_refl Hn Hm Hc' Hr Hs) as (w & Hout & Ha).
  exists w. split; [|exact Ha]. rewrite run_app_wires, run_cons_wires, (step_phases srv _ ev HI'), Et, Hout.
  apply in_or_app. right. left. reflexivity.
Qed.

Lemma wire_exactly_one srv mid0 pre r mid post m :
  NoDup (req_ids (pre ++ Req r :: mid ++ Done (r_id r) :: post)) ->
  finalising srv r -> final_message srv r = Some m ->
  r_con r = false \/ r_slow r && reaches_handler srv r = false ->
  is_response (code_of m) = true -> suppressed (tm_fill r m) = false ->
  Forall (mid_ok (r_id r) r) mid ->
  exists w, answers (r_id r) (wires (snd (run srv (init_state mid0) (pre ++ Req r :: mid ++ Done (r_id r) :: post)))) = [w] /\ carries r m w.
Proof.
  intros Hnd Hn Hm Hc Hr Hs Hmid.
  set (evs := pre ++ Req r :: mid ++ Done (r_id r) :: post) in *.
  assert (Hin: In (Req r) evs) by (subst evs; apply in_or_app; right; left; reflexivity).
  destruct (wire_at_most_one srv mid0 evs r m Hnd Hin Hn Hm) as (Hle & Hcar).
  destruct (run_ok srv pre (init_state mid0) (Req r :: mid ++ Done (r_id r) :: post) (init_inv mid0) (init_fresh mid0 _ Hnd)) as (HI & Hf).
  destruct (arrival_on_wire srv _ r mid m post HI Hf Hn Hm Hc Hr Hs Hmid) as (w & Hw & Ha).
  assert (Hw': In w (answers (r_id r) (wires (snd (run srv (init_state mid0) evs))))).
  { unfold answers. apply filter_In. split; [|exact Ha]. subst evs. rewrite run_app_wires. apply in_or_app. right. exact Hw. }
  destruct (answers (r_id r) (wires (snd (run srv (init_state mid0) evs)))) as [|w0 [|w1 rest]] eqn:E.
  - destruct Hw'.
  - exists w0. split; [reflexivity|]. apply Hcar. left. reflexivity.
  - cbn in Hle. lia.
Qed.

(* "keys exist iff there is an active_exchange with that node" — the direction the code relies on *)
Definition BacklogInv (s : state) : Prop := forall remote, has_active s remote = true -> has_backlog s remote = true.

Lemma send_initially_binv s w : BacklogInv s -> BacklogInv (fst (send_initially s w)).
Proof.
  intros HB. unfold send_initially. destruct (w_type w =? T_CON); [|exact HB].
  destruct (has_backlog s (w_remote w)) eqn:Eb; intros x; unfold has_active, has_backlog; cbn [fst s_active s_backlog set_active set_backlog];
    rewrite existsb_app; cbn [existsb fst]; rewrite orb_false_r; intros H.
  - apply orb_prop in H as [H|H]; [apply HB; exact H|]. assert (x = w_remote w) as -> by lia. exact Eb.
  - rewrite existsb_app. cbn [existsb fst]. rewrite orb_false_r.
    apply orb_prop in H as [H|H]; [pose proof (HB x H) as H'; unfold has_backlog in H'; rewrite H'; reflexivity|]. rewrite H. apply orb_true_r.
Qed.
Lemma send_plain_binv s r m : BacklogInv s -> BacklogInv (fst (send_plain s r m)).
Proof.
  intros HB. destruct (send_plain_shape s r m) as [->|(l1 & b & l2 & El & ->)]; [apply send_initially_binv; exact HB|].
  intros x Hx. generalize (HB x Hx). unfold has_backlog. cbn [fst s_backlog set_backlog set_mid]. rewrite El, !existsb_app.
  intros H; exact H.
Qed.
Lemma send_message_binv s r m : BacklogInv s -> BacklogInv (fst (send_message s r m)).
Proof.
  intros HB. destruct (send_message_shape s r m) as [->|[->|(mid & ->)]];
    [exact HB|apply send_plain_binv; exact HB|apply send_initially_binv; exact HB].
Qed.
Lemma run_entry_binv srv s e : BacklogInv s -> BacklogInv (fst (run_entry srv s e)).
Proof.
  intros HB. unfold run_entry. destruct (run_ractions (e_pipes e) (respond srv (e_req e))) as [[q acts] n].
  match goal with |- context [perform ?s0 ?r0 acts] =>
    pose proof (perform_preserves BacklogInv send_message_binv acts s0 r0 HB) as H; destruct (perform s0 r0 acts) as [[s2 w] l] end.
  exact H.
Qed.
Lemma arrive_binv s r : BacklogInv s -> BacklogInv (arrive s r).
Proof. intros HB. unfold arrive. destruct (r_con r); exact HB. Qed.
Lemma continue_backlog_binv s remote : BacklogInv s -> BacklogInv (fst (continue_backlog s remote)).
Proof.
  intros HB. destruct (continue_backlog_shape s remote) as [->|(l1 & b & l2 & El & Ea & ->)]; [exact HB|]. destruct b as [|w rest].
  - intros x Hx. generalize (HB x Hx). unfold has_backlog. cbn [fst s_backlog set_backlog]. rewrite El, !existsb_app.
    cbn [existsb fst]. replace (remote =? x) with false; [intros H; exact H|].
    symmetry. apply Z.eqb_neq. intros ->. change (has_active s x = true) in Hx. congruence.
  - apply send_initially_binv. intros x Hx. generalize (HB x Hx). unfold has_backlog. cbn [s_backlog set_backlog].
    rewrite El, !existsb_app. intros H; exact H.
Qed.
(* the acknowledged exchange was there: the table lost one entry for [remote], nothing else *)
Lemma remove_first_active_has remote l a x : remove_first_active remote l = Some a ->
  existsb (fun y => fst y =? x) l = (remote =? x) || existsb (fun y => fst y =? x) a.
Proof.
  revert a. induction l as [|[q m] l IH]; intros a; [discriminate|]. cbn [remove_first_active]. destruct (q =? remote) eqn:E.
  - intros [= <-]. apply Z.eqb_eq in E. subst q. reflexivity.
  - destruct (remove_first_active remote l) as [a'|]; [|discriminate]. intros [= <-]. cbn [existsb fst]. rewrite (IH a' eq_refl).
    destruct (q =? x), (remote =? x); reflexivity.
Qed.

Lemma settle_binv s ev : BacklogInv s -> BacklogInv (fst (settle s ev)).
Proof.
  intros HB. destruct ev as [r|j|us|remote]; cbn [settle fst]; [apply arrive_binv; exact HB|exact HB| |].
  - unfold step_tick. destruct (fire_piggy (s_now s + us) (s_piggy s)) as [keep out]. exact HB.
  - unfold step_ack. destruct (remove_first_active remote (s_active s)) as [a|] eqn:E; [|exact HB].
    apply continue_backlog_binv. intros x H. apply HB. unfold has_active in *. rewrite (remove_first_active_has _ _ _ x E).
    cbn [s_active set_active] in H. rewrite H. apply orb_true_r.
Qed.
Lemma step_binv srv s ev : Inv s -> BacklogInv s -> BacklogInv (fst (step srv s ev)).
Proof.
  intros HI HB. rewrite (step_phases srv s ev HI). destruct (turn srv s ev); [apply run_entry_binv|]; exact (settle_binv s ev HB).
Qed.
Lemma run_binv srv : forall evs s, Inv s -> fresh s evs -> BacklogInv s -> BacklogInv (fst (run srv s evs)).
Proof.
  induction evs as [|ev rest IH]; intros s HI Hf HB; [exact HB|].
  destruct (step_ok srv s ev rest HI Hf) as (HI' & Hf').
  rewrite run_cons_fst. apply IH; [exact HI'|exact Hf'|apply step_binv; assumption].
Qed.
Lemma backlog_assertion_unreachable srv mid0 evs remote a : NoDup (req_ids evs) ->
  let s := fst (run srv (init_state mid0) evs) in
  remove_first_active remote (s_active s) = Some a -> find_backlog remote (s_backlog s) <> None.
Proof.
  intros Hnd s Ha.
  assert (HB: BacklogInv s) by (apply run_binv; [apply init_inv|apply init_fresh; exact Hnd|intros x H; discriminate]).
  apply find_backlog_has. apply (HB remote). unfold has_active. rewrite (remove_first_active_has _ _ _ remote Ha), Z.eqb_refl. reflexivity.
Qed.

Lemma cre_code_is_response : forall c, is_response (cre_code c) = true.
Proof. intros c; destruct c; reflexivity. Qed.
Lemma final_message_is_response s r methods m : handled s r methods -> final_message (Some s) r = Some m ->
  (forall m', r_outcome r = Raise_ (ERenderable (TMReturn (VMsg m'))) -> is_response (code_of m') = true) ->
  is_response (code_of m) = true.
Proof.
  intros H Hm Hc. rewrite (handled_table _ _ _ H) in Hm.
  destruct (r_outcome r) as [[m0| | |]|[[[m0| | |]|]|]|l]; try (injection Hm as <-; reflexivity).
  - destruct (is_response (final_code r m0)) eqn:E; injection Hm as <-; [exact E|reflexivity].
  - injection Hm as <-. apply default_code_is_response.
  - injection Hm as <-. apply Hc. reflexivity.
Qed.
Lemma not_suppressed_without_option r m : m_nr m = None -> r_nr r = None -> suppressed (tm_fill r m) = false.
Proof. intros H1 H2. unfold suppressed, tm_fill. cbn [m_nr]. rewrite H1, H2. reflexivity. Qed.
