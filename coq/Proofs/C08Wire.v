(* C08 — the per-endpoint backlog is FIFO per registration: what reaches the wire for a registration, followed by what still
   waits in the backlog, is what the render task produced, in that order; Observe numbers are 0,1,2,... in production order.
   Hence, over every history, the datagrams of one registration carry one token and strictly rising Observe values. *)
From Coq Require Import Sorted.
From Verif Require Import Lib.Py Lib.PyLemmas Lib.Tactics Model.C08 Proofs.C08 Proofs.C08Silent Proofs.C08Ends.
Open Scope Z_scope.

Definition gfilter (g : Z) (l : list msg) : list msg := filter (fun m => m_gid m =? g) l.
Definition sends (h : list output) : list msg := flat_map (fun o => match o with OSend m false => [m] | _ => [] end) h.
Definition prodl (g : Z) (s : state) : list msg := rev (gfilter g (s_prod s)).            (* produced, oldest first *)
Definition wirel (g : Z) (s : state) : list msg := rev (gfilter g (sends (s_hist s))).    (* first transmissions, oldest first *)
Definition queuel (g : Z) (s : state) : list msg := gfilter g (map fst (s_backlog s)).    (* waiting in the backlog *)
Definition observes (l : list msg) : list (option Z) := map m_observe l.
Definition key (g : reg) : Z * Z := (g_remote g, g_token g).

Fixpoint somes_from (n : Z) (k : nat) : list (option Z) := match k with O => [] | S k' => Some n :: somes_from (n + 1) k' end.
Definition somes (k : Z) : list (option Z) := somes_from 0 (Z.to_nat k).
(* Some n, Some (n+1), ... optionally closed by one message without Observe option *)
Fixpoint consec (n : Z) (l : list (option Z)) : Prop :=
  match l with [] => True | None :: l' => l' = [] | Some x :: l' => x = n /\ consec (n + 1) l' end.

Lemma somes_from_snoc k : forall n, somes_from n (S k) = somes_from n k ++ [Some (n + Z.of_nat k)].
Proof. induction k as [|k IH]; intros n. { cbn. replace (n + 0) with n by lia. reflexivity. }
  change (somes_from n (S (S k))) with (Some n :: somes_from (n + 1) (S k)). rewrite IH. cbn [somes_from app].
  replace (n + 1 + Z.of_nat k) with (n + Z.of_nat (S k)) by lia. reflexivity. Qed.
Lemma somes_snoc k : 0 <= k -> somes (k + 1) = somes k ++ [Some k].
Proof. intros H. unfold somes. replace (Z.to_nat (k + 1)) with (S (Z.to_nat k)) by lia. rewrite somes_from_snoc. replace (0 + Z.of_nat (Z.to_nat k)) with k by lia. reflexivity. Qed.
Lemma somes_0 : somes 0 = []. Proof. reflexivity. Qed.
Lemma consec_somes_from k : forall n, consec n (somes_from n k).
Proof. induction k; intros n; cbn; auto. Qed.
Lemma consec_somes_from_none k : forall n, consec n (somes_from n k ++ [None]).
Proof. induction k; intros n; cbn; auto. Qed.
Lemma consec_prefix a : forall n b, consec n (a ++ b) -> consec n a.
Proof. induction a as [|[x|] a IH]; intros n b H; cbn in *; auto.
  - destruct H as [H1 H2]. split; [exact H1 | eapply IH; exact H2].
  - destruct a; [reflexivity | discriminate]. Qed.

Lemma gfilter_app g a b : gfilter g (a ++ b) = gfilter g a ++ gfilter g b. Proof. apply filter_app. Qed.
Lemma gfilter_cons_eq g m l : m_gid m = g -> gfilter g (m :: l) = m :: gfilter g l.
Proof. intros H. unfold gfilter. cbn. replace (m_gid m =? g) with true by lia. reflexivity. Qed.
Lemma gfilter_cons_ne g m l : m_gid m <> g -> gfilter g (m :: l) = gfilter g l.
Proof. intros H. unfold gfilter. cbn. replace (m_gid m =? g) with false by lia. reflexivity. Qed.
Lemma gfilter_In g m l : In m (gfilter g l) <-> In m l /\ m_gid m = g.
Proof. unfold gfilter. rewrite filter_In. split; intros [A B]; split; auto; lia. Qed.
Lemma sends_cons_other o h : (forall m, o <> OSend m false) -> sends (o :: h) = sends h.
Proof. intros H. unfold sends. cbn. destruct o as [m [|]| | |]; try reflexivity. exfalso. apply (H m). reflexivity. Qed.
Lemma sends_cons_send m h : sends (OSend m false :: h) = m :: sends h. Proof. reflexivity. Qed.

Definition Jr (s : state) (r : Z) : Prop := forall e, In e (s_backlog s) -> m_remote (fst e) = r -> has_exchange s r = true.

(* GI's fields share the prefix [g_] with [reg]'s. Table: g_nd g_kd g_rng g_s g_ctr (numbers and keys distinct, in range; none once
   shut down). Production ghost: g_prng g_kk g_n (numbers issued; one endpoint and token per number; Observe 0,1,2,... then at most one
   without). FIFO: g_f1 (produced = sent ++ queued ++ purged [D]). Backlog: g_t g_j (entries are CON; their endpoint has an exchange). *)
Record GI (s : state) : Prop := {
  g_nd : NoDup (map g_gid (s_regs s));
  g_rng : forall g0, In g0 (s_regs s) -> 0 <= g_gid g0 < s_gidctr s;
  g_kd : NoDup (map key (s_regs s));
  g_prng : forall m, In m (s_prod s) -> m_gid m < s_gidctr s;
  g_f1 : forall g, 0 <= g -> exists D, prodl g s = wirel g s ++ queuel g s ++ D;
  g_j : s_down s = false -> forall r, Jr s r;
  g_t : forall e, In e (s_backlog s) -> m_mtype (fst e) = CON;
  g_s : s_down s = true -> s_regs s = [];
  g_kk : forall m1 m2, In m1 (s_prod s) -> In m2 (s_prod s) -> m_gid m1 = m_gid m2 -> 0 <= m_gid m1 ->
         m_remote m1 = m_remote m2 /\ m_token m1 = m_token m2;
  g_n : forall g, 0 <= g -> consec 0 (observes (prodl g s));
  g_ctr : 0 <= s_gidctr s }.

(* One registration (the copy in s_regs, or the render task's local copy). r_f2: nothing of it purged; r_m: a NON registration never
   queues; r_l: nothing produced while a piggy-back opportunity for its key is pending; r_nl r_k: numbering, endpoint and token.
   [ex]: the key of the request being processed; its piggy-back entry is recorded before the old registration on that key is stopped,
   so r_l is suspended for it in between. *)
Record RegOK (ex : option (Z * Z)) (s : state) (g : reg) : Prop := {
  r_f2 : prodl (g_gid g) s = wirel (g_gid g) s ++ queuel (g_gid g) s;
  r_m : g_con g = false -> queuel (g_gid g) s = [];
  r_l : Some (key g) <> ex -> piggy_find s (g_remote g) (g_token g) <> None -> prodl (g_gid g) s = [];
  r_nl : observes (prodl (g_gid g) s) = somes (g_next g + 1) /\ -1 <= g_next g;
  r_k : forall m, In m (prodl (g_gid g) s) -> m_remote m = g_remote g /\ m_token m = g_token g }.

(* a registration whose first render has not finished has no Observe number yet *)
Definition PFok (g : reg) : Prop := match g_phase g with PFirst _ => g_next g = -1 | _ => True end.
Definition FI (ex : option (Z * Z)) (s : state) : Prop := GI s /\ forall g0, In g0 (s_regs s) -> RegOK ex s g0 /\ PFok g0.
(* while the task of registration [x] runs, its copy in s_regs is stale *)
Definition FIx (x : Z) (s : state) : Prop := GI s /\ forall g0, In g0 (s_regs s) -> g_gid g0 <> x -> RegOK None s g0 /\ PFok g0.
(* the local copy agrees with the stored one on what never changes *)
Definition statics (s : state) (g : reg) : Prop :=
  (exists g0, In g0 (s_regs s) /\ g_gid g0 = g_gid g) /\
  forall g0, In g0 (s_regs s) -> g_gid g0 = g_gid g -> g_remote g0 = g_remote g /\ g_token g0 = g_token g /\ g_con g0 = g_con g.

Definition piggy_shrinks (s s' : state) : Prop := forall r t, piggy_find s' r t <> None -> piggy_find s r t <> None.
Lemma piggy_shrinks_refl s s' : s_piggy s' = s_piggy s -> piggy_shrinks s s'.
Proof. intros E r t. unfold piggy_find. rewrite E. tauto. Qed.

Lemma GI_filter_regs s s' (p : reg -> bool) : GI s -> s_regs s' = filter p (s_regs s) -> s_gidctr s' = s_gidctr s -> s_prod s' = s_prod s ->
  s_backlog s' = s_backlog s -> s_down s' = s_down s -> (forall g, 0 <= g -> wirel g s' = wirel g s) ->
  (forall r, has_exchange s r = true -> has_exchange s' r = true) -> GI s'.
Proof.
  intros [Gnd Grng Gkd Gprng Gf1 Gj Gt Gs Gkk Gn Gctr] E1 E2 E3 E5 E7 Ew Ex.
  assert (Ep : forall g, prodl g s' = prodl g s) by (intros; unfold prodl; rewrite E3; reflexivity).
  assert (Eq : forall g, queuel g s' = queuel g s) by (intros; unfold queuel; rewrite E5; reflexivity).
  constructor; rewrite ?E1, ?E2, ?E3, ?E5, ?E7; try assumption.
  - apply NoDup_map_filter. exact Gnd.
  - intros g0 Hg. apply filter_In in Hg as [Hg _]. apply Grng. exact Hg.
  - apply NoDup_map_filter. exact Gkd.
  - intros g Hg. rewrite Ep, (Ew g Hg), Eq. apply Gf1. exact Hg.
  - intros Hd r e He Hr. apply Ex. apply (Gj Hd r e); [rewrite <- E5; exact He | exact Hr].
  - intros Hd. rewrite (Gs Hd). reflexivity.
  - intros g Hg. rewrite Ep. apply Gn. exact Hg.
Qed.
Definition sameG (s s' : state) : Prop :=
  s_regs s' = s_regs s /\ s_gidctr s' = s_gidctr s /\ s_prod s' = s_prod s /\ s_backlog s' = s_backlog s /\ s_down s' = s_down s /\
  (forall g, 0 <= g -> wirel g s' = wirel g s) /\ (forall r, has_exchange s r = true -> has_exchange s' r = true).
Lemma GI_sameG s s' : sameG s s' -> GI s -> GI s'.
Proof. intros (E1 & E2 & E3 & E5 & E7 & Ew & Ex) H. apply (GI_filter_regs s s' (fun _ => true)); auto.
  rewrite E1. symmetry. apply filter_true. Qed.

Definition gsame (g : Z) (s s' : state) : Prop := prodl g s' = prodl g s /\ wirel g s' = wirel g s /\ queuel g s' = queuel g s.
Lemma RegOK_gsame ex s s' g : gsame (g_gid g) s s' -> piggy_shrinks s s' -> RegOK ex s g -> RegOK ex s' g.
Proof. intros (Ep & Ew & Eq) Hp [H1 H2 H3 H4 H5]. constructor; rewrite ?Ep, ?Ew, ?Eq; try assumption.
  intros Hk Hf. apply H3; [exact Hk | apply Hp; exact Hf]. Qed.
Lemma gsame_fields g s s' : s_prod s' = s_prod s -> s_backlog s' = s_backlog s -> wirel g s' = wirel g s -> gsame g s s'.
Proof. intros E3 E5 Ew. unfold gsame, prodl, queuel. rewrite E3, E5. auto. Qed.
Lemma RegOK_frame ex s s' g : sameG s s' -> piggy_shrinks s s' -> 0 <= g_gid g -> RegOK ex s g -> RegOK ex s' g.
Proof. intros (_ & _ & E3 & E5 & _ & Ew & _) Hp Hg. apply RegOK_gsame; [apply gsame_fields; auto | exact Hp]. Qed.
Lemma RegOK_ext ex s g g' : g_gid g' = g_gid g -> g_remote g' = g_remote g -> g_token g' = g_token g -> g_con g' = g_con g ->
  g_next g' = g_next g -> RegOK ex s g -> RegOK ex s g'.
Proof. intros E1 E2 E3 E4 E5 [H1 H2 H3 H4 H5]. unfold key in *. constructor; rewrite ?E1, ?E2, ?E3, ?E4, ?E5; try assumption.
  unfold key. rewrite E2, E3. exact H3. Qed.

Lemma FI_frame ex s s' : sameG s s' -> piggy_shrinks s s' -> FI ex s -> FI ex s'.
Proof. intros E Hp [H1 H2]. split; [eapply GI_sameG; eassumption|]. pose proof E as (E1 & _).
  intros g0 Hg. rewrite E1 in Hg. split; [|apply H2; exact Hg]. eapply RegOK_frame; [exact E | exact Hp | apply (g_rng s H1); exact Hg | apply H2; exact Hg]. Qed.
Lemma FIx_frame x s s' : sameG s s' -> piggy_shrinks s s' -> FIx x s -> FIx x s'.
Proof. intros E Hp [H1 H2]. split; [eapply GI_sameG; eassumption|]. pose proof E as (E1 & _).
  intros g0 Hg Hx. rewrite E1 in Hg. split; [|apply H2; assumption]. eapply RegOK_frame; [exact E | exact Hp | apply (g_rng s H1); exact Hg | apply H2; assumption]. Qed.
Lemma statics_frame s s' g : s_regs s' = s_regs s -> statics s g -> statics s' g.
Proof. unfold statics. intros ->. tauto. Qed.
Ltac sameG := unfold sameG; repeat split; try reflexivity; auto.

Lemma prodl_cons g s s' m : s_prod s' = m :: s_prod s ->
  prodl g s' = if m_gid m =? g then prodl g s ++ [m] else prodl g s.
Proof. intros E. unfold prodl. rewrite E. destruct (m_gid m =? g) eqn:Eg.
  - rewrite gfilter_cons_eq by lia. reflexivity.
  - rewrite gfilter_cons_ne by lia. reflexivity. Qed.
Lemma wirel_cons g s s' m : sends (s_hist s') = m :: sends (s_hist s) ->
  wirel g s' = if m_gid m =? g then wirel g s ++ [m] else wirel g s.
Proof. intros E. unfold wirel. rewrite E. destruct (m_gid m =? g) eqn:Eg.
  - rewrite gfilter_cons_eq by lia. reflexivity.
  - rewrite gfilter_cons_ne by lia. reflexivity. Qed.
Lemma queuel_snoc g s s' m x : s_backlog s' = s_backlog s ++ [(m, x)] ->
  queuel g s' = if m_gid m =? g then queuel g s ++ [m] else queuel g s.
Proof. intros E. unfold queuel. rewrite E, map_app, gfilter_app. cbn [map fst]. destruct (m_gid m =? g) eqn:Eg.
  - rewrite gfilter_cons_eq by lia. reflexivity.
  - rewrite gfilter_cons_ne by lia. cbn. apply app_nil_r. Qed.

(* a produced response goes out at once or joins the backlog behind an exchange of its endpoint *)
Definition delivered (direct : bool) (s s' : state) (m : msg) : Prop :=
  if direct then sends (s_hist s') = m :: sends (s_hist s) /\ s_backlog s' = s_backlog s
  else sends (s_hist s') = sends (s_hist s) /\ (exists x, s_backlog s' = s_backlog s ++ [(m, x)]) /\ m_mtype m = CON /\
       (s_down s = false -> has_exchange s' (m_remote m) = true).
Lemma delivered_other direct s s' m g : delivered direct s s' m -> m_gid m <> g -> wirel g s' = wirel g s /\ queuel g s' = queuel g s.
Proof. intros Ed Hne. assert (E : (m_gid m =? g) = false) by lia. destruct direct.
  - destruct Ed as [A B]. rewrite (wirel_cons g s s' m A), E. split; [reflexivity | unfold queuel; rewrite B; reflexivity].
  - destruct Ed as (A & [y B] & _). rewrite (queuel_snoc g s s' m y B), E. split; [unfold wirel; rewrite A; reflexivity | reflexivity]. Qed.
Lemma delivered_own direct s s' m : delivered direct s s' m -> (direct = true -> queuel (m_gid m) s = []) ->
  wirel (m_gid m) s' ++ queuel (m_gid m) s' = (wirel (m_gid m) s ++ queuel (m_gid m) s) ++ [m] /\
  (direct = true -> queuel (m_gid m) s' = []).
Proof. intros Ed Hq. destruct direct.
  - destruct Ed as [A B]. rewrite (wirel_cons _ s s' m A), Z.eqb_refl.
    assert (Eq : queuel (m_gid m) s' = queuel (m_gid m) s) by (unfold queuel; rewrite B; reflexivity). rewrite Eq, (Hq eq_refl), !app_nil_r. auto.
  - destruct Ed as (A & [y B] & _). rewrite (queuel_snoc _ s s' m y B), Z.eqb_refl. unfold wirel at 1. rewrite A. fold (wirel (m_gid m) s).
    split; [apply app_assoc | discriminate]. Qed.
Lemma delivered_backlog direct s s' m e : delivered direct s s' m -> In e (s_backlog s') ->
  In e (s_backlog s) \/ fst e = m /\ m_mtype m = CON /\ (s_down s = false -> has_exchange s' (m_remote m) = true).
Proof. destruct direct; intros Ed He.
  - destruct Ed as [_ Eb]. rewrite Eb in He. left. exact He.
  - destruct Ed as (_ & [x Eb] & Ht & Hex). rewrite Eb in He. apply in_app_iff in He as [He|[<-|[]]]; [left; exact He | right; auto]. Qed.
Lemma GI_produce s s' m (direct : bool) :
  GI s ->
  s_regs s' = s_regs s -> s_gidctr s' = s_gidctr s -> s_down s' = s_down s -> s_prod s' = m :: s_prod s ->
  delivered direct s s' m ->
  (forall r, has_exchange s r = true -> has_exchange s' r = true) ->
  m_gid m < s_gidctr s ->
  (0 <= m_gid m ->
     (forall m2, In m2 (s_prod s) -> m_gid m2 = m_gid m -> m_remote m2 = m_remote m /\ m_token m2 = m_token m) /\
     prodl (m_gid m) s = wirel (m_gid m) s ++ queuel (m_gid m) s /\
     (direct = true -> queuel (m_gid m) s = []) /\
     consec 0 (observes (prodl (m_gid m) s ++ [m]))) ->
  GI s'.
Proof.
  intros [Gnd Grng Gkd Gprng Gf1 Gj Gt Gs Gkk Gn Gctr] E1 E2 E7 E3 Ed Hx Hg Hm.
  constructor; rewrite ?E1, ?E2, ?E7; try assumption.
  - intros m0 Hi. rewrite E3 in Hi. destruct Hi as [<-|Hi]; [exact Hg | apply Gprng; exact Hi].
  - intros g Hg0. rewrite (prodl_cons g s s' m E3). destruct (m_gid m =? g) eqn:Eg.
    + assert (m_gid m = g) by lia. subst g. destruct (Hm Hg0) as (_ & F & Qn & _).
      destruct (delivered_own _ _ _ _ Ed Qn) as [W _]. exists []. rewrite app_nil_r, W, F. reflexivity.
    + destruct (delivered_other _ _ _ _ g Ed ltac:(lia)) as [-> ->]. apply Gf1, Hg0.
  - intros Hd r e He Hr. destruct (delivered_backlog _ _ _ _ e Ed He) as [He'|(<- & _ & Hex)]; [apply Hx, (Gj Hd r e He' Hr)|].
    subst r. apply Hex, Hd.
  - intros e He. destruct (delivered_backlog _ _ _ _ e Ed He) as [He'|(<- & Ht & _)]; [apply Gt, He' | exact Ht].
  - intros m1 m2 I1 I2 Eg Hg0. rewrite E3 in I1, I2. destruct I1 as [<-|I1], I2 as [<-|I2].
    + tauto.
    + destruct (Hm Hg0) as (K & _). destruct (K m2 I2 (eq_sym Eg)). split; congruence.
    + rewrite Eg in Hg0. destruct (Hm Hg0) as (K & _). apply (K m1 I1 Eg).
    + apply Gkk; assumption.
  - intros g Hg0. rewrite (prodl_cons g s s' m E3). destruct (m_gid m =? g) eqn:Eg; [|apply Gn; exact Hg0].
    assert (m_gid m = g) by lia. subst g. apply (Hm Hg0).
Qed.

Lemma prodl_In g s m : In m (prodl g s) <-> In m (s_prod s) /\ m_gid m = g.
Proof. unfold prodl. rewrite <- in_rev. apply gfilter_In. Qed.

Lemma si_fields s m x : let s' := send_initially s m x false in
  s_regs s' = s_regs s /\ s_gidctr s' = s_gidctr s /\ s_prod s' = s_prod s /\ s_backlog s' = s_backlog s /\ s_down s' = s_down s /\
  s_piggy s' = s_piggy s /\ sends (s_hist s') = m :: sends (s_hist s) /\
  (forall r, has_exchange s r = true -> has_exchange s' r = true) /\
  (m_mtype m = CON -> has_exchange s' (m_remote m) = true).
Proof. repeat split; try (apply send_initially_field; reflexivity).
  - rewrite send_initially_hist. reflexivity.
  - intros r H. rewrite has_exchange_send_initially, H. reflexivity.
  - intros E. rewrite has_exchange_send_initially, E, Z.eqb_refl. apply orb_true_r.
Qed.
Lemma piggy_find_some_shrinks s s' : (exists p, s_piggy s' = filter p (s_piggy s)) -> piggy_shrinks s s'.
Proof. intros [p E] r t H. unfold piggy_find in *. rewrite E in H.
  destruct (find _ (filter p (s_piggy s))) as [e|] eqn:F; [|exfalso; apply H; reflexivity].
  apply find_some in F as [F1 F2]. apply filter_In in F1 as [F1 _].
  destruct (find _ (s_piggy s)) as [[[a b] c]|] eqn:G; [discriminate|]. eapply find_none in G; [|exact F1]. cbn in *. congruence. Qed.

Lemma send_message_delivered s m c x : let s' := send_message s m c x in
  exists t mid (direct : bool), let m1 := set_type_mid m t mid in
  s_prod s' = m1 :: s_prod s /\ (forall r, has_exchange s r = true -> has_exchange s' r = true) /\
  piggy_find s' (m_remote m) (m_token m) = None /\ piggy_shrinks s s' /\ delivered direct s s' m1 /\
  (if direct then piggy_find s (m_remote m) (m_token m) <> None \/ s_down s = true \/ c = false \/ has_exchange s (m_remote m) = false
   else c = true).
Proof.
  destruct (send_message_cases s m c x) as (t & mid & F4 & Fx & Fpn & Fp & Cs). apply piggy_find_some_shrinks in Fp. exists t, mid.
  destruct Cs as [(Ch & Cb & Cw)|(Ch & Cb & Ct & Cx & Cc)]; [exists true | exists false]; repeat (split; [assumption|]).
  - split; [split; [rewrite Ch; reflexivity | exact Cb] | exact Cw].
  - split; [|exact Cc]. split; [rewrite Ch; reflexivity | split; [eexists; exact Cb | split; [exact Ct | intros _; apply Fx, Cx]]].
Qed.

(* a response numbered [x] (a registration's, or -1) is produced and sent ([direct]) or queued *)
Lemma produce_FIx x s s' m (direct : bool) :
  FIx x s -> m_gid m = x -> x < s_gidctr s ->
  s_regs s' = s_regs s -> s_gidctr s' = s_gidctr s -> s_down s' = s_down s -> s_prod s' = m :: s_prod s ->
  delivered direct s s' m ->
  (forall r, has_exchange s r = true -> has_exchange s' r = true) -> piggy_shrinks s s' ->
  (0 <= x ->
     (forall m2, In m2 (s_prod s) -> m_gid m2 = x -> m_remote m2 = m_remote m /\ m_token m2 = m_token m) /\
     prodl x s = wirel x s ++ queuel x s /\ (direct = true -> queuel x s = []) /\ consec 0 (observes (prodl x s ++ [m]))) ->
  FIx x s'.
Proof.
  intros [HG Ho] Mg Hx F1 F2 F3 F4 Fd Fx Fp Hm. subst x. split.
  - apply (GI_produce s s' m direct HG F1 F2 F3 F4 Fd Fx Hx Hm).
  - intros g1 Hg1 Hne. rewrite F1 in Hg1. destruct (Ho g1 Hg1 Hne) as [Ro Po]. split; [|exact Po].
    apply (RegOK_gsame None s s' g1); [| exact Fp | exact Ro].
    unfold gsame. rewrite (prodl_cons (g_gid g1) s s' m F4). replace (m_gid m =? g_gid g1) with false by lia.
    split; [reflexivity | apply (delivered_other _ _ _ _ _ Fd); lia].
Qed.

(* one emission of the render task of registration [g] (its copy [g2] may differ in g_next / phase / trigger only) *)
Lemma emit_FI s g g2 code o pk pv :
  FIx (g_gid g) s -> statics s g -> RegOK None s g ->
  g_gid g2 = g_gid g -> g_remote g2 = g_remote g -> g_token g2 = g_token g -> g_con g2 = g_con g ->
  (o = Some (g_next g + 1) \/ o = None) ->
  let s' := emit s g2 code o pk pv in
  s_regs s' = s_regs s /\ FIx (g_gid g) s' /\
  (o = Some (g_next g + 1) -> forall g3, g_gid g3 = g_gid g -> g_remote g3 = g_remote g -> g_token g3 = g_token g ->
      g_con g3 = g_con g -> g_next g3 = g_next g + 1 -> RegOK None s' g3).
Proof.
  intros HF [[g0 [Hg0 Hg0g]] Hst] [R1 R2 R3 [R4 R4n] R5] E1 E2 E3 E4 Hobs. pose proof HF as [HG Ho].
  assert (Hrng : 0 <= g_gid g < s_gidctr s) by (rewrite <- Hg0g; apply (g_rng s HG); exact Hg0).
  assert (Hnd : s_down s = false).
  { destruct (s_down s) eqn:Ed; [|reflexivity]. rewrite (g_s s HG Ed) in Hg0. destruct Hg0. }
  set (n := g_next g + 1) in *.
  unfold emit. set (M := mkmsg (g_remote g2) NON 0 (g_token g2) code o pk pv (g_gid g2)).
  destruct (send_message_delivered s M (g_con g2) (g_gid g2)) as (t & mid & direct & F4 & Fx & Fpn & Fp & Fd & Cw).
  set (m := set_type_mid M t mid) in *. set (s' := send_message s M (g_con g2) (g_gid g2)) in *.
  cbn [M m_remote m_token] in Fpn, Cw. rewrite E2, E3, E4 in *.
  assert (F1 : s_regs s' = s_regs s) by (apply send_message_field; reflexivity).
  assert (F2 : s_gidctr s' = s_gidctr s) by (apply send_message_field; reflexivity).
  assert (F3 : s_down s' = s_down s) by (apply send_message_field; reflexivity).
  assert (Mg : m_gid m = g_gid g) by exact E1. assert (Mr : m_remote m = g_remote g) by exact E2.
  assert (Mt : m_token m = g_token g) by exact E3.
  (* sent at once: nothing of [g] was waiting *)
  assert (Qn : direct = true -> queuel (g_gid g) s = []).
  { intros ->. apply nil_if_empty. intros m' Hm'.
    assert (Hr : m_remote m' = g_remote g) by (apply R5; rewrite R1; apply in_or_app; right; exact Hm').
    destruct Cw as [Cw|[Cw|[Cw|Cw]]].
    - pose proof (R3 ltac:(discriminate) Cw) as P0. rewrite R1 in P0. apply app_eq_nil in P0 as [_ P0]. rewrite P0 in Hm'. exact Hm'.
    - congruence.
    - rewrite (R2 Cw) in Hm'. exact Hm'.
    - apply gfilter_In in Hm' as [Hm' _]. apply in_map_iff in Hm' as [e [He1 He2]].
      pose proof (g_j s HG Hnd (g_remote g) e He2) as J. rewrite He1 in J. rewrite (J Hr) in Cw. discriminate. }
  assert (P' : prodl (g_gid g) s' = prodl (g_gid g) s ++ [m]).
  { rewrite (prodl_cons (g_gid g) s s' m F4). replace (m_gid m =? g_gid g) with true by lia. reflexivity. }
  split; [exact F1 | split].
  - apply (produce_FIx (g_gid g) s s' m direct HF Mg ltac:(lia) F1 F2 F3 F4 Fd Fx Fp).
    intros _. split; [|split; [exact R1 | split; [exact Qn|]]].
    + intros m2 I2 G2. rewrite Mr, Mt. apply R5. apply prodl_In. split; assumption.
    + unfold observes. rewrite map_app. fold (observes (prodl (g_gid g) s)). rewrite R4. cbn [map]. change (m_observe m) with o.
      unfold somes. destruct Hobs as [->| ->].
      * replace n with (0 + Z.of_nat (Z.to_nat n)) at 2 by lia. rewrite <- somes_from_snoc. apply consec_somes_from.
      * apply consec_somes_from_none.
  - intros -> g3 G1 G2 G3 G4 G5. destruct (delivered_own direct s s' m Fd) as [W Q0]; [rewrite Mg; exact Qn|]. rewrite Mg in W, Q0.
    constructor; rewrite ?G1, ?G2, ?G3, ?G4, ?G5.
    + rewrite P', R1. symmetry. exact W.
    + intros Hc. destruct direct; [apply Q0; reflexivity | congruence].
    + intros _ Hf. rewrite Fpn in Hf. destruct Hf. reflexivity.
    + split; [|lia]. rewrite P'. unfold observes. rewrite map_app. fold (observes (prodl (g_gid g) s)). rewrite R4. cbn [map].
      change (m_observe m) with (Some n). rewrite somes_snoc by lia. reflexivity.
    + intros m' Hm'. rewrite P' in Hm'. apply in_app_iff in Hm' as [Hm'|[<-|[]]]; [apply R5; exact Hm' | split; assumption].
Qed.

Lemma map_key_put (g : reg) (l : list reg) :
  (forall g0, In g0 l -> g_gid g0 = g_gid g -> key g0 = key g) ->
  map key (map (fun g' => if g_gid g' =? g_gid g then g else g') l) = map key l.
Proof. induction l as [|x l IH]; intros H; cbn; [reflexivity|]. rewrite IH by (intros; apply H; [right|]; assumption).
  destruct (g_gid x =? g_gid g) eqn:E; [|reflexivity]. f_equal. symmetry. apply H; [left; reflexivity | lia]. Qed.

Lemma RegOK_regs ex s s' g : s_prod s' = s_prod s -> s_backlog s' = s_backlog s -> sends (s_hist s') = sends (s_hist s) ->
  s_piggy s' = s_piggy s -> RegOK ex s g -> RegOK ex s' g.
Proof. intros E3 E5 E4 E8. apply RegOK_gsame; [apply gsame_fields; auto; unfold wirel; rewrite E4; reflexivity | apply piggy_shrinks_refl, E8]. Qed.

(* the render task stores its copy [g'] of registration [g_gid g] back *)
Lemma put_back s g g' : FIx (g_gid g) s -> statics s g -> RegOK None s g ->
  g_gid g' = g_gid g -> g_remote g' = g_remote g -> g_token g' = g_token g -> g_con g' = g_con g -> g_next g' = g_next g -> PFok g' ->
  FI None (put_reg s g').
Proof.
  intros [HG Ho] [[g0 [Hg0 Hg0g]] Hst] R E1 E2 E3 E4 E5 Pf.
  assert (Hk : map key (s_regs (put_reg s g')) = map key (s_regs s)).
  { unfold put_reg. fsimpl. apply map_key_put. intros g1 Gnd Grng. rewrite E1 in Grng. destruct (Hst g1 Gnd Grng) as (A & B & _). unfold key. congruence. }
  split.
  - destruct HG as [Gnd Grng Gkd Gprng Gf1 Gj Gt Gs Gkk Gn Gctr]. constructor; try assumption.
    + rewrite gids_put_reg. exact Gnd.
    + intros g1 Hg1. apply In_put_reg in Hg1 as [->|[Hg1 _]]; [|apply Grng; exact Hg1]. rewrite E1, <- Hg0g. apply Grng. exact Hg0.
    + rewrite Hk. exact Gkd.
    + intros Hd. rewrite (Gs Hd) in Hg0. destruct Hg0.
  - intros g1 Hg1. apply In_put_reg in Hg1 as [->|[Hg1 Hne]].
    + split; [|exact Pf]. apply (RegOK_regs None s); try reflexivity. apply (RegOK_ext None s g); assumption.
    + destruct (Ho g1 Hg1 ltac:(congruence)) as [Ro Po]. split; [|exact Po]. apply (RegOK_regs None s); auto.
Qed.

Lemma FI_remove ex s x : FI ex s -> FI ex (remove_reg s x).
Proof.
  intros [HG Ho]. split.
  - eapply GI_filter_regs; [exact HG | reflexivity ..| auto | auto].
  - intros g0 Hg. apply In_remove_reg in Hg as [Hg _]. destruct (Ho g0 Hg) as [Ro Po].
    split; [|exact Po]. apply (RegOK_regs ex s); auto.
Qed.
Lemma FI_to_FIx x s : FI None s -> FIx x s.
Proof. intros [HG Ho]. split; [exact HG|]. intros g0 Hg _. apply Ho. exact Hg. Qed.
Lemma FIx_remove s x : FIx x s -> FI None (remove_reg s x).
Proof.
  intros [HG Ho]. split.
  - eapply GI_filter_regs; [exact HG | reflexivity ..| auto | auto].
  - intros g0 Hg. apply In_remove_reg in Hg as [Hg Hne]. destruct (Ho g0 Hg Hne) as [Ro Po].
    split; [|exact Po]. apply (RegOK_regs None s); auto.
Qed.
Lemma statics_of_In s g : GI s -> In g (s_regs s) -> statics s g.
Proof. intros HG Hg. split; [exists g; tauto|]. intros g0 Hg0 E.
  assert (g0 = g) by (apply (NoDup_map_inj_in g_gid (s_regs s)); [apply (g_nd s HG) | assumption ..]). subst; tauto. Qed.
Lemma find_key_of_In s g0 : NoDup (map key (s_regs s)) -> In g0 (s_regs s) -> find_key s (g_remote g0) (g_token g0) = Some g0.
Proof. intros Hn Hg. destruct (find_key s (g_remote g0) (g_token g0)) as [g1|] eqn:E.
  - apply find_key_In in E as (E1 & E2 & E3). f_equal. apply (NoDup_map_inj_in key (s_regs s)); [exact Hn | exact E1 | exact Hg | unfold key; congruence].
  - unfold find_key in E. eapply find_none in E; [|exact Hg]. cbn in E. rewrite !Z.eqb_refl in E. discriminate. Qed.
Lemma cancel_cb_sameG s x : sameG s (cancel_cb s x). Proof. sameG. Qed.
Lemma log_sameG s o : (forall m, o <> OSend m false) -> sameG s (log s o).
Proof. intros H. sameG. intros g _. unfold wirel. fsimpl. rewrite sends_cons_other by exact H. reflexivity. Qed.

(* [g]: the task's local copy *)
Lemma respond_FI last n cont s g res : n = g_next g + 1 ->
  (forall s' g', FIx (g_gid g') s' -> statics s' g' -> RegOK None s' g' -> g_trig g' = g_trig g -> FI None (cont s' g')) ->
  FIx (g_gid g) s -> statics s g -> RegOK None s g -> FI None (respond last n cont s g res).
Proof.
  intros -> Hc HF Hs R. unfold respond. destruct res as [code pk pv|code pk pv].
  - destruct (last || negb (successful code)).
    + destruct (emit_FI s g g code None pk pv HF Hs R eq_refl eq_refl eq_refl eq_refl (or_intror eq_refl)) as (_ & HF1 & _).
      eapply FI_frame; [apply cancel_cb_sameG | apply piggy_shrinks_refl; reflexivity | apply FIx_remove; exact HF1].
    + set (g1 := set_next g (g_next g + 1)).
      destruct (emit_FI s g g1 code (Some (g_next g + 1)) pk pv HF Hs R eq_refl eq_refl eq_refl eq_refl (or_introl eq_refl)) as (Er & HF1 & R1).
      apply Hc; [exact HF1 | eapply statics_frame; [exact Er | exact Hs] | apply R1; reflexivity | reflexivity].
  - assert (HF0 : FIx (g_gid g) (cancel_cb s (g_gid g))) by (eapply FIx_frame; [apply cancel_cb_sameG | apply piggy_shrinks_refl; reflexivity | exact HF]).
    assert (R0 : RegOK None (cancel_cb s (g_gid g)) g) by (apply (RegOK_regs None s); auto).
    destruct (emit_FI _ g g code None pk pv HF0 Hs R0 eq_refl eq_refl eq_refl eq_refl (or_intror eq_refl)) as (_ & HF1 & _).
    apply FIx_remove. exact HF1.
Qed.
Lemma run_loop_idle f s g : g_trig g = None -> FIx (g_gid g) s -> statics s g -> RegOK None s g -> FI None (run_loop (S f) s g).
Proof. intros Ht HF Hs R. cbn [run_loop]. rewrite Ht. apply (put_back s g); auto. exact I. Qed.
Lemma run_loop_FI f s g : FIx (g_gid g) s -> statics s g -> RegOK None s g -> FI None (run_loop (S (S f)) s g).
Proof.
  intros HF Hs R. cbn [run_loop]. destruct (g_trig g) as [tv|] eqn:Et; [|apply (put_back s g); auto; exact I].
  set (g1 := set_trig g None (g_late g)).
  assert (R1 : RegOK None s g1) by (eapply RegOK_ext; [| | | | | exact R]; reflexivity).
  assert (Hc : forall s0 res, FIx (g_gid g) s0 -> statics s0 g -> RegOK None s0 g1 -> FI None (after_response (run_loop (S f)) s0 g1 res)).
  { intros s0 res A B C. rewrite after_response_respond. apply respond_FI; auto. intros s' g' A' B' C' D'. apply run_loop_idle; assumption. }
  destruct tv as [|code k]; [|apply Hc; assumption].
  set (s1 := log s _).
  assert (HF1 : FIx (g_gid g1) s1) by (eapply FIx_frame; [apply log_sameG; discriminate | apply piggy_shrinks_refl; reflexivity | exact HF]).
  assert (R2 : RegOK None s1 g1) by (apply (RegOK_regs None s); auto).
  destruct (s_gate s1); [apply (put_back s1 g1); auto; exact I | apply Hc; assumption].
Qed.
Lemma task_FI last n s g res : n = g_next g + 1 ->
  FIx (g_gid g) s -> statics s g -> RegOK None s g -> FI None (respond last n (run_loop 2) s g res).
Proof. intros Hn HF Hs R. apply respond_FI; auto. intros s' g' A B C _. apply (run_loop_FI 0); assumption. Qed.

(* pretend endpoint [r] has an exchange: GI of the padded state = GI without the backlog/exchange clause for [r] *)
Definition pad (s : state) (r : Z) : state := set_exch s (s_exch s ++ [mkexch r (-1) (-1)]).
Lemma has_exchange_pad s r r' : has_exchange (pad s r) r' = has_exchange s r' || (r =? r').
Proof. unfold pad, has_exchange. fsimpl. rewrite existsb_app. cbn. rewrite orb_false_r. reflexivity. Qed.

Lemma drop1_same_gid r l m x g : find (fun e => m_remote (fst e) =? r) l = Some (m, x) -> m_gid m = g ->
  (forall e, In e l -> m_gid (fst e) = g -> m_remote (fst e) = r) ->
  gfilter g (map fst l) = m :: gfilter g (map fst (drop1 r l)).
Proof.
  induction l as [|e l IH]; cbn [find]; [discriminate|]. intros Hf Hg Hr. cbn [drop1 map]. destruct (m_remote (fst e) =? r) eqn:E.
  - inversion Hf; subst e. cbn [fst]. rewrite gfilter_cons_eq by exact Hg. reflexivity.
  - assert (m_gid (fst e) <> g). { intros H. rewrite (Hr e (or_introl eq_refl) H) in E. lia. }
    cbn [map]. rewrite !gfilter_cons_ne by assumption. apply IH; [exact Hf | exact Hg | intros; apply Hr; [right|]; assumption]. Qed.
Lemma drop1_other_gid r l m x g : find (fun e => m_remote (fst e) =? r) l = Some (m, x) -> m_gid m <> g ->
  gfilter g (map fst (drop1 r l)) = gfilter g (map fst l).
Proof.
  induction l as [|e l IH]; cbn [find]; [discriminate|]. intros Hf Hg. cbn [drop1 map]. destruct (m_remote (fst e) =? r) eqn:E.
  - inversion Hf; subst e. cbn [fst]. rewrite gfilter_cons_ne by exact Hg. reflexivity.
  - cbn [map]. destruct (Z.eq_dec (m_gid (fst e)) g) as [Eg|Eg].
    + rewrite !gfilter_cons_eq by exact Eg. f_equal. apply IH; assumption.
    + rewrite !gfilter_cons_ne by exact Eg. apply IH; assumption. Qed.
Lemma queuel_in_prod s g m : GI s -> 0 <= g -> In m (queuel g s) -> In m (s_prod s) /\ m_gid m = g.
Proof. intros HG Hg Hm. destruct (g_f1 s HG g Hg) as [D E]. apply prodl_In. rewrite E. apply in_or_app. right. apply in_or_app. left. exact Hm. Qed.

Lemma GI_unpad s r : GI (pad s r) -> (s_down s = false -> Jr s r) -> GI s.
Proof. intros [Gnd Grng Gkd Gprng Gf1 Gj Gt Gs Gkk Gn Gctr] Hj. constructor; try assumption.
  intros Hd r' e He Hr. destruct (Z.eq_dec r' r) as [->|Hne]; [apply (Hj Hd e He Hr)|].
  pose proof (Gj Hd r' e He Hr) as J. rewrite has_exchange_pad in J. replace (r =? r') with false in J by lia. rewrite orb_false_r in J. exact J. Qed.

(* _continue_backlog: the head of the endpoint's queue goes out; per registration this is the head of its own queue *)
Lemma continue_backlog_FI s r : GI (pad s r) -> (forall g0, In g0 (s_regs s) -> RegOK None s g0 /\ PFok g0) -> FI None (continue_backlog s r).
Proof.
  intros HP Ho.
  destruct (continue_backlog_cases s r) as [[-> Hw]|(m & x & Ex & Ef & ->)].
  - split; [|exact Ho]. apply (GI_unpad s r HP). intros _ e He Hr. destruct Hw as [Hw|Hw]; [exact Hw|].
    eapply find_none in Hw; [|exact He]. cbn in Hw. lia.
  - pose proof (find_some _ _ Ef) as [Em Emr]. cbn [fst] in Emr. apply Z.eqb_eq in Emr.
    assert (Hcon : m_mtype m = CON) by (apply (g_t _ HP (m, x)); exact Em).
    set (s1 := set_backlog s (drop1 r (s_backlog s))).
    destruct (si_fields s1 m x) as (A1 & A2 & A3 & A4 & A5 & A6 & A7 & A8 & A9).
    set (s' := send_initially s1 m x false) in *.
    (* registrations sharing the released message's number *)
    assert (Hsame : 0 <= m_gid m -> forall e, In e (s_backlog s) -> m_gid (fst e) = m_gid m -> m_remote (fst e) = r).
    { intros Hg e He Heg. assert (Q1 : In (fst e) (queuel (m_gid m) s)) by (apply gfilter_In; split; [apply in_map; exact He | exact Heg]).
      assert (Q2 : In m (queuel (m_gid m) s)) by (apply gfilter_In; split; [apply (in_map fst _ (m, x)); exact Em | reflexivity]).
      assert (GP : GI (pad s r)) by exact HP.
      destruct (queuel_in_prod (pad s r) _ _ GP Hg Q1) as [P1 _]. destruct (queuel_in_prod (pad s r) _ _ GP Hg Q2) as [P2 _].
      destruct (g_kk _ HP (fst e) m P1 P2 Heg ltac:(lia)) as [Hr _]. rewrite Hr. lia. }
    assert (Wl : forall g, 0 <= g -> wirel g s' = if m_gid m =? g then wirel g s ++ [m] else wirel g s).
    { intros g _. apply (wirel_cons g s1 s' m). exact A7. }
    assert (Ql : forall g, 0 <= g -> queuel g s = if m_gid m =? g then m :: queuel g s' else queuel g s').
    { intros g Hg. unfold queuel. rewrite A4. subst s1. fsimpl. destruct (m_gid m =? g) eqn:Eg.
      - apply (drop1_same_gid r _ m x g Ef); [lia|]. intros e He Heg. apply Hsame; [lia | exact He | lia].
      - symmetry. apply (drop1_other_gid r _ m x g Ef). lia. }
    assert (Pl : forall g, prodl g s' = prodl g s) by (intros; unfold prodl; rewrite A3; reflexivity).
    assert (GI' : GI s').
    { destruct HP as [Gnd Grng Gkd Gprng Gf1 Gj Gt Gs Gkk Gn Gctr]. constructor; rewrite ?A1, ?A2, ?A3, ?A5; try assumption.
      - intros g Hg. rewrite Pl, (Wl g Hg). destruct (Gf1 g Hg) as [D HD]. change (prodl g (pad s r)) with (prodl g s) in HD.
        change (wirel g (pad s r)) with (wirel g s) in HD. change (queuel g (pad s r)) with (queuel g s) in HD.
        rewrite (Ql g Hg) in HD. exists D. destruct (m_gid m =? g); [rewrite HD, <- app_assoc; reflexivity | exact HD].
      - intros Hd r' e He Hr. rewrite A4 in He. subst s1. fsimpl. apply drop1_incl in He.
        destruct (Z.eq_dec r' r) as [->|Hne]. { rewrite <- Emr. apply A9. exact Hcon. }
        apply A8. pose proof (Gj Hd r' e He Hr) as J. rewrite has_exchange_pad in J. replace (r =? r') with false in J by lia. rewrite orb_false_r in J. exact J.
      - intros e He. rewrite A4 in He. subst s1. fsimpl. apply drop1_incl in He. apply Gt. exact He.
      - intros g Hg. rewrite Pl. apply (Gn g Hg). }
    split; [exact GI'|]. intros g0 Hg0. rewrite A1 in Hg0. destruct (Ho g0 Hg0) as [[R1 R2 R3 R4 R5] Po]. split; [|exact Po].
    assert (Hg0r : 0 <= g_gid g0) by (apply (g_rng _ HP); exact Hg0).
    constructor; rewrite ?Pl; try assumption.
    + rewrite (Wl _ Hg0r), R1, (Ql _ Hg0r). destruct (m_gid m =? g_gid g0); [rewrite <- app_assoc; reflexivity | reflexivity].
    + intros Hc. specialize (R2 Hc). rewrite (Ql _ Hg0r) in R2. destruct (m_gid m =? g_gid g0); [discriminate | exact R2].
    + intros Hk Hf. apply R3; [exact Hk|]. unfold piggy_find in *. rewrite A6 in Hf. exact Hf.
Qed.

(* a transport error / time-out for endpoint [r]: its exchanges and queue vanish; no registration of [r] is left *)
Lemma filter_all_or_none {A} (f : A -> Z) r (l : list A) : (forall a b, In a l -> In b l -> f a = f b) ->
  filter (fun a => negb (f a =? r)) l = l \/ filter (fun a => negb (f a =? r)) l = [].
Proof. destruct l as [|a0 l]; [left; reflexivity|]. intros H. destruct (f a0 =? r) eqn:E.
  - right. apply nil_if_empty. intros x Hx. apply filter_In in Hx as [Hx Hp]. rewrite (H x a0 Hx (or_introl eq_refl)) in Hp. rewrite E in Hp. discriminate.
  - left. apply filter_all. intros x Hx. rewrite (H x a0 Hx (or_introl eq_refl)), E. reflexivity. Qed.
Lemma queuel_purge g s r : queuel g (purge_backlog s r) = filter (fun m => negb (m_remote m =? r)) (queuel g s).
Proof. unfold queuel, purge_backlog, gfilter. fsimpl. induction (s_backlog s) as [|e l IH]; [reflexivity|]. cbn [filter map].
  destruct (m_remote (fst e) =? r) eqn:E; cbn [negb map filter]; destruct (m_gid (fst e) =? g) eqn:Eg; cbn [filter]; rewrite ?E; cbn [negb]; rewrite IH; reflexivity. Qed.
Lemma purge_FI s s' r : FI None s -> (forall g0, In g0 (s_regs s) -> g_remote g0 <> r) ->
  s_regs s' = s_regs s -> s_gidctr s' = s_gidctr s -> s_prod s' = s_prod s -> s_down s' = s_down s -> s_piggy s' = s_piggy s ->
  (forall g, 0 <= g -> wirel g s' = wirel g s) -> s_backlog s' = s_backlog (purge_backlog s r) ->
  (forall r', r' <> r -> has_exchange s r' = true -> has_exchange s' r' = true) -> FI None s'.
Proof.
  intros [HG Ho] Hnr E1 E2 E3 E7 E8 Ew E5 Ex.
  assert (Pl : forall g, prodl g s' = prodl g s) by (intros; unfold prodl; rewrite E3; reflexivity).
  assert (Ql : forall g, queuel g s' = filter (fun m => negb (m_remote m =? r)) (queuel g s)).
  { intros g. rewrite <- queuel_purge. unfold queuel. rewrite E5. reflexivity. }
  assert (GI' : GI s').
  { pose proof HG as [Gnd Grng Gkd Gprng Gf1 Gj Gt Gs Gkk Gn Gctr]. constructor; rewrite ?E1, ?E2, ?E3, ?E7; try assumption.
    - intros g Hg. rewrite Pl, (Ew g Hg), Ql. destruct (Gf1 g Hg) as [D HD].
      destruct (filter_all_or_none m_remote r (queuel g s)) as [F|F].
      + intros a b Ia Ib. destruct (queuel_in_prod s g a HG Hg Ia) as [Pa Ga]. destruct (queuel_in_prod s g b HG Hg Ib) as [Pb Gb].
        apply (Gkk a b Pa Pb); lia.
      + rewrite F. exists D. exact HD.
      + rewrite F. exists (queuel g s ++ D). exact HD.
    - intros Hd r' e He Hr. rewrite E5 in He. unfold purge_backlog in He. fsimpl. apply filter_In in He as [He Hp].
      apply Ex; [lia | apply (Gj Hd r' e He Hr)].
    - intros e He. rewrite E5 in He. unfold purge_backlog in He. fsimpl. apply filter_In in He as [He _]. apply Gt. exact He.
    - intros g Hg. rewrite Pl. apply (Gn g Hg). }
  split; [exact GI'|]. intros g0 Hg0. rewrite E1 in Hg0. destruct (Ho g0 Hg0) as [[R1 R2 R3 R4 R5] Po]. split; [|exact Po].
  assert (Hg0r : 0 <= g_gid g0) by (apply (g_rng _ HG); exact Hg0).
  assert (Qk : queuel (g_gid g0) s' = queuel (g_gid g0) s).
  { rewrite Ql. apply filter_all. intros m Hm.
    assert (Hr : m_remote m = g_remote g0) by (apply R5; rewrite R1; apply in_or_app; right; exact Hm).
    pose proof (Hnr g0 Hg0). lia. }
  constructor; rewrite ?Pl, ?(Ew _ Hg0r), ?Qk; try assumption.
  intros Hk Hf. apply R3; [exact Hk|]. unfold piggy_find in *. rewrite E8 in Hf. exact Hf.
Qed.

Lemma FI_stop ex s x : FI ex s -> FI ex (stop s x).
Proof. intros H. unfold stop. destruct (find_reg s x); [|exact H].
  apply (FI_frame ex (remove_reg s x)); [sameG | apply piggy_shrinks_refl; reflexivity | apply FI_remove; exact H]. Qed.
Lemma FI_fold_stop ex l s : FI ex s -> FI ex (fold_left stop l s).
Proof. apply fold_left_pres. intros s0 x. apply FI_stop. Qed.
Lemma FI_flush ex s : FI ex s -> FI ex (flush_cancels s).
Proof. intros H. unfold flush_cancels.
  apply (FI_frame ex (fold_left cancel_cb (s_cancelq s) s)); [sameG | apply piggy_shrinks_refl; reflexivity|].
  revert H. apply fold_left_pres. intros s0 x. apply FI_frame; [apply cancel_cb_sameG | apply piggy_shrinks_refl; reflexivity]. Qed.
Lemma stop_remote_none s r g0 : In g0 (s_regs (stop_remote s r)) -> In g0 (s_regs s) /\ g_remote g0 <> r.
Proof. intros H. apply fold_stop_regs in H as [H1 H2]. split; [exact H1|]. intros Hr. apply H2. apply in_map. apply filter_In. split; [exact H1 | lia]. Qed.
Lemma has_exchange_filter_other s (p : exch -> bool) r' : (forall x, x_remote x = r' -> p x = true) ->
  existsb (fun y => x_remote y =? r') (filter p (s_exch s)) = has_exchange s r'.
Proof. intros H. unfold has_exchange. induction (s_exch s) as [|x l IH]; [reflexivity|]. cbn [filter existsb].
  destruct (x_remote x =? r') eqn:E.
  - rewrite (H x) by lia. cbn. rewrite E. reflexivity.
  - destruct (p x); cbn; rewrite ?E, IH; reflexivity. Qed.

(* a response that belongs to no registration carries the number -1 *)
Lemma FIx_to_FI x s : x < 0 -> FIx x s -> FI None s.
Proof. intros Hx [HG Ho]. split; [exact HG|]. intros g0 Hg. apply Ho; [exact Hg|]. pose proof (g_rng s HG g0 Hg). lia. Qed.
Lemma plain_send_FI s m con : FI None s -> m_gid m = -1 -> FI None (send_message s m con (-1)).
Proof.
  intros H Mg. apply (FIx_to_FI (-1)); [lia|].
  destruct (send_message_delivered s m con (-1)) as (t & mid & direct & F4 & Fx & _ & Fp & Fd & _).
  assert (Hc : -1 < s_gidctr s) by (pose proof (g_ctr s (proj1 H)); lia).
  apply (produce_FIx (-1) s (send_message s m con (-1)) (set_type_mid m t mid) direct (FI_to_FIx _ s H) Mg Hc); try (apply send_message_field; reflexivity); [exact F4 | exact Fd | exact Fx | exact Fp | lia].
Qed.
Lemma plain_FI s r tok con : FI None s -> FI None (plain s r tok con).
Proof. intros H. unfold plain.
  assert (H1 : FI None (log s (ORender (-1) (s_version s)))) by (apply (FI_frame None s); [apply log_sameG; discriminate | apply piggy_shrinks_refl; reflexivity | exact H]).
  destruct (render_outcome _ _); apply plain_send_FI; auto. Qed.

Lemma accept_FI s r tok con : FI None s -> s_down s = false -> (forall g0, In g0 (s_regs s) -> key g0 <> (r, tok)) -> FI None (accept s r tok con).
Proof.
  intros [HG Ho] Hd Hk. unfold accept.
  set (g := mkreg r tok (s_gidctr s) con PWait (-1) None false).
  match goal with |- context [if s_gate ?x then _ else _] => set (s2 := x) end.
  assert (Er : s_regs s2 = s_regs s ++ [g]) by reflexivity.
  assert (Ec : s_gidctr s2 = s_gidctr s + 1) by reflexivity.
  assert (Ep : s_prod s2 = s_prod s) by reflexivity.
  assert (Eb : s_backlog s2 = s_backlog s) by reflexivity.
  assert (Ed : s_down s2 = s_down s) by reflexivity.
  assert (Ex : s_exch s2 = s_exch s) by reflexivity.
  assert (Epg : s_piggy s2 = s_piggy s) by reflexivity.
  assert (W : forall g', wirel g' s2 = wirel g' s).
  { intros. unfold wirel. replace (sends (s_hist s2)) with (sends (s_hist s)) by reflexivity. reflexivity. }
  clearbody s2.
  assert (Pl : forall g', prodl g' s2 = prodl g' s) by (intros; unfold prodl; rewrite Ep; reflexivity).
  assert (Ql : forall g', queuel g' s2 = queuel g' s) by (intros; unfold queuel; rewrite Eb; reflexivity).
  assert (P0 : prodl (s_gidctr s) s = []).
  { apply nil_if_empty. intros m Hm. apply prodl_In in Hm as [Hm Hg]. pose proof (g_prng s HG m Hm). lia. }
  assert (G2 : GI s2).
  { pose proof HG as [Gnd Grng Gkd Gprng Gf1 Gj Gt Gs Gkk Gn Gctr]. constructor; rewrite ?Er, ?Ec, ?Ep, ?Eb, ?Ed; try assumption.
    - rewrite map_app. apply NoDup_snoc; [exact Gnd|]. intros Hi. apply in_map_iff in Hi as [y [Hy Hi]]. pose proof (Grng y Hi). cbn in Hy. lia.
    - intros g0 Hg0. apply in_app_iff in Hg0 as [Hg0|[<-|[]]]; [pose proof (Grng g0 Hg0); lia | cbn; lia].
    - rewrite map_app. apply NoDup_snoc; [exact Gkd|]. intros Hi. apply in_map_iff in Hi as [y [Hy Hi]]. apply (Hk y Hi). exact Hy.
    - intros m Hm. pose proof (Gprng m Hm). lia.
    - intros g' Hg'. rewrite Pl, W, Ql. apply (Gf1 g' Hg').
    - intros Hd' r' e He Hr. unfold has_exchange. rewrite Ex. apply (Gj Hd r' e); [rewrite <- Eb; exact He | exact Hr].
    - intros Hd'. rewrite Hd in Hd'. discriminate.
    - intros g' Hg'. rewrite Pl. apply (Gn g' Hg').
    - lia. }
  assert (HF : FIx (g_gid g) s2).
  { split; [exact G2|]. intros g0 Hg0 Hne. rewrite Er in Hg0. apply in_app_iff in Hg0 as [Hg0|[<-|[]]]; [|exfalso; apply Hne; reflexivity].
    destruct (Ho g0 Hg0) as [Ro Po]. split; [|exact Po].
    apply (RegOK_gsame None s); [apply gsame_fields; auto | apply piggy_shrinks_refl; exact Epg | exact Ro]. }
  assert (Hs : statics s2 g).
  { split; [exists g; split; [rewrite Er; apply in_or_app; right; left; reflexivity | reflexivity]|].
    intros g0 Hg0 E. rewrite Er in Hg0. apply in_app_iff in Hg0 as [Hg0|[<-|[]]]; [|tauto]. pose proof (g_rng s HG g0 Hg0). cbn in E. lia. }
  assert (R : RegOK None s2 g).
  { assert (P2 : prodl (g_gid g) s2 = []) by (rewrite Pl; exact P0).
    destruct (g_f1 s2 G2 (g_gid g) ltac:(cbn; apply (g_ctr s HG))) as [D HD]. rewrite P2 in HD. symmetry in HD.
    apply app_eq_nil in HD as [W0 HD]. apply app_eq_nil in HD as [Q0 _].
    constructor; rewrite ?P2, ?W0, ?Q0; auto.
    - split; [reflexivity | cbn; lia].
    - intros m []. }
  destruct (s_gate s2).
  - apply (put_back s2 g); auto. reflexivity.
  - rewrite first_render_done_respond. apply task_FI; auto.
Qed.

(* the key whose piggy-back clause is suspended may change as long as no registration gains an obligation *)
Lemma FI_ex ex ex' s : FI ex s -> (forall g0, In g0 (s_regs s) -> Some (key g0) <> ex' -> Some (key g0) <> ex) -> FI ex' s.
Proof. intros [HG Ho] Hk. split; [exact HG|]. intros g0 Hg0. destruct (Ho g0 Hg0) as [[R1 R2 R3 R4 R5] Po]. split; [|exact Po].
  constructor; try assumption. intros He Hf. apply R3; [apply (Hk g0 Hg0 He) | exact Hf]. Qed.
Lemma process_request_FI s r con tok obs : FI (Some (r, tok)) s -> s_down s = false -> FI None (process_request s r con tok obs).
Proof.
  intros H Hd. unfold process_request.
  set (s1 := match find_key s r tok with Some g0 => stop s (g_gid g0) | None => s end).
  assert (H1 : FI (Some (r, tok)) s1) by (subst s1; destruct (find_key s r tok); [apply FI_stop|]; exact H).
  assert (K1 : forall g0, In g0 (s_regs s1) -> key g0 <> (r, tok)).
  { intros g0 Hg0 Ek. inversion Ek; subst r tok.
    assert (Hin : In g0 (s_regs s)) by (subst s1; destruct (find_key s _ _); [apply (fold_stop_regs [_] s g0 Hg0) | exact Hg0]).
    subst s1. rewrite (find_key_of_In s g0 (g_kd s (proj1 H)) Hin) in Hg0. exact (not_live_stop s (g_gid g0) (in_map g_gid _ _ Hg0)). }
  assert (D1 : s_down s1 = false). { subst s1. destruct (find_key s r tok); [|exact Hd]. rewrite stop_field by reflexivity. exact Hd. }
  assert (H2 : FI None (flush_cancels s1)) by (apply FI_flush, (FI_ex _ None _ H1); intros g0 Hg0 _ E; apply (K1 g0 Hg0); congruence).
  destruct obs as [[| |]|]; try (apply plain_FI; exact H2).
  apply accept_FI; [exact H2 | rewrite flush_field by reflexivity; exact D1|]. intros g0 Hg0. apply K1. rewrite regs_flush in Hg0. exact Hg0.
Qed.

Lemma task_entry s g : FI None s -> In g (s_regs s) -> FIx (g_gid g) s /\ statics s g /\ RegOK None s g /\ PFok g.
Proof. intros H Hg. pose proof H as [HG Ho]. destruct (Ho g Hg) as [Ro Po].
  split; [apply FI_to_FIx; exact H | split; [apply (statics_of_In s g HG Hg) | split; assumption]]. Qed.

Lemma trigger_FI s x tv l : FI None s -> FI None (trigger s x tv l).
Proof. intros H. unfold trigger. destruct (find_reg s x) as [g|] eqn:E; [|exact H]. apply find_reg_In in E as [E _].
  destruct (task_entry s g H E) as (A & B & C & D). apply (put_back s g); auto. Qed.
Lemma trigger_burst_FI order burst s : FI None s -> FI None (trigger_burst order burst s).
Proof. apply fold_left_pres. intros s0 tb H. apply fold_left_pres; [intros s1 x; apply trigger_FI|].
  apply (FI_frame None s0); [sameG | apply piggy_shrinks_refl; reflexivity | exact H]. Qed.
Lemma wake_FI l s : FI None s -> FI None (wake l s).
Proof. apply fold_left_pres. intros s0 x H.
  destruct (find_reg s0 x) as [g|] eqn:E; [|exact H]. apply find_reg_In in E as [E _].
  destruct (task_entry s0 g H E) as (A & B & C & D). apply run_loop_FI; assumption. Qed.

Lemma remove_exchange_FI s r mid b : FI None s -> FI None (remove_exchange s r mid b).
Proof.
  intros H. unfold remove_exchange. destruct (find _ (s_exch s)) as [x|]; [|exact H].
  set (sA := cancel_timers (set_exch s _) _).
  set (sB := if b then stop sA (x_gid x) else sA).
  pose proof H as [HG Ho].
  assert (HA : forall r', has_exchange s r' = true -> has_exchange (pad sA r) r' = true).
  { intros r' Hr. rewrite has_exchange_pad. destruct (Z.eq_dec r r') as [->|Hne]; [rewrite Z.eqb_refl; apply orb_true_r|].
    replace (has_exchange sA r') with true; [reflexivity|]. symmetry. subst sA. unfold has_exchange, cancel_timers. fsimpl.
    rewrite has_exchange_filter_other; [exact Hr|]. intros y Hy. replace (x_remote y =? r) with false by lia. reflexivity. }
  assert (GA : GI (pad sA r)).
  { apply (GI_filter_regs s (pad sA r) (fun _ => true)); auto. subst sA. unfold pad, cancel_timers. fsimpl. symmetry. apply filter_true. }
  assert (OA : forall g0, In g0 (s_regs sA) -> RegOK None sA g0 /\ PFok g0).
  { intros g0 Hg0. destruct (Ho g0 Hg0) as [Ro Po]. split; [|exact Po].
    apply (RegOK_regs None s); auto. }
  assert (FB : GI (pad sB r) /\ forall g0, In g0 (s_regs sB) -> RegOK None sB g0 /\ PFok g0).
  { subst sB. destruct b; [|split; assumption]. unfold stop. destruct (find_reg sA (x_gid x)); [|split; assumption]. split.
    - apply (GI_filter_regs (pad sA r) _ (fun g => negb (g_gid g =? x_gid x))); auto.
    - intros g0 Hg0. apply In_remove_reg in Hg0 as [Hg0 _]. destruct (OA g0 Hg0) as [Ro Po]. split; [|exact Po].
      apply (RegOK_regs None sA); auto. }
  destruct FB as [GB OB]. apply continue_backlog_FI; assumption.
Qed.

Definition fexch (q : exch -> bool) (r : Z) (s : state) : state := purge_backlog (set_exch s (filter q (s_exch s))) r.
Lemma stop_fexch q r s x : stop (fexch q r s) x = fexch q r (stop s x).
Proof. unfold stop, fexch, find_reg, purge_backlog, remove_reg. fsimpl. destruct (find _ (s_regs s)); destruct s; reflexivity. Qed.
Lemma fold_stop_fexch q r l : forall s, fold_left stop l (fexch q r s) = fexch q r (fold_left stop l s).
Proof. induction l as [|x l IH]; intros s; cbn [fold_left]; [reflexivity|]. rewrite stop_fexch. apply IH. Qed.
(* endpoint [r] is given up (transport error or retransmissions exhausted) *)
Lemma give_up_FI q r s : FI None s -> (forall y, x_remote y <> r -> q y = true) -> FI None (fexch q r (stop_remote s r)).
Proof.
  intros H Hq. assert (H1 : FI None (stop_remote s r)) by (apply FI_fold_stop; exact H).
  apply (purge_FI (stop_remote s r) _ r H1); try reflexivity.
  - intros g0 Hg0. apply (stop_remote_none s r g0 Hg0).
  - intros r' Hne Hr. unfold fexch, purge_backlog, has_exchange. fsimpl. rewrite has_exchange_filter_other; [exact Hr|].
    intros y Hy. apply Hq. lia.
Qed.
Lemma dispatch_error_FI s r : FI None s -> FI None (dispatch_error s r).
Proof.
  intros H. unfold dispatch_error. destruct (s_down s); [exact H|].
  apply (FI_frame None (fexch (fun x => negb (x_remote x =? r)) r (stop_remote s r))); [sameG | apply piggy_shrinks_refl; reflexivity|].
  apply give_up_FI; [exact H|]. intros y Hy. replace (x_remote y =? r) with false by lia. reflexivity.
Qed.
Lemma fire_FI s k : FI None s -> FI None (fire s k).
Proof.
  intros H. destruct k as [r tok|m t c|r mid]; cbn [fire].
  - destruct (piggy_find s r tok) as [mid|]; [|exact H].
    set (m1 := mkmsg r ACK mid (-1) 0 None 0 0 (-1)).
    destruct (si_fields (piggy_remove s r tok) m1 (-1)) as (A1 & A2 & A3 & A4 & A5 & A6 & A7 & A8 & A9).
    apply (FI_frame None s); [|apply piggy_find_some_shrinks; rewrite A6; eexists; reflexivity | exact H].
    unfold sameG. rewrite A1, A2, A3, A4, A5. repeat split; [|exact A8].
    intros g Hg. rewrite (wirel_cons g (piggy_remove s r tok) _ m1 A7). replace (m_gid m1 =? g) with false by (unfold m1; cbn [m_gid]; lia). reflexivity.
  - unfold retransmit. destruct (c <? MAX_RETRANSMIT).
    + apply (FI_frame None s); [| apply piggy_shrinks_refl; reflexivity | exact H]. unfold add_timer, send_via_transport. sameG.
    + set (q := fun x => negb ((x_remote x =? m_remote m) && (x_mid x =? m_mid m))).
      change (FI None (stop_remote (fexch q (m_remote m) s) (m_remote m))). unfold stop_remote.
      change (s_regs (fexch q (m_remote m) s)) with (s_regs s). rewrite fold_stop_fexch.
      apply give_up_FI; [exact H|]. intros y Hy. subst q. cbn. replace (x_remote y =? m_remote m) with false by lia. reflexivity.
  - apply (FI_frame None s); [sameG | apply piggy_shrinks_refl; reflexivity | exact H].
Qed.
Lemma advance_FI fuel s t : FI None s -> FI None (advance fuel s t).
Proof. apply (advance_pres (FI None)). intros s0 v n k H.
  apply FI_flush, fire_FI, (FI_frame None s0); [sameG | apply piggy_shrinks_refl; reflexivity | exact H]. Qed.

Lemma piggy_add_FI s s' r tok mid : FI None s -> sameG s s' ->
  s_piggy s' = filter (fun e => match e with (r', tok', _) => negb ((r' =? r) && (tok' =? tok)) end) (s_piggy s) ++ [(r, tok, mid)] ->
  FI (Some (r, tok)) s'.
Proof.
  intros [HG Ho] E Ep. split; [eapply GI_sameG; eassumption|]. pose proof E as (E1 & _). intros g0 Hg0. rewrite E1 in Hg0.
  destruct (Ho g0 Hg0) as [R Po]. split; [|exact Po].
  destruct E as (_ & E2 & E3 & E5 & E7 & Ew & Ex). destruct R as [R1 R2 R3 R4 R5].
  assert (Hg0r : 0 <= g_gid g0) by (apply (g_rng s HG); exact Hg0).
  assert (Pl : forall g, prodl g s' = prodl g s) by (intros; unfold prodl; rewrite E3; reflexivity).
  assert (Ql : forall g, queuel g s' = queuel g s) by (intros; unfold queuel; rewrite E5; reflexivity).
  constructor; rewrite ?Pl, ?(Ew _ Hg0r), ?Ql; try assumption.
  intros Hk Hf. apply R3; [discriminate|]. unfold piggy_find in *. rewrite Ep in Hf.
  set (p := fun e : Z * Z * Z => match e with (r', t', _) => (r' =? g_remote g0) && (t' =? g_token g0) end) in *.
  destruct (find p (filter _ (s_piggy s) ++ [(r, tok, mid)])) as [e|] eqn:Ef; [|exfalso; apply Hf; reflexivity].
  apply find_some in Ef as [Ei Epe]. apply in_app_iff in Ei as [Ei|[<-|[]]].
  - apply filter_In in Ei as [Ei _]. destruct (find p (s_piggy s)) as [[[a b] c]|] eqn:F; [discriminate|]. exfalso. eapply find_none in F; [|exact Ei]. congruence.
  - exfalso. apply Hk. unfold key. cbn in Epe. f_equal. f_equal; lia.
Qed.

Lemma shutdown_FI s : FI None s -> FI None (step s EShutdown).
Proof.
  intros H. cbn [step]. destruct (s_down s); [exact H|]. apply FI_flush.
  set (s1 := fold_left stop (map g_gid (s_regs s)) s).
  assert (Gnd : FI None s1) by (apply FI_fold_stop; exact H).
  assert (R1 : s_regs s1 = []) by (subst s1; apply fold_stop_all; intros g Hg; apply in_map; exact Hg).
  destruct Gnd as [HG _]. split.
  - destruct HG as [Gnd Grng Gkd Gprng Gf1 Gj Gt Gs Gkk Gn Gctr]. unfold cancel_timers. constructor; fsimpl; try assumption; try (rewrite R1; constructor).
    intros Hx. discriminate.
  - unfold cancel_timers. fsimpl. rewrite R1. intros g0 [].
Qed.

Lemma step_FI s e : FI None s -> FI None (step s e).
Proof.
  intros H. destruct e; cbn [step].
  - (* ERequest *) destruct (s_down s) eqn:Hd; [exact H|]. destruct (in_recent s r mid) as [st|].
    + destruct con; [|exact H]. destruct st as [m|]; [|exact H].
      apply (FI_frame None s); [|apply piggy_shrinks_refl; apply send_initially_field; reflexivity | exact H].
      repeat split; try (apply send_initially_field; reflexivity).
      * intros g _. unfold wirel. rewrite send_initially_hist. reflexivity.
      * intros r' Hr. rewrite has_exchange_send_initially, Hr. reflexivity.
    + apply FI_flush.
      set (s1 := set_recent (add_timer s EXCHANGE_LIFETIME_US (KExpire r mid)) _).
      assert (H1 : FI None s1) by (apply (FI_frame None s); [sameG | apply piggy_shrinks_refl; reflexivity | exact H]).
      destruct con.
      * apply process_request_FI; [|exact Hd]. apply (piggy_add_FI s1 _ r tok mid H1); [unfold add_timer, cancel_timers, piggy_remove; sameG | reflexivity].
      * apply process_request_FI; [apply (FI_ex None _ _ H1); discriminate | exact Hd].
  - (* EAck *) destruct (s_down s); [exact H|]. apply FI_flush, remove_exchange_FI, H.
  - (* ERst *) destruct (s_down s); [exact H|]. apply FI_flush, remove_exchange_FI, H.
  - (* ETrigger *) apply FI_flush. assert (H1 := trigger_burst_FI (pick_order perm (s_observers s)) burst s H).
    destruct burst; [exact H1 | apply wake_FI; exact H1].
  - (* ERenderDone *) apply (render_done_ind (FI None)); [exact H|]. intros g v last n E Hp. apply find_key_In in E as [E _].
    destruct (task_entry s g H E) as (A & B & C & D). apply FI_flush, task_FI; auto.
    destruct Hp as [[Ep ->]|[_ ->]]; [|reflexivity]. unfold PFok in D. rewrite Ep in D. lia.
  - (* ESetMode *) apply (FI_frame None s); [sameG | apply piggy_shrinks_refl; reflexivity | exact H].
  - (* ESetGate *) apply (FI_frame None s); [sameG | apply piggy_shrinks_refl; reflexivity | exact H].
  - (* EAdvance *) apply (FI_frame None (advance (advance_fuel s) s (s_now s + dt))); [sameG | apply piggy_shrinks_refl; reflexivity | apply advance_FI; exact H].
  - (* ETransportError *) apply FI_flush, dispatch_error_FI, H.
  - (* EShutdown *) exact (shutdown_FI s H).
Qed.

Lemma FI_init m : FI None (init m).
Proof. split; [|intros g0 []]. constructor; cbn; try (constructor; fail); try tauto; try lia; try discriminate.
  - intros g _. exists []. reflexivity.
  - intros _ r e []. Qed.
Lemma run_FI : forall es s, FI None s -> FI None (run s es).
Proof. induction es as [|e es IH]; intros s H; cbn; [exact H | apply IH, step_FI, H]. Qed.

Definition obs_values (l : list (option Z)) : list Z := flat_map (fun o => match o with Some n => [n] | None => [] end) l.
Lemma consec_sorted l : forall n, consec n l -> StronglySorted Z.lt (obs_values l) /\ Forall (fun x => n <= x) (obs_values l).
Proof. induction l as [|[x|] l IH]; intros n H; cbn in *.
  - split; constructor.
  - destruct H as [-> H]. destruct (IH _ H) as [S F]. split.
    + constructor; [exact S|]. eapply Forall_impl; [|exact F]. cbn. intros; lia.
    + constructor; [lia|]. eapply Forall_impl; [|exact F]. cbn. intros; lia.
  - subst l. split; constructor. Qed.

(* For every history and every registration number g: the datagrams transmitted for the first time for g, in order, followed
   by those waiting in the backlog, are a prefix of what the render task produced (all of it while g is live); they carry
   Observe 0,1,2,... (the last one possibly none); all carry one endpoint and token — those of the live registration *)
Lemma wire_fifo_observe : forall mid0 es g, 0 <= g -> let s := run (init mid0) es in
  (exists D, prodl g s = wirel g s ++ queuel g s ++ D) /\
  consec 0 (observes (wirel g s)) /\
  StronglySorted Z.lt (obs_values (observes (wirel g s))) /\
  (forall m1 m2, In m1 (wirel g s) -> In m2 (wirel g s) -> m_remote m1 = m_remote m2 /\ m_token m1 = m_token m2) /\
  (forall g0, In g0 (s_regs s) -> g_gid g0 = g ->
     prodl g s = wirel g s ++ queuel g s /\
     observes (prodl g s) = somes (g_next g0 + 1) /\
     forall m, In m (wirel g s) -> m_remote m = g_remote g0 /\ m_token m = g_token g0).
Proof.
  intros mid0 es g Hg s. destruct (run_FI es (init mid0) (FI_init mid0)) as [HG Ho]. fold s in HG, Ho.
  destruct (g_f1 s HG g Hg) as [D HD].
  assert (Hc : consec 0 (observes (wirel g s))).
  { pose proof (g_n s HG g Hg) as C. rewrite HD in C. unfold observes in *. rewrite map_app in C. eapply consec_prefix. exact C. }
  assert (Hin : forall m, In m (wirel g s) -> In m (s_prod s) /\ m_gid m = g).
  { intros m Hm. apply prodl_In. rewrite HD. apply in_or_app. left. exact Hm. }
  split; [exists D; exact HD | split; [exact Hc | split; [apply (consec_sorted _ 0 Hc) | split]]].
  - intros m1 m2 I1 I2. destruct (Hin m1 I1), (Hin m2 I2). apply (g_kk s HG); try assumption; lia.
  - intros g0 Hg0 <-. destruct (Ho g0 Hg0) as [[R1 R2 R3 R4 R5] _]. split; [exact R1 | split; [apply R4|]].
    intros m Hm. apply R5. rewrite R1. apply in_or_app. left. exact Hm.
Qed.
