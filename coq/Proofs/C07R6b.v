(* C07 — BlockwiseRequest's observation over a WHOLE history: the outer observation is handed notifications and then at
   most one end signal, after which nothing — for every list of datagrams / errors / loop runs. *)
From Verif Require Import Lib.Py Lib.Tactics Model.C07 Model.C07Stack Model.C07Iter Model.C07Blockwise Proofs.C07Blockwise.
Open Scope Z_scope.

Definition isCb (o : bout) : Prop := match o with BCb _ _ => True | _ => False end.
Definition kind (c : cstate) : nat := match c with CNotStarted => 0 | CRunning _ => 1 | CDone => 2 end.

Definition bw_inv (b : bw) : Prop :=
  (b_outer_live b = false -> dead b)
  /\ (kind (b_cons b) = 1%nat -> b_first_done b = true)
  /\ (b_first_done b = false -> b_cons b = CNotStarted /\ b_fetch b = FNone).

(* obs outputs of a piece: callbacks, then nothing or one end signal that leaves the observation dead *)
Definition EndsOnce (b' : bw) (outs : list bout) : Prop :=
  exists cbs tail, outer_obs outs = cbs ++ tail /\ Forall isCb cbs /\ (tail = [] \/ ((exists e, tail = [BEb e]) /\ dead b')).

Lemma idle_kind c : (c = CDone \/ c = CNotStarted) <-> kind c <> 1%nat.
Proof. destruct c; cbn; split; intros H; auto; try congruence; destruct H; congruence. Qed.
Lemma dead_inv b : dead b -> bw_inv b.
Proof.
  intros D. pose proof D as (Hl & Hf & Hc & Hfe). split; [auto|]. split; [intros K; apply idle_kind in Hc; congruence|]. intros F. congruence.
Qed.
Lemma kind_pushes outs c : kind (lower_pushes outs c) = kind c.
Proof.
  revert c. induction outs as [|x outs IH]; intros c; [reflexivity|]. cbn [lower_pushes].
  repeat match goal with |- context [match ?t with _ => _ end] => destruct t; try apply IH end; rewrite IH; reflexivity.
Qed.
Lemma EndsOnce_nil b' outs : outer_obs outs = [] -> EndsOnce b' outs.
Proof. intros E. exists [], []. rewrite E. auto. Qed.
Lemma EndsOnce_end b' outs e : outer_obs outs = [BEb e] -> dead b' -> EndsOnce b' outs.
Proof. intros E D. exists [], [BEb e]. rewrite E. split; [reflexivity|]. split; [constructor|]. right. eauto. Qed.
Lemma EndsOnce_cb b' id n outs rest : outer_obs outs = BCb id n :: outer_obs rest -> EndsOnce b' rest -> EndsOnce b' outs.
Proof.
  intros E (cbs & tail & E2 & F & T). exists (BCb id n :: cbs), tail. rewrite E, E2. split; [reflexivity|]. split; [constructor; cbn; auto|exact T].
Qed.

Lemma outer_obs_cb id n l : outer_obs (BCb id n :: l) = BCb id n :: outer_obs l. Proof. reflexivity. Qed.

(* the observation task, run until it blocks: nothing, or notifications and still running, or notifications and the one end
   signal.  For any fuel; the model's 4 is enough because the iterator holds at most two items *)
Lemma consumer_run_cases : forall fuel now b,
  consumer_run fuel now b = (b, [])
  \/ (kind (b_cons b) = 1%nat
      /\ ((exists f g cbs, fst (consumer_run fuel now b) = set_fc b f (CRunning g) (b_outer_live b)
             /\ outer_obs (snd (consumer_run fuel now b)) = cbs /\ Forall isCb cbs)
          \/ (exists cbs e, fst (consumer_run fuel now b) = cancel_lower (set_fc b FNone CDone false) now
                /\ outer_obs (snd (consumer_run fuel now b)) = cbs ++ [BEb e] /\ Forall isCb cbs))).
Proof.
  induction fuel as [|fuel IH]; intros now b; [left; reflexivity|].
  cbn [consumer_run]. destruct (b_cons b) as [|g|] eqn:Ec; try (left; reflexivity).
  destruct (b_fetch b) eqn:Ef; try (left; reflexivity). right. split; [reflexivity|].
  destruct (match g with GBusy _ => gpull g | _ => gwake g end) as [g' ys].
  destruct ys as [|[id|e] ys].
  - left. exists FNone, g', []. cbn. auto.
  - destruct (complete_start (lookup (b_info b) id)) as [| |e].
    + specialize (IH now (set_fc b FNone (CRunning g') (b_outer_live b))).
      destruct (consumer_run fuel now _) as [b' o]. cbn [fst snd] in *.
      destruct IH as [E|(_ & [(f & g2 & cbs & E & O & F)|(cbs & e & E & O & F)])].
      * inversion E; subst. left. exists FNone, g', [BCb id 1]. cbn. repeat split; auto. constructor; cbn; auto.
      * left. exists f, g2, (BCb id 1 :: cbs). rewrite outer_obs_cb, O. repeat split; auto. constructor; cbn; auto.
      * right. exists (BCb id 1 :: cbs), e. rewrite outer_obs_cb, O. repeat split; auto. constructor; cbn; auto.
    + left. exists (FNotif id 1), g', []. cbn. auto.
    + right. exists [], e. cbn. auto.
  - right. exists [], (end_signal e). cbn. auto.
Qed.

Lemma inv_running b : b_first_done b = true -> b_outer_live b = true -> bw_inv b.
Proof. intros F L. unfold bw_inv. rewrite F, L. repeat split; auto; discriminate. Qed.

Lemma consumer_run_inv : forall fuel now b, bw_inv b -> b_outer_live b = true ->
  EndsOnce (fst (consumer_run fuel now b)) (snd (consumer_run fuel now b)) /\ bw_inv (fst (consumer_run fuel now b)).
Proof.
  intros fuel now b I L. destruct (consumer_run_cases fuel now b) as [->|(K & [(f & g & cbs & E & O & F)|(cbs & e & E & O & F)])].
  - split; [apply EndsOnce_nil; reflexivity|exact I].
  - rewrite E. split; [exists cbs, []; rewrite app_nil_r; auto|]. apply inv_running; [apply I; exact K|exact L].
  - assert (D : dead (fst (consumer_run fuel now b))) by (rewrite E; apply dead_cancel_lower, I; exact K).
    split; [|apply dead_inv; exact D]. exists cbs, [BEb e]. eauto 10.
Qed.

(* a stage that either hands over nothing and leaves the observation alive, or ends it *)
Definition Stage (b2 : bw) (o2 : list bout) : Prop :=
  (outer_obs o2 = [] /\ b_outer_live b2 = true /\ bw_inv b2) \/ (exists e, outer_obs o2 = [BEb e] /\ dead b2).

Lemma stage_then_consume b2 o2 now rest : Stage b2 o2 -> outer_obs rest = [] ->
  EndsOnce (fst (consumer_run 4 now b2)) (o2 ++ snd (consumer_run 4 now b2) ++ rest) /\ bw_inv (fst (consumer_run 4 now b2)).
Proof.
  intros [(E & L & I)|(e & E & D)] Er.
  - destruct (consumer_run_inv 4 now b2 I L) as [(cbs & tail & E2 & F & T) I']. split; [|exact I'].
    exists cbs, tail. rewrite !outer_obs_app, E, Er, app_nil_r. auto.
  - destruct D as (Hl & Hf & Hc & Hfe). rewrite consumer_run_idle by exact Hc. cbn [fst snd].
    assert (D : dead b2) by (unfold dead; auto). split; [|apply dead_inv; exact D].
    eapply EndsOnce_end; [|exact D]. rewrite !outer_obs_app, E, Er. reflexivity.
Qed.

Lemma start_consumer_running b now : b_first_done b = true -> b_outer_live b = true ->
  b_outer_live (start_consumer b now) = true /\ bw_inv (start_consumer b now).
Proof. intros F L. unfold start_consumer. destruct (sstep _ _) as [k' outs]. split; [exact L|apply inv_running; [exact F|exact L]]. Qed.

Lemma first_response_stage b now r observable : b_cons b = CNotStarted ->
  Stage (fst (first_response b now r observable)) (snd (first_response b now r observable)).
Proof.
  intros C. unfold first_response. destruct r as [id|e].
  2: { right. exists e. cbn. split; [reflexivity|unfold dead; cbn; auto]. }
  cbn [first_done b_info b_cons]. rewrite C.
  destruct (complete_start (lookup (b_info b) id)) as [| |e]; destruct observable; cbn [fst snd app].
  - left. split; [reflexivity|apply start_consumer_running; reflexivity].
  - right. exists NotObservable. split; [reflexivity|unfold dead; cbn; auto].
  - left. split; [reflexivity|]. split; [reflexivity|apply inv_running; reflexivity].
  - right. exists NotObservable. split; [reflexivity|unfold dead; cbn; eauto 10].
  - right. exists e. split; [reflexivity|unfold dead; cbn; auto].
  - right. exists NotObservable. split; [reflexivity|unfold dead; cbn; auto].
Qed.

Lemma inv_pushes b k' outs info : bw_inv b ->
  bw_inv (set_fc (set_k {| b_k := b_k b; b_info := info; b_fetch := b_fetch b; b_cons := b_cons b; b_outer_live := b_outer_live b; b_first_done := b_first_done b |} k')
         (b_fetch b) (lower_pushes outs (b_cons b)) (b_outer_live b)).
Proof.
  intros (I1 & I2 & I3). unfold bw_inv, dead. cbn. rewrite kind_pushes. split; [|split].
  - intros L. destruct (I1 L) as (A & B & C & D). repeat split; auto. rewrite lower_pushes_idle by exact C. exact C.
  - exact I2.
  - intros F. destruct (I3 F) as [C Fe]. split; [rewrite C; apply lower_pushes_idle; auto|exact Fe].
Qed.

Lemma fetch_first_done b : bw_inv b -> b_fetch b <> FNone -> b_first_done b = true.
Proof. intros (_ & _ & I3) H. destruct (b_first_done b); auto. destruct (I3 eq_refl) as [_ X]. congruence. Qed.

Lemma fetch_failed_stage b2 o2 now e : Stage b2 o2 ->
  Stage (fst (fetch_failed b2 now e)) (o2 ++ snd (fetch_failed b2 now e)).
Proof.
  intros [(E & L & I)|(e0 & E & D)]; unfold fetch_failed.
  - destruct (b_fetch b2) as [|fid n observable|fid n] eqn:Ef; cbn [fst snd].
    + left. rewrite app_nil_r. auto.
    + right. exists e. rewrite L, outer_obs_app, E. split; [reflexivity|].
      pose proof (fetch_first_done b2 I ltac:(rewrite Ef; discriminate)). unfold dead; cbn; auto.
    + right. exists e. rewrite outer_obs_app, E. split; [reflexivity|].
      apply dead_cancel_lower, (fetch_first_done b2 I). rewrite Ef. discriminate.
  - destruct D as (Hl & Hf & Hc & Hfe). destruct Hfe as [Hfe|(fid & n & Hfe)]; rewrite Hfe; cbn [fst snd].
    + right. exists e0. rewrite app_nil_r. split; [exact E|unfold dead; auto].
    + right. exists e0. rewrite Hl, outer_obs_app, E. split; [reflexivity|unfold dead; cbn; auto].
Qed.

Lemma EndsOnce_canon b' l : EndsOnce b' l -> EndsOnce b' (canon l).
Proof. unfold EndsOnce. rewrite outer_obs_canon. auto. Qed.

Lemma Stage_ends_once b2 o2 : Stage b2 o2 -> EndsOnce b2 o2 /\ bw_inv b2.
Proof.
  intros [(E & L & I)|(e & E & D)]; [split; [apply EndsOnce_nil; exact E|exact I]|split; [eapply EndsOnce_end; eauto|apply dead_inv; exact D]].
Qed.

(* BlockwiseRequest._run gets the lower first response, if this is the step in which it arrives *)
Lemma lower_first_stage b1 now outs observable : bw_inv b1 -> b_outer_live b1 = true ->
  let X := match (if b_first_done b1 then None else lower_first outs) with
           | Some r => first_response b1 now r observable | None => (b1, []) end in
  Stage (fst X) (snd X).
Proof.
  intros I L. cbv zeta. destruct (b_first_done b1) eqn:F1; [left; cbn; auto|]. destruct (lower_first outs) as [r|]; [|left; cbn; auto].
  destruct I as (_ & _ & I3). apply first_response_stage, (I3 F1).
Qed.

Lemma fetch_failed_shape b now e ack : bw_inv b -> b_outer_live b = true -> outer_obs ack = [] ->
  EndsOnce (fst (fetch_failed b now e)) (canon (snd (fetch_failed b now e) ++ ack)) /\ bw_inv (fst (fetch_failed b now e)).
Proof.
  intros I L Ha. pose proof (fetch_failed_stage b [] now e (or_introl (conj eq_refl (conj L I)))) as St.
  destruct (Stage_ends_once _ _ St) as [S I']. split; [|exact I'].
  apply EndsOnce_canon. unfold EndsOnce in *. rewrite outer_obs_app, Ha, app_nil_r. exact S.
Qed.
Lemma next_block_shape b f l : b_first_done b = true -> b_outer_live b = true -> outer_obs l = [] ->
  EndsOnce (set_fc b f (b_cons b) (b_outer_live b)) (canon l) /\ bw_inv (set_fc b f (b_cons b) (b_outer_live b)).
Proof. intros Fd L E. split; [apply EndsOnce_nil; rewrite outer_obs_canon; exact E|apply inv_running; assumption]. Qed.

Lemma bstep_shape b o : bw_inv b -> EndsOnce (fst (bstep b o)) (snd (bstep b o)) /\ bw_inv (fst (bstep b o)).
Proof.
  intros I. destruct (b_outer_live b) eqn:L.
  2: { destruct I as (I1 & _). destruct (bstep_dead b o (I1 L)) as [D E]. split; [apply EndsOnce_nil; exact E|apply dead_inv; exact D]. }
  destruct o as [now mt id observe bl|now mt id bl etag|now|now]; cbn [bstep].
  - destruct (sstep _ _) as [k' outs].
    pose proof (inv_pushes b k' outs ({| r_id := id; r_blk := bl; r_etag_ok := true |} :: b_info b) I) as I1.
    cbn [b_k b_info b_fetch b_cons b_outer_live b_first_done] in *. set (b1 := set_fc _ _ _ _) in *.
    pose proof (lower_first_stage b1 now outs (is_some observe) I1 L) as St. cbv zeta in St.
    destruct (match (if b_first_done b1 then None else lower_first outs) with Some r => _ | None => _ end) as [b2 o2].
    destruct (stage_then_consume b2 o2 now (lower_wires outs) St (lower_wires_obs outs)) as [S I'].
    destruct (consumer_run 4 now b2) as [b3 o3]. split; [apply EndsOnce_canon; exact S|exact I'].
  - set (ack := match mt with CON => [BWire ACK] | _ => [] end). pose proof (ack_obs mt : outer_obs ack = []) as Ha.
    destruct (b_fetch b) as [|fid n observable|fid n] eqn:Ef.
    1: split; [apply EndsOnce_nil; destruct mt; reflexivity|exact I].
    all: pose proof (fetch_first_done b I ltac:(rewrite Ef; discriminate)) as Fd.
    all: destruct (complete_next fid n _) as [[id' n']|[e|]].
    (* for FFirst, then for FNotif: transfer complete / failed / next block requested *)
    2,5: pose proof (fetch_failed_shape b now e ack I L Ha) as X; destruct (fetch_failed b now e) as [b1 o1]; exact X.
    2,4: apply next_block_shape; assumption.
    + set (b2 := if observable then start_consumer (set_fc b FNone (b_cons b) (b_outer_live b)) now else set_fc b FNone (b_cons b) (b_outer_live b)).
      assert (St : Stage b2 [BResp id' n']).
      { left. split; [reflexivity|]. unfold b2. destruct observable; [apply start_consumer_running; assumption|].
        split; [exact L|apply inv_running; assumption]. }
      destruct (stage_then_consume b2 [BResp id' n'] now ack St Ha) as [S I'].
      destruct (consumer_run 4 now b2) as [b3 o3]. split; [apply EndsOnce_canon; exact S|exact I'].
    + destruct (consumer_run_inv 4 now (set_fc b FNone (b_cons b) (b_outer_live b)) (inv_running (set_fc b FNone (b_cons b) (b_outer_live b)) Fd L) L) as [S I'].
      destruct (consumer_run 4 now _) as [b3 o3]. cbn [fst snd] in *. split; [|exact I']. apply EndsOnce_canon.
      eapply EndsOnce_cb; [|exact S]. rewrite outer_obs_cb, outer_obs_app, Ha, app_nil_r. reflexivity.
  - destruct (sstep _ _) as [k' outs].
    pose proof (inv_pushes b k' outs (b_info b) I) as I1.
    cbn [b_k b_info b_fetch b_cons b_outer_live b_first_done set_k] in *. set (b1 := set_fc _ _ _ _) in *.
    pose proof (lower_first_stage b1 now outs false I1 L) as St. cbv zeta in St.
    destruct (match (if b_first_done b1 then None else lower_first outs) with Some r => _ | None => _ end) as [b2 o2].
    pose proof (fetch_failed_stage b2 o2 now NetworkError St) as St2.
    destruct (fetch_failed b2 now NetworkError) as [b3 o3]. cbn [fst snd] in St2.
    destruct (stage_then_consume b3 (o2 ++ o3) now [] St2 eq_refl) as [S I'].
    destruct (consumer_run 4 now b3) as [b4 o4]. cbn [fst snd] in *. split; [|exact I'].
    apply EndsOnce_canon. rewrite app_nil_r, <- app_assoc in S. exact S.
  - destruct (sstep _ _) as [k' outs].
    destruct (consumer_run_inv 4 now (set_k b k') I L) as [S I'].
    destruct (consumer_run 4 now (set_k b k')) as [b1 o1]. split; [apply EndsOnce_canon; exact S|exact I'].
Qed.

Lemma inv_bw0 reset t0 : bw_inv (bw0 reset t0).
Proof. unfold bw_inv, bw0. cbn. repeat split; auto; discriminate. Qed.

(* once the observation is dead its history adds nothing; before that, a step adds callbacks and possibly the end *)
Theorem blockwise_ends_once_from : forall ops b, bw_inv b -> exists cbs tail,
  outer_obs (brun_outs b ops) = cbs ++ tail /\ Forall isCb cbs /\ (tail = [] \/ exists e, tail = [BEb e]).
Proof.
  induction ops as [|o ops IH]; intros b I; [exists [], []; cbn; auto|].
  cbn [brun_outs]. destruct (bstep_shape b o I) as [(cbs & tail & E & F & T) I'].
  rewrite outer_obs_app, E. destruct T as [->|[(e & ->) D]].
  - destruct (IH _ I') as (cbs2 & tail2 & E2 & F2 & T2). exists (cbs ++ cbs2), tail2. rewrite E2, app_nil_r, app_assoc.
    split; [reflexivity|]. split; [apply Forall_app; auto|exact T2].
  - rewrite (bw_silent_after_end ops _ D), app_nil_r. exists cbs, [BEb e]. eauto.
Qed.
