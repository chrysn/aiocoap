(* C08 — once a registration has ended, no notification is produced for it any more; the only datagrams that can still
   be transmitted for it are the ones that were already waiting in the per-endpoint backlog when it ended (finding F16). *)
From Verif Require Import Lib.Py Lib.Tactics Model.C08 Proofs.C08.
Open Scope Z_scope.

(* [okreg g s]: [g] has ENDED in [s] (number issued, no longer in incoming_requests) *)
Definition okreg (g : Z) (s : state) : Prop := ~ In g (map g_gid (s_regs s)) /\ g < s_gidctr s.
Definition queued_for (g : Z) (s : state) (m : msg) : Prop := In m (map fst (s_backlog s)) /\ m_gid m = g.

(* [A]: which first transmissions for [g] are tolerated *)
Record Q (A : msg -> Prop) (g : Z) (s s' : state) : Prop := {
  q_ok : okreg g s';
  q_prod : exists l, s_prod s' = l ++ s_prod s /\ Forall (fun m => m_gid m <> g) l;
  q_hist : exists h, s_hist s' = h ++ s_hist s /\ forall m, In (OSend m false) h -> m_gid m = g -> A m;
  q_backlog : forall m, queued_for g s' m -> queued_for g s m }.

Lemma Q_refl A g s : okreg g s -> Q A g s s.
Proof. intros H. constructor; [exact H | exists []; split; [reflexivity | constructor] | exists []; split; [reflexivity | intros m []] | tauto]. Qed.
Lemma Q_trans A g s1 s2 s3 : Q A g s1 s2 -> Q A g s2 s3 -> Q A g s1 s3.
Proof.
  intros [A1 [l1 [A2 A2']] [h1 [A3 A3']] A4] [B1 [l2 [B2 B2']] [h2 [B3 B3']] B4]. constructor.
  - exact B1.
  - exists (l2 ++ l1). split; [rewrite B2, A2, app_assoc; reflexivity | apply Forall_app; split; assumption].
  - exists (h2 ++ h1). split; [rewrite B3, A3, app_assoc; reflexivity|].
    intros m Hm Hg. apply in_app_iff in Hm as [Hm|Hm]; [apply B3'; assumption | apply A3'; assumption].
  - intros m Hm. apply A4, B4, Hm.
Qed.
Lemma Q_weaken (A B : msg -> Prop) g s s' : (forall m, A m -> B m) -> Q A g s s' -> Q B g s s'.
Proof. intros W [H1 H2 [h [H3 H3']] H4]. constructor; try assumption. exists h. split; [exact H3|]. intros m Hm Hg. apply W, H3'; assumption. Qed.

(* [Q] with its premise inside is a preorder: the model's functions compose by [Qs_trans] alone *)
Definition Qs (A : msg -> Prop) (g : Z) (s s' : state) : Prop := okreg g s -> Q A g s s'.
Lemma Qs_refl A g s : Qs A g s s. Proof. exact (Q_refl A g s). Qed.
Lemma Qs_trans A g s1 s2 s3 : Qs A g s1 s2 -> Qs A g s2 s3 -> Qs A g s1 s3.
Proof. intros H1 H2 Ho. eapply Q_trans; [apply H1, Ho | apply H2, (q_ok _ _ _ _ (H1 Ho))]. Qed.
Lemma Qs_ended A g s s' : Qs A g s s' -> okreg g s -> ~ In g (map g_gid (s_regs s')).
Proof. intros H Ho. apply (q_ok _ _ _ _ (H Ho)). Qed.
(* with what is queued at the start as the tolerance, steps chain: the share of the backlog only shrinks *)
Lemma Q_chain g s1 s2 s3 : Q (queued_for g s1) g s1 s2 -> Qs (queued_for g s2) g s2 s3 -> Q (queued_for g s1) g s1 s3.
Proof. intros Q1 H. eapply Q_trans; [exact Q1|]. eapply Q_weaken; [|apply H, (q_ok _ _ _ _ Q1)]. intros m. apply (q_backlog _ _ _ _ Q1). Qed.
Lemma Qs_fold {B} A g (f : state -> B -> state) l s : (forall s0 b, Qs A g s0 (f s0 b)) -> Qs A g s (fold_left f l s).
Proof. intros Hf. apply (fold_left_rel (Qs A g)); [apply Qs_refl | apply Qs_trans | exact Hf]. Qed.

Lemma Qs_quiet A g s s' h : (forall x, In x (map g_gid (s_regs s')) -> In x (map g_gid (s_regs s))) ->
  s_gidctr s' = s_gidctr s -> s_prod s' = s_prod s -> s_hist s' = h ++ s_hist s -> (forall m, ~ In (OSend m false) h) ->
  (forall e, In e (s_backlog s') -> In e (s_backlog s)) -> Qs A g s s'.
Proof. intros E1 E2 E3 E4 E4' E5 [H1 H2]. constructor.
  - split; [intros Hi; apply H1, E1, Hi | rewrite E2; exact H2].
  - exists []. split; [exact E3 | constructor].
  - exists h. split; [exact E4|]. intros m Hm. exfalso. apply (E4' m Hm).
  - intros m [Hi Hg]. split; [|exact Hg]. apply in_map_iff in Hi as [e [He Hi]]. apply in_map_iff. exists e. auto. Qed.
Lemma Qs_frame A g s s' : s_regs s' = s_regs s -> s_gidctr s' = s_gidctr s -> s_prod s' = s_prod s ->
  s_hist s' = s_hist s -> s_backlog s' = s_backlog s -> Qs A g s s'.
Proof. intros E1 E2 E3 E4 E5. apply (Qs_quiet A g s s' []); rewrite ?E1, ?E5; auto. Qed.
Ltac qframe := apply Qs_frame; reflexivity.

Lemma Q_log_other A g s o : (forall m, o <> OSend m false) -> Qs A g s (log s o).
Proof. intros Ho. apply (Qs_quiet A g s _ [o]); auto. intros m [Hm|[]]. exact (Ho m Hm). Qed.
Lemma Q_send_via A g s m rt : (rt = true \/ m_gid m <> g \/ A m) -> Qs A g s (send_via_transport s m rt).
Proof. intros Hm H. constructor.
  - exact H.
  - exists []. split; [reflexivity | constructor].
  - exists [OSend m rt]. split; [reflexivity|]. intros m' [E|[]] Hg. inversion E; subst. destruct Hm as [Hm|[Hm|Hm]]; [discriminate | contradiction | exact Hm].
  - tauto. Qed.
Lemma Q_send_initially A g s m x rt : (rt = true \/ m_gid m <> g \/ A m) -> Qs A g s (send_initially s m x rt).
Proof.
  intros Hm. unfold send_initially. eapply Qs_trans; [|apply Q_send_via, Hm].
  eapply (Qs_trans _ _ _ (match m_mtype m with CON => add_exchange s m x | _ => s end)).
  - destruct (m_mtype m); try apply Qs_refl. qframe.
  - unfold store_response_for_duplicates. destruct (m_mtype m); try apply Qs_refl; qframe.
Qed.
Lemma Q_send_message A g s m c x : m_gid m <> g -> Qs A g s (send_message s m c x).
Proof.
  intros Hm [H1 H2]. destruct (send_message_cases s m c x) as (t & mid & E3 & _ & _ & _ & Cs). constructor.
  - unfold okreg. rewrite !send_message_field by reflexivity. tauto.
  - eexists [_]. split; [exact E3 | constructor; [exact Hm | constructor]].
  - destruct Cs as [(E4 & _)|(E4 & _)]; [eexists [_] | exists []]; (split; [exact E4|]); [|intros ? []].
    intros m' [E|[]] Hg. inversion E; subst m'. contradiction.
  - intros m' [Hi Hg]. destruct Cs as [(_ & E5 & _)|(_ & E5 & _)]; rewrite E5 in Hi; [split; assumption|].
    rewrite map_app in Hi. apply in_app_iff in Hi as [Hi|[Hi|[]]]; [split; assumption|]. subst m'. contradiction.
Qed.
(* what leaves the backlog was in the backlog *)
Lemma Q_continue_backlog g s r : Qs (queued_for g s) g s (continue_backlog s r).
Proof.
  destruct (continue_backlog_cases s r) as [[-> _]|(m & x & _ & E & ->)]; [apply Qs_refl|]. apply find_some in E as [E _].
  eapply Qs_trans.
  2:{ apply Q_send_initially. destruct (Z.eq_dec (m_gid m) g) as [Hg|Hg]; [|right; left; exact Hg].
      right. right. split; [|exact Hg]. apply in_map_iff. exists (m, x). split; [reflexivity | exact E]. }
  apply (Qs_quiet _ _ _ _ []); auto. intros e. apply drop1_incl.
Qed.
Lemma Q_purge_backlog A g s r : Qs A g s (purge_backlog s r).
Proof. apply (Qs_quiet A g s _ []); auto. intros e He. apply filter_In in He. tauto. Qed.

Lemma Q_put_reg A g s g' : Qs A g s (put_reg s g').
Proof. apply (Qs_quiet A g s _ []); auto. rewrite gids_put_reg. auto. Qed.
Lemma Q_remove_reg A g s x : Qs A g s (remove_reg s x).
Proof. apply (Qs_quiet A g s _ []); auto. rewrite gids_remove_reg. intros y Hy. apply In_rm in Hy. tauto. Qed.
Lemma Q_cancel_cb A g s x : Qs A g s (cancel_cb s x).
Proof. eapply (Qs_quiet A g s _ [_]); try reflexivity; auto. intros m [Hm|[]]. discriminate. Qed.
Lemma Q_stop A g s x : Qs A g s (stop s x).
Proof. unfold stop. destruct (find_reg s x); [|apply Qs_refl]. eapply Qs_trans; [apply Q_remove_reg | qframe]. Qed.
Lemma Q_fold_stop A g l s : Qs A g s (fold_left stop l s).
Proof. apply Qs_fold. intros; apply Q_stop. Qed.
Lemma Q_flush A g s : Qs A g s (flush_cancels s).
Proof. unfold flush_cancels. apply (Qs_trans _ _ _ (fold_left cancel_cb (s_cancelq s) s)); [apply Qs_fold; intros; apply Q_cancel_cb | qframe]. Qed.

Lemma Q_emit A g s g' code o pk pv : g_gid g' <> g -> Qs A g s (emit s g' code o pk pv).
Proof. intros Hg. apply Q_send_message. exact Hg. Qed.
Lemma Q_respond A g last n cont s g' res : g_gid g' <> g ->
  (forall s' g'', g_gid g'' = g_gid g' -> Qs A g s' (cont s' g'')) -> Qs A g s (respond last n cont s g' res).
Proof.
  intros Hg Hc. unfold respond. destruct res as [code pk pv|code pk pv].
  - destruct (last || negb (successful code)).
    + eapply Qs_trans; [eapply Qs_trans; [apply Q_emit, Hg | apply Q_remove_reg] | apply Q_cancel_cb].
    + eapply Qs_trans; [apply Q_emit, Hg | apply Hc; reflexivity].
  - eapply Qs_trans; [eapply Qs_trans; [apply Q_cancel_cb | apply Q_emit, Hg] | apply Q_remove_reg].
Qed.
Lemma Q_run_loop A g fuel : forall s g', g_gid g' <> g -> Qs A g s (run_loop fuel s g').
Proof.
  induction fuel as [|f IH]; intros s g' Hg; cbn [run_loop]; [apply Q_put_reg|].
  destruct (g_trig g') as [tv|]; [|apply Q_put_reg].
  assert (Hc : forall s0 res, Qs A g s0 (after_response (run_loop f) s0 (set_trig g' None (g_late g')) res)).
  { intros s0 res. rewrite after_response_respond. apply Q_respond; [exact Hg|]. intros s' g'' Hg''. apply IH. rewrite Hg''. exact Hg. }
  destruct tv as [|code k]; [|apply Hc].
  eapply Qs_trans; [apply (Q_log_other A g s (ORender (g_gid g') (s_version s))); discriminate|].
  destruct (s_gate _); [apply Q_put_reg | apply Hc].
Qed.
Lemma Q_task A g last n s g' res : g_gid g' <> g -> Qs A g s (respond last n (run_loop 2) s g' res).
Proof. intros Hg. apply Q_respond; [exact Hg|]. intros s' g'' Hg''. apply Q_run_loop. rewrite Hg''. exact Hg. Qed.
(* a new registration takes the number [s_gidctr s], which an ended one is below *)
Lemma Q_accept A g s r tok con : Qs A g s (accept s r tok con).
Proof.
  intros [H1 H2]. unfold accept.
  set (g' := mkreg r tok (s_gidctr s) con PWait (-1) None false).
  match goal with |- context [if s_gate ?x then _ else _] => set (s2 := x) end.
  assert (Hg : g_gid g' <> g) by (unfold g'; cbn [g_gid]; lia).
  assert (Q2 : Q A g s s2).
  { constructor.
    - split; [|change (g < s_gidctr s + 1); lia]. change (~ In g (map g_gid (s_regs s ++ [g']))). rewrite map_app, in_app_iff. cbn. intros [Hi|[Hi|[]]]; [tauto | lia].
    - exists []. split; [reflexivity | constructor].
    - eexists [_; _]. split; [reflexivity|]. intros m [Hm|[Hm|[]]]; discriminate.
    - tauto. }
  eapply Q_trans; [exact Q2|]. destruct (s_gate s2); [apply Q_put_reg | rewrite first_render_done_respond; apply Q_task; [exact Hg|]]; apply (q_ok _ _ _ _ Q2).
Qed.
(* responses to plain requests carry the number -1 *)
Lemma Q_plain A g s r tok con : 0 <= g -> Qs A g s (plain s r tok con).
Proof. intros Hg. unfold plain.
  eapply Qs_trans; [apply (Q_log_other A g s (ORender (-1) (s_version s))); discriminate|].
  destruct (render_outcome _ _); apply Q_send_message; cbn; lia. Qed.
Lemma Q_process_request A g s r con tok obs : 0 <= g -> Qs A g s (process_request s r con tok obs).
Proof.
  intros Hg. unfold process_request.
  set (s1 := match find_key s r tok with Some g0 => stop s (g_gid g0) | None => s end).
  apply (Qs_trans _ _ _ (flush_cancels s1)).
  - apply (Qs_trans _ _ _ s1); [|apply Q_flush]. subst s1. destruct (find_key s r tok); [apply Q_stop | apply Qs_refl].
  - destruct obs as [[| |]|]; try (apply Q_plain; exact Hg). apply Q_accept.
Qed.
Lemma Q_remove_exchange g s r mid b : Qs (queued_for g s) g s (remove_exchange s r mid b).
Proof.
  unfold remove_exchange. destruct (find _ (s_exch s)) as [x|]; [|apply Qs_refl].
  set (s1 := cancel_timers _ _). set (s2 := if b then stop s1 (x_gid x) else s1).
  assert (Q2 : Qs (queued_for g s) g s s2).
  { apply (Qs_trans _ _ _ s1); [qframe|]. subst s2. destruct b; [apply Q_stop | apply Qs_refl]. }
  intros H. apply (Q_chain _ _ _ _ (Q2 H)), Q_continue_backlog.
Qed.
Lemma Q_dispatch_error A g s r : Qs A g s (dispatch_error s r).
Proof. unfold dispatch_error. destruct (s_down s); [apply Qs_refl|].
  eapply Qs_trans; [|apply Q_purge_backlog]. apply (Qs_trans _ _ _ (stop_remote s r)); [apply Q_fold_stop | qframe]. Qed.
Lemma Q_fire A g s k : 0 <= g -> Qs A g s (fire s k).
Proof.
  intros Hg. destruct k as [r tok|m t c|r mid]; cbn [fire].
  - destruct (piggy_find s r tok); [|apply Qs_refl].
    eapply Qs_trans; [|apply Q_send_initially; right; left; cbn; lia]. qframe.
  - unfold retransmit. destruct (c <? MAX_RETRANSMIT).
    + eapply Qs_trans; [apply Q_send_via; left; reflexivity | qframe].
    + eapply Qs_trans; [|apply Q_fold_stop]. eapply Qs_trans; [|apply Q_purge_backlog]. qframe.
  - qframe.
Qed.
Lemma Q_advance A g fuel s t : 0 <= g -> Qs A g s (advance fuel s t).
Proof. intros Hg. apply (advance_rel (Qs A g) (Qs_refl A g) (Qs_trans A g)). intros s0 v n k.
  eapply Qs_trans; [|apply Q_flush]. eapply Qs_trans; [|apply Q_fire, Hg]. qframe. Qed.
Lemma Q_trigger A g s x tv l : Qs A g s (trigger s x tv l).
Proof. unfold trigger. destruct (find_reg s x); [apply Q_put_reg | apply Qs_refl]. Qed.
Lemma Q_trigger_burst A g order burst s : Qs A g s (trigger_burst order burst s).
Proof. apply Qs_fold. intros s0 tb. eapply Qs_trans; [|apply Qs_fold; intros; apply Q_trigger]. qframe. Qed.
Lemma Q_wake A g l s : Qs A g s (wake l s).
Proof. apply Qs_fold. intros s0 x H. destruct (find_reg s0 x) as [g0|] eqn:E; [|apply Qs_refl, H].
  apply Q_run_loop; [|exact H]. intros Hg. apply find_reg_gids in E. rewrite Hg in E. exact (proj1 H E). Qed.

(* one event: an ended registration stays ended, nothing is produced for it, and only datagrams that were waiting in the
   backlog can still be transmitted for it; its share of the backlog never grows *)
Lemma silent_step s e g : 0 <= g -> okreg g s -> Q (queued_for g s) g s (step s e).
Proof.
  intros Hg. change (Qs (queued_for g s) g s (step s e)). destruct e; cbn [step].
  - (* ERequest *) destruct (s_down s); [apply Qs_refl|]. destruct (in_recent s r mid) as [st|].
    + destruct con; [|apply Qs_refl]. destruct st; [|apply Qs_refl]. apply Q_send_initially. left. reflexivity.
    + eapply Qs_trans; [|apply Q_flush]. eapply Qs_trans; [|apply Q_process_request, Hg]. destruct con; qframe.
  - (* EAck *) destruct (s_down s); [apply Qs_refl|]. eapply Qs_trans; [apply Q_remove_exchange | apply Q_flush].
  - (* ERst *) destruct (s_down s); [apply Qs_refl|]. eapply Qs_trans; [apply Q_remove_exchange | apply Q_flush].
  - (* ETrigger *) eapply Qs_trans; [|apply Q_flush]. eapply Qs_trans; [apply Q_trigger_burst|]. destruct burst; [apply Qs_refl | apply Q_wake].
  - (* ERenderDone *) apply (render_done_ind (Qs (queued_for g s) g s)); [apply Qs_refl|]. intros g0 v last n E _ H.
    assert (Hg0 : g_gid g0 <> g).
    { intros Hx. apply find_key_In in E as [E _]. apply (in_map g_gid) in E. rewrite Hx in E. exact (proj1 H E). }
    revert H. eapply Qs_trans; [apply Q_task, Hg0 | apply Q_flush].
  - (* ESetMode *) qframe.
  - (* ESetGate *) qframe.
  - (* EAdvance *) eapply Qs_trans; [apply Q_advance, Hg | qframe].
  - (* ETransportError *) eapply Qs_trans; [apply Q_dispatch_error | apply Q_flush].
  - (* EShutdown *) destruct (s_down s); [apply Qs_refl|]. eapply Qs_trans; [|apply Q_flush].
    apply (Qs_trans _ _ _ (fold_left stop (map g_gid (s_regs s)) s)); [apply Q_fold_stop | qframe].
Qed.

(* over whole histories: the first transmissions for [g] after the end are a subset of what was queued at the end, and
   nothing is produced for it; in particular, ended with nothing queued means silence for ever *)
Lemma silent_run : forall es s g, 0 <= g -> okreg g s ->
  okreg g (run s es) /\
  (exists l, s_prod (run s es) = l ++ s_prod s /\ Forall (fun m => m_gid m <> g) l) /\
  (exists h, s_hist (run s es) = h ++ s_hist s /\ forall m, In (OSend m false) h -> m_gid m = g -> queued_for g s m).
Proof.
  intros es s g Hg H. enough (QQ : Q (queued_for g s) g s (run s es)) by (destruct QQ; auto).
  revert s H. induction es as [|e es IH]; intros s H; cbn [run fold_left]; [apply Q_refl, H|].
  apply (Q_chain _ _ _ _ (silent_step s e g Hg H)). intros Ho. apply IH, Ho.
Qed.
