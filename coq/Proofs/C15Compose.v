(* C15 — a stream of good frames followed by anything: dispatched = sent, Abort + close at any position. *)
From Verif Require Import Lib.Py Lib.Tactics Lib.PyLemmas Gen.options_ext Gen.tcp_framing Model.C15 Proofs.C15 Proofs.C15Total.
Open Scope Z_scope.

Definition dispatch_out (m : msg) : out := if is_response (code m) then Response m else Request m.
Definition plain_ok (maxsize : Z) (m : msg) : Prop :=
  msg_ok m = true /\ fits maxsize m = true /\ is_signalling (code m) = false /\ code m <> 0.

Lemma process_plain_messages maxsize : forall ms c s, remote_settings c = Some s -> Forall (plain_ok maxsize) ms ->
  process_messages c ms = (c, map dispatch_out ms).
Proof.
  induction ms as [|m r IH]; intros c s Hs Hall; [reflexivity|].
  inversion Hall as [|? ? (_ & _ & Hsig & H0) Hr]; subst. cbn [process_messages map].
  rewrite (dispatch_exact c m s Hs Hsig H0). rewrite (IH c s Hs Hr). reflexivity.
Qed.

Lemma dispatches_exactly_sent : forall ms c bs s, remote_settings c = Some s -> spool c = [] -> closed c = false ->
  Forall (plain_ok (my_max_message_size c)) ms -> frames ms = Ok bs ->
  data_received c bs = (c, map dispatch_out ms).
Proof.
  intros ms c bs s Hs Hsp Hcl Hall Hfr.
  assert (Hok : Forall (fun m => msg_ok m = true) ms) by (eapply Forall_impl; [|exact Hall]; intros m H; apply H).
  assert (Hfit : Forall (fun m => fits (my_max_message_size c) m = true) ms) by (eapply Forall_impl; [|exact Hall]; intros m H; apply H).
  destruct (stream_received ms c bs Hok Hfit Hfr Hsp) as [Hcok H]. pose proof (loop_inv (feed c bs) Hcok Hcl) as HI.
  unfold data_received. rewrite data_received_ctl_loop'. destruct (loop' (feed c bs)) as [[c1 o1] k].
  rewrite (process_plain_messages _ ms c s Hs Hall) in H. destruct H as (-> & _ & H3). destruct HI as (_ & _ & I3 & _).
  assert (Hnd : forall l, ended (map dispatch_out l) = false).
  { induction l as [|x l IH]; [reflexivity|]. cbn [map]. unfold dispatch_out. destruct (is_response (code x)); exact IH. }
  rewrite Hnd in I3. destruct k; [|discriminate I3]. rewrite (H3 eq_refl). reflexivity.
Qed.

Lemma after_good_prefix : forall ms c bs rest, spool c = [] -> closed c = false -> my_max_message_size c <= 2 ^ 40 ->
  Forall (fun m => msg_ok m = true) ms -> Forall (fun m => fits (my_max_message_size c) m = true) ms ->
  frames ms = Ok bs -> bytes_ok rest = true ->
  closed (fst (process_messages c ms)) = false ->
  snd (data_received c (bs ++ rest)) =
  snd (process_messages c ms) ++ snd (data_received (fst (process_messages c ms)) rest) /\
  spool (fst (process_messages c ms)) = [] /\
  my_max_message_size (fst (process_messages c ms)) = my_max_message_size c.
Proof.
  intros ms c bs rest Hsp Hcl Hmax Hok Hfit Hfr Hrest Hopen.
  destruct (stream_received ms c bs Hok Hfit Hfr Hsp) as [Hcok H].
  pose proof (loop_inv (feed c bs) Hcok Hcl) as HI. pose proof (loop_no_esc (feed c bs) Hcok Hmax) as HE.
  unfold data_received at 1. rewrite data_received_ctl_loop', <- feed_feed, (loop_feed rest Hrest _ Hcok).
  destruct (loop' (feed c bs)) as [[c1 o1] k]. pose proof (process_messages_keeps_spool ms c) as Hks.
  destruct (process_messages c ms) as [c2 o2]. cbn [fst snd] in *.
  destruct H as (-> & H2 & H3). destruct HI as (I1 & _ & I3 & _ & I5).
  apply (f_equal closed) in H2. cbn [closed set_spool] in H2.
  (* no exception escaped and the connection is open: the loop ended waiting for more *)
  unfold ended in I3. rewrite HE, <- I1, H2, Hopen in I3. destruct k; [|discriminate I3]. rewrite (H3 eq_refl) in *.
  unfold data_received. rewrite data_received_ctl_loop'.
  destruct (loop' (feed c2 rest)) as [[c3 o3] k3]. cbn [snd].
  split; [reflexivity|]. split; [rewrite Hks; exact Hsp|]. exact I5.
Qed.
