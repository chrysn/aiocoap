(* C01 — UTF-8: the decoder of Model/C01Utf8.v inverts the encoder on scalar values and vice versa.
   Everything follows from two facts about a single code point: the decoder reads the encoding of a scalar value
   back and goes on with the rest (utf8_decode_encode_cp), and what the decoder does not reject starts with the
   encoding of a scalar value (utf8_decode_head). *)
From Verif Require Import Lib.Py Lib.Tactics Lib.PyLemmas Model.C01Utf8.
Open Scope Z_scope.

(* [settle]: resolve every [if] of the goal whose test lia decides, whatever the syntactic form of the test; like
   [repeat decide_if] of Lib/Tactics.v, but an undecided test is left alone instead of being destructed.
   Proofs/C01Ext.v uses it on the translated kernels as well. *)
Ltac settle :=
  repeat match goal with
  | |- context [if ?b then _ else _] =>
      lazymatch b with true => fail | false => fail | _ => idtac end;
      first [ replace b with true by lia | replace b with false by lia ]; cbv iota
  end.

(* the test on the second byte of a three- or four-byte sequence (RFC 3629 section 4: E0 A0..BF, ED 80..9F, F0 90..BF,
   F4 80..8F exclude overlong forms, surrogates and what lies above U+10FFFF) *)
Lemma second_byte x lo hi m n b : lo < hi -> 128 <= m -> n <= 191 ->
  (if x =? lo then (m <=? b) && (b <=? 191) else if x =? hi then (128 <=? b) && (b <=? n) else (128 <=? b) && (b <? 192)) = true <->
  128 <= b <= 191 /\ (x = lo -> m <= b) /\ (x = hi -> b <= n).
Proof. intros Hlh Hm Hn. destruct (x =? lo) eqn:A; [|destruct (x =? hi) eqn:B]; lia. Qed.

Lemma bind_cons_eq (m : M (list Z)) x c : x = c -> (s <- m ;; Ok (x :: s)) = (s <- m ;; Ok (c :: s)).
Proof. intros ->. reflexivity. Qed.

Lemma base64 c :
  c = c / 64 * 64 + c mod 64 /\ c / 64 = c / 4096 * 64 + (c / 64) mod 64 /\ c / 4096 = c / 262144 * 64 + (c / 4096) mod 64 /\
  0 <= c mod 64 < 64 /\ 0 <= (c / 64) mod 64 < 64 /\ 0 <= (c / 4096) mod 64 < 64.
Proof. lia. Qed.

Lemma utf8_decode_encode_cp c : scalar c = true ->
  exists e, utf8_encode_cp c = Ok e /\ bytes_ok e = true /\
            forall rest, utf8_decode (e ++ rest) = (s <- utf8_decode rest ;; Ok (c :: s)).
Proof.
  intros H. unfold utf8_encode_cp. rewrite H. unfold scalar in H. cbn [negb].
  (* the base-64 digits of c become variables, with the linear facts of base64: no lia below sees a division *)
  generalize (base64 c). generalize (c mod 64), (c / 64), ((c / 64) mod 64), (c / 4096), ((c / 4096) mod 64), (c / 262144).
  intros d0 q1 d1 q2 d2 q3 B.
  destruct (c <? 128) eqn:E1; [|destruct (c <? 2048) eqn:E2; [|destruct (c <? 65536) eqn:E3]].
  all: eexists; split; [reflexivity|]; split; [cbn [bytes_ok forallb]; unfold byte_ok; lia|].
  (* the tail is hidden while the decoder is unfolded: on a list of known shape cbn would also unfold the recursive calls of
     the branches that the test on the first byte rules out *)
  all: intros rest; cbn [app]; match goal with |- utf8_decode (_ :: ?t) = _ => set (tl := t) end.
  all: cbn [utf8_decode]; unfold inr_; settle; subst tl; cbv iota; unfold inr_, cont; settle.
  - reflexivity.
  - apply bind_cons_eq. lia.
  - rewrite (proj2 (second_byte _ 224 237 160 159 _ ltac:(lia) ltac:(lia) ltac:(lia))) by lia.
    settle. apply bind_cons_eq. lia.
  - rewrite (proj2 (second_byte _ 240 244 144 143 _ ltac:(lia) ltac:(lia) ltac:(lia))) by lia.
    settle. apply bind_cons_eq. lia.
Qed.

Lemma utf8_decode_head b0 r0 : utf8_decode (b0 :: r0) = Raise UnicodeDecodeError \/
  exists c e r, scalar c = true /\ utf8_encode_cp c = Ok e /\ b0 :: r0 = e ++ r /\ (length r < length (b0 :: r0))%nat.
Proof.
  cbn [utf8_decode].
  destruct (inr_ 0 127 b0) eqn:C1; [|destruct (inr_ 194 223 b0) eqn:C2; [|destruct (inr_ 224 239 b0) eqn:C3;
    [|destruct (inr_ 240 244 b0) eqn:C4; [|left; reflexivity]]]]; unfold inr_ in *.
  - right. exists b0, [b0], r0. assert (S : scalar b0 = true) by (unfold scalar; lia).
    unfold utf8_encode_cp. rewrite S. repeat split; [settle; reflexivity|cbn [length]; lia].
  - destruct r0 as [|b1 r1]; [left; reflexivity|]. destruct (cont b1) eqn:D1; [|left; reflexivity]. unfold cont in D1.
    right. exists ((b0 - 192) * 64 + (b1 - 128)), [b0; b1], r1. unfold utf8_encode_cp, scalar.
    repeat split; [lia|settle; repeat f_equal; lia|cbn [length]; lia].
  - destruct r0 as [|b1 [|b2 r2]]; try (left; reflexivity).
    match goal with |- (if ?t then _ else _) = _ \/ _ => destruct t eqn:D1; [|left; reflexivity] end.
    unfold inr_, cont in D1. apply andb_prop in D1 as [D1 D2]. apply second_byte in D1; [|lia|lia|lia].
    right. exists ((b0 - 224) * 4096 + (b1 - 128) * 64 + (b2 - 128)), [b0; b1; b2], r2. unfold utf8_encode_cp, scalar.
    repeat split; [lia|settle; repeat f_equal; lia|cbn [length]; lia].
  - destruct r0 as [|b1 [|b2 [|b3 r3]]]; try (left; reflexivity).
    match goal with |- (if ?t then _ else _) = _ \/ _ => destruct t eqn:D1; [|left; reflexivity] end.
    unfold inr_, cont in D1. apply andb_prop in D1 as [D1 D3]. apply andb_prop in D1 as [D1 D2]. apply second_byte in D1; [|lia|lia|lia].
    right. exists ((b0 - 240) * 262144 + (b1 - 128) * 4096 + (b2 - 128) * 64 + (b3 - 128)), [b0; b1; b2; b3], r3.
    unfold utf8_encode_cp, scalar. repeat split; [lia|settle; repeat f_equal; lia|cbn [length]; lia].
Qed.

Lemma utf8_roundtrip s : forallb scalar s = true ->
  exists b, utf8_encode s = Ok b /\ utf8_decode b = Ok s /\ bytes_ok b = true.
Proof.
  induction s as [|c s IH]; intros H.
  - exists []. repeat split.
  - cbn [forallb] in H. apply andb_prop in H as [H1 H2].
    destruct (IH H2) as (b & E & D & O). destruct (utf8_decode_encode_cp c H1) as (e & Ee & Oe & De).
    exists (e ++ b). cbn [utf8_encode]. rewrite Ee, E, De, D, bytes_ok_app, Oe, O. repeat split.
Qed.

(* one walk over the decoder serves both outcomes *)
Lemma utf8_decode_spec b :
  match utf8_decode b with
  | Ok s => utf8_encode s = Ok b /\ forallb scalar s = true
  | Raise x => x = UnicodeDecodeError
  end.
Proof.
  induction b as [b IH] using (well_founded_induction (Wf_nat.well_founded_ltof _ (@length Z))). destruct b as [|b0 r0]; [split; reflexivity|].
  destruct (utf8_decode_head b0 r0) as [R|(c & e & r & Hc & Ee & Hb & L)]; [rewrite R; reflexivity|]. rewrite Hb.
  destruct (utf8_decode_encode_cp c Hc) as (e' & Ee' & _ & De). replace e' with e in De by congruence.
  rewrite De. specialize (IH r L). destruct (utf8_decode r) as [s|x]; cbn [bind]; [|exact IH].
  destruct IH as [I1 I2]. cbn [utf8_encode forallb]. rewrite Ee, I1, Hc, I2. split; reflexivity.
Qed.
Lemma utf8_encode_decode b : forall s, utf8_decode b = Ok s -> utf8_encode s = Ok b /\ forallb scalar s = true.
Proof. intros s E. pose proof (utf8_decode_spec b) as S. rewrite E in S. exact S. Qed.
Lemma utf8_decode_raises b : forall x, utf8_decode b = Raise x -> x = UnicodeDecodeError.
Proof. intros x E. pose proof (utf8_decode_spec b) as S. rewrite E in S. exact S. Qed.
