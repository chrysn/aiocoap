(* C12 — whole histories; the request-only [run] is [prun] without responses. *)
From Verif Require Import Lib.Py Lib.Tactics Gen.oscore_replay Model.C12 Proofs.C12.
Open Scope Z_scope.

Lemma prun_inv ms : forall c, CtxInv c -> Forall pwf ms ->
  CtxInv (fst (prun c ms)) /\ (forall k, cseen c k -> cseen (fst (prun c ms)) k).
Proof.
  induction ms as [|m ms IH]; intros c HI Hwf; cbn [prun]; [cbn; auto|].
  inversion Hwf as [|? ? Hm Hms]; subst.
  pose proof (pstep_inv c m HI Hm) as Hst. destruct (pstep c m) as [c1 o].
  destruct Hst as (HI1 & _ & _ & Hmono & _).
  specialize (IH c1 HI1 Hms). destruct (prun c1 ms) as [c2 os]. cbn [fst] in *.
  destruct IH as [IHa IHb]. split; [exact IHa|]. intros k Hk. apply IHb, Hmono, Hk.
Qed.

Lemma paccepted_bound ms : forall c n, CtxInv c -> Forall pwf ms ->
  (paccepted_count n ms (snd (prun c ms)) <= 1)%nat /\ (cseen c n -> paccepted_count n ms (snd (prun c ms)) = 0%nat).
Proof.
  induction ms as [|m ms IH]; intros c n HI Hwf; cbn [prun]; [cbn; split; [lia|reflexivity]|].
  inversion Hwf as [|? ? Hm Hms]; subst.
  pose proof (pstep_inv c m HI Hm) as Hst. destruct (pstep c m) as [c1 o].
  destruct Hst as (HI1 & _ & _ & Hmono & _ & Hacc).
  destruct (IH c1 n HI1 Hms) as [IH1 IH0]. destruct (prun c1 ms) as [c2 os]. cbn [snd paccepted_count] in *.
  assert (Hmiss : (paccepted_count n ms os <= 1)%nat /\ (cseen c n -> paccepted_count n ms os = 0%nat))
    by (split; [exact IH1|intros H; exact (IH0 (Hmono n H))]).
  destruct m as [r|]; [|exact Hmiss]. destruct o as [[] b|]; try exact Hmiss.
  destruct (seqno r =? n) eqn:E; [|exact Hmiss]. apply Z.eqb_eq in E. subst n.
  destruct (proj1 Hacc eq_refl) as [Hns Hs1]. rewrite (IH0 Hs1). split; [lia|contradiction].
Qed.
(* a reusable nonce is handed on only together with an acceptance: count by count *)
Lemma preuse_le_accepted ms : forall c n, CtxInv c -> Forall pwf ms ->
  (preuse_count n ms (snd (prun c ms)) <= paccepted_count n ms (snd (prun c ms)))%nat.
Proof.
  induction ms as [|m ms IH]; intros c n HI Hwf; cbn [prun]; [cbn; lia|].
  inversion Hwf as [|? ? Hm Hms]; subst.
  pose proof (pstep_inv c m HI Hm) as Hst. destruct (pstep c m) as [c1 o].
  destruct Hst as (HI1 & _ & _ & _ & _ & Hre).
  specialize (IH c1 n HI1 Hms).
  destruct (prun c1 ms) as [c2 os]. cbn [snd paccepted_count preuse_count] in *.
  destruct m as [r|]; [|lia]. destruct o as [o b|]; [|lia].
  destruct b.
  - destruct (proj2 Hre eq_refl) as [-> _]. lia.
  - destruct o; destruct (seqno r =? n); lia.
Qed.
(* messages that cannot recover an uninitialised window *)
Definition no_recovery (c : ctx) (m : pmsg) : Prop :=
  match m with
  | PReq r => 0 <= seqno r /\ echo r <> echo_recovery c
  | PResp (Some n) a => a = false /\ 0 <= n
  | PResp None _ => True
  end.
Lemma pstep_no_recovery c m : CtxInv c -> window c = None -> no_recovery c m ->
  fst (pstep c m) = c /\ match snd (pstep c m) with OReq Accept _ => False | OReq _ true => False | _ => True end.
Proof.
  intros HI Ew Hm. destruct m as [r|own a]; cbn [pstep].
  - destruct Hm as [Hr Hecho]. unfold can_reuse_nonce. rewrite Ew.
    pose proof (unprotect_accept c r HI Hr) as Ha. pose proof (unprotect_reject c r HI Hr) as Hrej.
    destruct (unprotect_request c r) as [c1 o]. rewrite andb_false_r. cbn [fst snd] in *.
    assert (Hne : o <> Accept).
    { intros ->. destruct (Ha eq_refl) as (_ & w' & _ & _ & _ & Hcase). rewrite Ew in Hcase. apply Hecho, Hcase. }
    split; [exact (Hrej Hne)|]. destruct o; auto.
  - rewrite unprotect_response_eq, Ew. cbn [fst snd].
    destruct (echo_recovery c), own as [n|], a; try (split; [reflexivity|exact I]). destruct Hm; discriminate.
Qed.
(* while uninitialised nothing is accepted until either the Echo value comes back or an authentic
   response with the peer's own Partial IV (AEAD-bound to a request of this process) arrives *)
Theorem uninitialised_until_echo_or_bound_response ms : forall c, CtxInv c -> window c = None ->
  Forall (no_recovery c) ms ->
  Forall (fun o => match o with OReq Accept _ => False | OReq _ true => False | _ => True end) (snd (prun c ms))
  /\ window (fst (prun c ms)) = None.
Proof.
  induction ms as [|m ms IH]; intros c HI Ew Hall; cbn [prun]; [cbn; auto|].
  inversion Hall as [|? ? Hm Hms]; subst.
  destruct (pstep_no_recovery c m HI Ew Hm) as [Hc Ho]. destruct (pstep c m) as [c1 o]. cbn [fst snd] in *. subst c1.
  specialize (IH c HI Ew Hms). destruct (prun c ms) as [c2 os]. cbn [fst snd] in *.
  split; [constructor; [exact Ho|apply IH]|apply IH].
Qed.

(* the final state and the outcomes of the authentic messages are those of the history with the forged messages left out *)
Theorem forgeries_do_not_interfere ms : forall c, CtxInv c -> Forall pwf ms ->
  fst (prun c ms) = fst (prun c (filter pauth ms)) /\
  map snd (filter (fun mo => pauth (fst mo)) (combine ms (snd (prun c ms)))) = snd (prun c (filter pauth ms)).
Proof.
  induction ms as [|m ms IH]; intros c HI Hwf; cbn [prun filter]; [cbn; auto|].
  inversion Hwf as [|? ? Hm Hms]; subst.
  pose proof (pstep_inv c m HI Hm) as Hst.
  destruct (pauth m) eqn:Ea.
  - cbn [prun]. destruct (pstep c m) as [c1 o]. destruct Hst as (HI1 & _).
    specialize (IH c1 HI1 Hms). destruct (prun c1 ms) as [c2 os].
    destruct (prun c1 (filter pauth ms)) as [c3 os3]. cbn [fst snd combine filter] in *. rewrite Ea.
    cbn [map snd]. destruct IH as [-> ->]. auto.
  - destruct (pstep c m) as [c1 o]. destruct Hst as (_ & _ & _ & _ & Hc & _). rewrite (Hc eq_refl).
    specialize (IH c HI Hms). destruct (prun c ms) as [c2 os]. cbn [fst snd combine filter] in *. rewrite Ea.
    exact IH.
Qed.

Lemma prun_requests rs : forall c,
  fst (prun c (map PReq rs)) = fst (run c rs) /\
  map (fun o => match o with OReq x _ => x | OResp _ => RejectInvalid end) (snd (prun c (map PReq rs))) = snd (run c rs).
Proof.
  induction rs as [|r rs IH]; intros c; cbn [map prun run pstep]; [auto|].
  destruct (unprotect_request c r) as [c1 o]. specialize (IH c1).
  destruct (prun c1 (map PReq rs)) as [c2 os]. destruct (run c1 rs) as [c3 os3]. cbn [fst snd map] in *.
  destruct IH as [-> ->]. auto.
Qed.

Lemma accepted_count_requests n rs : forall os,
  accepted_count n rs (map (fun o => match o with OReq x _ => x | OResp _ => RejectInvalid end) os) = paccepted_count n (map PReq rs) os.
Proof.
  induction rs as [|r rs IH]; intros [|o os]; cbn [map accepted_count paccepted_count]; try reflexivity.
  rewrite IH. destruct o as [[] b|]; rewrite ?andb_true_r, ?andb_false_r; reflexivity.
Qed.

Lemma run_inv rs c : CtxInv c -> Forall (fun r => 0 <= seqno r) rs -> CtxInv (fst (run c rs)).
Proof. intros HI Hpos. rewrite <- (proj1 (prun_requests rs c)). apply prun_inv; [exact HI|apply Forall_map, Hpos]. Qed.

(* without an Echo value nothing is ever accepted while uninitialised, over whole histories *)
Theorem uninitialised_never_accepts_without_echo rs c : CtxInv c -> window c = None ->
  Forall (fun r => 0 <= seqno r /\ echo r <> echo_recovery c) rs ->
  Forall (fun o => o <> Accept) (snd (run c rs)) /\ window (fst (run c rs)) = None.
Proof.
  intros HI Ew Hall.
  destruct (uninitialised_until_echo_or_bound_response (map PReq rs) c HI Ew) as [Hos Hw]; [apply Forall_map, Hall|].
  rewrite <- (proj1 (prun_requests rs c)), <- (proj2 (prun_requests rs c)). split; [|exact Hw].
  apply Forall_map. eapply Forall_impl; [|exact Hos]. intros [[] b|]; cbn; congruence.
Qed.
