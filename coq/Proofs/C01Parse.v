(* C01 — the executable parser rfc_parse of Model/C01Rfc.v accepts exactly the datagrams of the relation WellFormed,
   with the same fields (so the stream that compares rfc_parse with the oracle's Python parser compares WellFormed with it).
   parse_option is the step it shares with Options.decode (Proofs/C01More.v). *)
From Verif Require Import Lib.Py Lib.Tactics Lib.PyLemmas Model.C01Types Model.C01Rfc.
Open Scope Z_scope.

Lemma bytes_ok_cons_inv x l : bytes_ok (x :: l) = true -> 0 <= x < 256 /\ bytes_ok l = true.
Proof. rewrite bytes_ok_cons. unfold byte_ok. intros H. apply andb_prop in H as [Hx Hl]. split; [lia|exact Hl]. Qed.
Lemma bytes_ok_app_r a b : bytes_ok (a ++ b) = true -> bytes_ok b = true.
Proof. rewrite bytes_ok_app. intros H. apply andb_prop in H. tauto. Qed.

Lemma ExtField_range nib ext v : ExtField nib ext v -> 0 <= nib <= 14 /\ 0 <= v.
Proof. intros H. destruct H; lia. Qed.

Lemma parse_ext_complete nib ext v r : ExtField nib ext v -> parse_ext nib (ext ++ r) = Some (v, r).
Proof.
  intros H. destruct H as [n Hn|b Hb|b1 b0 H1 H0]; unfold parse_ext.
  - replace ((0 <=? n) && (n <=? 12)) with true by lia. reflexivity.
  - reflexivity.
  - reflexivity.
Qed.
Lemma parse_ext_sound nib bs v r : bytes_ok bs = true -> parse_ext nib bs = Some (v, r) ->
  exists ext, ExtField nib ext v /\ bs = ext ++ r.
Proof.
  intros Hok. unfold parse_ext. destruct ((0 <=? nib) && (nib <=? 12)) eqn:A.
  { intros E. injection E as <- <-. exists []. split; [constructor; lia|reflexivity]. }
  destruct (nib =? 13) eqn:B.
  { destruct bs as [|b bs']; [discriminate|]. intros E. injection E as <- <-.
    apply bytes_ok_cons_inv in Hok as [Hb _].
    exists [b]. replace nib with 13 by lia. split; [constructor; lia|reflexivity]. }
  destruct (nib =? 14) eqn:C; [|discriminate].
  destruct bs as [|b1 [|b0 bs']]; try discriminate. intros E. injection E as <- <-.
  apply bytes_ok_cons_inv in Hok as [H1 Hok]. apply bytes_ok_cons_inv in Hok as [H0 _].
  exists [b1; b0]. replace nib with 14 by lia. split; [constructor; lia|reflexivity].
Qed.

(* one option taken apart: what both the specification's parser and Options.decode do with the bytes after a head byte h *)
Definition parse_option (h : Z) (r : bytes) : option (Z * Z * bytes * bytes) :=
  match parse_ext (h / 16) r with
  | Some (d, r1) =>
    match parse_ext (h mod 16) r1 with
    | Some (l, r2) => if blen r2 <? l then None else Some (d, l, bto r2 l, bfrom r2 l)
    | None => None
    end
  | None => None
  end.

Lemma parse_option_complete dn ln de le d l v rest : ExtField dn de d -> ExtField ln le l -> blen v = l ->
  parse_option (dn * 16 + ln) (de ++ le ++ v ++ rest) = Some (d, l, v, rest).
Proof.
  intros Hd Hl Hv. destruct (ExtField_range _ _ _ Hd). destruct (ExtField_range _ _ _ Hl). unfold parse_option.
  replace ((dn * 16 + ln) / 16) with dn by lia. replace ((dn * 16 + ln) mod 16) with ln by lia.
  rewrite (parse_ext_complete _ _ _ _ Hd), (parse_ext_complete _ _ _ _ Hl), blen_app. pose proof (blen_nonneg rest).
  replace (blen v + blen rest <? l) with false by lia. rewrite <- Hv, bfrom_app, bto_app. reflexivity.
Qed.
Lemma parse_option_sound h r d l v rest : bytes_ok r = true -> parse_option h r = Some (d, l, v, rest) ->
  exists de le, ExtField (h / 16) de d /\ ExtField (h mod 16) le l /\ blen v = l /\ r = de ++ le ++ v ++ rest /\
                bytes_ok v = true /\ bytes_ok rest = true.
Proof.
  intros Hok. unfold parse_option.
  destruct (parse_ext (h / 16) r) as [[d' r1]|] eqn:P1; [|discriminate].
  destruct (parse_ext_sound _ _ _ _ Hok P1) as (de & Hd & ->). apply bytes_ok_app_r in Hok.
  destruct (parse_ext (h mod 16) r1) as [[l' r2]|] eqn:P2; [|discriminate].
  destruct (parse_ext_sound _ _ _ _ Hok P2) as (le & Hl & ->). apply bytes_ok_app_r in Hok.
  destruct (blen r2 <? l') eqn:Elen; [discriminate|]. intros E. injection E as <- <- <- <-.
  destruct (ExtField_range _ _ _ Hl). pose proof (blen_nonneg r2). exists de, le. rewrite bto_bfrom.
  repeat split; try assumption; [apply blen_bto; lia|apply bytes_ok_firstn, Hok|apply bytes_ok_skipn, Hok].
Qed.

Lemma rfc_parse_options_cons k prev h r : rfc_parse_options (S k) prev (h :: r) =
  if h =? 255 then match r with [] => None | _ => Some ([], r) end
  else match parse_option h r with
       | Some (d, l, v, rest) =>
         match rfc_parse_options k (prev + d) rest with Some (opts, p) => Some ((prev + d, v) :: opts, p) | None => None end
       | None => None
       end.
Proof.
  cbn [rfc_parse_options]. unfold parse_option. destruct (h =? 255); [reflexivity|].
  destruct (parse_ext (h / 16) r) as [[d r1]|]; [|reflexivity]. destruct (parse_ext (h mod 16) r1) as [[l r2]|]; [|reflexivity].
  destruct (blen r2 <? l); reflexivity.
Qed.

Lemma rfc_parse_options_complete prev bs opts p : OptionsWF prev bs opts p ->
  forall fuel, (length bs < fuel)%nat -> rfc_parse_options fuel prev bs = Some (opts, p).
Proof.
  induction 1 as [prev|prev p Hp|prev dn ln de le d l v rest opts p Hd Hl Hv W IH]; intros fuel Hf;
    (destruct fuel; [inversion Hf|]).
  - reflexivity.
  - rewrite rfc_parse_options_cons. destruct p; [congruence|reflexivity].
  - destruct (ExtField_range _ _ _ Hd). destruct (ExtField_range _ _ _ Hl).
    rewrite rfc_parse_options_cons, (parse_option_complete _ _ _ _ _ _ _ _ Hd Hl Hv). replace (dn * 16 + ln =? 255) with false by lia.
    rewrite IH; [reflexivity|]. cbn [length] in Hf. rewrite !app_length in Hf. lia.
Qed.

Lemma rfc_parse_options_sound fuel : forall prev bs opts p, bytes_ok bs = true ->
  rfc_parse_options fuel prev bs = Some (opts, p) -> OptionsWF prev bs opts p.
Proof.
  induction fuel as [|fuel IH]; intros prev bs opts p Hok; [discriminate|]. destruct bs as [|h r].
  { intros E. injection E as <- <-. constructor. }
  apply bytes_ok_cons_inv in Hok as [Hh Hok]. rewrite rfc_parse_options_cons. destruct (h =? 255) eqn:E255.
  { destruct r as [|x r']; [discriminate|]. intros E. injection E as <- <-. replace h with 255 by lia. constructor. discriminate. }
  destruct (parse_option h r) as [[[[d l] v] rest]|] eqn:P; [|discriminate].
  destruct (parse_option_sound _ _ _ _ _ _ Hok P) as (de & le & Hd & Hl & Hv & -> & _ & Hrest).
  destruct (rfc_parse_options fuel (prev + d) rest) as [[opts' p']|] eqn:Rec; [|discriminate].
  intros E. injection E as <- <-. replace h with (h / 16 * 16 + h mod 16) at 1 by lia.
  apply OWF_option with (l := l); try assumption. exact (IH _ _ _ _ Hrest Rec).
Qed.

(* the first byte of RFC 7252 figure 7 (version 1) and its three fields *)
Lemma header_byte t tkl : 0 <= t < 4 -> 0 <= tkl <= 15 -> let b := 64 + t * 16 + tkl in b / 64 = 1 /\ b / 16 mod 4 = t /\ b mod 16 = tkl.
Proof. lia. Qed.

Lemma rfc_parse_iff bs rm : bytes_ok bs = true -> (rfc_parse bs = Some rm <-> WellFormed bs rm).
Proof.
  intros Hok. split.
  - unfold rfc_parse. destruct bs as [|b0 [|c [|m1 [|m0 r]]]]; try discriminate.
    apply bytes_ok_cons_inv in Hok as [H0 Hok]. apply bytes_ok_cons_inv in Hok as [Hc Hok].
    apply bytes_ok_cons_inv in Hok as [H1 Hok]. apply bytes_ok_cons_inv in Hok as [H2 Hok].
    cbv zeta. destruct ((b0 / 64 =? 1) && (b0 mod 16 <=? 8) && (b0 mod 16 <=? blen r)) eqn:G; [|discriminate].
    destruct (rfc_parse_options (S (length r)) 0 (skipn (Z.to_nat (b0 mod 16)) r)) as [[opts p]|] eqn:P; [|discriminate].
    intros E. injection E as <-.
    assert (W := rfc_parse_options_sound _ _ _ _ _ (bytes_ok_skipn _ _ Hok) P).
    replace b0 with (64 + (b0 / 16) mod 4 * 16 + b0 mod 16) at 1 by lia.
    rewrite <- (firstn_skipn (Z.to_nat (b0 mod 16)) r) at 1.
    apply WF_datagram with (tkl := b0 mod 16); try lia; [|exact W].
    fold (bto r (b0 mod 16)). apply blen_bto. pose proof (blen_nonneg r). lia.
  - intros W. destruct W as [t tkl c m1 m0 tok rest opts p Ht Hk Hc H1 H0 Htok W].
    unfold rfc_parse. cbv zeta.
    destruct (header_byte t tkl) as (A & B & C); [lia|lia|]. rewrite A, B, C.
    rewrite blen_app. pose proof (blen_nonneg rest).
    replace ((1 =? 1) && (tkl <=? 8) && (tkl <=? blen tok + blen rest)) with true by lia.
    rewrite <- Htok. fold (bfrom (tok ++ rest) (blen tok)). fold (bto (tok ++ rest) (blen tok)). rewrite bfrom_app, bto_app.
    rewrite (rfc_parse_options_complete _ _ _ _ W); [reflexivity|]. rewrite app_length. lia.
Qed.
