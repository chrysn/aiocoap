(* C14 — runs of the model with a refusing transport (Model/C14refuse.v, the code after fixes 11456f9 / 8d04b7c): while the
   transport refuses nothing, a run IS a run of Model/C14.v, so every theorem about Model/C14.v is a theorem about the general
   model without refusals; for arbitrary refusals the invariant holds in every reachable state ([rrun_trans] of Proofs/C14.v
   says the same of the FIFO accounting and of internal errors). *)
From Verif Require Import Lib.Tactics Model.C14 Model.C14refuse Proofs.C14.
Import ListNotations.
Open Scope Z_scope.

Lemma send_via_transport_nil o r s : send_via_transport [] o r s = (s, [o]).
Proof. reflexivity. Qed.

Lemma send_message_nil who r mt code tok maxre s : C14refuse.send_message [] who r mt code tok maxre s = C14.send_message who r mt code tok maxre s.
Proof. reflexivity. Qed.

Lemma tm_request_nil q r mt maxre s : C14refuse.tm_request [] q r mt maxre s = C14.tm_request q r mt maxre s.
Proof. reflexivity. Qed.

Lemma fire_nil s : C14refuse.fire [] s = C14.fire s.
Proof. reflexivity. Qed.

Theorem rrun_quiet es : forall s, Inv s -> quiet es = true ->
  fst (rrun (s, []) es) = (fst (run s (events_of es)), []) /\
  concat (snd (rrun (s, []) es)) = concat (snd (run s (events_of es))).
Proof. induction es as [|e es IH]; intros s HI Hq; [split; reflexivity|].
  cbn [quiet forallb] in Hq. apply andb_prop in Hq. destruct Hq as [He Hq].
  destruct e as [e|r [|]]; [| discriminate |].
  - cbn [rrun rstep events_of flat_map app run]. rewrite (step_without_refusal s e HI).
    pose proof (step_trans s e HI) as (HI1 & _). destruct (C14.step s e) as [s1 o1]. cbn [fst] in HI1.
    specialize (IH s1 HI1 Hq). change (flat_map _ es) with (events_of es).
    destruct (rrun (s1, []) es) as [sl2 os]. destruct (run s1 (events_of es)) as [s2 os']. cbn [fst snd concat] in *.
    destruct IH as (-> & ->). split; reflexivity.
  - cbn [rrun rstep events_of flat_map app filter]. specialize (IH s HI Hq). change (flat_map _ es) with (events_of es).
    destruct (rrun (s, []) es) as [sl2 os]. cbn [fst snd concat app] in *. exact IH. Qed.

Theorem general_inv a b c es : Inv (fst (fst (rrun (init a b c, []) es))).
Proof. apply rrun_trans, inv_init. Qed.

Theorem general_step l s e : Inv s ->
  let s' := fst (step_ev l s e) in let o := snd (step_ev l s e) in
  Inv s' /\ (forall r, backlog_of r s ++ subm r o = left r o ++ backlog_of r s') /\ (forall x, ~ In (Crash x) o).
Proof. intros HI. destruct (step_ev_trans l s e HI) as (A & B & C). split; [exact A|]. split; [exact B|].
  intros x. exact (nocrash_in _ x C). Qed.

Theorem refusal_is_transport_error l what r s : refuses l r = true ->
  send_via_transport l what r s = (fst (step s (TransportError r)), refused_ghost what ++ snd (step s (TransportError r))).
Proof. intros H. unfold send_via_transport. rewrite H. cbn [step]. destruct (dispatch_error r s); reflexivity. Qed.
