(* C15 — TcpConnection.data_received: what one message does to a connection, the spool loop and its fuel,
   segmentation independence, close / escape bookkeeping. *)
From Verif Require Import Lib.Py Lib.Tactics Lib.PyLemmas Gen.options_ext Gen.tcp_framing Model.C15 Proofs.C15Framing Proofs.C15Codec.
Open Scope Z_scope.

Definition esc (o : list out) : bool := existsb is_escaped o.
Definition has_close (o : list out) : bool := existsb is_close o.

Lemma esc_app a b : esc (a ++ b) = esc a || esc b. Proof. apply existsb_app. Qed.

(* Everything the signalling code and the dispatcher can do to a connection: leave it as it is (with at most one
   output), close the transport, or let an exception escape. Besides that only the remote settings change: [keep]. *)
Inductive effect :=
| Quiet | Wrote (b : bytes) | Req (m : msg) | Resp (m : msg)
| Aborted (b : bytes) | PeerClosed (e : errkind)
| Raised (e : exn).
Definition outs (x : effect) : list out :=
  match x with
  | Quiet => [] | Wrote b => [Write b] | Req m => [Request m] | Resp m => [Response m]
  | Aborted b => [Write b; Close] | PeerClosed e => [DispatchError e; Close]
  | Raised e => [Escaped e]
  end.
Definition act (x : effect) (c : conn) : conn :=
  match x with Aborted _ | PeerClosed _ => set_closed c | _ => c end.
Definition stays (x : effect) : bool :=
  match x with Quiet | Wrote _ | Req _ | Resp _ => true | _ => false end.
Definition keep (st : option settings) (c : conn) : conn :=
  match st with Some _ => set_settings c st | None => c end.

(* The effect lemmas choose the effect before the connection: it depends on the connection only through the
   settings (and the loop control through [closed]), in particular not on the spool. *)
Lemma abort_effect t b : exists x, stays x = false /\ existsb is_dispatch (outs x) = false /\
  forall c, abort c t b = (act x c, outs x, negb (esc (outs x))).
Proof. unfold abort. destruct (serialize _) as [f|e]; [exists (Aborted f)|exists (Raised e)]; repeat split. Qed.

(* the option loop of a CSM stops at the first critical option (2 and 4 are elective); the rest only decides the settings *)
Lemma process_csm_options_eq : forall os st, exists st1, forall c,
  process_csm_options c st os =
  match find (fun o => is_critical (fst o)) os with
  | None => (c, st1, [], true)
  | Some o => let '(c1, o1, ok) := abort c txt_option_not_supported (Some (fst o)) in (c1, st1, o1, ok)
  end.
Proof.
  induction os as [|[n v] r IH]; intros st; [exists st; reflexivity|].
  cbn [process_csm_options find fst]. destruct (is_critical n) eqn:Hc.
  - destruct (Z.eqb_spec n 2) as [->|_]; [discriminate Hc|]. destruct (Z.eqb_spec n 4) as [->|_]; [discriminate Hc|].
    exists st. reflexivity.
  - destruct (n =? 2); [apply IH|]. destruct (n =? 4); apply IH.
Qed.

Lemma process_csm_options_effect os st : exists st1 x, existsb is_dispatch (outs x) = false /\
  forall c, process_csm_options c st os = (act x c, st1, outs x, negb (esc (outs x))).
Proof.
  destruct (process_csm_options_eq os st) as [st1 E]. revert E. destruct (find _ os) as [o|]; intros E.
  - destruct (abort_effect txt_option_not_supported (Some (fst o))) as (x & _ & Hd & Hx).
    exists st1, x. split; [exact Hd|]. intros c. rewrite E, Hx. reflexivity.
  - exists st1, Quiet. split; [reflexivity|exact E].
Qed.

(* how the result of process_signaling goes with the effect: an own Abort still reports SOk *)
Definition sig_res (st : option settings) (x : effect) (res : sigres) : Prop :=
  match res with SOk => esc (outs x) = false | SExc => stays x = false | SClose _ => x = Quiet /\ st = None end.
Lemma sig_res_ok st x : sig_res st x (if negb (esc (outs x)) then SOk else SExc).
Proof. destruct x; reflexivity. Qed.

Lemma process_signaling_effect m rs : exists st x res,
  (forall c, remote_settings c = rs -> process_signaling c m = (keep st (act x c), outs x, res)) /\
  existsb is_dispatch (outs x) = false /\ sig_res st x res.
Proof.
  assert (B : forall t, exists st x res,
            (forall c, remote_settings c = rs ->
               (let '(c1, o1, ok) := abort c t None in (c1, o1, if ok then SOk else SExc)) = (keep st (act x c), outs x, res)) /\
            existsb is_dispatch (outs x) = false /\ sig_res st x res).
  { intros t. destruct (abort_effect t None) as (x & _ & Hd & Hx).
    exists None, x, (if negb (esc (outs x)) then SOk else SExc).
    split; [intros c _; rewrite Hx; reflexivity|split; [exact Hd|apply sig_res_ok]]. }
  unfold process_signaling. destruct (code m =? CSM).
  { destruct (process_csm_options_effect (opts m)
      match rs with Some s => s | None => {| max_message_size := None; block_wise_transfer := false |} end) as (st1 & x & Hd & Hx).
    exists (Some st1), x, (if negb (esc (outs x)) then SOk else SExc).
    split; [intros c <-; rewrite Hx; reflexivity|split; [exact Hd|apply sig_res_ok]]. }
  destruct ((code m =? PING) || (code m =? PONG) || (code m =? RELEASE) || (code m =? ABORT)); [|apply B].
  destruct (has_critical (opts m)); [apply B|].
  destruct (code m =? PING).
  { unfold send_message. destruct (serialize _) as [b|e]; [exists None, (Wrote b), SOk|exists None, (Raised e), SExc]; repeat split. }
  destruct (code m =? PONG); [exists None, Quiet, SOk; repeat split|].
  destruct (code m =? RELEASE); [exists None, Quiet, (SClose PeerReleased)|exists None, Quiet, (SClose PeerAborted)]; repeat split.
Qed.

Lemma handle_message_effect m rs cl : exists st x k,
  (forall c, remote_settings c = rs -> closed c = cl -> handle_message c m = (keep st (act x c), outs x, k)) /\
  (cl = false -> k = if stays x then Continue else Return) /\
  (existsb is_dispatch (outs x) = true -> rs <> None).
Proof.
  unfold handle_message. destruct (is_signalling (code m)).
  - destruct (process_signaling_effect m rs) as (st & x & res & Hx & Hd & Hres). destruct res as [|e|].
    + exists st, x, (if has_close (outs x) || cl then Return else Continue). split; [|split].
      * intros c Hrs <-. rewrite (Hx c Hrs). destruct st, x; reflexivity.
      * intros ->. destruct x; try reflexivity; discriminate.
      * rewrite Hd. discriminate.
    + destruct Hres as [-> ->]. exists None, (PeerClosed e), Return. split; [|split; [reflexivity|discriminate]].
      intros c Hrs _. rewrite (Hx c Hrs). reflexivity.
    + exists st, x, Return. split; [|split; [rewrite Hres; reflexivity|rewrite Hd; discriminate]].
      intros c Hrs _. rewrite (Hx c Hrs). reflexivity.
  - destruct rs as [s|].
    + unfold dispatch_incoming.
      destruct (code m =? 0); [exists None, Quiet, Continue|
        destruct (is_response (code m)); [exists None, (Resp m), Continue|exists None, (Req m), Continue]];
      (split; [intros c -> _; reflexivity|split; [reflexivity|discriminate]]).
    + destruct (abort_effect txt_no_csm None) as (x & Hs & Hd & Hx). exists None, x, Return.
      split; [intros c -> _; rewrite Hx; reflexivity|split; [rewrite Hs; reflexivity|rewrite Hd; discriminate]].
Qed.

(* the spool is only touched by the loop itself *)
Definition on_conn3 {B} (f : conn -> conn) (r : conn * list out * B) : conn * list out * B :=
  let '(c, o, b) := r in (f c, o, b).

Lemma set_spool_same c : set_spool c (spool c) = c.
Proof. destruct c; reflexivity. Qed.

Lemma handle_message_spool c s m :
  handle_message (set_spool c s) m = on_conn3 (fun c => set_spool c s) (handle_message c m).
Proof.
  destruct (handle_message_effect m (remote_settings c) (closed c)) as (st & x & k & H & _).
  rewrite (H c eq_refl eq_refl), (H (set_spool c s) eq_refl eq_refl). destruct st, x; reflexivity.
Qed.

Lemma handle_message_frame c m :
  let '(c1, _, _) := handle_message c m in spool c1 = spool c /\ my_max_message_size c1 = my_max_message_size c.
Proof.
  destruct (handle_message_effect m (remote_settings c) (closed c)) as (st & x & k & H & _).
  rewrite (H c eq_refl eq_refl). destruct st, x; split; reflexivity.
Qed.

(* the head of the spool: incomplete (`break`), announced too big (Abort), or a complete frame and the rest *)
Inductive view := VNeed | VBig | VFrame (frame rest : bytes).
Definition view_of (maxsize : Z) (sp : bytes) : view :=
  match header sp with
  | None => VNeed
  | Some (a, t, l) =>
    if a + t + l >? maxsize then VBig
    else if a + t + l >? blen sp then VNeed
    else VFrame (bto sp (a + t + l)) (bfrom sp (a + t + l))
  end.
Definition stop {B} (r : conn * list out * B) : conn * list out * ctl := let '(c, o, _) := r in (c, o, Return).
Definition decode_failed (c : conn) (e : exn) : conn * list out * ctl :=
  match e with UnparsableMessage => stop (abort c txt_failed_to_parse None) | _ => (c, [Escaped e], Return) end.
Definition frame_step (c : conn) (f r : bytes) : conn * list out * ctl :=
  match decode_message f with
  | Ok m => handle_message (set_spool c r) m
  | Raise e => decode_failed c e
  end.
Definition view_body (rec : conn -> conn * list out * ctl) (c : conn) : conn * list out * ctl :=
  match view_of (my_max_message_size c) (spool c) with
  | VNeed => (c, [], Continue)
  | VBig => stop (abort c txt_overly_large None)
  | VFrame f r =>
    let '(c1, o1, k) := frame_step c f r in
    match k with Return => (c1, o1, Return) | Continue => let '(c2, o2, k2) := rec c1 in (c2, o1 ++ o2, k2) end
  end.

Lemma decode_failed_effect e : exists x, stays x = false /\ existsb is_dispatch (outs x) = false /\
  forall c, decode_failed c e = (act x c, outs x, Return).
Proof.
  destruct (abort_effect txt_failed_to_parse None) as (x & Hs & Hd & H).
  assert (A : exists x, stays x = false /\ existsb is_dispatch (outs x) = false /\
              forall c : conn, (c, [Escaped e], Return) = (act x c, outs x, Return)) by (exists (Raised e); auto).
  unfold decode_failed. destruct e; try exact A.
  exists x. split; [exact Hs|]. split; [exact Hd|]. intros c. rewrite H. reflexivity.
Qed.

Lemma loop_body_view rec c : loop_body rec c = view_body rec c.
Proof.
  unfold loop_body, view_body, view_of. rewrite extract_message_size_spec.
  destruct (header (spool c)) as [[[a t] l]|]; [|reflexivity].
  destruct (a + t + l >? my_max_message_size c); [reflexivity|].
  destruct (a + t + l >? blen (spool c)); [reflexivity|].
  unfold frame_step, handle_message.
  destruct (decode_message _) as [m|e].
  2:{ destruct (decode_failed_effect e) as (x & _ & _ & H). transitivity (decode_failed c e); [reflexivity|]. rewrite H. reflexivity. }
  destruct (is_signalling (code m)).
  { destruct (process_signaling _ m) as [[c1 o1] res]. destruct res; try reflexivity.
    destruct (closed c1); reflexivity. }
  destruct (remote_settings _); [reflexivity|].
  destruct (abort _ _ None) as [[c1 o1] ok]; reflexivity.
Qed.

Lemma view_frame_facts maxsize sp f r : bytes_ok sp = true -> view_of maxsize sp = VFrame f r ->
  sp = f ++ r /\ (length r < length sp)%nat /\ bytes_ok f = true /\ bytes_ok r = true /\
  exists a t l, header f = Some (a, t, l) /\ a + t + l = blen f /\ a + t + l <= maxsize.
Proof.
  intros Hok H. unfold view_of in H.
  destruct (header sp) as [[[a t] l]|] eqn:Hh; [|discriminate].
  destruct (a + t + l >? maxsize) eqn:H1; [discriminate|].
  destruct (a + t + l >? blen sp) eqn:H2; [discriminate|].
  injection H as <- <-.
  destruct (header_bounds sp a t l Hok Hh) as (Ha & Ht & Hl & _).
  split; [symmetry; apply bto_bfrom|].
  split. { unfold bfrom. rewrite skipn_length. unfold blen in H2. lia. }
  split; [apply bytes_ok_firstn; exact Hok|]. split; [apply bytes_ok_skipn; exact Hok|].
  exists a, t, l. rewrite blen_bto by lia. split; [|lia]. apply header_firstn; [exact Hh|lia].
Qed.

Lemma view_frame_intro maxsize f rest a t l : header f = Some (a, t, l) -> a + t + l = blen f -> blen f <= maxsize ->
  view_of maxsize (f ++ rest) = VFrame f rest.
Proof.
  intros Hh Hlen Hmax. unfold view_of. rewrite (header_app f rest _ Hh), Hlen, blen_app.
  pose proof (blen_nonneg rest). replace (blen f >? maxsize) with false by lia.
  replace (blen f >? blen f + blen rest) with false by lia. rewrite bto_app, bfrom_app. reflexivity.
Qed.

Lemma view_app maxsize sp t : bytes_ok sp = true ->
  match view_of maxsize sp with
  | VNeed => True
  | VBig => view_of maxsize (sp ++ t) = VBig
  | VFrame f r => view_of maxsize (sp ++ t) = VFrame f (r ++ t)
  end.
Proof.
  intros Hok. destruct (view_of maxsize sp) as [| |f r] eqn:V; [exact I| |].
  - unfold view_of in *. destruct (header sp) as [[[a tk] l]|] eqn:Hh; [|discriminate]. rewrite (header_app sp t _ Hh).
    destruct (a + tk + l >? maxsize); [reflexivity|]. destruct (a + tk + l >? blen sp); discriminate.
  - destruct (view_frame_facts _ _ _ _ Hok V) as (-> & _ & _ & _ & a & tk & l & Hh & Hl & Hm).
    rewrite <- app_assoc. apply (view_frame_intro _ _ _ a tk l Hh Hl). lia.
Qed.

Lemma frame_step_feed c f r t :
  frame_step (feed c t) f (r ++ t) = on_conn3 (fun c' => feed c' t) (frame_step c f r).
Proof.
  unfold frame_step. destruct (decode_message f) as [m|e].
  - change (set_spool (feed c t) (r ++ t)) with (set_spool c (r ++ t)).
    rewrite (handle_message_spool c r), (handle_message_spool c (r ++ t)).
    destruct (handle_message c m) as [[c1 o1] k]. reflexivity.
  - destruct (decode_failed_effect e) as (x & _ & _ & H). rewrite !H. destruct x; reflexivity.
Qed.

(* when the loop goes round again the spool has become shorter *)
Lemma frame_step_continue c f r c1 o1 : bytes_ok (spool c) = true -> view_of (my_max_message_size c) (spool c) = VFrame f r ->
  frame_step c f r = (c1, o1, Continue) ->
  bytes_ok (spool c1) = true /\ (length (spool c1) < length (spool c))%nat /\ my_max_message_size c1 = my_max_message_size c.
Proof.
  intros Hok V. destruct (view_frame_facts _ _ _ _ Hok V) as (_ & Hlen & _ & Hrok & _).
  unfold frame_step. destruct (decode_message f) as [m|e].
  - intros H. pose proof (handle_message_frame (set_spool c r) m) as F. rewrite H in F. destruct F as [-> F].
    repeat split; assumption.
  - destruct (decode_failed_effect e) as (x & _ & _ & H). rewrite H. discriminate.
Qed.

Lemma view_body_ext rec1 rec2 c : bytes_ok (spool c) = true ->
  (forall c1, bytes_ok (spool c1) = true -> (length (spool c1) < length (spool c))%nat -> rec1 c1 = rec2 c1) ->
  view_body rec1 c = view_body rec2 c.
Proof.
  intros Hok H. unfold view_body. destruct (view_of _ (spool c)) as [| |f r] eqn:V; try reflexivity.
  destruct (frame_step c f r) as [[c1 o1] [|]] eqn:FS; [|reflexivity].
  destruct (frame_step_continue _ _ _ _ _ Hok V FS) as (Hok1 & Hlen & _). rewrite (H c1 Hok1 Hlen). reflexivity.
Qed.

(* a frame that does not parse is not taken from the spool: [sp] *)
Lemma frame_step_effect c f r : closed c = false -> exists st x sp,
  frame_step c f r = (keep st (act x (set_spool c sp)), outs x, if stays x then Continue else Return) /\
  (sp = r \/ sp = spool c /\ stays x = false) /\
  (existsb is_dispatch (outs x) = true -> remote_settings c <> None).
Proof.
  intros Hcl. unfold frame_step. destruct (decode_message f) as [m|e].
  - destruct (handle_message_effect m (remote_settings c) false) as (st & x & k & H & Hk & Hd).
    exists st, x, r. rewrite (H (set_spool c r) eq_refl Hcl), (Hk eq_refl). auto.
  - destruct (decode_failed_effect e) as (x & Hs & Hd & H).
    exists None, x, (spool c). rewrite set_spool_same, H, Hs, Hd. repeat split; auto; discriminate.
Qed.

(* the fuel is irrelevant once it exceeds the spool length *)
Lemma loop_fuel : forall n n' c, bytes_ok (spool c) = true ->
  (length (spool c) < n)%nat -> (length (spool c) < n')%nat ->
  data_received_loop n c = data_received_loop n' c.
Proof.
  induction n as [|n IH]; intros n' c Hok Hn Hn'; [lia|]. destruct n' as [|n']; [lia|].
  cbn [data_received_loop]. rewrite !loop_body_view. apply (view_body_ext _ _ c Hok).
  intros c1 Hok1 Hlen. apply (IH n' c1 Hok1); lia.
Qed.

(* the loop with the fuel data_received gives it *)
Definition loop' (c : conn) : conn * list out * ctl := data_received_loop (S (length (spool c))) c.

Lemma loop'_unfold c : bytes_ok (spool c) = true -> loop' c = view_body loop' c.
Proof.
  intros Hok. unfold loop' at 1. cbn [data_received_loop]. rewrite loop_body_view. apply (view_body_ext _ _ c Hok).
  intros c1 Hok1 Hlen. apply (loop_fuel _ _ c1 Hok1); lia.
Qed.

Lemma data_received_ctl_loop' c d : data_received_ctl c d = loop' (feed c d).
Proof. reflexivity. Qed.

(* induction along the loop, one case per way an iteration can end *)
Lemma loop'_ind (P : conn -> conn * list out * ctl -> Prop) :
  (forall c, bytes_ok (spool c) = true -> view_of (my_max_message_size c) (spool c) = VNeed -> P c (c, [], Continue)) ->
  (forall c, bytes_ok (spool c) = true -> view_of (my_max_message_size c) (spool c) = VBig ->
     P c (stop (abort c txt_overly_large None))) ->
  (forall c f r c1 o1, bytes_ok (spool c) = true -> view_of (my_max_message_size c) (spool c) = VFrame f r ->
     frame_step c f r = (c1, o1, Return) -> P c (c1, o1, Return)) ->
  (forall c f r c1 o1, bytes_ok (spool c) = true -> view_of (my_max_message_size c) (spool c) = VFrame f r ->
     frame_step c f r = (c1, o1, Continue) -> bytes_ok (spool c1) = true ->
     my_max_message_size c1 = my_max_message_size c -> P c1 (loop' c1) ->
     P c (let '(c2, o2, k) := loop' c1 in (c2, o1 ++ o2, k))) ->
  forall c, bytes_ok (spool c) = true -> P c (loop' c).
Proof.
  intros HN HB HR HC.
  assert (H : forall n c, (length (spool c) < n)%nat -> bytes_ok (spool c) = true -> P c (loop' c)).
  { induction n as [|n IH]; intros c Hn Hok; [lia|].
    rewrite (loop'_unfold c Hok). unfold view_body.
    destruct (view_of _ (spool c)) as [| |f r] eqn:V; [exact (HN c Hok V)|exact (HB c Hok V)|].
    destruct (frame_step c f r) as [[c1 o1] [|]] eqn:FS; [|exact (HR c f r c1 o1 Hok V FS)].
    destruct (frame_step_continue _ _ _ _ _ Hok V FS) as (Hok1 & Hlen & Hmax).
    exact (HC c f r c1 o1 Hok V FS Hok1 Hmax (IH c1 ltac:(lia) Hok1)). }
  intros c. apply (H (S (length (spool c)))). lia.
Qed.

Lemma feed_ok c t : bytes_ok (spool c) = true -> bytes_ok t = true -> bytes_ok (spool (feed c t)) = true.
Proof. intros Hc Ht. cbn. rewrite bytes_ok_app, Hc, Ht. reflexivity. Qed.

Lemma loop'_feed_unfold c t : bytes_ok (spool c) = true -> bytes_ok t = true ->
  loop' (feed c t) =
  match view_of (my_max_message_size c) (spool c) with
  | VNeed => loop' (feed c t)
  | VBig => stop (abort (feed c t) txt_overly_large None)
  | VFrame f r =>
    let '(c1, o1, k) := on_conn3 (fun c' => feed c' t) (frame_step c f r) in
    match k with Return => (c1, o1, Return) | Continue => let '(c2, o2, k2) := loop' c1 in (c2, o1 ++ o2, k2) end
  end.
Proof.
  intros Hok Ht. pose proof (view_app (my_max_message_size c) (spool c) t Hok) as VA.
  destruct (view_of _ (spool c)) as [| |f r]; [reflexivity| |];
    rewrite (loop'_unfold _ (feed_ok c t Hok Ht)); unfold view_body;
    change (view_of _ (spool (feed c t))) with (view_of (my_max_message_size c) (spool c ++ t)); rewrite VA;
    [|rewrite frame_step_feed]; reflexivity.
Qed.

(* bytes that arrive behind the spool are looked at only if the loop ends by waiting for more *)
Lemma loop_feed t : bytes_ok t = true -> forall c, bytes_ok (spool c) = true ->
  loop' (feed c t) =
  match loop' c with
  | (c1, o1, Return) => (feed c1 t, o1, Return)
  | (c1, o1, Continue) => let '(c2, o2, k) := loop' (feed c1 t) in (c2, o1 ++ o2, k)
  end.
Proof.
  intros Ht.
  apply (loop'_ind (fun c r => loop' (feed c t) =
    match r with
    | (c1, o1, Return) => (feed c1 t, o1, Return)
    | (c1, o1, Continue) => let '(c2, o2, k) := loop' (feed c1 t) in (c2, o1 ++ o2, k)
    end)).
  - intros c _ _. destruct (loop' (feed c t)) as [[c2 o2] k]. reflexivity.
  - intros c Hok V. rewrite (loop'_feed_unfold c t Hok Ht), V.
    destruct (abort_effect txt_overly_large None) as (x & _ & _ & H). rewrite !H. destruct x; reflexivity.
  - intros c f r c1 o1 Hok V FS. rewrite (loop'_feed_unfold c t Hok Ht), V, FS. reflexivity.
  - intros c f r c1 o1 Hok V FS Hok1 _ IH. rewrite (loop'_feed_unfold c t Hok Ht), V, FS. cbn [on_conn3]. rewrite IH.
    destruct (loop' c1) as [[c2 o2] [|]]; [|reflexivity].
    destruct (loop' (feed c2 t)) as [[c3 o3] k3]. rewrite app_assoc. reflexivity.
Qed.

(* the loop on an open connection: a Close or an escaping exception is the last output and makes the method return;
   the transport is closed iff a Close was written *)
Definition ended (o : list out) : bool := esc o || has_close o.
Definition loop_post (c : conn) (r : conn * list out * ctl) : Prop :=
  let '(c1, o, k) := r in
  closed c1 = has_close o /\ upto_close o = o /\ ended o = match k with Continue => false | Return => true end /\
  bytes_ok (spool c1) = true /\ my_max_message_size c1 = my_max_message_size c.

Lemma stays_outs x o : stays x = true ->
  has_close (outs x ++ o) = has_close o /\ esc (outs x ++ o) = esc o /\ upto_close (outs x ++ o) = outs x ++ upto_close o.
Proof. destruct x; try discriminate; repeat split. Qed.

Lemma loop_inv : forall c, bytes_ok (spool c) = true -> closed c = false -> loop_post c (loop' c).
Proof.
  apply (loop'_ind (fun c r => closed c = false -> loop_post c r)).
  - intros c Hok _ Hcl. repeat split; assumption.
  - intros c Hok _ Hcl. destruct (abort_effect txt_overly_large None) as (x & Hs & _ & H). rewrite H.
    destruct x; try discriminate Hs; repeat split; assumption.
  - intros c f r c1 o1 Hok V FS Hcl. destruct (view_frame_facts _ _ _ _ Hok V) as (_ & _ & _ & Hrok & _).
    destruct (frame_step_effect c f r Hcl) as (st & x & sp & E & Hsp & _). rewrite FS in E.
    destruct (stays x) eqn:Hs; [discriminate E|]. injection E as -> ->.
    assert (Hspok : bytes_ok sp = true) by (destruct Hsp as [->|[-> _]]; assumption).
    destruct st, x; try discriminate Hs; repeat split; assumption.
  - intros c f r c1 o1 Hok V FS Hok1 Hmax IH Hcl.
    destruct (frame_step_effect c f r Hcl) as (st & x & sp & E & _ & _). rewrite FS in E.
    destruct (stays x) eqn:Hs; [|discriminate E]. injection E as -> ->.
    assert (Hcl1 : closed (keep st (act x (set_spool c sp))) = false) by (destruct st, x; try discriminate Hs; exact Hcl).
    specialize (IH Hcl1). destruct (loop' _) as [[c2 o2] k]. destruct IH as (I1 & I2 & I3 & I4 & I5).
    destruct (stays_outs x o2 Hs) as (Hc & He & Hu).
    unfold loop_post, ended. rewrite Hc, He, Hu, I2, <- Hmax. repeat split; assumption.
Qed.

(* an event leaves the connection as it is and dispatches nothing, or is data for the loop of an open connection *)
Lemma step_cases (P : conn * list out -> Prop) c e :
  (forall o, existsb is_dispatch o = false -> P (c, o)) ->
  (forall d, e = EData d -> closed c = false -> P (let '(c1, o, _) := loop' (feed c d) in (c1, o))) ->
  P (step c e).
Proof.
  intros HO HD.
  assert (S : forall m, P (let '(c1, o, _) := send_message c m in (c1, o))).
  { intros m. unfold send_message. destruct (serialize m); apply HO; reflexivity. }
  destruct e as [d|m| |m]; cbn [step].
  - destruct (closed c); [apply HO; reflexivity|exact (HD d eq_refl eq_refl)].
  - destruct (closed c); [apply HO; reflexivity|]. destruct (normalize_opts (opts m)); [apply S|apply HO; reflexivity].
  - apply HO; reflexivity.
  - destruct (closed c); [apply HO; reflexivity|]. destruct (normalize_opts (opts m)); [|apply HO; reflexivity].
    unfold pool_send_message. destruct (no_response_masked _); [apply HO; reflexivity|apply S].
Qed.

Lemma run_cons c e r : run c (e :: r) =
  let '(c1, o1) := step c e in
  if existsb is_escaped o1 then (c1, o1) else let '(c2, o2) := run c1 r in (c2, o1 ++ o2).
Proof. reflexivity. Qed.

Lemma feed_feed c a b : feed (feed c a) b = feed c (a ++ b).
Proof. unfold feed. cbn. rewrite app_assoc. reflexivity. Qed.

Definition closed_outs (es : list event) : list out :=
  flat_map (fun e => match e with ELost => [DispatchError ConnectionLost] | _ => [] end) es.
Lemma run_closed : forall es c, closed c = true -> run c es = (c, closed_outs es).
Proof.
  induction es as [|e es IH]; intros c Hc; [reflexivity|].
  rewrite run_cons. destruct e as [d|m| |m]; cbn [step]; rewrite ?Hc; cbn [existsb is_escaped orb]; rewrite (IH c Hc); reflexivity.
Qed.

(* the core of segmentation independence in histories *)
Lemma split_chunk_head c a b post : bytes_ok (spool c) = true -> bytes_ok a = true -> bytes_ok b = true ->
  snd (run c (EData (a ++ b) :: post)) = snd (run c (EData a :: EData b :: post)).
Proof.
  intros Hok Ha Hb. destruct (closed c) eqn:Hcl; [rewrite !(run_closed _ c Hcl); reflexivity|].
  rewrite !run_cons. cbn [step]. rewrite Hcl.
  unfold data_received. rewrite !data_received_ctl_loop', <- feed_feed, (loop_feed b Hb _ (feed_ok c a Hok Ha)).
  pose proof (loop_inv _ (feed_ok c a Hok Ha) Hcl) as HP.
  destruct (loop' (feed c a)) as [[c1 o1] k1]. destruct HP as (P1 & _ & P3 & _).
  unfold ended, esc in P3. destruct k1.
  - (* break: the second half continues from the same state *)
    apply orb_false_elim in P3 as [E C]. rewrite E, run_cons. cbn [step]. rewrite P1, C.
    unfold data_received. rewrite data_received_ctl_loop'.
    destruct (loop' (feed c1 b)) as [[c2 o2] k2]. rewrite existsb_app, E. cbn [orb].
    destruct (existsb is_escaped o2); [reflexivity|].
    destruct (run c2 post) as [c3 o3]. cbn [snd]. rewrite app_assoc. reflexivity.
  - (* returned: closed (or escaped) — what is left of the chunk is never looked at *)
    destruct (existsb is_escaped o1); [reflexivity|]. cbn [orb] in P3. rewrite P3 in P1.
    rewrite (run_closed post (feed c1 b)) by exact P1.
    rewrite run_cons. cbn [step]. rewrite P1. cbn [existsb]. rewrite (run_closed post c1 P1). reflexivity.
Qed.

Lemma chunking_exact : forall rest c d, closed c = false -> bytes_ok (spool c) = true ->
  bytes_ok d = true -> Forall (fun x => bytes_ok x = true) rest ->
  snd (run c (map EData (d :: rest))) = snd (data_received c (concat (d :: rest))).
Proof.
  induction rest as [|d2 rest IH]; intros c d Hcl Hok Hd Hrest.
  - cbn [map run step concat]. rewrite Hcl, app_nil_r.
    destruct (data_received c d) as [c1 o1]. destruct (existsb is_escaped o1); cbn [snd]; rewrite ?app_nil_r; reflexivity.
  - inversion Hrest as [|? ? Hd2 Hrest']; subst. cbn [map concat].
    rewrite <- split_chunk_head, app_assoc by assumption.
    apply (IH c (d ++ d2)); try assumption. rewrite bytes_ok_app, Hd, Hd2. reflexivity.
Qed.

Lemma process_messages_keeps_spool : forall ms c, spool (fst (process_messages c ms)) = spool c.
Proof.
  induction ms as [|m r IH]; intros c; [reflexivity|]. cbn [process_messages].
  pose proof (handle_message_frame c m) as F. destruct (handle_message c m) as [[c1 o1] k]. destruct F as [F _].
  destruct k; [|exact F]. specialize (IH c1). destruct (process_messages c1 r) as [c2 o2]. rewrite <- F. exact IH.
Qed.

(* the loop on the frames of [ms] does what [process_messages] does; the states differ in what is left in the spool,
   which is nothing after a `break` *)
Lemma stream_refines : forall ms c bs,
  Forall (fun m => msg_ok m = true) ms -> Forall (fun m => fits (my_max_message_size c) m = true) ms ->
  frames ms = Ok bs ->
  bytes_ok bs = true /\
  let '(c1, o1, k) := loop' (set_spool c bs) in let '(c2, o2) := process_messages c ms in
  o1 = o2 /\ exists rest, c1 = set_spool c2 rest /\ (k = Continue -> rest = []).
Proof.
  induction ms as [|m r IH]; intros c bs Hok Hfit Hfr.
  - injection Hfr as <-. split; [reflexivity|]. rewrite loop'_unfold by reflexivity.
    split; [reflexivity|]. exists []. split; reflexivity.
  - inversion Hok as [|? ? Hm Hr]; subst. inversion Hfit as [|? ? Hfm Hfr']; subst. cbn [frames] in Hfr.
    apply bind_ok in Hfr as (f & Hf & Hfr). apply bind_ok in Hfr as (fs & Hfs & Hfr). injection Hfr as <-.
    unfold fits in Hfm. rewrite Hf in Hfm.
    destruct (decode_serialize m f Hm Hf) as (Hdec & Hfok & a & l & Hh & Hlen & _).
    pose proof (view_frame_intro (my_max_message_size c) f fs a _ l Hh Hlen ltac:(lia)) as V.
    assert (Hcok : bytes_ok (f ++ fs) = true) by (rewrite bytes_ok_app, Hfok, (proj1 (IH c fs Hr Hfr' Hfs)); reflexivity).
    split; [exact Hcok|]. rewrite (loop'_unfold (set_spool c (f ++ fs)) Hcok). unfold view_body, frame_step.
    simpl (spool _). simpl (my_max_message_size _). rewrite V, Hdec.
    change (set_spool (set_spool c (f ++ fs)) fs) with (set_spool c fs). rewrite handle_message_spool.
    cbn [process_messages]. pose proof (handle_message_frame c m) as Hmax.
    destruct (handle_message c m) as [[c' o'] k']. destruct Hmax as [_ Hmax]. cbn [on_conn3]. destruct k'.
    + rewrite <- Hmax in Hfr'. destruct (IH c' fs Hr Hfr' Hfs) as [_ IH'].
      destruct (loop' (set_spool c' fs)) as [[c1 o1] k1]. destruct (process_messages c' r) as [c2 o2].
      destruct IH' as (-> & rest & -> & Hk). split; [reflexivity|]. exists rest. split; [reflexivity|exact Hk].
    + split; [reflexivity|]. exists fs. split; [reflexivity|discriminate].
Qed.

(* for an empty spool: after a `break` the states coincide *)
Lemma stream_received : forall ms c bs,
  Forall (fun m => msg_ok m = true) ms -> Forall (fun m => fits (my_max_message_size c) m = true) ms ->
  frames ms = Ok bs -> spool c = [] ->
  bytes_ok (spool (feed c bs)) = true /\
  let '(c1, o1, k) := loop' (feed c bs) in let '(c2, o2) := process_messages c ms in
  o1 = o2 /\ set_spool c1 [] = set_spool c2 [] /\ (k = Continue -> c1 = c2).
Proof.
  intros ms c bs Hok Hfit Hfr Hsp.
  assert (E : feed c bs = set_spool c bs) by (unfold feed; rewrite Hsp; reflexivity). rewrite E.
  destruct (stream_refines ms c bs Hok Hfit Hfr) as [Hbs H]. split; [exact Hbs|].
  pose proof (process_messages_keeps_spool ms c) as Hks.
  destruct (loop' (set_spool c bs)) as [[c1 o1] k]. destruct (process_messages c ms) as [c2 o2]. cbn [fst] in Hks.
  destruct H as (Ho & rest & -> & Hk). split; [exact Ho|]. split; [reflexivity|]. intros K.
  rewrite (Hk K), <- Hsp, <- Hks. apply set_spool_same.
Qed.
