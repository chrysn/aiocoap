(* C17 — whole histories and site addresses.  Over every history of add / remove / alias / request / locate / list / probe operations
   the model never produces an internal error: the only exceptions a history can observe are KeyError (remove of something that is
   not registered), NotFound (4.04) and BadOption (Uri-Path-Abbrev conflict / unknown value through render_to_pipe).  Removing a plain
   resource at any site address takes effect for the next request (4.04), in a tree where nothing shadows the path. *)
From Verif Require Import Lib.Py Lib.Tactics Model.C17Base Gen.resource_site Model.C17 Proofs.C17 Proofs.C17Reg Proofs.C17List Proofs.C17Wkc.
Open Scope Z_scope.
Open Scope list_scope.

(* the request path that reaches path q of the site at address addr: keys concatenated, an empty remainder spelled as a trailing slash.
   It is chain_path (addr ++ [q]) of C17List.v, defined by recursion from the other end (addr_path_chain); the statements about removal
   are phrased with addr_path, those about adding and listing with chain_path, and the proofs work with chain_path. *)
Fixpoint addr_path (addr : list (list string)) (q : list string) : list string :=
  match addr with
  | [] => q
  | k :: a => k ++ match addr_path a q with [] => [""%string] | x => x end
  end.
Lemma addr_path_chain : forall addr p, addr_path addr p = chain_path (addr ++ [p]).
Proof.
  induction addr as [|k a IH]; intro p; [reflexivity|].
  cbn [addr_path]. rewrite IH. destruct a as [|k2 a']; reflexivity.
Qed.

Lemma request_exn : forall pipe root m q e, request pipe root m q = RExn e -> e = NotFound \/ pipe = true /\ e = BadOption.
Proof.
  intros pipe root m q e H. unfold request in H. destruct (render pipe root m) as [[id d | impl] m' | id m' | e0] eqn:E; try discriminate.
  - (* the WKC resource was reached, so the root is a Site: it has a listing, and filtering never fails *)
    destruct root as [rs ss | id]; [|discriminate E]. rewrite linkheader_site, wkc_is_filter in H. discriminate.
  - inversion H; subst. exact (render_exn _ _ _ _ E).
Qed.
Lemma update_exn : forall root addr f e, snd (apply_update root (update_at addr f root)) = RExn e -> exists s, f s = Raise e.
Proof.
  intros root addr f e H. destruct (update_at addr f root) as [[n'|e0]|] eqn:E; cbn [apply_update snd] in H; try discriminate.
  inversion H; subst. exact (update_at_raise _ _ _ _ E).
Qed.
Lemma step_exn : forall root o e, snd (step root o) = RExn e ->
  match o with
  | ORemove _ _ => e = KeyError
  | ORequest pipe _ _ => e = NotFound \/ (pipe = true /\ e = BadOption)
  | _ => False
  end.
Proof.
  intros root o e H. destruct o as [addr p t | addr p | pipe m q | addr | obs m | src dst p | ]; cbn [step] in H.
  - apply update_exn in H. destruct H as [s Hs]. destruct (add_resource_ok _ _ s p (thing_child t)) as [s' Hs']. congruence.
  - apply update_exn in H. destruct H as [s Hs]. exact (proj1 (remove_resource_raises _ _ s p e Hs)).
  - exact (request_exn _ _ _ _ _ H).
  - cbn [snd] in H. destruct (site_at addr root) as [n|]; [|discriminate]. destruct (get_resources_as_linkheader n); discriminate.
  - exact (located_no_exn obs root m e H).
  - destruct (site_at src root) as [c|]; [|discriminate]. apply update_exn in H. destruct H as [s Hs].
    destruct (add_resource_ok _ _ s p (ChildSubsite c)) as [s' Hs']. congruence.
  - cbn [snd] in H. destruct (get_resources_as_linkheader root); discriminate.
Qed.

(* run level: the i-th result of ANY history from ANY tree, if it is an exception, is the expected one for the i-th operation *)
Lemma run_exn : forall ops root, Forall2 (fun o r => forall e, r = RExn e ->
    match o with
    | ORemove _ _ => e = KeyError
    | ORequest pipe _ _ => e = NotFound \/ (pipe = true /\ e = BadOption)
    | _ => False
    end) ops (snd (run root ops)).
Proof.
  intros ops root. apply (run_ind (fun _ => True)); [|exact I]. intros r o _. split; [exact I | exact (step_exn r o)].
Qed.
Lemma run_no_internal_error : forall ops root e, In (RExn e) (snd (run root ops)) -> e = KeyError \/ e = NotFound \/ e = BadOption.
Proof.
  intros ops root e Hin. induction (run_exn ops root) as [|o r ops' rs Ho _ IH]; [destruct Hin|]. destruct Hin as [E | Hin]; [|exact (IH Hin)].
  specialize (Ho e E). destruct o; try contradiction; [left; exact Ho | destruct Ho as [-> | [_ ->]]; auto].
Qed.

(* removing a plain resource at any address: the next request for its path is answered 4.04 *)
Lemma request_after_remove_nested : forall root addr p root' pipe q rs ss,
  node_wf root = true -> step root (ORemove addr p) = (root', RDone) -> node_sep false root' = true ->
  site_at addr root = Some (NSite rs ss) -> dict_get_opt ss p = None ->
  (forall pre rest, p = pre ++ rest -> pre <> [] -> rest <> [] -> dict_get_opt ss pre = None) ->
  (addr <> [] -> p <> [""%string]) ->
  request pipe root' (new_request (addr_path addr p) None) q = RExn NotFound.
Proof.
  intros root addr p root' pipe q rs ss Hw Hstep Hsep Hat Hnosub Hpre Hp.
  cbn [step] in Hstep. apply apply_update_done in Hstep.
  destruct (site_at_update_at _ _ _ _ Hstep) as [rs0 [ss0 [s' [H1 [H2 H3]]]]]. rewrite Hat in H1. inversion H1; subst rs0 ss0.
  destruct (node_wf_inv _ _ (site_at_wf addr root _ Hw Hat)) as [Hr _].
  apply request_not_found; [reflexivity|]. cbn [new_request uri_path]. intros t Ht. rewrite addr_path_chain in Ht.
  apply (proj2 (route_at_addr addr root' false _ p Hsep H3 Hp)) in Ht.
  exact (remove_no_route rs ss p s' Hr Hnosub Hpre H2 t Ht).
Qed.
