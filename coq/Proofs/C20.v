(* C20 — proofs about the resource-directory model: update_params in normal form, index invariant, closure safety,
   failed-operation frame, location stability, exact expiry. *)
From Coq Require Import String FinFun.
From Verif Require Import Lib.Py Lib.PyLemmas Lib.Tactics Model.C20Str Model.C20 Proofs.C20Dict.
Open Scope Z_scope.

Lemma single_value (vs : list ostr) : (1 <? blen vs) = false -> vs = [] \/ exists v, vs = [v].
Proof.
  destruct vs as [|v [|w vs]]; intros H; [left; reflexivity|right; eauto|].
  exfalso. rewrite !blen_cons in H. pose proof (blen_nonneg vs). lia.
Qed.

(* pop_single_arg raises nothing but BadRequest; when it succeeds on a present key, the key had at most one value *)
Lemma pop_single_arg_cases q name :
  (dget String.eqb q name = None /\ pop_single_arg q name = Ok (q, None)) \/
  (exists vs, dget String.eqb q name = Some vs /\
     ((pop_single_arg q name = Raise BadRequest) \/
      (vs = [] \/ exists v, vs = [v]) /\ pop_single_arg q name = Ok (ddel String.eqb q name, hd None vs))).
Proof.
  unfold pop_single_arg. destruct (dget String.eqb q name) as [vs|]; [right; exists vs; split; [reflexivity|]|left; auto].
  destruct (1 <? blen vs) eqn:L; [left; reflexivity|right; split; [apply single_value; exact L|reflexivity]].
Qed.
Lemma pop_single_arg_err q name e : pop_single_arg q name = Raise e -> e = BadRequest.
Proof. destruct (pop_single_arg_cases q name) as [[_ E]|(vs & _ & [E|[_ E]])]; rewrite E; intros H; inv H; reflexivity. Qed.

Definition lt_step (p : query) : M (query * option Z) :=
  if dmem String.eqb p "lt"
  then '(p1, v) <- pop_single_arg p "lt" ;;
       match v with
       | None => Raise BadRequest
       | Some s => match parse_int s with Some n => Ok (p1, Some n) | None => Raise BadRequest end
       end
  else Ok (p, None).
Definition base_step (p1 : query) : M (query * ostr) :=
  if dmem String.eqb p1 "base"
  then '(p2, b) <- pop_single_arg p1 "base" ;; match b with None => Raise BadRequest | Some _ => Ok (p2, b) end
  else Ok (p1, None).

Lemma lt_step_cases p :
  lt_step p = Raise BadRequest \/
  (dget String.eqb p "lt" = None /\ lt_step p = Ok (p, None)) \/
  (exists s n, dget String.eqb p "lt" = Some [Some s] /\ parse_int s = Some n /\ lt_step p = Ok (ddel String.eqb p "lt", Some n)).
Proof.
  unfold lt_step, dmem, bind.
  destruct (pop_single_arg_cases p "lt") as [[E ->]|(vs & E & [->|[[->|[v ->]] ->]])]; rewrite E; auto.
  destruct v as [s|]; cbn [hd]; auto. destruct (parse_int s) as [n|] eqn:P; auto. right. right. exists s, n. auto.
Qed.
Lemma base_step_cases p1 :
  base_step p1 = Raise BadRequest \/
  (dget String.eqb p1 "base" = None /\ base_step p1 = Ok (p1, None)) \/
  (exists b, dget String.eqb p1 "base" = Some [Some b] /\ base_step p1 = Ok (ddel String.eqb p1 "base", Some b)).
Proof.
  unfold base_step, dmem, bind.
  destruct (pop_single_arg_cases p1 "base") as [[E ->]|(vs & E & [->|[[->|[v ->]] ->]])]; rewrite E; auto.
  destruct v as [b|]; cbn [hd]; auto. right. right. exists b. auto.
Qed.

(* what a write asks for: the parameters left after popping lt and base, the new lifetime, the new base.
   Independent of the registration; every rejection is 4.00 *)
Definition write_request (p : query) : M (query * option Z * ostr) :=
  if existsb (fun kv => in_strs (fst kv) ["ep"; "d"]%string) p then Raise BadRequest
  else if existsb (fun kv => in_strs (fst kv) ["page"; "count"; "rt"; "href"; "anchor"]%string) p then Raise BadRequest
  else match lt_step p with
       | Raise e => Raise e
       | Ok (p1, nl) => match base_step p1 with Raise e => Raise e | Ok (p2, nb) => Ok (p2, nl, nb) end
       end.

(* the base after the write and whether it is explicit; None: it would have to be the request's source address, and there is none *)
Definition new_base (r : reg) (remote : ostr) (init : bool) (nb : ostr) : option (string * bool) :=
  match nb, r_base_explicit r, remote with
  | Some b, _, _ => Some (b, true)
  | None, false, Some u => Some (u, false)
  | None, false, None => None
  | None, true, None => if init then None else Some (r_base r, true)
  | None, true, Some _ => Some (r_base r, true)
  end.
Definition new_params (old p2 : query) : query :=
  if existsb (fun kv => negb (match dget String.eqb old (fst kv) with Some v => olist_eqb (snd kv) v | None => false end)) p2
  then dict_update old p2 else old.
Definition written (r : reg) (nl : option Z) (b : string) (ex : bool) (p2 : query) (t seq : Z) : reg :=
  let lt := match nl with Some n => n | None => r_lt r end in
  {| r_key := r_key r; r_path := r_path r; r_lt := lt; r_base := b; r_base_explicit := ex;
     r_params := new_params (r_params r) p2; r_links := r_links r; r_timer := Some (t + (lt + GRACE_PERIOD) * 1000000, seq) |}.

Lemma lt_step_err p e : lt_step p = Raise e -> e = BadRequest.
Proof. destruct (lt_step_cases p) as [->|[[_ ->]|(s & n & _ & _ & ->)]]; intros H; inv H; reflexivity. Qed.
Lemma base_step_err p e : base_step p = Raise e -> e = BadRequest.
Proof. destruct (base_step_cases p) as [->|[[_ ->]|(s & _ & ->)]]; intros H; inv H; reflexivity. Qed.
Lemma lt_step_base p p1 nl : lt_step p = Ok (p1, nl) -> dmem String.eqb p1 "base" = dmem String.eqb p "base".
Proof.
  destruct (lt_step_cases p) as [->|[[_ ->]|(s & n & _ & _ & ->)]]; intros H; inv H; [reflexivity|].
  unfold dmem. rewrite (dget_ddel_other String.eqb_eq) by discriminate. reflexivity.
Qed.
Lemma base_step_given p1 p2 nb : base_step p1 = Ok (p2, nb) -> dmem String.eqb p1 "base" = match nb with Some _ => true | None => false end.
Proof. unfold dmem. destruct (base_step_cases p1) as [->|[[E ->]|(s & E & ->)]]; intros H; inv H; rewrite E; reflexivity. Qed.

(* update_params assigns a field only when the new value differs; the outcome is that of assigning always *)
Lemma assign_lt r nl :
  (match nl with Some n => if negb (r_lt r =? n) then set_lt r n else r | None => r end)
  = set_lt r (match nl with Some n => n | None => r_lt r end).
Proof. destruct r, nl as [n|]; [|reflexivity]. cbn. destruct (Z.eqb_spec r_lt n); [subst|]; reflexivity. Qed.
Lemma assign_if_differs (c : bool) (a b : string) : (if c || negb (String.eqb a b) then b else a) = b.
Proof. destruct c; [reflexivity|]. cbn. destruct (String.eqb_spec a b); [subst|]; reflexivity. Qed.

(* The checks of update_params run in the order forbidden keys, source address, lt, base; as each of them raises BadRequest
   before anything is assigned, the order cannot be observed and the address check moves into [new_base]. The
   UnboundLocalError branch (rd.py:215) is dead: an implicit base without a base parameter has made the address check run. *)
Lemma update_params_eq r remote p init t seq :
  update_params r remote p init t seq =
  match write_request p with
  | Raise _ => UpFail r BadRequest
  | Ok (p2, nl, nb) =>
      match new_base r remote init nb with
      | None => UpFail r BadRequest
      | Some (b, ex) => UpOk (written r nl b ex p2 t seq)
      end
  end.
Proof.
  unfold update_params, write_request. fold (lt_step p).
  do 2 (destruct (existsb _ p); [reflexivity|]).
  set (N := if (init || negb (r_base_explicit r)) && negb (dmem String.eqb p "base") then _ else _).
  assert (NF : match N with Raise e => UpFail r e | Ok _ => UpFail r BadRequest end = UpFail r BadRequest).
  { subst N. destruct (_ && _); [destruct remote|]; reflexivity. }
  destruct (lt_step p) as [[p1 nl]|e] eqn:EL; [|apply lt_step_err in EL; subst e; exact NF].
  fold (base_step p1). destruct (base_step p1) as [[p2 nb]|e] eqn:EB; [|apply base_step_err in EB; subst e; exact NF].
  clear NF. subst N. rewrite <- (lt_step_base _ _ _ EL), (base_step_given _ _ _ EB), assign_lt. clear EL EB.
  destruct nb as [b|]; cbn [negb andb].
  - rewrite Bool.andb_false_r, assign_if_differs. cbn [r_base_explicit set_base negb].
    destruct r; unfold written, new_params; cbn. destruct (existsb _ p2); reflexivity.
  - rewrite Bool.andb_true_r. unfold new_base, written, new_params.
    destruct r as [? ? ? rb [|] ? ? ?], remote as [u|], init; cbn; try reflexivity;
      try (destruct (String.eqb_spec rb u); [subst|]; cbn); destruct (existsb _ p2); reflexivity.
Qed.

Lemma update_params_ok_inv r remote p init t seq r' : update_params r remote p init t seq = UpOk r' ->
  exists p2 nl nb b ex, write_request p = Ok (p2, nl, nb) /\ new_base r remote init nb = Some (b, ex) /\ r' = written r nl b ex p2 t seq.
Proof.
  rewrite update_params_eq. destruct (write_request p) as [[[p2 nl] nb]|]; [|discriminate].
  destruct (new_base r remote init nb) as [[b ex]|] eqn:E; intros H; inv H. exists p2, nl, nb, b, ex. auto.
Qed.

Lemma update_params_ok r remote p init t seq r' : update_params r remote p init t seq = UpOk r' ->
  r_key r' = r_key r /\ r_path r' = r_path r /\ r_links r' = r_links r /\
  r_timer r' = Some (t + (r_lt r' + GRACE_PERIOD) * 1000000, seq).
Proof. intros H. destruct (update_params_ok_inv _ _ _ _ _ _ _ H) as (p2 & nl & nb & b & ex & _ & _ & ->). auto. Qed.

(* a failing update_params has no effect and raises BadRequest (aiocoap f8ef49b) *)
Lemma update_params_fail_clean r remote p init t seq r' e : update_params r remote p init t seq = UpFail r' e -> r' = r /\ e = BadRequest.
Proof.
  rewrite update_params_eq. destruct (write_request p) as [[[p2 nl] nb]|]; [destruct (new_base r remote init nb) as [[b ex]|]|];
    intros H; inv H; auto.
Qed.

Lemma update_params_timer_indep r x remote p init t s s' :
  update_params (set_timer r x) remote p init t s' =
  match update_params r remote p init t s with
  | UpOk r' => UpOk (set_timer r' (Some (t + (r_lt r' + GRACE_PERIOD) * 1000000, s')))
  | UpFail r' e => UpFail (set_timer r' x) e
  end.
Proof.
  rewrite !update_params_eq. destruct (write_request p) as [[[p2 nl] nb]|]; [|reflexivity].
  change (new_base (set_timer r x) remote init nb) with (new_base r remote init nb).
  destruct (new_base r remote init nb) as [[b ex]|]; reflexivity.
Qed.

Definition has_timer (r : reg) : bool := match r_timer r with Some _ => true | None => false end.

(* The two indexes hold the same Registration objects, each under its own key and its own path; exactly the
   indexed objects have a pending lifetime timer; object identities are unique; nothing ever raised in a timer task. *)
Record Inv' (os : list (Z * reg)) (bk : list (key * Z)) (bp : list (Z * Z)) (nid exc : Z) : Prop := {
  inv_keys : NoDup (map fst bk);
  inv_paths : NoDup (map fst bp);
  inv_ids : NoDup (map fst os);
  inv_bk : forall k id, In (k, id) bk -> exists r, In (id, r) os /\ r_key r = k /\ In (r_path r, id) bp /\ has_timer r = true;
  inv_bp : forall p id, In (p, id) bp -> exists r, In (id, r) os /\ r_path r = p /\ In (r_key r, id) bk;
  inv_tm : forall id r, In (id, r) os -> has_timer r = true -> In (r_key r, id) bk;
  inv_fresh : forall id r, In (id, r) os -> id < nid;
  inv_exc : exc = 0
}.
Arguments inv_keys {os bk bp nid exc}.
Arguments inv_paths {os bk bp nid exc}.
Arguments inv_ids {os bk bp nid exc}.
Arguments inv_bk {os bk bp nid exc}.
Arguments inv_bp {os bk bp nid exc}.
Arguments inv_tm {os bk bp nid exc}.
Arguments inv_fresh {os bk bp nid exc}.
Arguments inv_exc {os bk bp nid exc}.
Definition Inv (st : rd) : Prop := Inv' (objs st) (by_key st) (by_path st) (next_id st) (loop_exceptions st).

Lemma In_fun {K V} (d : list (K * V)) k v1 v2 : NoDup (map fst d) -> In (k, v1) d -> In (k, v2) d -> v1 = v2.
Proof. intros ND H1 H2. pose proof (NoDup_map_inj_in fst d _ _ ND H1 H2 eq_refl) as E. inv E. reflexivity. Qed.

Lemma NoDup_map_in {A B} (f : A -> B) l : NoDup l -> (forall a b, In a l -> In b l -> f a = f b -> a = b) -> NoDup (map f l).
Proof.
  induction l as [|x l IH]; cbn; intros ND Inj; [constructor|]. inv ND. constructor; [|apply IH; auto].
  intros H. apply in_map_iff in H. destruct H as (y & E & Hy).
  assert (y = x) as -> by (apply Inj; [right; exact Hy|left; reflexivity|exact E]). contradiction.
Qed.

Lemma obj_In st id r : NoDup (map fst (objs st)) -> In (id, r) (objs st) -> obj st id = r.
Proof. intros ND H. unfold obj. rewrite (In_dget Zeqb_spec _ _ _ ND H). reflexivity. Qed.


(* an index lists exactly the objects with a pending timer, each under its value of f (its key, its location) *)
Definition lists {K} (f : reg -> K) (os : list (Z * reg)) (d : list (K * Z)) : Prop :=
  forall k id, In (k, id) d <-> exists r, In (id, r) os /\ f r = k /\ has_timer r = true.

(* Inv' with both indexes read the same way; what preserves [lists f] is then proved once for key and location *)
Lemma Inv'_lists os bk bp nid exc : Inv' os bk bp nid exc ->
  NoDup (map fst bk) /\ NoDup (map fst bp) /\ NoDup (map fst os) /\ lists r_key os bk /\ lists r_path os bp /\
  (forall id, In id (map fst os) -> id < nid) /\ exc = 0.
Proof.
  intros I. pose proof (inv_ids I) as NI. repeat split; try apply I.
  - intros H. destruct (inv_bk I _ _ H) as (r & Ho & Hk & _ & Ht). eauto.
  - intros (r & Ho & <- & Ht). exact (inv_tm I _ _ Ho Ht).
  - intros H. destruct (inv_bp I _ _ H) as (r & Ho & Hp & Hk). destruct (inv_bk I _ _ Hk) as (r1 & Ho1 & _ & _ & Ht).
    rewrite (In_fun _ _ _ _ NI Ho1 Ho) in Ht. eauto.
  - intros (r & Ho & <- & Ht). destruct (inv_bk I _ _ (inv_tm I _ _ Ho Ht)) as (r1 & Ho1 & _ & Hp & _).
    rewrite (In_fun _ _ _ _ NI Ho1 Ho) in Hp. exact Hp.
  - intros id H. apply in_map_iff in H. destruct H as ([i r] & <- & H). exact (inv_fresh I _ _ H).
Qed.
Lemma Inv'_intro os bk bp nid exc : NoDup (map fst bk) -> NoDup (map fst bp) -> NoDup (map fst os) ->
  lists r_key os bk -> lists r_path os bp -> (forall id, In id (map fst os) -> id < nid) -> exc = 0 -> Inv' os bk bp nid exc.
Proof.
  intros NK NP NI LK LP FR EX. constructor; try assumption.
  - intros k id H. destruct (proj1 (LK _ _) H) as (r & Ho & Ek & Ht). exists r. repeat split; try assumption. apply LP. eauto.
  - intros p id H. destruct (proj1 (LP _ _) H) as (r & Ho & Ep & Ht). exists r. repeat split; try assumption. apply LK. eauto.
  - intros id r Ho Ht. apply LK. eauto.
  - intros id r H. apply FR. exact (in_map fst _ _ H).
Qed.

Section Lists.
  Context {K : Type} {eqb : K -> K -> bool} (eqb_spec : forall a b, eqb a b = true <-> a = b) (f : reg -> K).
  Variables (os : list (Z * reg)) (d : list (K * Z)).
  Hypotheses (NI : NoDup (map fst os)) (ND : NoDup (map fst d)) (L : lists f os d).

  (* cancelling the timer of an object and dropping its entry *)
  Lemma lists_deleted id0 r0 : In (id0, r0) os -> has_timer r0 = true ->
    lists f (dset Z.eqb os id0 (set_timer r0 None)) (ddel eqb d (f r0)).
  Proof.
    intros Ho0 Ht0 k id. rewrite (In_ddel eqb_spec) by exact ND. rewrite (L k id). split.
    - intros [N (r & Ho & Ef & Ht)]. exists r. split; [|auto]. apply (In_dset Zeqb_spec); [exact NI|]. right. split; [|exact Ho].
      intros ->. rewrite (In_fun _ _ _ _ NI Ho Ho0) in Ef. congruence.
    - intros (r & Ho & Ef & Ht). apply (In_dset Zeqb_spec) in Ho; [|exact NI]. destruct Ho as [[-> ->]|[N Ho]]; [discriminate Ht|].
      split; [|eauto]. intros ->. apply N. apply (In_fun d (f r0)); [exact ND|apply L; eauto|apply L; eauto].
  Qed.

  (* rewriting an object without touching what the index reads *)
  Lemma lists_rewritten id r r' : In (id, r) os -> f r' = f r -> has_timer r' = has_timer r -> lists f (dset Z.eqb os id r') d.
  Proof.
    intros Ho0 Ef0 Et0 k i. rewrite (L k i). split; intros (x & Ho & Ef & Ht).
    - destruct (Z.eq_dec i id) as [->|N].
      + rewrite (In_fun _ _ _ _ NI Ho Ho0) in *. exists r'. split; [apply (In_dset Zeqb_spec); auto|split; congruence].
      + exists x. split; [apply (In_dset Zeqb_spec); auto|auto].
    - apply (In_dset Zeqb_spec) in Ho; [|exact NI]. destruct Ho as [[-> ->]|[N Ho]]; [exists r; split; [exact Ho0|split; congruence]|eauto].
  Qed.

  (* appending an object under a new identity and entering it *)
  Lemma lists_added nid r : ~ In (f r) (map fst d) -> ~ In nid (map fst os) -> has_timer r = true ->
    lists f (os ++ [(nid, r)]) (dset eqb d (f r) nid).
  Proof.
    intros Nk Fresh Ht0 k id. rewrite (In_dset eqb_spec) by exact ND. split.
    - intros [[-> ->]|[N H]]; [exists r; split; [apply in_or_app; right; left; reflexivity|auto]|].
      apply L in H. destruct H as (x & Ho & Ef & Ht). exists x. split; [apply in_or_app; left; exact Ho|auto].
    - intros (x & Ho & Ef & Ht). apply in_app_or in Ho. destruct Ho as [Ho|[E|[]]]; [|inv E; left; auto].
      assert (H : In (k, id) d) by (apply L; eauto). right. split; [|exact H]. intros ->. apply Nk. exact (in_map fst _ _ H).
  Qed.
End Lists.

(* explicit result of reg_delete on an indexed object *)
Definition deleted (st : rd) (id : Z) : rd :=
  {| objs := dset Z.eqb (objs st) id (set_timer (obj st id) None);
     by_key := ddel key_eqb (by_key st) (r_key (obj st id));
     by_path := ddel Z.eqb (by_path st) (r_path (obj st id));
     now := now st; next_id := next_id st; next_seq := next_seq st; loop_exceptions := loop_exceptions st |}.

Lemma reg_delete_spec st id :
  dmem Z.eqb (by_path st) (r_path (obj st id)) = true -> dmem key_eqb (by_key st) (r_key (obj st id)) = true ->
  reg_delete st id = (deleted st id, false).
Proof.
  intros Hp Hk. unfold reg_delete, deleted. cbn [by_path by_key set_obj with_by_path with_by_key objs now next_id next_seq loop_exceptions].
  rewrite Hp. cbn [negb]. rewrite Hk. cbn [negb]. reflexivity.
Qed.

(* inv_bk, read with [obj] *)
Lemma indexed st k id : Inv st -> In (k, id) (by_key st) ->
  In (id, obj st id) (objs st) /\ r_key (obj st id) = k /\ In (r_path (obj st id), id) (by_path st) /\ has_timer (obj st id) = true.
Proof. intros I H. destruct (inv_bk I _ _ H) as (r & Ho & A). rewrite (obj_In st id r (inv_ids I) Ho). exact (conj Ho A). Qed.
Lemma indexed_key st k id : Inv st -> In (k, id) (by_key st) -> r_key (obj st id) = k.
Proof. apply indexed. Qed.
Lemma key_of_id st k1 k2 id : Inv st -> In (k1, id) (by_key st) -> In (k2, id) (by_key st) -> k1 = k2.
Proof. intros I H1 H2. rewrite <- (indexed_key st k1 id I H1). exact (indexed_key st k2 id I H2). Qed.

Lemma indexed_delete st id k : Inv st -> In (k, id) (by_key st) -> reg_delete st id = (deleted st id, false).
Proof.
  intros I H. destruct (indexed st k id I H) as (_ & Hk & Hp & _).
  apply reg_delete_spec; [exact (In_dmem Zeqb_spec _ _ _ Hp)|rewrite Hk; exact (In_dmem key_eqb_spec _ _ _ H)].
Qed.

Lemma Inv_deleted st id k : Inv st -> In (k, id) (by_key st) -> Inv (deleted st id).
Proof.
  intros I H. destruct (Inv'_lists _ _ _ _ _ I) as (NK & NP & NI & LK & LP & FR & EX).
  destruct (proj1 (LK _ _) H) as (r & Ho & _ & Ht). unfold Inv, deleted. cbn [objs by_key by_path next_id loop_exceptions].
  rewrite (obj_In st id r NI Ho). apply Inv'_intro; rewrite ?(map_fst_dset_mem Z.eqb) by exact (In_dmem Zeqb_spec _ _ _ Ho); try assumption.
  - apply NoDup_ddel; [apply key_eqb_spec|exact NK].
  - apply NoDup_ddel; [apply Zeqb_spec|exact NP].
  - exact (lists_deleted key_eqb_spec r_key _ _ NI NK LK id r Ho Ht).
  - exact (lists_deleted Zeqb_spec r_path _ _ NI NP LP id r Ho Ht).
Qed.

(* also for [updated] and [deleted], whose objects are those of a [set_obj] *)
Lemma obj_set_obj st id r' : obj (set_obj st id r') id = r'.
Proof. unfold obj, set_obj. cbn [objs]. rewrite (dget_dset_same Zeqb_spec). reflexivity. Qed.
Lemma obj_other st tid x id : id <> tid -> obj (set_obj st tid x) id = obj st id.
Proof. intros N. unfold obj, set_obj. cbn [objs]. rewrite (dget_dset_other Zeqb_spec) by exact N. reflexivity. Qed.
Lemma set_obj_In st id r' : In (id, r') (objs (set_obj st id r')).
Proof. apply (dget_In Zeqb_spec). apply (dget_dset_same Zeqb_spec). Qed.

Lemma timer_indexed st id r d s : Inv st -> In (id, r) (objs st) -> r_timer r = Some (d, s) -> In (r_key r, id) (by_key st).
Proof. intros I Ho Ht. apply (inv_tm I _ _ Ho). unfold has_timer. rewrite Ht. reflexivity. Qed.
Lemma indexed_old st k id : Inv st -> In (k, id) (by_key st) -> id < next_id st.
Proof. intros I H. exact (inv_fresh I _ _ (proj1 (indexed st k id I H))). Qed.

(* no more index entries than objects: the fuel of [drain] and [advance] suffices *)
Lemma index_le st : Inv st -> (length (by_key st) <= length (objs st))%nat.
Proof.
  intros I. rewrite <- (map_length snd (by_key st)), <- (map_length fst (objs st)). apply NoDup_incl_length.
  - apply NoDup_map_in; [exact (NoDup_map_inv fst _ (inv_keys I))|].
    intros [k1 id1] [k2 id2] H1 H2 E. cbn [snd] in E. subst id2. f_equal. exact (key_of_id st k1 k2 id1 I H1 H2).
  - intros id H. apply in_map_iff in H. destruct H as ([k i] & <- & H). exact (in_map fst _ _ (proj1 (indexed st k i I H))).
Qed.

Lemma In_without (l : list (key * Z)) k k1 id :
  In (k1, id) (filter (fun kv => negb (key_eqb (fst kv) k)) l) <-> In (k1, id) l /\ k1 <> k.
Proof. rewrite filter_In. cbn [fst]. rewrite (neqb_spec key_eqb_spec). tauto. Qed.

(* deleting an indexed registration: its key's entry is filtered out of the index, the other objects stay as they are *)
Lemma by_key_deleted st id k : Inv st -> In (k, id) (by_key st) ->
  by_key (deleted st id) = filter (fun kv => negb (key_eqb (fst kv) k)) (by_key st).
Proof.
  intros I H. unfold deleted. cbn [by_key]. rewrite (indexed_key st k id I H).
  apply ddel_filter; [apply key_eqb_spec|apply I].
Qed.
Lemma obj_deleted_other st id0 id : id <> id0 -> obj (deleted st id0) id = obj st id.
Proof. exact (obj_other st id0 _ id). Qed.
Lemma deleted_frame st id0 k0 : Inv st -> In (k0, id0) (by_key st) ->
  forall k id, In (k, id) (by_key (deleted st id0)) <-> In (k, id) (by_key st) /\ id <> id0.
Proof.
  intros I H0 k id. rewrite (by_key_deleted st id0 k0 I H0), In_without.
  split; intros [H N]; (split; [exact H|]).
  - intros ->. apply N. exact (key_of_id st k k0 _ I H H0).
  - intros ->. apply N. exact (In_fun _ _ _ _ (inv_keys I) H H0).
Qed.

Lemma Inv_rewritten st id r' : Inv st -> In (id, obj st id) (objs st) ->
  r_key r' = r_key (obj st id) -> r_path r' = r_path (obj st id) -> has_timer r' = has_timer (obj st id) -> Inv (set_obj st id r').
Proof.
  intros I Ho Ek Ep Et. destruct (Inv'_lists _ _ _ _ _ I) as (NK & NP & NI & LK & LP & FR & EX). unfold Inv. cbn [set_obj objs].
  apply Inv'_intro; rewrite ?(map_fst_dset_mem Z.eqb) by exact (In_dmem Zeqb_spec _ _ _ Ho); try assumption.
  - exact (lists_rewritten r_key _ _ NI LK id _ r' Ho Ek Et).
  - exact (lists_rewritten r_path _ _ NI LP id _ r' Ho Ep Et).
Qed.

Lemma set_obj_same st id : In (id, obj st id) (objs st) -> NoDup (map fst (objs st)) -> set_obj st id (obj st id) = st.
Proof. intros H ND. unfold set_obj. rewrite dset_same; [destruct st; reflexivity|]. apply In_dget; [apply Zeqb_spec|exact ND|exact H]. Qed.

(* a registration rewritten in place by a successful update *)
Definition updated (st : rd) (id : Z) (r' : reg) : rd :=
  {| objs := dset Z.eqb (objs st) id r'; by_key := by_key st; by_path := by_path st; now := now st;
     next_id := next_id st; next_seq := next_seq st + 1; loop_exceptions := loop_exceptions st |}.

Lemma Inv_add_new os bk bp nid exc k p r :
  Inv' os bk bp nid exc -> ~ In k (map fst bk) -> ~ In p (map fst bp) -> r_key r = k -> r_path r = p -> has_timer r = true ->
  Inv' (os ++ [(nid, r)]) (dset key_eqb bk k nid) (dset Z.eqb bp p nid) (nid + 1) exc.
Proof.
  intros I Nk Np <- <- Et. destruct (Inv'_lists _ _ _ _ _ I) as (NK & NP & NI & LK & LP & FR & EX).
  assert (Fresh : ~ In nid (map fst os)) by (intros H; apply FR in H; lia).
  apply Inv'_intro; try assumption.
  - apply NoDup_dset; [apply key_eqb_spec|exact NK].
  - apply NoDup_dset; [apply Zeqb_spec|exact NP].
  - rewrite map_app. apply NoDup_snoc; assumption.
  - exact (lists_added key_eqb_spec r_key _ _ NK LK nid r Nk Fresh Et).
  - exact (lists_added Zeqb_spec r_path _ _ NP LP nid r Np Fresh Et).
  - intros i Hi. rewrite map_app in Hi. apply in_app_or in Hi. destruct Hi as [Hi|[Hi|[]]]; [apply FR in Hi|cbn in Hi]; lia.
Qed.
(* new_pathtail_from walks up from i over occupied locations; it stops at a free one or when the fuel is spent *)
Lemma npf_spec bp f : forall i, let res := new_pathtail_from f bp i in
  i <= res /\ (forall j, i <= j < res -> dmem Z.eqb bp j = true) /\ (dmem Z.eqb bp res = false \/ res = i + Z.of_nat f).
Proof.
  induction f as [|f IH]; intros i; cbn [new_pathtail_from]; [repeat split; [lia|intros; lia|right; lia]|].
  destruct (dmem Z.eqb bp i) eqn:E; [|repeat split; [lia|intros; lia|left; exact E]].
  destruct (IH (i + 1)) as (A & B & C). repeat split; [lia| |destruct C; [auto|right; lia]].
  intros j Hj. destruct (Z.eq_dec j i) as [->|N]; [exact E|apply B; lia].
Qed.
(* with more fuel than entries it stops at a free location: the locations passed over are distinct keys of bp *)
Lemma npf_fresh (bp : list (Z * Z)) : dmem Z.eqb bp (new_pathtail_from (S (length bp)) bp 1) = false.
Proof.
  destruct (npf_spec bp (S (length bp)) 1) as (_ & B & [F|F]); [exact F|]. exfalso. rewrite F in B. clear F.
  set (l := map (fun n => 1 + Z.of_nat n) (seq 0 (S (length bp)))).
  assert (ND : NoDup l) by (apply FinFun.Injective_map_NoDup; [intros a b E; lia|apply seq_NoDup]).
  assert (Incl : incl l (map fst bp)).
  { intros j Hj. apply in_map_iff in Hj. destruct Hj as (n & <- & Hn). apply in_seq in Hn.
    apply (dmem_keys Zeqb_spec), B. lia. }
  pose proof (NoDup_incl_length ND Incl) as L. unfold l in L. rewrite !map_length, seq_length in L. lia.
Qed.
Lemma new_pathtail_fresh st : ~ In (_new_pathtail st) (map fst (by_path st)).
Proof. apply (dget_None_notin Zeqb_spec), dmem_false, npf_fresh. Qed.
Lemma new_pathtail_pos st : 1 <= _new_pathtail st.
Proof. apply npf_spec. Qed.

(* the state after a successful (re-)registration: the old registration of the key (if any) deleted, the new object
   appended and entered into both indexes *)
Definition registered (st : rd) (k : key) (r : reg) : rd :=
  let base := match dget key_eqb (by_key st) k with Some oid => deleted st oid | None => st end in
  {| objs := objs base ++ [(next_id st, r)]; by_key := dset key_eqb (by_key base) k (next_id st);
     by_path := dset Z.eqb (by_path base) (r_path r) (next_id st); now := now st;
     next_id := next_id st + 1; next_seq := next_seq st + 1; loop_exceptions := loop_exceptions st |}.
Definition location_for (st : rd) (k : key) : Z :=
  match dget key_eqb (by_key st) k with Some oid => r_path (obj st oid) | None => _new_pathtail st end.

Lemma registration_request_err q e : registration_request q = Raise e -> e = BadRequest.
Proof.
  unfold registration_request, bind.
  destruct (pop_single_arg q "ep") as [[q1 ep]|e1] eqn:E1; [|intros H; inv H; exact (pop_single_arg_err _ _ _ E1)].
  destruct ep as [ep|]; [|intros H; inv H; reflexivity].
  destruct (pop_single_arg q1 "d") as [[q2 d]|e1] eqn:E2; [|intros H; inv H; exact (pop_single_arg_err _ _ _ E2)].
  destruct (pop_single_arg q2 "proxy") as [[q3 proxy]|e1] eqn:E3; [|intros H; inv H; exact (pop_single_arg_err _ _ _ E3)].
  destruct (match proxy with Some p => _ | None => false end); [intros H; inv H; reflexivity|].
  destruct (dmem String.eqb _ "proxy"); intros H; inv H; reflexivity.
Qed.

(* under the invariant the delete closure of the replaced registration finds both index entries, so initialize_endpoint
   is a function of the parsed request *)
Lemma initialize_endpoint_eq st remote q : Inv st ->
  initialize_endpoint st remote q =
  match registration_request q with
  | Raise e => (st, Raise e)
  | Ok (k, static, rest) =>
      match Registration_init static k (location_for st k) remote rest (now st) (next_seq st) with
      | UpFail _ e => (st, Raise e)
      | UpOk r => (registered st k r, Ok (next_id st))
      end
  end.
Proof.
  intros I. unfold initialize_endpoint, registration_request, bind.
  destruct (pop_single_arg q "ep") as [[q1 ep]|e]; [|reflexivity].
  destruct ep as [ep|]; [|reflexivity].
  destruct (pop_single_arg q1 "d") as [[q2 d]|e]; [|reflexivity].
  destruct (pop_single_arg q2 "proxy") as [[q3 proxy]|e]; [|reflexivity].
  destruct (match proxy with Some p => negb (in_strs p ["on"; "yes"; "ondemand"]%string) | None => false end); [reflexivity|].
  match goal with |- context [dmem String.eqb ?s "proxy"] => destruct (dmem String.eqb s "proxy") end; [reflexivity|].
  set (k := (ep, d)). unfold location_for.
  match goal with |- context [Registration_init ?x1 ?x2 ?x3 ?x4 ?x5 ?x6 ?x7] => destruct (Registration_init x1 x2 x3 x4 x5 x6 x7) as [r|r err] eqn:ER end; [|reflexivity].
  unfold Registration_init in ER. apply update_params_ok in ER. cbn [r_key r_path r_links] in ER. destruct ER as (Rk & Rp & Rl & Rt).
  unfold registered.
  destruct (dget key_eqb (by_key st) k) as [oid|] eqn:Eold'.
  - pose proof (dget_In key_eqb_spec _ _ _ Eold') as Eold.
    destruct (indexed st k oid I Eold) as (Ho0 & Hk0 & Hp0 & _).
    pose proof (In_dget Zeqb_spec _ _ _ (inv_ids I) Ho0) as Eget.
    match goal with |- context [reg_delete ?s oid] => set (st1 := s) end.
    assert (Eobj1 : obj st1 oid = obj st oid).
    { unfold obj at 1, st1. cbn [objs]. rewrite (dget_app_mem _ _ _ _ Eget). reflexivity. }
    rewrite (reg_delete_spec st1 oid).
    + f_equal. unfold deleted, with_by_key, with_by_path. cbn [objs by_key by_path now next_id next_seq loop_exceptions].
      rewrite Eobj1. unfold st1. cbn [objs by_key by_path now next_id next_seq loop_exceptions].
      rewrite dset_app_mem; [|apply dmem_true; eauto]. rewrite Rp. reflexivity.
    + rewrite Eobj1. unfold st1. cbn [by_path]. exact (In_dmem Zeqb_spec _ _ _ Hp0).
    + rewrite Eobj1, Hk0. unfold st1. cbn [by_key]. exact (In_dmem key_eqb_spec _ _ _ Eold).
  - f_equal. unfold with_by_key, with_by_path. cbn [objs by_key by_path now next_id next_seq loop_exceptions]. rewrite Rp. reflexivity.
Qed.

Lemma Inv_registered st k r : Inv st -> r_key r = k -> r_path r = location_for st k -> has_timer r = true ->
  Inv (registered st k r).
Proof.
  intros I Rk Rp Rt. unfold registered, location_for in *.
  destruct (dget key_eqb (by_key st) k) as [oid|] eqn:Eold.
  - pose proof (dget_In key_eqb_spec _ _ _ Eold) as Hin.
    pose proof (Inv_deleted st oid k I Hin) as ID.
    pose proof (indexed_key st k oid I Hin) as Hk.
    unfold Inv. cbn [objs by_key by_path next_id loop_exceptions].
    apply Inv_add_new; auto.
    + unfold deleted. cbn [by_key]. rewrite Hk. rewrite ddel_keys_in; [tauto|apply key_eqb_spec|apply (inv_keys I)].
    + unfold deleted. cbn [by_path]. rewrite Rp. rewrite ddel_keys_in; [tauto|apply Zeqb_spec|apply (inv_paths I)].
  - unfold Inv. cbn [objs by_key by_path next_id loop_exceptions].
    apply Inv_add_new; auto.
    + apply (dget_None_notin key_eqb_spec). exact Eold.
    + rewrite Rp. apply new_pathtail_fresh.
Qed.

Lemma obj_registered st k r : Inv (registered st k r) -> obj (registered st k r) (next_id st) = r.
Proof. intros I1. apply obj_In; [apply I1|]. unfold registered. cbn [objs]. apply in_or_app. right. left. reflexivity. Qed.

(* the index after a registration: the key's old entry filtered out, the new one appended; the other registrations untouched *)
Lemma by_key_registered st k r : Inv st ->
  by_key (registered st k r) = filter (fun kv => negb (key_eqb (fst kv) k)) (by_key st) ++ [(k, next_id st)].
Proof.
  intros I. pose proof (inv_keys I) as NK. unfold registered. cbn [by_key].
  rewrite <- (ddel_filter key_eqb_spec) by exact NK. destruct (dget key_eqb (by_key st) k) as [oid|] eqn:Eold.
  - rewrite (by_key_deleted st oid k I (dget_In key_eqb_spec _ _ _ Eold)), <- (ddel_filter key_eqb_spec) by exact NK.
    apply (dset_notin_app key_eqb_spec). rewrite (ddel_keys_in key_eqb_spec) by exact NK. tauto.
  - pose proof (dget_None_notin key_eqb_spec _ _ Eold) as N. rewrite (ddel_notin key_eqb_spec) by exact N.
    apply (dset_notin_app key_eqb_spec). exact N.
Qed.
Lemma obj_registered_other st k r k1 id : Inv st -> In (k1, id) (by_key st) -> k1 <> k -> obj (registered st k r) id = obj st id.
Proof.
  intros I H Nk. pose proof (indexed_old st k1 id I H) as Lt.
  unfold registered, obj at 1. cbn [objs]. rewrite (dget_app_other Zeqb_spec) by lia.
  destruct (dget key_eqb (by_key st) k) as [oid|] eqn:Eold; [|reflexivity].
  apply obj_deleted_other. intros ->. apply Nk. exact (key_of_id st k1 k oid I H (dget_In key_eqb_spec _ _ _ Eold)).
Qed.

Lemma lookup_path_In st path id : lookup_path st path = Some id -> exists p, In (p, id) (by_path st) /\ path = [str_of_Z p; EmptyString].
Proof.
  unfold lookup_path. destruct path as [|s [|e [|x l]]]; try discriminate.
  destruct (String.eqb e EmptyString) eqn:Ee; [|discriminate]. apply String.eqb_eq in Ee. subst e.
  destruct (find _ (by_path st)) as [[p i]|] eqn:F; [|discriminate]. intros H. inv H.
  apply find_some in F. destruct F as [F1 F2]. cbn in F2. apply String.eqb_eq in F2. subst s. exists p. auto.
Qed.

Lemma lookup_indexed st path id : Inv st -> lookup_path st path = Some id ->
  In (r_key (obj st id), id) (by_key st) /\ In (id, obj st id) (objs st) /\ has_timer (obj st id) = true.
Proof.
  intros I H. apply lookup_path_In in H. destruct H as (p & Hp & _). destruct (inv_bp I _ _ Hp) as (r & _ & _ & Hk).
  destruct (indexed st _ id I Hk) as (Ho & Ek & _ & Ht). rewrite <- Ek in Hk. auto.
Qed.

Lemma _update_params_eq st id remote qs : Inv st -> In (id, obj st id) (objs st) ->
  _update_params st id remote qs =
  match update_params (obj st id) remote (query_split qs) false (now st) (next_seq st) with
  | UpOk r' => (updated st id r', None)
  | UpFail _ e => (st, Some e)
  end.
Proof.
  intros I H. unfold _update_params. destruct (update_params _ _ _ _ _ _) as [r'|r' e] eqn:EU; [reflexivity|].
  apply update_params_fail_clean in EU. destruct EU as [-> _]. rewrite set_obj_same; [reflexivity|exact H|apply I].
Qed.

Lemma update_params_keeps st id remote p init t seq r' : has_timer (obj st id) = true -> update_params (obj st id) remote p init t seq = UpOk r' ->
  r_key r' = r_key (obj st id) /\ r_path r' = r_path (obj st id) /\ has_timer r' = has_timer (obj st id).
Proof. intros Ht H. apply update_params_ok in H. destruct H as (Ek & Ep & _ & Et). unfold has_timer at 1. rewrite Et. auto. Qed.

Definition timer_step (best : option (Z * Z * Z)) (kv : Z * reg) : option (Z * Z * Z) :=
  match r_timer (snd kv) with
  | None => best
  | Some (due, seq) =>
      match best with
      | None => Some (due, seq, fst kv)
      | Some b => if timer_lt (due, seq, fst kv) b then Some (due, seq, fst kv) else best
      end
  end.
Lemma next_timer_fold st : next_timer st = fold_left timer_step (objs st) None.
Proof. reflexivity. Qed.

Lemma fold_timer_In l best due s id : fold_left timer_step l best = Some (due, s, id) ->
  best = Some (due, s, id) \/ exists r, In (id, r) l /\ r_timer r = Some (due, s).
Proof.
  revert best. induction l as [|[i x] l IH]; cbn [fold_left]; intros best H; [left; exact H|].
  apply IH in H. destruct H as [H|(r & Hin & Ht)]; [|right; exists r; split; [right; exact Hin|exact Ht]].
  unfold timer_step in H. cbn [fst snd] in H. destruct (r_timer x) as [[d q]|] eqn:Et; [|left; exact H].
  destruct best as [b|].
  - destruct (timer_lt (d, q, i) b); [|left; exact H]. inv H. right. exists x. split; [left; reflexivity|exact Et].
  - inv H. right. exists x. split; [left; reflexivity|exact Et].
Qed.
Lemma next_timer_In st due s id : next_timer st = Some (due, s, id) -> exists r, In (id, r) (objs st) /\ r_timer r = Some (due, s).
Proof. rewrite next_timer_fold. intros H. apply fold_timer_In in H. destruct H as [H|H]; [discriminate|exact H]. Qed.

Lemma fire_one st due s id : Inv st -> next_timer st = Some (due, s, id) ->
  let st0 := with_now st (Z.max (now st) due) in
  reg_delete st0 id = (deleted st0 id, false) /\ Inv (deleted st0 id).
Proof.
  intros I H st0. destruct (next_timer_In _ _ _ _ H) as (r & Hin & Ht).
  pose proof (timer_indexed st id r _ _ I Hin Ht : In _ (by_key st0)) as Hk.
  split; [apply (indexed_delete st0 id _ I Hk)|apply (Inv_deleted st0 id _ I Hk)].
Qed.

Lemma fire_due_Inv fuel : forall st target, Inv st -> Inv (fire_due fuel st target).
Proof.
  induction fuel as [|f IH]; intros st target I; cbn [fire_due]; [exact I|].
  destruct (next_timer st) as [[[due s] id]|] eqn:E; [|exact I].
  destruct (due <=? target); [|exact I].
  destruct (fire_one st due s id I E) as [Hd Hi]. rewrite Hd. apply IH. exact Hi.
Qed.
Definition is_lookup (o : op) : bool := match o with LookupEp _ _ | LookupRes _ _ => true | _ => false end.
(* the state changes a request or the passage of time can make: a registration entered (replacing the one of the same key),
   a registration rewritten in place by POST or PUT, a registration removed, timers fired *)
Inductive effect (st : rd) : op -> rd -> resp -> Prop :=
| eff_register remote q b r links : r_path r = location_for st (r_key r) -> has_timer r = true ->
    effect st (Register remote q b) (set_obj (registered st (r_key r) r) (next_id st) (set_links r links)) (Created (r_path r))
| eff_post path remote q b id r' : lookup_path st path = Some id ->
    update_params (obj st id) remote (query_split q) false (now st) (next_seq st) = UpOk r' ->
    effect st (UpdatePost path remote q b) (updated st id r') Changed
| eff_put path remote q b id r' links : lookup_path st path = Some id ->
    update_params (obj st id) remote (query_split q) false (now st) (next_seq st) = UpOk r' ->
    effect st (UpdatePut path remote q b) (set_obj (updated st id r') id (set_links r' links)) Changed
| eff_delete path id : lookup_path st path = Some id -> effect st (Delete path) (deleted st id) Deleted
| eff_advance dt : effect st (Advance dt) (advance st dt) Tick.

Lemma link_format_from_message_err b e : link_format_from_message b = Raise e -> e = BadRequest \/ e = UnsupportedMediaType.
Proof.
  (* the matches are the constructor-by-constructor test for content format 40 *)
  unfold link_format_from_message. repeat match goal with |- context [match ?x with _ => _ end] => destruct x end;
    intros H; inv H; auto.
Qed.

Lemma link_format_to_message_cases accept ls :
  link_format_to_message accept ls = NotAcceptable \/ link_format_to_message accept ls = Content (str_links ls).
Proof. unfold link_format_to_message. repeat match goal with |- context [match ?x with _ => _ end] => destruct x end; auto. Qed.

(* A request either leaves the state as it is, and then is a lookup, or is answered 4.xx, or is a read answered 2.05;
   or it has one of the five effects. Everything below that only needs to know what a request can do starts here. *)
Lemma handle_cases st o st1 r : Inv st -> handle st o = (st1, r) ->
  (st1 = st /\ (is_lookup o = true \/ is_4xx r = true \/ exists text, r = Content text)) \/ effect st o st1 r.
Proof.
  intros I.
  assert (Same : forall r0, is_lookup o = true \/ is_4xx r0 = true \/ (exists text, r0 = Content text) -> (st, r0) = (st1, r) ->
            (st1 = st /\ (is_lookup o = true \/ is_4xx r = true \/ exists text, r = Content text)) \/ effect st o st1 r).
  { intros r0 U H. inv H. left. auto. }
  assert (Bad : forall x, x = BadRequest \/ x = UnsupportedMediaType -> is_lookup o = true \/ is_4xx (Err x) = true \/ (exists text, Err x = Content text)).
  { intros x [->| ->]; auto. }
  destruct o as [remote q b|path remote q b|path remote q b|path|path accept|q accept|q accept|dt]; cbn [handle].
  - unfold directory_render_post. destruct (link_format_from_message b) as [links|e] eqn:EL; [|apply Same, Bad, (link_format_from_message_err _ _ EL)].
    rewrite (initialize_endpoint_eq st remote _ I).
    destruct (registration_request (query_split q)) as [[[k static] rest]|e] eqn:ER; [|apply Same, Bad; left; exact (registration_request_err _ _ ER)].
    unfold Registration_init. destruct (update_params _ remote rest true (now st) (next_seq st)) as [r0|r0 e] eqn:EU;
      [|apply Same, Bad; left; exact (proj2 (update_params_fail_clean _ _ _ _ _ _ _ _ EU))].
    apply update_params_ok in EU. cbn [r_key r_path] in EU. destruct EU as (Rk & Rp & _ & Rt). subst k.
    assert (Tm : has_timer r0 = true) by (unfold has_timer; rewrite Rt; reflexivity).
    rewrite (obj_registered st _ r0 (Inv_registered st _ r0 I eq_refl Rp Tm)). intros H. inv H. right. constructor; assumption.
  - destruct (lookup_path st path) as [id|] eqn:EP; [|apply Same; auto].
    unfold registration_render_post. destruct (_ || _); [apply Same; auto|].
    rewrite (_update_params_eq st id remote q I (proj1 (proj2 (lookup_indexed st path id I EP)))).
    destruct (update_params _ _ _ _ _ _) as [r'|r' e] eqn:EU; [|apply Same, Bad; left; exact (proj2 (update_params_fail_clean _ _ _ _ _ _ _ _ EU))].
    intros H. inv H. right. econstructor; eassumption.
  - destruct (lookup_path st path) as [id|] eqn:EP; [|apply Same; auto].
    unfold registration_render_put. destruct (link_format_from_message b) as [links|e] eqn:EL; [|apply Same, Bad, (link_format_from_message_err _ _ EL)].
    rewrite (_update_params_eq st id remote q I (proj1 (proj2 (lookup_indexed st path id I EP)))).
    destruct (update_params _ _ _ _ _ _) as [r'|r' e] eqn:EU; [|apply Same, Bad; left; exact (proj2 (update_params_fail_clean _ _ _ _ _ _ _ _ EU))].
    rewrite (obj_set_obj st id r' : obj (updated st id r') id = r'). intros H. inv H. right. econstructor; eassumption.
  - destruct (lookup_path st path) as [id|] eqn:EP; [|apply Same; auto].
    unfold registration_render_delete. rewrite (indexed_delete st id _ I (proj1 (lookup_indexed st path id I EP))).
    intros H. inv H. right. constructor. exact EP.
  - destruct (lookup_path st path); [|apply Same; auto].
    apply Same. destruct (link_format_to_message_cases accept (r_links (obj st z))) as [->| ->]; eauto.
  - apply Same. auto.
  - apply Same. auto.
  - intros H. inv H. right. constructor.
Qed.

Lemma effect_Inv st o st1 r : Inv st -> effect st o st1 r -> Inv st1.
Proof.
  intros I W. destruct W as [remote q b r0 links Rp Tm|path remote q b id r' EP EU|path remote q b id r' links EP EU|path id EP|dt].
  - pose proof (Inv_registered st _ r0 I eq_refl Rp Tm) as I1. pose proof (obj_registered st _ r0 I1) as Eo.
    apply Inv_rewritten; rewrite ?Eo; auto. unfold registered. cbn [objs]. apply in_or_app. right. left. reflexivity.
  - destruct (lookup_indexed st path id I EP) as (_ & Ho & Ht). destruct (update_params_keeps _ _ _ _ _ _ _ _ Ht EU) as (Ek & Ep & Et).
    exact (Inv_rewritten st id r' I Ho Ek Ep Et).
  - destruct (lookup_indexed st path id I EP) as (_ & Ho & Ht). destruct (update_params_keeps _ _ _ _ _ _ _ _ Ht EU) as (Ek & Ep & Et).
    pose proof (Inv_rewritten st id r' I Ho Ek Ep Et : Inv (updated st id r')) as I1.
    pose proof (obj_set_obj st id r' : obj (updated st id r') id = r') as Eo.
    apply Inv_rewritten; rewrite ?Eo; auto. exact (set_obj_In st id r').
  - exact (Inv_deleted st id _ I (proj1 (lookup_indexed st path id I EP))).
  - exact (fire_due_Inv _ st _ I).
Qed.
Lemma effect_answer st o st1 r : effect st o st1 r -> is_4xx r = false /\ forall e, r <> Err e.
Proof. intros W. destruct W; split; try reflexivity; discriminate. Qed.

Lemma handle_Inv st o st' r : Inv st -> handle st o = (st', r) ->
  Inv st' /\ (is_lookup o = false -> r <> Err KeyError) /\ (is_4xx r = true -> st' = st).
Proof.
  intros I H. destruct (handle_cases st o st' r I H) as [[-> U]|W].
  - split; [exact I|split; [|reflexivity]]. intros NL ->. destruct U as [U|[U|[text U]]]; [congruence|discriminate U|discriminate U].
  - destruct (effect_answer _ _ _ _ W) as [N4 NE]. split; [exact (effect_Inv _ _ _ _ I W)|split; [intros _; apply NE|congruence]].
Qed.

Lemma handle_error st o st1 e : Inv st -> is_lookup o = false -> handle st o = (st1, Err e) -> is_4xx (Err e) = true /\ st1 = st.
Proof.
  intros I NL H. destruct (handle_cases st o st1 _ I H) as [[-> U]|W].
  - split; [|reflexivity]. destruct U as [U|[U|[text U]]]; [congruence|exact U|discriminate U].
  - destruct (proj2 (effect_answer _ _ _ _ W) e eq_refl).
Qed.

Definition SettledAt (st : rd) (t : Z) : Prop :=
  forall id r due s, In (id, r) (objs st) -> r_timer r = Some (due, s) -> t < due.
(* no pending lifetime timer is due: the state between two events of the virtual loop *)
Definition Settled (st : rd) : Prop := SettledAt st (now st).

Definition due_of (m : Z * Z * Z) : Z := fst (fst m).
Lemma timer_lt_true a b : timer_lt a b = true -> due_of a <= due_of b.
Proof. destruct a as [[d1 s1] i1], b as [[d2 s2] i2]. unfold timer_lt, due_of. cbn. lia. Qed.
Lemma timer_lt_false a b : timer_lt a b = false -> due_of b <= due_of a.
Proof. destruct a as [[d1 s1] i1], b as [[d2 s2] i2]. unfold timer_lt, due_of. cbn. lia. Qed.

Lemma fold_timer_min l : forall best,
  (forall b, best = Some b -> exists m, fold_left timer_step l best = Some m /\ due_of m <= due_of b) /\
  (forall id r d s, In (id, r) l -> r_timer r = Some (d, s) -> exists m, fold_left timer_step l best = Some m /\ due_of m <= d).
Proof.
  induction l as [|[i x] l IH]; intros best; cbn [fold_left].
  - split; [intros b ->; exists b; split; [reflexivity|lia]|intros ? ? ? ? []].
  - destruct (IH (timer_step best (i, x))) as [IH1 IH2]. split.
    + intros b ->. unfold timer_step in *. cbn [fst snd] in *. destruct (r_timer x) as [[d q]|]; [|apply IH1; reflexivity].
      destruct (timer_lt (d, q, i) b) eqn:E.
      * destruct (IH1 _ eq_refl) as (m & Hm & Hle). exists m. split; [exact Hm|]. apply timer_lt_true in E. unfold due_of in *. cbn in *. lia.
      * apply IH1. reflexivity.
    + intros id r d s [H|H] Ht; [|eapply IH2; eauto]. inv H.
      unfold timer_step in *. cbn [fst snd] in *. rewrite Ht in *. destruct best as [b|].
      * destruct (timer_lt (d, s, id) b) eqn:E.
        -- destruct (IH1 _ eq_refl) as (m & Hm & Hle). exists m. split; [exact Hm|exact Hle].
        -- destruct (IH1 _ eq_refl) as (m & Hm & Hle). exists m. split; [exact Hm|]. apply timer_lt_false in E. unfold due_of in *. cbn in *. lia.
      * destruct (IH1 _ eq_refl) as (m & Hm & Hle). exists m. split; [exact Hm|exact Hle].
Qed.
Lemma next_timer_min st id r d s : In (id, r) (objs st) -> r_timer r = Some (d, s) ->
  exists m, next_timer st = Some m /\ due_of m <= d.
Proof. intros H Ht. rewrite next_timer_fold. destruct (fold_timer_min (objs st) None) as [_ F]. eapply F; eauto. Qed.

Lemma filter_length_le {A} (f : A -> bool) l : (length (filter f l) <= length l)%nat.
Proof. induction l as [|x l IH]; cbn; [lia|]. destruct (f x); cbn; lia. Qed.
Lemma filter_shorter {A} (f : A -> bool) l : filter f l <> l -> (length (filter f l) < length l)%nat.
Proof.
  induction l as [|x l IH]; cbn; intros H; [congruence|]. destruct (f x) eqn:E; cbn.
  - assert (filter f l <> l) by congruence. specialize (IH H0). lia.
  - pose proof (filter_length_le f l). lia.
Qed.

Lemma fire_due_now fuel : forall st target, Inv st -> now st <= target -> now st <= now (fire_due fuel st target) <= target.
Proof.
  induction fuel as [|f IH]; intros st target I Hn; cbn [fire_due]; [lia|].
  destruct (next_timer st) as [[[due s] id]|] eqn:E; [|lia].
  destruct (due <=? target) eqn:Ed; [|lia].
  destruct (fire_one st due s id I E) as [Hd Hi]. rewrite Hd. specialize (IH _ target Hi). cbn [now deleted with_now] in IH. lia.
Qed.

Lemma filter_filter {A} (f g : A -> bool) l : filter f (filter g l) = filter (fun x => g x && f x) l.
Proof. induction l as [|x l IH]; cbn; [reflexivity|]. destruct (g x); cbn; [destruct (f x); rewrite IH; reflexivity|exact IH]. Qed.

(* the registrations whose timer is not yet due at t *)
Definition not_due (st : rd) (t : Z) (kv : key * Z) : bool :=
  match r_timer (obj st (snd kv)) with Some (d, _) => t <? d | None => false end.

Lemma indexed_has_timer st k id : Inv st -> In (k, id) (by_key st) ->
  exists d s, In (id, obj st id) (objs st) /\ r_timer (obj st id) = Some (d, s).
Proof.
  intros I H. destruct (indexed st k id I H) as (Ho & _ & _ & Ht). unfold has_timer in Ht.
  destruct (r_timer (obj st id)) as [[d s]|]; [eauto|discriminate].
Qed.

Lemma nothing_due st t : Inv st -> (forall m, next_timer st = Some m -> t < due_of m) -> filter (not_due st t) (by_key st) = by_key st.
Proof.
  intros I Hm. apply filter_all. intros [k id] H. destruct (indexed_has_timer st k id I H) as (d & s & Ho & Et). unfold not_due. cbn [snd]. rewrite Et.
  destruct (next_timer_min st id _ d s Ho Et) as (m & Em & Hle). specialize (Hm m Em). lia.
Qed.

(* Firing the timers due up to t: exactly the registrations not yet due stay listed, in order, and they are untouched.
   Everything else about expiry (no timer left overdue, what the abstract directory drops) is read off this. *)
Lemma fire_due_spec fuel : forall st t, Inv st -> (length (by_key st) <= fuel)%nat ->
  by_key (fire_due fuel st t) = filter (not_due st t) (by_key st) /\
  forall k id, In (k, id) (by_key (fire_due fuel st t)) -> obj (fire_due fuel st t) id = obj st id.
Proof.
  induction fuel as [|f IH]; intros st t I Hf; cbn [fire_due].
  - split; [|reflexivity]. destruct (by_key st); [reflexivity|cbn in Hf; lia].
  - destruct (next_timer st) as [[[due0 s0] id0]|] eqn:E.
    + destruct (due0 <=? t) eqn:Ed.
      * destruct (fire_one st due0 s0 id0 I E) as [Hd Hi]. rewrite Hd.
        destruct (next_timer_In _ _ _ _ E) as (r0 & Hin0 & Ht0).
        set (st0 := with_now st (Z.max (now st) due0)) in *.
        pose proof (timer_indexed st id0 r0 _ _ I Hin0 Ht0) as Hk0.
        assert (Eo0 : obj st id0 = r0) by (apply obj_In; [apply I|exact Hin0]).
        pose proof (by_key_deleted st0 id0 _ I Hk0 : _ = filter _ (by_key st)) as Ebk.
        destruct (IH (deleted st0 id0) t Hi) as [IHk IHo].
        { rewrite Ebk. assert (P : filter (fun kv => negb (key_eqb (fst kv) (r_key r0))) (by_key st) <> by_key st).
          { intros Eq. rewrite <- Eq in Hk0. apply In_without in Hk0. tauto. }
          apply filter_shorter in P. lia. }
        split.
        -- rewrite IHk, Ebk, filter_filter. apply filter_ext_in. intros [k id] H. cbn [fst].
           unfold not_due. cbn [snd]. destruct (key_eq_dec k (r_key r0)) as [->|N].
           ++ rewrite (eqb_refl' key_eqb_spec), (In_fun _ _ _ _ (inv_keys I) H Hk0), Eo0, Ht0. cbn [negb andb]. symmetry. lia.
           ++ rewrite (eqb_neq key_eqb_spec _ _ N), obj_deleted_other; [reflexivity|]. intros ->. exact (N (key_of_id st k _ id0 I H Hk0)).
        -- intros k id H. rewrite (IHo _ _ H). rewrite IHk in H. apply filter_In in H.
           apply (obj_deleted_other st0), (deleted_frame st0 id0 _ I Hk0 k id), H.
      * split; [|reflexivity]. symmetry. apply (nothing_due st t I). intros m Em. rewrite E in Em. inv Em. unfold due_of. cbn. lia.
    + split; [|reflexivity]. symmetry. apply (nothing_due st t I). intros m Em. rewrite E in Em. discriminate.
Qed.

(* with the fuel that [drain] and [advance] give it *)
Lemma fire_all st t : Inv st ->
  by_key (fire_due (length (objs st)) st t) = filter (not_due st t) (by_key st) /\
  forall k id, In (k, id) (by_key (fire_due (length (objs st)) st t)) -> obj (fire_due (length (objs st)) st t) id = obj st id.
Proof. intros I. apply fire_due_spec; [exact I|exact (index_le st I)]. Qed.

Lemma In_fire_all st t k id : Inv st ->
  In (k, id) (by_key (fire_due (length (objs st)) st t)) <->
  In (k, id) (by_key st) /\ exists due s, r_timer (obj st id) = Some (due, s) /\ t < due.
Proof.
  intros I. rewrite (proj1 (fire_all st t I)), filter_In. unfold not_due. cbn [snd]. split; intros [H Q]; (split; [exact H|]).
  - destruct (r_timer (obj st id)) as [[d s]|]; [|discriminate]. exists d, s. split; [reflexivity|lia].
  - destruct Q as (d & s & -> & Q). lia.
Qed.

Lemma fire_all_settles st t : Inv st -> SettledAt (fire_due (length (objs st)) st t) t.
Proof.
  intros I id r due s Ho Ht. pose proof (fire_due_Inv (length (objs st)) st t I) as I'.
  pose proof (timer_indexed _ id r _ _ I' Ho Ht) as Hk.
  destruct (proj1 (In_fire_all st t _ _ I) Hk) as (_ & d & s' & Q & Lt).
  rewrite <- (proj2 (fire_all st t I) _ _ Hk), (obj_In _ id r (inv_ids I') Ho), Ht in Q. inv Q. exact Lt.
Qed.

Lemma drain_Settled st : Inv st -> Settled (drain st).
Proof.
  intros I. unfold Settled, drain.
  pose proof (fire_due_now (length (objs st)) st (now st) I (Z.le_refl _)) as N.
  replace (now (fire_due (length (objs st)) st (now st))) with (now st) by lia.
  apply fire_all_settles. exact I.
Qed.
Lemma advance_Settled st dt : Inv st -> Settled (advance st dt).
Proof.
  intros I. unfold Settled, advance. cbn [now with_now]. unfold SettledAt. cbn [objs with_now].
  apply fire_all_settles. exact I.
Qed.

Lemma drain_id st : Settled st -> drain st = st.
Proof.
  intros S. unfold drain. destruct (length (objs st)); cbn [fire_due]; [reflexivity|].
  destruct (next_timer st) as [[[due s] id]|] eqn:E; [|reflexivity].
  destruct (next_timer_In _ _ _ _ E) as (r & Hin & Ht). pose proof (S _ _ _ _ Hin Ht).
  replace (due <=? now st) with false by lia. reflexivity.
Qed.

Lemma step_Inv st o st' r : Inv st -> step st o = (st', r) ->
  Inv st' /\ Settled st' /\ (is_lookup o = false -> r <> Err KeyError).
Proof.
  intros I. unfold step. destruct (handle st o) as [st1 r1] eqn:EH. intros H; inv H.
  destruct (handle_Inv _ _ _ _ I EH) as (I1 & Nk & _).
  split; [apply fire_due_Inv; exact I1|split; [apply drain_Settled; exact I1|exact Nk]].
Qed.

Lemma empty_Inv : Inv empty_rd.
Proof. unfold Inv, empty_rd. cbn. constructor; cbn; try constructor; try tauto; try reflexivity. Qed.
Lemma empty_Settled : Settled empty_rd.
Proof. intros id r due s []. Qed.

Lemma run_state_Inv ops : forall st, Inv st -> Settled st -> Inv (run_state st ops) /\ Settled (run_state st ops).
Proof.
  induction ops as [|o ops IH]; intros st I S; cbn [run_state]; [auto|].
  destruct (step st o) as [st1 r] eqn:E. destruct (step_Inv _ _ _ _ I E) as (I1 & S1 & _). cbn [fst]. apply IH; assumption.
Qed.

(* a request answered with 4.xx leaves the whole directory state — both indexes, every registration's lifetime, base,
   parameters, links and timer, the clock — exactly as it was *)
Lemma failed_op_unchanged st o st' r : Inv st -> Settled st -> step st o = (st', r) -> is_4xx r = true -> st' = st.
Proof.
  intros I S. unfold step. destruct (handle st o) as [st1 r1] eqn:EH. intros H H4; inv H.
  destruct (handle_Inv _ _ _ _ I EH) as (_ & _ & F). rewrite (F H4). apply drain_id. exact S.
Qed.

Lemma step_error st o st' e : Inv st -> Settled st -> is_lookup o = false -> step st o = (st', Err e) -> is_4xx (Err e) = true /\ st' = st.
Proof.
  intros I S NL. unfold step. destruct (handle st o) as [st1 r1] eqn:EH. intros H; inv H.
  destruct (handle_error _ _ _ _ I NL EH) as [H4 ->]. split; [exact H4|apply drain_id; exact S].
Qed.

Lemma register_location st remote q b st' loc : Inv st -> handle st (Register remote q b) = (st', Created loc) ->
  exists k, loc = location_for st k /\
            dget key_eqb (by_key st') k = Some (next_id st) /\ dget Z.eqb (by_path st') loc = Some (next_id st) /\
            r_key (obj st' (next_id st)) = k /\ r_path (obj st' (next_id st)) = loc.
Proof.
  intros I H. destruct (handle_cases _ _ _ _ I H) as [[_ [U|[U|[text U]]]]|W]; try discriminate U.
  inversion W as [? ? ? r0 links Rp Tm| | | |]. subst. exists (r_key r0). split; [exact Rp|].
  rewrite obj_set_obj. unfold set_obj, registered. cbn [by_key by_path].
  split; [apply (dget_dset_same key_eqb_spec)|]. split; [apply (dget_dset_same Zeqb_spec)|auto].
Qed.

Lemma distinct_locations st k1 k2 id1 id2 : Inv st -> In (k1, id1) (by_key st) -> In (k2, id2) (by_key st) -> k1 <> k2 ->
  r_path (obj st id1) <> r_path (obj st id2).
Proof.
  intros I H1 H2 N E.
  destruct (indexed st k1 id1 I H1) as (_ & Hk1 & Hp1 & _). destruct (indexed st k2 id2 I H2) as (_ & Hk2 & Hp2 & _).
  rewrite E in Hp1. pose proof (In_fun _ _ _ _ (inv_paths I) Hp1 Hp2). subst id2. congruence.
Qed.

Lemma indexes_bijective st : Inv st ->
  NoDup (map fst (by_key st)) /\ NoDup (map fst (by_path st)) /\
  (forall id, (exists k, In (k, id) (by_key st)) <-> (exists p, In (p, id) (by_path st))) /\
  (forall k id, In (k, id) (by_key st) -> r_key (obj st id) = k /\ In (r_path (obj st id), id) (by_path st)) /\
  (forall p id, In (p, id) (by_path st) -> r_path (obj st id) = p /\ In (r_key (obj st id), id) (by_key st)).
Proof.
  intros I. pose proof (inv_ids I) as NI.
  split; [apply I|split; [apply I|split; [|split]]].
  - intros id. split; intros [x H].
    + destruct (inv_bk I _ _ H) as (r & _ & _ & Hp & _). eauto.
    + destruct (inv_bp I _ _ H) as (r & _ & _ & Hk). eauto.
  - intros k id H. destruct (indexed st k id I H) as (_ & Hk & Hp & _). auto.
  - intros p id H. destruct (inv_bp I _ _ H) as (r & Ho & Hp & Hk). rewrite (obj_In st id r NI Ho). auto.
Qed.

Definition reachable (st : rd) : Prop := exists ops, st = run_state empty_rd ops.
Lemma reachable_Inv st : reachable st -> Inv st /\ Settled st.
Proof. intros [ops ->]. apply run_state_Inv; [apply empty_Inv|apply empty_Settled]. Qed.

Lemma listed_iff_live st : Inv st -> Settled st ->
  forall id r, In (id, r) (objs st) ->
    ((exists k, In (k, id) (by_key st)) <-> exists due s, r_timer r = Some (due, s) /\ now st < due).
Proof.
  intros I S id r Ho. pose proof (inv_ids I) as NI. split.
  - intros [k H]. destruct (indexed_has_timer st k id I H) as (d & s & _ & Et). rewrite (obj_In st id r NI Ho) in Et.
    exists d, s. split; [exact Et|]. eapply S; eauto.
  - intros (d & s & Ht & _). exists (r_key r). exact (timer_indexed st id r d s I Ho Ht).
Qed.

Lemma run_no_exception ops : forall st, Inv st ->
  loop_exceptions (run_state st ops) = 0 /\
  Forall2 (fun o ob => is_lookup o = false -> o_resp ob <> Err KeyError) ops (run st ops).
Proof.
  induction ops as [|o ops IH]; intros st I; cbn [run_state run].
  - split; [apply I|constructor].
  - destruct (step st o) as [st1 r] eqn:E. destruct (step_Inv _ _ _ _ I E) as (I1 & _ & Nk). cbn [fst].
    destruct (IH st1 I1) as [A B]. split; [exact A|]. constructor; [exact Nk|exact B].
Qed.
