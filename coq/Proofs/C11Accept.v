(* C11 — what follows from unprotect_verify accepting a message (Proofs/C11.v, unprotect_verify_ok): honest ciphertexts only, binding to
   the sender's key, request and Partial IV, and which errors are raised otherwise (window facts from Proofs.C12, as in Proofs/C11.v). *)
From Verif Require Import Lib.Py Lib.Tactics Lib.PyLemmas Gen.options_ext Gen.oscore_replay Gen.oscore_consts Model.C11 Proofs.C11Bytes Proofs.C11.
From Verif Require Proofs.C12.
Open Scope Z_scope.

Theorem unprotect_accepts_only_honest E c pm r c' pt seqno rid' : ideal E ->
  unprotect_verify E c pm r = Ok (c', pt, seqno, rid') ->
  exists nonce, payload pm = enc E (recipient_key c) nonce (build_encrypt0_structure (extract_external_aad (c_alg c) rid')) pt.
Proof.
  intros (_ & Hs & _) (od & u & pivs & gen & nonce & w' & _ & _ & _ & _ & _ & _ & _ & _ & _ & Hd & _)%unprotect_verify_ok. eauto.
Qed.

Theorem request_ids_reusable_only_if_validated E c pm c' pt seqno rid' :
  unprotect_verify E c pm None = Ok (c', pt, seqno, rid') ->
  exists w n w', recipient_replay_window c = Some w /\ seqno = Some n /\ is_valid w n = Ok true /\
    strike_out w n = Ok (w', tt) /\ recipient_replay_window c' = Some w' /\ can_reuse_nonce rid' = true.
Proof.
  intros (od & u & pivs & gen & nonce & w1 & _ & _ & _ & _ & _ & Hstep & _ & _ & _ & _ & Hw & ->)%unprotect_verify_ok.
  apply resolve_piv_inv in Hstep. destruct (u_piv u) as [p|]; [|contradiction].
  destruct Hstep as (_ & _ & -> & w & cs & Ew & Hv & _ & ->).
  unfold struck in Hw. rewrite Ew in Hw. apply bind_ok in Hw as [[w' []] [Hs [= <-]]].
  exists w, (from_bytes_big p), w'. auto 10.
Qed.

(* If the ciphertext is one a sender produced with protect, acceptance means: same key, same algorithm and request identifiers in the
   AAD, same nonce, and the plaintext is the sender's message *)
Theorem accepted_implies_unchanged E cS m rS kc cS' rS' pmS ridS cR pm rR cR' pt seqno ridR : ideal E ->
  small_alg (c_alg cS) -> small_alg (c_alg cR) -> small_rid ridS -> small_rid ridR ->
  protect E cS m rS kc = (cS', rS', Ok (pmS, ridS)) ->
  unprotect_verify E cR pm rR = Ok (cR', pt, seqno, ridR) ->
  payload pm = payload pmS ->
  recipient_key cR = sender_key cS /\
  alg_value (c_alg cR) = alg_value (c_alg cS) /\ rid_kid ridR = rid_kid ridS /\ rid_piv ridR = rid_piv ridS /\
  plaintext_of (code m) (inner_opts m) (payload m) = Ok pt.
Proof.
  intros HI As Ar Ss Sr P U Hp.
  apply (unprotect_accepts_only_honest _ _ _ _ _ _ _ _ HI) in U as [nR HR].
  apply protect_inv in P as (om & ptS & nS & pvS & upS & Sp & _ & F).
  apply split_message_inv in Sp as (oc & _ & T & _).
  apply protect_finish_inv in F as (od & _ & _ & HS & _).
  rewrite Hp, HS in HR. apply HI in HR as (Hk & _ & Ha & <-).
  apply encrypt0_structure_injective in Ha; [|apply blen_ext_aad; (apply Ss || apply Sr)..].
  destruct Ss, Sr. apply external_aad_injective in Ha as (A1 & A2 & A3); try assumption; try lia. auto.
Qed.

Theorem response_not_replayable_against_other_request E cS m rS kc cS' rS' pmS ridS cR pm rR cR' pt seqno ridR : ideal E ->
  small_alg (c_alg cS) -> small_alg (c_alg cR) -> small_rid rS -> small_rid rR ->
  is_response (code m) = true ->
  protect E cS m (Some rS) kc = (cS', rS', Ok (pmS, ridS)) ->
  unprotect_verify E cR pm (Some rR) = Ok (cR', pt, seqno, ridR) ->
  payload pm = payload pmS ->
  rid_kid rR = rid_kid rS /\ rid_piv rR = rid_piv rS.
Proof.
  intros HI As Ar Ss Sr Hresp P U Hp.
  destruct (protect_response_inv _ _ _ _ _ _ _ _ _ Hresp P) as (_ & _ & _ & _ & _ & _ & HridS & _).
  assert (HridR : ridR = rR).
  { apply unprotect_verify_ok in U as (od & u & pivs & gen & nonce & w' & _ & _ & _ & _ & _ & Hstep & _).
    apply resolve_piv_inv in Hstep. destruct (u_piv u); apply Hstep. }
  rewrite HridR in U. assert (Ss' : small_rid ridS) by (rewrite HridS; exact Ss).
  destruct (accepted_implies_unchanged _ _ _ _ _ _ _ _ _ _ _ _ _ _ _ _ HI As Ar Ss' Sr P U Hp) as (_ & _ & Hk & Hpv & _).
  rewrite HridS in Hk, Hpv. auto.
Qed.

Theorem request_option_change_detected E cS m kc cS' rS' pmS ridS cR pm cR' pt seqno ridR od' u' : ideal E ->
  small_alg (c_alg cS) -> small_alg (c_alg cR) -> small_rid ridS -> small_rid ridR ->
  is_request (code m) = true ->
  protect E cS m None kc = (cS', rS', Ok (pmS, ridS)) ->
  unprotect_verify E cR pm None = Ok (cR', pt, seqno, ridR) ->
  payload pm = payload pmS ->
  get_opt OPT_OSCORE (opts pm) = Some od' -> uncompress od' = Ok u' ->
  u_piv u' = Some (rid_piv ridS) /\ eff_kid cR u' = sender_id cS /\ eff_kid_context cR u' = id_context cR /\ u_group u' = false.
Proof.
  intros HI As Ar Ss Sr Hreq P U Hp Hod Hu.
  destruct (accepted_implies_unchanged _ _ _ _ _ _ _ _ _ _ _ _ _ _ _ _ HI As Ar Ss Sr P U Hp) as (_ & _ & Hk & Hpv & _).
  apply (protect_request_inv _ _ _ _ _ _ _ _ Hreq) in P as (_ & _ & _ & _ & _ & Rk & _).
  apply unprotect_verify_ok in U as (od & u & pivs & gen & nonce & w' & _ & Hod0 & Hu0 & Hctx & Hkid & Hstep & Hg & _).
  rewrite Hod in Hod0. injection Hod0 as <-. rewrite Hu in Hu0. injection Hu0 as <-.
  apply resolve_piv_inv in Hstep. destruct (u_piv u') as [p|]; [|contradiction].
  destruct Hstep as (_ & _ & _ & w & cs & _ & _ & _ & ->). cbn [rid_kid rid_piv] in *. repeat split; congruence.
Qed.

(* the own Partial IV of a response is not in the AAD: it is bound through the nonce, up to leading zero bytes *)
Theorem response_own_piv_bound E cS m rS kc cS' rS' pmS ridS cR pm rR cR' pt seqno ridR od u : ideal E ->
  common_iv cR = common_iv cS -> c_alg cR = c_alg cS ->
  blen (sender_id cS) <= alg_iv_bytes (c_alg cS) - NONCE_ID_OVERHEAD -> blen (recipient_id cR) <= alg_iv_bytes (c_alg cS) - NONCE_ID_OVERHEAD ->
  admissible_rid cR rR -> rid_kid rR <> sender_id cS ->
  is_response (code m) = true -> can_reuse_nonce rS = false ->
  protect E cS m (Some rS) kc = (cS', rS', Ok (pmS, ridS)) ->
  unprotect_verify E cR pm (Some rR) = Ok (cR', pt, seqno, ridR) -> payload pm = payload pmS ->
  get_opt OPT_OSCORE (opts pm) = Some od -> uncompress od = Ok u ->
  exists p, u_piv u = Some p /\ recipient_id cR = sender_id cS /\
    zeros (NONCE_PIV_BYTES - blen p) ++ p = to_bytes_big_n (Z.to_nat PIV_FULL_BYTES) (sender_sequence_number cS) /\
    seqno = Some (from_bytes_big p).
Proof.
  intros HI Mciv Malg Bs Br [Bk Bp] Hne Hresp Hreuse P U Hp Hod Hu.
  apply (protect_response_inv _ _ _ _ _ _ _ _ _ Hresp) in P as (pivs & gen & nonceS & upiv & pt0 & od0 & _ & Hcase & HnS & _ & _ & _ & _ & HpayS).
  destruct Hcase as [(Hx & _)|(_ & _ & -> & -> & _)]; [congruence|].
  apply unprotect_verify_ok in U as (od1 & u1 & pivsR & genR & nonceR & w' & _ & Hod1 & Hu1 & _ & _ & Hstep & _ & _ & HnR & Hd & _).
  rewrite Hod in Hod1. injection Hod1 as <-. rewrite Hu in Hu1. injection Hu1 as <-.
  apply HI in Hd. rewrite Hp, HpayS in Hd. apply HI in Hd as (_ & <- & _).
  rewrite Mciv, Malg in HnR. rewrite Malg in Bk.
  pose proof (piv_of_seq_len (sender_sequence_number cS)) as [_ Bv].
  pose proof (uncompress_piv od u Hu) as Hplen.
  apply resolve_piv_inv in Hstep. destruct (u_piv u) as [p|].
  - destruct Hstep as (-> & -> & _ & ->).
    assert (Bp' : blen p <= NONCE_PIV_BYTES) by (unfold PIVSZ_MAX, NONCE_PIV_BYTES in *; lia).
    destruct (nonce_injective _ _ _ _ _ _ _ Bs Br Bv Bp' HnS HnR) as [Hid Hpad].
    exists p. rewrite <- Hpad, piv_of_seq_pad. auto.
  - destruct Hstep as (-> & -> & _). destruct (nonce_injective _ _ _ _ _ _ _ Bs Bk Bv Bp HnS HnR) as [Hid _]. congruence.
Qed.

Lemma get_opt_In n os v : get_opt n os = Some v -> In (n, v) os.
Proof.
  unfold get_opt. destruct (find _ os) as [[k x]|] eqn:Hf; intros [= <-].
  apply find_some in Hf as [Hin Hk]. cbn [fst] in Hk. apply Z.eqb_eq in Hk as ->. exact Hin.
Qed.

(* the step raises protection errors only, for the calls the stack makes *)
Lemma resolve_piv_error c oc r upiv e : (r = None -> oc = CODE_POST \/ oc = CODE_FETCH) ->
  resolve_piv c oc r upiv = Raise e -> e = ProtectionInvalid \/ e = ReplayError.
Proof.
  unfold resolve_piv. destruct upiv, r; try discriminate; [|intros _ [= <-]; auto].
  intros Hc. destruct (recipient_replay_window c) as [w|]; [|intros [= <-]; auto].
  rewrite Proofs.C12.is_valid_eq. cbn [bind]. destruct (negb _); [intros [= <-]; auto|].
  destruct (Hc eq_refl) as [-> | ->]; discriminate.
Qed.
(* and what it hands on is fit for the nonce construction and, for a request, for striking out *)
Lemma resolve_piv_fit c oc r upiv seqno pivs gen rid' : admissible_ctx c ->
  match r with Some r0 => admissible_rid c r0 | None => True end ->
  match upiv with Some p => 1 <= blen p <= PIVSZ_MAX /\ bytes_ok p = true | None => True end ->
  resolve_piv c oc r upiv = Ok (seqno, pivs, gen, rid') ->
  blen gen <= alg_iv_bytes (c_alg c) - NONCE_ID_OVERHEAD /\ blen pivs <= NONCE_PIV_BYTES /\ exists w', struck c r seqno = Ok w'.
Proof.
  intros (Ar & _ & _ & _ & Aw) Hr Hp H. apply resolve_piv_inv in H. unfold struck.
  destruct upiv as [p|], r as [r0|]; try contradiction.
  - destruct H as (-> & -> & _ & ->). unfold PIVSZ_MAX, NONCE_PIV_BYTES in *. split; [assumption|]. split; [lia|]. eexists. reflexivity.
  - destruct H as (-> & -> & -> & w & cs & Ew & Hv & _). rewrite Ew in *.
    assert (Hn : 0 <= from_bytes_big p) by (apply from_bytes_big_nonneg, Hp).
    unfold PIVSZ_MAX, NONCE_PIV_BYTES in *. split; [assumption|]. split; [lia|].
    rewrite (Proofs.C12.is_valid_spec w _ Aw Hn) in Hv.
    destruct (Proofs.C12.strike_out_spec w _ Aw Hn) as [[Hs _]|[_ (w' & -> & _)]]; [rewrite Hs in Hv; discriminate|eexists; reflexivity].
  - destruct H as (-> & -> & _ & ->). destruct Hr. eauto.
Qed.

Theorem unprotect_verify_error_class E c pm r e :
  admissible_ctx c -> call_ok c pm r -> Forall (fun o => bytes_ok (snd o) = true) (opts pm) ->
  unprotect_verify E c pm r = Raise e ->
  e = NotAProtectedMessage \/ e = DecodeError \/ e = ProtectionInvalid \/ e = ReplayError.
Proof.
  intros A Hcall Hbytes. unfold unprotect_verify.
  replace (Bool.eqb _ _) with true by (destruct r; [destruct Hcall as [-> _]|destruct Hcall as [-> | ->]]; reflexivity).
  cbn [massert bind].
  destruct (get_opt OPT_OSCORE (opts pm)) as [od|] eqn:Hod; [|intros [= <-]; auto].
  apply get_opt_In in Hod. rewrite Forall_forall in Hbytes. apply Hbytes in Hod.
  destruct (uncompress_total od) as [[u Hu]|Hu]; rewrite Hu; cbn [bind]; [|intros [= <-]; auto].
  pose proof (uncompress_piv od u Hu) as Hp.
  destruct (negb (opt_beqb _ (id_context c))); [intros [= <-]; auto|].
  destruct (negb (beqb _ (recipient_id c))); [intros [= <-]; auto|].
  change (match u_piv u with Some _ => _ | None => _ end) with (resolve_piv c (code pm) r (u_piv u)).
  destruct (resolve_piv c (code pm) r (u_piv u)) as [[[[seqno pivs] gen] rid0]|e0] eqn:Hstep; cbn [bind].
  2:{ intros [= <-]. apply resolve_piv_error in Hstep as [-> | ->]; auto. intros ->. exact Hcall. }
  apply resolve_piv_fit in Hstep as (Bg & Bp & w' & Hs); [|exact A|destruct r; [apply Hcall|exact I]|].
  2:{ destruct (u_piv u); [|exact I]. split; apply Hp. exact Hod. }
  destruct (u_group u); [intros [= <-]; auto|].
  destruct (blen (payload pm) <? alg_tag_bytes (c_alg c) + 1); [intros [= <-]; auto|].
  rewrite construct_nonce_ok by (try assumption; apply A). cbn [bind].
  destruct (dec E _ _ _ (payload pm)); [|intros [= <-]; auto].
  change (match r with Some _ => _ | None => _ end) with (struck c r seqno). rewrite Hs. discriminate.
Qed.
