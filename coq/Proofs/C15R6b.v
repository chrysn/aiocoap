(* C15 — every request gets at most one terminal event, over all histories of the endpoint. *)
From Verif Require Import Lib.Py Lib.Tactics Lib.PyLemmas Gen.options_ext Gen.tcp_framing Model.C15 Model.C15Sys Proofs.C15 Proofs.C15Sys.
Open Scope Z_scope.

Definition keq (t : bytes) (i : Z) (t' : bytes) (i' : Z) : bool := beqb t' t && (i' =? i).
Lemma keq_spec t i t' i' : keq t i t' i' = true <-> t' = t /\ i' = i.
Proof. unfold keq. rewrite andb_true_iff, list_eqb_Z_eq, Z.eqb_eq. tauto. Qed.
Lemma req_is_keq t i r : req_is t i r = keq t i (r_token r) (r_remote r).
Proof. reflexivity. Qed.

(* events of / terminal events of the request with key (t, i) *)
Definition ev_is (t : bytes) (i : Z) (e : eout) : bool :=
  match e with SResponse t' i' _ _ => keq t i t' i' | SFail t' i' _ => keq t i t' i' | _ => false end.
Definition term_is (t : bytes) (i : Z) (e : eout) : bool :=
  match e with SResponse t' i' _ f => f && keq t i t' i' | SFail t' i' _ => keq t i t' i' | _ => false end.
Definition cnt {A} (f : A -> bool) (l : list A) : nat := length (filter f l).
Definition tcnt (t : bytes) (i : Z) (s : sys) : nat := cnt (req_is t i) (outgoing s).
(* the table is a dict: at most one entry per key *)
Definition uniq (s : sys) : Prop := forall t i, (tcnt t i s <= 1)%nat.

Lemma cnt_app {A} (f : A -> bool) a b : cnt f (a ++ b) = (cnt f a + cnt f b)%nat.
Proof. unfold cnt. rewrite filter_app, app_length. reflexivity. Qed.
Lemma cnt_le {A} (f g : A -> bool) l : (forall x, In x l -> f x = true -> g x = true) -> (cnt f l <= cnt g l)%nat.
Proof.
  unfold cnt. induction l as [|a l IH]; intros H; [cbn; lia|]. cbn [filter].
  assert (IH' : (length (filter f l) <= length (filter g l))%nat) by (apply IH; intros x Hx; apply H; right; exact Hx).
  destruct (f a) eqn:Fa; [rewrite (H a (or_introl eq_refl) Fa); cbn [length]; lia|].
  destruct (g a); cbn [length]; lia.
Qed.
Lemma cnt_filter_none {A} (f g : A -> bool) l : (forall x, g x = true -> f x = false) -> cnt f (filter g l) = 0%nat.
Proof.
  intros H. unfold cnt. induction l as [|a l IH]; [reflexivity|]. cbn [filter].
  destruct (g a) eqn:Ga; [cbn [filter]; rewrite (H a Ga); exact IH|exact IH].
Qed.
Lemma cnt_map {A B} (f : B -> bool) (h : A -> B) l : cnt f (map h l) = cnt (fun x => f (h x)) l.
Proof. unfold cnt. induction l as [|a l IH]; [reflexivity|]. cbn [map filter]. destruct (f (h a)); cbn [length]; rewrite IH; reflexivity. Qed.
Lemma term_le_ev t i x : (cnt (term_is t i) x <= cnt (ev_is t i) x)%nat.
Proof. apply cnt_le. intros e _. destruct e as [? ?|? ? ? f|? ? ?]; cbn; auto. destruct f; auto. discriminate. Qed.

Lemma cnt_one {A} (f : A -> bool) a : cnt f [a] = if f a then 1%nat else 0%nat.
Proof. unfold cnt. cbn. destruct (f a); reflexivity. Qed.
Lemma cnt_split {A} (f R : A -> bool) l : (cnt f (filter (fun x => negb (R x)) l) + cnt f (filter R l) = cnt f l)%nat.
Proof. unfold cnt. induction l as [|a l IH]; [reflexivity|]. cbn [filter]. destruct (R a), (f a) eqn:Fa; cbn [negb filter]; rewrite ?Fa; cbn [length]; lia. Qed.
Lemma cnt_filter_le {A} (f g : A -> bool) l : (cnt f (filter g l) <= cnt f l)%nat.
Proof. pose proof (cnt_split f g l). lia. Qed.

(* every terminal event of the request (t, i) takes an entry with that key out of the table, and a key without
   entry gets no event; this needs no uniqueness of keys and composes *)
Definition consumes (t : bytes) (i : Z) (s s1 : sys) (x : list eout) : Prop :=
  (tcnt t i s1 + cnt (term_is t i) x <= tcnt t i s)%nat /\ (tcnt t i s = 0%nat -> cnt (ev_is t i) x = 0%nat).

Lemma consumes_refl t i s s1 x : outgoing s1 = outgoing s -> cnt (ev_is t i) x = 0%nat -> consumes t i s s1 x.
Proof. intros Ho E. pose proof (term_le_ev t i x). unfold consumes, tcnt. rewrite Ho. split; [lia|auto]. Qed.

Lemma consumes_trans t i s s1 s2 x1 x2 : consumes t i s s1 x1 -> consumes t i s1 s2 x2 -> consumes t i s s2 (x1 ++ x2).
Proof. intros [A1 A2] [B1 B2]. unfold consumes. rewrite !cnt_app. split; [lia|]. intros H. rewrite (A2 H), B2 by lia. reflexivity. Qed.

Lemma route_consumes id o s t i : consumes t i s (fst (route id o s)) (snd (route id o s)).
Proof.
  destruct o as [b| |m0|m|e|e0]; cbn [route]; try (apply consumes_refl; reflexivity).
  - (* Response: a final one removes every entry of its key, and there was one *)
    unfold tm_process_response.
    destruct (filter (req_is _ id) (outgoing s)) as [|r0 l0] eqn:Hf; [apply consumes_refl; reflexivity|].
    assert (Hpos : keq t i (token m) id = true -> (tcnt t i s >= 1)%nat).
    { intros K. apply keq_spec in K as [<- <-]. unfold tcnt, cnt. rewrite Hf. cbn. lia. }
    set (final := negb _). set (s1 := {| conns := conns s; pool := pool s; outgoing := _ |}).
    assert (H1 : (tcnt t i s1 <= tcnt t i s)%nat)
      by (unfold tcnt, s1; cbn [outgoing]; destruct final; [apply cnt_filter_le|lia]).
    assert (H2 : final = true -> keq t i (token m) id = true -> tcnt t i s1 = 0%nat).
    { intros E K. apply keq_spec in K as [<- <-]. unfold tcnt, s1. rewrite E. apply cnt_filter_none.
      intros x Hx. destruct (req_is (token m) id x); [discriminate|reflexivity]. }
    unfold consumes. cbn [fst snd]. rewrite !cnt_one. cbn [term_is ev_is].
    destruct final, (keq t i (token m) id); cbn [andb];
      try specialize (H2 eq_refl eq_refl); try specialize (Hpos eq_refl); lia.
  - (* DispatchError: the entries of the connection are exactly the requests that get the exception *)
    unfold pool_dispatch_error, tm_dispatch_error, consumes, tcnt. cbn [fst snd outgoing]. rewrite !cnt_map.
    pose proof (cnt_split (req_is t i) (fun r => r_remote r =? id) (outgoing s)) as Hsplit. cbv beta in Hsplit.
    assert (Hev : forall f, (forall r, f r = keq t i (r_token r) id) ->
              (cnt f (filter (fun r => (r_remote r =? id)%Z) (outgoing s)) <=
               cnt (req_is t i) (filter (fun r => (r_remote r =? id)%Z) (outgoing s)))%nat).
    { intros f Hf. apply cnt_le. intros r Hr Hk. apply filter_In in Hr as [_ Hr]. apply Z.eqb_eq in Hr.
      rewrite Hf in Hk. rewrite req_is_keq, Hr. exact Hk. }
    pose proof (Hev (fun r => term_is t i (SFail (r_token r) id (tm_wrap (exc_of e)))) (fun r => eq_refl)).
    pose proof (Hev (fun r => ev_is t i (SFail (r_token r) id (tm_wrap (exc_of e)))) (fun r => eq_refl)). lia.
Qed.

Lemma route_all_consumes : forall os id s t i, consumes t i s (fst (route_all id os s)) (snd (route_all id os s)).
Proof.
  induction os as [|o os IH]; intros id s t i; [apply consumes_refl; reflexivity|].
  cbn [route_all]. pose proof (route_consumes id o s t i) as H1. destruct (route id o s) as [s1 x1].
  specialize (IH id s1 t i). destruct (route_all id os s1) as [s2 x2]. exact (consumes_trans _ _ _ _ _ _ _ H1 IH).
Qed.

(* histories: a request is only issued under a key that is not in the table (TokenManager.next_token is a counter) *)
Definition requests (t : bytes) (i : Z) (e : pevent) : bool :=
  match e with PRequest id tok _ => keq t i tok id | _ => false end.
Definition fresh_step (s : sys) (e : pevent) : Prop :=
  match e with PRequest id tok _ => tcnt tok id s = 0%nat | _ => True end.
Fixpoint fresh_run (s : sys) (es : list pevent) : Prop :=
  match es with [] => True | e :: r => fresh_step s e /\ fresh_run (fst (sys_step s e)) r end.

Lemma sys_step_tcnt s e t i :
  (tcnt t i (fst (sys_step s e)) <= tcnt t i s + (if requests t i e then 1 else 0))%nat /\
  (requests t i e = false -> consumes t i s (fst (sys_step s e)) (snd (sys_step s e))).
Proof.
  destruct (sys_step_as_route s e) as (id & os & s' & -> & _ & Ho).
  pose proof (route_all_consumes os id s' t i) as [H1 H2]. unfold consumes, tcnt in *.
  destruct Ho as [Ho|(tok & obs & -> & Ho)]; rewrite Ho in *.
  - split; [lia|]. intros _. split; assumption.
  - rewrite cnt_app, cnt_one, req_is_keq in *. cbn [requests r_token r_remote] in *. split; [lia|].
    intros K. rewrite K, Nat.add_0_r in *. split; assumption.
Qed.

Lemma sys_step_uniq s e : uniq s -> fresh_step s e -> uniq (fst (sys_step s e)).
Proof.
  intros U F t i. pose proof (sys_step_tcnt s e t i) as [H _]. specialize (U t i).
  destruct e as [id tok obs| |]; cbn [requests] in H; try lia.
  destruct (keq t i tok id) eqn:K; [|lia]. apply keq_spec in K as [-> ->]. cbn [fresh_step] in F. lia.
Qed.

Lemma at_most_one_terminal : forall es s t i, uniq s -> fresh_run s es -> existsb (requests t i) es = false ->
  let '(s1, x) := sys_run s es in
  uniq s1 /\ (tcnt t i s1 <= tcnt t i s)%nat /\ (tcnt t i s = 0%nat -> cnt (ev_is t i) x = 0%nat) /\
  (cnt (term_is t i) x <= 1)%nat /\ (cnt (term_is t i) x = 1%nat -> tcnt t i s1 = 0%nat).
Proof.
  intros es s t i U F R.
  assert (H : uniq (fst (sys_run s es)) /\ consumes t i s (fst (sys_run s es)) (snd (sys_run s es))).
  { revert s U F R. induction es as [|e es IH]; intros s U F R; [split; [exact U|apply consumes_refl; reflexivity]|].
    cbn [existsb] in R. apply orb_false_elim in R as [R1 R2]. destruct F as [F1 F2]. rewrite sys_run_cons.
    pose proof (sys_step_uniq s e U F1) as U1. pose proof (proj2 (sys_step_tcnt s e t i) R1) as C1.
    destruct (sys_step s e) as [s1 x1]. destruct (IH s1 U1 F2 R2) as [U2 C2]. destruct (sys_run s1 es) as [s2 x2].
    split; [exact U2|exact (consumes_trans _ _ _ _ _ _ _ C1 C2)]. }
  destruct (sys_run s es) as [s1 x]. cbn [fst snd] in H. destruct H as [U1 [C1 C2]]. specialize (U t i). repeat split; auto; lia.
Qed.

(* pairwise distinct request keys: true of TokenManager.next_token's counter *)
Fixpoint distinct_reqs (es : list pevent) : bool :=
  match es with
  | [] => true
  | PRequest id tok _ :: r => negb (existsb (requests tok id) r) && distinct_reqs r
  | _ :: r => distinct_reqs r
  end.
Lemma fresh_from_distinct : forall es s, uniq s -> distinct_reqs es = true ->
  (forall t i, existsb (requests t i) es = true -> tcnt t i s = 0%nat) -> fresh_run s es.
Proof.
  induction es as [|e es IH]; intros s U D H; [exact I|].
  assert (F1 : fresh_step s e).
  { destruct e as [id tok obs| |]; cbn [fresh_step]; auto. apply H. cbn [existsb requests].
    replace (keq tok id tok id) with true by (symmetry; apply keq_spec; auto). reflexivity. }
  split; [exact F1|].
  assert (D' : distinct_reqs es = true) by (destruct e; cbn [distinct_reqs] in D; [apply andb_prop in D; apply D|exact D|exact D]).
  apply IH; [exact (sys_step_uniq s e U F1)|exact D'|].
  intros t i Hreq.
  assert (Hne : requests t i e = false).
  { destruct e as [id tok obs| |]; cbn [requests]; auto. destruct (keq t i tok id) eqn:K; [|reflexivity].
    apply keq_spec in K as [-> ->]. cbn [distinct_reqs] in D. apply andb_prop in D as [D1 _]. rewrite Hreq in D1. discriminate. }
  pose proof (sys_step_tcnt s e t i) as [Hle _]. rewrite Hne in Hle.
  assert (tcnt t i s = 0%nat) by (apply H; cbn [existsb]; rewrite Hreq; apply orb_true_r). lia.
Qed.

Lemma uniq_empty s : outgoing s = [] -> uniq s.
Proof. intros H t i. unfold tcnt. rewrite H. cbn. lia. Qed.

Lemma fresh_run_app : forall es1 es2 s, uniq s -> fresh_run s (es1 ++ es2) ->
  uniq (fst (sys_run s es1)) /\ fresh_run (fst (sys_run s es1)) es2.
Proof.
  induction es1 as [|e es1 IH]; intros es2 s U F; [split; assumption|].
  cbn [app fresh_run] in F. destruct F as [F1 F2]. rewrite sys_run_cons.
  pose proof (sys_step_uniq s e U F1) as U1. destruct (sys_step s e) as [s1 x1].
  destruct (IH es2 s1 U1 F2) as [A B]. destruct (sys_run s1 es1) as [s2 x2]. split; assumption.
Qed.

Lemma at_most_one_terminal_reachable : forall es1 es2 s t i, outgoing s = [] ->
  distinct_reqs (es1 ++ es2) = true -> existsb (requests t i) es2 = false ->
  (cnt (term_is t i) (snd (sys_run (fst (sys_run s es1)) es2)) <= 1)%nat.
Proof.
  intros es1 es2 s t i He D R.
  assert (F : fresh_run s (es1 ++ es2)).
  { apply fresh_from_distinct; [apply uniq_empty; exact He|exact D|]. intros t' i' _. unfold tcnt. rewrite He. reflexivity. }
  destruct (fresh_run_app es1 es2 s (uniq_empty s He) F) as [U1 F1].
  pose proof (at_most_one_terminal es2 (fst (sys_run s es1)) t i U1 F1 R) as H.
  destruct (sys_run (fst (sys_run s es1)) es2) as [s2 x]. apply H.
Qed.
