(* C05 — on a request without exponent 7 a reference server that sends no BERT messages does what [honest_bert] does; so well-formedness
   of the answers and the Block1 phase of theorems 3 and 13 are proved once, for honest_bert. *)
From Verif Require Import Lib.Py Lib.PyLemmas Lib.Tactics Gen.block_kernels Model.C05 Model.C05Server Proofs.C05Machine Proofs.C05 Proofs.C05Bert.
Open Scope Z_scope.

Lemma respond_regular scf k code b1 req_b2 : s_bert scf = 0 -> szx_is_7 req_b2 = false ->
  respond scf k code b1 req_b2 = slice_response scf k code b1 req_b2.
Proof.
  intros Hb H7. unfold respond, remote_exp. rewrite Hb. cbn [Z.ltb Z.compare].
  replace (match req_b2 with Some (_, _, s) => s | None => 6 end =? 7) with false
    by (destruct req_b2 as [[[n m] s]|]; [cbn [szx_is_7] in H7; lia|reflexivity]).
  cbn [andb]. unfold slice_response. destruct (nth _ (s_reps scf) (None, [])) as [etag rp].
  destruct req_b2 as [[[n m] s]|]; destruct (_ || _); reflexivity.
Qed.

Lemma honest_bert_regular scf st rq : s_bert scf = 0 -> is_bert_request rq = false -> honest_bert scf st rq = honest_regular scf st rq.
Proof.
  intros Hb Hr. unfold is_bert_request in Hr. apply orb_false_elim in Hr as [H1 H2].
  assert (Hplain : forall c, set_maxexp (remote_exp scf) (plain c) = plain c) by (intros c; unfold remote_exp; rewrite Hb; reflexivity).
  unfold honest_bert, honest_regular, b1_unit. cbv zeta. destruct (rq_block1 rq) as [[[n m] szx]|].
  - cbn [szx_is_7] in H1. rewrite H1, !Hplain, (respond_regular _ _ _ _ _ Hb H2). unfold remote_exp. rewrite Hb. reflexivity.
  - rewrite !(respond_regular _ _ _ _ _ Hb H2), (respond_regular scf _ _ None None Hb eq_refl). reflexivity.
Qed.

Lemma serve_ref_honest scf st rq : s_mis scf = None -> serve_ref scf st rq = let '(st', r) := honest scf st rq in (st', SResp r).
Proof. intros H. unfold serve_ref. rewrite H. reflexivity. Qed.

Lemma honest_bert_wf scf st rq : Forall (fun x => 0 <= x) (s_policy1 scf) -> (forall k, 0 <= pol (s_policy2 scf) k 6) ->
  bt_wf (rq_block1 rq) = true -> bt_wf (rq_block2 rq) = true -> resp_wf (snd (honest_bert scf st rq)) = true.
Proof.
  intros Hp1 Hp2 Hw1 Hw2.
  assert (Hpol : 0 <= pol (s_policy1 scf) (sv_step st) 6) by (apply pol_nonneg; [exact Hp1|lia]).
  assert (Hresp : forall k code b1 rb2, bt_wf b1 = true -> bt_wf rb2 = true -> resp_wf (respond scf k code b1 rb2) = true).
  { intros k code b1 rb2 H1 H2. unfold respond. destruct (_ && _).
    - destruct (nth _ _ _) as [etag rp]. destruct (_ || _); [reflexivity|]. unfold resp_wf. cbn [rs_block1 rs_block2]. rewrite H1. cbn [andb].
      destruct rb2 as [[[n2 m2] s2]|]; cbn [bt_wf] in *; [lia|]. destruct (_ <? _); reflexivity.
    - apply (slice_response_wf scf k code b1 rb2); [apply Hp2|exact H1|exact H2]. }
  unfold honest_bert. destruct (rq_block1 rq) as [[[n m] szx]|]; cbn [bt_wf] in Hw1.
  - destruct (negb _); [reflexivity|].
    match goal with |- context [if ?c then (_, set_maxexp _ (plain BAD_REQUEST)) else _] => destruct c end; [reflexivity|].
    destruct m; cbn [snd].
    + unfold resp_wf. cbn [rs_block1 rs_block2 bt_wf]. lia.
    + apply Hresp; [cbn [bt_wf]; lia|assumption].
  - destruct (rq_block2 rq) as [[[n2 m2] s2]|] eqn:Hrb2.
    + destruct (0 <? n2); cbn [snd]; apply Hresp; try reflexivity; assumption.
    + apply Hresp; reflexivity.
Qed.

Lemma serve_ref_wf scf : s_mis scf = None -> Forall (fun x => 0 <= x) (s_policy1 scf) -> Forall (fun x => 0 <= x) (s_policy2 scf) -> s_bert scf = 0 ->
  forall st rq st' r, req_wf rq = true -> serve_ref scf st rq = (st', SResp r) -> resp_wf r = true.
Proof.
  intros Hmis Hp1 Hp2 Hbert st rq st' r Hwf. rewrite serve_ref_honest by exact Hmis.
  rewrite honest_eq_regular, <- honest_bert_regular by (assumption || apply req_wf_not_bert; assumption).
  unfold req_wf in Hwf. apply andb_prop in Hwf as [Hw1 Hw2]. apply bt_wf6_wf in Hw1, Hw2.
  pose proof (honest_bert_wf scf st rq Hp1 (fun k => pol_nonneg _ k 6 Hp2 ltac:(lia)) Hw1 Hw2) as H.
  destruct (honest_bert scf st rq). intros E; inv E. exact H.
Qed.

Lemma serve_ref_bert_wf scf e rep : honest_bert_cfg scf e rep ->
  forall st rq st' r, serve_ref scf st rq = (st', SResp r) -> bt_wf (rq_block1 rq) = true -> bt_wf (rq_block2 rq) = true -> resp_wf r = true.
Proof.
  intros Hh st rq st' r Hs Hw1 Hw2. rewrite serve_ref_honest, (honest_is_bert scf e rep Hh) in Hs by apply (hb_mis _ _ _ Hh).
  pose proof (honest_bert_wf scf st rq (hb_pol1 _ _ _ Hh) (fun k => ltac:(pose proof (hb_pol2 _ _ _ Hh k); lia)) Hw1 Hw2) as H.
  destruct (honest_bert scf st rq). inv Hs. exact H.
Qed.

Lemma honest_bert_block1 scf st n (m : bool) szx b2 s1 pl :
  let asm := if n =? 0 then (@nil Z) else sv_asm st in
  n * unit_of szx = blen asm ->
  (if szx =? 7 then m && ((blen pl =? 0) || negb (blen pl mod 1024 =? 0))
   else (m && negb (blen pl =? unit_of szx)) || (negb m && (unit_of szx <? blen pl))) = false ->
  let k := sv_step st in let aszx := Z.min szx (pol (s_policy1 scf) k 6) in
  honest_bert scf st {| rq_block1 := Some (n, m, szx); rq_block2 := b2; rq_size1 := s1; rq_payload := pl |} =
    if m then ({| sv_asm := asm ++ pl; sv_bodies := sv_bodies st; sv_step := k + 1 |},
               {| rs_code := if s_atomic scf then CONTINUE else CHANGED; rs_block1 := Some (n, s_atomic scf, aszx); rs_block2 := None;
                  rs_etag := None; rs_payload := []; rs_maxexp := remote_exp scf; rs_observe := false |})
    else ({| sv_asm := []; sv_bodies := (asm ++ pl) :: sv_bodies st; sv_step := k + 1 |},
          respond scf k CHANGED (Some (n, false, aszx)) b2).
Proof.
  intros asm Hoff Hbad k aszx. unfold honest_bert. cbn [rq_block1 rq_payload rq_block2]. change b1_unit with unit_of. fold asm k aszx.
  rewrite Hoff, Z.eqb_refl. cbn [negb]. rewrite Hbad. destruct m; reflexivity.
Qed.

Lemma block_accepted B szx (m : bool) (pl : list Z) : (szx = 7 -> 1024 <= B /\ B / 1024 * 1024 = B) ->
  (m = true -> blen pl = blk_of B szx) -> (m = false -> 0 < blen pl <= blk_of B szx) ->
  (if szx =? 7 then m && ((blen pl =? 0) || negb (blen pl mod 1024 =? 0))
   else (m && negb (blen pl =? unit_of szx)) || (negb m && (unit_of szx <? blen pl))) = false.
Proof.
  intros HB Hmore Hfin. unfold blk_of, unit_of in *. destruct (szx =? 7) eqn:E7; destruct m; cbn [andb orb negb]; try reflexivity.
  - rewrite (Hmore eq_refl). destruct (HB ltac:(lia)) as [HB1 HBdiv]. assert (B mod 1024 = 0) by (rewrite <- HBdiv; apply Z.mod_mul; lia). lia.
  - specialize (Hmore eq_refl). lia.
  - specialize (Hfin eq_refl). lia.
Qed.

(* Every block is acknowledged with the server's exponent of the moment and the client goes on at the same byte offset.  The Block2
   phase is assumed to complete ([Hfinal]: complete_ref, complete_bert_ref). *)
Section Upload.
  Variable scf : scfg. Variable cfg : ccfg. Variable e : option Z. Variable rep : list Z.
  Let srv := serve_ref scf.
  Let body := c_body cfg.
  Let mbse := c_mbse cfg.
  Hypothesis Hmis : s_mis scf = None.
  Hypothesis Hpol1 : Forall (fun x => 0 <= x) (s_policy1 scf).
  Hypothesis Hmbse : 0 <= mbse <= 7.
  Hypothesis Hmps : 0 <= c_mps cfg /\ (mbse = 7 -> 1024 <= c_mps cfg).
  Hypothesis Hcb : c_block2 cfg = None \/ exists m2 s2, c_block2 cfg = Some (0, m2, s2).
  (* on the requests of this transfer the server is honest_bert *)
  Hypothesis Hbert : forall st rq, rq_block2 rq = c_block2 cfg -> (forall n m szx, rq_block1 rq = Some (n, m, szx) -> szx <= mbse) ->
    honest scf st rq = honest_bert scf st rq.
  Hypothesis Hlimit : (if mbse <? remote_exp scf then mbse else remote_exp scf) = mbse.
  Hypothesis Hfinal : forall code f st t k b1, (Z.to_nat (blen rep) < f)%nat ->
    let r0 := respond scf k code b1 (c_block2 cfg) in
    rs_block1 r0 = b1 /\ rs_code r0 = code /\ rs_maxexp r0 = remote_exp scf /\
    exists st' tr r, complete_by_requesting_block2 srv f st t (clear_block1 r0) mbse = (st', tr, Done r) /\
      rs_payload r = rep /\ rs_etag r = e /\ rs_code r = code /\ rs_block1 r = None /\ sv_bodies st' = sv_bodies st.

  Lemma block1_loop_upload fuel : forall st cursor size_exp,
    size_exp <= mbse -> g_inv cfg cursor size_exp ->
    (cursor <> 0 -> sv_asm st = bto body (cursor * unit_of size_exp)) ->
    (Z.to_nat (blen body - cursor * unit_of size_exp) + Z.to_nat (blen rep) + 1 < fuel)%nat ->
    exists st' tr r, block1_loop srv fuel st cfg cursor size_exp mbse = (st', tr, Done r) /\
      sv_bodies st' = body :: sv_bodies st /\ rs_payload r = rep /\ rs_etag r = e /\ rs_code r = CHANGED /\ rs_block1 r = None.
  Proof.
    pose proof (blen_nonneg rep) as Hnn.
    induction fuel as [|f IH]; intros st cursor size_exp Htop Hinv Hasm Hfuel; [lia|].
    destruct (block1_request_gblock cfg cursor size_exp Hinv) as (Hblk & pl & more & Hrq & Hcat & Hmore & Hfin).
    fold body in Hrq, Hcat, Hmore, Hfin. pose proof Hinv as (Hs & Hc & Hoff & _ & Hm7). fold body in Hoff.
    pose proof (unit_of_pos size_exp Hs) as Hu.
    set (k := sv_step st). set (aszx := Z.min size_exp (pol (s_policy1 scf) k 6)).
    assert (Hpol : 0 <= pol (s_policy1 scf) k 6) by (apply pol_nonneg; [exact Hpol1|lia]).
    set (asm := if cursor =? 0 then [] else sv_asm st).
    assert (Hasm' : asm = bto body (cursor * unit_of size_exp)).
    { subst asm. destruct (cursor =? 0) eqn:E0; [replace cursor with 0 by lia; reflexivity|apply Hasm; lia]. }
    assert (Hasmlen : cursor * unit_of size_exp = blen asm) by (rewrite Hasm', blen_bto; [reflexivity|lia]).
    cbn [block1_loop]. rewrite Hrq. unfold srv. rewrite serve_ref_honest by exact Hmis.
    rewrite Hbert by (reflexivity || (intros n m szx H; inv H; exact Htop)).
    rewrite (honest_bert_block1 scf st cursor more size_exp _ _ pl Hasmlen)
      by (apply (block_accepted (bert_size (c_mps cfg))); [intros H7; apply bert_size_pos, Hm7, H7|intros Hm; apply Hmore, Hm|intros Hm; apply Hfin, Hm]).
    fold asm k aszx. destruct more.
    - destruct (Hmore eq_refl) as [Hpl Hlt]. cbn [rs_maxexp]. rewrite Hlimit.
      match goal with |- context [block1_react ?rq0 ?resp0 cursor size_exp] => set (rq := rq0); set (resp := resp0) end.
      destruct (block1_react_acked rq resp cursor size_exp cursor size_exp (s_atomic scf) aszx eq_refl eq_refl eq_refl) as (c2 & e2 & Hreact);
        [cbn [resp rs_code]; intros ->; reflexivity|]. rewrite Hreact.
      destruct (block1_continue_ginv cfg rq resp cursor size_exp true c2 e2 Hinv eq_refl) as (_ & He2 & Hc2 & Hinv2);
        [unfold resp_wf; cbn [resp rs_block1 rs_block2 bt_wf]; subst aszx; lia|exact Hmore|exact Hreact|].
      fold body in Hc2.
      match goal with |- context [block1_loop _ f ?s1 cfg c2 e2 mbse] =>
        destruct (IH s1 c2 e2 ltac:(lia) Hinv2) as (st' & tr & r & Hrun & H1 & H2 & H3 & H4 & H5) end; [|lia|].
      + intros _. cbn [sv_asm]. rewrite Hasm', Hc2, Hcat, Hpl. reflexivity.
      + fold srv. rewrite Hrun. eexists _, _, _. split; [reflexivity|]. cbn [sv_bodies] in H1. repeat split; assumption.
    - destruct (Hfin eq_refl) as [Hpl Hend].
      match goal with |- context [complete_by_requesting_block2 _ f ?s1 ?t _ _] =>
        destruct (Hfinal CHANGED f s1 t k (Some (cursor, false, aszx)) ltac:(lia))
          as (Hb1 & Hcode & Hmax & st' & tr & r & Hrun & H1 & H2 & H3 & H4 & H5) end.
      rewrite Hmax, Hlimit. erewrite block1_react_last; [|reflexivity|exact Hb1|rewrite Hcode; reflexivity].
      fold srv. rewrite Hrun. eexists _, _, _. split; [reflexivity|]. cbn [sv_bodies] in H5. rewrite H5.
      repeat split; try assumption. f_equal. rewrite Hasm', Hcat. apply bto_all. lia.
  Qed.

  Lemma transfer_upload fuel :
    (Z.to_nat (blen body) + Z.to_nat (blen rep) + 1 < fuel)%nat ->
    exists st tr r, run srv fuel sstate0 cfg = (st, tr, Done r) /\
      sv_bodies st = [body] /\ rs_payload r = rep /\ rs_etag r = e /\ is_successful (rs_code r) = true /\ rs_block1 r = None.
  Proof.
    intros Hfuel. unfold run. fold mbse. pose proof (blen_nonneg rep) as Hnn. pose proof (blen_nonneg body) as Hnb.
    destruct (blen body >? fragmentation_threshold (c_mps cfg) mbse) eqn:Hfrag.
    - destruct (block1_loop_upload fuel sstate0 0 mbse) as (st' & tr & r & Hrun & H1 & H2 & H3 & H4 & H5);
        [lia|apply g_inv_start; tauto|lia|lia|].
      exists st', tr, r. rewrite H4. repeat split; assumption.
    - (* the body goes out whole; the server holds it at once and answers with its representation *)
      destruct fuel as [|f]; [lia|]. cbn [block1_loop]. rewrite (block1_request_whole _ _ _ Hfrag). fold body.
      unfold srv. rewrite serve_ref_honest by exact Hmis. rewrite Hbert by (reflexivity || discriminate).
      match goal with |- context [honest_bert scf sstate0 ?rq0] =>
        assert (Hh : honest_bert scf sstate0 rq0 = ({| sv_asm := []; sv_bodies := [body]; sv_step := 1 |}, respond scf 0 CONTENT None (c_block2 cfg)))
          by (unfold honest_bert; cbn [rq_block1 rq_block2 rq_payload sstate0 sv_step sv_bodies sv_asm]; destruct Hcb as [->|(m2 & s2 & ->)]; reflexivity);
        rewrite Hh;
        destruct (Hfinal CONTENT f {| sv_asm := []; sv_bodies := [body]; sv_step := 1 |} rq0 0 None ltac:(lia))
          as (Hb1 & Hcode & Hmax & st' & tr & r & Hrun & H1 & H2 & H3 & H4 & H5) end.
      rewrite block1_react_whole, Hb1, Hmax, Hlimit by reflexivity. fold srv. rewrite Hrun.
      eexists _, _, _. split; [reflexivity|]. rewrite H5, H3. repeat split; assumption.
  Qed.
End Upload.

(* theorem 3 without its last conjunct (the wire is consistent against any server: C05Bert.run_g_chain) *)
Lemma transfer_correct scf e rep : honest_cfg scf e rep ->
  forall cfg, 0 <= c_mbse cfg <= 6 -> 0 <= c_mps cfg ->
  (c_block2 cfg = None \/ exists m2 s2, c_block2 cfg = Some (0, m2, s2) /\ 0 <= s2 <= 6) ->
  forall fuel, (Z.to_nat (blen (c_body cfg)) + Z.to_nat (blen rep) + 1 < fuel)%nat ->
  exists st tr r, run (serve_ref scf) fuel sstate0 cfg = (st, tr, Done r) /\
    sv_bodies st = [c_body cfg] /\ rs_payload r = rep /\ rs_etag r = e /\ is_successful (rs_code r) = true /\ rs_block1 r = None.
Proof.
  intros Hh cfg Hm Hp Hb2 fuel. pose proof (h_bert _ _ _ Hh) as Hbert.
  assert (Hcb7 : szx_is_7 (c_block2 cfg) = false) by (destruct Hb2 as [->|(m2 & s2 & -> & Hs2)]; [reflexivity|cbn [szx_is_7]; lia]).
  apply (transfer_upload scf cfg e rep).
  - apply (h_mis _ _ _ Hh).
  - apply (h_pol1 _ _ _ Hh).
  - lia.
  - split; [exact Hp|lia].
  - destruct Hb2 as [->|(m2 & s2 & -> & _)]; eauto.
  - intros st rq Hq2 Hq1.
    assert (is_bert_request rq = false).
    { unfold is_bert_request. rewrite Hq2, Hcb7, orb_false_r. destruct (rq_block1 rq) as [[[n m] szx]|]; [|reflexivity].
      specialize (Hq1 n m szx eq_refl). cbn [szx_is_7]. lia. }
    rewrite honest_bert_regular, honest_eq_regular by assumption. reflexivity.
  - unfold remote_exp. rewrite Hbert. cbn [Z.ltb Z.compare]. destruct (c_mbse cfg <? 6) eqn:E; lia.
  - intros code f st t k b1 Hf. rewrite (respond_regular _ _ _ _ _ Hbert Hcb7). cbv zeta.
    destruct (complete_ref scf e rep Hh cfg Hb2 f st t k code b1 (c_mbse cfg)) as (st' & tr & r & Hrun & H1 & H2 & H3 & H4 & H5 & _); [lia|exact Hf|].
    destruct (first_req cfg Hb2) as [Hq Hs2]. pose proof (blen_nonneg rep) as Hnn.
    rewrite (slice_response_eq scf e rep Hh k code b1 (c_block2 cfg) 0 (req_szx cfg) Hq) in Hrun |- * by lia. cbv zeta. cbn [rs_block1 rs_code rs_maxexp].
    unfold remote_exp. rewrite Hbert. eauto 12.
Qed.

(* theorem 13 without its last conjunct (C05Bert.run_g_chain) *)
Lemma transfer_correct_bert scf e rep : honest_bert_cfg scf e rep ->
  forall cfg, c_mbse cfg = 7 -> 1024 <= c_mps cfg -> c_block2 cfg = None ->
  forall fuel, (Z.to_nat (blen (c_body cfg)) + Z.to_nat (blen rep) + 1 < fuel)%nat ->
  exists st tr r, run (serve_ref scf) fuel sstate0 cfg = (st, tr, Done r) /\
    sv_bodies st = [c_body cfg] /\ rs_payload r = rep /\ rs_etag r = e /\ is_successful (rs_code r) = true /\ rs_block1 r = None.
Proof.
  intros Hh cfg Hm Hp Hb2 fuel. pose proof (blen_nonneg rep) as Hnn.
  apply (transfer_upload scf cfg e rep).
  - apply (hb_mis _ _ _ Hh).
  - apply (hb_pol1 _ _ _ Hh).
  - lia.
  - lia.
  - left. exact Hb2.
  - intros st rq _ _. apply (honest_is_bert scf e rep Hh).
  - rewrite (remote_exp_7 scf e rep Hh), Hm. reflexivity.
  - intros code f st t k b1 Hf. rewrite Hb2. cbv zeta.
    destruct (complete_bert_ref scf e rep Hh f st t k code b1 Hf) as (st' & tr & r & Hrun & H1 & H2 & H3 & H4 & H5 & _).
    rewrite (respond_bert scf e rep Hh k code b1 None 0) in Hrun |- * by (auto || lia). cbv zeta. cbn [rs_block1 rs_code rs_maxexp].
    rewrite (remote_exp_7 scf e rep Hh), Hm. eauto 12.
Qed.
