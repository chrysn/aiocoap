(* C03 — what the message layer does to the token manager: [tm_acts], established once per function of Model/C03.v; what concerns
   only the table of pending requests, the refusal list and the failures is then proved by induction over it.  Here: a NetworkError
   failure needs a transport error for the remote the request was addressed to (any event list, no well-formedness). *)
From Verif Require Import Lib.Py Lib.PyLemmas Lib.Tactics Model.C03 Proofs.C03 Proofs.C03struct Proofs.C03hist Proofs.C03main.
Open Scope Z_scope.

Definition no_fail (o : list output) : Prop := forall t rid e, ~ In (OFail t rid e) o.

Inductive tm_acts : state -> state * list output -> Prop :=
| ta_quiet : forall st st' f o, outgoing_requests st' = filter f (outgoing_requests st) -> refusing st' = refusing st -> no_fail o ->
    tm_acts st (st', o)
| ta_fail : forall st st' t rid e, e <> NetworkError -> In rid (map fst (outgoing_requests st)) ->
    outgoing_requests st' = filter (fun q => negb (fst q =? rid)) (outgoing_requests st) -> refusing st' = refusing st ->
    tm_acts st (st', [OFail t rid e])
(* NetworkError is dispatched only on behalf of a transport that refuses the remote; the transport's own report (EError) is not
   a function of the message layer and is treated where [step] is *)
| ta_dispatch : forall st st' t e r, (e = NetworkError -> is_refusing st r = true) ->
    outgoing_requests st' = filter (fun q => negb (snd q =? r)) (outgoing_requests st) -> refusing st' = refusing st ->
    tm_acts st (st', map (fun q => OFail t (fst q) e) (filter (fun q => snd q =? r) (outgoing_requests st)))
| ta_seq : forall st st1 o1 st2 o2, tm_acts st (st1, o1) -> tm_acts st1 (st2, o2) -> tm_acts st (st2, o1 ++ o2).

Lemma no_fail_nil : no_fail [].
Proof. intros t rid e []. Qed.
Lemma no_fail_one : forall x, (forall t rid e, x <> OFail t rid e) -> no_fail [x].
Proof. intros x H t rid e [Hi|[]]. exact (H _ _ _ Hi). Qed.


Lemma acts_same : forall st st' o, outgoing_requests st' = outgoing_requests st -> refusing st' = refusing st -> no_fail o -> tm_acts st (st', o).
Proof. intros st st' o Eo. apply (ta_quiet st st' (fun _ => true)). rewrite filter_true. exact Eo. Qed.
Lemma acts_nil : forall st st', outgoing_requests st' = outgoing_requests st -> refusing st' = refusing st -> tm_acts st (st', []).
Proof. intros. apply acts_same; auto. apply no_fail_nil. Qed.
Lemma acts_one : forall st st' x, outgoing_requests st' = outgoing_requests st -> refusing st' = refusing st ->
  (forall t rid e, x <> OFail t rid e) -> tm_acts st (st', [x]).
Proof. intros. apply acts_same; auto. apply no_fail_one. assumption. Qed.

(* the function starts by changing something else in the state *)
Lemma acts_from : forall st st' res, outgoing_requests st' = outgoing_requests st -> refusing st' = refusing st -> tm_acts st' res -> tm_acts st res.
Proof. intros st st' [st2 o] Eo Er H. exact (ta_seq st st' [] st2 o (acts_nil st st' Eo Er) H). Qed.

(* the shape `(st1, o1) = F; (st2, o2) = G(st1); return (st2, o1 + o2)` of most functions of the model *)
Lemma acts_bind : forall st (F : state * list output) (G : state -> state * list output),
  tm_acts st F -> (forall st1, tm_acts st1 (G st1)) -> tm_acts st (let '(st1, o1) := F in let '(st2, o2) := G st1 in (st2, o1 ++ o2)).
Proof. intros st [st1 o1] G H1 H2. specialize (H2 st1). destruct (G st1) as [st2 o2]. exact (ta_seq _ _ _ _ _ H1 H2). Qed.

Lemma acts_tm_fail : forall st rid e, e <> NetworkError -> tm_acts st (tm_fail st rid e).
Proof.
  intros st rid e He. unfold tm_fail. destruct (existsb _ _) eqn:E; [|apply acts_nil; auto].
  apply ta_fail; auto. apply existsb_exists in E. destruct E as [p [Hp Hq]]. apply Z.eqb_eq in Hq. apply in_map_iff. exists p. auto.
Qed.
Lemma acts_tm_dispatch : forall st e r, (e = NetworkError -> is_refusing st r = true) -> tm_acts st (tm_dispatch_error st e r).
Proof. intros. apply ta_dispatch; auto. Qed.
Lemma acts_mm_dispatch : forall st r, is_refusing st r = true -> tm_acts st (mm_dispatch_error st r).
Proof. intros. apply ta_dispatch; auto. Qed.
Lemma acts_send_via : forall st m, tm_acts st (_send_via_transport st m).
Proof.
  intros. unfold _send_via_transport. destruct (is_refusing st (m_remote m)) eqn:R; [apply acts_mm_dispatch; exact R|].
  apply acts_one; auto; discriminate.
Qed.
Lemma acts_send_empty : forall st b r mid, tm_acts st (send_empty st b r mid).
Proof.
  intros. unfold send_empty. destruct (is_refusing st r) eqn:R; [apply acts_mm_dispatch; exact R|].
  apply acts_one; auto; discriminate.
Qed.
Lemma acts_add_exchange : forall st m mon, tm_acts st (_add_exchange st m mon).
Proof.
  intros. destruct (_add_exchange st m mon) as [st1 o1] eqn:A. destruct (add_exchange_facts _ _ _ _ _ A) as (E1 & _ & E3 & lo & hi & v & ->).
  apply acts_one; auto; discriminate.
Qed.
Lemma acts_send_initially : forall st m mon, tm_acts st (_send_initially st m mon).
Proof. intros. exact (acts_bind st (_add_exchange st m mon) (fun s => _send_via_transport s m) (acts_add_exchange st m mon) (fun s => acts_send_via s m)). Qed.
Lemma acts_loop : forall fuel st r, tm_acts st (_continue_backlog_loop fuel st r).
Proof.
  induction fuel as [|fuel IH]; intros st r; cbn [_continue_backlog_loop]; [apply acts_one; auto; discriminate|].
  destruct (qget r (backlogs st)) as [q|]; [|apply acts_nil; auto].
  destruct (has_exchange_with st r); [apply acts_nil; auto|]. destruct q as [|[m mon] rest]; [apply acts_nil; auto|].
  apply (acts_bind st (_send_initially (set_backlogs st (qset r rest (backlogs st))) m mon) (fun s => _continue_backlog_loop fuel s r)); [|intros; apply IH].
  apply (acts_from st (set_backlogs st (qset r rest (backlogs st)))); [reflexivity|reflexivity|apply acts_send_initially].
Qed.
Lemma acts_continue : forall st r, tm_acts st (_continue_backlog st r).
Proof.
  intros. unfold _continue_backlog. destruct (qget r (backlogs st)); [apply acts_loop|]. apply acts_one; auto; discriminate.
Qed.
Lemma acts_remove : forall st r mid b, tm_acts st (_remove_exchange st r mid b).
Proof.
  intros. unfold _remove_exchange. destruct (xget (r, mid) (active_exchanges st)) as [[mon h]|]; [|apply acts_nil; auto]. cbv zeta.
  set (st1 := set_exchanges st (xdel (r, mid) (active_exchanges st))).
  apply (acts_bind st (if b then tm_fail st1 mon MessageError else (st1, [])) (fun s => _continue_backlog s r)); [|intros; apply acts_continue].
  apply (acts_from st st1); [reflexivity|reflexivity|]. destruct b; [apply acts_tm_fail; discriminate|apply acts_nil; auto].
Qed.
Lemma acts_retransmit : forall st h, tm_acts st (_retransmit st h).
Proof.
  intros. unfold _retransmit. destruct (xget _ (active_exchanges st)) as [[mon h0]|]; [|apply acts_one; auto; discriminate].
  destruct (h_counter h <? MAX_RETRANSMIT (m_tuning (h_message h))).
  - unfold _schedule_retransmit. cbn [fst snd]. eapply acts_from; [| |apply acts_send_via]; reflexivity.
  - cbn [backlogs set_exchanges]. destruct (qget _ (backlogs st)); [|apply acts_one; auto; discriminate].
    eapply acts_from; [| |apply acts_tm_dispatch; discriminate]; reflexivity.
Qed.
Lemma acts_response : forall st r ty mid rid, tm_acts st (dispatch_response st r ty mid rid).
Proof.
  intros. unfold dispatch_response.
  assert (H1 : tm_acts st (if ty =? 0 then _remove_exchange st r mid false else (st, []))) by (destruct (ty =? 0); [apply acts_remove|apply acts_nil; auto]).
  destruct (if ty =? 0 then _remove_exchange st r mid false else (st, [])) as [st1 o1].
  destruct (tm_process_response st1 rid r) as [[succ st2] o2] eqn:P.
  assert (H2 : tm_acts st1 (st2, o2)).
  { unfold tm_process_response in P. destruct (existsb _ (outgoing_requests st1)); inv P; [|apply acts_nil; auto].
    eapply ta_quiet; [reflexivity|reflexivity|]. apply no_fail_one. discriminate. }
  destruct (if ty =? 1 then if succ then send_empty st2 false r mid else send_empty st2 true r mid else (st2, [])) as [st3 o3] eqn:E3.
  assert (H3 : tm_acts st2 (st3, o3)).
  { destruct (ty =? 1); [|inv E3; apply acts_nil; auto]. destruct succ; rewrite <- E3; apply acts_send_empty. }
  exact (ta_seq _ _ _ _ _ H1 (ta_seq _ _ _ _ _ H2 H3)).
Qed.
Lemma acts_send_message : forall st rid r tn, tm_acts st (send_message st rid r tn).
Proof.
  intros. unfold send_message, _next_message_id. cbn [backlogs fst snd].
  destruct (qget r (backlogs st)) as [q|].
  - match goal with |- context [if ?c then _ else _] => destruct c end; [apply acts_nil; auto|].
    eapply acts_from; [| |apply acts_tm_fail; discriminate]; reflexivity.
  - eapply acts_from; [| |apply acts_send_initially]; reflexivity.
Qed.

(* a request is registered before the message layer runs; EError and ERefuse are the transport's doing *)
Lemma acts_step : forall st e,
  match e with
  | EError _ | ERefuse _ _ => True
  | ERequest rid r _ => tm_acts (set_outgoing st (outgoing_requests st ++ [(rid, r)])) (step st e)
  | _ => tm_acts st (step st e)
  end.
Proof.
  intros st e. destruct e as [rid r tn|r b mid|t| | |r|rid|r ty mid rid|r on]; cbn [step]; auto.
  - apply acts_send_message.
  - apply acts_remove.
  - apply acts_nil; auto.
  - destruct (next_timer st) as [h|]; [|apply acts_nil; auto]. eapply acts_from; [| |apply acts_retransmit]; reflexivity.
  - destruct (next_timer st) as [h|]; [|apply acts_nil; auto]. destruct (h_due h <=? now st); [apply acts_retransmit|apply acts_nil; auto].
  - eapply ta_quiet; [reflexivity|reflexivity|apply no_fail_nil].
  - apply acts_response.
Qed.

Lemma acts_shrink : forall st res, tm_acts st res -> incl (outgoing_requests (fst res)) (outgoing_requests st).
Proof.
  induction 1 as [st st' f o Eo _ _|st st' t rid e _ _ Eo _|st st' t e r _ Eo _|st st1 o1 st2 o2 _ IH1 _ IH2]; cbn [fst] in *;
    try (rewrite Eo; apply incl_filter).
  exact (incl_tran IH2 IH1).
Qed.

Definition reqs_of (evs : list event) : list (Z * Z) :=
  flat_map (fun e => match e with ERequest rid r _ => [(rid, r)] | _ => [] end) evs.

Lemma step_outgoing : forall st e, incl (outgoing_requests (fst (step st e))) (outgoing_requests st ++ reqs_of [e]).
Proof.
  intros st e. pose proof (acts_step st e) as A.
  destruct e as [rid r tn|r b mid|t| | |r|rid|r ty mid rid|r on]; try apply acts_shrink in A; try (apply incl_appl; exact A).
  - exact A.
  - apply incl_appl. apply incl_filter.
  - apply incl_appl, incl_refl.
Qed.

Definition no_neterr (o : list output) : Prop := forall t rid, ~ In (OFail t rid NetworkError) o.

Lemma acts_clean : forall st res, tm_acts st res -> refusing st = [] -> refusing (fst res) = [] /\ no_neterr (snd res).
Proof.
  induction 1 as [st st' f o _ Er Hn|st st' t rid e He _ _ Er|st st' t e r Hg _ Er|st st1 o1 st2 o2 _ IH1 _ IH2]; intros Hr; cbn [fst snd] in *.
  - split; [congruence|]. intros t x Hi. exact (Hn _ _ _ Hi).
  - split; [congruence|]. intros t' x [Hi|[]]. inv Hi. congruence.
  - split; [congruence|]. intros t' x Hi. apply in_map_iff in Hi. destruct Hi as [p [Hp _]]. inv Hp.
    specialize (Hg eq_refl). unfold is_refusing in Hg. rewrite Hr in Hg. discriminate.
  - destruct (IH1 Hr) as [R1 N1]. destruct (IH2 R1) as [R2 N2]. split; [exact R2|].
    intros t x Hi. apply in_app_iff in Hi. destruct Hi; [eapply N1|eapply N2]; eauto.
Qed.

Lemma step_clean : forall st e st' o, refusing st = [] -> step st e = (st', o) ->
  (forall r, e <> ERefuse r true) -> (forall r, e <> EError r) -> refusing st' = [] /\ no_neterr o.
Proof.
  intros st e st' o Hr H Hnr Hne. pose proof (acts_step st e) as A. rewrite H in A.
  destruct e as [rid r tn|r b mid|t| | |r|rid|r ty mid rid|r on]; try exact (acts_clean _ _ A Hr).
  - exfalso. eapply Hne; eauto.
  - destruct on; [exfalso; eapply Hnr; eauto|]. inv H. cbn. rewrite Hr. split; [reflexivity|intros t x []].
Qed.

Lemma run_neterr_remote : forall evs st st' os R, refusing st = [] -> incl (outgoing_requests st) R -> no_refusal evs ->
  run st evs = (st', os) ->
  forall t rid, In (OFail t rid NetworkError) (concat os) -> exists r, In (rid, r) (R ++ reqs_of evs) /\ In (EError r) evs.
Proof.
  induction evs as [|e evs IH]; intros st st' os R Hr HR Hn H t rid Hi; cbn in H.
  - inv H. destruct Hi.
  - destruct (step st e) as [st1 o] eqn:E. destruct (run st1 evs) as [st2 os2] eqn:Rn. inv H. cbn in Hi. apply in_app_iff in Hi.
    assert (Hout1 : incl (outgoing_requests st1) ((R ++ reqs_of [e]))).
    { pose proof (step_outgoing st e) as Ho. rewrite E in Ho. cbn [fst] in Ho. intros x Hx. apply Ho in Hx. apply in_app_iff in Hx. apply in_app_iff. destruct Hx; auto. }
    assert (Happ : reqs_of (e :: evs) = reqs_of [e] ++ reqs_of evs) by (unfold reqs_of; cbn; rewrite app_nil_r; reflexivity).
    (* one step: [refusing] stays empty, and only EError fails anybody with NetworkError: those pending towards its remote *)
    assert (Hstep : refusing st1 = [] /\ (In (OFail t rid NetworkError) o -> exists r, e = EError r /\ In (rid, r) R)).
    { assert (Hd : (exists r, e = EError r) \/ forall r, e <> EError r) by (destruct e; try (right; intros; discriminate); left; eauto).
      destruct Hd as [[r ->]|Hne].
      - cbn [step] in E. unfold mm_dispatch_error, tm_dispatch_error in E. inv E. split; [exact Hr|]. intros Hi'.
        apply in_map_iff in Hi'. destruct Hi' as [p [Hp Hin]]. inv Hp. apply filter_In in Hin. destruct Hin as [Hin Hs]. apply Z.eqb_eq in Hs.
        exists r. split; [reflexivity|]. apply HR. destruct p; cbn in *; subst; exact Hin.
      - assert (Hnr : forall r, e <> ERefuse r true) by (intros r ->; apply (Hn r); left; reflexivity).
        destruct (step_clean _ _ _ _ Hr E Hnr Hne) as [Hr1 Hc]. split; [exact Hr1|]. intros Hi'. exfalso. eapply Hc; eauto. }
    destruct Hstep as [Hr1 Hhead]. destruct Hi as [Hi|Hi].
    + destruct (Hhead Hi) as (r & -> & Hin). exists r. split; [apply in_app_iff; left; exact Hin|left; reflexivity].
    + destruct (IH st1 _ os2 (R ++ reqs_of [e]) Hr1 Hout1 (fun r0 Hin => Hn r0 (or_intror Hin)) Rn t rid Hi) as [r0 [H1 H2]].
      exists r0. split; [|right; exact H2]. rewrite Happ, app_assoc. exact H1.
Qed.

(* on a transport that never refuses, a request fails with NetworkError only if the transport reported an error for the very remote
   the request was addressed to; every event list *)
Lemma network_error_for_remote : forall mid0 draws evs tf rid, no_refusal evs ->
  In (OFail tf rid NetworkError) (trace_of mid0 draws evs) ->
  exists r tn, In (ERequest rid r tn) evs /\ In (EError r) evs.
Proof.
  intros mid0 draws evs tf rid Hn Hi. unfold trace_of in Hi. destruct (run (init mid0 draws) evs) as [st' os] eqn:R.
  destruct (run_neterr_remote evs (init mid0 draws) st' os [] eq_refl (incl_refl _) Hn R tf rid Hi) as [r [H1 H2]]. cbn in H1.
  unfold reqs_of in H1. apply in_flat_map in H1. destruct H1 as [e [He Hp]]. destruct e as [rid' r' tn'| | | | | | | |]; try (destruct Hp; fail). destruct Hp as [Hp|[]]. inv Hp. exists r, tn'. auto.
Qed.
