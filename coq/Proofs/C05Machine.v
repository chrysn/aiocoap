(* C05 — both loops of Model/C05.v have one shape: build a request from the client's state, hand it to the server, let the answer decide
   whether to stop or how to go on, one unit of fuel per exchange.  [mloop] is that shape for any client (next, react); what holds of
   every such client is proved once; the block-wise client is an instance. *)
From Verif Require Import Lib.Py Lib.Tactics Gen.block_kernels Model.C05.
Open Scope Z_scope.

Section Machine.
  Context {St : Type}.
  Variable next : St -> M request.
  Variable react : St -> request -> response -> St + outcome.

  Fixpoint mloop {S : Type} (serve : S -> request -> S * sresult) (fuel : nat) (s : S) (c : St) : S * list request * outcome :=
    match fuel with
    | O => (s, [], Fuel)
    | Datatypes.S f =>
      match next c with
      | Raise e => (s, [], Err e)
      | Ok rq =>
        let '(s1, r) := serve s rq in
        match r with
        | SFail => (s1, [rq], Err NetworkError)
        | SResp x =>
          match react c rq x with
          | inr o => (s1, [rq], o)
          | inl c' => let '(s2, tr, o) := mloop serve f s1 c' in (s2, rq :: tr, o)
          end
        end
      end
    end.

  Section OneServer.
    Context {S : Type}.
    Variable serve : S -> request -> S * sresult.

    (* An invariant [I] of the client state, kept by [react] on answers the server can give ([W]), bounds every request ([P]) and the
       outcome ([Q]) of every run. *)
    Lemma mloop_inv (I : St -> Prop) (P : request -> Prop) (Q : outcome -> Prop) (W : request -> response -> Prop) :
      (forall s rq s' x, serve s rq = (s', SResp x) -> W rq x) ->
      Q Fuel -> Q (Err NetworkError) ->
      (forall c, I c -> match next c with
                        | Raise e => Q (Err e)
                        | Ok rq => P rq /\ forall x, W rq x -> match react c rq x with inl c' => I c' | inr o => Q o end
                        end) ->
      forall fuel s c s' tr o, I c -> mloop serve fuel s c = (s', tr, o) -> Forall P tr /\ Q o.
    Proof.
      intros HW Hfuel Hnet Hstep. induction fuel as [|f IH]; intros s c s' tr o Hc; cbn [mloop].
      - intros H; inv H. auto.
      - specialize (Hstep c Hc). destruct (next c) as [rq|e]; [|intros H; inv H; auto].
        destruct Hstep as [Hrq Hreact]. destruct (serve s rq) as [s1 [x|]] eqn:Hs; [|intros H; inv H; auto].
        specialize (Hreact x (HW _ _ _ _ Hs)). destruct (react c rq x) as [c'|o']; [|intros H; inv H; auto].
        destruct (mloop serve f s1 c') as [[s2 tr2] o2] eqn:Hrun. intros H; inv H.
        destruct (IH _ _ _ _ _ Hreact Hrun). auto.
    Qed.

    (* every run is the run against the list of answers given *)
    Lemma mloop_script fuel : forall s c s' tr o, mloop serve fuel s c = (s', tr, o) ->
      exists script, length script = length tr /\ forall rest, mloop serve_script fuel (script ++ rest) c = (rest, tr, o).
    Proof.
      induction fuel as [|f IH]; intros s c s' tr o; cbn [mloop].
      - intros H; inv H. exists []. auto.
      - destruct (next c) as [rq|e]; [|intros H; inv H; exists []; auto].
        destruct (serve s rq) as [s1 [x|]]; [|intros H; inv H; exists [SFail]; auto].
        destruct (react c rq x) as [c'|o'] eqn:Hr.
        + destruct (mloop serve f s1 c') as [[s2 tr2] o2] eqn:Hrun. intros H; inv H.
          destruct (IH _ _ _ _ _ Hrun) as (sc & Hl & Hsc). exists (SResp x :: sc). split; [cbn [length]; congruence|].
          intros rest. cbn [app serve_script]. rewrite Hr, Hsc. reflexivity.
        + intros H; inv H. exists [SResp x]. split; [reflexivity|]. intros rest. cbn [app serve_script]. rewrite Hr. reflexivity.
    Qed.
  End OneServer.

  (* [serve2] answers like [serve1] or — where [lossy] — fails the exchange: then the second run is the first one, or NetworkError after a
     non-empty prefix of its transcript.  [lossy := False] is plain simulation. *)
  Section TwoServers.
    Context {S1 S2 : Type}.
    Variable serve1 : S1 -> request -> S1 * sresult.
    Variable serve2 : S2 -> request -> S2 * sresult.
    Variable R : S1 -> S2 -> Prop.
    Variable lossy : Prop.
    Hypothesis Hstep : forall s1 s2 rq s1' r, R s1 s2 -> serve1 s1 rq = (s1', r) ->
      (exists s2', serve2 s2 rq = (s2', r) /\ R s1' s2') \/ (lossy /\ exists s2', serve2 s2 rq = (s2', SFail)).

    Definition same_or_cut (s1' : S1) (tr : list request) (o : outcome) (s2' : S2) (tr2 : list request) (o2 : outcome) : Prop :=
      (tr2 = tr /\ o2 = o /\ R s1' s2') \/ (lossy /\ o2 = Err NetworkError /\ tr2 <> [] /\ exists tl, tr = tr2 ++ tl).

    Lemma cut_cons s1' tr o s2' tr2 o2 rq : same_or_cut s1' tr o s2' tr2 o2 -> same_or_cut s1' (rq :: tr) o s2' (rq :: tr2) o2.
    Proof.
      intros [(-> & -> & HR)|(Hl & -> & _ & tl & ->)]; [left; auto|right].
      split; [exact Hl|]. split; [reflexivity|]. split; [discriminate|]. exists tl. reflexivity.
    Qed.

    Lemma mloop_cut fuel : forall s1 s2 c s1' tr o, R s1 s2 -> mloop serve1 fuel s1 c = (s1', tr, o) ->
      exists s2' tr2 o2, mloop serve2 fuel s2 c = (s2', tr2, o2) /\ same_or_cut s1' tr o s2' tr2 o2.
    Proof.
      assert (Hsame : forall s1' tr o s2', R s1' s2' -> exists s2'' tr2 o2, (s2', tr, o) = (s2'', tr2, o2) /\ same_or_cut s1' tr o s2'' tr2 o2).
      { intros s1' tr o s2' HR. eexists _, _, _. split; [reflexivity|left; auto]. }
      induction fuel as [|f IH]; intros s1 s2 c s1' tr o HR; cbn [mloop].
      - intros H; inv H. auto.
      - destruct (next c) as [rq|e]; [|intros H; inv H; auto].
        destruct (serve1 s1 rq) as [s1a r] eqn:H1.
        destruct (Hstep _ _ _ _ _ HR H1) as [(s2a & H2 & HRa)|(Hl & s2a & H2)]; rewrite H2.
        + destruct r as [x|]; [|intros H; inv H; auto].
          destruct (react c rq x) as [c'|o']; [|intros H; inv H; auto].
          destruct (mloop serve1 f s1a c') as [[s1b tr1] o1] eqn:Hrun. intros H; inv H.
          destruct (IH _ _ _ _ _ _ HRa Hrun) as (s2b & tr2 & o2 & -> & Hc).
          eexists _, _, _. split; [reflexivity|]. apply cut_cons. exact Hc.
        + (* the exchange is dropped under serve2; the first transcript starts with the same request *)
          intros H. eexists _, _, _. split; [reflexivity|]. right. split; [exact Hl|]. split; [reflexivity|]. split; [discriminate|].
          destruct r as [x|]; [destruct (react c rq x) as [c'|o']; [destruct (mloop serve1 f s1a c') as [[s1b tr1] o1]|]|];
            inv H; eexists; reflexivity.
    Qed.
  End TwoServers.
End Machine.

(* Block1 loop: the application's request, cursor, exponent, limit of the remote; Block2 loop: request to repeat, assembled response, limit *)
Inductive cstate := C1 (cfg : ccfg) (block_cursor size_exp mbse : Z) | C2 (request_to_repeat : request) (assembled : response) (mbse : Z).

(* what the Block2 loop does with an answer (protocol.py:1123-1144) *)
Definition block2_react (t : request) (assembled : response) (mbse : Z) (last_response : response) : cstate + outcome :=
  match rs_block2 last_response with
  | None => inr (Done last_response)
  | Some block2 =>
    match append_response_block assembled last_response with
    | Raise e => inr (Err e)
    | Ok assembled' => if negb (bt_more block2) then inr (Done assembled') else inl (C2 t assembled' mbse)
    end
  end.

(* complete_by_requesting_block2 before its loop (protocol.py:1087-1113): the first response decides without any exchange *)
Definition first_block2 (t : request) (initial : response) (mbse : Z) : cstate + outcome :=
  if unexpected_first_block t initial then inr (Err UnexpectedBlock2)
  else match rs_block2 initial with
       | None => inr (Done initial)
       | Some block2 =>
         if negb (bt_more block2) then inr (Done (clear_block2 initial))
         else if negb (bt_num block2 =? 0) then inr (Err UnexpectedBlock2)
         else inl (C2 t initial mbse)
       end.

Definition client_next (c : cstate) : M request :=
  match c with
  | C1 cfg cursor size_exp _ => block1_request cfg cursor size_exp
  | C2 t assembled mbse => generate_next_block2_request t assembled mbse
  end.

Definition client_react (c : cstate) (rq : request) (x : response) : cstate + outcome :=
  match c with
  | C1 cfg cursor size_exp mbse =>
    let mbse' := if mbse <? rs_maxexp x then mbse else rs_maxexp x in
    match block1_react rq x cursor size_exp with
    | B1Err e => inr (Err e)
    | B1Continue cursor' size_exp' => inl (C1 cfg cursor' size_exp' mbse')
    | B1Break => first_block2 rq (clear_block1 x) mbse'
    end
  | C2 t assembled mbse => block2_react t assembled mbse x
  end.

Section Client.
  Context {S : Type}.
  Variable serve : S -> request -> S * sresult.

  Lemma block2_loop_machine fuel : forall s t a mbse,
    block2_loop serve fuel s t a mbse = mloop client_next client_react serve fuel s (C2 t a mbse).
  Proof.
    induction fuel as [|f IH]; intros s t a mbse; cbn [block2_loop mloop client_next client_react]; [reflexivity|].
    destruct (generate_next_block2_request t a mbse) as [rq|e]; [|reflexivity].
    destruct (serve s rq) as [s1 [x|]]; [|reflexivity]. unfold block2_react.
    destruct (rs_block2 x) as [b2|]; [|reflexivity]. destruct (append_response_block a x) as [a'|e]; [|reflexivity].
    destruct (negb (bt_more b2)); [reflexivity|]. rewrite IH. reflexivity.
  Qed.

  Lemma complete_machine fuel s t a mbse :
    complete_by_requesting_block2 serve fuel s t a mbse =
      match first_block2 t a mbse with inr o => (s, [], o) | inl c => mloop client_next client_react serve fuel s c end.
  Proof.
    unfold complete_by_requesting_block2, first_block2. destruct (unexpected_first_block t a); [reflexivity|].
    destruct (rs_block2 a) as [b2|]; [|reflexivity]. destruct (negb (bt_more b2)); [reflexivity|].
    destruct (negb (bt_num b2 =? 0)); [reflexivity|]. apply block2_loop_machine.
  Qed.

  Lemma block1_loop_machine cfg fuel : forall s cursor size_exp mbse,
    block1_loop serve fuel s cfg cursor size_exp mbse = mloop client_next client_react serve fuel s (C1 cfg cursor size_exp mbse).
  Proof.
    induction fuel as [|f IH]; intros s cursor size_exp mbse; cbn [block1_loop mloop client_next client_react]; [reflexivity|].
    destruct (block1_request cfg cursor size_exp) as [rq|e]; [|reflexivity].
    destruct (serve s rq) as [s1 [x|]]; [|reflexivity].
    destruct (block1_react rq x cursor size_exp) as [e|c2 e2|]; [reflexivity|rewrite IH; reflexivity|].
    rewrite complete_machine. destruct (first_block2 _ _ _); reflexivity.
  Qed.

  Lemma run_machine cfg fuel s : run serve fuel s cfg = mloop client_next client_react serve fuel s (C1 cfg 0 (c_mbse cfg) (c_mbse cfg)).
  Proof. apply block1_loop_machine. Qed.
End Client.

Lemma first_block2_inl t initial mbse c : first_block2 t initial mbse = inl c ->
  (exists szx, rs_block2 initial = Some (0, true, szx)) /\ c = C2 t initial mbse.
Proof.
  unfold first_block2. destruct (unexpected_first_block t initial); [discriminate|].
  destruct (rs_block2 initial) as [[[n m] szx]|]; [|discriminate]. unfold bt_more, bt_num. cbn [fst snd].
  destruct m; cbn [negb]; [|discriminate]. destruct (n =? 0) eqn:E; cbn [negb]; [|discriminate].
  intros H; inv H. split; [exists szx; repeat f_equal; lia|reflexivity].
Qed.

Lemma first_block2_done t initial mbse r : first_block2 t initial mbse = inr (Done r) ->
  (r = initial /\ rs_block2 initial = None) \/
  (exists b, rs_block2 initial = Some b /\ bt_more b = false /\
             (bt_num b = 0 \/ exists rb, rq_block2 t = Some rb /\ bt_num rb <> 0) /\ r = clear_block2 initial).
Proof.
  unfold first_block2, unexpected_first_block. destruct (rs_block2 initial) as [b|]; [|intros H; inv H; auto].
  destruct (negb (bt_num b =? 0) && _) eqn:Hun; [discriminate|].
  destruct (bt_more b) eqn:Hm; cbn [negb]; [destruct (negb _); discriminate|].
  intros H; inv H. right. exists b. repeat split; [exact Hm|].
  destruct (bt_num b =? 0) eqn:E; [left; lia|right]. cbn [negb andb] in Hun.
  destruct (rq_block2 t) as [rb|]; [|discriminate]. exists rb. split; [reflexivity|lia].
Qed.

Lemma first_block2_errors t a m e : first_block2 t a m = inr (Err e) -> e = UnexpectedBlock2.
Proof.
  unfold first_block2. destruct (unexpected_first_block t a); [intros H; inv H; reflexivity|].
  destruct (rs_block2 a) as [b2|]; [|discriminate]. destruct (negb (bt_more b2)); [discriminate|].
  destruct (negb _); [intros H; inv H; reflexivity|discriminate].
Qed.
