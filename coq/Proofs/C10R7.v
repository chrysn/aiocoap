(* C10 — the model's internal-error outputs of _retransmit (KeyError: exchange gone / backlog key gone at give-up) and of
   _continue_backlog (AssertionError: no backlog key for the remote) are unreachable from the initial state.
   Invariant XI, its four clauses in order: (X1) pending retransmission handle => exchange under its (peer, mid) holding exactly this
   handle; (X2) exchange => backlog key; (X3) at most one exchange per peer (NSTART = 1); (X4) backlogged messages are filed under
   their own peer.  [NoLE o]: no LoopException in [o]. *)
From Verif Require Import Lib.Py Lib.Tactics Model.C10 Proofs.C10 Proofs.C10Acks Proofs.C10Live.
Open Scope Z_scope.

Notation exl := (list ((Z * Z) * (monitor * Z))).
Notation bkl := (list (Z * list (remote * wire * monitor))).

Definition XIc (E : exl) (B : bkl) (T : list timer) : Prop :=
  (forall t r m to c, In t T -> kind t = Retransmit r m to c -> exists mon, aget zz_eqb E (rpeer r, mid m) = Some (mon, tid t)) /\
  (forall p M v, aget zz_eqb E (p, M) = Some v -> amem Z.eqb B p = true) /\
  (forall p M M', aget zz_eqb E (p, M) <> None -> aget zz_eqb E (p, M') <> None -> M = M') /\
  (forall p bl, In (p, bl) B -> forall r m mon, In (r, m, mon) bl -> rpeer r = p).
Definition XI (s : st) : Prop := XIc (exch s) (backlogs s) (rtimers s).
Definition noexE (E : exl) (p : Z) : Prop := forall M, aget zz_eqb E (p, M) = None.
Definition noex (s : st) (p : Z) : Prop := noexE (exch s) p.

Lemma XI_ext s s' : exch s' = exch s -> backlogs s' = backlogs s -> rtimers s' = rtimers s -> XI s -> XI s'.
Proof. unfold XI. intros -> -> ->. auto. Qed.

Lemma XI_msame s s' : msame s s' -> XI s -> XI s'.
Proof. intros (_ & H2 & H3 & H4). apply XI_ext; assumption. Qed.

Lemma has_exchange_noex s p : has_exchange s p = false -> noex s p.
Proof.
  unfold has_exchange, noex, noexE. intros H M. destruct (aget zz_eqb (exch s) (p, M)) eqn:E; [|reflexivity]. exfalso.
  apply (aget_In _ zz_ok) in E as Hin.
  assert (existsb (fun kv => fst (fst kv) =? p) (exch s) = true) by (apply existsb_exists; eexists; split; [exact Hin|cbn; apply Z.eqb_refl]).
  congruence.
Qed.

(* removing an exchange together with its handle *)
Lemma XIc_del E B T p M mon h : XIc E B T -> aget zz_eqb E (p, M) = Some (mon, h) ->
  XIc (adel zz_eqb E (p, M)) B (cancel T h) /\ noexE (adel zz_eqb E (p, M)) p.
Proof.
  intros (X1 & X2 & X3 & X4) Hg. split; [split; [|split; [|split]]|].
  - intros t r m to c Hin Hk. apply cancel_in in Hin as [Hin Hne]. destruct (X1 _ _ _ _ _ Hin Hk) as [mon' Hm]. exists mon'.
    rewrite (aget_adel _ zz_ok). destruct (zz_eqb (p, M) (rpeer r, mid m)) eqn:Ez; [|exact Hm].
    apply zz_ok in Ez. rewrite <- Ez in Hm. rewrite Hg in Hm. inv Hm. contradiction.
  - intros p' M' v Hv. rewrite (aget_adel _ zz_ok) in Hv. destruct (zz_eqb _ _); [discriminate|]. eapply X2; eauto.
  - intros p' M1 M2 H1 H2. rewrite (aget_adel _ zz_ok) in H1, H2.
    destruct (zz_eqb (p, M) (p', M1)); [congruence|]. destruct (zz_eqb (p, M) (p', M2)); [congruence|]. eapply X3; eauto.
  - exact X4.
  - intros M'. rewrite (aget_adel _ zz_ok). destruct (zz_eqb (p, M) (p, M')) eqn:Ez; [reflexivity|].
    destruct (aget zz_eqb E (p, M')) eqn:E'; [|reflexivity]. exfalso.
    assert (M = M') by (apply (X3 p); congruence). subst M'. rewrite (eqb_refl _ zz_ok) in Ez. discriminate.
Qed.

(* a new exchange for a peer that has none, with a new retransmission handle *)
Lemma XIc_add E B T r m mon id dd to c : XIc E B T -> noexE E (rpeer r) -> amem Z.eqb B (rpeer r) = true ->
  XIc (aset zz_eqb E (rpeer r, mid m) (mon, id)) B (T ++ [{| due := dd; tid := id; kind := Retransmit r m to c |}]).
Proof.
  intros (X1 & X2 & X3 & X4) Hno Hb. split; [|split; [|split]].
  - intros t r' m' to' c' Hin Hk. apply in_app_or in Hin as [Hin|[<-|[]]].
    + destruct (X1 _ _ _ _ _ Hin Hk) as [mon' Hm]. exists mon'. rewrite (aget_aset _ zz_ok).
      destruct (zz_eqb (rpeer r, mid m) (rpeer r', mid m')) eqn:Ez; [|exact Hm]. apply zz_ok in Ez. inv Ez.
      rewrite <- H0 in Hm. rewrite Hno in Hm. discriminate.
    + cbn in Hk. inv Hk. exists mon. cbn. rewrite (aget_aset _ zz_ok), (eqb_refl _ zz_ok). reflexivity.
  - intros p M v Hv. rewrite (aget_aset _ zz_ok) in Hv. destruct (zz_eqb (rpeer r, mid m) (p, M)) eqn:Ez; [|eapply X2; eauto].
    apply zz_ok in Ez. inv Ez. exact Hb.
  - intros p M1 M2 H1 H2. rewrite (aget_aset _ zz_ok) in H1, H2.
    destruct (zz_eqb (rpeer r, mid m) (p, M1)) eqn:E1; destruct (zz_eqb (rpeer r, mid m) (p, M2)) eqn:E2.
    + apply zz_ok in E1, E2. congruence.
    + apply zz_ok in E1. inv E1. rewrite Hno in H2. congruence.
    + apply zz_ok in E2. inv E2. rewrite Hno in H1. congruence.
    + eapply X3; eauto.
  - exact X4.
Qed.

Lemma XIc_bk_new E B T p : XIc E B T -> XIc E (aset Z.eqb B p []) T.
Proof.
  intros (X1 & X2 & X3 & X4). split; [exact X1|split; [|split; [exact X3|]]].
  - intros p' M v Hv. rewrite (amem_aset _ z_ok). rewrite (X2 _ _ _ Hv). apply orb_true_r.
  - intros p' bl Hin. apply (in_aset _ z_ok) in Hin as [Hin|Heq]; [eapply X4; eauto|]. inv Heq. intros ? ? ? [].
Qed.
Lemma XIc_bk_set E B T p bl : XIc E B T -> (forall r m mon, In (r, m, mon) bl -> rpeer r = p) -> XIc E (aset Z.eqb B p bl) T.
Proof.
  intros (X1 & X2 & X3 & X4) Hbl. split; [exact X1|split; [|split; [exact X3|]]].
  - intros p' M v Hv. rewrite (amem_aset _ z_ok). rewrite (X2 _ _ _ Hv). apply orb_true_r.
  - intros p' bl' Hin. apply (in_aset _ z_ok) in Hin as [Hin|Heq]; [eapply X4; eauto|]. inv Heq. exact Hbl.
Qed.
Lemma XIc_bk_del E B T p : XIc E B T -> noexE E p -> XIc E (adel Z.eqb B p) T.
Proof.
  intros (X1 & X2 & X3 & X4) Hno. split; [exact X1|split; [|split; [exact X3|]]].
  - intros p' M v Hv. rewrite (amem_adel _ z_ok). rewrite (X2 _ _ _ Hv). destruct (p =? p') eqn:Ep; [|reflexivity].
    apply Z.eqb_eq in Ep. subst p'. rewrite Hno in Hv. discriminate.
  - intros p' bl Hin. apply in_adel in Hin. eapply X4; eauto.
Qed.
Lemma XIc_sub E B T T' : XIc E B T -> incl T' T -> XIc E B T'.
Proof. intros (X1 & X2 & X3 & X4) Hi. split; [|auto]. intros. eapply X1; eauto. Qed.
Lemma XIc_forget E B T x : XIc E B T -> (forall r m to c, kind x <> Retransmit r m to c) -> XIc E B (T ++ [x]).
Proof.
  intros (X1 & X2 & X3 & X4) Hx. split; [|auto]. intros t r m to c Hin Hk. apply in_app_or in Hin as [Hin|[<-|[]]]; [eauto|].
  exfalso. eapply Hx; eauto.
Qed.

Lemma XI_store s r m : XI s -> XI (_store_response_for_duplicates s r m).
Proof.
  unfold _store_response_for_duplicates. intros H. destruct (mtype m); auto; destruct (amem zz_eqb (recent s) (rpeer r, mid m)); auto.
Qed.
Lemma XI_add_exchange s r m mon : XI s -> noex s (rpeer r) -> XI (_add_exchange s r m mon).
Proof.
  unfold _add_exchange, call_later_r, XI, noex. intros H Hno. destruct (amem Z.eqb (backlogs s) (rpeer r)) eqn:Eb; cbn.
  - apply XIc_add; auto.
  - apply XIc_add; [apply XIc_bk_new; exact H|exact Hno|]. rewrite (amem_aset _ z_ok), Z.eqb_refl. reflexivity.
Qed.
Lemma XI_send_initially s r m mon : XI s -> (mtype m = CON -> noex s (rpeer r)) -> XI (fst (_send_initially s r m mon)).
Proof.
  unfold _send_initially. cbn [fst]. intros H Hc. apply XI_store. destruct (mtype m); auto. apply XI_add_exchange; auto.
Qed.
Lemma XI_noex_of_nomem s p : XI s -> amem Z.eqb (backlogs s) p = false -> noex s p.
Proof.
  intros (_ & X2 & _) Hb M. destruct (aget zz_eqb (exch s) (p, M)) eqn:E; [|reflexivity]. rewrite (X2 _ _ _ E) in Hb. discriminate.
Qed.
Lemma XI_fail_request s q e : XI s -> XI (fst (fail_request s q e)).
Proof. unfold fail_request. intros H. destruct (find_req _ _); exact H. Qed.
Lemma XI_run_monitor s mon : XI s -> XI (fst (run_monitor s mon)).
Proof. destruct mon; cbn [run_monitor]; [apply XI_fail_request|auto]. Qed.
Lemma XI_continue_loop bl s p : XI s -> (forall r m mon, In (r, m, mon) bl -> rpeer r = p) -> XI (fst (_continue_backlog_loop s p bl)).
Proof.
  intros H Hbl. destruct (_continue_backlog_loop s p bl) as [s' o] eqn:E. revert H. revert E.
  apply (continue_loop_rel (fun s _ s' => XI s -> XI s') (fun r _ => rpeer r = p)); [| | | |exact Hbl].
  - auto.
  - intros x rest Hr HX. unfold XI. cbn. apply XIc_bk_set; assumption.
  - intros x Eh HX. unfold XI. cbn. apply XIc_bk_del; [exact HX|apply has_exchange_noex; exact Eh].
  - intros x r m mon Hr Eh HX. apply XI_send_initially; [exact HX|]. intros _. rewrite Hr. apply has_exchange_noex. exact Eh.
Qed.
Lemma XI_continue_backlog s p : XI s -> XI (fst (_continue_backlog s p)).
Proof.
  unfold _continue_backlog. intros H. destruct (aget Z.eqb (backlogs s) p) as [bl|] eqn:Eg; [|exact H].
  apply XI_continue_loop; [exact H|]. apply (aget_In _ z_ok) in Eg as Hi.
  destruct H as (_ & _ & _ & X4). eapply X4; eauto.
Qed.
Lemma XI_remove_exchange s r m : XI s -> XI (fst (_remove_exchange s r m)).
Proof.
  unfold _remove_exchange. intros H. destruct (aget zz_eqb (exch s) (rpeer r, mid m)) as [[mon h]|] eqn:Eg; [|exact H].
  set (s1 := cancel_r _ h). assert (H1 : XI s1) by (subst s1; unfold XI; cbn; eapply XIc_del; eauto).
  set (q := match mtype m with RST => run_monitor s1 mon | _ => (s1, []) end).
  assert (Hq : XI (fst q)) by (subst q; destruct (mtype m); try exact H1; apply XI_run_monitor; exact H1).
  destruct q as [s2 o1]. cbn [fst] in Hq.
  pose proof (XI_continue_backlog s2 (rpeer r) Hq) as H3. destruct (_continue_backlog s2 (rpeer r)) as [s3 o2]. exact H3.
Qed.
Lemma XI_retransmit s r m to c : XI s -> XI (fst (_retransmit s r m to c)).
Proof.
  unfold _retransmit. intros H. destruct (aget zz_eqb (exch s) (rpeer r, mid m)) as [[mon h]|] eqn:Eg; [|exact H].
  destruct (XIc_del _ _ _ _ _ _ _ H Eg) as [H1 Hno].
  assert (Hb : amem Z.eqb (backlogs s) (rpeer r) = true) by (destruct H as (_ & X2 & _); eapply X2; eauto).
  destruct (c <? MAX_RETRANSMIT).
  - unfold call_later_r. cbn [fst]. unfold XI. cbn. apply XIc_add; assumption.
  - cbn [backlogs cancel_r set_rtimers set_exch]. rewrite Hb. unfold tm_dispatch_error. cbn [fst]. unfold XI. cbn.
    apply XIc_bk_del; assumption.
Qed.
Lemma XI_dedup s r m : XI s -> BInv s -> XI (fst (fst (_deduplicate_message s r m))).
Proof.
  unfold _deduplicate_message. intros H HB. destruct (aget zz_eqb (recent s) (rpeer r, mid m)) as [stored|] eqn:Eg.
  - destruct (mtype m); try exact H. destruct stored as [[r' m']|]; [|exact H].
    assert (Hf : XI (fst (_send_initially s r' m' MonResp))).
    { apply XI_send_initially; [exact H|]. intros Hc. exfalso. apply aget_in in Eg as (k' & Hin & _). destruct HB as (_ & _ & H3).
      apply H3 in Hin as [Hr _]. cbn in Hr. rewrite Hc in Hr. discriminate. }
    destruct (_send_initially s r' m' MonResp). exact Hf.
  - unfold call_later_r. cbn [fst]. unfold XI. cbn. apply XIc_forget; [exact H|]. cbn. discriminate.
Qed.
Lemma XI_cancel_r s id : XI s -> XI (cancel_r s id).
Proof. unfold XI. cbn. intros H. eapply XIc_sub; [exact H|]. intros t Ht. apply cancel_in in Ht. tauto. Qed.

Definition isle (o : output) : bool := match o with LoopException _ => true | _ => false end.
Definition NoLE (o : list output) : Prop := existsb isle o = false.
Lemma NoLE_app a b : NoLE a -> NoLE b -> NoLE (a ++ b).
Proof. unfold NoLE. intros Ha Hb. rewrite existsb_app, Ha, Hb. reflexivity. Qed.
Lemma NoLE_in o : NoLE o -> forall e, ~ In (LoopException e) o.
Proof.
  unfold NoLE. intros H e Hin. assert (existsb isle o = true) by (apply existsb_exists; eexists; split; [exact Hin|reflexivity]). congruence.
Qed.
Lemma XI_NoLE_tail s1 r1 build mt md mon rq s' o e : send_message_tail s1 r1 build mt md mon rq = (s', o, e) -> XI s1 ->
  (forall md1, mtype (build (select_mtype mt r1 rq) md1) = select_mtype mt r1 rq) -> XI s' /\ NoLE o.
Proof.
  intros H HX Hb. apply tail_cases in H as [(_ & _ & -> & ->)|(s2 & md1 & _ & Hm & _ & _ & Hc)]; [split; [exact HX|reflexivity]|].
  apply (XI_msame _ _ Hm) in HX. destruct Hc as [(_ & _ & _ & -> & ->)|(Hc & -> & ->)]; (split; [|reflexivity]).
  - unfold XI. cbn. apply XIc_bk_set; [exact HX|].
    intros r m mn Hin. apply in_app_or in Hin as [Hin|[Hin|[]]]; [|inv Hin; reflexivity].
    destruct (aget Z.eqb (backlogs s2) (rpeer r1)) as [bl|] eqn:Eg; [|destruct Hin].
    apply (aget_In _ z_ok) in Eg as Hi. destruct HX as (_ & _ & _ & X4). eapply X4; eauto.
  - apply XI_send_initially; [exact HX|]. rewrite Hb. intros Ht. apply XI_noex_of_nomem; [exact HX|apply Hc, Ht].
Qed.
Lemma NoLE_fail_request s q e : NoLE (snd (fail_request s q e)).
Proof. unfold fail_request. destruct (find_req _ _); reflexivity. Qed.
Lemma NoLE_run_monitor s mon : NoLE (snd (run_monitor s mon)).
Proof. destruct mon; cbn [run_monitor]; [apply NoLE_fail_request|reflexivity]. Qed.
Lemma NoLE_fail_all l p e : NoLE (fail_all l p e).
Proof. induction l as [|[[a b] [q c]] l IH]; cbn; [reflexivity|]. destruct (oz_eqb b (Some p)); [cbn|]; exact IH. Qed.
Lemma NoLE_cancel_all l p : NoLE (cancel_all l p).
Proof. induction l as [|[[a b] sv] l IH]; cbn; [reflexivity|]. destruct (b =? p); [cbn|]; exact IH. Qed.
Lemma NoLE_tm_dispatch_error s p e : NoLE (snd (tm_dispatch_error s p e)).
Proof. unfold tm_dispatch_error. cbn [snd]. apply NoLE_app; [apply NoLE_fail_all|apply NoLE_cancel_all]. Qed.
Lemma NoLE_dedup s r m : NoLE (snd (fst (_deduplicate_message s r m))).
Proof.
  unfold _deduplicate_message. destruct (aget zz_eqb (recent s) (rpeer r, mid m)) as [stored|]; [|reflexivity].
  destruct (mtype m); try reflexivity. destruct stored as [[r' m']|]; [|reflexivity].
  match goal with |- context [_send_initially ?x ?r ?w ?mn] => pose proof (proj1 (send_initially_out x r w mn)) as Ho; destruct (_send_initially x r w mn) end.
  cbn [snd] in Ho. subst. reflexivity.
Qed.
Lemma NoLE_continue_loop bl s p : NoLE (snd (_continue_backlog_loop s p bl)).
Proof.
  destruct (_continue_backlog_loop s p bl) as [s' o] eqn:E. revert E.
  apply (continue_loop_rel (fun _ o _ => NoLE o) (fun _ _ => True)); auto using NoLE_app; reflexivity.
Qed.
(* the two places that depend on the invariant *)
Lemma NoLE_remove_exchange s r m : XI s -> NoLE (snd (_remove_exchange s r m)).
Proof.
  unfold _remove_exchange. intros H. destruct (aget zz_eqb (exch s) (rpeer r, mid m)) as [[mon h]|] eqn:Eg; [|reflexivity].
  assert (Hb : amem Z.eqb (backlogs s) (rpeer r) = true) by (destruct H as (_ & X2 & _); eapply X2; eauto).
  set (s1 := cancel_r _ h). assert (Hb1 : amem Z.eqb (backlogs s1) (rpeer r) = true) by exact Hb.
  set (q := match mtype m with RST => run_monitor s1 mon | _ => (s1, []) end).
  assert (Hq : NoLE (snd q) /\ backlogs (fst q) = backlogs s1).
  { subst q. destruct (mtype m); try (split; reflexivity). split; [apply NoLE_run_monitor|].
    destruct mon; cbn [run_monitor]; [|reflexivity]. unfold fail_request. destruct (find_req _ _); reflexivity. }
  destruct q as [s2 o1]. cbn [fst snd] in Hq. destruct Hq as [Hq1 Hq2].
  unfold _continue_backlog. unfold amem in Hb1. rewrite Hq2. destruct (aget Z.eqb (backlogs s1) (rpeer r)) as [bl|]; [|discriminate].
  pose proof (NoLE_continue_loop bl s2 (rpeer r)) as H3. destruct (_continue_backlog_loop s2 (rpeer r) bl). apply NoLE_app; assumption.
Qed.
Lemma NoLE_retransmit s r m to c h0 mon0 : XI s -> aget zz_eqb (exch s) (rpeer r, mid m) = Some (mon0, h0) -> NoLE (snd (_retransmit s r m to c)).
Proof.
  unfold _retransmit. intros H Eg. rewrite Eg.
  assert (Hb : amem Z.eqb (backlogs s) (rpeer r) = true) by (destruct H as (_ & X2 & _); eapply X2; eauto).
  destruct (c <? MAX_RETRANSMIT); [reflexivity|]. cbn [backlogs cancel_r set_rtimers set_exch]. rewrite Hb. apply NoLE_tm_dispatch_error.
Qed.

Lemma XI_init m0 t0 : XI (init m0 t0).
Proof. unfold XI, XIc, init. cbn. repeat split; intros; try contradiction; try discriminate; congruence. Qed.

Lemma NoLE_benign o : benign o -> NoLE o.
Proof.
  intros H. unfold NoLE. destruct (existsb isle o) eqn:E; [|reflexivity]. apply existsb_exists in E as ([| | | | |e] & Hin & Hx); try discriminate.
  destruct (H _ Hin).
Qed.
Lemma ustep_XI_NoLE L K C A s o s' : ustep L K C A s o s' -> BInv s -> AInv s -> XI s -> XI s' /\ NoLE o.
Proof.
  intros H HB HA HX. destruct H as [s o s' Hm _ Ho|s r build mt md mon rq s' o e H Hb _|s r w mon silent Hw _|s r m s' o d _ H _|s r m s' o _ H|s t s' o _ Hin _ H
                            |s k pm h id r w _ _ _ _ _ _|s t o Hin Hn _|s r m _ _ _|s r m _|s b t _|s d].
  - (* u_same *) split; [eapply XI_msame; eauto|apply NoLE_benign; exact Ho].
  - (* u_tail *) eapply XI_NoLE_tail; eauto.
  - (* u_send *) split; [apply XI_send_initially; [exact HX|intros Hc; destruct (Hw Hc)]|destruct silent; reflexivity].
  - (* u_dedup *) pose proof (XI_dedup s r m HX HB) as H1. pose proof (NoLE_dedup s r m) as H2. rewrite H in H1, H2. auto.
  - (* u_remove *) pose proof (XI_remove_exchange s r m HX) as H1. pose proof (NoLE_remove_exchange s r m HX) as H2. rewrite H in H1, H2. auto.
  - (* u_timer *) pose proof (XI_cancel_r s (tid t) HX) as H1. unfold run_timer in H. destruct (kind t) as [rr tk|rr mm to cc|pp md] eqn:Ek.
    + inv H. split; [exact H1|reflexivity].
    + pose proof (XI_retransmit _ rr mm to cc H1) as H2. destruct HX as (X1 & _). destruct (X1 _ _ _ _ _ Hin Ek) as [mon Hmon].
      pose proof (NoLE_retransmit (cancel_r s (tid t)) rr mm to cc _ _ H1 Hmon) as H3. rewrite H in H2, H3. auto.
    + inv H. split; [apply (XI_ext (cancel_r s (tid t))); auto|reflexivity].
  - (* u_ack *) split; [apply (XI_ext s); auto|reflexivity].
  - (* u_stale *) exfalso. destruct HA as (A1 & _). destruct (A1 t Hin) as (_ & _ & r & tok & pm & Hk & Hg). rewrite (Hn _ _ Hk) in Hg. discriminate.
  - (* u_arm *) split; [apply (XI_msame s), HX; apply arm_msame|reflexivity].
  - (* u_start *) split; [apply (XI_ext s); auto|reflexivity].
  - (* u_tick *) split; [apply (XI_ext s); auto|reflexivity].
  - (* u_wait *) split; [apply (XI_ext s); auto|reflexivity].
Qed.
Lemma XI_NoLE_step s e s' o : step s e = (s', o) -> BInv s -> AInv s -> XI s -> XI s' /\ NoLE o.
Proof.
  intros H HB HA HX. cut (XI s' /\ BInv s' /\ AInv s' /\ NoLE o); [tauto|]. revert HX HB HA.
  apply (usteps_rel True (fun _ => True) (fun _ => True) (fun _ _ => True) (fun s o s' => XI s -> BInv s -> AInv s -> XI s' /\ BInv s' /\ AInv s' /\ NoLE o)) with (o := o).
  - intros x HX HB HA. repeat (split; [assumption|]). reflexivity.
  - intros x o1 x1 o2 x2 H1 H2 HX HB HA. destruct (H1 HX HB HA) as (HX1 & HB1 & HA1 & L1). destruct (H2 HX1 HB1 HA1) as (HX2 & HB2 & HA2 & L2).
    repeat (split; [assumption|]). apply NoLE_app; assumption.
  - intros x o1 x' Hu HX HB HA. destruct (ustep_XI_NoLE _ _ _ _ _ _ _ Hu HB HA HX). split; [assumption|].
    split; [exact (proj1 (ustep_ok _ _ _ _ _ _ _ Hu HB))|]. split; [eapply ustep_AInv; eauto|assumption].
  - eapply step_u; [exact I|exact H|apply allows_all].
Qed.
Lemma NoLE_step s e : BInv s -> AInv s -> XI s -> NoLE (snd (step s e)).
Proof. intros HB HA HX. destruct (step s e) as [s' o] eqn:E. exact (proj2 (XI_NoLE_step _ _ _ _ E HB HA HX)). Qed.
Lemma XI_NoLE_run es s s' os : run s es = (s', os) -> BInv s -> AInv s -> XI s -> XI s' /\ NoLE (outputs_of os).
Proof.
  intros H HB HA HX. cut (XI s' /\ AInv s' /\ NoLE (outputs_of os)); [tauto|]. revert HX HA.
  eapply (run_relB (fun s o s' => XI s -> AInv s -> XI s' /\ AInv s' /\ NoLE o) (fun _ => True)); eauto using Forall_True.
  - intros x HX HA. repeat (split; [assumption|]). reflexivity.
  - intros x o x1 o' x2 H1 H2 HX HA. destruct (H1 HX HA) as (HX1 & HA1 & L1). destruct (H2 HX1 HA1) as (HX2 & HA2 & L2). repeat (split; [assumption|]). apply NoLE_app; assumption.
  - intros x e x' o _ Hx HBx HX HA. destruct (XI_NoLE_step _ _ _ _ Hx HBx HA HX). split; [assumption|]. split; [eapply AInv_step; eauto|assumption].
Qed.

Theorem exchange_invariant es m0 t0 s os : run (init m0 t0) es = (s, os) -> XI s.
Proof. intros H. eapply XI_NoLE_run; [exact H|apply BInv_init|apply AInv_init|apply XI_init]. Qed.

(* _retransmit never raises KeyError: whenever a retransmission handle is the next to fire, its exchange is still registered under the
   message's (peer, mid) with exactly this handle, and the peer's backlog key exists (needed at give-up) *)
Theorem retransmit_keyerror_unreachable es m0 t0 s os t r m to c : run (init m0 t0) es = (s, os) ->
  next_timer s = Some (false, t) -> kind t = Retransmit r m to c ->
  (exists mon, aget zz_eqb (exch s) (rpeer r, mid m) = Some (mon, tid t)) /\ amem Z.eqb (backlogs s) (rpeer r) = true /\
  forall e, ~ In (LoopException e) (snd (step s Fire)).
Proof.
  intros Hrun En Hk. pose proof (exchange_invariant _ _ _ _ _ Hrun) as HX.
  pose proof (next_timer_in _ _ _ En) as Hin. pose proof HX as (X1 & X2 & _). destruct (X1 _ _ _ _ _ Hin Hk) as [mon Hm].
  split; [eauto|]. split; [eapply X2; eauto|]. apply NoLE_in. apply NoLE_step; [| |exact HX].
  - eapply run_ok; [exact Hrun|apply BInv_init].
  - eapply AInv_run; [exact Hrun|apply BInv_init|apply AInv_init].
Qed.

(* _continue_backlog never raises AssertionError: every active exchange's peer has a backlog key, in every reachable state, and an
   ACK / RST that removes an exchange continues that backlog without an internal error *)
Theorem continue_backlog_assertion_unreachable es m0 t0 s os : run (init m0 t0) es = (s, os) ->
  (forall p M v, aget zz_eqb (exch s) (p, M) = Some v -> aget Z.eqb (backlogs s) p <> None) /\
  (forall r m e, ~ In (LoopException e) (snd (_remove_exchange s r m))) /\
  (forall r m e, ~ In (LoopException e) (snd (step s (Recv r m)))).
Proof.
  intros Hrun. pose proof (exchange_invariant _ _ _ _ _ Hrun) as HX. split; [|split].
  - intros p M v Hv. destruct HX as (_ & X2 & _). specialize (X2 _ _ _ Hv). unfold amem in X2. destruct (aget Z.eqb (backlogs s) p); congruence.
  - intros r m. apply NoLE_in. apply NoLE_remove_exchange. exact HX.
  - intros r m. apply NoLE_in. apply NoLE_step; [| |exact HX].
    + eapply run_ok; [exact Hrun|apply BInv_init].
    + eapply AInv_run; [exact Hrun|apply BInv_init|apply AInv_init].
Qed.

Definition p1 : remote := {| rpeer := 1; rlocal := 0 |}.
Definition h_two : list event := [Request 1 (Some CON) false; Request 1 (Some CON) false].
Definition h_ack : list event := h_two ++ [Recv p1 (empty_msg ACK 10)].
Definition h_giveup : list event := h_two ++ [Fire; Fire; Fire; Fire; Fire].
Definition is_fail (o : output) : bool := match o with Fail _ _ => true | _ => false end.
Definition is_send_mid (M : Z) (o : output) : bool := match o with Send _ w => mid w =? M | _ => false end.

(* exchange_invariant / C10_one_exchange_per_peer: after two CON requests to one peer there is one exchange (mid 10), the second message
   waits in the peer's backlog, one retransmission handle is pending *)
Example exchange_invariant_nonvacuous :
  let s := fst (run (init 10 20) h_two) in
  (map fst (exch s), map (fun kv => (fst kv, length (snd kv))) (backlogs s), length (rtimers s)) = ([(1, 10)], [(1, 1%nat)], 1%nat).
Proof. vm_compute. reflexivity. Qed.
(* retransmit_keyerror_unreachable: the next handle to fire is that retransmission handle and the exchange holds exactly it *)
Example retransmit_keyerror_unreachable_nonvacuous :
  let s := fst (run (init 10 20) h_two) in
  match next_timer s with
  | Some (false, t) => match kind t with
                       | Retransmit r m _ _ => match aget zz_eqb (exch s) (rpeer r, mid m) with Some (_, h) => h =? tid t | None => false end
                       | _ => false end
  | _ => false
  end = true.
Proof. vm_compute. reflexivity. Qed.
(* ... and the give-up branch of _retransmit is reached (fifth firing): both requests fail, no exchange / backlog / handle is left *)
Example retransmit_giveup_nonvacuous :
  let '(s, os) := run (init 10 20) h_giveup in
  (length (filter is_fail (outputs_of os)), length (filter (is_send_mid 10) (outputs_of os)), exch s, backlogs s, rtimers s, existsb isle (outputs_of os))
  = (2%nat, 5%nat, [], [], [], false).
Proof. vm_compute. reflexivity. Qed.
(* continue_backlog_assertion_unreachable: the ACK for mid 10 removes the exchange and _continue_backlog sends the waiting mid 11 *)
Example continue_backlog_assertion_unreachable_nonvacuous :
  let '(s, os) := run (init 10 20) h_ack in
  (map fst (exch s), length (filter (is_send_mid 11) (outputs_of os)), existsb isle (outputs_of os)) = ([(1, 11)], 1%nat, false).
Proof. vm_compute. reflexivity. Qed.
(* C10_no_loop_exception: the statement is about non-empty output lists *)
Example no_loop_exception_nonvacuous :
  (length (outputs_of (snd (run (init 10 20) (h_ack ++ [Fire; Fire; Fire; Fire; Fire])))) ?= 3)%nat = Gt.
Proof. vm_compute. reflexivity. Qed.
