(* C08 — tie of the hand-written model's constants and message-ID successor to the translated source
   (Gen/c03_constants.v from numbers/constants.py class TransportTuning; Gen/c14_message_id.v from
   messagemanager.py MessageManager._next_message_id).  A change of the source constants or of the successor
   formula regenerates the Gen files and breaks these lemmas; the correspondence streams then look for the failing history. *)
From Coq Require Import ZArith QArith List Lia.
From Verif Require Import Lib.Py Lib.Tactics.
From Verif Require Gen.c03_constants Gen.c14_message_id.
From Verif Require Import Model.C08.
Open Scope Z_scope.
Lemma exchange_lifetime_is_source : Qeq (inject_Z EXCHANGE_LIFETIME_US) (Qmult (c03_constants.EXCHANGE_LIFETIME c03_constants.default_transport_tuning) (inject_Z 1000000)).
Proof. vm_compute. reflexivity. Qed.
Lemma empty_ack_delay_is_source : Qeq (inject_Z EMPTY_ACK_DELAY_US) (Qmult (c03_constants.tt_EMPTY_ACK_DELAY c03_constants.default_transport_tuning) (inject_Z 1000000)).
Proof. vm_compute. reflexivity. Qed.
Lemma ack_timeout_is_source : Qeq (inject_Z ACK_TIMEOUT_US) (Qmult (c03_constants.tt_ACK_TIMEOUT c03_constants.default_transport_tuning) (inject_Z 1000000)).
Proof. vm_compute. reflexivity. Qed.
Lemma max_retransmit_is_source : MAX_RETRANSMIT = c03_constants.tt_MAX_RETRANSMIT c03_constants.default_transport_tuning.
Proof. reflexivity. Qed.
(* the model writes the successor as [(1 + mid) mod 65536]; the translated method computes [Z.land 65535 (1 + mid)]: the same for every mid *)
Lemma next_message_id_is_source : forall mid,
  c14_message_id.next_message_id {| c14_message_id.mmids_message_id := mid |}
  = Ok ({| c14_message_id.mmids_message_id := (1 + mid) mod 65536 |}, mid).
Proof. intros mid. unfold c14_message_id.next_message_id. cbn [c14_message_id.mmids_message_id]. mid16. Qed.
