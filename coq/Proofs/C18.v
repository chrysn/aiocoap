(* C18 — what the Shutdown step does and silence afterwards.  The invariants of reachable states (here G, in Proofs/C18Inv.v
   timer ownership, in Proofs/C18Req.v the requests table) are proved over one walk through [step]: [mm_move], [tm_move], [step_walk]. *)
From Verif Require Import Lib.Py Lib.PyLemmas Lib.Tactics Model.C18.
Open Scope Z_scope.

Definition olist (s : tmst) : list oreq := match outgoing s with Some l => l | None => [] end.
Definition ilist (s : tmst) : list ireq := match incoming s with Some l => l | None => [] end.

(* the state a context is in after Context.shutdown has returned *)
Definition Down (s : st) : Prop :=
  exchanges (mm s) = None /\ outgoing (tm s) = None /\ incoming (tm s) = None /\
  timers (mm s) = [] /\ piggys (mm s) = [] /\ transport_down (mm s) = true.

(* events that can still reach a context after shutdown: the transport is closed, so no datagram arrives
   (udp6.py:481 closes the socket before shutdown yields), and Context.shutdown is not called twice *)
Definition in_scope (e : event) : bool :=
  match e with Recv _ | Shutdown => false | _ => true end.

(* what a shut-down context may still produce: the immediate failure of a request submitted afterwards *)
Definition quiet (o : output) : bool :=
  match o with
  | OFail _ LibraryShutdown => true
  | OObsEnd _ NotObservable => true
  | _ => false
  end.
Definition is_send (o : output) : bool := match o with OSend _ => true | _ => false end.
Definition is_exc (o : output) : bool := match o with OExc _ => true | _ => false end.

(* the outcome shutdown gives to an outstanding request *)
Definition shutdown_outcome (o : oreq) : list output :=
  if o_first o then [OObsEnd (o_q o) LibraryShutdown]
  else OFail (o_q o) LibraryShutdown :: (if o_observe o then [OObsEnd (o_q o) NotObservable] else []).

Lemma request_run_shutdown t o : snd (request_run t o (EvExc LibraryShutdown)) = shutdown_outcome o.
Proof. unfold request_run, shutdown_outcome. destruct (o_first o); reflexivity. Qed.

Lemma filter_len_le {A} (p : A -> bool) l : (length (filter p l) <= length l)%nat.
Proof. induction l as [|x l IH]; cbn; [lia|]. destruct (p x); cbn; lia. Qed.
Lemma filter_len_lt {A} (p : A -> bool) l x : In x l -> p x = false -> (length (filter p l) < length l)%nat.
Proof.
  induction l as [|y l IH]; cbn; [tauto|]. intros [->|I] Px.
  - rewrite Px. pose proof (filter_len_le p l). lia.
  - specialize (IH I Px). destruct (p y); cbn; lia.
Qed.

Lemma earliest_In l i : earliest l = Some i -> In i l.
Proof.
  revert i. induction l as [|a l IH]; cbn; [discriminate|]. intros i H.
  destruct (earliest l) as [j|] eqn:E.
  - destruct (key_lt (item_key j) (item_key a)); inversion H; subst; auto.
  - inversion H; subst; auto.
Qed.

Lemma earliest_None l : earliest l = None -> l = [].
Proof. destruct l as [|a l]; cbn; [reflexivity|]. destruct (earliest l); [destruct (key_lt _ _)|]; discriminate. Qed.

Lemma run_invariant (Q : st -> Prop) es : (forall s e, In e es -> Q s -> Q (fst (step s e))) ->
  forall s, Q s -> Q (fst (run s es)).
Proof.
  induction es as [|e es IH]; intros St s H; cbn [run]; [exact H|].
  pose proof (St s e (or_introl eq_refl) H) as H1. destruct (step s e) as [s1 o]. cbn [fst] in H1.
  specialize (IH (fun s e I => St s e (or_intror I)) s1 H1). destruct (run s1 es). exact IH.
Qed.

Lemma cancel_fields s id :
  exchanges (cancel s id) = exchanges s /\ piggys (cancel s id) = piggys s /\ forgets (cancel s id) = forgets s /\
  recents (cancel s id) = recents s /\ next_tid (cancel s id) = next_tid s /\ now (cancel s id) = now s /\
  backlogs (cancel s id) = backlogs s /\ transport_down (cancel s id) = transport_down s /\ message_id (cancel s id) = message_id s.
Proof. unfold cancel; cbn. repeat split. Qed.

Lemma cancel_timers_incl s id t : In t (timers (cancel s id)) -> In t (timers s).
Proof. unfold cancel; cbn. intro H. apply filter_In in H. tauto. Qed.

Lemma fold_cancel_eq {A} (f : A -> Z) (l : list A) s :
  fold_left (fun a x => cancel a (f x)) l s = mm_set_timers s (timers (fold_left (fun a x => cancel a (f x)) l s)).
Proof.
  revert s. induction l as [|x l IH]; intro s; cbn [fold_left]; [destruct s; reflexivity|].
  rewrite IH at 1. reflexivity.
Qed.
Lemma fold_cancel_removes {A} (f : A -> Z) (l : list A) s t :
  In t (timers (fold_left (fun a x => cancel a (f x)) l s)) -> In t (timers s) /\ ~ In (t_id t) (map f l).
Proof.
  revert s. induction l as [|x l IH]; intro s; cbn [fold_left map].
  - intro H; split; [exact H | intros []].
  - intro H. apply IH in H. destruct H as [H1 H2]. unfold cancel in H1; cbn in H1. apply filter_In in H1.
    destruct H1 as [H1 H3]. split; [exact H1|]. intros [E|E]; [|tauto].
    rewrite E in H3. rewrite Z.eqb_refl in H3. discriminate.
Qed.

(* What an event other than Shutdown does to [mm] is a sequence of these updates, each with what the code has looked up or
   tested at that point (_send_initially is entered in three situations: mv_send, mv_unqueue, mv_resend). *)
Definition pop_exchange (s : mmst) (xs : list exchange) (r mid : Z) (x : exchange) : mmst :=
  cancel (mm_set_exchanges s (Some (filter (fun x => negb (exchange_is r mid x)) xs))) (x_timer x).

Inductive mm_move : mmst -> mmst -> Prop :=
| mv_now s t : mm_move s (mm_set_now s t)
| mv_cancel s id : mm_move s (cancel s id)
| mv_pop s xs r mid x : exchanges s = Some xs -> find (exchange_is r mid) xs = Some x -> mm_move s (pop_exchange s xs r mid x)
| mv_next_mid s : mm_move s (fst (_next_message_id s))
| mv_pop_piggy s r tok p : find (piggy_is r tok) (piggys s) = Some p ->
    mm_move s (cancel (mm_set_piggys s (filter (fun p => negb (piggy_is r tok p)) (piggys s))) (p_timer p))
| mv_queue s r items m mon : backlog_items s r = Some items -> m_remote m = r -> mm_move s (set_backlog_items s r (items ++ [(m, mon)]))
| mv_send s m mon : (m_type m = CON -> has_backlog s (m_remote m) = false) -> mm_move s (fst (_send_initially s m mon))
| mv_unqueue s xs r m mon rest : exchanges s = Some xs -> has_exchange xs r = false -> backlog_items s r = Some ((m, mon) :: rest) ->
    mm_move s (fst (_send_initially (set_backlog_items s r rest) m mon))
| mv_del_backlog s xs r : exchanges s = Some xs -> has_exchange xs r = false -> mm_move s (del_backlog s r)
| mv_resend s e old : In e (recents s) -> r_stored e = Some old -> mm_move s (fst (_send_initially s old MonNone))
| mv_remember s r mid : find (recent_is r mid) (recents s) = None ->
    let s1 := call_later_forget s EXCHANGE_LIFETIME r mid in
    mm_move s (mm_set_recents s1 (recents s1 ++ [{| r_remote := r; r_mid := mid; r_stored := None |}]))
| mv_piggyback s m : mm_move s (_process_request_piggyback s m)
| mv_error s xs r : exchanges s = Some xs ->
    mm_move s (del_backlog (fold_left (fun a x => cancel a (x_timer x)) (filter (fun x => x_remote x =? r) xs)
                                      (mm_set_exchanges s (Some (filter (fun x => negb (x_remote x =? r)) xs)))) r)
| mv_rearm s xs m timeout count x : exchanges s = Some xs -> find (exchange_is (m_remote m) (m_mid m)) xs = Some x ->
    let p := _schedule_retransmit (pop_exchange s xs (m_remote m) (m_mid m) x) m timeout count in
    mm_move s (mm_set_exchanges (fst p) (Some (filter (fun x => negb (exchange_is (m_remote m) (m_mid m) x)) xs
                 ++ [{| x_remote := m_remote m; x_mid := m_mid m; x_mon := x_mon x; x_timer := snd p |}])))
| mv_giveup s xs r mid x : exchanges s = Some xs -> find (exchange_is r mid) xs = Some x ->
    mm_move s (del_backlog (pop_exchange s xs r mid x) r)
| mv_empty_ack s t r tok : In t (timers s) -> t_kind t = TEmptyAck r tok -> mm_move s (fst (on_timeout (cancel s (t_id t)) r tok))
| mv_expire s f : In f (forgets s) ->
    mm_move s (fst (forget_recent (mm_set_forgets s (filter (fun g => negb (f_id g =? f_id f)) (forgets s))) (f_remote f) (f_mid f))).

(* the token manager's operations in the events that neither submit a request nor shut down, with their outputs *)
Inductive tm_move : tmst -> tmst -> list output -> Prop :=
| tv_monitor t s mon : tm_move s (fst (call_monitor t s mon)) (snd (call_monitor t s mon))
| tv_error t s e r : tm_move s (fst (tm_dispatch_error t s e r)) (snd (tm_dispatch_error t s e r))
| tv_request s m : tm_move s (fst (tm_process_request s m)) (snd (tm_process_request s m))
| tv_response t s m : tm_move s (fst (fst (tm_process_response t s m))) (snd (fst (tm_process_response t s m)))
| tv_cancel s q : tm_move s (fst (client_cancel s q)) (snd (client_cancel s q))
| tv_end s h l : incoming s = Some l -> tm_move s (tm_set_incoming s (Some (filter (fun i => negb (i_h i =? h)) l))) [].

Definition internal (e : event) : bool :=
  match e with
  | Recv _ | Fire | Advance _ | ClientCancel _ | HandlerRespond _ _ _ _ _ | HandlerRaise _ _ | TransportError _ => true
  | _ => false
  end.

(* Q: the two halves of the state and the outputs so far *)
Section Walk.
  Variable Q : tmst -> mmst -> list output -> Prop.
  Hypothesis Q_out : forall t m o o', Q t m o -> Q t m (o ++ o').
  Hypothesis Q_mm : forall t a b o, mm_move a b -> Q t a o -> Q t b o.
  Hypothesis Q_tm : forall a b out m o, tm_move a b out -> Q a m o -> Q b m (o ++ out).

  Lemma walk_continue_backlog_loop t fuel : forall s r o, Q t s o -> Q t (fst (_continue_backlog_loop fuel s r)) o.
  Proof.
    induction fuel as [|fuel IH]; intros s r o H; cbn [_continue_backlog_loop]; [exact H|].
    destruct (exchanges s) as [xs|] eqn:E; [|exact H]. destruct (has_exchange xs r) eqn:Hx; [exact H|].
    destruct (backlog_items s r) as [[|[m mon] rest]|] eqn:B; cbn [fst]; [exact (Q_mm _ _ _ _ (mv_del_backlog _ _ _ E Hx) H)| |exact H].
    pose proof (Q_mm _ _ _ _ (mv_unqueue _ _ _ _ _ _ E Hx B) H) as H1.
    destruct (_send_initially (set_backlog_items s r rest) m mon) as [s1 o1]. cbn [fst] in H1.
    specialize (IH s1 r o H1). destruct (_continue_backlog_loop fuel s1 r) as [s2 o2]. exact IH.
  Qed.
  Lemma walk_continue_backlog t s r o : Q t s o -> Q t (fst (_continue_backlog s r)) o.
  Proof. intro H. unfold _continue_backlog. destruct (backlog_items s r); [apply walk_continue_backlog_loop|]; exact H. Qed.

  Lemma walk_send_message t s mt code tok obs r rt mon o : Q t s o -> Q t (fst (send_message s mt code tok obs r rt mon)) o.
  Proof.
    intro H. unfold send_message.
    set (first := if is_response code then _ else _).
    assert (H1 : Q t (fst (fst first)) o).
    { unfold first. destruct (is_response code); [|exact H].
      destruct (find (piggy_is r tok) (piggys s)) as [p|] eqn:F; [|exact H]. exact (Q_mm _ _ _ _ (mv_pop_piggy _ _ _ _ F) H). }
    destruct first as [[s1 mt1] mid1]. cbn [fst] in H1.
    set (second := match mid1 with Some i => _ | None => _ end).
    assert (H2 : Q t (fst second) o).
    { unfold second. destruct mid1; [exact H1|exact (Q_mm _ _ _ _ (mv_next_mid _) H1)]. }
    destruct second as [s2 mid2]. cbn [fst] in H2.
    match goal with |- context [if mtype_eqb ?a CON && ?b then _ else _] => destruct (mtype_eqb a CON && b) eqn:C end.
    - destruct (exchanges s2); [destruct (backlog_items s2 r) as [items|] eqn:B|]; cbn [fst]; try exact H2.
      apply Q_mm with (2 := H2). apply mv_queue; [exact B|reflexivity].
    - apply Q_mm with (2 := H2). apply mv_send. cbn [m_type m_remote]. intro T. rewrite T in C. exact C.
  Qed.

  Lemma walk_deduplicate t s m o : Q t s o -> Q t (fst (fst (_deduplicate_message s m))) o.
  Proof.
    intro H. unfold _deduplicate_message. destruct (find (recent_is (m_remote m) (m_mid m)) (recents s)) as [e|] eqn:F.
    - destruct (m_type m); try exact H. destruct (r_stored e) as [old|] eqn:S; [|exact H].
      pose proof (Q_mm _ _ _ _ (mv_resend s e old (proj1 (find_some _ _ F)) S) H) as H1. destruct (_send_initially s old MonNone). exact H1.
    - exact (Q_mm _ _ _ _ (mv_remember _ _ _ F) H).
  Qed.

  Lemma walk_remove_exchange s m o : Q (tm s) (mm s) o ->
    Q (tm (fst (_remove_exchange s m))) (mm (fst (_remove_exchange s m))) (o ++ snd (_remove_exchange s m)).
  Proof.
    intro H. unfold _remove_exchange. destruct (exchanges (mm s)) as [xs|] eqn:E; [|exact (Q_out _ _ _ _ H)].
    destruct (find (exchange_is (m_remote m) (m_mid m)) xs) as [x|] eqn:F; [|exact (Q_out _ _ _ _ H)].
    pose proof (Q_mm _ _ _ _ (mv_pop _ _ _ _ _ E F) H) as H1. unfold pop_exchange in H1.
    set (mm1 := cancel _ (x_timer x)) in *.
    set (mon := match m_type m with RST => call_monitor (now mm1) (tm s) (x_mon x) | _ => (tm s, []) end).
    assert (H2 : Q (fst mon) mm1 (o ++ snd mon)).
    { unfold mon. destruct (m_type m); try exact (Q_out _ _ _ _ H1). exact (Q_tm _ _ _ _ _ (tv_monitor _ _ _) H1). }
    destruct mon as [tm1 o1]. cbn [fst snd] in H2.
    pose proof (walk_continue_backlog _ mm1 (m_remote m) _ H2) as H3.
    destruct (_continue_backlog mm1 (m_remote m)) as [mm2 o2]. cbn [fst snd tm mm]. rewrite app_assoc. exact (Q_out _ _ _ _ H3).
  Qed.

  Lemma walk_retransmit s m timeout count o : Q (tm s) (mm s) o ->
    Q (tm (fst (_retransmit s m timeout count))) (mm (fst (_retransmit s m timeout count))) (o ++ snd (_retransmit s m timeout count)).
  Proof.
    intro H. unfold _retransmit. destruct (exchanges (mm s)) as [xs|] eqn:E; [|exact (Q_out _ _ _ _ H)].
    destruct (find (exchange_is (m_remote m) (m_mid m)) xs) as [x|] eqn:F; [|exact (Q_out _ _ _ _ H)].
    destruct (count <? MAX_RETRANSMIT).
    - exact (Q_out _ _ _ _ (Q_mm _ _ _ _ (mv_rearm _ _ m (timeout * 2) (count + 1) _ E F) H)).
    - destruct (has_backlog _ (m_remote m)); [|exact (Q_out _ _ _ _ (Q_mm _ _ _ _ (mv_pop _ _ _ _ _ E F) H))].
      pose proof (Q_mm _ _ _ _ (mv_giveup _ _ _ _ _ E F) H) as H1.
      match goal with |- context [tm_dispatch_error ?t ?a ?e ?r] =>
        pose proof (Q_tm _ _ _ _ _ (tv_error t a e r) H1) as H2; destruct (tm_dispatch_error t a e r) as [tm1 o1] end.
      exact H2.
  Qed.

  Lemma walk_dispatch_error s e r o : Q (tm s) (mm s) o ->
    Q (tm (fst (dispatch_error s e r))) (mm (fst (dispatch_error s e r))) (o ++ snd (dispatch_error s e r)).
  Proof.
    intro H. unfold dispatch_error. destruct (exchanges (mm s)) as [xs|] eqn:E; [|exact (Q_out _ _ _ _ H)].
    pose proof (Q_tm _ _ _ _ _ (tv_error (now (mm s)) (tm s) e r) H) as H1.
    destruct (tm_dispatch_error _ _ _ _) as [tm1 o1]. exact (Q_mm _ _ _ _ (mv_error _ _ r E) H1).
  Qed.

  Lemma walk_handler_respond s h code last obs lg o : Q (tm s) (mm s) o ->
    Q (tm (fst (handler_respond s h code last obs lg))) (mm (fst (handler_respond s h code last obs lg)))
      (o ++ snd (handler_respond s h code last obs lg)).
  Proof.
    intro H. unfold handler_respond. destruct (incoming (tm s)) as [l|] eqn:I; [|exact (Q_out _ _ _ _ H)].
    destruct (find (fun i => i_h i =? h) l) as [i|]; [|exact (Q_out _ _ _ _ H)].
    pose proof (walk_send_message _ (mm s) None code (i_tok i) obs (i_remote i) (Some (i_type i)) (MonSrv h) _ H) as H1.
    destruct (send_message _ _ _ _ _ _ _ _) as [mm1 out]. cbn [fst snd tm mm] in *. apply Q_out.
    destruct last; [|exact H1]. rewrite <- (app_nil_r o). exact (Q_tm _ _ _ _ _ (tv_end (tm s) h l I) H1).
  Qed.

  (* the clock is set after the fired timer has been taken out; the moves do it the other way round, which is the same state *)
  Lemma walk_run_item s i o : In i (pending (mm s)) -> Q (tm s) (mm s) o ->
    Q (tm (fst (run_item s i))) (mm (fst (run_item s i))) (o ++ snd (run_item s i)).
  Proof.
    intros I H. unfold pending in I. apply in_app_or in I.
    destruct I as [I|I]; apply in_map_iff in I; destruct I as (x & <- & Ix); unfold run_item.
    - set (tau := Z.max (now (mm s)) (t_due x)).
      change (mm_set_now (cancel (mm s) (t_id x)) tau) with (cancel (mm_set_now (mm s) tau) (t_id x)).
      pose proof (Q_mm _ _ _ _ (mv_now _ tau) H) as H0. destruct (t_kind x) as [m timeout count|r tok] eqn:K.
      + apply (walk_retransmit {| tm := tm s; mm := cancel (mm_set_now (mm s) tau) (t_id x) |}).
        exact (Q_mm _ _ _ _ (mv_cancel _ _) H0).
      + pose proof (Q_mm _ _ _ _ (mv_empty_ack (mm_set_now (mm s) tau) x r tok Ix K) H0) as H1.
        destruct (on_timeout _ r tok) as [mm1 o1]. exact (Q_out _ _ _ _ H1).
    - set (tau := Z.max (now (mm s)) (f_due x)).
      change (mm_set_now (mm_set_forgets (mm s) (filter (fun g => negb (f_id g =? f_id x)) (forgets (mm s)))) tau)
        with (mm_set_forgets (mm_set_now (mm s) tau) (filter (fun g => negb (f_id g =? f_id x)) (forgets (mm_set_now (mm s) tau)))).
      pose proof (Q_mm _ _ _ _ (mv_expire (mm_set_now (mm s) tau) x Ix) (Q_mm _ _ _ _ (mv_now _ tau) H)) as H1.
      destruct (forget_recent _ (f_remote x) (f_mid x)) as [mm1 o1]. exact (Q_out _ _ _ _ H1).
  Qed.

  Lemma walk_fire s o : Q (tm s) (mm s) o -> Q (tm (fst (fire s))) (mm (fst (fire s))) (o ++ snd (fire s)).
  Proof.
    intro H. unfold fire. destruct (earliest (pending (mm s))) as [i|] eqn:E; [|exact (Q_out _ _ _ _ H)].
    exact (walk_run_item s i o (earliest_In _ _ E) H).
  Qed.

  Lemma walk_advance fuel : forall s target o, Q (tm s) (mm s) o ->
    Q (tm (fst (advance_to fuel s target))) (mm (fst (advance_to fuel s target))) (o ++ snd (advance_to fuel s target)).
  Proof.
    induction fuel as [|fuel IH]; intros s target o H; cbn [advance_to]; [exact (Q_out _ _ _ _ H)|].
    pose proof (Q_out _ _ _ [] (Q_mm _ _ _ _ (mv_now _ (Z.max (now (mm s)) target)) H)) as Idle.
    destruct (earliest (pending (mm s))) as [i|] eqn:E; [|exact Idle].
    destruct (fst (item_key i) <=? target); [|exact Idle].
    pose proof (walk_run_item s i o (earliest_In _ _ E) H) as H1. destruct (run_item s i) as [s1 o1].
    specialize (IH s1 target _ H1). destruct (advance_to fuel s1 target) as [s2 o2]. cbn [fst snd] in *.
    rewrite app_assoc. exact IH.
  Qed.

  Lemma walk_dispatch_message s m o : Q (tm s) (mm s) o ->
    Q (tm (fst (dispatch_message s m))) (mm (fst (dispatch_message s m))) (o ++ snd (dispatch_message s m)).
  Proof.
    intro H. unfold dispatch_message.
    set (d := if is_request (m_code m) then _deduplicate_message (mm s) m else (mm s, [], false)).
    assert (H1 : Q (tm s) (fst (fst d)) (o ++ snd (fst d))).
    { apply Q_out. unfold d. destruct (is_request (m_code m)); [exact (walk_deduplicate _ _ m _ H)|exact H]. }
    destruct d as [[mm1 o1] dup]. cbn [fst snd] in H1. destruct dup; [exact H1|].
    set (s1 := {| tm := tm s; mm := mm1 |}).
    set (r2 := if is_ack_or_rst (m_type m) then _remove_exchange s1 m else (s1, [])).
    assert (H2 : Q (tm (fst r2)) (mm (fst r2)) ((o ++ o1) ++ snd r2)).
    { unfold r2. destruct (is_ack_or_rst (m_type m)); [exact (walk_remove_exchange s1 m _ H1)|exact (Q_out _ _ _ _ H1)]. }
    destruct r2 as [s2 o2]. cbn [fst snd] in H2.
    match goal with |- context [let '(s3, o3) := ?X in _] =>
      assert (H3 : Q (tm (fst X)) (mm (fst X)) (((o ++ o1) ++ o2) ++ snd X));
        [|destruct X as [s3 o3]; cbn [fst snd] in *; rewrite !app_assoc; exact H3] end.
    (* the empty replies (RST to a ping or an unmatched response, ACK to a matched one) *)
    assert (Reply : forall t ty a mid, ty <> CON -> Q t (mm s2) a ->
              Q t (fst (_send_initially (mm s2) {| m_type := ty; m_code := EMPTY; m_mid := mid; m_token := 0; m_obs := None; m_remote := m_remote m |} MonNone)) a)
      by (intros t ty a mid T; apply Q_mm, mv_send; intro C; destruct (T C)).
    destruct ((m_code m =? EMPTY) && mtype_eqb (m_type m) CON).
    { specialize (Reply (tm s2) RST ((o ++ o1) ++ o2) (m_mid m)). unfold _process_ping. destruct (_send_initially _ _ _). apply Q_out, Reply; [discriminate|exact H2]. }
    destruct ((m_code m =? EMPTY) && is_ack_or_rst (m_type m)); [exact (Q_out _ _ _ _ H2)|].
    destruct (is_request (m_code m) && negb (is_ack_or_rst (m_type m))).
    { pose proof (Q_tm _ _ _ _ _ (tv_request (tm s2) m) (Q_mm _ _ _ _ (mv_piggyback _ m) H2)) as H3.
      destruct (tm_process_request (tm s2) m). exact H3. }
    destruct (is_response (m_code m) && negb (mtype_eqb (m_type m) RST)); [|exact (Q_out _ _ _ _ H2)].
    pose proof (Q_tm _ _ _ _ _ (tv_response (now (mm s2)) (tm s2) m) H2) as H3.
    destruct (tm_process_response (now (mm s2)) (tm s2) m) as [[tm3 o3] success]. cbn [fst snd] in H3.
    destruct success; destruct (m_type m); cbn [fst snd tm mm]; try exact H3.
    - specialize (Reply tm3 ACK (((o ++ o1) ++ o2) ++ o3) (m_mid m)). unfold _send_empty_ack. destruct (_send_initially _ _ _).
      cbn [fst snd tm mm]. rewrite app_assoc. apply Q_out, Reply; [discriminate|exact H3].
    - specialize (Reply tm3 RST (((o ++ o1) ++ o2) ++ o3) (m_mid m)). destruct (_send_initially _ _ _).
      cbn [fst snd tm mm]. rewrite app_assoc. apply Q_out, Reply; [discriminate|exact H3].
  Qed.

  Theorem step_walk s e o : internal e = true -> Q (tm s) (mm s) o ->
    Q (tm (fst (step s e))) (mm (fst (step s e))) (o ++ snd (step s e)).
  Proof.
    intros I H. destruct e; try discriminate I; cbn [step].
    - (* Recv *) apply walk_dispatch_message; exact H.
    - (* Fire *) apply walk_fire; exact H.
    - (* Advance *) apply walk_advance; exact H.
    - (* ClientCancel *) pose proof (Q_tm _ _ _ _ _ (tv_cancel (tm s) q) H) as H1. destruct (client_cancel (tm s) q). exact H1.
    - (* HandlerRespond *) apply walk_handler_respond; exact H.
    - (* HandlerRaise *) apply walk_handler_respond; exact H.
    - (* TransportError *) apply walk_dispatch_error; exact H.
  Qed.
End Walk.

(* for mm alone the request events can be added: tm_request is one send_message *)
Theorem step_moves (P : mmst -> Prop) : (forall a b, mm_move a b -> P a -> P b) ->
  forall s e, e <> Shutdown -> P (mm s) -> P (mm (fst (step s e))).
Proof.
  intros closed s e NS H. destruct (internal e) eqn:I.
  - exact (step_walk (fun _ m _ => P m) (fun _ _ _ _ H => H) (fun _ a b _ => closed a b) (fun _ _ _ _ _ _ H => H) s e [] I H).
  - assert (Rq : forall s q r mt ob, P (mm s) -> P (mm (fst (tm_request s q r mt ob)))).
    { intros a q r mt ob Ha. unfold tm_request. destruct (outgoing (tm a)); [|exact Ha]. destruct (next_token (tm a)) as [tm1 tok].
      pose proof (walk_send_message (fun _ m _ => P m) (fun _ x y _ => closed x y) (tm a) (mm a) (Some mt) GET tok (if ob then Some 0 else None) r None (MonReq q) [] Ha) as H1.
      destruct (send_message _ _ _ _ _ _ _ _) as [mm1 out]. exact H1. }
    destruct e; try discriminate I; cbn [step].
    + (* ClientRequest *) apply Rq; exact H.
    + (* ClientRequestSlow *) exact H.
    + (* Resolved *) destruct (find _ (resolving (tm s))) as [[[[q0 r] mt] ob]|]; [apply Rq|]; exact H.
    + (* Shutdown *) congruence.
Qed.

Lemma tm_shutdown_incoming_spec s :
  incoming (fst (tm_shutdown_incoming s)) = None /\ outgoing (fst (tm_shutdown_incoming s)) = outgoing s /\
  snd (tm_shutdown_incoming s) = map (fun i => OHCancel (i_h i)) (ilist s).
Proof. unfold tm_shutdown_incoming, ilist. destruct (incoming s) eqn:E; cbn; auto. Qed.

Lemma tm_shutdown_outgoing_spec t s :
  outgoing (fst (tm_shutdown_outgoing t s)) = None /\ incoming (fst (tm_shutdown_outgoing t s)) = incoming s /\
  snd (tm_shutdown_outgoing t s) = flat_map shutdown_outcome (olist s).
Proof.
  unfold tm_shutdown_outgoing, olist. destruct (outgoing s) eqn:E; cbn; auto.
  repeat split. apply flat_map_ext. intro o. apply request_run_shutdown.
Qed.

(* which timers were armed by whom: every cancellable timer belongs to an exchange or to a piggy-back opportunity *)
Definition timers_owned (s : mmst) : Prop :=
  forall t, In t (timers s) ->
    In (t_id t) (map x_timer (match exchanges s with Some xs => xs | None => [] end)) \/ In (t_id t) (map p_timer (piggys s)).

Lemma mm_shutdown_spec s xs : exchanges s = Some xs -> timers_owned s ->
  mm_shutdown s = (mm_set_transport_down (mm_set_piggys (mm_set_timers (mm_set_exchanges s None) []) []) true, []).
Proof.
  intros E Own. unfold mm_shutdown. rewrite E. cbv zeta.
  set (s1 := mm_set_exchanges (fold_left (fun a x => cancel a (x_timer x)) xs s) None).
  rewrite (fold_cancel_eq p_timer (piggys s1) s1).
  assert (T : timers (fold_left (fun a p => cancel a (p_timer p)) (piggys s1) s1) = []).
  { destruct (timers _) as [|t ts] eqn:T; [reflexivity|exfalso].
    assert (I : In t (timers (fold_left (fun a p => cancel a (p_timer p)) (piggys s1) s1))) by (rewrite T; left; reflexivity).
    apply fold_cancel_removes in I. destruct I as [I1 I2].
    apply (fold_cancel_removes x_timer xs s) in I1. destruct I1 as [I1 I3].
    unfold s1 in I2. rewrite (fold_cancel_eq x_timer xs s) in I2.
    destruct (Own t I1) as [O|O]; [rewrite E in O; tauto|exact (I2 O)]. }
  rewrite T. unfold s1. rewrite (fold_cancel_eq x_timer xs s). reflexivity.
Qed.

Lemma shutdown_step s xs : exchanges (mm s) = Some xs -> timers_owned (mm s) ->
  let s' := fst (shutdown s) in let out := snd (shutdown s) in
  Down s' /\
  out = map (fun i => OHCancel (i_h i)) (ilist (tm s)) ++ flat_map shutdown_outcome (olist (tm s)) ++ [OShutdownDone] /\
  forgets (mm s') = forgets (mm s) /\ recents (mm s') = recents (mm s) /\ next_tid (mm s') = next_tid (mm s).
Proof.
  intros E Own. unfold shutdown. rewrite (mm_shutdown_spec (mm s) xs E Own).
  pose proof (tm_shutdown_incoming_spec (tm s)) as (A1 & A2 & A3).
  destruct (tm_shutdown_incoming (tm s)) as [tm1 o1]. cbn [fst snd] in *.
  pose proof (tm_shutdown_outgoing_spec (now (mm s)) tm1) as (B1 & B2 & B3).
  destruct (tm_shutdown_outgoing (now (mm s)) tm1) as [tm2 o2]. cbn [fst snd] in *.
  split; [unfold Down; cbn; repeat split; congruence|].
  split; [|cbn; auto].
  rewrite A3, B3. unfold olist. rewrite A2. reflexivity.
Qed.

Lemma request_after_shutdown s q r mt observe : outgoing (tm s) = None ->
  tm_request s q r mt observe = (s, OFail q LibraryShutdown :: (if observe then [OObsEnd q NotObservable] else [])).
Proof. intro H. unfold tm_request. rewrite H. reflexivity. Qed.

(* the deduplication entries and their expiry timers: each pending pop-timer still finds its key *)
Definition fkey (f : forget) : Z * Z := (f_remote f, f_mid f).
Definition rkey (e : recent) : Z * Z := (r_remote e, r_mid e).
Definition G (s : mmst) : Prop :=
  NoDup (map fkey (forgets s)) /\ incl (map fkey (forgets s)) (map rkey (recents s)).

Lemma recent_is_key r mid e : recent_is r mid e = true <-> rkey e = (r, mid).
Proof. unfold recent_is, rkey. split.
  - intro H. apply andb_true_iff in H. destruct H as [A B]. apply Z.eqb_eq in A. apply Z.eqb_eq in B. congruence.
  - intro H. inversion H. rewrite !Z.eqb_refl. reflexivity. Qed.
Lemma existsb_recent r mid l : existsb (recent_is r mid) l = true <-> In (r, mid) (map rkey l).
Proof. rewrite existsb_exists, in_map_iff. split.
  - intros (e & I & H). exists e. split; [apply recent_is_key; exact H|exact I].
  - intros (e & H & I). exists e. split; [exact I|apply recent_is_key; exact H]. Qed.

Lemma forget_fires s f : G s -> In f (forgets s) ->
  let s' := mm_set_forgets s (filter (fun g => negb (f_id g =? f_id f)) (forgets s)) in
  forget_recent s' (f_remote f) (f_mid f) =
    (mm_set_recents s' (filter (fun e => negb (recent_is (f_remote f) (f_mid f) e)) (recents s)), []) /\
  G (fst (forget_recent s' (f_remote f) (f_mid f))).
Proof.
  intros [ND INC] If. cbv zeta. unfold forget_recent. cbn [recents mm_set_forgets].
  assert (K : In (f_remote f, f_mid f) (map rkey (recents s))) by (apply INC; apply (in_map fkey); exact If).
  apply existsb_recent in K. rewrite K. split; [reflexivity|].
  unfold G. cbn [fst forgets recents mm_set_recents mm_set_forgets]. split; [apply NoDup_map_filter; exact ND|].
  intros k Hk. apply in_map_iff in Hk. destruct Hk as (g & Eg & Ig). apply filter_In in Ig. destruct Ig as [Ig Hid].
  (* g is another timer than f, so by NoDup its key is another key and survives the pop *)
  assert (Hk : fkey g <> fkey f).
  { intro Q. apply (NoDup_map_inj_in fkey _ g f ND Ig If) in Q. subst g. rewrite Z.eqb_refl in Hid. discriminate. }
  assert (In k (map rkey (recents s))) as Hin by (apply INC; rewrite <- Eg; apply in_map; exact Ig).
  apply in_map_iff in Hin. destruct Hin as (e & Ee & Ie). apply in_map_iff. exists e. split; [exact Ee|].
  apply filter_In. split; [exact Ie|]. destruct (recent_is (f_remote f) (f_mid f) e) eqn:R; [|reflexivity].
  apply recent_is_key in R. exfalso. apply Hk. rewrite Eg, <- Ee, R. reflexivity.
Qed.

Lemma pending_down s : timers s = [] -> pending s = map DForget (forgets s).
Proof. intro H. unfold pending. rewrite H. reflexivity. Qed.

Lemma run_item_down s i : Down s -> G (mm s) -> In i (pending (mm s)) ->
  snd (run_item s i) = [] /\ Down (fst (run_item s i)) /\ G (mm (fst (run_item s i))) /\
  (length (forgets (mm (fst (run_item s i)))) < length (forgets (mm s)))%nat.
Proof.
  intros D Gs I. rewrite (pending_down _ (proj1 (proj2 (proj2 (proj2 D))))) in I.
  apply in_map_iff in I. destruct I as (f & <- & If). unfold run_item.
  set (tau := Z.max (now (mm s)) (f_due f)).
  change (mm_set_now (mm_set_forgets (mm s) (filter (fun g => negb (f_id g =? f_id f)) (forgets (mm s)))) tau)
    with (mm_set_forgets (mm_set_now (mm s) tau) (filter (fun g => negb (f_id g =? f_id f)) (forgets (mm_set_now (mm s) tau)))).
  destruct (forget_fires (mm_set_now (mm s) tau) f Gs If) as [H1 H2]. cbv zeta in H1, H2. rewrite H1 in *.
  split; [reflexivity|]. split; [exact D|]. split; [exact H2|].
  cbn. apply filter_len_lt with f; [exact If|]. rewrite Z.eqb_refl. reflexivity.
Qed.

(* each Fire consumes one of the remaining timers *)
Lemma fire_down s : Down s -> G (mm s) ->
  snd (fire s) = [] /\ Down (fst (fire s)) /\ G (mm (fst (fire s))) /\
  (length (forgets (mm (fst (fire s)))) <= pred (length (forgets (mm s))))%nat.
Proof.
  intros D Gs. unfold fire. destruct (earliest (pending (mm s))) as [i|] eqn:E.
  - destruct (run_item_down s i D Gs (earliest_In _ _ E)) as (A & B & C & L). split; [exact A|split; [exact B|split; [exact C|lia]]].
  - apply earliest_None in E. rewrite (pending_down _ (proj1 (proj2 (proj2 (proj2 D))))) in E. apply map_eq_nil in E.
    cbn [fst snd]. rewrite E. auto.
Qed.

Lemma advance_down fuel : forall s target, Down s -> G (mm s) ->
  snd (advance_to fuel s target) = [] /\ Down (fst (advance_to fuel s target)) /\ G (mm (fst (advance_to fuel s target))).
Proof.
  induction fuel as [|fuel IH]; intros s target D Gs; cbn [advance_to]; [cbn; auto|].
  (* neither Down nor G mentions the clock *)
  pose proof (conj D Gs) as Idle.
  destruct (earliest (pending (mm s))) as [i|] eqn:E; [|cbn [fst snd]; split; [reflexivity|exact Idle]].
  destruct (fst (item_key i) <=? target); [|cbn [fst snd]; split; [reflexivity|exact Idle]].
  apply earliest_In in E. pose proof (run_item_down s i D Gs E) as (R1 & R2 & R3 & _).
  destruct (run_item s i) as [s1 o1]. cbn [fst snd] in *. subst o1.
  specialize (IH s1 target R2 R3). destruct (advance_to fuel s1 target) as [s2 o2]. cbn [fst snd] in *. tauto.
Qed.

Lemma step_down s e : Down s -> G (mm s) -> in_scope e = true ->
  forallb quiet (snd (step s e)) = true /\ Down (fst (step s e)) /\ G (mm (fst (step s e))).
Proof.
  intros D Gs Sc. pose proof D as (D1 & D2 & D3 & D4 & D5 & D6).
  destruct e; try discriminate Sc; cbn [step].
  - (* Fire *) pose proof (fire_down s D Gs) as (A & B & C & _). rewrite A. auto.
  - (* Advance *) pose proof (advance_down ADVANCE_FUEL s (now (mm s) + d) D Gs) as (A & B & C). rewrite A. auto.
  - (* ClientRequest *) rewrite (request_after_shutdown s q r mt observe D2). cbn [fst snd]. split; [destruct observe; reflexivity|auto].
  - (* ClientCancel *) unfold client_cancel. rewrite D2. cbn. destruct s; auto.
  - (* ClientRequestSlow *) cbn. auto.
  - (* Resolved *) destruct (find _ (resolving (tm s))) as [[[[q0 r] mt] ob]|]; [|cbn; auto].
    rewrite request_after_shutdown by exact D2. cbn [fst snd]. split; [destruct ob; reflexivity|auto].
  - (* HandlerRespond *) unfold handler_respond. rewrite D3. cbn. auto.
  - (* HandlerRaise *) unfold handler_respond. rewrite D3. cbn. auto.
  - (* TransportError *) unfold dispatch_error. rewrite D1. cbn. auto.
Qed.

Lemma run_down : forall es s, Down s -> G (mm s) -> forallb in_scope es = true ->
  forallb (forallb quiet) (snd (run s es)) = true /\ Down (fst (run s es)) /\ G (mm (fst (run s es))).
Proof.
  induction es as [|e es IH]; intros s D Gs Sc; cbn [run]; [cbn; auto|].
  cbn [forallb] in Sc. apply andb_true_iff in Sc. destruct Sc as [Se Ses].
  pose proof (step_down s e D Gs Se) as (A & B & C). destruct (step s e) as [s1 o]. cbn [fst snd] in *.
  specialize (IH s1 B C Ses). destruct (run s1 es) as [s2 os]. cbn [fst snd forallb] in *. rewrite A. tauto.
Qed.

(* "leaves nothing running": the only timers left are deduplication expiries; each Fire consumes one, none re-arms *)
Lemma timers_run_out : forall n s, Down s -> G (mm s) -> (length (forgets (mm s)) <= n)%nat ->
  pending (mm (fst (run s (repeat Fire n)))) = [].
Proof.
  induction n as [|n IH]; intros s D Gs L; cbn [repeat run].
  - cbn. rewrite (pending_down _ (proj1 (proj2 (proj2 (proj2 D))))).
    destruct (forgets (mm s)); [reflexivity|cbn in L; lia].
  - cbn [step]. destruct (fire_down s D Gs) as (_ & D1 & G1 & L1). destruct (fire s) as [s1 o1]. cbn [fst] in *.
    assert (L2 : (length (forgets (mm s1)) <= n)%nat) by lia.
    specialize (IH s1 D1 G1 L2). destruct (run s1 (repeat Fire n)). exact IH.
Qed.

(* G holds in every reachable state: only _deduplicate_message adds a (key, pop-timer) pair, only the pop-timer removes
   it; every other move leaves [forgets] and the key set of [recents] alone, which is the frame FR *)
Definition FR (a b : mmst) : Prop := forgets b = forgets a /\ map rkey (recents b) = map rkey (recents a).
Lemma FR_refl a : FR a a. Proof. split; reflexivity. Qed.
Lemma FR_trans a b c : FR a b -> FR b c -> FR a c.
Proof. intros [A1 A2] [B1 B2]. split; congruence. Qed.
Lemma G_FR a b : FR a b -> G a -> G b.
Proof. intros [B1 B2] [A1 A2]. unfold G. rewrite B1, B2. auto. Qed.
Ltac fr := unfold FR; cbn; split; reflexivity.

Lemma FR_cancel s id : FR s (cancel s id). Proof. fr. Qed.
Lemma FR_call_later s d k : FR s (fst (call_later s d k)). Proof. fr. Qed.
Lemma FR_del_backlog s r : FR s (del_backlog s r). Proof. fr. Qed.
Lemma FR_set_backlog_items s r l : FR s (set_backlog_items s r l). Proof. fr. Qed.
Lemma FR_next_mid s : FR s (fst (_next_message_id s)). Proof. fr. Qed.
Lemma FR_pop_exchange s xs r mid x : FR s (pop_exchange s xs r mid x). Proof. fr. Qed.

Lemma FR_store s m : FR s (_store_response_for_duplicates s m).
Proof.
  unfold _store_response_for_duplicates. destruct (negb (is_ack_or_rst (m_type m))); [apply FR_refl|].
  split; [reflexivity|]. cbn. rewrite map_map. apply map_ext. intro e.
  destruct (recent_is (m_remote m) (m_mid m) e); reflexivity.
Qed.

Lemma FR_add_exchange s m mon : FR s (fst (_add_exchange s m mon)).
Proof.
  unfold _add_exchange, _schedule_retransmit, call_later.
  destruct (has_backlog s (m_remote m)); cbn; destruct (exchanges s); fr.
Qed.

Lemma FR_send_initially s m mon : FR s (fst (_send_initially s m mon)).
Proof.
  unfold _send_initially. destruct (m_type m); try (cbn [fst]; apply FR_store).
  pose proof (FR_add_exchange s m mon) as H. destruct (_add_exchange s m mon) as [s1 o1]. cbn [fst] in H.
  destruct o1; cbn [fst]; [|exact H]. eapply FR_trans; [exact H|apply FR_store].
Qed.

Lemma FR_piggyback s m : FR s (_process_request_piggyback s m).
Proof.
  unfold _process_request_piggyback. destruct (m_type m); try apply FR_refl.
  unfold call_later. cbn.
  match goal with |- context [find ?p ?l] => destruct (find p l) end; fr.
Qed.

Lemma FR_on_timeout s r tok : FR s (fst (on_timeout s r tok)).
Proof.
  unfold on_timeout. destruct (find (piggy_is r tok) (piggys s)); [|apply FR_refl].
  eapply FR_trans; [|apply FR_send_initially]. fr.
Qed.

Lemma FR_mm_shutdown s : FR s (fst (mm_shutdown s)).
Proof.
  unfold mm_shutdown. destruct (exchanges s) as [xs|]; [|apply FR_refl]. cbv zeta. cbn [fst].
  rewrite (fold_cancel_eq p_timer), (fold_cancel_eq x_timer). fr.
Qed.

(* insertion of a fresh key together with its pop-timer *)
Lemma G_remember s r mid : find (recent_is r mid) (recents s) = None -> G s ->
  G (mm_set_recents (call_later_forget s EXCHANGE_LIFETIME r mid)
       (recents (call_later_forget s EXCHANGE_LIFETIME r mid) ++ [{| r_remote := r; r_mid := mid; r_stored := None |}])).
Proof.
  intros F [ND INC]. unfold G, call_later_forget. cbn.
  assert (NI : ~ In (r, mid) (map rkey (recents s))).
  { intro I. apply existsb_recent in I. apply existsb_exists in I. destruct I as (e & Ie & He).
    pose proof (find_none _ _ F e Ie). congruence. }
  rewrite !map_app. cbn [map]. fold (fkey {| f_due := now s + EXCHANGE_LIFETIME; f_id := next_tid s; f_remote := r; f_mid := mid |}).
  change (fkey _) with (r, mid) at 1 2. change (rkey {| r_remote := r; r_mid := mid; r_stored := None |}) with (r, mid).
  split.
  - apply NoDup_snoc; [exact ND|]. intro I. apply NI. apply INC. exact I.
  - apply incl_app; [apply incl_appl; exact INC|apply incl_appr; apply incl_refl].
Qed.

Lemma G_move a b : mm_move a b -> G a -> G b.
Proof.
  intros M Ga.
  destruct M as [s t|s id|s xs r mid x E F|s|s r tok p F|s r items m mon B R|s m mon Hb|s xs r m mon rest E Hx B|s xs r E Hx
                |s e old I S|s r mid F s1|s m|s xs r E|s xs m timeout count x E F p|s xs r mid x E F|s t r tok It K|s f If];
    [| | | | | | | | | |exact (G_remember s r mid F Ga)| | | | | |apply forget_fires; assumption]; refine (G_FR _ _ _ Ga).
  (* all frames but mv_remember and mv_expire *)
  - (* mv_now *) fr.
  - (* mv_cancel *) apply FR_cancel.
  - (* mv_pop *) apply FR_pop_exchange.
  - (* mv_next_mid *) apply FR_next_mid.
  - (* mv_pop_piggy *) fr.
  - (* mv_queue *) apply FR_set_backlog_items.
  - (* mv_send *) apply FR_send_initially.
  - (* mv_unqueue *) exact (FR_trans _ _ _ (FR_set_backlog_items s r rest) (FR_send_initially _ m mon)).
  - (* mv_del_backlog *) apply FR_del_backlog.
  - (* mv_resend *) apply FR_send_initially.
  - (* mv_piggyback *) apply FR_piggyback.
  - (* mv_error *) rewrite fold_cancel_eq. fr.
  - (* mv_rearm *) subst p. eapply FR_trans; [apply (FR_pop_exchange s xs (m_remote m) (m_mid m) x)|]. fr.
  - (* mv_giveup *) eapply FR_trans; [apply (FR_pop_exchange s xs r mid x)|apply FR_del_backlog].
  - (* mv_empty_ack *) eapply FR_trans; [apply (FR_cancel s (t_id t))|apply FR_on_timeout].
Qed.

Lemma G_step s e : G (mm s) -> G (mm (fst (step s e))).
Proof.
  intro Gs. destruct e; try (apply (step_moves G G_move); [discriminate|exact Gs]).
  cbn [step]. unfold shutdown. destruct (tm_shutdown_incoming (tm s)) as [tm1 o1]. destruct (tm_shutdown_outgoing _ tm1) as [tm2 o2].
  pose proof (FR_mm_shutdown (mm s)) as H. destruct (mm_shutdown (mm s)) as [mm1 o3]. exact (G_FR _ _ H Gs).
Qed.

Lemma G_init u m t : G (mm (init u m t)).
Proof. unfold G; cbn. split; [constructor|intros ? []]. Qed.
Lemma reachable_G es u m t : G (mm (fst (run (init u m t) es))).
Proof. apply (run_invariant (fun s => G (mm s))); [intros s e _; apply G_step|apply G_init]. Qed.

(* two contexts side by side: each runs as if alone on the events addressed to it *)
Fixpoint outputs_of (c : bool) (es : list (bool * event)) (os : list (list output)) : list (list output) :=
  match es, os with
  | ce :: es', o :: os' => if Bool.eqb (fst ce) c then o :: outputs_of c es' os' else outputs_of c es' os'
  | _, _ => []
  end.

Lemma run2_split : forall es a b,
  fst (run2 (a, b) es) = (fst (run a (events_of false es)), fst (run b (events_of true es))) /\
  outputs_of false es (snd (run2 (a, b) es)) = snd (run a (events_of false es)) /\
  outputs_of true es (snd (run2 (a, b) es)) = snd (run b (events_of true es)).
Proof.
  induction es as [|[c e] es IH]; intros a b; [cbn; auto|].
  unfold events_of in *. cbn [run2 step2 fst snd filter Bool.eqb map run outputs_of]. destruct c; cbn [fst snd Bool.eqb map run].
  - destruct (step b e) as [b' o]. destruct (IH a b') as (I0 & I1 & I2). destruct (run2 (a, b') es) as [p2 os].
    destruct (run b' _). cbn [fst snd] in *. rewrite I0, I1, I2. auto.
  - destruct (step a e) as [a' o]. destruct (IH a' b) as (I0 & I1 & I2). destruct (run2 (a', b) es) as [p2 os].
    destruct (run a' _). cbn [fst snd] in *. rewrite I0, I1, I2. auto.
Qed.
(* F13 (repaired in /repo by 9f0e20f): a CON request whose empty-ACK timer is pending at shutdown; see C18_f13_refuted *)
Definition f13_history : list event :=
  [Recv {| m_type := CON; m_code := GET; m_mid := 100; m_token := 7; m_obs := None; m_remote := 1 |}].

(* the run-time check [orphans] decides [timers_owned] *)
Lemma orphans_zero s : orphans s = 0 -> timers_owned s.
Proof.
  unfold orphans, timers_owned. intros H t It.
  set (xs := match exchanges s with Some xs => xs | None => [] end) in *.
  set (owned := fun t => existsb (fun x => x_timer x =? t_id t) xs || existsb (fun p => p_timer p =? t_id t) (piggys s)).
  assert (O : owned t = true).
  { destruct (owned t) eqn:O; [reflexivity|exfalso].
    pose proof (proj2 (filter_In (fun t => negb (owned t)) t (timers s)) (conj It (f_equal negb O))) as F.
    destruct (filter _ (timers s)); [exact F|cbn in H; lia]. }
  apply orb_true_iff in O. destruct O as [O|O]; [left|right]; apply existsb_exists in O; destruct O as (y & Iy & Hy);
    apply Z.eqb_eq in Hy; rewrite <- Hy; apply in_map; exact Iy.
Qed.

(* non-vacuity of the hypotheses of the shutdown theorems *)
Definition busy_history : list event :=
  [ ClientRequest 1 1 CON true;                                                              (* observation, established below *)
    Recv {| m_type := CON; m_code := GET; m_mid := 100; m_token := 7; m_obs := Some 0; m_remote := 1 |};   (* handler 0, empty-ACK timer *)
    ClientRequest 2 1 CON false;                                                             (* queued behind request 1 (NSTART) *)
    Recv {| m_type := ACK; m_code := 69; m_mid := 0; m_token := 1; m_obs := Some 4; m_remote := 1 |};     (* first notification; releases request 2 *)
    Recv {| m_type := NON; m_code := GET; m_mid := 200; m_token := 8; m_obs := None; m_remote := 2 |};    (* handler 1 *)
    ClientRequest 3 2 NON false;                                                             (* awaiting a response, no exchange *)
    ClientRequest 4 1 CON true;                                                              (* backlog behind request 2 *)
    Advance 100000;                                                                          (* empty ACK for handler 0 *)
    HandlerRespond 0 69 false (Some 1) false;                                                      (* separate CON response: exchange with a server-side monitor; queued behind request 2 *)
    Recv {| m_type := CON; m_code := GET; m_mid := 101; m_token := 9; m_obs := None; m_remote := 3 |} ].  (* handler 2, empty-ACK timer pending *)
Definition busy_state : st := fst (run (init 2000000 0 0) busy_history).
