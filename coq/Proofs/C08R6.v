(* C08 — the invariants of a reachable state ([reach]); a notification marked last / unsuccessful ends the registration at the
   level of the trigger EVENT (step), not of the task's helper functions. *)
From Coq Require Import Permutation.
From Verif Require Import Lib.Py Lib.Tactics Model.C08 Proofs.C08 Proofs.C08Silent Proofs.C08Ends Proofs.C08Observe Proofs.C08Wire Proofs.C08Latest.
Open Scope Z_scope.

Lemma reach mid0 es : let s := run (init mid0) es in FI None s /\ InvA (abs s) /\ s_cancelq s = [] /\ LV s.
Proof. apply (run_invariants es (init mid0) (FI_init mid0) (InvA_init mid0) eq_refl (LV_init mid0)). Qed.
Lemma reach_rng mid0 es g0 : In g0 (s_regs (run (init mid0) es)) -> 0 <= g_gid g0 < s_gidctr (run (init mid0) es).
Proof. intros H. destruct (reach mid0 es) as ([HG _] & _). apply (g_rng _ HG). exact H. Qed.

Lemma a_flush_ctr b : a_ctr (a_flush b) = a_ctr b.
Proof. unfold a_flush. cbn [a_ctr a_setcq]. apply (fold_left_pres (fun b' => a_ctr b' = a_ctr b)); [|reflexivity]. intros b' g E. exact E. Qed.
Lemma areach_ctr a b : areach a b -> a_ctr a <= a_ctr b.
Proof. intros H. induction H; try rewrite a_flush_ctr; cbn [a_ctr a_accept a_stop a_end a_cancel a_unreg]; lia. Qed.
(* the woken task of a registration whose pending value is final ends it *)
Definition final_pending (tv : tval) (g1 : reg) : Prop :=
  g_trig g1 = Some tv /\ (g_late g1 = true \/ exists code k, tv = TResp code k /\ successful code = false).
Lemma run_final tv s g1 : final_pending tv g1 -> (tv = TRender -> s_gate s = false) -> ~ live (g_gid g1) (run_loop 2 s g1).
Proof.
  intros [Ht Hc] Hg. cbn [run_loop]. rewrite Ht. destruct tv as [|code k]; rewrite after_response_respond.
  - set (s1 := log s _). assert (G1 : s_gate s1 = false) by (apply Hg; reflexivity). rewrite G1.
    apply (ends_on_respond _ _ _ s1 (set_trig g1 None (g_late g1))). destruct Hc as [Hl|(c & k & E & _)]; [|discriminate].
    destruct (render_outcome _ _); [cbn; rewrite Hl; reflexivity | exact I].
  - apply (ends_on_respond _ _ _ s (set_trig g1 None (g_late g1))). cbn [g_late set_trig]. destruct Hc as [Hl|(c & k' & E & Hs)]; [rewrite Hl; reflexivity|].
    inversion E; subst. rewrite Hs. apply orb_true_r.
Qed.
Lemma wake_final tv G l : forall s, FI None s -> (tv = TRender -> s_gate s = false) ->
  (exists g1, In g1 (s_regs s) /\ g_gid g1 = G /\ final_pending tv g1) -> In G l -> ~ live G (wake l s).
Proof.
  induction l as [|x l IH]; intros s HF Hg (g1 & Hi & Eg & Hp) Hin; [destruct Hin|].
  change (wake (x :: l) s) with (wake l (match find_reg s x with Some g => run_loop 2 s g | None => s end)).
  destruct (Z.eq_dec x G) as [->|Hne].
  - rewrite <- Eg, (find_reg_of_In s g1 (g_nd s (proj1 HF)) Hi).
    assert (Hnl : ~ live (g_gid g1) (run_loop 2 s g1)) by (apply (run_final tv); auto).
    assert (Ok : okreg (g_gid g1) (run_loop 2 s g1)).
    { split; [exact Hnl|]. destruct (task_entry s g1 HF Hi) as (A & B & C & D).
      pose proof (g_rng s (proj1 HF) g1 Hi) as R. pose proof (run_loop_FI 0 s g1 A B C) as HF2.
      (* the counter does not shrink: it is only read through the range of live entries, so use the abstract machine *)
      pose proof (areach_run_loop 2 s g1 (in_map g_gid _ _ Hi)) as AR. apply areach_ctr in AR. cbn [abs a_ctr] in AR. lia. }
    apply (q_ok (fun _ => True) _ _ _ (Q_wake _ _ l _ Ok)).
  - destruct Hin as [E|Hin]; [congruence|].
    destruct (find_reg s x) as [gx|] eqn:Ex; [|apply IH; auto; exists g1; auto].
    apply find_reg_In in Ex as [Exi Exg]. destruct (task_entry s gx HF Exi) as (A & B & C & D).
    destruct (tf_run_loop 2 s gx) as [O2 O1].
    apply IH; [apply (run_loop_FI 0); assumption | rewrite (k_gate _ _ O2); exact Hg | | exact Hin].
    exists g1. split; [apply O1; [congruence | exact Hi] | auto].
Qed.

Lemma ends_on_trigger_event mid0 es g0 perm tv l : let s := run (init mid0) es in
  In g0 (s_regs s) -> g_phase g0 = PWait -> (tv = TRender -> s_gate s = false) ->
  (l = true \/ exists code k, tv = TResp code k /\ successful code = false) ->
  ~ live (g_gid g0) (step s (ETrigger perm [(tv, l)])).
Proof.
  intros s Hi Hp Hg Hc. destruct (reach mid0 es) as (HF & HA & Hq & _). fold s in HF, HA, Hq.
  pose proof (gids_observers s HA Hq) as Ho.
  pose proof (g_nd s (proj1 HF)) as Hn.
  cbn [step]. set (order := pick_order perm (s_observers s)). set (waiting := filter (is_waiting s) order).
  assert (Hord : In (g_gid g0) order).
  { apply (Permutation_in _ (Permutation_sym (pick_order_perm perm (s_observers s)))). rewrite <- Ho. apply in_map. exact Hi. }
  assert (Hw : In (g_gid g0) waiting).
  { apply filter_In. split; [exact Hord|]. unfold is_waiting. rewrite (find_reg_of_In s g0 Hn Hi), Hp. reflexivity. }
  set (s1 := trigger_burst order [(tv, l)] s).
  assert (HF1 : FI None s1) by (apply trigger_burst_FI; exact HF).
  assert (C : s_regs s1 = map (fun g => trig_round order g (tv, l)) (s_regs s)) by (apply (regs_trigger_burst order [(tv, l)] s Hn)).
  assert (G1 : s_gate s1 = s_gate s).
  { unfold s1, trigger_burst. cbn [fold_left fst snd]. apply (fold_left_pres (fun s' => s_gate s' = s_gate s)); [|reflexivity].
    intros s' x E. unfold trigger. destruct (find_reg s' x); exact E. }
  assert (Hlive : ~ live (g_gid g0) (wake waiting s1)).
  { apply (wake_final tv); [exact HF1 | intros E; rewrite G1; apply Hg; exact E | | exact Hw].
    eexists. split; [rewrite C; apply in_map; exact Hi | unfold trig_round; rewrite (proj2 (memZ_In _ _) Hord); split; [reflexivity | split; [reflexivity|]]].
    destruct Hc as [->|Hx]; [left; apply orb_true_r | right; exact Hx]. }
  assert (Ok : okreg (g_gid g0) (wake waiting s1)).
  { split; [exact Hlive|]. pose proof (reach_rng mid0 es g0 Hi) as R. fold s in R.
    assert (AR : areach (abs s) (abs (wake waiting s1))).
    { eapply areach_trans; [|apply areach_wake]. unfold s1. rewrite abs_trigger_burst. constructor. }
    apply areach_ctr in AR. cbn [abs a_ctr] in AR. lia. }
  apply (q_ok (fun _ => True) _ _ _ (Q_flush _ _ _ Ok)).
Qed.
