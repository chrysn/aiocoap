(* C03 -- a request fails at most once: every action of the message layer on the token manager (Proofs/C03tm.v) fails only pending
   requests, each at most once, and removes them from the table *)
From Verif Require Import Lib.Py Lib.PyLemmas Lib.Tactics Model.C03 Proofs.C03 Proofs.C03struct Proofs.C03hist Proofs.C03main Proofs.C03tm.
Open Scope Z_scope.

Fixpoint fails (rid : Z) (o : list output) : nat :=
  match o with
  | [] => O
  | OFail _ x _ :: r => if x =? rid then S (fails rid r) else fails rid r
  | _ :: r => fails rid r
  end.
Lemma fails_app : forall rid a b, fails rid (a ++ b) = (fails rid a + fails rid b)%nat.
Proof. induction a as [|x a IH]; intros b; cbn; auto. destruct x; auto. destruct (rid0 =? rid); cbn; rewrite IH; auto. Qed.
Lemma fails_none : forall rid o, no_fail o -> fails rid o = O.
Proof.
  induction o as [|x o IH]; intros H; [reflexivity|]. assert (IH' : fails rid o = O) by (apply IH; intros t y e Hi; apply (H t y e); right; exact Hi).
  destruct x; try exact IH'. exfalso. eapply H. left. reflexivity.
Qed.

Definition pending (rid : Z) (st : state) : Prop := In rid (map fst (outgoing_requests st)).
Definition nd (st : state) : Prop := NoDup (map fst (outgoing_requests st)).

(* [o] fails each request at most once, only requests of [was], and a failed request is not pending in [st'] *)
Definition once_of (was : Z -> Prop) (st' : state) (o : list output) : Prop :=
  forall rid, (fails rid o <= 1)%nat /\ (fails rid o = 1%nat -> was rid /\ ~ pending rid st').
(* the function only removes pending requests, and fails only pending ones, each once, removing them *)
Definition once (st : state) (res : state * list output) : Prop :=
  nd st -> nd (fst res) /\ incl (outgoing_requests (fst res)) (outgoing_requests st) /\
  once_of (fun rid => pending rid st) (fst res) (snd res).

Lemma pending_incl : forall rid st st', incl (outgoing_requests st') (outgoing_requests st) -> pending rid st' -> pending rid st.
Proof. unfold pending. intros rid st st' Hi Hp. apply in_map_iff in Hp. destruct Hp as [p [Hp Hin]]. apply in_map_iff. exists p. auto. Qed.

Lemma once_quiet : forall st st' o (f : Z * Z -> bool), outgoing_requests st' = filter f (outgoing_requests st) -> no_fail o -> once st (st', o).
Proof.
  intros st st' o f E Ho Hn. cbn. unfold nd in *. rewrite E. splits; [apply NoDup_map_filter; auto|apply incl_filter|].
  intros rid. rewrite (fails_none rid o Ho). split; [lia|discriminate].
Qed.

Lemma once_fail : forall st st' t rid e, pending rid st -> outgoing_requests st' = filter (fun q => negb (fst q =? rid)) (outgoing_requests st) ->
  once st (st', [OFail t rid e]).
Proof.
  intros st st' t rid e Hp Eo Hn. unfold nd, pending in *. cbn [fst snd]. rewrite Eo. splits; [apply NoDup_map_filter; auto|apply incl_filter|].
  intros x. cbn. destruct (rid =? x) eqn:Ex; [|split; [lia|discriminate]].
  apply Z.eqb_eq in Ex. subst x. split; [lia|]. intros _. split; [exact Hp|].
  intros Hi. apply in_map_iff in Hi. destruct Hi as [p [Hp' Hin]]. rewrite Eo in Hin. apply (in_filter_ne fst) in Hin. tauto.
Qed.

Lemma fails_map : forall (l : list (Z * Z)) t e (rid : Z), fails rid (map (fun q => OFail t (fst q) e) l) = length (filter (fun q : Z * Z => (fst q =? rid)%Z) l).
Proof. induction l as [|a l IH]; intros; cbn; auto. destruct (fst a =? rid); cbn; rewrite IH; auto. Qed.
Lemma nodup_fst_count : forall (l : list (Z * Z)) (rid : Z), NoDup (map fst l) -> (length (filter (fun q : Z * Z => (fst q =? rid)%Z) l) <= 1)%nat.
Proof.
  induction l as [|a l IH]; intros rid N; cbn; [lia|]. apply NoDup_cons_iff in N. destruct N as [Hn Hd]. specialize (IH rid Hd).
  destruct (fst a =? rid) eqn:E; cbn; [|lia]. apply Z.eqb_eq in E.
  destruct (filter (fun q => fst q =? rid) l) as [|b m] eqn:F; cbn; [lia|]. exfalso. apply Hn.
  assert (In b (filter (fun q => fst q =? rid) l)) by (rewrite F; left; reflexivity). apply filter_In in H. destruct H as [Hb Hf]. apply Z.eqb_eq in Hf.
  rewrite E, <- Hf. apply in_map. exact Hb.
Qed.

(* the table has each request id once, so each request towards the remote fails once *)
Lemma once_dispatch : forall st st' t e r, outgoing_requests st' = filter (fun q => negb (snd q =? r)) (outgoing_requests st) ->
  once st (st', map (fun q => OFail t (fst q) e) (filter (fun q => snd q =? r) (outgoing_requests st))).
Proof.
  intros st st' t e r Eo Hn. unfold nd, pending in *. cbn [fst snd]. rewrite Eo. splits; [apply NoDup_map_filter; auto|apply incl_filter|]. intros rid. rewrite fails_map.
  pose proof (nodup_fst_count (filter (fun q => snd q =? r) (outgoing_requests st)) rid (NoDup_map_filter fst _ _ Hn)) as Hc. split; [exact Hc|].
  intros E. destruct (filter (fun q => fst q =? rid) (filter (fun q => snd q =? r) (outgoing_requests st))) as [|p m] eqn:F; [discriminate|].
  assert (Hp : In p (filter (fun q => fst q =? rid) (filter (fun q => snd q =? r) (outgoing_requests st)))) by (rewrite F; left; reflexivity).
  apply filter_In in Hp. destruct Hp as [Hp Hf]. apply filter_In in Hp. destruct Hp as [Hin Hs]. apply Z.eqb_eq in Hf. apply Z.eqb_eq in Hs.
  split; [apply in_map_iff; exists p; auto|].
  intros Hi. apply in_map_iff in Hi. destruct Hi as [p' [Hp' Hin']]. rewrite Eo in Hin'. apply (in_filter_ne snd) in Hin'. destruct Hin' as [Hin' Hs'].
  assert (p' = p) as -> by (apply (NoDup_map_inj_in fst (outgoing_requests st)); auto; congruence). auto.
Qed.

(* a request that failed in [o1] is no longer pending, so [o2] does not fail it again *)
Lemma once_of_seq : forall was st1 o1 st2 o2, once_of was st1 o1 -> once_of (fun rid => pending rid st1) st2 o2 ->
  incl (outgoing_requests st2) (outgoing_requests st1) -> (forall rid, pending rid st1 -> was rid) -> once_of was st2 (o1 ++ o2).
Proof.
  intros was st1 o1 st2 o2 F1 F2 I2 Hw rid. rewrite fails_app. destruct (F1 rid) as [A1 B1]. destruct (F2 rid) as [A2 B2].
  assert (fails rid o1 = 1%nat -> fails rid o2 = O).
  { intros E. destruct (B1 E) as [_ Hnp]. destruct (fails rid o2) eqn:E2; auto. assert (n = O) by lia. subst. exfalso. apply Hnp. apply (B2 eq_refl). }
  split; [lia|]. intros E. destruct (fails rid o1) eqn:E1.
  - destruct (B2 E) as [P Q]. split; auto.
  - assert (n = O) by lia. subst. destruct (B1 eq_refl) as [P Q]. split; auto. intros Hp. apply Q. eapply pending_incl; eauto.
Qed.

Lemma once_seq : forall st st1 o1 st2 o2, once st (st1, o1) -> once st1 (st2, o2) -> once st (st2, o1 ++ o2).
Proof.
  intros st st1 o1 st2 o2 H1 H2 Hn. destruct (H1 Hn) as (N1 & I1 & F1). destruct (H2 N1) as (N2 & I2 & F2). cbn in *.
  splits; auto; [eapply incl_tran; eauto|]. apply (once_of_seq _ st1); auto. intros rid. apply pending_incl. exact I1.
Qed.

Lemma acts_once : forall st res, tm_acts st res -> once st res.
Proof.
  induction 1 as [st st' f o Eo _ Hn|st st' t rid e _ Hp Eo _|st st' t e r _ Eo _|st st1 o1 st2 o2 _ IH1 _ IH2].
  - exact (once_quiet _ _ _ _ Eo Hn).
  - exact (once_fail _ _ _ _ _ Hp Eo).
  - exact (once_dispatch _ _ _ _ _ Eo).
  - exact (once_seq _ _ _ _ _ IH1 IH2).
Qed.

Definition OnceInv (seen : list Z) (st : state) (tr : list output) : Prop :=
  nd st /\ (forall rid, pending rid st -> In rid seen) /\ once_of (fun rid => In rid seen) st tr.

Lemma once_inv_step : forall seen st tr st' o, OnceInv seen st tr -> once st (st', o) -> OnceInv seen st' (tr ++ o).
Proof.
  intros seen st tr st' o (Hn & Hp & Hf) H. destruct (H Hn) as (N1 & I1 & F1). cbn in *. unfold OnceInv. splits; auto.
  - intros rid Hr. apply Hp. eapply pending_incl; eauto.
  - apply (once_of_seq _ st); auto.
Qed.

Lemma step_once_inv : forall seen st tr e st' o, OnceInv seen st tr -> wf_event seen e -> step st e = (st', o) ->
  OnceInv (seen_after seen e) st' (tr ++ o).
Proof.
  intros seen st tr e st' o I W H. pose proof (acts_step st e) as A. rewrite H in A.
  destruct e as [rid r tn|r b mid|t| | |r|rid|r ty mid rid|r on]; cbn [seen_after]; try exact (once_inv_step _ _ _ _ _ I (acts_once _ _ A)).
  - (* ERequest: registered first; its id is fresh *)
    destruct W as [Wf _]. refine (once_inv_step _ _ _ _ _ _ (acts_once _ _ A)). destruct I as (Hn & Hp & Hf).
    assert (Hpe : forall x, pending x (set_outgoing st (outgoing_requests st ++ [(rid, r)])) <-> pending x st \/ x = rid).
    { intros x. unfold pending. cbn. rewrite map_app, in_app_iff. cbn. intuition. }
    unfold OnceInv. splits.
    + unfold nd. cbn. rewrite map_app. cbn. apply NoDup_snoc; [exact Hn|]. intros Hi. apply Wf. apply Hp. exact Hi.
    + intros x Hx. apply Hpe in Hx. destruct Hx as [Hx|Hx]; [right; auto|left; auto].
    + intros x. destruct (Hf x) as [A' B]. split; auto. intros E. destruct (B E) as [P Q]. split; [right; exact P|].
      intros Hx. apply Hpe in Hx. destruct Hx as [Hx|Hx]; auto. subst x. auto.
  - cbn [step] in H. unfold mm_dispatch_error, tm_dispatch_error in H. inv H. apply (once_inv_step _ _ _ _ _ I). apply once_dispatch. reflexivity.
  - inv H. apply (once_inv_step _ _ _ _ _ I). apply (once_quiet st _ [] (fun _ => true)); [cbn; rewrite filter_true; reflexivity|apply no_fail_nil].
Qed.

Lemma run_once_inv : forall evs seen st tr st' os, OnceInv seen st tr -> wf_events seen evs -> run st evs = (st', os) ->
  OnceInv (seen_all seen evs) st' (tr ++ concat os).
Proof.
  induction evs as [|e evs IH]; intros seen st tr st' os I W H; cbn in H.
  - inv H. cbn. rewrite app_nil_r. exact I.
  - destruct (step st e) as [st1 o] eqn:E. destruct (run st1 evs) as [st2 os2] eqn:R. inv H. destruct W as [W1 W2].
    cbn. rewrite app_assoc. eapply IH; eauto. eapply step_once_inv; eauto.
Qed.

Lemma final_once_inv : forall mid0 draws evs, wf_run draws evs ->
  OnceInv (seen_all [] evs) (final_of mid0 draws evs) (trace_of mid0 draws evs).
Proof.
  intros mid0 draws evs [_ W]. unfold final_of, trace_of. destruct (run (init mid0 draws) evs) as [st' os] eqn:R.
  assert (I0 : OnceInv [] (init mid0 draws) []).
  { unfold OnceInv. splits; cbn; [constructor|intros x []|]. intros x. cbn. split; [lia|discriminate]. }
  exact (run_once_inv evs [] _ [] st' os I0 W R).
Qed.

(* a request fails at most once: over every well-formed run (refusing transports, transport errors, RST, give-up, collateral
   failures of the remote's other requests included), the trace has at most one OFail per request id *)
Lemma request_fails_at_most_once : forall mid0 draws evs rid, wf_run draws evs -> (fails rid (trace_of mid0 draws evs) <= 1)%nat.
Proof. intros mid0 draws evs rid W. destruct (final_once_inv mid0 draws evs W) as (_ & _ & Hf). apply Hf. Qed.

(* two failure outputs of one request count twice *)
Lemma fails_two : forall rid o t1 e1 t2 e2 a b c, o = a ++ OFail t1 rid e1 :: b ++ OFail t2 rid e2 :: c -> (2 <= fails rid o)%nat.
Proof. intros. subst. rewrite fails_app. cbn. rewrite Z.eqb_refl, fails_app. cbn. rewrite Z.eqb_refl. lia. Qed.
