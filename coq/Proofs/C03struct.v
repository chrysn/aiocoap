(* C03 — the structural invariant [Struct] of the retransmission model (NSTART relation between _active_exchanges and _backlogs,
   well-formed closures, request ids used once) and, per function of the model, its preservation together with the shape of the
   resulting state; no internal exception *)
From Verif Require Import Lib.Py Lib.PyLemmas Lib.Tactics Model.C03 Proofs.C03.
Open Scope Z_scope.

Definition wf_tuning (tn : tuning) : Prop :=
  0 < ACK_TIMEOUT tn /\ 0 < ARF_den tn /\ ARF_den tn <= ARF_num tn /\ 0 <= MAX_RETRANSMIT tn.
(* the initial timeout lies in [ACK_TIMEOUT, ACK_TIMEOUT * ACK_RANDOM_FACTOR] *)
Definition range (tn : tuning) (t : Z) : Prop :=
  ACK_TIMEOUT tn <= t /\ t * ARF_den tn <= ACK_TIMEOUT tn * ARF_num tn.

Definition entry_ok (seen : list Z) (st : state) (e : exch) : Prop :=
  let h := e_timer e in let m := h_message h in
  fst e = (m_remote m, m_mid m) /\ fst (snd e) = m_rid m /\ wf_tuning (m_tuning m) /\
  0 <= h_counter h <= MAX_RETRANSMIT (m_tuning m) /\ now st <= h_due h /\ 0 < h_timeout h /\
  In (m_rid m) seen.
Definition bmsg_ok (seen : list Z) (st : state) (r : Z) (p : message * Z) : Prop :=
  m_remote (fst p) = r /\ snd p = m_rid (fst p) /\ wf_tuning (m_tuning (fst p)) /\ In (m_rid (fst p)) seen.
Definition back_ok (seen : list Z) (st : state) (b : bent) : Prop := Forall (bmsg_ok seen st (fst b)) (snd b).
Definition q_rids (q : list (message * Z)) : list Z := map (fun p => m_rid (fst p)) q.
Definition back_rids (l : list bent) : list Z := flat_map (fun b => q_rids (snd b)) l.

Definition live_rids (st : state) : list Z := map e_rid (active_exchanges st) ++ back_rids (backlogs st).

Record Struct (seen : list Z) (st : state) : Prop := {
  s_ex : Forall (entry_ok seen st) (active_exchanges st);
  s_ex_nodup : NoDup (map e_remote (active_exchanges st));
  s_bl : Forall (back_ok seen st) (backlogs st);
  s_bl_nodup : NoDup (map fst (backlogs st));
  s_live : NoDup (live_rids st);
  s_nstart : forall r, in_backlogs st r = has_exchange_with st r;
  s_rng : Forall (fun n => 0 <= n <= RNG_DEN) (rng st) }.

(* [proj]: the projections of the [set_*] updates *)
Ltac proj := cbn [now next_seq message_id active_exchanges backlogs outgoing_requests rng refusing set_exchanges set_backlogs set_outgoing set_now set_refusing fst snd] in *.
Ltac splits := repeat match goal with |- _ /\ _ => split end.

Definition no_error (o : list output) : Prop := forall t e, ~ In (OError t e) o.

Lemma in_backlogs_iff : forall st r, in_backlogs st r = true <-> In r (map fst (backlogs st)).
Proof.
  intros. unfold in_backlogs. destruct (qget r (backlogs st)) eqn:E.
  - split; auto. intros _. apply qget_in in E. change r with (fst (r, l)). apply in_map. exact E.
  - apply qget_none in E. split; [discriminate | tauto].
Qed.

Lemma uniform_range : forall st tn v st', wf_tuning tn -> Forall (fun n => 0 <= n <= RNG_DEN) (rng st) ->
  uniform st (ACK_TIMEOUT tn) (ACK_TIMEOUT tn * ARF_num tn / ARF_den tn) = (v, st') ->
  range tn v /\ Forall (fun n => 0 <= n <= RNG_DEN) (rng st') /\
  now st' = now st /\ next_seq st' = next_seq st /\ message_id st' = message_id st /\ active_exchanges st' = active_exchanges st /\
  backlogs st' = backlogs st /\ outgoing_requests st' = outgoing_requests st /\ refusing st' = refusing st.
Proof.
  intros st tn v st' [HA [Hd [Hn HR]]] Hr H. unfold uniform in H. inv H. cbn.
  set (n := match rng st with [] => 0 | n :: _ => n end).
  assert (0 <= n <= RNG_DEN) as Hn' by (subst n; destruct (rng st); [unfold RNG_DEN; lia | inv Hr; auto]).
  set (hi := ACK_TIMEOUT tn * ARF_num tn / ARF_den tn).
  assert (Hlo : ACK_TIMEOUT tn <= hi) by (apply Z.div_le_lower_bound; nia).
  assert (Hhi : hi * ARF_den tn <= ACK_TIMEOUT tn * ARF_num tn) by (subst hi; rewrite Z.mul_comm; apply Z.mul_div_le; lia).
  assert (Hd1 : 0 <= (hi - ACK_TIMEOUT tn) * n / RNG_DEN <= hi - ACK_TIMEOUT tn).
  { unfold RNG_DEN in *. split; [apply Z.div_pos; nia|apply Z.div_le_upper_bound; nia]. }
  repeat split; auto; try nia.
  destruct (rng st); cbn; auto. inv Hr; auto.
Qed.

Lemma qdel_notin : forall r (l : list bent), ~ In r (map fst l) -> qdel r l = l.
Proof.
  induction l as [|a l IH]; cbn; intros H; auto.
  destruct (fst a =? r) eqn:E; cbn.
  - apply Z.eqb_eq in E. tauto.
  - f_equal. apply IH. tauto.
Qed.
Lemma xdel_notin : forall k (l : list exch), (forall e, In e l -> fst e <> k) -> xdel k l = l.
Proof.
  unfold xdel. induction l as [|a l IH]; cbn; intros H; auto.
  assert (key_eqb (fst a) k = false) as -> by (apply key_eqb_false; auto). cbn. f_equal. apply IH. auto.
Qed.
Lemma entry_ok_frame : forall seen st st' e, now st' <= now st ->
  entry_ok seen st e -> entry_ok seen st' e.
Proof.
  unfold entry_ok. intros seen st st' e Hn H. decompose [and] H. splits; auto; try lia.
Qed.

(* the handle loop.call_later(t, retr) returns in [st], [retr] closing over (m, t, c) *)
Definition mk_timer (st : state) (m : message) (t c : Z) : timer :=
  {| h_due := now st + t; h_seq := next_seq st; h_message := m; h_timeout := t; h_counter := c |}.
Definition rng_ok (st : state) : Prop := Forall (fun n => 0 <= n <= RNG_DEN) (rng st).

(* [Struct] in the middle of a function, where it is broken for exactly the remote [r]: no exchange with [r], with or without a
   backlog for it, and the message of request [rid], which is nowhere in the message layer, is about to get one *)
Record Open (seen : list Z) (st : state) (r rid : Z) : Prop := {
  o_ex : Forall (entry_ok seen st) (active_exchanges st);
  o_ex_nodup : NoDup (map e_remote (active_exchanges st));
  o_bl : Forall (back_ok seen st) (backlogs st);
  o_bl_nodup : NoDup (map fst (backlogs st));
  o_live : NoDup (rid :: live_rids st);
  o_nstart : forall r', r' <> r -> in_backlogs st r' = has_exchange_with st r';
  o_none : has_exchange_with st r = false;
  o_rng : rng_ok st }.

(* afterwards [Struct] holds, right before the message is handed to the transport -- so a synchronous refusal is literally a
   dispatch_error step (aiocoap 11456f9 re-inserts the exchange first) *)
Lemma add_exchange_struct : forall seen st m st' o, Open seen st (m_remote m) (m_rid m) ->
  wf_tuning (m_tuning m) -> In (m_rid m) seen ->
  _add_exchange st m (m_rid m) = (st', o) ->
  Struct seen st' /\ exists t, range (m_tuning m) t /\
     o = [ODraw (now st) (ACK_TIMEOUT (m_tuning m)) (ACK_TIMEOUT (m_tuning m) * ARF_num (m_tuning m) / ARF_den (m_tuning m)) t] /\
     now st' = now st /\ outgoing_requests st' = outgoing_requests st /\ refusing st' = refusing st /\
     active_exchanges st' = xset (m_remote m, m_mid m) (m_rid m, mk_timer st m t 0) (active_exchanges st) /\
     backlogs st' = (if in_backlogs st (m_remote m) then backlogs st else qset (m_remote m) [] (backlogs st)).
Proof.
  intros seen st m st' o [Hex Hnd Hbl Hbn Hrids Hns Hno Hrng] Hwf Hseen H.
  unfold _add_exchange in H.
  set (st1 := if in_backlogs st (m_remote m) then st else set_backlogs st (qset (m_remote m) [] (backlogs st))) in H.
  assert (now st1 = now st /\ next_seq st1 = next_seq st /\ active_exchanges st1 = active_exchanges st /\ outgoing_requests st1 = outgoing_requests st /\ rng st1 = rng st
          /\ backlogs st1 = (if in_backlogs st (m_remote m) then backlogs st else qset (m_remote m) [] (backlogs st)) /\ refusing st1 = refusing st) as [E1 [E2 [E3 [E4 [E5 [E6 E7]]]]]].
  { subst st1. destruct (in_backlogs st (m_remote m)); cbn; auto 10. }
  destruct (uniform st1 _ _) as [t st2] eqn:U.
  apply uniform_range in U; auto; [|unfold rng_ok in Hrng; rewrite E5; auto].
  destruct U as [Hr [Hrng2 [U1 [U2 [U3 [U4 [U5 [U6 U7]]]]]]]].
  unfold _schedule_retransmit in H. proj. cbn in H. inv H. cbn.
  rewrite U1, U2, U4, U5, U6, U7, E1, E2, E3, E4, E6, E7.
  split; [|exists t; splits; auto].
  set (k := (m_remote m, m_mid m)).
  set (h := {| h_due := now st + t; h_seq := next_seq st; h_message := m; h_timeout := t; h_counter := 0 |}).
  assert (Hno' : forall e, In e (active_exchanges st) -> e_remote e <> m_remote m) by (apply has_exchange_false; auto).
  (* nothing is overwritten: the new entry and, if need be, an empty backlog are put in front *)
  assert (Hx : xset k (m_rid m, h) (active_exchanges st) = (k, (m_rid m, h)) :: active_exchanges st).
  { unfold xset. rewrite xdel_notin; auto. intros e He Hk. apply (Hno' e He). unfold e_remote. rewrite Hk. reflexivity. }
  assert (Hb : (if in_backlogs st (m_remote m) then backlogs st else qset (m_remote m) [] (backlogs st)) =
               (if in_backlogs st (m_remote m) then backlogs st else (m_remote m, []) :: backlogs st)).
  { destruct (in_backlogs st (m_remote m)) eqn:IB; auto. unfold qset. rewrite qdel_notin; auto. rewrite <- in_backlogs_iff. congruence. }
  rewrite Hx, Hb. destruct Hr as [Hr1 Hr2]. destruct Hwf as [W1 [W2 [W3 W4]]].
  constructor; proj.
  - constructor; [unfold entry_ok, e_timer; cbn; splits; auto; try lia; unfold wf_tuning; auto|].
    eapply Forall_impl; [|exact Hex]. intros e He. eapply entry_ok_frame; [|exact He]; cbn; lia.
  - cbn [map]. constructor; auto. intros Hin. apply in_map_iff in Hin. destruct Hin as [e [He Hin]]. exact (Hno' e Hin He).
  - (* [back_ok] does not look at the state *)
    change (Forall (back_ok seen st) (if in_backlogs st (m_remote m) then backlogs st else (m_remote m, []) :: backlogs st)).
    destruct (in_backlogs st (m_remote m)); auto. constructor; auto. constructor.
  - destruct (in_backlogs st (m_remote m)) eqn:IB; auto. cbn [map fst]. constructor; auto. rewrite <- in_backlogs_iff. congruence.
  - unfold live_rids in *. proj. destruct (in_backlogs st (m_remote m)); exact Hrids.
  - intros r'. unfold has_exchange_with, in_backlogs at 1, k. proj. cbn [existsb fst]. fold (has_exchange_with st r').
    destruct (Z.eq_dec (m_remote m) r') as [<-|Hne].
    + rewrite Z.eqb_refl. destruct (in_backlogs st (m_remote m)) eqn:IB; [exact IB|]. unfold qget. cbn. rewrite Z.eqb_refl. reflexivity.
    + assert (m_remote m =? r' = false) as E by (apply Z.eqb_neq; exact Hne). rewrite E. cbn [orb]. rewrite <- (Hns r') by auto.
      destruct (in_backlogs st (m_remote m)); [reflexivity|]. unfold in_backlogs, qget. cbn. rewrite E. reflexivity.
  - exact Hrng2.
Qed.

Definition wf_event (seen : list Z) (e : event) : Prop :=
  match e with
  | ERequest rid r tn => ~ In rid seen /\ wf_tuning tn
  | _ => True
  end.
Definition seen_after (seen : list Z) (e : event) : list Z :=
  match e with ERequest rid _ _ => rid :: seen | _ => seen end.

Lemma entry_ok_seen : forall seen seen' st e, incl seen seen' -> entry_ok seen st e -> entry_ok seen' st e.
Proof. unfold entry_ok. intros seen seen' st e Hi H. decompose [and] H. splits; auto. Qed.
Lemma back_ok_seen : forall seen seen' st b, incl seen seen' -> back_ok seen st b -> back_ok seen' st b.
Proof.
  unfold back_ok. intros seen seen' st b Hi H. eapply Forall_impl; [|exact H]. intros p Hp. unfold bmsg_ok in *. decompose [and] Hp. splits; auto.
Qed.
Lemma back_rids_seen : forall seen st (l : list bent) x, Forall (back_ok seen st) l -> In x (back_rids l) -> In x seen.
Proof.
  intros seen st l x H Hin. unfold back_rids in Hin. apply in_flat_map in Hin. destruct Hin as [b [Hb Hx]].
  rewrite Forall_forall in H. specialize (H b Hb). unfold back_ok in H. rewrite Forall_forall in H.
  unfold q_rids in Hx. apply in_map_iff in Hx. destruct Hx as [p [<- Hp]]. specialize (H p Hp). unfold bmsg_ok in H. tauto.
Qed.
Lemma live_rids_seen : forall seen st x, Struct seen st -> In x (live_rids st) -> In x seen.
Proof.
  intros seen st x S Hin. unfold live_rids in Hin. apply in_app_iff in Hin. destruct Hin as [Hin|Hin].
  - apply in_map_iff in Hin. destruct Hin as [e [<- He]]. pose proof (s_ex _ _ S) as H. rewrite Forall_forall in H. specialize (H e He). unfold entry_ok in H. tauto.
  - apply (back_rids_seen seen st (backlogs st) x (s_bl _ _ S) Hin).
Qed.

Lemma cnt_qdel_split : forall (l : list bent) r q x, NoDup (map fst l) -> qget r l = Some q ->
  count_occ Z.eq_dec (back_rids l) x = (count_occ Z.eq_dec (q_rids q) x + count_occ Z.eq_dec (back_rids (qdel r l)) x)%nat.
Proof.
  induction l as [|a l IH]; intros r q x N H; [discriminate|].
  apply NoDup_cons_iff in N. destruct N as [Hn Hd]. unfold qget in H. cbn [find] in H. unfold back_rids, qdel. cbn [flat_map filter].
  destruct (fst a =? r) eqn:E.
  - inv H. cbn [negb]. apply Z.eqb_eq in E. subst r. change (filter (fun e : Z * list (message * Z) => negb (fst e =? fst a)) l) with (qdel (fst a) l).
    rewrite qdel_notin; auto. rewrite count_occ_app. reflexivity.
  - cbn [negb flat_map]. rewrite !count_occ_app. fold (qget r l) in H. fold (qdel r l). fold (back_rids l). fold (back_rids (qdel r l)).
    rewrite (IH r q x Hd H). lia.
Qed.
Lemma cnt_qdel_le : forall (l : list bent) r x, (count_occ Z.eq_dec (back_rids (qdel r l)) x <= count_occ Z.eq_dec (back_rids l) x)%nat.
Proof.
  induction l as [|a l IH]; intros r x; [cbn; auto|]. specialize (IH r x). unfold qdel, back_rids in *. cbn [filter flat_map].
  destruct (negb (fst a =? r)); cbn [flat_map]; rewrite ?count_occ_app; lia.
Qed.
Lemma in_back_qdel_sub : forall (B : list bent) r x, In x (back_rids (qdel r B)) -> In x (back_rids B).
Proof. intros. apply (count_occ_In Z.eq_dec) in H. apply (count_occ_In Z.eq_dec). pose proof (cnt_qdel_le B r x). lia. Qed.
Lemma in_back_queue : forall (B : list bent) r q x, qget r B = Some q -> In x (q_rids q) -> In x (back_rids B).
Proof. intros B r q x Q H. unfold back_rids. apply in_flat_map. exists (r, q). split; [apply qget_in; auto|exact H]. Qed.
Lemma in_back_qset : forall (B : list bent) r v x, In x (back_rids (qset r v B)) -> In x (q_rids v) \/ In x (back_rids B).
Proof.
  intros B r v x H. unfold qset, back_rids in H. cbn [flat_map snd] in H. apply in_app_iff in H.
  destruct H as [H|H]; [left; exact H|right; exact (in_back_qdel_sub _ _ _ H)].
Qed.
Lemma in_back_qset_sub : forall (B : list bent) r q rest x, qget r B = Some q -> incl (q_rids rest) (q_rids q) ->
  In x (back_rids (qset r rest B)) -> In x (back_rids B).
Proof. intros B r q rest x Q Hi H. apply in_back_qset in H. destruct H as [H|H]; [exact (in_back_queue _ _ _ _ Q (Hi _ H))|exact H]. Qed.
Lemma cnt_qset : forall (l : list bent) r v x,
  count_occ Z.eq_dec (back_rids (qset r v l)) x = (count_occ Z.eq_dec (q_rids v) x + count_occ Z.eq_dec (back_rids (qdel r l)) x)%nat.
Proof. intros. unfold qset, back_rids. cbn [flat_map snd]. rewrite count_occ_app. reflexivity. Qed.
Lemma xdel_idem : forall k (l : list exch), xdel k (xdel k l) = xdel k l.
Proof.
  intros. unfold xdel. induction l as [|a l IH]; cbn; auto. destruct (negb (key_eqb (fst a) k)) eqn:E; cbn; rewrite ?E, IH; auto.
Qed.
Lemma cnt_xdel_split : forall (l : list exch) e1 x, NoDup (map e_remote l) -> In e1 l ->
  count_occ Z.eq_dec (map e_rid l) x = (count_occ Z.eq_dec [e_rid e1] x + count_occ Z.eq_dec (map e_rid (xdel (fst e1) l)) x)%nat.
Proof.
  induction l as [|a l IH]; intros e1 x N Hin; [inv Hin|].
  apply NoDup_cons_iff in N. destruct N as [Hn Hd]. unfold xdel. cbn [filter map].
  destruct Hin as [->|Hin].
  - rewrite key_eqb_refl. cbn [negb]. fold (xdel (fst e1) l).
    rewrite xdel_notin by (intros b Hb Hk; apply Hn; apply in_map_iff; exists b; split; auto; unfold e_remote; rewrite Hk; reflexivity).
    change (e_rid e1 :: map e_rid l) with ([e_rid e1] ++ map e_rid l). rewrite count_occ_app. reflexivity.
  - assert (key_eqb (fst a) (fst e1) = false) as ->.
    { apply key_eqb_false. intros Hk. apply Hn. apply in_map_iff. exists e1. split; auto. unfold e_remote. rewrite Hk. reflexivity. }
    cbn [negb map]. fold (xdel (fst e1) l). specialize (IH e1 x Hd Hin).
    change (e_rid a :: map e_rid l) with ([e_rid a] ++ map e_rid l). change (e_rid a :: map e_rid (xdel (fst e1) l)) with ([e_rid a] ++ map e_rid (xdel (fst e1) l)).
    rewrite !count_occ_app. lia.
Qed.

Lemma struct_seen_mono : forall seen seen' st, incl seen seen' -> Struct seen st -> Struct seen' st.
Proof.
  intros seen seen' st Hi S. destruct S. constructor; auto.
  - eapply Forall_impl; [|eauto]. intros; eapply entry_ok_seen; eauto.
  - eapply Forall_impl; [|eauto]. intros; eapply back_ok_seen; eauto.
Qed.

Lemma nodup_app_disjoint : forall (a b : list Z) x, NoDup (a ++ b) -> In x a -> In x b -> False.
Proof.
  intros a b x N Ha Hb. rewrite (NoDup_count_occ Z.eq_dec) in N. specialize (N x). rewrite count_occ_app in N.
  apply (count_occ_In Z.eq_dec) in Ha. apply (count_occ_In Z.eq_dec) in Hb. lia.
Qed.

Lemma nodup_app_l : forall (a b : list Z), NoDup (a ++ b) -> NoDup a.
Proof.
  intros a b N. rewrite (NoDup_count_occ Z.eq_dec) in *. intros x. specialize (N x). rewrite count_occ_app in N. lia.
Qed.

Lemma struct_frame : forall seen st st', Struct seen st -> now st' <= now st -> active_exchanges st' = active_exchanges st ->
  backlogs st' = backlogs st -> rng st' = rng st -> refusing st' = refusing st -> Struct seen st'.
Proof.
  intros seen st st' S Hn He Hb Hr Ho. destruct S. constructor; unfold live_rids, in_backlogs, has_exchange_with in *; rewrite ?He, ?Hb, ?Hr, ?Ho; auto.
  all: try (eapply Forall_impl; [|eauto]; intros e H; eapply entry_ok_frame; [|exact H]; auto).
Qed.

(* right after `self._active_exchanges.pop(key)` of an existing entry *)
Lemma pop_facts : forall seen st k mon h, Struct seen st -> xget k (active_exchanges st) = Some (mon, h) ->
  let l := active_exchanges st in let r := fst k in
  In (k, (mon, h)) l /\ entry_ok seen st (k, (mon, h)) /\ mon = m_rid (h_message h) /\ k = (m_remote (h_message h), m_mid (h_message h)) /\
  (exists q, qget r (backlogs st) = Some q) /\
  (forall e, In e (xdel k l) -> In e l /\ e_remote e <> r /\ e_rid e <> mon) /\
  (forall x, In x (back_rids (backlogs st)) -> x <> mon) /\
  NoDup (map e_remote (xdel k l)) /\
  (forall x, (count_occ Z.eq_dec [mon] x + count_occ Z.eq_dec (map e_rid (xdel k l)) x + count_occ Z.eq_dec (back_rids (backlogs st)) x <= 1)%nat).
Proof.
  intros seen st k mon h S X l r. pose proof (xget_in _ _ _ X) as Hin. fold l in Hin.
  pose proof (s_ex _ _ S) as Hex. rewrite Forall_forall in Hex. pose proof (Hex _ Hin) as Hok.
  assert (Hmon : mon = m_rid (h_message h)) by (unfold entry_ok in Hok; cbn in Hok; tauto).
  assert (Hk : k = (m_remote (h_message h), m_mid (h_message h))) by (unfold entry_ok in Hok; cbn in Hok; tauto).
  pose proof (s_live _ _ S) as Hlive. unfold live_rids in Hlive. fold l in Hlive.
  splits; auto.
  - assert (in_backlogs st r = true) as IB.
    { rewrite (s_nstart _ _ S). apply has_exchange_iff. exists (k, (mon, h)). split; auto. }
    unfold in_backlogs in IB. destruct (qget r (backlogs st)) eqn:Q; [eauto|discriminate].
  - intros e He. apply in_xdel in He. destruct He as [He Hne]. split; auto. split.
    + intros Hr. apply Hne. assert (e = (k, (mon, h))) as -> by (apply (NoDup_map_inj_in e_remote l); auto; apply (s_ex_nodup _ _ S)). reflexivity.
    + intros Hr. apply Hne. assert (e = (k, (mon, h))) as ->; [|reflexivity].
      apply (NoDup_map_inj_in e_rid l); auto; [eapply nodup_app_l; exact Hlive | ].
      rewrite Hr. unfold e_rid, e_timer. cbn. auto.
  - intros x Hx ->. eapply nodup_app_disjoint; [exact Hlive | | exact Hx]. apply in_map_iff. exists (k, (mon, h)). split; auto.
  - apply NoDup_map_filter. apply (s_ex_nodup _ _ S).
  - intros x. rewrite (NoDup_count_occ Z.eq_dec) in Hlive. specialize (Hlive x). rewrite count_occ_app in Hlive.
    pose proof (cnt_xdel_split l (k, (mon, h)) x (s_ex_nodup _ _ S) Hin) as Hs. cbn [fst] in Hs.
    assert (e_rid (k, (mon, h)) = mon) as Hr by (unfold e_rid, e_timer; cbn; auto). rewrite Hr in Hs. lia.
Qed.

Lemma pop_other : forall seen st k mon h e, Struct seen st -> xget k (active_exchanges st) = Some (mon, h) ->
  In e (active_exchanges st) -> e_rid e <> mon -> In e (xdel k (active_exchanges st)).
Proof.
  intros seen st k mon h e S X He Hne. destruct (pop_facts seen st k mon h S X) as (Hin & _ & Hmon & _).
  apply in_xdel. split; auto. intros Hk. apply Hne.
  assert (e = (k, (mon, h))) as -> by (apply (NoDup_map_inj_in e_remote _ _ _ (s_ex_nodup _ _ S) He Hin); unfold e_remote; rewrite Hk; reflexivity).
  symmetry. exact Hmon.
Qed.

(* request [x] is where it was: all that the history of [x] needs to know about a step that concerns other requests *)
Definition same_for (x : Z) (st st' : state) : Prop :=
  (forall e, e_rid e = x -> (In e (active_exchanges st') <-> In e (active_exchanges st))) /\
  (In x (back_rids (backlogs st')) -> In x (back_rids (backlogs st))).

Lemma same_for_exch : forall x st st', active_exchanges st' = active_exchanges st ->
  (In x (back_rids (backlogs st')) -> In x (back_rids (backlogs st))) -> same_for x st st'.
Proof. intros x st st' Ex Hb. split; [|exact Hb]. intros e _. rewrite Ex. reflexivity. Qed.
Lemma same_for_add : forall x st st' k2 v2, active_exchanges st' = xset k2 v2 (active_exchanges st) ->
  (forall e, In e (active_exchanges st) -> e_remote e <> fst k2) -> e_rid (k2, v2) <> x ->
  (In x (back_rids (backlogs st')) -> In x (back_rids (backlogs st))) -> same_for x st st'.
Proof.
  intros x st st' k2 v2 Ex Hno Hnew Hb. split; [|exact Hb]. intros e Hr. rewrite Ex, in_xset. split.
  - intros [->|[He _]]; [contradiction|exact He].
  - intros He. right. split; [exact He|]. intros Hk. apply (Hno e He). unfold e_remote. rewrite Hk. reflexivity.
Qed.
Lemma same_for_pop : forall seen st st' k mon h x, Struct seen st -> xget k (active_exchanges st) = Some (mon, h) ->
  active_exchanges st' = xdel k (active_exchanges st) -> x <> mon ->
  (In x (back_rids (backlogs st')) -> In x (back_rids (backlogs st))) -> same_for x st st'.
Proof.
  intros seen st st' k mon h x S X Ex Hne Hb. split; [|exact Hb]. intros e Hr. rewrite Ex. split.
  - intros He. apply in_xdel in He. tauto.
  - intros He. apply (pop_other seen st k mon h e S X He). congruence.
Qed.
Lemma same_for_replace : forall seen st st' k mon h k2 v2 x, Struct seen st -> xget k (active_exchanges st) = Some (mon, h) ->
  active_exchanges st' = xset k2 v2 (xdel k (active_exchanges st)) -> fst k2 = fst k -> x <> mon -> e_rid (k2, v2) <> x ->
  (In x (back_rids (backlogs st')) -> In x (back_rids (backlogs st))) -> same_for x st st'.
Proof.
  intros seen st st' k mon h k2 v2 x S X Ex Hk Hne Hnew Hb. split; [|exact Hb]. intros e Hr. rewrite Ex, in_xset. split.
  - intros [->|[He _]]; [contradiction|apply in_xdel in He; tauto].
  - intros He. right. assert (Hd : In e (xdel k (active_exchanges st))) by (apply (pop_other seen st k mon h e S X He); congruence).
    split; [exact Hd|]. intros Hk2. destruct (pop_facts seen st k mon h S X) as (_ & _ & _ & _ & _ & Hrest & _).
    apply Hrest in Hd. destruct Hd as (_ & Hd & _). apply Hd. unfold e_remote. rewrite Hk2. exact Hk.
Qed.

Lemma no_error_nil : no_error []. Proof. intros t e H. inv H. Qed.
Lemma no_error_app : forall a b, no_error a -> no_error b -> no_error (a ++ b).
Proof. intros a b Ha Hb t e H. apply in_app_iff in H. destruct H; [eapply Ha | eapply Hb]; eauto. Qed.

Lemma cnt_filter_le : forall (f : exch -> bool) (l : list exch) x,
  (count_occ Z.eq_dec (map e_rid (filter f l)) x <= count_occ Z.eq_dec (map e_rid l) x)%nat.
Proof.
  induction l as [|a l IH]; intros x; [cbn; auto|]. specialize (IH x).
  cbn [filter]. destruct (f a); cbn [map count_occ]; destruct (Z.eq_dec (e_rid a) x); lia.
Qed.

(* what dispatch_error does, and what the end of r's only exchange ([xdel_drop]) amounts to when nothing is queued behind it *)
Lemma struct_drop : forall seen st st' r, Struct seen st -> now st' = now st -> rng st' = rng st ->
  active_exchanges st' = filter (fun e => negb (fst (fst e) =? r)) (active_exchanges st) -> backlogs st' = qdel r (backlogs st) ->
  Struct seen st'.
Proof.
  intros seen st st' r S En Er Ex Eb.
  pose proof (s_ex _ _ S) as Hex. rewrite Forall_forall in Hex. pose proof (s_bl _ _ S) as Hbl. rewrite Forall_forall in Hbl.
  assert (Hsub : forall e, In e (active_exchanges st') <-> In e (active_exchanges st) /\ e_remote e <> r).
  { intros e. rewrite Ex. apply (in_filter_ne e_remote). }
  constructor.
  - apply Forall_forall. intros e He. apply Hsub in He. eapply entry_ok_frame; [|apply Hex; apply He]. lia.
  - rewrite Ex. apply NoDup_map_filter. apply (s_ex_nodup _ _ S).
  - rewrite Eb. apply Forall_forall. intros b Hb. apply in_qdel in Hb. apply (Hbl b). apply Hb.
  - rewrite Eb. apply nodup_qdel. apply (s_bl_nodup _ _ S).
  - unfold live_rids. rewrite Ex, Eb. pose proof (s_live _ _ S) as Hl. unfold live_rids in Hl. apply (NoDup_count_occ Z.eq_dec). intros x.
    rewrite (NoDup_count_occ Z.eq_dec) in Hl. specialize (Hl x). rewrite count_occ_app in *.
    eapply Nat.le_trans; [apply Nat.add_le_mono; [apply cnt_filter_le | apply cnt_qdel_le] | exact Hl].
  - intros r'. unfold in_backlogs. rewrite Eb. destruct (Z.eq_dec r' r) as [->|Hne].
    + rewrite qget_qdel_same. symmetry. apply has_exchange_false. intros e He. apply Hsub in He. tauto.
    + rewrite qget_qdel_other by auto. fold (in_backlogs st r'). rewrite (s_nstart _ _ S). apply eq_true_iff_eq. rewrite !has_exchange_iff.
      split; intros [e [He1 He2]]; exists e; split; auto.
      * apply Hsub. split; auto. congruence.
      * apply Hsub in He1. tauto.
  - rewrite Er. apply (s_rng _ _ S).
Qed.
Lemma xdel_drop : forall seen st k v, Struct seen st -> xget k (active_exchanges st) = Some v ->
  xdel k (active_exchanges st) = filter (fun e => negb (fst (fst e) =? fst k)) (active_exchanges st).
Proof.
  intros seen st k v S X. apply xget_in in X. unfold xdel. apply filter_ext_in. intros e He. f_equal.
  destruct (key_eqb (fst e) k) eqn:E.
  - apply key_eqb_true in E. rewrite E. symmetry. apply Z.eqb_refl.
  - symmetry. apply Z.eqb_neq. intros Hr. apply key_eqb_false in E. apply E.
    assert (e = (k, v)) as -> by (apply (NoDup_map_inj_in e_remote _ _ _ (s_ex_nodup _ _ S) He X); exact Hr). reflexivity.
Qed.

(* what tm_dispatch_error puts out *)
Lemma fails_no_error : forall t e (l : list (Z * Z)), no_error (map (fun q => OFail t (fst q) e) l).
Proof. intros t e l t' e' Hi. apply in_map_iff in Hi. destruct Hi as [x [Hx _]]. discriminate. Qed.
Lemma fails_no_send : forall t e (l : list (Z * Z)) t' m, ~ In (OSend t' m) (map (fun q => OFail t (fst q) e) l).
Proof. intros t e l t' m Hi. apply in_map_iff in Hi. destruct Hi as [x [Hx _]]. discriminate. Qed.

Lemma error_struct : forall seen st r st' o, Struct seen st -> mm_dispatch_error st r = (st', o) ->
  Struct seen st' /\ no_error o /\ now st' = now st /\
  active_exchanges st' = filter (fun e => negb (fst (fst e) =? r)) (active_exchanges st) /\
  backlogs st' = qdel r (backlogs st) /\
  outgoing_requests st' = filter (fun q => negb (snd q =? r)) (outgoing_requests st) /\
  o = map (fun q => OFail (now st) (fst q) NetworkError) (filter (fun q => snd q =? r) (outgoing_requests st)).
Proof.
  intros seen st r st' o S H. unfold mm_dispatch_error, tm_dispatch_error in H. inv H. proj. splits; auto.
  - apply (struct_drop seen st _ r S); reflexivity.
  - apply fails_no_error.
Qed.

Lemma send_via_cases : forall st m st' o, _send_via_transport st m = (st', o) ->
  (is_refusing st (m_remote m) = false /\ st' = st /\ o = [OSend (now st) m]) \/
  (is_refusing st (m_remote m) = true /\ mm_dispatch_error st (m_remote m) = (st', o)).
Proof. intros st m st' o H. unfold _send_via_transport in H. destruct (is_refusing st (m_remote m)); [right|left; inv H]; auto. Qed.

(* a refusal is exactly MessageManager.dispatch_error for that remote in the state in which send was called (aiocoap 11456f9,
   8d04b7c): the shape lemmas below describe that state [st1] and leave the call [_send_via_transport st1 m] as it is *)
Lemma send_via_struct : forall seen st m st' o, Struct seen st -> _send_via_transport st m = (st', o) ->
  Struct seen st' /\ no_error o /\ now st' = now st.
Proof.
  intros seen st m st' o S H. destruct (send_via_cases _ _ _ _ H) as [(_ & -> & ->)|(_ & D)].
  - splits; auto. intros t e [Hi|[]]. discriminate.
  - destruct (error_struct _ _ _ _ _ S D) as (S' & Hne & En & _). auto.
Qed.

Lemma send_initially_struct : forall seen st m st' o, Open seen st (m_remote m) (m_rid m) ->
  wf_tuning (m_tuning m) -> In (m_rid m) seen ->
  _send_initially st m (m_rid m) = (st', o) ->
  Struct seen st' /\ no_error o /\ exists st1 t o2, Struct seen st1 /\ range (m_tuning m) t /\
     now st1 = now st /\ outgoing_requests st1 = outgoing_requests st /\ refusing st1 = refusing st /\
     active_exchanges st1 = xset (m_remote m, m_mid m) (m_rid m, mk_timer st m t 0) (active_exchanges st) /\
     backlogs st1 = (if in_backlogs st (m_remote m) then backlogs st else qset (m_remote m) [] (backlogs st)) /\
     _send_via_transport st1 m = (st', o2) /\
     o = ODraw (now st) (ACK_TIMEOUT (m_tuning m)) (ACK_TIMEOUT (m_tuning m) * ARF_num (m_tuning m) / ARF_den (m_tuning m)) t :: o2.
Proof.
  intros seen st m st' o Op Hwf Hseen H.
  unfold _send_initially in H. destruct (_add_exchange st m (m_rid m)) as [st1 o1] eqn:A.
  destruct (add_exchange_struct seen st m st1 o1 Op Hwf Hseen A) as (S1 & t & Hrg & -> & E1 & E2 & E3 & E4 & E5).
  destruct (_send_via_transport st1 m) as [st2 o2] eqn:V. inv H.
  destruct (send_via_struct _ _ _ _ _ S1 V) as (S2 & Hne & _). splits; auto.
  - intros t' e [Hi|Hi]; [discriminate|eapply Hne; eauto].
  - exists st1, t, o2. splits; auto.
Qed.

Lemma request_shape : forall seen st rid r tn st' o, Struct seen st -> ~ In rid seen -> wf_tuning tn ->
  tm_request st rid r tn = (st', o) ->
  let m := {| m_remote := r; m_mid := message_id st; m_rid := rid; m_tuning := tn |} in
  Struct (rid :: seen) st' /\ no_error o /\
  ((exists q, qget r (backlogs st) = Some q /\ o = [] /\ active_exchanges st' = active_exchanges st /\
             backlogs st' = qset r (q ++ [(m, rid)]) (backlogs st) /\ outgoing_requests st' = outgoing_requests st ++ [(rid, r)]) \/
  (qget r (backlogs st) = None /\ (forall e, In e (active_exchanges st) -> e_remote e <> r) /\ exists t sq st1 o2, range tn t /\
     Struct (rid :: seen) st1 /\ now st1 = now st /\ outgoing_requests st1 = outgoing_requests st ++ [(rid, r)] /\ refusing st1 = refusing st /\
     active_exchanges st1 = xset (r, message_id st) (rid, {| h_due := now st + t; h_seq := sq; h_message := m; h_timeout := t; h_counter := 0 |}) (active_exchanges st) /\
     (forall x, In x (back_rids (backlogs st1)) -> In x (back_rids (backlogs st))) /\
     (forall b, In b (backlogs st1) -> In b (backlogs st) \/ b = (r, [])) /\
     _send_via_transport st1 m = (st', o2) /\
     o = ODraw (now st) (ACK_TIMEOUT tn) (ACK_TIMEOUT tn * ARF_num tn / ARF_den tn) t :: o2)).
Proof.
  intros seen st rid r tn st' o S Hfresh Hwf H m.
  unfold tm_request, send_message, _next_message_id in H. proj. fold m in H.
  set (st0 := {| now := now st; next_seq := next_seq st; message_id := Z.land 65535 (1 + message_id st); active_exchanges := active_exchanges st;
                 backlogs := backlogs st; outgoing_requests := outgoing_requests st ++ [(rid, r)]; rng := rng st; refusing := refusing st |}) in *.
  assert (S0 : Struct (rid :: seen) st0).
  { apply (struct_frame (rid :: seen) st); auto; try reflexivity; try (cbn; lia).
    eapply struct_seen_mono; [|exact S]. intros x Hx. right. exact Hx. }
  assert (Hnl : ~ In rid (live_rids st0)).
  { intros Hin. apply Hfresh. eapply live_rids_seen; [exact S|]. exact Hin. }
  destruct (qget r (backlogs st)) as [q|] eqn:Q.
  - assert (HX : has_exchange_with st0 r = true).
    { rewrite <- (s_nstart _ _ S0). unfold in_backlogs. cbn. rewrite Q. reflexivity. }
    change (has_exchange_with st r) with (has_exchange_with st0 r) in H. rewrite HX in H. inv H.
    split; [|split; [apply no_error_nil|left; exists q; splits; auto]].
    pose proof (s_bl _ _ S0) as Hbl. rewrite Forall_forall in Hbl. pose proof (qget_in _ _ _ Q) as Hq.
    destruct S0. constructor; proj; auto.
    + apply Forall_forall. intros b Hb. apply in_qset in Hb. destruct Hb as [->|[Hb _]].
      2:{ exact (Hbl b Hb). }
      unfold back_ok. cbn [fst snd]. apply Forall_app. split; [apply (Hbl _ Hq)|]. constructor; [|constructor].
      unfold bmsg_ok. cbn. splits; auto; try (apply in_app_iff; right; left; reflexivity).
    + apply nodup_qset; auto.
    + (* the fresh id goes to the end of r's queue *)
      assert (Hl : NoDup ([rid] ++ live_rids st0)) by (constructor; auto).
      unfold live_rids in *. proj. change (backlogs st0) with (backlogs st) in *. change (active_exchanges st0) with (active_exchanges st) in *.
      apply (NoDup_count_occ Z.eq_dec). intros x. rewrite (NoDup_count_occ Z.eq_dec) in Hl. specialize (Hl x).
      rewrite !count_occ_app in *. rewrite cnt_qset. rewrite (cnt_qdel_split _ _ _ x s_bl_nodup0 Q) in Hl.
      unfold q_rids in *. rewrite map_app, count_occ_app. cbn [map fst m_rid m]. lia.
    + intros r'. transitivity (in_backlogs st0 r'); [|rewrite s_nstart0; reflexivity]. unfold in_backlogs. proj. change (backlogs st0) with (backlogs st). destruct (Z.eq_dec r r') as [<-|Hne].
      * rewrite qget_qset_same, Q. reflexivity.
      * rewrite qget_qset_other; auto.
  - assert (HX : has_exchange_with st0 r = false).
    { rewrite <- (s_nstart _ _ S0). unfold in_backlogs. cbn. rewrite Q. reflexivity. }
    apply (send_initially_struct (rid :: seen)) in H; auto; [|destruct S0; constructor; auto; constructor; auto|cbn; auto].
    destruct H as (S' & Hne & st1 & t & o2 & S1 & Hrg & E1 & E2 & E5 & E3 & E4 & V & ->).
      splits; auto. right. split; auto. split; [apply (proj1 (has_exchange_false st0 r) HX)|].
      assert (in_backlogs st0 r = false) as IB by (unfold in_backlogs; cbn; rewrite Q; reflexivity).
      cbn [m_remote m] in E4. rewrite IB in E4. unfold qset in E4. rewrite qdel_notin in E4 by (apply qget_none; exact Q).
      exists t, (next_seq st0), st1, o2. splits; auto.
    + intros x Hx. rewrite E4 in Hx. exact Hx.
    + intros b Hb. rewrite E4 in Hb. destruct Hb as [<-|Hb]; auto.
Qed.

Lemma in_back_rids : forall (B : list bent) r q p, In (r, q) B -> In p q -> In (m_rid (fst p)) (back_rids B).
Proof. intros. unfold back_rids. apply in_flat_map. exists (r, q). split; auto. cbn. unfold q_rids. apply in_map_iff. exists p. auto. Qed.

Lemma loop_S : forall f st r, _continue_backlog_loop (Datatypes.S f) st r =
  match qget r (backlogs st) with
  | None => (st, [])
  | Some q =>
      if has_exchange_with st r then (st, [])
      else match q with
           | (next_message, monitor) :: rest =>
               let '(st, o1) := _send_initially (set_backlogs st (qset r rest (backlogs st))) next_message monitor in
               let '(st, o2) := _continue_backlog_loop f st r in
               (st, o1 ++ o2)
           | [] => (set_backlogs st (qdel r (backlogs st)), [])
           end
  end.
Proof. reflexivity. Qed.

Lemma monitor_output : forall b t mon (o1 : list output), (o1 = [] \/ (b = true /\ o1 = [OFail t mon MessageError])) -> no_error o1 /\ (forall t' m, ~ In (OSend t' m) o1).
Proof.
  intros b t mon o1 [->|[_ ->]]; split; intros t' e Hi; cbn in Hi; try tauto; destruct Hi as [Hi|Hi]; try discriminate; tauto.
Qed.

Lemma remove_pop : forall st r mid b mon h st' o, xget (r, mid) (active_exchanges st) = Some (mon, h) ->
  _remove_exchange st r mid b = (st', o) ->
  exists st2 o1 o2, o = o1 ++ o2 /\ (o1 = [] \/ (b = true /\ o1 = [OFail (now st) mon MessageError])) /\
    now st2 = now st /\ rng st2 = rng st /\ next_seq st2 = next_seq st /\ active_exchanges st2 = xdel (r, mid) (active_exchanges st) /\
    backlogs st2 = backlogs st /\ refusing st2 = refusing st /\
    (forall p, In p (outgoing_requests st) -> fst p <> mon -> In p (outgoing_requests st2)) /\ _continue_backlog st2 r = (st', o2).
Proof.
  intros st r mid b mon h st' o X H. unfold _remove_exchange in H. rewrite X in H.
  (* three cases: RST with the request still pending (it fails), RST with the request gone, ACK *)
  destruct b; [unfold tm_fail in H; proj; destruct (existsb (fun q => fst q =? mon) (outgoing_requests st))|];
    match type of H with (let '(st, o2) := _continue_backlog ?s r in _) = _ => destruct (_continue_backlog s r) as [st3 o2] eqn:C; exists s end;
    [exists [OFail (now st) mon MessageError], o2|exists [], o2|exists [], o2]; inv H; splits; auto.
  intros p Hp Hf. apply (in_filter_ne fst). auto.
Qed.

(* [o1]: what the monitor call of an RST puts out; [o2]: the next message queued for the remote, if any, sent for the first time *)
Lemma remove_shape : forall seen st r mid b st' o, Struct seen st -> _remove_exchange st r mid b = (st', o) ->
  (xget (r, mid) (active_exchanges st) = None /\ st' = st /\ o = []) \/
  exists mon h o1 o2 q, xget (r, mid) (active_exchanges st) = Some (mon, h) /\ qget r (backlogs st) = Some q /\ o = o1 ++ o2 /\
    (o1 = [] \/ (b = true /\ o1 = [OFail (now st) mon MessageError])) /\ Struct seen st' /\ no_error o /\
    match q with
    | [] => o2 = [] /\ active_exchanges st' = xdel (r, mid) (active_exchanges st) /\ backlogs st' = qdel r (backlogs st) /\
            (forall p, In p (outgoing_requests st) -> fst p <> mon -> In p (outgoing_requests st'))
    | (m2, mon2) :: rest => mon2 = m_rid m2 /\ m_remote m2 = r /\ wf_tuning (m_tuning m2) /\ In (m_rid m2) seen /\ exists t st1 os2,
        range (m_tuning m2) t /\ Struct seen st1 /\ now st1 = now st /\ refusing st1 = refusing st /\
        (forall p, In p (outgoing_requests st) -> fst p <> mon -> In p (outgoing_requests st1)) /\
        active_exchanges st1 = xset (m_remote m2, m_mid m2) (m_rid m2, mk_timer st m2 t 0) (xdel (r, mid) (active_exchanges st)) /\
        backlogs st1 = qset r rest (backlogs st) /\
        _send_via_transport st1 m2 = (st', os2) /\
        o2 = ODraw (now st) (ACK_TIMEOUT (m_tuning m2)) (ACK_TIMEOUT (m_tuning m2) * ARF_num (m_tuning m2) / ARF_den (m_tuning m2)) t :: os2
    end.
Proof.
  intros seen st r mid b st' o S H.
  destruct (xget (r, mid) (active_exchanges st)) as [[mon h]|] eqn:X; [right|left; unfold _remove_exchange in H; rewrite X in H; inv H; auto].
  apply (remove_pop _ _ _ _ _ _ _ _ X) in H. destruct H as (st2 & o1 & o2 & -> & Ho1 & En & Er & Es & Ex & Eb & Enr & Hkeep & H).
  destruct (pop_facts seen st (r, mid) mon h S X) as (Hin & Hok & Hmon & Hk & [q Q] & Hrest & Hbr & Hnd & Hcnt). cbn [fst] in *.
  set (k := (r, mid)) in *. set (l := active_exchanges st) in *.
  assert (HX2 : has_exchange_with st2 r = false).
  { apply has_exchange_false. rewrite Ex. intros e He. apply Hrest in He. tauto. }
  pose proof (s_bl _ _ S) as Hbl. rewrite Forall_forall in Hbl. pose proof (qget_in _ _ _ Q) as Hq.
  pose proof (s_ex _ _ S) as Hex. rewrite Forall_forall in Hex.
  assert (Hex2 : forall e, In e (xdel k l) -> entry_ok seen st2 e).
  { intros e He. destruct (Hrest e He) as (He1 & He2 & He3). eapply entry_ok_frame; [|apply Hex; exact He1]. lia. }
  assert (Hns2 : forall r', r' <> r -> in_backlogs st r' = has_exchange_with st2 r').
  { intros r' Hne. rewrite (s_nstart _ _ S). apply eq_true_iff_eq. rewrite !has_exchange_iff. rewrite Ex. split; intros [e [He1 He2]]; exists e; split; auto.
    - apply in_xdel. split; auto. intros Hk'. apply Hne. rewrite <- He2. unfold e_remote. rewrite Hk'. reflexivity.
    - apply Hrest in He1. tauto. }
  destruct (monitor_output _ _ _ _ Ho1) as [Hne1 _].
  unfold _continue_backlog in H. rewrite Eb, Q in H. cbn [Nat.add] in H. rewrite loop_S in H. rewrite Eb, Q, HX2 in H.
  exists mon, h, o1, o2, q. destruct q as [|[m2 mon2] rest].
  - inv H. proj. splits; auto; [|apply no_error_app; auto; apply no_error_nil].
    apply (struct_drop seen st _ r S); proj; auto. rewrite Ex. eapply xdel_drop; [exact S|exact X].
  - pose proof (Hbl _ Hq) as Hq2. unfold back_ok in Hq2. cbn [fst snd] in Hq2. apply Forall_cons_iff in Hq2. destruct Hq2 as [Hm2 Hrest2].
    unfold bmsg_ok in Hm2. cbn [fst snd] in Hm2. destruct Hm2 as (Hr2 & Hmon2 & Hwf2 & Hseen2). subst mon2.
    set (st3 := set_backlogs st2 (qset r rest (backlogs st))) in *.
    assert (Hne2 : m_rid m2 <> mon) by (apply Hbr; apply (in_back_rids _ r _ (m2, m_rid m2) Hq); left; reflexivity).
    assert (Op : Open seen st3 r (m_rid m2)).
    { constructor.
      - unfold st3; proj. rewrite Ex. apply Forall_forall. intros e He. eapply entry_ok_frame; [|apply Hex2; exact He]; cbn; auto; lia.
      - unfold st3; proj. rewrite Ex. auto.
      - unfold st3; proj. apply Forall_forall. intros b' Hb. apply in_qset in Hb. destruct Hb as [->|[Hb _]].
        + unfold back_ok. cbn [fst snd]. apply Forall_forall. intros p Hpin. rewrite Forall_forall in Hrest2. pose proof (Hrest2 p Hpin) as Hp.
          unfold bmsg_ok in *. decompose [and] Hp. splits; auto.
        + exact (Hbl b' Hb).
      - unfold st3; proj. apply nodup_qset. apply (s_bl_nodup _ _ S).
      - unfold live_rids, st3. proj. rewrite Ex. apply (NoDup_count_occ Z.eq_dec). intros x. specialize (Hcnt x).
        change (m_rid m2 :: map e_rid (xdel k l) ++ back_rids (qset r rest (backlogs st))) with ([m_rid m2] ++ map e_rid (xdel k l) ++ back_rids (qset r rest (backlogs st))).
        rewrite !count_occ_app, cnt_qset. rewrite (cnt_qdel_split _ _ _ x (s_bl_nodup _ _ S) Q) in Hcnt.
        change (q_rids ((m2, m_rid m2) :: rest)) with ([m_rid m2] ++ q_rids rest) in Hcnt. rewrite count_occ_app in Hcnt. lia.
      - intros r' Hne. transitivity (in_backlogs st r'); [unfold in_backlogs, st3; proj; rewrite qget_qset_other; auto|].
        rewrite (Hns2 r' Hne). reflexivity.
      - exact HX2.
      - unfold rng_ok, st3. proj. rewrite Er. apply (s_rng _ _ S). }
    destruct (_send_initially st3 m2 (m_rid m2)) as [st4 o3] eqn:SI.
    apply (send_initially_struct seen) in SI; rewrite ?Hr2; auto.
    destruct SI as (S' & Hne3 & st1 & t & os2 & S1 & Hrg & E1 & E2 & E5 & E3 & E4 & V & ->).
    assert (E4' : backlogs st1 = qset r rest (backlogs st)).
    { rewrite E4, Hr2. assert (in_backlogs st3 r = true) as ->; [|reflexivity]. unfold in_backlogs, st3. proj. rewrite qget_qset_same. reflexivity. }
    (* the loop stops: the remote has an exchange again, or dispatch_error has dropped its backlog *)
    assert (Hloop : _continue_backlog_loop (Datatypes.S (length ((m2, m_rid m2) :: rest))) st4 r = (st4, [])).
    { rewrite loop_S. destruct (send_via_cases _ _ _ _ V) as [(_ & -> & _)|(_ & D)].
      - assert (HX4 : has_exchange_with st1 r = true).
        { apply has_exchange_iff. rewrite E3. eexists. split; [apply in_xset; left; reflexivity|]. unfold e_remote. cbn. exact Hr2. }
        assert (in_backlogs st1 r = true) as IB4 by (rewrite (s_nstart _ _ S1); exact HX4).
        unfold in_backlogs in IB4. destruct (qget r (backlogs st1)) as [q4|] eqn:Q4; [|discriminate]. rewrite HX4. reflexivity.
      - rewrite Hr2 in D. destruct (error_struct _ _ _ _ _ S1 D) as (_ & _ & _ & _ & Eb4 & _). rewrite Eb4, qget_qdel_same. reflexivity. }
    rewrite Hloop in H. inv H. rewrite app_nil_r. splits; auto; [apply no_error_app; auto|].
    exists t, st1, os2. unfold st3 in *. proj. splits; auto; try congruence.
    + intros p Hp Hf. rewrite E2. auto.
    + rewrite E3, Ex. unfold mk_timer. proj. rewrite En, Es. reflexivity.
Qed.

Lemma step_recv_struct : forall seen st r mid b st' o, Struct seen st -> _remove_exchange st r mid b = (st', o) ->
  Struct seen st' /\ no_error o.
Proof.
  intros seen st r mid b st' o S H. destruct (remove_shape _ _ _ _ _ _ _ S H) as [(X & -> & ->)|(mon & h & o1 & o2 & q & _ & _ & _ & _ & S' & Hne & _)]; auto.
  split; auto. apply no_error_nil.
Qed.

Lemma struct_set_now : forall seen st t, Struct seen st -> (forall e, In e (active_exchanges st) -> t <= h_due (e_timer e)) ->
  Struct seen (set_now st (Z.max (now st) t)).
Proof.
  intros seen st t S Ht. pose proof (s_ex _ _ S) as Hex. rewrite Forall_forall in Hex. destruct S. constructor; auto.
  - cbn. apply Forall_forall. intros e He. specialize (Hex e He). specialize (Ht e He). unfold entry_ok in *. cbn. decompose [and] Hex. splits; auto. lia.
Qed.

Definition gave_up_outputs (st : state) (r : Z) : list output :=
  map (fun q => OFail (now st) (fst q) ConRetransmitsExceeded) (filter (fun q => snd q =? r) (outgoing_requests st)).

Lemma retransmit_struct : forall seen st e1 h st' o, Struct seen st -> In e1 (active_exchanges st) -> e_timer e1 = h ->
  _retransmit st h = (st', o) ->
  let m := h_message h in let k := (m_remote m, m_mid m) in
  Struct seen st' /\ no_error o /\ now st' = now st /\ xget k (active_exchanges st) = Some (m_rid m, h) /\
  ( (h_counter h < MAX_RETRANSMIT (m_tuning m) /\ exists st1, Struct seen st1 /\ now st1 = now st /\ refusing st1 = refusing st /\
     active_exchanges st1 = xset k (m_rid m, mk_timer st m (h_timeout h * 2) (h_counter h + 1)) (xdel k (active_exchanges st)) /\
     backlogs st1 = backlogs st /\ outgoing_requests st1 = outgoing_requests st /\
     _send_via_transport st1 m = (st', o))
    \/
    (h_counter h = MAX_RETRANSMIT (m_tuning m) /\ o = gave_up_outputs st (m_remote m) /\
     active_exchanges st' = xdel k (active_exchanges st) /\ backlogs st' = qdel (m_remote m) (backlogs st) /\
     outgoing_requests st' = filter (fun q => negb (snd q =? m_remote m)) (outgoing_requests st)) ).
Proof.
  intros seen st e1 h st' o S Hin Hh H m k.
  pose proof (s_ex _ _ S) as Hex. rewrite Forall_forall in Hex. pose proof (Hex _ Hin) as Hok1.
  destruct e1 as [k1 [mon1 h1]]. unfold e_timer in Hh. cbn in Hh. subst h1.
  assert (k1 = k /\ mon1 = m_rid m) as [-> ->] by (destruct Hok1 as (A & B & _); cbn in A, B; split; [exact A|exact B]).
  assert (X : xget k (active_exchanges st) = Some (m_rid m, h)) by (apply xget_of_in; auto; apply (s_ex_nodup _ _ S)).
  destruct (pop_facts seen st k (m_rid m) h S X) as (_ & Hok & _ & _ & [q Q] & Hrest & Hbr & Hnd & Hcnt).
  unfold entry_ok in Hok. cbn [e_timer fst snd] in Hok. fold m in Hok. destruct Hok as (_ & _ & Hwf & Hc & Hnow & Hto & Hseen).
  unfold _retransmit in H. fold m k in H. rewrite X in H. cbn [fst] in Q, Hrest.
  pose proof (s_bl _ _ S) as Hbl. rewrite Forall_forall in Hbl.
  destruct (h_counter h <? MAX_RETRANSMIT (m_tuning m)) eqn:Hlt.
  - unfold _schedule_retransmit in H. proj.
    set (h2 := {| h_due := now st + h_timeout h * 2; h_seq := next_seq st; h_message := m; h_timeout := h_timeout h * 2; h_counter := h_counter h + 1 |}) in *.
    match type of H with _send_via_transport ?s _ = _ => set (st1 := s) in * end.
    assert (S1 : Struct seen st1); [|destruct (send_via_struct _ _ _ _ _ S1 H) as (S' & Hne & En); splits; auto; left; split; [lia|]; exists st1; splits; auto].
    unfold st1. constructor; proj.
    + apply Forall_forall. intros e He. apply in_xset in He. destruct He as [->|[He _]].
      * unfold entry_ok. cbn. splits; auto; lia.
      * apply Hrest in He. destruct He as [He _]. apply (Hex e He).
    + unfold xset. cbn [map]. constructor; [|apply NoDup_map_filter; auto].
      intros Hi. apply in_map_iff in Hi. destruct Hi as [e [He1 He2]]. apply in_xdel in He2. destruct He2 as [He2 _]. apply Hrest in He2. cbn in He1. tauto.
    + apply Forall_forall. intros b Hb. apply (Hbl b Hb).
    + apply (s_bl_nodup _ _ S).
    + unfold live_rids. proj. unfold xset. rewrite xdel_idem. apply (NoDup_count_occ Z.eq_dec). intros x. specialize (Hcnt x).
      change (map e_rid ((k, (m_rid m, h2)) :: xdel k (active_exchanges st))) with ([m_rid m] ++ map e_rid (xdel k (active_exchanges st))).
      rewrite !count_occ_app. lia.
    + intros r'. transitivity (in_backlogs st r'); [reflexivity|]. rewrite (s_nstart _ _ S). apply eq_true_iff_eq. rewrite !has_exchange_iff. proj.
      split; intros [e [He1 He2]].
      * destruct (key_eqb (fst e) k) eqn:Ek.
        -- exists (k, (m_rid m, h2)). split; [apply in_xset; auto|]. apply key_eqb_true in Ek. unfold e_remote in *. rewrite <- Ek. exact He2.
        -- exists e. split; auto. apply in_xset. right. apply key_eqb_false in Ek. split; auto. apply in_xdel. auto.
      * apply in_xset in He1. destruct He1 as [->|[He1 _]].
        -- exists (k, (m_rid m, h)). split; auto.
        -- apply Hrest in He1. exists e. tauto.
    + apply (s_rng _ _ S).
  - assert (Q' : qget (m_remote m) (backlogs st) = Some q) by exact Q. proj. rewrite Q' in H. unfold tm_dispatch_error in H. inv H. proj. splits; auto.
    2:{ apply fails_no_error. }
    2:{ right. splits; auto. lia. }
    apply (struct_drop seen st _ (m_remote m) S); proj; auto. apply (xdel_drop seen st k _ S X).
Qed.

Lemma next_timer_facts : forall st h, next_timer st = Some h ->
  exists e, In e (active_exchanges st) /\ e_timer e = h /\ forall e', In e' (active_exchanges st) -> h_due h <= h_due (e_timer e').
Proof.
  intros st h H. unfold next_timer in H. destruct (min_timer_in _ _ H) as [e [He1 He2]]. exists e. splits; auto.
  intros e' He'. eapply min_timer_le; eauto.
Qed.

Lemma set_now_same : forall st, set_now st (now st) = st.
Proof. destruct st; reflexivity. Qed.

(* when a timer fires the clock is exactly its due time: the clock never passes a pending timer, and a timer that fires is due *)
Lemma fire_cases : forall seen st e st' o, Struct seen st -> e = EFire \/ e = EFireDue -> step st e = (st', o) ->
  (st' = st /\ o = [] /\ (next_timer st = None \/ exists h, next_timer st = Some h /\ e = EFireDue /\ now st < h_due h)) \/
  exists h x sta, next_timer st = Some h /\ sta = set_now st (Z.max (now st) (h_due h)) /\
    Struct seen sta /\ In x (active_exchanges sta) /\ e_timer x = h /\ now sta = h_due h /\ _retransmit sta h = (st', o).
Proof.
  intros seen st e st' o S He H.
  destruct (next_timer st) as [h|] eqn:N; [|left; destruct He; subst; cbn [step] in H; rewrite N in H; inv H; auto].
  destruct (next_timer_facts _ _ N) as (x & Hx & Hh & Hmin).
  assert (Hdue : now st <= h_due h).
  { pose proof (s_ex _ _ S) as Hex. rewrite Forall_forall in Hex. specialize (Hex x Hx). unfold entry_ok in Hex. rewrite Hh in Hex. tauto. }
  assert (Sa : Struct seen (set_now st (Z.max (now st) (h_due h)))) by (apply struct_set_now; auto).
  destruct He; subst e; cbn [step] in H; rewrite N in H.
  - right. exists h, x, (set_now st (Z.max (now st) (h_due h))). splits; auto. cbn. lia.
  - destruct (h_due h <=? now st) eqn:D; [|left; injection H as <- <-; splits; auto; right; exists h; splits; auto; lia]. right. exists h, x, (set_now st (Z.max (now st) (h_due h))). splits; auto; [cbn; lia|].
    replace (Z.max (now st) (h_due h)) with (now st) by lia. rewrite set_now_same. exact H.
Qed.

Lemma struct_outgoing : forall seen st o, Struct seen st -> Struct seen (set_outgoing st o).
Proof. intros. apply (struct_frame seen st); auto; try reflexivity; try (cbn; lia). Qed.

(* a response datagram: the piggy-backed ACK acts like an ACK; the token manager then forgets the answered request ([st2]); a
   CON response is answered by an empty ACK / RST, which a refusing transport turns into dispatch_error for that remote *)
Lemma response_shape : forall seen st r ty mid rid st' o, Struct seen st -> dispatch_response st r ty mid rid = (st', o) ->
  exists st1 o1 st2 o2 o3, (if ty =? 0 then _remove_exchange st r mid false else (st, [])) = (st1, o1) /\ o = o1 ++ o2 ++ o3 /\
    Struct seen st1 /\ no_error o1 /\ Struct seen st2 /\
    now st2 = now st1 /\ active_exchanges st2 = active_exchanges st1 /\ backlogs st2 = backlogs st1 /\
    incl (outgoing_requests st2) (outgoing_requests st1) /\
    (forall p, In p (outgoing_requests st1) -> fst p <> rid -> In p (outgoing_requests st2)) /\
    (o2 = [] \/ o2 = [OResult (now st1) rid]) /\
    ((st' = st2 /\ (o3 = [] \/ exists b, o3 = [OEmpty (now st1) b r mid])) \/
     (is_refusing st2 r = true /\ mm_dispatch_error st2 r = (st', o3))).
Proof.
  intros seen st r ty mid rid st' o S H. unfold dispatch_response in H.
  destruct (if ty =? 0 then _remove_exchange st r mid false else (st, [])) as [st1 o1] eqn:E1.
  assert (S1 : Struct seen st1 /\ no_error o1).
  { destruct (ty =? 0); [eapply step_recv_struct; eauto|]. inv E1. split; auto. apply no_error_nil. }
  destruct S1 as [S1 Hn1].
  destruct (tm_process_response st1 rid r) as [[success st2] o2] eqn:P.
  assert (P' : Struct seen st2 /\ now st2 = now st1 /\ active_exchanges st2 = active_exchanges st1 /\ backlogs st2 = backlogs st1 /\
               incl (outgoing_requests st2) (outgoing_requests st1) /\
               (forall p, In p (outgoing_requests st1) -> fst p <> rid -> In p (outgoing_requests st2)) /\
               (o2 = [] \/ o2 = [OResult (now st1) rid])).
  { unfold tm_process_response in P. destruct (existsb _ (outgoing_requests st1)); inv P; splits; auto; try (apply struct_outgoing; auto); proj.
    - intros p Hp. apply filter_In in Hp. tauto.
    - intros p Hp Hf. apply (in_filter_ne fst). auto.
    - intros p Hp. exact Hp. }
  destruct P' as (S2 & En & Ex & Eb & Hinc & Hkeep & Ho2).
  destruct (if ty =? 1 then if success then send_empty st2 false r mid else send_empty st2 true r mid else (st2, [])) as [st3 o3] eqn:E3.
  inv H. exists st1, o1, st2, o2, o3. splits; auto.
  destruct (ty =? 1); [|inv E3; left; auto].
  unfold send_empty in E3. destruct (is_refusing st2 r) eqn:IR.
  - right. destruct success; auto.
  - left. rewrite <- En. destruct success; inv E3; split; auto; right; eexists; reflexivity.
Qed.

Lemma step_struct : forall seen st e st' o, Struct seen st -> wf_event seen e -> step st e = (st', o) ->
  Struct (seen_after seen e) st' /\ no_error o.
Proof.
  intros seen st e st' o S W H. destruct e as [rid r tn|r b mid|t| | |r|rid|r ty mid rid|r on]; cbn [step seen_after] in *.
  - (* ERequest *) destruct W as [W1 W2]. destruct (request_shape _ _ _ _ _ _ _ S W1 W2 H) as (S' & Hne & _). auto.
  - (* ERecv *) eapply step_recv_struct; eauto.
  - (* EWaitUntil *) inv H. split; [|apply no_error_nil]. destruct (next_timer st) as [h|] eqn:N.
    + destruct (next_timer_facts _ _ N) as (e & He1 & He2 & Hmin). apply struct_set_now; auto. intros e' He'. specialize (Hmin e' He'). lia.
    + apply struct_set_now; auto. unfold next_timer in N. apply min_timer_none in N. rewrite N. intros e' [].
  - (* EFire *) destruct (fire_cases _ _ _ _ _ S (or_introl eq_refl) H) as [(-> & -> & _)|(h & x & sta & _ & -> & Sa & Hx & Hh & _ & R)]; [split; auto; apply no_error_nil|].
    destruct (retransmit_struct _ _ _ _ _ _ Sa Hx Hh R) as (S' & Hne & _). auto.
  - (* EFireDue *) destruct (fire_cases _ _ _ _ _ S (or_intror eq_refl) H) as [(-> & -> & _)|(h & x & sta & _ & -> & Sa & Hx & Hh & _ & R)]; [split; auto; apply no_error_nil|].
    destruct (retransmit_struct _ _ _ _ _ _ Sa Hx Hh R) as (S' & Hne & _). auto.
  - (* EError *) destruct (error_struct _ _ _ _ _ S H) as (S' & Hn & _). auto.
  - (* ECancel *) inv H. split; [apply struct_outgoing; auto|apply no_error_nil].
  - (* EResponse *) destruct (response_shape _ _ _ _ _ _ _ _ S H) as (st1 & o1 & st2 & o2 & o3 & E1 & -> & S1 & Hn1 & S2 & _ & _ & _ & _ & _ & Ho2 & Hc).
    assert (Hn2 : no_error o2) by (destruct Ho2 as [->| ->]; intros t e Hi; cbn in Hi; intuition discriminate).
    destruct Hc as [(-> & Ho3)|(_ & D)].
    + split; auto. apply no_error_app; auto. apply no_error_app; auto.
      destruct Ho3 as [->|[b ->]]; intros t e Hi; cbn in Hi; intuition discriminate.
    + destruct (error_struct _ _ _ _ _ S2 D) as (S3 & Hn3 & _). split; auto. apply no_error_app; auto. apply no_error_app; auto.
  - (* ERefuse *) inv H. split; [|apply no_error_nil]. destruct S. constructor; auto.
Qed.

Lemma struct_init : forall mid0 draws, Forall (fun n => 0 <= n <= RNG_DEN) draws -> Struct [] (init mid0 draws).
Proof.
  intros. constructor; cbn; auto; try constructor.
Qed.
