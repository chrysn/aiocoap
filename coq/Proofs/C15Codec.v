(* C15 — proofs about _serialize / _decode_message (hand model over the translated field coders). *)
From Verif Require Import Lib.Py Lib.Tactics Lib.PyLemmas Gen.options_ext Gen.tcp_framing Model.C15 Proofs.C15Framing.
Open Scope Z_scope.

(* _read_extended_field_value without the index arithmetic *)
Lemma read_extended_field_value_eq nib raw : read_extended_field_value nib raw =
  if (nib >=? 0) && (nib <? 13) then Ok (nib, raw)
  else if nib =? 13 then match raw with e0 :: r => Ok (e0 + 13, r) | [] => Raise UnparsableMessage end
  else if nib =? 14 then match raw with e0 :: e1 :: r => Ok (e0 * 256 + e1 + 269, r) | _ => Raise UnparsableMessage end
  else Raise UnparsableMessage.
Proof.
  unfold read_extended_field_value. destruct ((nib >=? 0) && (nib <? 13)); [reflexivity|].
  destruct (nib =? 13).
  { destruct raw as [|e0 r]; [reflexivity|]. rewrite blen_cons. pose proof (blen_nonneg r).
    replace (1 + blen r <? 1) with false by lia. rewrite bget_cons0. reflexivity. }
  destruct (nib =? 14); [|reflexivity]. destruct raw as [|e0 [|e1 r]]; try reflexivity.
  rewrite !blen_cons. pose proof (blen_nonneg r). replace (1 + (1 + blen r) <? 2) with false by lia. reflexivity.
Qed.

Lemma write_read_ext : forall v nib ext rest, write_extended_field_value v = Ok (nib, ext) ->
  read_extended_field_value nib (ext ++ rest) = Ok (v, rest) /\ 0 <= nib < 15 /\ bytes_ok ext = true /\ 0 <= v < 65805.
Proof.
  intros v nib ext rest H. rewrite read_extended_field_value_eq. unfold write_extended_field_value, to_bytes_big in H.
  change (2 ^ (8 * 1)) with 256 in H. change (2 ^ (8 * 2)) with 65536 in H.
  destruct ((v >=? 0) && (v <? 13)) eqn:H1.
  { inv H. rewrite H1. repeat split; lia. }
  destruct ((v >=? 13) && (v <? 269)) eqn:H2.
  { replace ((v - 13 <? 0) || (256 <=? v - 13)) with false in H by lia. inv H. cbn.
    replace ((v - 13) mod 256 + 13) with v by lia. unfold byte_ok. repeat split; lia. }
  destruct ((v >=? 269) && (v <? 65805)) eqn:H3; [|discriminate].
  replace ((v - 269 <? 0) || (65536 <=? v - 269)) with false in H by lia. inv H. cbn.
  replace ((v - 269) / 256 mod 256 * 256 + (v - 269) mod 256 + 269) with v by lia. unfold byte_ok. repeat split; lia.
Qed.

Lemma option_head_byte : forall d l, 0 <= d < 15 -> 0 <= l < 15 ->
  let b0 := Z.shiftl (Z.land d 15) 4 + Z.land l 15 in
  (b0 =? 255) = false /\ Z.shiftr (Z.land b0 240) 4 = d /\ Z.land b0 15 = l /\ byte_ok b0 = true.
Proof.
  intros d l Hd Hl.
  pose proof (forall_range2 (fun d l => let b0 := Z.shiftl (Z.land d 15) 4 + Z.land l 15 in
     negb (b0 =? 255) && (Z.shiftr (Z.land b0 240) 4 =? d) && (Z.land b0 15 =? l) && byte_ok b0)
     15 15 ltac:(vm_compute; reflexivity) d l ltac:(lia) ltac:(lia)) as H.
  cbv beta zeta in *. repeat (apply andb_prop in H as [H ?]). apply negb_true_iff in H.
  split; [exact H|]. split; [lia|]. split; [lia|assumption].
Qed.

Lemma options_decode_loop_cons k num b0 rest :
  options_decode_loop (S k) num (b0 :: rest) =
  if b0 =? 255 then Ok ([], rest)
  else
    '(delta, r1) <- read_extended_field_value (Z.shiftr (Z.land b0 240) 4) rest ;;
    '(length, r2) <- read_extended_field_value (Z.land b0 15) r1 ;;
    if blen r2 <? length then Raise UnparsableMessage
    else
      v <- option_value (num + delta) (bto r2 length) ;;
      '(os, p) <- options_decode_loop k (num + delta) (bfrom r2 length) ;;
      Ok ((num + delta, v) :: os, p).
Proof. reflexivity. Qed.

Lemma options_encode_from_cons cur n v r enc : options_encode_from cur ((n, v) :: r) = Ok enc ->
  exists d de l le renc, write_extended_field_value (n - cur) = Ok (d, de) /\
    write_extended_field_value (blen v) = Ok (l, le) /\ options_encode_from n r = Ok renc /\
    enc = (Z.shiftl (Z.land d 15) 4 + Z.land l 15) :: de ++ le ++ v ++ renc.
Proof.
  cbn [options_encode_from]. intros H.
  apply bind_ok in H as ([d de] & Hd & H). apply bind_ok in H as ([l le] & Hl & H). apply bind_ok in H as (renc & Hr & H).
  injection H as <-. exists d, de, l, le, renc. auto.
Qed.

Definition tail_ok (tail p : bytes) : Prop := (tail = [] /\ p = []) \/ tail = 255 :: p.

Lemma options_roundtrip : forall os cur enc tail p f,
  opts_ok cur os = true -> options_encode_from cur os = Ok enc -> tail_ok tail p ->
  (length enc < f)%nat ->
  options_decode_loop f cur (enc ++ tail) = Ok (os, p) /\ bytes_ok enc = true.
Proof.
  induction os as [|[n v] r IH]; intros cur enc tail p f Hok Henc Htail Hf.
  - cbn in Henc. inv Henc. destruct f as [|k]; [cbn in Hf; lia|]. cbn [app].
    destruct Htail as [[-> ->]| ->]; cbn; auto.
  - cbn [opts_ok] in Hok. apply andb_prop in Hok as [Ho Hr]. unfold opt_ok in Ho. cbn [fst snd] in Ho, Hr.
    repeat (apply andb_prop in Ho as [Ho ?]).
    apply options_encode_from_cons in Henc as (d & de & l & le & renc & Hd & Hl & Hrenc & ->).
    destruct f as [|k]; [cbn in Hf; lia|].
    destruct (option_value n v) as [v'|] eqn:Hv; [|discriminate].
    match goal with H : beqb v' v = true |- _ => apply list_eqb_Z_eq in H; subst v' end.
    pose proof (write_read_ext _ _ _ (le ++ v ++ renc ++ tail) Hd) as (Hrd & Hdn & Hdeok & _).
    pose proof (write_read_ext _ _ _ (v ++ renc ++ tail) Hl) as (Hrl & Hln & Hleok & _).
    destruct (option_head_byte d l Hdn Hln) as (Hne & Hdd & Hll & Hb0).
    destruct (IH n renc tail p k Hr Hrenc Htail ltac:(cbn [length] in Hf; rewrite !app_length in Hf; lia)) as (IH1 & IH2).
    split.
    + cbn [app]. rewrite options_decode_loop_cons. rewrite Hne, Hdd, Hll.
      rewrite <- !app_assoc. rewrite Hrd. cbn [bind]. rewrite Hrl. cbn [bind].
      replace (blen (v ++ renc ++ tail) <? blen v) with false
        by (rewrite blen_app; pose proof (blen_nonneg (renc ++ tail)); lia).
      replace (cur + (n - cur)) with n by lia.
      rewrite bto_app, bfrom_app, Hv. cbn [bind]. rewrite IH1. reflexivity.
    + cbn [app]. rewrite bytes_ok_cons, !bytes_ok_app, Hb0, Hdeok, Hleok, IH2.
      match goal with H : bytes_ok v = true |- _ => rewrite H end. reflexivity.
Qed.

Lemma bget_app_mid p y q : bget (p ++ y :: q) (blen p) = Ok y.
Proof.
  unfold bget. pose proof (blen_nonneg p). rewrite blen_app, blen_cons. pose proof (blen_nonneg q).
  replace ((blen p <? 0) || (blen p + (1 + blen q) <=? blen p)) with false by lia.
  unfold blen. rewrite Nat2Z.id. rewrite app_nth2, Nat.sub_diag by lia. reflexivity.
Qed.
Lemma bslice_mid {A} (p t q : list A) : bslice (p ++ t ++ q) (blen p) (blen p + blen t) = t.
Proof.
  unfold bslice. rewrite app_assoc. replace (blen p + blen t) with (blen (p ++ t)) by (rewrite blen_app; reflexivity).
  change (firstn (Z.to_nat (blen (p ++ t))) ((p ++ t) ++ q)) with (bto ((p ++ t) ++ q) (blen (p ++ t))).
  rewrite bto_app. change (skipn (Z.to_nat (blen p)) (p ++ t)) with (bfrom (p ++ t) (blen p)). apply bfrom_app.
Qed.

(* option_list(): a list already in non-decreasing number order is left alone *)
Lemma insert_opt_last o acc : (forall x, In x acc -> fst x <= fst o) -> insert_opt o acc = acc ++ [o].
Proof.
  induction acc as [|x acc IH]; intros H; [reflexivity|].
  cbn [insert_opt]. replace (fst o <? fst x) with false by (specialize (H x (or_introl eq_refl)); lia).
  cbn [app]. f_equal. apply IH. intros y Hy. apply H. right. exact Hy.
Qed.
Lemma option_list_sorted_aux : forall os cur acc, opts_ok cur os = true -> (forall x, In x acc -> fst x <= cur) ->
  fold_left (fun acc o => insert_opt o acc) os acc = acc ++ os.
Proof.
  induction os as [|o r IH]; intros cur acc Hok Hacc; [cbn; rewrite app_nil_r; reflexivity|].
  cbn [opts_ok] in Hok. apply andb_prop in Hok as [Ho Hr]. unfold opt_ok in Ho.
  repeat (apply andb_prop in Ho as [Ho ?]).
  cbn [fold_left]. rewrite insert_opt_last by (intros x Hx; specialize (Hacc x Hx); lia).
  rewrite (IH (fst o) (acc ++ [o]) Hr).
  - rewrite <- app_assoc. reflexivity.
  - intros x Hx. apply in_app_or in Hx as [Hx|[<-|[]]]; [specialize (Hacc x Hx); lia|lia].
Qed.
Lemma option_list_sorted_id cur os : opts_ok cur os = true -> option_list os = os.
Proof. intros H. unfold option_list. rewrite (option_list_sorted_aux os cur [] H); [reflexivity|intros x []]. Qed.
Lemma canon_ok m : msg_ok m = true -> canon m = m.
Proof.
  intros H. unfold msg_ok in H. repeat (apply andb_prop in H as [H ?]).
  unfold canon. rewrite (option_list_sorted_id 0 (opts m)) by assumption. destruct m; reflexivity.
Qed.

Lemma serialize_inv m b : serialize m = Ok b ->
  exists od, options_encode (option_list (opts m)) = Ok od /\
    let data := od ++ (match payload m with [] => [] | _ => 255 :: payload m end) in
    0 <= blen data < 65805 + 2 ^ 32 /\ blen (token m) <= 8 /\
    b = (Z.lor (Z.shiftl (fst (rfc8323_len (blen data))) 4) (blen (token m)) :: snd (rfc8323_len (blen data)))
        ++ [code m] ++ token m ++ data.
Proof.
  unfold serialize. intros H.
  apply bind_ok in H as (od & Hod & H). exists od. split; [exact Hod|]. cbv zeta.
  set (data := od ++ match payload m with [] => [] | _ :: _ => 255 :: payload m end) in *.
  pose proof (blen_nonneg data) as Hd0.
  destruct (Z_lt_ge_dec (blen data) (65805 + 2 ^ 32)) as [Hlt|Hge].
  2:{ rewrite encode_length_overflow in H by lia. discriminate. }
  rewrite encode_length_rfc8323 in H by lia. cbn [bind] in H.
  destruct (rfc8323_len (blen data)) as [len ext] eqn:Hlen. cbn [fst snd].
  destruct (blen (token m) >? 8) eqn:Htk; [discriminate|].
  injection H as H. split; [lia|]. split; [lia|]. rewrite <- H. reflexivity.
Qed.

(* _decode_message on a frame laid out as header bytes, code, token, rest *)
Lemma decode_message_layout hd c tok data l :
  header (hd ++ [c] ++ tok ++ data) = Some (blen hd + 1, blen tok, l) -> blen tok <= 8 ->
  decode_message (hd ++ [c] ++ tok ++ data) =
  ('(os, p) <- options_decode data ;; Ok {| code := c; token := tok; opts := os; payload := p |}).
Proof.
  intros Hh Ht. unfold decode_message. rewrite extract_message_size_spec, Hh. cbn [bind].
  replace (blen tok >? 8) with false by lia. replace (blen hd + 1 - 1) with (blen hd) by lia.
  cbn [app]. rewrite bget_app_mid. cbn [bind].
  change (hd ++ c :: tok ++ data) with (hd ++ [c] ++ tok ++ data). rewrite app_assoc.
  change (blen hd + 1) with (blen hd + blen [c]). rewrite <- blen_app, bslice_mid, <- blen_app, app_assoc, bfrom_app.
  reflexivity.
Qed.

Lemma decode_serialize_any : forall m b, msg_ok (canon m) = true -> serialize m = Ok b ->
  decode_message b = Ok (canon m) /\ bytes_ok b = true /\
  exists a l, header b = Some (a, blen (token m), l) /\ a + blen (token m) + l = blen b /\ 2 <= a.
Proof.
  intros m b Hok Hser.
  destruct (serialize_inv m b Hser) as (od & Hod & Hn & Htk & Hb). cbv zeta in *.
  set (tail := match payload m with [] => [] | _ :: _ => 255 :: payload m end) in *.
  unfold msg_ok in Hok. cbn [canon code token opts payload] in Hok. repeat (apply andb_prop in Hok as [Hok ?]).
  pose proof (blen_nonneg (token m)) as Ht0.
  destruct (rfc8323_len_spec (blen (od ++ tail)) Hn) as (Hnib & Hextok & _).
  destruct (nibbles_split (fst (rfc8323_len (blen (od ++ tail)))) (blen (token m)) Hnib ltac:(lia)) as (_ & _ & Hb0).
  assert (Hhdr : header b = Some (2 + blen (snd (rfc8323_len (blen (od ++ tail)))), blen (token m), blen (od ++ tail)))
    by (rewrite Hb; apply length_roundtrip; lia).
  set (b0 := Z.lor _ _) in *. set (ext := snd _) in *.
  assert (Htail : tail_ok tail (payload m) /\ bytes_ok tail = true).
  { unfold tail. destruct (payload m); [split; [left|]; auto|split; [right; reflexivity|]].
    rewrite bytes_ok_cons. assumption. }
  destruct (options_roundtrip (option_list (opts m)) 0 od tail (payload m) (S (length (od ++ tail)))
              ltac:(assumption) Hod (proj1 Htail) ltac:(rewrite app_length; lia)) as (Hdec & Hodok).
  assert (Hl : blen (b0 :: ext) + 1 = 2 + blen ext) by (rewrite blen_cons; lia).
  split; [|split].
  - rewrite Hb, <- Hl in Hhdr. rewrite Hb, (decode_message_layout _ _ _ _ _ Hhdr Htk).
    unfold options_decode. rewrite Hdec. reflexivity.
  - rewrite Hb. cbn [app]. rewrite bytes_ok_cons, bytes_ok_app, bytes_ok_cons, !bytes_ok_app, Hodok, Hextok, (proj2 Htail).
    replace (byte_ok b0) with true by (unfold byte_ok; lia).
    replace (byte_ok (code m)) with true by (unfold byte_ok; lia).
    match goal with H : bytes_ok (token m) = true |- _ => rewrite H end. reflexivity.
  - exists (2 + blen ext), (blen (od ++ tail)). pose proof (blen_nonneg ext). split; [exact Hhdr|]. split; [|lia].
    rewrite Hb, !blen_app, blen_cons. change (blen [code m]) with 1. lia.
Qed.

Lemma decode_serialize : forall m b, msg_ok m = true -> serialize m = Ok b ->
  decode_message b = Ok m /\ bytes_ok b = true /\
  exists a l, header b = Some (a, blen (token m), l) /\ a + blen (token m) + l = blen b /\ 2 <= a.
Proof.
  intros m b Hok Hser. pose proof (canon_ok m Hok) as Hc.
  pose proof (decode_serialize_any m b ltac:(rewrite Hc; exact Hok) Hser) as H. rewrite Hc in H. exact H.
Qed.
