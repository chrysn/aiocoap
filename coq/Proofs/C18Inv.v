(* C18 — the bookkeeping invariant of the message manager (Model/C18.v) that makes shutdown complete:
   every cancellable timer (retransmission, empty ACK) is referenced from _active_exchanges or
   _piggyback_opportunities, in every state reachable from a fresh context.  It rests on the NSTART bookkeeping
   (at most one exchange per remote, that remote has a _backlogs entry, messages queued for a remote are addressed
   to it) and on stored duplicate-replies never being CON, so that _add_exchange never overwrites a live entry. *)
From Verif Require Import Lib.Py Lib.PyLemmas Lib.Tactics Model.C18 Proofs.C18.
Open Scope Z_scope.

Definition pkey (p : piggy) : Z * Z := (p_remote p, p_tok p).

Record WFm (s : mmst) (xs : list exchange) : Prop := {
  wf_ex : exchanges s = Some xs;
  wf_own : forall t, In t (timers s) -> In (t_id t) (map x_timer xs) \/ In (t_id t) (map p_timer (piggys s));
  wf_bl : forall x, In x xs -> has_backlog s (x_remote x) = true;
  wf_one : NoDup (map x_remote xs);
  wf_stored : forall e m, In e (recents s) -> r_stored e = Some m -> m_type m <> CON;
  wf_pk : NoDup (map pkey (piggys s));
  wf_ea : forall t r tok, In t (timers s) -> t_kind t = TEmptyAck r tok ->
            exists p, In p (piggys s) /\ p_remote p = r /\ p_tok p = tok /\ p_timer p = t_id t;
  wf_items : forall b m mon, In b (backlogs s) -> In (m, mon) (b_items b) -> m_remote m = b_remote b }.
Definition WF (s : mmst) : Prop := exists xs, WFm s xs.

Lemma WF_owned s : WF s -> timers_owned s.
Proof. intros [xs H]. unfold timers_owned. rewrite (wf_ex _ _ H). exact (wf_own _ _ H). Qed.

Lemma has_exchange_false xs r : has_exchange xs r = false <-> forall x, In x xs -> x_remote x <> r.
Proof.
  unfold has_exchange. split.
  - intros H x Ix E. assert (existsb (fun x => x_remote x =? r) xs = true); [|congruence].
    apply existsb_exists. exists x. split; [exact Ix|apply Z.eqb_eq; exact E].
  - intro H. destruct (existsb (fun x => x_remote x =? r) xs) eqn:E; [|reflexivity].
    apply existsb_exists in E. destruct E as (x & Ix & Hx). apply Z.eqb_eq in Hx. exfalso. exact (H x Ix Hx).
Qed.
Lemma has_backlog_true s r : has_backlog s r = true <-> exists b, In b (backlogs s) /\ b_remote b = r.
Proof.
  unfold has_backlog. rewrite existsb_exists. split; intros (b & I & H); exists b; split; auto; apply Z.eqb_eq; exact H.
Qed.
Lemma exchange_is_true r mid x : exchange_is r mid x = true <-> x_remote x = r /\ x_mid x = mid.
Proof. unfold exchange_is. rewrite andb_true_iff, !Z.eqb_eq. tauto. Qed.
Lemma piggy_is_true r tok p : piggy_is r tok p = true <-> pkey p = (r, tok).
Proof. unfold piggy_is, pkey. rewrite andb_true_iff, !Z.eqb_eq. split; [intros [-> ->]; reflexivity|intro H; inversion H; auto]. Qed.

(* of the state, WFm reads these five fields; timers and stored replies may only go *)
Lemma WF_sub s s' xs : WFm s xs -> exchanges s' = exchanges s -> (forall t, In t (timers s') -> In t (timers s)) ->
  piggys s' = piggys s -> backlogs s' = backlogs s -> (forall e, In e (recents s') -> In e (recents s)) -> WFm s' xs.
Proof.
  intros [E Own Bl One St Pk Ea It] Ex Tm Pg Bk Rc. constructor; unfold has_backlog in *; rewrite ?Ex, ?Pg, ?Bk; eauto.
Qed.
Lemma WF_cancel s xs id : WFm s xs -> WFm (cancel s id) xs.
Proof. intro H. apply (WF_sub s _ xs H); auto. cbn. intros t I. apply filter_In in I. tauto. Qed.
Lemma WF_fold_cancel {A} (f : A -> Z) l : forall s xs, WFm s xs -> WFm (fold_left (fun a x => cancel a (f x)) l s) xs.
Proof. induction l as [|x l IH]; intros s xs H; cbn [fold_left]; [exact H|]. apply IH. apply WF_cancel. exact H. Qed.

Lemma WF_store s xs m : WFm s xs -> WFm (_store_response_for_duplicates s m) xs.
Proof.
  intros H. unfold _store_response_for_duplicates. destruct (is_ack_or_rst (m_type m)) eqn:T; cbn [negb]; [|exact H].
  destruct H as [E Own Bl One St Pk Ea It]. constructor; cbn; auto.
  intros e m' I S. apply in_map_iff in I. destruct I as (e0 & <- & I0).
  destruct (recent_is (m_remote m) (m_mid m) e0).
  - cbn in S. inversion S; subst. intro C. rewrite C in T. discriminate.
  - exact (St e0 m' I0 S).
Qed.
Lemma WF_recents_app s xs r mid : WFm s xs ->
  WFm (mm_set_recents s (recents s ++ [{| r_remote := r; r_mid := mid; r_stored := None |}])) xs.
Proof.
  intros [E Own Bl One St Pk Ea It]. constructor; cbn; auto.
  intros e m I S. apply in_app_or in I. destruct I as [I|[<-|[]]]; [exact (St e m I S)|discriminate S].
Qed.

Lemma has_backlog_set_items s r items r' : has_backlog (set_backlog_items s r items) r' = has_backlog s r'.
Proof.
  unfold has_backlog, set_backlog_items. cbn. induction (backlogs s) as [|b l IH]; cbn; [reflexivity|]. rewrite IH. f_equal.
  destruct (b_remote b =? r) eqn:E; cbn; [|reflexivity]. apply Z.eqb_eq in E. rewrite E. reflexivity.
Qed.
Lemma WF_set_items s xs r items : WFm s xs -> (forall m mon, In (m, mon) items -> m_remote m = r) ->
  WFm (set_backlog_items s r items) xs.
Proof.
  intros [E Own Bl One St Pk Ea It] Hi. constructor; try (cbn; auto; fail).
  - intros x Ix. rewrite has_backlog_set_items. apply Bl. exact Ix.
  - intros b m mon Ib Im. cbn in Ib. apply in_map_iff in Ib. destruct Ib as (b0 & <- & Ib0).
    destruct (b_remote b0 =? r); cbn in *; [apply Hi with mon; exact Im|apply (It b0 m mon); assumption].
Qed.
Lemma WF_del_backlog s xs r : WFm s xs -> has_exchange xs r = false -> WFm (del_backlog s r) xs.
Proof.
  intros [E Own Bl One St Pk Ea It] Hx. constructor; try (cbn; auto; fail).
  - intros x Ix. pose proof (Bl x Ix) as B. apply has_backlog_true in B. destruct B as (b & Ib & Hb).
    apply has_backlog_true. exists b. split; [|exact Hb]. cbn. apply filter_In. split; [exact Ib|].
    rewrite Hb. destruct (x_remote x =? r) eqn:Q; [|reflexivity]. apply Z.eqb_eq in Q.
    exfalso. exact (proj1 (has_exchange_false xs r) Hx x Ix Q).
  - intros b m mon Ib. cbn in Ib. apply filter_In in Ib. apply It. tauto.
Qed.

(* _active_exchanges.pop(key) followed by cancelling the popped entry's timer *)
Lemma WF_pop_exchange s xs r mid x : WFm s xs -> find (exchange_is r mid) xs = Some x ->
  let xs' := filter (fun x => negb (exchange_is r mid x)) xs in
  WFm (cancel (mm_set_exchanges s (Some xs')) (x_timer x)) xs' /\ has_exchange xs' r = false /\ has_backlog s r = true.
Proof.
  intros [E Own Bl One St Pk Ea It] F. cbv zeta. apply find_some in F. destruct F as [Ix Kx].
  apply exchange_is_true in Kx. destruct Kx as [Kr Km].
  assert (Uniq : forall y, In y xs -> x_remote y = r -> y = x).
  { intros y Iy Hy. apply (NoDup_map_inj_in x_remote xs); auto. congruence. }
  split; [|split; [|rewrite <- Kr; apply Bl; exact Ix]].
  - constructor; cbn; auto.
    + intros t I. apply filter_In in I. destruct I as [I Hid]. destruct (Own t I) as [O|O]; [|right; exact O].
      left. apply in_map_iff in O. destruct O as (y & Hy & Iy). apply in_map_iff. exists y. split; [exact Hy|].
      apply filter_In. split; [exact Iy|]. destruct (exchange_is r mid y) eqn:Q; [|reflexivity].
      apply exchange_is_true in Q. assert (y = x) by (apply Uniq; tauto). subst y.
      rewrite Hy, Z.eqb_refl in Hid. discriminate.
    + intros y Iy. apply filter_In in Iy. apply Bl. tauto.
    + apply NoDup_map_filter. exact One.
    + intros t r0 tok I K. apply filter_In in I. apply (Ea t r0 tok); tauto.
  - apply has_exchange_false. intros y Iy Hy. apply filter_In in Iy. destruct Iy as [Iy Q].
    assert (y = x) by (apply Uniq; assumption). subst y.
    assert (exchange_is r mid x = true) by (apply exchange_is_true; tauto). rewrite H in Q. discriminate.
Qed.

(* arming a retransmission timer and entering the exchange, for a remote that has no exchange but a backlog entry *)
Lemma WF_add_entry s xs m timeout count mon : WFm s xs -> has_exchange xs (m_remote m) = false ->
  has_backlog s (m_remote m) = true ->
  let '(s1, id) := _schedule_retransmit s m timeout count in
  let xs' := xs ++ [{| x_remote := m_remote m; x_mid := m_mid m; x_mon := mon; x_timer := id |}] in
  WFm (mm_set_exchanges s1 (Some xs')) xs'.
Proof.
  intros [E Own Bl One St Pk Ea It] Hx Hb. unfold _schedule_retransmit, call_later. cbv zeta.
  constructor; cbn; auto.
  - intros t I. apply in_app_or in I. destruct I as [I|[<-|[]]].
    + destruct (Own t I) as [O|O]; [left|right; exact O]. rewrite map_app. apply in_or_app. left. exact O.
    + left. rewrite map_app. apply in_or_app. right. left. reflexivity.
  - intros x Ix. apply in_app_or in Ix. destruct Ix as [Ix|[<-|[]]]; [apply Bl; exact Ix|exact Hb].
  - rewrite map_app. cbn. apply NoDup_snoc; [exact One|].
    intro I. apply in_map_iff in I. destruct I as (y & Hy & Iy). exact (proj1 (has_exchange_false xs _) Hx y Iy Hy).
  - intros t r tok I K. apply in_app_or in I. destruct I as [I|[<-|[]]]; [exact (Ea t r tok I K)|discriminate K].
Qed.

Lemma has_backlog_app s r r' : has_backlog (mm_set_backlogs s (backlogs s ++ [{| b_remote := r; b_items := [] |}])) r' =
  has_backlog s r' || (r =? r').
Proof. unfold has_backlog. cbn. rewrite existsb_app. cbn. rewrite orb_false_r. reflexivity. Qed.

Lemma filter_no_exchange xs r mid : has_exchange xs r = false -> filter (fun x => negb (exchange_is r mid x)) xs = xs.
Proof.
  intro H. apply filter_all. intros x Ix. destruct (exchange_is r mid x) eqn:Q; [|reflexivity].
  apply exchange_is_true in Q. exfalso. exact (proj1 (has_exchange_false xs r) H x Ix (proj1 Q)).
Qed.

Lemma WF_add_exchange s xs m mon : WFm s xs -> has_exchange xs (m_remote m) = false ->
  snd (_add_exchange s m mon) = [] /\ exists xs', WFm (fst (_add_exchange s m mon)) xs'.
Proof.
  intros H Hx. unfold _add_exchange.
  set (s1 := if has_backlog s (m_remote m) then s else _).
  assert (H1 : WFm s1 xs /\ has_backlog s1 (m_remote m) = true).
  { unfold s1. destruct (has_backlog s (m_remote m)) eqn:B; [split; [exact H|exact B]|].
    split; [|rewrite has_backlog_app, Z.eqb_refl; apply orb_true_r].
    destruct H as [E Own Bl One St Pk Ea It]. constructor; try (cbn; auto; fail).
    - intros x Ix. rewrite has_backlog_app. rewrite (Bl x Ix). reflexivity.
    - intros b m0 mon0 Ib Im. cbn in Ib. apply in_app_or in Ib. destruct Ib as [Ib|[<-|[]]]; [exact (It b m0 mon0 Ib Im)|destruct Im]. }
  destruct H1 as [H1 B1].
  pose proof (WF_add_entry s1 xs m (uniform s1) 0 mon H1 Hx B1) as A.
  destruct (_schedule_retransmit s1 m (uniform s1) 0) as [s2 id] eqn:Es2.
  assert (E2 : exchanges s2 = Some xs).
  { unfold _schedule_retransmit, call_later in Es2. inversion Es2; subst. cbn. exact (wf_ex _ _ H1). }
  rewrite E2. rewrite (filter_no_exchange xs _ _ Hx). cbn [fst snd]. split; [reflexivity|eexists; exact A].
Qed.

Lemma WF_send_initially s xs m mon : WFm s xs -> (m_type m = CON -> has_exchange xs (m_remote m) = false) ->
  exists xs', WFm (fst (_send_initially s m mon)) xs'.
Proof.
  intros H Pre. unfold _send_initially. destruct (m_type m) eqn:T; try (exists xs; apply WF_store; exact H).
  destruct (WF_add_exchange s xs m mon H (Pre eq_refl)) as (O & xs' & H').
  destruct (_add_exchange s m mon) as [s1 o1]. cbn [fst snd] in *. subst o1. exists xs'. apply WF_store. exact H'.
Qed.
(* exchanges are only touched when a CON is sent *)
Lemma send_initially_nocon s m mon : m_type m <> CON -> exchanges (fst (_send_initially s m mon)) = exchanges s /\
  backlogs (fst (_send_initially s m mon)) = backlogs s.
Proof.
  intro T. unfold _send_initially. destruct (m_type m); try congruence; cbn [fst];
    unfold _store_response_for_duplicates; destruct (negb _); cbn; auto.
Qed.
Lemma WF_send_initially_nocon s xs m mon : WFm s xs -> m_type m <> CON -> WFm (fst (_send_initially s m mon)) xs.
Proof.
  intros H T. unfold _send_initially. destruct (m_type m); try congruence; cbn [fst]; apply WF_store; exact H.
Qed.

Lemma backlog_items_some s r items : backlog_items s r = Some items ->
  exists b, In b (backlogs s) /\ b_remote b = r /\ b_items b = items.
Proof.
  unfold backlog_items. destruct (find (fun b => b_remote b =? r) (backlogs s)) as [b|] eqn:F; [|discriminate].
  intro H. inversion H; subst. apply find_some in F. destruct F as [I K]. apply Z.eqb_eq in K. exists b. auto.
Qed.

Lemma WF_pop_piggy s xs r tok p : WFm s xs -> find (piggy_is r tok) (piggys s) = Some p ->
  WFm (cancel (mm_set_piggys s (filter (fun p => negb (piggy_is r tok p)) (piggys s))) (p_timer p)) xs.
Proof.
  intros [E Own Bl One St Pk Ea It] F. apply find_some in F. destruct F as [Ip Kp]. apply piggy_is_true in Kp.
  assert (Uniq : forall q, In q (piggys s) -> pkey q = (r, tok) -> q = p).
  { intros q Iq Hq. apply (NoDup_map_inj_in pkey (piggys s)); auto. congruence. }
  constructor; cbn; auto.
  - intros t I. apply filter_In in I. destruct I as [I Hid]. destruct (Own t I) as [O|O]; [left; exact O|right].
    apply in_map_iff in O. destruct O as (q & Hq & Iq). apply in_map_iff. exists q. split; [exact Hq|].
    apply filter_In. split; [exact Iq|]. destruct (piggy_is r tok q) eqn:Q; [|reflexivity].
    apply piggy_is_true in Q. assert (q = p) by (apply Uniq; assumption). subst q. rewrite Hq, Z.eqb_refl in Hid. discriminate.
  - apply NoDup_map_filter. exact Pk.
  - intros t r0 tok0 I K. apply filter_In in I. destruct I as [I Hid].
    destruct (Ea t r0 tok0 I K) as (q & Iq & Q1 & Q2 & Q3). exists q. split; [|auto].
    apply filter_In. split; [exact Iq|]. destruct (piggy_is r tok q) eqn:Q; [|reflexivity].
    apply piggy_is_true in Q. assert (q = p) by (apply Uniq; assumption). subst q. rewrite Q3, Z.eqb_refl in Hid. discriminate.
Qed.

(* arming the empty-ACK timer of a request whose (remote, token) has no opportunity entry *)
Lemma WF_arm_piggy s xs r tok mid : WFm s xs -> find (piggy_is r tok) (piggys s) = None ->
  let '(s1, id) := call_later s EMPTY_ACK_DELAY (TEmptyAck r tok) in
  WFm (mm_set_piggys s1 (piggys s1 ++ [{| p_remote := r; p_tok := tok; p_mid := mid; p_timer := id |}])) xs.
Proof.
  intros [E Own Bl One St Pk Ea It] F. unfold call_later. cbv zeta. constructor; cbn; auto.
  - intros t I. apply in_app_or in I. destruct I as [I|[<-|[]]].
    + destruct (Own t I) as [O|O]; [left; exact O|right]. rewrite map_app. apply in_or_app. left. exact O.
    + right. rewrite map_app. apply in_or_app. right. left. reflexivity.
  - rewrite map_app. cbn. apply NoDup_snoc; [exact Pk|].
    intro I. apply in_map_iff in I. destruct I as (q & Hq & Iq). apply piggy_is_true in Hq.
    cbn in Hq. pose proof (find_none _ _ F q Iq). congruence.
  - intros t r0 tok0 I K. apply in_app_or in I. destruct I as [I|[<-|[]]].
    + destruct (Ea t r0 tok0 I K) as (q & Iq & Q). exists q. split; [apply in_or_app; left; exact Iq|exact Q].
    + cbn in K. inversion K; subst. eexists. split; [apply in_or_app; right; left; reflexivity|cbn; auto].
Qed.

Lemma piggy_filter_none r tok l : find (piggy_is r tok) (filter (fun p => negb (piggy_is r tok p)) l) = None.
Proof.
  induction l as [|p l IH]; cbn; [reflexivity|]. destruct (piggy_is r tok p) eqn:Q; cbn; [exact IH|]. rewrite Q. exact IH.
Qed.

(* The new empty-ACK timer is armed before the opportunity of an older request with the same (remote, token) is dropped and its
   timer cancelled; in between it has no owner.  So: drop, then arm, and the real result has the same fields and no further timer. *)
Lemma WF_process_request_piggyback s xs m : WFm s xs -> WFm (_process_request_piggyback s m) xs.
Proof.
  intro H. unfold _process_request_piggyback. destruct (m_type m); try exact H.
  unfold call_later. cbv beta iota zeta. cbn [piggys mm_set_next_tid mm_set_timers].
  destruct (find (piggy_is (m_remote m) (m_token m)) (piggys s)) as [p|] eqn:F; [|exact (WF_arm_piggy s xs _ _ (m_mid m) H F)].
  pose proof (WF_arm_piggy _ xs _ _ (m_mid m) (WF_pop_piggy s xs _ _ p H F) (piggy_filter_none _ _ _)) as H2.
  unfold call_later in H2. cbv beta iota zeta in H2.
  apply (WF_sub _ _ xs H2); auto.
  cbn. intros t I. apply filter_In in I. destruct I as [I Hid].
  apply in_app_or in I. apply in_or_app. destruct I as [I|I]; [left; apply filter_In; auto|right; exact I].
Qed.

Lemma fold_cancel_set_exchanges {A} (f : A -> Z) l : forall s v,
  fold_left (fun a x => cancel a (f x)) l (mm_set_exchanges s v) = mm_set_exchanges (fold_left (fun a x => cancel a (f x)) l s) v.
Proof. induction l as [|x l IH]; intros s v; cbn [fold_left]; [reflexivity|]. rewrite <- IH. reflexivity. Qed.

Lemma WF_error s xs r : WFm s xs ->
  let gone := filter (fun x => x_remote x =? r) xs in let xs' := filter (fun x => negb (x_remote x =? r)) xs in
  WFm (del_backlog (fold_left (fun a x => cancel a (x_timer x)) gone (mm_set_exchanges s (Some xs'))) r) xs'.
Proof.
  intros H gone xs'. rewrite fold_cancel_set_exchanges.
  assert (Hx : has_exchange xs' r = false).
  { apply has_exchange_false. intros x Ix Q. apply filter_In in Ix. destruct Ix as [_ Ix]. apply Z.eqb_eq in Q. rewrite Q in Ix. discriminate. }
  apply WF_del_backlog; [|exact Hx].
  pose proof (WF_fold_cancel x_timer gone s xs H) as H1.
  set (sc := fold_left (fun a x => cancel a (x_timer x)) gone s) in *.
  assert (Tm : forall t, In t (timers sc) -> ~ In (t_id t) (map x_timer gone)) by (intros t I; apply (fold_cancel_removes x_timer gone s t I)).
  destruct H1 as [E Own Bl One St Pk Ea It]. constructor; cbn; auto.
  - intros t I. destruct (Own t I) as [O|O]; [left|right; exact O].
    apply in_map_iff in O. destruct O as (y & Hy & Iy). apply in_map_iff. exists y. split; [exact Hy|].
    apply filter_In. split; [exact Iy|]. destruct (x_remote y =? r) eqn:Q; [|reflexivity]. exfalso.
    apply (Tm t I). rewrite <- Hy. apply in_map. apply filter_In. auto.
  - intros y Iy. apply filter_In in Iy. apply Bl. tauto.
  - apply NoDup_map_filter. exact One.
Qed.

(* the opportunity on_timeout finds is the one whose timer t was, so dropping it once t has left the queue is WF_pop_piggy *)
Lemma WF_empty_ack s xs t r tok : WFm s xs -> In t (timers s) -> t_kind t = TEmptyAck r tok ->
  WFm (fst (on_timeout (cancel s (t_id t)) r tok)) xs.
Proof.
  intros H It K. unfold on_timeout. cbn [piggys cancel mm_set_timers].
  destruct (find (piggy_is r tok) (piggys s)) as [p|] eqn:F; [|apply WF_cancel; exact H].
  destruct (wf_ea _ _ H t r tok It K) as (p0 & Ip0 & P1 & P2 & P3).
  assert (p0 = p).
  { pose proof (find_some _ _ F) as [Ip Kp]. apply piggy_is_true in Kp.
    apply (NoDup_map_inj_in pkey (piggys s)); [exact (wf_pk _ _ H)|exact Ip0|exact Ip|]. rewrite Kp. unfold pkey. congruence. }
  subst p0. rewrite <- P3. apply WF_send_initially_nocon; [|discriminate].
  exact (WF_pop_piggy s xs r tok p H F).
Qed.

Lemma WF_expire s xs l r mid : WFm s xs -> WFm (fst (forget_recent (mm_set_forgets s l) r mid)) xs.
Proof.
  intro H. unfold forget_recent. destruct (existsb _ _); apply (WF_sub s _ xs H); auto.
  cbn. intros e I. apply filter_In in I. tauto.
Qed.

Lemma WF_at s xs : WF s -> exchanges s = Some xs -> WFm s xs.
Proof. intros [xs0 H] E. rewrite (wf_ex _ _ H) in E. inversion E; subst. exact H. Qed.

Lemma queued_remote s xs r items m mon : WFm s xs -> backlog_items s r = Some items -> In (m, mon) items -> m_remote m = r.
Proof.
  intros H B I. apply backlog_items_some in B. destruct B as (b & Ib & Hb & Hi). rewrite <- Hb.
  apply (wf_items _ _ H b m mon Ib). rewrite Hi. exact I.
Qed.

Lemma WF_move a b : mm_move a b -> WF a -> WF b.
Proof.
  intros M W.
  destruct M as [s t|s id|s xs r mid x E F|s|s r tok p F|s r items m mon B R|s m mon Hb|s xs r m mon rest E Hx B|s xs r E Hx
                |s e old I S|s r mid F s1|s m|s xs r E|s xs m timeout count x E F p|s xs r mid x E F|s t r tok It K|s f If];
    try pose proof (WF_at _ _ W E) as Hw; destruct W as [xs0 H].
  - (* mv_now *) exists xs0. apply (WF_sub s _ xs0 H); auto.
  - (* mv_cancel *) exists xs0. apply WF_cancel. exact H.
  - (* mv_pop *) eexists. exact (proj1 (WF_pop_exchange s xs r mid x Hw F)).
  - (* mv_next_mid *) exists xs0. apply (WF_sub s _ xs0 H); auto.
  - (* mv_pop_piggy *) exists xs0. apply WF_pop_piggy; assumption.
  - (* mv_queue *) exists xs0. apply WF_set_items; [exact H|]. intros m0 mon0 I. apply in_app_or in I.
    destruct I as [I|[I|[]]]; [exact (queued_remote s xs0 r items m0 mon0 H B I)|inversion I; subst; reflexivity].
  - (* mv_send: nothing queued for the remote, hence (wf_bl) no exchange *)
    apply (WF_send_initially s xs0); [exact H|]. intro T. apply has_exchange_false. intros x Ix Q.
    pose proof (wf_bl _ _ H x Ix) as B. rewrite Q, (Hb T) in B. discriminate.
  - (* mv_unqueue *)
    assert (Hall : forall m0 mon0, In (m0, mon0) ((m, mon) :: rest) -> m_remote m0 = r) by (intros m0 mon0; apply (queued_remote s xs r _ m0 mon0 Hw B)).
    apply (WF_send_initially _ xs).
    + apply WF_set_items; [exact Hw|]. intros m0 mon0 I. apply (Hall m0 mon0). right. exact I.
    + intros _. rewrite (Hall m mon (or_introl eq_refl)). exact Hx.
  - (* mv_del_backlog *) exists xs. apply WF_del_backlog; assumption.
  - (* mv_resend *) exists xs0. apply WF_send_initially_nocon; [exact H|exact (wf_stored _ _ H e old I S)].
  - (* mv_remember *) exists xs0. subst s1. apply WF_recents_app, (WF_sub s _ xs0 H); auto.
  - (* mv_piggyback *) exists xs0. apply WF_process_request_piggyback. exact H.
  - (* mv_error *) eexists. exact (WF_error s xs r Hw).
  - (* mv_rearm *) destruct (WF_pop_exchange s xs _ _ x Hw F) as (H1 & Hn & Hb).
    pose proof (WF_add_entry _ _ m timeout count (x_mon x) H1 Hn Hb) as A. subst p.
    destruct (_schedule_retransmit _ m timeout count) as [s2 id]. eexists. exact A.
  - (* mv_giveup *) destruct (WF_pop_exchange s xs r mid x Hw F) as (H1 & Hn & _). eexists. apply WF_del_backlog; eassumption.
  - (* mv_empty_ack *) exists xs0. apply WF_empty_ack; assumption.
  - (* mv_expire *) exists xs0. apply WF_expire. exact H.
Qed.

Definition not_shutdown (e : event) : bool := match e with Shutdown => false | _ => true end.

Lemma WF_init u m t : WFm (mm (init u m t)) [].
Proof. constructor; cbn; try tauto; try constructor. Qed.

(* every cancellable timer of a context that has not been shut down is referenced from its tables *)
Theorem reachable_owned : forall es u m t, forallb not_shutdown es = true ->
  timers_owned (mm (fst (run (init u m t) es))) /\ exists xs, exchanges (mm (fst (run (init u m t) es))) = Some xs.
Proof.
  intros es u m t NS.
  assert (W : WF (mm (fst (run (init u m t) es)))).
  { apply (run_invariant (fun s => WF (mm s))); [|exists []; apply WF_init].
    intros s e I. apply (step_moves WF WF_move). intros ->. apply (proj1 (forallb_forall _ _) NS) in I. discriminate I. }
  split; [apply WF_owned; exact W|]. destruct W as [xs H]. exists xs. exact (wf_ex _ _ H).
Qed.
