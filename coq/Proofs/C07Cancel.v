(* C07 — the side condition "the application does not cancel the observation itself" made explicit (observation O-C07-2):
   without observation.cancel() no exception ever leaves the pipe, for every op list.  With it, ClientObservation.error
   raises RuntimeError into TokenManager.process_response / dispatch_error: the three _refuted witnesses of Props/C07.v. *)
From Verif Require Import Lib.Py Lib.Tactics Model.C07 Model.C07Stack Proofs.C07 Proofs.C07Stack.
Open Scope Z_scope.

Definition is_escape (o : out) : bool := match o with OEscaped _ => true | _ => false end.
Definition escapes (outs : list out) : bool := existsb is_escape outs.
Lemma escapes_app a b : escapes (a ++ b) = escapes a || escapes b. Proof. apply existsb_app. Qed.

(* the observation is cancelled only by its own end signal, after which the generator has returned *)
Definition returned_if_cancelled (s : sys) : Prop := cancelled (s_obs s) = true -> s_runner s = RFinished.

Lemma escapes_observers (mk : Z -> out) l : (forall k, is_escape (mk k) = false) -> escapes (map mk l) = false.
Proof. intros H. induction l as [|k l IH]; [reflexivity|]. cbn. rewrite H. exact IH. Qed.

Lemma apply_actions_cancel : forall acts s,
  cancelled (s_obs (aa_sys s acts)) = cancelled (s_obs s) || has_error acts
  /\ escapes (aa_outs s acts) = raises acts.
Proof.
  apply (apply_actions_ind (fun s acts s' o _ =>
    cancelled (s_obs s') = cancelled (s_obs s) || has_error acts /\ escapes o = raises acts)).
  - intros s. cbn. rewrite orb_false_r. auto.
  - intros s e acts. cbn. rewrite orb_false_r. auto.
  - intros s a acts s2 o2 r Ha [I1 I2]. rewrite escapes_app.
    destruct a; try discriminate Ha; cbn [act1 has_error raises fst snd] in *.
    1,2: split; assumption.
    + rewrite escapes_observers by reflexivity. split; assumption.
    + rewrite escapes_observers by reflexivity. cbn in I1. rewrite I1, orb_true_r. split; [reflexivity|assumption].
    + destruct (s_ended s); split; assumption.
Qed.

Lemma drain_returned s : returned_if_cancelled s -> escapes (snd (drain s)) = false /\ returned_if_cancelled (fst (drain s)).
Proof.
  intros I. rewrite drain_eq. split; [|exact I].
  assert (Y : forall x, is_escape (yield x) = false) by (intros [id|e]; [reflexivity|destruct e; reflexivity]).
  destruct (anext_drain_cases (s_iter s)) as [->|(_ & _ & x & _ & [(_ & ->)|[(_ & _ & ->)|(_ & y & _ & ->)]])];
    cbn; rewrite ?Y; reflexivity.
Qed.

Lemma add_event_no_escape s now ev : returned_if_cancelled s -> escapes (snd (add_event s now ev)) = false /\ returned_if_cancelled (fst (add_event s now ev)).
Proof.
  intros I. destruct (add_event_cases s now ev) as [(En & ->)|[(En & Er & ->)|(En & Er & ->)]];
    [cbn; auto|split; [reflexivity|intros _; exact Er]|].
  assert (Hc : cancelled (s_obs s) = false) by (destruct (cancelled (s_obs s)) eqn:E; auto; elim Er; auto).
  unfold run_event. rewrite Hc. destruct (Request_run_acts (s_has_obs s) (s_reset s) (s_runner s) false now ev) as [FE NR]. specialize (NR eq_refl).
  set (ra := Request_run _ _ _ false now ev) in *. set (s0 := set_runner s (fst ra)).
  destruct (apply_actions_cancel (snd ra) s0) as [C E]. pose proof (apply_actions_frame (snd ra) s0) as (_ & _ & F3 & _ & _ & F6).
  rewrite F6, NR. rewrite NR in E.
  assert (I1 : returned_if_cancelled (aa_sys s0 (snd ra))) by (unfold returned_if_cancelled; rewrite C, F3; cbn; rewrite Hc; intros H; apply (FE H); reflexivity).
  destruct (ev_is_last ev && _); cbn [fst snd]; rewrite ?escapes_app, E; auto.
Qed.

Lemma registered_no_escape s it l : escapes (snd (registered s it l)) = false /\ (returned_if_cancelled s -> returned_if_cancelled (fst (registered s it l))).
Proof.
  rewrite registered_eq. unfold returned_if_cancelled.
  destruct (cancelled (s_obs s)) eqn:Ec; [destruct l, (cancellation_reason (s_obs s))|destruct (latest_response (s_obs s)), l];
    cbn; rewrite ?Ec; (split; [reflexivity|auto; discriminate]).
Qed.

Lemma step_no_escape s o : returned_if_cancelled s -> o <> OpCancelObs -> escapes (snd (step s o)) = false /\ returned_if_cancelled (fst (step s o)).
Proof.
  intros I Ho. destruct o as [now ev| | |k| |]; try congruence.
  - apply add_event_no_escape. exact I.
  - rewrite step_cancel_resp. destruct (s_resp s); [|apply drain_returned; exact I..].
    destruct (drain_returned (resp_cancelled s)) as [E I2]; [intros _; reflexivity|]. cbn [fst snd]. rewrite escapes_app, E.
    split; [unfold cancel_outs; destruct (s_ended s); reflexivity|exact I2].
  - rewrite step_register. destruct (negb (s_has_obs s)); [cbn; auto|].
    destruct (registered_no_escape s (s_iter s) (LObserver k)) as [E F]. auto.
  - rewrite step_iter. destruct (negb (s_has_obs s) || it_started (s_iter s)); [apply drain_returned; exact I|].
    destruct (registered_no_escape s idle LIterator) as [E F]. destruct (drain_returned _ (F I)) as [E2 I2].
    cbn [fst snd]. rewrite escapes_app, E, E2. auto.
  - apply drain_returned. exact I.
Qed.

(* as long as the application does not cancel the observation itself, no exception leaves Pipe._add_event *)
Lemma run_no_escape : forall ops s, returned_if_cancelled s -> ~ In OpCancelObs ops -> escapes (concat (run s ops)) = false.
Proof.
  induction ops as [|o r IH]; intros s I Hn; [reflexivity|]. cbn [run].
  destruct (step_no_escape s o I) as [E I']. { intros ->. apply Hn. left. reflexivity. }
  destruct (step s o) as [s' outs]. cbn [fst snd concat] in *. rewrite escapes_app, E. apply IH; auto. intros H. apply Hn. right. exact H.
Qed.
