(* C06 — lifetime of reassembly and rendering state at SERVER level: the TimeoutDict ghost-time invariant
   (Proofs/C06TimeoutDict.v) is carried through Block1Spool.feed_and_take, Block2Cache.extract_or_insert,
   Resource._render_to_pipe and every event history of the multi-resource server.
   The ghost maps [last1_step] / [last2_step] say which server operations count as a USE of an entry. *)
From Verif Require Import Lib.Py Lib.PyLemmas Lib.Tactics Model.C06 Proofs.C06TimeoutDict Proofs.C06.
Open Scope Z_scope.

Notation ginv T := (td_ginv key_eqb T).
Notation kupd := (upd key_eqb).
Notation kclr := (clr key_eqb).
Notation khas := (has key_eqb).

Lemma ginv_pop_after_use {V} T now l (d : td key V) k : ginv T now (kupd l k now) d -> ginv T now (kclr l k) (td_pop key_eqb k d).
Proof. intros G. apply (td_ginv_ext key_eqb T now (kclr (kupd l k now) k)); [apply clr_upd|]. apply (td_ginv_pop key_eqb key_eqb_eq). exact G. Qed.
Lemma khas_kget {V} k (d : td key V) : khas k d = true <-> kget k d <> None.
Proof. unfold has, kget. destruct (alist_get key_eqb k (td_items d)); split; congruence. Qed.
Lemma khas_some {V} k (d : td key V) v : kget k d = Some v -> khas k d = true.
Proof. intros H. apply khas_kget. congruence. Qed.

(* a successful lookup / the tail of an assignment: the entry is marked as used now *)
Lemma ginv_accessed {V} T now l (d : td key V) k : 0 < T -> ginv T now l d -> khas k d = true ->
  ginv T now (kupd l k now) (td_accessed T now k d).
Proof. intros Tp I H. apply (td_ginv_access key_eqb key_eqb_eq T Tp now l d d k I); [reflexivity|exact H|reflexivity]. Qed.
Lemma ginv_accessed_again {V} T now l (d : td key V) k : 0 < T -> ginv T now (kupd l k now) d -> khas k d = true ->
  ginv T now (kupd l k now) (td_accessed T now k d).
Proof. intros Tp I H. apply (td_ginv_ext key_eqb T now (kupd (kupd l k now) k now)); [apply upd_idem|]. apply ginv_accessed; assumption. Qed.

(* WHICH SERVER OPERATIONS COUNT AS A USE.
   Block1Spool: a block 0 of key k with M=1 (the assembly is (re)started); any continuation (NUM>0) of k that finds an
   assembly and is appended with M=1 (2.31) or REJECTED with 4.00 (length) or 4.08 (gap / overlap): the lookup has
   refreshed the timeout before the block is examined.  A block with M=0 that completes the assembly hands it to the
   handler and REMOVES it from the spool (the ghost forgets the key).  A continuation that finds nothing (KeyError) is
   not a use, nor is a request without Block1. *)
Definition last1_step (now : Z) (l : key -> option Z) (sp : spool) (req : msg) : key -> option Z :=
  match m_block1 req with
  | None => l
  | Some b =>
    let k := extract_block_key req in
    if b_num b =? 0 then (if b_more b then kupd l k now else kclr l k)
    else match kget k sp with
         | Some asm => if size_ok b req && (b_start b =? blen (m_payload asm)) && negb (b_more b) then kclr l k else kupd l k now
         | None => l
         end
  end.
(* Block2Cache (for a request that got past the spool): a rendering request (block 0 / no Block2) whose rendering
   needs chunking stores it: use; one that is answered whole EVICTS the entry of its key (no rendering is kept, the
   ghost forgets the key).  A later block (NUM>0) that finds a rendering is a use (also when it is answered
   4.00 out of bounds); one that finds nothing is not. *)
Definition last2_step (now : Z) (l : key -> option Z) (ca : cache) (req1 : msg) (rendering : resp) : key -> option Z :=
  let k := extract_block_key req1 in
  if is_first req1 then (if needs_chunking req1 rendering then kupd l k now else kclr l k)
  else match kget k ca with Some _ => kupd l k now | None => l end.
Definition last2_stage (T now : Z) (l : key -> option Z) (sp : spool) (ca : cache) (req : msg) (rendering : resp) : key -> option Z :=
  match feed_and_take T now sp req with
  | (_, ROk req1) => last2_step now l ca req1 rendering
  | (_, RRaise _) => l                 (* 2.31 / 4.08 / 4.00 from the spool: the cache is not touched *)
  end.

Lemma feed_and_take_ginv T now g l sp req : 0 < T -> spool_inv g sp -> ginv T now l sp ->
  ginv T now (last1_step now l sp req) (fst (feed_and_take T now sp req)).
Proof.
  intros Tp I G. rewrite (fat_eq T now sp req (spool_inv_request g sp I _)). unfold last1_step, fat_spec, fat_take.
  destruct (m_block1 req) as [b|]; [|exact G]. set (k := extract_block_key req).
  destruct (b_num b =? 0).
  - pose proof (td_ginv_setitem key_eqb key_eqb_eq T Tp now l sp k req G) as G1.
    destruct (b_more b); cbn [fst]; [exact G1|]. apply ginv_pop_after_use. exact G1.
  - destruct (kget k sp) as [asm|] eqn:Hg; [|exact G].
    (* the lookup is the use, whatever becomes of the block *)
    pose proof (ginv_accessed T now l sp k Tp G (khas_some k sp asm Hg)) as G1.
    destruct (size_ok b req); cbn [andb negb]; [|exact G1].
    destruct (b_start b =? blen (m_payload asm)); cbn [andb]; [|exact G1].
    assert (G2 : ginv T now (kupd l k now) (td_mutate key_eqb k (appended asm req b) (td_accessed T now k sp))).
    { apply (td_ginv_mutate key_eqb key_eqb_eq); [exact G1|]. apply (khas_some k _ asm). rewrite kget_accessed. exact Hg. }
    destruct (b_more b); cbn [fst negb]; [exact G2|]. apply ginv_pop_after_use. exact G2.
Qed.

Lemma extract_or_insert_ginv T now l ca req1 rendering : 0 < T -> ginv T now l ca ->
  ginv T now (last2_step now l ca req1 rendering) (fst (fst (extract_or_insert T now ca req1 rendering))).
Proof.
  intros Tp G. unfold last2_step. set (k := extract_block_key req1). destruct (is_first req1) eqn:F.
  - rewrite (eoi_first T now ca req1 rendering (is_first_hyp req1 F)). fold k.
    destruct (needs_chunking req1 rendering); cbn [fst].
    + apply (td_ginv_setitem key_eqb key_eqb_eq T Tp). exact G.
    + apply (td_ginv_pop key_eqb key_eqb_eq). exact G.
  - destruct (is_first_false req1 F) as (b2 & Hb & Hn).
    rewrite (eoi_later T now ca req1 b2 rendering Hb Hn). fold k.
    destruct (kget k ca) as [Rn|] eqn:Hg; cbn [fst]; [|exact G].
    apply (td_ginv_ext key_eqb T now (kupd (kupd l k now) k now)); [apply upd_idem|].
    apply (td_ginv_setitem key_eqb key_eqb_eq T Tp). apply ginv_accessed; [exact Tp|exact G|exact (khas_some k ca Rn Hg)].
Qed.

Lemma render_to_pipe_ginv T now g l1 l2 s req rendering : 0 < T ->
  spool_inv g (block1 s) -> ginv T now l1 (block1 s) -> ginv T now l2 (block2 s) ->
  let s' := fst (fst (render_to_pipe T now s req rendering)) in
  ginv T now (last1_step now l1 (block1 s) req) (block1 s') /\
  ginv T now (last2_stage T now l2 (block1 s) (block2 s) req rendering) (block2 s').
Proof.
  intros Tp I G1 G2. cbn zeta. unfold render_to_pipe, last2_stage.
  pose proof (feed_and_take_ginv T now g l1 (block1 s) req Tp I G1) as F.
  destruct (feed_and_take T now (block1 s) req) as [sp [req1|e]]; cbn [fst] in F.
  - pose proof (extract_or_insert_ginv T now l2 (block2 s) req1 rendering Tp G2) as E.
    destruct (extract_or_insert T now (block2 s) req1 rendering) as [[ca calls] [res|e]]; cbn [fst block1 block2] in *; split; assumption.
  - cbn [fst block1 block2]. split; assumption.
Qed.

Record lghost := { l_asm : nat -> key -> option Z; l_rend : nat -> key -> option Z }.
Definition lghost_init : lghost := {| l_asm := fun _ _ => None; l_rend := fun _ _ => None |}.
Definition step_last (T : Z) (sv : server) (lg : lghost) (e : event) : lghost :=
  match e with
  | Advance _ => lg                               (* idle time is not a use *)
  | Request i req rendering =>
    if (i <? length (resources sv))%nat then
      let s := nth i (resources sv) rstate_empty in
      {| l_asm := fset (l_asm lg) i (last1_step (now sv) (l_asm lg i) (block1 s) req);
         l_rend := fset (l_rend lg) i (last2_stage T (now sv) (l_rend lg i) (block1 s) (block2 s) req rendering) |}
    else lg                                       (* no such resource: no state is touched *)
  end.
Definition life_inv (T : Z) (lg : lghost) (sv : server) : Prop :=
  forall i, ginv T (now sv) (l_asm lg i) (block1 (nth i (resources sv) rstate_empty)) /\
            ginv T (now sv) (l_rend lg i) (block2 (nth i (resources sv) rstate_empty)).
Definition nonneg_event (e : event) : Prop := match e with Advance dt => 0 <= dt | Request _ _ _ => True end.

Lemma life_inv_init T n : life_inv T lghost_init (server_init n).
Proof.
  intros i. cbn. rewrite nth_repeat. split; apply td_ginv_empty.
Qed.

Lemma step_request T sv i req rendering :
  fst (step T sv (Request i req rendering)) =
  {| now := now sv;
     resources := set_nth i (fst (fst (render_to_pipe T (now sv) (nth i (resources sv) rstate_empty) req rendering))) (resources sv) |}.
Proof. cbn [step]. destruct (render_to_pipe T (now sv) (nth i (resources sv) rstate_empty) req rendering) as [[s' calls] res]. reflexivity. Qed.

Lemma step_life T sv gh lg e : 0 < T -> nonneg_event e -> server_inv gh sv -> life_inv T lg sv ->
  life_inv T (step_last T sv lg e) (fst (step T sv e)).
Proof.
  intros Tp Ne Is L. destruct e as [i req rendering|dt].
  - intros j. rewrite step_request. cbn [now resources step_last]. rewrite nth_set_nth.
    destruct (i <? length (resources sv))%nat; [|rewrite andb_false_r; exact (L j)].
    destruct (Nat.eqb_spec j i) as [->|N]; cbn [andb l_asm l_rend]; [|rewrite !fset_other by exact N; exact (L j)].
    rewrite !fset_same. destruct (Is i) as (I1 & _). destruct (L i) as (G1 & G2).
    exact (render_to_pipe_ginv T (now sv) (g_asm gh i) (l_asm lg i) (l_rend lg i) _ req rendering Tp I1 G1 G2).
  - cbn [nonneg_event] in Ne. intros j. cbn [step fst step_last now resources].
    rewrite nth_map_default by reflexivity. destruct (L j) as (G1 & G2). unfold rstate_advance; cbn [block1 block2]. split.
    + apply (td_ginv_advance key_eqb key_eqb_eq T Tp (now sv)); [exact G1|lia].
    + apply (td_ginv_advance key_eqb key_eqb_eq T Tp (now sv)); [exact G2|lia].
Qed.

Fixpoint run_last (T : Z) (sv : server) (lg : lghost) (es : list event) : lghost :=
  match es with
  | [] => lg
  | e :: r => run_last T (fst (step T sv e)) (step_last T sv lg e) r
  end.
Lemma run_life T es : 0 < T -> forall sv gh lg, Forall wf_event es -> Forall nonneg_event es -> server_inv gh sv -> life_inv T lg sv ->
  server_inv (run_ghost T sv gh es) (fst (run T sv es)) /\ life_inv T (run_last T sv lg es) (fst (run T sv es)).
Proof.
  intros Tp. induction es as [|e es IH]; intros sv gh lg F N I L; [split; assumption|].
  inversion F as [|? ? We Fr]; subst. inversion N as [|? ? Ne Nr]; subst. rewrite run_cons. cbn [fst run_ghost run_last].
  exact (IH _ _ _ Fr Nr (proj1 (step_inv T sv gh e We I)) (step_life T sv gh lg e Tp Ne I L)).
Qed.

Definition reachable_life (T : Z) (sv : server) (gh : ghost) (lg : lghost) : Prop :=
  exists n es, Forall wf_event es /\ Forall nonneg_event es /\
    sv = fst (run T (server_init n) es) /\ gh = run_ghost T (server_init n) ghost_init es /\
    lg = run_last T (server_init n) lghost_init es.
Lemma reachable_life_inv T sv gh lg : 0 < T -> reachable_life T sv gh lg -> server_inv gh sv /\ life_inv T lg sv.
Proof.
  intros Tp (n & es & F & N & -> & -> & ->). apply run_life; try assumption; [apply server_inv_init|apply life_inv_init].
Qed.

Lemma ginv_bounds {V} T now l (d : td key V) : ginv T now l d -> forall k,
  (forall a, l k = Some a -> now < a + T -> kget k d <> None) /\
  (kget k d <> None -> exists a, l k = Some a /\ a <= now /\ now < a + 2 * T) /\
  (l k = None -> kget k d = None) /\
  (forall a, l k = Some a -> a + 2 * T <= now -> kget k d = None).
Proof.
  intros G k.
  assert (U : kget k d <> None -> exists a, l k = Some a /\ a <= now /\ now < a + 2 * T).
  { intros H. apply khas_kget in H. destruct (td_ginv_upper key_eqb key_eqb_eq T now l d k G H) as (a & La & B). exists a. split; [exact La|lia]. }
  split; [|split; [exact U|split]].
  - intros a La Lt. apply khas_kget. exact (td_ginv_lower key_eqb key_eqb_eq T now l d k a G La Lt).
  - intros Ln. destruct (kget k d) eqn:E; [|reflexivity]. destruct U as (a & La & _); congruence.
  - intros a La Ge. destruct (kget k d) eqn:E; [|reflexivity]. destruct U as (a' & La' & _ & Lt); [congruence|]. rewrite La in La'. injection La' as <-. lia.
Qed.
Lemma ginv_gone {V} T now l (d : td key V) k : ginv T now l d ->
  l k = None \/ (exists a, l k = Some a /\ a + 2 * T <= now) -> kget k d = None.
Proof. intros G. destruct (ginv_bounds T now l d G k) as (_ & _ & B3 & B4). intros [Ln|(a & La & Ge)]; [exact (B3 Ln)|exact (B4 a La Ge)]. Qed.

Lemma continuation_expiry T now g l s req rendering b :
  spool_inv g (block1 s) -> ginv T now l (block1 s) -> m_block1 req = Some b -> b_num b <> 0 ->
  let k := extract_block_key req in
  (* used less than T ago: the assembly is there, and the spool answers 4.08 only for a gap / overlap *)
  (forall a, l k = Some a -> now < a + T ->
     exists asm, kget k (block1 s) = Some asm /\
       (forall sp', feed_and_take T now (block1 s) req = (sp', RRaise EIncomplete) ->
          size_ok b req = true /\ b_start b <> blen (m_payload asm)) /\
       (b_more b = true -> snd (render_to_pipe T now s req rendering) = incomplete_resp ->
          size_ok b req = true /\ b_start b <> blen (m_payload asm))) /\
  (* never used, or last used 2T or more ago: 4.08, the handler is not invoked, nothing changes *)
  (l k = None \/ (exists a, l k = Some a /\ a + 2 * T <= now) ->
     render_to_pipe T now s req rendering = (s, [], incomplete_resp)).
Proof.
  intros I G Hb Hn k. destruct (ginv_bounds T now l (block1 s) G k) as (B1 & _).
  pose proof (spool_error_keeps_cache T now s req rendering) as E.
  pose proof (fat_eq T now (block1 s) req (spool_inv_request g _ I _)) as F. unfold fat_spec, fat_take in F.
  rewrite Hb, (proj2 (Z.eqb_neq _ _) Hn) in F. fold k in F. split.
  - intros a La Lt. specialize (B1 a La Lt). destruct (kget k (block1 s)) as [asm|]; [|congruence].
    exists asm. split; [reflexivity|].
    destruct (size_ok b req); cbn [negb] in F.
    2:{ (* wrong length: 4.00 *) split; [intros sp' H; rewrite F in H|intros _ H; rewrite (E _ _ F) in H]; discriminate. }
    destruct (Z.eqb_spec (b_start b) (blen (m_payload asm))) as [St|St]; [|split; intros; (split; [reflexivity|exact St])].
    (* in order: appended, then 2.31 or handed to the handler *)
    split.
    + intros sp' H. rewrite F in H. destruct (b_more b); discriminate.
    + intros Hm H. rewrite Hm in F. rewrite (E _ _ F) in H. discriminate.
  - intros D. rewrite (ginv_gone T now l (block1 s) k G D) in F. rewrite (E _ _ F). destruct s; reflexivity.
Qed.

Lemma later_block_expiry T now gr l s req rendering b2 :
  cache_inv gr (block2 s) -> ginv T now l (block2 s) -> m_block1 req = None -> m_block2 req = Some b2 -> b_num b2 <> 0 ->
  let k := extract_block_key req in
  (forall a, l k = Some a -> now < a + T ->
     exists Rn, kget k (block2 s) = Some Rn /\ gr k = Some Rn /\
       snd (render_to_pipe T now s req rendering) =
         (if b2_start (b_szx b2) (b_num b2) >=? blen (p_payload Rn) then bad_request_resp txt_out_of_bounds
          else slice_resp Rn (b_num b2) (b_szx b2) (m_mps req)) /\
       snd (render_to_pipe T now s req rendering) <> incomplete_resp) /\
  (l k = None \/ (exists a, l k = Some a /\ a + 2 * T <= now) ->
     render_to_pipe T now s req rendering = (s, [], incomplete_resp)).
Proof.
  intros I G H1 H2 Hn k. destruct (ginv_bounds T now l (block2 s) G k) as (B1 & _).
  rewrite (rtp_later T now s req rendering b2 H1 H2 Hn). fold k. split.
  - intros a La Lt. specialize (B1 a La Lt). destruct (kget k (block2 s)) as [Rn|] eqn:Hg; [|congruence].
    exists Rn. cbn [snd]. split; [reflexivity|]. split; [exact (I k Rn Hg)|]. split; [reflexivity|].
    destruct (b2_start (b_szx b2) (b_num b2) >=? blen (p_payload Rn)); discriminate.
  - intros D. rewrite (ginv_gone T now l (block2 s) k G D). reflexivity.
Qed.
