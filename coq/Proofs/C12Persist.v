(* C12 — persisting and reloading the replay window neither initialises an uninitialised window nor forgets a struck-out number *)
From Verif Require Import Lib.Py Lib.Tactics Gen.oscore_replay Model.C12 Model.C12Persist Proofs.C12 Proofs.C12b.
Open Scope Z_scope.

Lemma persist_uninitialised : forall sz, initialize_from_persisted sz (persist None) = None.
Proof. reflexivity. Qed.

(* the size is not persisted: the reloaded window takes the context's, which the invariant says is the window's own *)
Lemma reload_id : forall c, CtxInv c -> reload c = c.
Proof. intros [sz [[wsz i b]|] er] (_ & Hw); unfold reload; cbn in *; [destruct Hw as (_ & ->)|]; reflexivity. Qed.

Lemma run_app : forall a b c, run c (a ++ b) = let '(c1, o1) := run c a in let '(c2, o2) := run c1 b in (c2, o1 ++ o2).
Proof.
  induction a as [|r a IH]; intros b c; cbn [run app].
  - destruct (run c b); reflexivity.
  - destruct (unprotect_request c r) as [c1 o]. rewrite IH. destruct (run c1 a) as [c2 os]. destruct (run c2 b). reflexivity.
Qed.

(* reloading at any point of any history changes nothing: same outcomes, same final window *)
Lemma run_reload_is_run : forall rs k c, Forall (fun r => 0 <= seqno r) rs -> CtxInv c -> run_reload c k rs = run c rs.
Proof.
  intros rs k c Hrs Hc. unfold run_reload.
  rewrite <- (firstn_skipn k rs) in Hrs. apply Forall_app in Hrs as [Hf _].
  pose proof (run_inv (firstn k rs) c Hc Hf) as Hc1.
  replace (run c rs) with (run c (firstn k rs ++ skipn k rs)) by (rewrite firstn_skipn; reflexivity). rewrite run_app.
  destruct (run c (firstn k rs)) as [c1 o1]. rewrite (reload_id c1 Hc1). reflexivity.
Qed.

Example run_reload_nonvacuous :
  let c := {| size := 32; window := None; echo_recovery := Some 7 |} in
  let rs := [ {| seqno := 3; authentic := true; echo := None |}; {| seqno := 3; authentic := true; echo := Some 7 |}; {| seqno := 3; authentic := true; echo := Some 7 |} ] in
  snd (run_reload c 1 rs) = [RejectEcho; Accept; RejectReplay] /\ snd (run_reload c 2 rs) = [RejectEcho; Accept; RejectReplay].
Proof. vm_compute. split; reflexivity. Qed.
