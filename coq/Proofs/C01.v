(* C01 — messages: Message.encode / Message.decode, round trip, totality of parsing, the receive paths.
   Option sequences are in Proofs/C01More.v. *)
From Verif Require Import Lib.Py Lib.Tactics Lib.PyLemmas Gen.options_ext Gen.optiontypes_min Gen.optnum_table Gen.decode_handlers Model.C01Types Model.C01Utf8 Model.C01 Model.C01Rfc Proofs.C01Utf8 Proofs.C01Ext Proofs.C01Parse Proofs.C01More.
From Coq Require Import Permutation.
Open Scope Z_scope.

Lemma length_lt_blen {A} (l : list A) n : (length l < n)%nat <-> blen l < Z.of_nat n.
Proof. unfold blen. lia. Qed.
Lemma bytes_ok_app_l a b : bytes_ok (a ++ b) = true -> bytes_ok a = true.
Proof. rewrite bytes_ok_app. intros H. apply andb_prop in H. tauto. Qed.

Lemma options_ok_weaken a b prev l : a <= b -> options_ok a prev l = true -> options_ok b prev l = true.
Proof.
  intros L. revert prev. induction l as [|[n v] r IH]; intros prev H; [reflexivity|].
  rewrite options_ok_cons in *. destruct H as (A & B & C & D). repeat split; try lia; [exact B|apply IH; exact D].
Qed.
Lemma option_list_sorted_id maxv l prev : options_ok maxv prev l = true -> option_list l = l.
Proof. intros H. exact (option_list_sorted_id_any maxv l prev (options_ok_to_any maxv l prev H)). Qed.
Lemma rfc_encode_canonical_sorted maxv m : options_ok maxv 0 (m_opt m) = true -> canonical m = m.
Proof. intros H. unfold canonical. rewrite (option_list_sorted_id maxv _ 0 H). destruct m; reflexivity. Qed.

Lemma header_ok_15 m : header_ok 8 m = true -> header_ok 15 m = true.
Proof. unfold header_ok. destruct (bytes_ok (m_token m)), (bytes_ok (m_payload m)); lia. Qed.

(* the fixed header; the slices clamp like Python's, so no length is asked of r *)
Lemma Message_decode_cons b0 c m1 m0 r : 0 <= b0 < 256 ->
  Message_decode (b0 :: c :: m1 :: m0 :: r) =
  if b0 / 64 =? 1 then
    '(opt, payload) <- Options_decode [] (bfrom r (b0 mod 16)) ;;
    Ok {| m_type := (b0 / 16) mod 4; m_code := c; m_mid := m1 * 256 + m0; m_token := bto r (b0 mod 16);
          m_opt := opt; m_payload := payload |}
  else Raise UnparsableMessage.
Proof.
  intros Hb. unfold Message_decode. unfold bto at 1. change (Z.to_nat 4) with 4%nat. cbn [firstn struct_unpack_BBH].
  rewrite byte_version, byte_type, land15. replace (b0 / 64 mod 4) with (b0 / 64) by lia.
  destruct (b0 / 64 =? 1); [|reflexivity]. cbn [negb]. unfold bslice, bfrom, bto.
  replace (Z.to_nat (4 + b0 mod 16)) with (S (S (S (S (Z.to_nat (b0 mod 16)))))) by lia. reflexivity.
Qed.
(* on the layout of RFC 7252 figure 7, with a token of up to 15 bytes *)
Lemma Message_decode_header t tkl c m1 m0 tok rest :
  0 <= t < 4 -> 0 <= tkl <= 15 -> blen tok = tkl ->
  Message_decode ((64 + t * 16 + tkl) :: c :: m1 :: m0 :: tok ++ rest) =
  ('(opt, payload) <- Options_decode [] rest ;;
   Ok {| m_type := t; m_code := c; m_mid := m1 * 256 + m0; m_token := tok; m_opt := opt; m_payload := payload |}).
Proof.
  intros Ht Hk Htok. rewrite Message_decode_cons by lia.
  destruct (header_byte t tkl Ht Hk) as (A & B & C). rewrite A, B, C, <- Htok, bfrom_app, bto_app. reflexivity.
Qed.

(* every datagram that is well-formed under RFC 7252 section 3 parses into the RFC's fields (with each value read
   according to the format of its option number), unless a string option is not UTF-8: then UnparsableMessage *)
Lemma Message_decode_WellFormed bs rm : WellFormed bs rm ->
  Message_decode bs =
  match rfc_interp_options (r_options rm) with
  | Some os => Ok {| m_type := r_type rm; m_code := r_code rm; m_mid := r_mid rm; m_token := r_token rm; m_opt := os; m_payload := r_payload rm |}
  | None => Raise UnparsableMessage
  end.
Proof.
  intros W. destruct W as [t tkl c m1 m0 tok rest opts p Ht Hk Hc H1 H0 Htok W].
  rewrite Message_decode_header by (try assumption; lia). rewrite (Options_decode_WF rest opts p W).
  cbn [r_options r_type r_code r_mid r_token r_payload]. destruct (rfc_interp_options opts); reflexivity.
Qed.
Lemma decode_wellformed bs rm : WellFormed bs rm -> bytes_ok bs = true ->
  Message_decode bs =
  match rfc_interp_options (r_options rm) with
  | Some os => Ok {| m_type := r_type rm; m_code := r_code rm; m_mid := r_mid rm; m_token := r_token rm; m_opt := os; m_payload := r_payload rm |}
  | None => Raise UnparsableMessage
  end.
Proof. intros W _. exact (Message_decode_WellFormed bs rm W). Qed.

Definition payload_tail (p : bytes) : bytes := match p with [] => [] | _ => 255 :: p end.

Lemma rfc_encode_layout m : rfc_encode m =
  [64 + m_type m * 16 + blen (m_token m); m_code m; m_mid m / 256; m_mid m mod 256] ++ m_token m ++
  rfc_options 0 (map raw_option (m_opt m)) ++ payload_tail (m_payload m).
Proof. reflexivity. Qed.

Lemma rfc_options_WF l p : forall prev, options_ok_any 65804 prev l = true ->
  OptionsWF prev (rfc_options prev (map raw_option l) ++ payload_tail p) (map raw_option l) p.
Proof.
  induction l as [|[n v] r IH]; intros prev H.
  - cbn. destruct p; [constructor|]. constructor. discriminate.
  - apply options_ok_any_cons in H. destruct H as (Hd & _ & Hlen & Hr). pose proof (blen_nonneg (rfc_value v)).
    cbn [map rfc_options]. change (raw_option (n, v)) with (n, rfc_value v). cbv iota beta.
    unfold rfc_option. cbn [app]. rewrite <- !app_assoc. replace (n, rfc_value v) with (prev + (n - prev), rfc_value v) by (f_equal; lia).
    apply OWF_option with (l := blen (rfc_value v)); [apply ExtField_of; lia|apply ExtField_of; lia|reflexivity|].
    replace (prev + (n - prev)) with n by lia. apply IH, Hr.
Qed.
Lemma rfc_interp_raw maxv l : forall prev, options_ok maxv prev l = true -> rfc_interp_options (map raw_option l) = Some l.
Proof.
  induction l as [|[n v] r IH]; intros prev H; [reflexivity|].
  apply options_ok_cons in H. destruct H as (_ & Hl & _ & Hr). rewrite <- table_matches_rfc in Hl.
  cbn [map rfc_interp_options]. change (raw_option (n, v)) with (n, rfc_value v). cbv iota beta.
  rewrite (IH n Hr), (rfc_interp_rfc_value n v Hl). reflexivity.
Qed.

Lemma Message_decode_rfc_encode m : header_ok 15 m = true -> options_ok 65804 0 (m_opt m) = true ->
  Message_decode (rfc_encode m) = Ok m.
Proof.
  intros Hh Hopts. unfold header_ok in Hh. pose proof (blen_nonneg (m_token m)) as Hnn.
  rewrite rfc_encode_layout. cbn [app]. rewrite Message_decode_header by lia.
  rewrite (Options_decode_WF _ _ _ (rfc_options_WF _ (m_payload m) 0 (options_ok_to_any _ _ 0 Hopts))).
  rewrite (rfc_interp_raw _ _ 0 Hopts). cbn [bind].
  replace (m_mid m / 256 * 256 + m_mid m mod 256) with (m_mid m) by lia. destruct m; reflexivity.
Qed.

(* header ++ token ++ Options.encode ++ payload part *)
Lemma Message_encode_hdr m : header_ok 15 m = true ->
  Message_encode m =
  (o <- Options_encode (m_opt m) ;;
   Ok ([64 + m_type m * 16 + blen (m_token m); m_code m; m_mid m / 256; m_mid m mod 256] ++ m_token m ++ o ++ payload_tail (m_payload m))).
Proof.
  intros Hh. unfold header_ok in Hh. pose proof (blen_nonneg (m_token m)) as Hnn.
  unfold Message_encode. rewrite land3, land15, !Z.mod_small by lia. change (Z.shiftl 1 6) with 64. rewrite shiftl4.
  rewrite bytes_of_int_ok by lia. cbn [bind]. unfold struct_pack_BH.
  replace ((0 <=? m_code m) && (m_code m <? 256) && (0 <=? m_mid m) && (m_mid m <? 65536)) with true by lia. cbn [bind].
  destruct (Options_encode (m_opt m)) as [o|e]; [|reflexivity]. cbn [bind].
  destruct (m_payload m) as [|x p].
  - change (blen [] >? 0) with false. cbv iota. cbn [payload_tail]. rewrite !app_nil_r. rewrite <- !app_assoc. reflexivity.
  - rewrite blen_cons. pose proof (blen_nonneg p). replace (1 + blen p >? 0) with true by lia. cbn [payload_tail].
    rewrite <- !app_assoc. reflexivity.
Qed.

(* Message.encode on option values that are legal for some class, in any insertion order: the RFC 7252 section 3
   format of the message in option_list order, or ValueError when a delta or a value length cannot be expressed *)
Lemma Message_encode_spec m : header_ok 15 m = true -> Forall (fun o => legal_any (snd o) = true) (m_opt m) ->
  Message_encode m =
  if options_ok_any 65804 0 (option_list (m_opt m)) then Ok (rfc_encode (canonical m)) else Raise ValueError.
Proof.
  intros Hh HL. rewrite (Message_encode_hdr m Hh). unfold Options_encode. rewrite Options_encode_loop_spec.
  - destruct (options_ok_any 65804 0 (option_list (m_opt m))); reflexivity.
  - eapply Permutation_Forall; [apply Permutation_sym, option_list_perm|exact HL].
Qed.

Lemma encode_is_rfc_any_class m : header_ok 8 m = true -> options_ok_any 65804 0 (option_list (m_opt m)) = true ->
  Message_encode m = Ok (rfc_encode (canonical m)).
Proof.
  intros Hh Ho. rewrite Message_encode_spec, Ho; [reflexivity|apply header_ok_15, Hh|].
  eapply Permutation_Forall; [apply option_list_perm|exact (options_ok_any_legal _ _ 0 Ho)].
Qed.
Lemma encode_inexpressible_any m : header_ok 8 m = true -> Forall (fun o => legal_any (snd o) = true) (m_opt m) ->
  options_ok_any 65804 0 (option_list (m_opt m)) = false -> Message_encode m = Raise ValueError.
Proof. intros Hh HL Ho. rewrite Message_encode_spec, Ho; [reflexivity|apply header_ok_15, Hh|exact HL]. Qed.
Lemma Message_encode_sorted m : header_ok 15 m = true -> options_ok 65804 0 (m_opt m) = true ->
  Message_encode m = Ok (rfc_encode m).
Proof.
  intros Hh Ho. pose proof (options_ok_to_any _ _ 0 Ho) as Ha.
  rewrite Message_encode_spec, (rfc_encode_canonical_sorted _ m Ho), (option_list_sorted_id _ _ 0 Ho), Ha;
    [reflexivity|exact Hh|exact (options_ok_any_legal _ _ 0 Ha)].
Qed.

(* the messages of the property's first sentence, in any insertion order of the options *)
Definition wf (m : msg) : bool := header_ok 8 m && options_ok 65804 0 (option_list (m_opt m)).

Lemma encode_is_rfc m : wf m = true -> Message_encode m = Ok (rfc_encode (canonical m)).
Proof.
  intros H. apply andb_prop in H as [H1 H2]. apply encode_is_rfc_any_class; [exact H1|apply options_ok_to_any, H2].
Qed.
Lemma encode_inexpressible m : header_ok 8 m = true -> Forall (fun o => legal (get_format (fst o)) (snd o) = true) (m_opt m) ->
  wf m = false -> Message_encode m = Raise ValueError.
Proof.
  intros Hh HL Hw. unfold wf in Hw. rewrite Hh in Hw. cbn [andb] in Hw.
  apply encode_inexpressible_any; [exact Hh|eapply Forall_impl; [|exact HL]; intros o; apply legal_legal_any|].
  rewrite <- Hw. symmetry. apply options_ok_eq_any.
  eapply Permutation_Forall; [apply Permutation_sym, option_list_perm|exact HL].
Qed.
Lemma decode_encode m : wf m = true -> Message_decode (rfc_encode (canonical m)) = Ok (canonical m).
Proof.
  intros H. apply andb_prop in H as [H1 H2]. apply Message_decode_rfc_encode; [exact (header_ok_15 m H1)|exact H2].
Qed.
Lemma roundtrip m : wf m = true -> bind (Message_encode m) Message_decode = Ok (canonical m).
Proof. intros H. rewrite (encode_is_rfc m H). cbn [bind]. apply decode_encode. exact H. Qed.

Lemma rfc_encode_WellFormed m : wf m = true ->
  WellFormed (rfc_encode (canonical m))
    {| r_type := m_type m; r_code := m_code m; r_mid := m_mid m; r_token := m_token m;
       r_options := map raw_option (option_list (m_opt m)); r_payload := m_payload m |}.
Proof.
  intros H. apply andb_prop in H as [H1 H2]. unfold header_ok in H1. pose proof (blen_nonneg (m_token m)).
  rewrite rfc_encode_layout. cbn [canonical m_type m_code m_mid m_token m_payload m_opt app].
  replace (m_mid m) with (m_mid m / 256 * 256 + m_mid m mod 256) at 3 by lia.
  apply WF_datagram with (tkl := blen (m_token m)); try lia.
  apply rfc_options_WF, options_ok_to_any, H2.
Qed.

(* Options.decode runs its loop on S (length raw) units of fuel, one more than the iterations it can need *)
Lemma Options_decode_total raw : bytes_ok raw = true ->
  Options_decode [] raw = Raise UnparsableMessage \/
  exists l p, Options_decode [] raw = Ok (l, p) /\ options_ok 65804 0 l = true /\ bytes_ok p = true.
Proof. intros H. apply (Options_decode_loop_total (S (length raw)) 0 [] raw H). lia. Qed.

Lemma Message_decode_total data : bytes_ok data = true ->
  Message_decode data = Raise UnparsableMessage \/
  exists m, Message_decode data = Ok m /\ header_ok 15 m = true /\ options_ok 65804 0 (m_opt m) = true.
Proof.
  intros Hok. destruct data as [|b0 [|b1 [|b2 [|b3 rest]]]]; try (left; reflexivity).
  apply bytes_ok_cons_inv in Hok as [H0 Hok]. apply bytes_ok_cons_inv in Hok as [H1 Hok].
  apply bytes_ok_cons_inv in Hok as [H2 Hok]. apply bytes_ok_cons_inv in Hok as [H3 Hok].
  rewrite Message_decode_cons by lia. destruct (b0 / 64 =? 1); [|left; reflexivity]. set (tkl := b0 mod 16).
  destruct (Options_decode_total (bfrom rest tkl) (bytes_ok_skipn _ _ Hok)) as [E|(l & p & E & O & P)]; [rewrite E; left; reflexivity|].
  rewrite E. right. eexists. split; [reflexivity|]. split; [|exact O].
  assert (blen (bto rest tkl) <= 15) by (unfold blen, bto; rewrite firstn_length; subst tkl; lia).
  unfold header_ok. cbn [m_type m_code m_mid m_token m_payload]. unfold bto at 2. rewrite (bytes_ok_firstn _ _ Hok), P. lia.
Qed.

Lemma decode_total data : bytes_ok data = true ->
  Message_decode data = Raise UnparsableMessage \/
  exists m, Message_decode data = Ok m /\ Message_encode m = Ok (rfc_encode m) /\ Message_decode (rfc_encode m) = Ok m.
Proof.
  intros Hok. destruct (Message_decode_total data Hok) as [E|(m & E & Hh & Ho)]; [left; exact E|].
  right. exists m. split; [exact E|]. split.
  - apply (Message_encode_sorted m Hh Ho).
  - apply (Message_decode_rfc_encode m Hh Ho).
Qed.

Lemma received_never_escapes_gen (handles : exn -> bool) : handles UnparsableMessage = true ->
  forall data, bytes_ok data = true ->
  (Message_decode data = Raise UnparsableMessage /\ received_datagram handles data = Dropped) \/
  exists m, Message_decode data = Ok m /\ received_datagram handles data = Dispatched m.
Proof.
  intros Hh data Hok. unfold received_datagram. destruct (decode_total data Hok) as [E|(m & E & _)]; rewrite E.
  - left. rewrite Hh. split; reflexivity.
  - right. exists m. split; reflexivity.
Qed.
(* and only the parser's own error is swallowed: any other exception would escape the receive path *)
Lemma only_unparsable e : match e with UnparsableMessage => true | _ => false end = true -> e = UnparsableMessage.
Proof. destruct e; congruence. Qed.
