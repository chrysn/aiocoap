(* C13 — proofs, part 1: the operations in closed form and what each leaves alone (used by all parts), then the sender
   sequence numbers: every number handed out so far is below the bound a reload would start from (sequence.json
   "next-to-send"), and below the live counter. *)
From Verif Require Import Lib.Py Lib.Tactics Lib.PyLemmas Gen.oscore_replay Model.C12 Model.C13 Proofs.C12.
From Coq Require Import Sorted.
Open Scope Z_scope.

(* strictly increasing lists between two bounds *)
Fixpoint chain (lo : Z) (l : list Z) (hi : Z) : Prop :=
  match l with [] => lo <= hi | x :: r => lo <= x /\ chain (x + 1) r hi end.

Lemma chain_le lo l hi : chain lo l hi -> lo <= hi.
Proof. revert lo; induction l as [|x r IH]; intros lo H; cbn in H; [exact H|]. destruct H as [H1 H2]. apply IH in H2. lia. Qed.
Lemma chain_app a l1 b l2 c : chain a l1 b -> chain b l2 c -> chain a (l1 ++ l2) c.
Proof.
  revert a; induction l1 as [|x r IH]; intros a H1 H2; cbn in *.
  - destruct l2 as [|y r2]; cbn in *; [lia|]. destruct H2; split; [lia|assumption].
  - destruct H1 as [Hx Hr]. split; [exact Hx|]. apply IH; assumption.
Qed.
Lemma chain_weaken a a' l b b' : chain a l b -> a' <= a -> b <= b' -> chain a' l b'.
Proof.
  revert a a'; induction l as [|x r IH]; intros a a' H Ha Hb; cbn in *; [lia|].
  destruct H as [Hx Hr]. split; [lia|]. eapply IH; [exact Hr|lia|exact Hb].
Qed.
Lemma chain_snoc a l b : chain a l b -> chain a (l ++ [b]) (b + 1).
Proof. intros H. eapply chain_app; [exact H|]. cbn. lia. Qed.
Lemma chain_bounds lo l hi : chain lo l hi -> Forall (fun x => lo <= x < hi) l.
Proof.
  revert lo; induction l as [|x r IH]; intros lo H; [constructor|]. cbn in H. destruct H as [Hx Hr].
  pose proof (chain_le _ _ _ Hr). constructor; [lia|].
  eapply Forall_impl; [|exact (IH _ Hr)]. cbn. intros; lia.
Qed.
Lemma chain_sorted lo l hi : chain lo l hi -> StronglySorted Z.lt l.
Proof.
  revert lo; induction l as [|x r IH]; intros lo H; [constructor|]. cbn in H. destruct H as [Hx Hr].
  constructor; [exact (IH _ Hr)|]. eapply Forall_impl; [|exact (chain_bounds _ _ _ Hr)]. cbn. intros; lia.
Qed.
Lemma sorted_nodup l : StronglySorted Z.lt l -> NoDup l.
Proof.
  induction 1 as [|x r Hs IH Hall]; constructor; [|exact IH].
  intros Hin. rewrite Forall_forall in Hall. specialize (Hall _ Hin). lia.
Qed.

Lemma small_cases k n : 0 <= k -> k <= Z.of_nat n -> exists m, (m <= n)%nat /\ k = Z.of_nat m.
Proof. intros H1 H2. exists (Z.to_nat k). split; lia. Qed.

(* all that any operation does to sequence.json: leave it, or replace it by the store content of [q], fsynced *)
Definition wrote (q : proc) (d d' : disk) : Prop :=
  (d_seq d' = d_seq d \/ d_seq d' = Some (store_content q)) /\ (d_durable d = true -> d_durable d' = true).
Lemma wrote_kept q d d' : d_seq d' = d_seq d -> d_durable d' = d_durable d -> wrote q d d'.
Proof. intros H1 H2. split; [left; exact H1|congruence]. Qed.

Lemma store_seq p d a :
  let '(d', died) := _store p d a in
  wrote p d d' /\
  (died = false -> d_seq d' = Some (store_content p) /\ d_durable d' = true /\ d_temps d' = d_temps d /\ d_lock d' = d_lock d).
Proof.
  unfold _store, run_effects, store_effects, wrote. destruct a as [k|]; [|cbn; auto 6].
  destruct ((0 <=? k) && (k <=? Z.of_nat (length [fs_mkstemp; fs_write (store_content p); fs_fsync; fs_replace]))) eqn:E; [|cbn; auto 6].
  cbn [length] in E. assert (Hk : k = 0 \/ k = 1 \/ k = 2 \/ k = 3 \/ k = 4) by lia.
  destruct Hk as [->|[->|[->|[->| ->]]]]; cbn; (split; [auto|discriminate]).
Qed.
Lemma destroy_seq p d a :
  let p1 := set_persisted (set_wpers p true) (ssn p) in
  let '(d', died) := _destroy p d a in
  wrote p1 d d' /\ (died = false -> d_seq d' = Some (store_content p1) /\ d_lock d' = false).
Proof.
  unfold _destroy, run_effects, store_effects, wrote. cbv zeta. destruct a as [k|]; [|cbn; auto].
  match goal with |- context [(0 <=? k) && (k <=? Z.of_nat (length ?l))] => destruct ((0 <=? k) && (k <=? Z.of_nat (length l))) eqn:E end; [|cbn; auto].
  cbn [length app] in E. assert (Hk : k = 0 \/ k = 1 \/ k = 2 \/ k = 3 \/ k = 4 \/ k = 5) by lia.
  destruct Hk as [->|[->|[->|[->|[->| ->]]]]]; cbn; (split; [auto|discriminate]).
Qed.
(* a _store that raises never reaches the rename: sequence.json and its durability are untouched *)
Lemma store_fails_keeps p d k : d_seq (_store_fails p d k) = d_seq d /\ d_durable (_store_fails p d k) = d_durable d.
Proof.
  unfold _store_fails, store_effects.
  assert (Hk : Z.min (Z.max k 0) 3 = 0 \/ Z.min (Z.max k 0) 3 = 1 \/ Z.min (Z.max k 0) 3 = 2 \/ Z.min (Z.max k 0) 3 = 3) by lia.
  destruct Hk as [->|[->|[->| ->]]]; cbn; auto.
Qed.
Lemma store_fails_wrote q p d k : wrote q d (_store_fails p d k).
Proof. apply wrote_kept; apply store_fails_keeps. Qed.

Local Opaque MAX_SEQNO.
Definition reserve (p : proc) : proc :=
  set_chunk (set_persisted (set_ssn p (ssn p + 1)) (persisted p + chunk p)) (Z.min (chunk p * 2) (limit p)).
Lemma nsn_cases p d a :
  new_sequence_number p d a =
  if ssn p >=? MAX_SEQNO then (p, d, Exn ContextUnavailable)
  else if ssn p + 1 >? persisted p
  then let '(d', died) := _store (reserve p) d a in
       (reserve p, d', if died then Died else if ssn p + 1 <=? persisted p + chunk p then Val (ssn p) else Exn AssertionError)
  else (set_ssn p (ssn p + 1), d, Val (ssn p)).
Proof.
  unfold new_sequence_number, post_seqnoincrease, reserve. destruct (ssn p >=? MAX_SEQNO); [reflexivity|].
  cbn [ssn persisted chunk limit set_ssn set_persisted set_chunk]. destruct (ssn p + 1 >? persisted p); [|reflexivity].
  destruct (_store _ d a) as [d' []]; [reflexivity|]. destruct (ssn p + 1 <=? persisted p + chunk p); reflexivity.
Qed.
(* with a failing _store: unless it reaches _store it is an ordinary new_sequence_number *)
Lemma nsn_fails_cases p d k a :
  if negb (ssn p >=? MAX_SEQNO) && (ssn p + 1 >? persisted p)
  then new_sequence_number_fails p d k = (set_ssn p (ssn p + 1), _store_fails (reserve p) d k, Exn OSError)
  else new_sequence_number_fails p d k = new_sequence_number p d a.
Proof.
  rewrite nsn_cases. unfold new_sequence_number_fails, post_seqnoincrease_fails, reserve.
  destruct (ssn p >=? MAX_SEQNO); cbn [negb andb]; [reflexivity|].
  cbn [ssn persisted chunk limit set_ssn set_persisted set_chunk]. destruct (ssn p + 1 >? persisted p); reflexivity.
Qed.
(* unprotect writes exactly when strike_out ran with the flag still set, and then it writes "unknown" *)
Lemma unprotect_cases p d a r :
  let c' := fst (unprotect_request (uc p) r) in let o := snd (unprotect_request (uc p) r) in
  unprotect p d a r =
  if strikes (uc p) o && wpers p
  then let p2 := set_wpers (set_uc p c') false in let '(d', died) := _store p2 d a in (p2, d', if died then Died else Val o)
  else (set_uc p c', d, Val o).
Proof.
  cbv zeta. unfold unprotect, _replay_window_changed. destruct (unprotect_request (uc p) r) as [c' o]. cbn [fst snd wpers set_uc].
  destruct (strikes (uc p) o); cbn [andb]; [|reflexivity]. destruct (wpers p); [|reflexivity].
  destruct (_store _ d a) as [d' []]; reflexivity.
Qed.
(* with a failing _store: unless the strike-out callback reaches _store it is an ordinary unprotect *)
Lemma unprotect_fails_cases p d k r :
  let o := snd (unprotect_request (uc p) r) in let c' := fst (unprotect_request (uc p) r) in
  if strikes (uc p) o && wpers p
  then unprotect_fails p d k r = (set_uc p c', _store_fails (set_wpers (set_uc p c') false) d k, Exn OSError)
  else unprotect_fails p d k r = unprotect p d None r.
Proof.
  cbv zeta. unfold unprotect_fails, unprotect. destruct (unprotect_request (uc p) r) as [c' o]. cbn [fst snd wpers set_uc].
  destruct (strikes (uc p) o); cbn [andb]; [|reflexivity].
  unfold _replay_window_changed. cbn [wpers set_uc]. destruct (wpers p); reflexivity.
Qed.

Definition same_replay (p p' : proc) : Prop := uc p' = uc p /\ wpers p' = wpers p /\ pend p' = pend p.
Definition same_counters (p p' : proc) : Prop :=
  ssn p' = ssn p /\ persisted p' = persisted p /\ chunk p' = chunk p /\ limit p' = limit p.
Lemma wrote_same q d : wrote q d d.
Proof. apply wrote_kept; reflexivity. Qed.

Definition number_frame {A} (p : proc) (d : disk) (x : proc * disk * A) : Prop :=
  let '(p', d', _) := x in same_replay p p' /\ wrote p' d d'.
Lemma nsn_frame p d a : number_frame p d (new_sequence_number p d a).
Proof.
  rewrite nsn_cases. destruct (ssn p >=? MAX_SEQNO); [split; [repeat split|apply wrote_same]|].
  destruct (ssn p + 1 >? persisted p); [|split; [repeat split|apply wrote_same]].
  pose proof (store_seq (reserve p) d a) as Hst. destruct (_store (reserve p) d a) as [d' died]. split; [repeat split|apply Hst].
Qed.
Lemma nsn_fails_frame p d k : number_frame p d (new_sequence_number_fails p d k).
Proof.
  pose proof (nsn_fails_cases p d k None) as Hc. destruct (negb _ && _); rewrite Hc; [|apply nsn_frame].
  split; [repeat split|apply store_fails_wrote].
Qed.

Definition request_frame (p : proc) (d : disk) (r : preq) (x : proc * disk * res outcome) : Prop :=
  let '(p', d', v) := x in
  same_counters p p' /\ echo_recovery (uc p') = echo_recovery (uc p) /\ wrote p' d d' /\
  match v with Val o => o = snd (unprotect_request (uc p) r) | _ => True end.
Lemma unprotect_frame p d a r : request_frame p d r (unprotect p d a r).
Proof.
  pose proof (unprotect_cases p d a r) as Hc. cbv zeta in Hc. rewrite Hc.
  pose proof (proj2 (unprotect_request_static (uc p) r)) as He.
  destruct (strikes _ _ && wpers p); [|split; [repeat split|split; [exact He|split; [apply wrote_same|reflexivity]]]].
  match goal with |- context [_store ?q d a] => pose proof (store_seq q d a) as Hst; destruct (_store q d a) as [d' died] end.
  split; [repeat split|split; [exact He|split; [apply Hst|destruct died; [exact I|reflexivity]]]].
Qed.
Lemma unprotect_fails_frame p d k r : request_frame p d r (unprotect_fails p d k r).
Proof.
  pose proof (unprotect_fails_cases p d k r) as Hc. cbv zeta in Hc.
  destruct (strikes _ _ && wpers p); rewrite Hc; [|apply unprotect_frame].
  split; [repeat split|split; [exact (proj2 (unprotect_request_static (uc p) r))|split; [apply store_fails_wrote|exact I]]].
Qed.

Lemma seq_loop_inv (P : proc -> disk -> Prop) :
  (forall p d a, P p d -> let '(p', d', _) := new_sequence_number p d a in P p' d') ->
  forall n p d a acc, P p d -> let '(p', d', _, _) := seq_loop n p d a acc in P p' d'.
Proof.
  intros Hstep. induction n as [|n IH]; intros p d a acc HP; cbn [seq_loop]; [exact HP|].
  specialize (Hstep p d a HP). destruct (new_sequence_number p d a) as [[p1 d1] [v|e|]]; [apply IH|..]; exact Hstep.
Qed.
Lemma seq_loop_frame n p d a acc : let '(p', _, _, _) := seq_loop n p d a acc in same_replay p p'.
Proof.
  apply (seq_loop_inv (fun p' _ => same_replay p p')); [|repeat split].
  intros q d0 a0 (E1 & E2 & E3). pose proof (nsn_frame q d0 a0) as H.
  destruct (new_sequence_number q d0 a0) as [[q' d'] res]. destruct H as ((F1 & F2 & F3) & _). repeat split; congruence.
Qed.

(* how [step] wraps the result of an operation of the live process: [step_live] *)
Definition issue (sz : Z) (x : proc * disk * res Z) : world * output :=
  match x with
  | (p', d', Val v) => (mkw sz (Some p') d', OIssued v)
  | (p', d', Exn e) => (mkw sz (Some p') d', OExn e)
  | (p', d', Died) => (mkw sz None d', ODied)
  end.
Definition hand_on (sz : Z) (c : ctx) (r : preq) (x : proc * disk * res outcome) : world * output :=
  match x with
  | (p', d', Val o) => (mkw sz (Some (set_pend p' (pend_of c r o))) d', OUnprot o)
  | (p', d', Exn e) => (mkw sz (Some (set_pend p' None)) d', OExn e)
  | (p', d', Died) => (mkw sz None d', ODied)
  end.
Lemma step_live sz p d ev :
  step {| w_size := sz; w_proc := Some p; w_disk := d |} ev =
  match ev with
  | Protect a => issue sz (new_sequence_number p d a)
  | ProtectFails k => issue sz (new_sequence_number_fails p d k)
  | Respond a => match pend p with
                 | Some (n, true) => (mkw sz (Some (set_pend p (Some (n, false)))) d, OReused n)
                 | _ => issue sz (new_sequence_number p d a)
                 end
  | Unprotect r a => hand_on sz (uc p) r (unprotect p d a r)
  | UnprotectFails r k => hand_on sz (uc p) r (unprotect_fails p d k r)
  | _ => step {| w_size := sz; w_proc := Some p; w_disk := d |} ev
  end.
Proof. destruct ev; reflexivity. Qed.

(* everything handed out so far is below [hi], at most the bound on disk and the live counter; the live process knows the
   bound on disk *)
Definition PInv (p : proc) (d : disk) (hi : Z) : Prop :=
  hi <= ssn p /\ persisted p = dbound d /\ 0 <= chunk p /\ 0 <= limit p.
Definition SInv (w : world) (hi : Z) : Prop :=
  hi <= dbound (w_disk w) /\ match w_proc w with Some p => PInv p (w_disk w) hi | None => True end.

Definition ev_ok (e : event) : Prop :=
  match e with
  | Reload start lim _ => 0 <= start /\ 0 <= lim
  | _ => True
  end.

Lemma dbound_store_content p : forall d, d_seq d = Some (store_content p) -> dbound d = persisted p.
Proof. intros d H. unfold dbound. rewrite H. reflexivity. Qed.
Lemma wrote_dbound q d d' : wrote q d d' -> persisted q = dbound d -> dbound d' = dbound d.
Proof. intros ([H|H] & _) Hq; [unfold dbound; rewrite H; reflexivity|rewrite (dbound_store_content q d' H); exact Hq]. Qed.

(* [v] is the old counter; the bound on disk was raised above it before it is handed out *)
Definition issued_ok (p : proc) (hi : Z) (x : proc * disk * res Z) : Prop :=
  match x with
  | (p', d', Val v) => v = ssn p /\ v < MAX_SEQNO /\ PInv p' d' (v + 1) /\ v + 1 <= dbound d'
  | (p', d', Exn e) => PInv p' d' hi /\ hi <= dbound d'
  | (p', d', Died) => hi <= dbound d'
  end.
Lemma nsn_step p d a hi : hi <= dbound d -> PInv p d hi -> issued_ok p hi (new_sequence_number p d a).
Proof.
  intros Hd (Hs & Hp & Hc & Hl). rewrite nsn_cases.
  destruct (ssn p >=? MAX_SEQNO) eqn:Emax; [exact (conj (conj Hs (conj Hp (conj Hc Hl))) Hd)|].
  destruct (ssn p + 1 >? persisted p) eqn:Egt; [|unfold issued_ok, PInv; cbn; repeat split; lia].
  pose proof (store_seq (reserve p) d a) as Hst. destruct (_store (reserve p) d a) as [d' died]. destruct Hst as ((Hseq & _) & Hok).
  destruct died.
  - destruct Hseq as [Hseq|Hseq]; unfold issued_ok, dbound in *; rewrite Hseq; cbn; lia.
  - destruct (Hok eq_refl) as (Hseq' & _).
    destruct (ssn p + 1 <=? persisted p + chunk p) eqn:Eas; unfold issued_ok, PInv, dbound; rewrite Hseq'; cbn; repeat split; lia.
Qed.

Lemma nsn_below_max p d a : match new_sequence_number p d a with (_, _, Val v) => v < MAX_SEQNO | _ => True end.
Proof.
  rewrite nsn_cases. destruct (ssn p >=? MAX_SEQNO) eqn:E; [exact I|].
  destruct (ssn p + 1 >? persisted p); [|lia]. destruct (_store _ d a) as [d' []]; [exact I|]. destruct (_ <=? _); [lia|exact I].
Qed.
(* protect() during which _store raises: nothing is handed out, the reservation is rolled back *)
Lemma nsn_fails_step p d k hi : hi <= dbound d -> PInv p d hi -> issued_ok p hi (new_sequence_number_fails p d k).
Proof.
  intros Hd HP. pose proof (nsn_fails_cases p d k None) as Hc. destruct (negb _ && _); rewrite Hc; [|apply nsn_step; assumption].
  destruct HP as (Hs & Hp & Hch & Hl). unfold issued_ok, PInv, dbound in *. rewrite (proj1 (store_fails_keeps _ _ _)). cbn. repeat split; lia.
Qed.

Definition issues (hi : Z) (wo : world * output) : Prop :=
  exists hi', chain hi (issued_of (snd wo)) hi' /\ SInv (fst wo) hi' /\ Forall (fun v => v < MAX_SEQNO) (issued_of (snd wo)).
Lemma issues_none hi w o : issued_of o = [] -> SInv w hi -> issues hi (w, o).
Proof. intros Ho HI. exists hi. cbn [fst snd]. rewrite Ho. split; [cbn; lia|]. split; [exact HI|constructor]. Qed.

Lemma issue_sinv sz p hi x : hi <= ssn p -> issued_ok p hi x -> issues hi (issue sz x).
Proof.
  intros Hs. destruct x as [[p' d'] [v|e|]]; cbn [issued_ok issue].
  - intros (-> & Hmax & HP & Hd). exists (ssn p + 1). cbn. repeat split; (lia || apply HP || auto).
  - intros (HP & Hd). apply issues_none; [reflexivity|exact (conj Hd HP)].
  - intros Hd. apply issues_none; [reflexivity|exact (conj Hd I)].
Qed.
Lemma hand_on_sinv sz c r p d hi x : hi <= dbound d -> PInv p d hi -> request_frame p d r x -> issues hi (hand_on sz c r x).
Proof.
  intros Hd (Hs & Hp & Hc & Hl). destruct x as [[p' d'] res]. intros ((E1 & E2 & E3 & E4) & _ & Hw & _).
  assert (Hb : dbound d' = dbound d) by (apply (wrote_dbound p'); congruence).
  destruct res; (apply issues_none; [reflexivity|]); split; cbn [w_disk w_proc mkw]; try exact I; unfold PInv; cbn; lia.
Qed.

(* the loop from [acc] on: what it hands out continues the chain at [hi]; the process state is vouched for unless it died *)
Definition seq_ok (hi : Z) (acc : list Z) (x : proc * disk * list Z * seqend) : Prop :=
  let '(p', d', l, e) := x in
  exists l' hi', l = rev acc ++ l' /\ chain hi l' hi' /\ hi' <= dbound d' /\
                 Forall (fun v => v < MAX_SEQNO) l' /\ (e <> SeqDied -> PInv p' d' hi').
Lemma seq_stop hi acc p d e : hi <= dbound d -> (e <> SeqDied -> PInv p d hi) -> seq_ok hi acc (p, d, rev acc, e).
Proof.
  intros Hd HP. exists [], hi. rewrite app_nil_r. cbn [chain].
  split; [reflexivity|]. split; [lia|]. split; [exact Hd|]. split; [constructor|exact HP].
Qed.
Lemma seq_loop_step n : forall p d a acc hi, hi <= dbound d -> PInv p d hi -> seq_ok hi acc (seq_loop n p d a acc).
Proof.
  induction n as [|n IH]; intros p d a acc hi Hd HP; cbn [seq_loop]; [apply seq_stop; auto|].
  pose proof (nsn_step p d a hi Hd HP) as Hn.
  destruct (new_sequence_number p d a) as [[p1 d1] [v|e|]]; cbn [issued_ok] in Hn.
  - destruct Hn as (Hv & Hmax & HP1 & Hd1).
    specialize (IH p1 d1 a (v :: acc) (v + 1) Hd1 HP1).
    destruct (seq_loop n p1 d1 a (v :: acc)) as [[[p' d'] l] e].
    destruct IH as (l' & hi' & Hl & Hch & Hb & Hall & Hlive).
    exists (v :: l'), hi'. cbn [rev] in Hl. rewrite <- app_assoc in Hl.
    split; [exact Hl|]. split; [cbn; split; [destruct HP; lia|exact Hch]|]. split; [exact Hb|].
    split; [constructor; assumption|exact Hlive].
  - apply seq_stop; [apply Hn|intros _; apply Hn].
  - apply seq_stop; [exact Hn|congruence].
Qed.

Lemma step_sinv w ev hi : SInv w hi -> ev_ok ev -> issues hi (step w ev).
Proof.
  destruct w as [sz [p|] d]; intros (Hd & Hp) Hok; cbn [w_disk w_proc] in Hd, Hp;
    destruct ev as [a|n a|r a|a| |start lim echo|a|k|r k]; try rewrite step_live; cbn [step w_proc w_size w_disk];
    try (apply issues_none; [reflexivity|exact (conj Hd Hp)]). (* no process and not a Reload, or a Reload refused by the lock *)
  - (* Protect *) apply (issue_sinv sz p); [apply Hp|apply nsn_step; assumption].
  - (* Seq *) pose proof (seq_loop_step (Z.to_nat n) p d a [] hi Hd Hp) as Hl.
    destruct (seq_loop (Z.to_nat n) p d a []) as [[[p1 d1] l] e].
    destruct Hl as (l' & hi' & -> & Hch & Hb & Hall & Hlive).
    exists hi'. destruct e; (split; [exact Hch|]); (split; [|exact Hall]); (split; [exact Hb|]); try exact I; apply Hlive; discriminate.
  - (* Unprotect *) apply (hand_on_sinv sz (uc p) r p d); [exact Hd|exact Hp|apply unprotect_frame].
  - (* CleanStop: the exact counter is written; everything handed out is below it *)
    pose proof (destroy_seq p d a) as Hst. cbv zeta in Hst. destruct (_destroy p d a) as [d' died]. destruct Hst as (([Hseq|Hseq] & _) & _);
      (apply issues_none; [destruct died; reflexivity|]); (split; [|exact I]); unfold dbound in *; cbn [w_disk mkw]; rewrite Hseq; [exact Hd|].
    destruct Hp as (Hs & _). cbn. exact Hs.
  - (* Kill *) apply issues_none; [reflexivity|exact (conj Hd I)].
  - (* Respond: the request's nonce is reused (no number taken), or an ordinary new_sequence_number *)
    destruct (pend p) as [[m [|]]|]; [apply issues_none; [reflexivity|exact (conj Hd Hp)]| |];
      (apply (issue_sinv sz p); [apply Hp|apply nsn_step; assumption]).
  - (* ProtectFails *) apply (issue_sinv sz p); [apply Hp|apply nsn_fails_step; assumption].
  - (* UnprotectFails *) apply (hand_on_sinv sz (uc p) r p d); [exact Hd|exact Hp|apply unprotect_fails_frame].
  - (* Reload from disk: the counter restarts at the persisted bound *)
    destruct Hok as [H1 H2]. apply issues_none; [reflexivity|]. split; [exact Hd|]. unfold PInv, load, dbound in *. cbn. repeat split; auto.
Qed.

Lemma run_sinv evs : forall w hi, SInv w hi -> Forall ev_ok evs ->
  exists hi', chain hi (issued (snd (run w evs))) hi' /\ SInv (fst (run w evs)) hi' /\
              Forall (fun v => v < MAX_SEQNO) (issued (snd (run w evs))).
Proof.
  induction evs as [|e r IH]; intros w hi HI Hok; cbn [run].
  - exists hi. cbn. split; [lia|]. split; [exact HI|constructor].
  - inversion Hok as [|? ? He Hr]; subst.
    destruct (step_sinv w e hi HI He) as (hi1 & Hc1 & HI1 & Hm1). destruct (step w e) as [w1 o].
    destruct (IH w1 hi1 HI1 Hr) as (hi2 & Hc2 & HI2 & Hm2).
    destruct (run w1 r) as [w2 os]. cbn [fst snd] in *.
    exists hi2. unfold issued in *. cbn [flat_map].
    split; [eapply chain_app; eassumption|]. split; [exact HI2|]. apply Forall_app. split; assumption.
Qed.

Lemma initial_sinv size seq : SInv (initial_world size seq) (dbound (w_disk (initial_world size seq))).
Proof. unfold SInv, initial_world; cbn. split; [lia|exact I]. Qed.

Theorem issued_chain w hi evs : SInv w hi -> Forall ev_ok evs ->
  exists hi', chain hi (issued (snd (run w evs))) hi' /\ hi' <= dbound (w_disk (fst (run w evs))).
Proof.
  intros HI Hok. destruct (run_sinv evs w hi HI Hok) as (hi' & Hc & (Hb & _) & _). exists hi'. split; assumption.
Qed.
Theorem issued_strictly_increasing w hi evs : SInv w hi -> Forall ev_ok evs ->
  StronglySorted Z.lt (issued (snd (run w evs))).
Proof. intros HI Hok. destruct (issued_chain w hi evs HI Hok) as (hi' & Hc & _). eapply chain_sorted; exact Hc. Qed.
Theorem issued_nodup w hi evs : SInv w hi -> Forall ev_ok evs -> NoDup (issued (snd (run w evs))).
Proof. intros HI Hok. apply sorted_nodup. eapply issued_strictly_increasing; eassumption. Qed.
(* every number handed out is below what a reload at the end (in particular after a crash at the end) starts from,
   and not below the bound the history started with *)
Theorem issued_below_persisted w hi evs : SInv w hi -> Forall ev_ok evs ->
  Forall (fun v => hi <= v < dbound (w_disk (fst (run w evs)))) (issued (snd (run w evs))).
Proof.
  intros HI Hok. destruct (issued_chain w hi evs HI Hok) as (hi' & Hc & Hb).
  eapply Forall_impl; [|exact (chain_bounds _ _ _ Hc)]. cbn. intros; lia.
Qed.
Theorem issued_below_max w hi evs : SInv w hi -> Forall ev_ok evs ->
  Forall (fun v => v < MAX_SEQNO) (issued (snd (run w evs))).
Proof. intros HI Hok. destruct (run_sinv evs w hi HI Hok) as (hi' & _ & _ & Hm). exact Hm. Qed.

Local Transparent MAX_SEQNO.
(* the 5-byte Partial IV is injective on the range of numbers handed out, so nonces are not reused either *)
Definition piv (n : Z) : list Z := to_bytes_big_n 5 n.
Lemma piv_injective a b : 0 <= a < 2 ^ 40 -> 0 <= b < 2 ^ 40 -> piv a = piv b -> a = b.
Proof.
  intros Ha Hb H. unfold piv in H.
  assert (Hx : from_bytes_big (to_bytes_big_n (Z.to_nat 5) a) = a) by (apply from_bytes_big_to; [lia|exact Ha]).
  assert (Hy : from_bytes_big (to_bytes_big_n (Z.to_nat 5) b) = b) by (apply from_bytes_big_to; [lia|exact Hb]).
  change (Z.to_nat 5) with 5%nat in Hx, Hy. rewrite H in Hx. congruence.
Qed.
Lemma NoDup_map_on {A B} (f : A -> B) (P : A -> Prop) l :
  (forall a b, P a -> P b -> f a = f b -> a = b) -> Forall P l -> NoDup l -> NoDup (map f l).
Proof.
  intros Hinj HP Hnd. induction Hnd as [|x l Hni Hnd IH]; cbn [map]; constructor; inversion HP as [|? ? Hx Hl]; subst; [|exact (IH Hl)].
  intros Hin. apply in_map_iff in Hin as (y & Hy & Hyin). rewrite Forall_forall in Hl.
  apply Hni. rewrite (Hinj x y Hx (Hl y Hyin) (eq_sym Hy)). exact Hyin.
Qed.
Theorem nonces_nodup w hi evs : SInv w hi -> 0 <= hi -> Forall ev_ok evs ->
  NoDup (map piv (issued (snd (run w evs)))).
Proof.
  intros HI Hpos Hok.
  apply (NoDup_map_on piv (fun v => 0 <= v < 2 ^ 40)); [intros a b; apply piv_injective| |eapply issued_nodup; eassumption].
  pose proof (issued_below_max w hi evs HI Hok) as Hmax. pose proof (issued_below_persisted w hi evs HI Hok) as Hlo.
  rewrite Forall_forall in *. intros v Hv. specialize (Hmax v Hv). specialize (Hlo v Hv). unfold MAX_SEQNO in Hmax. lia.
Qed.
(* durability: sequence.json is only ever replaced by fsynced content *)
Lemma number_durable {X} p d (x : proc * disk * X) : number_frame p d x -> d_durable d = true -> let '(_, d', _) := x in d_durable d' = true.
Proof. destruct x as [[p' d'] r]. intros (_ & _ & H). exact H. Qed.
Lemma issue_durable sz p d x : number_frame p d x -> d_durable d = true -> d_durable (w_disk (fst (issue sz x))) = true.
Proof. intros Hf H. pose proof (number_durable p d x Hf H) as H'. destruct x as [[p' d'] []]; exact H'. Qed.
Lemma hand_on_durable sz c r p d x : request_frame p d r x -> d_durable d = true -> d_durable (w_disk (fst (hand_on sz c r x))) = true.
Proof. destruct x as [[p' d'] []]; intros (_ & _ & (_ & H) & _); exact H. Qed.

Lemma step_durable w ev : d_durable (w_disk w) = true -> d_durable (w_disk (fst (step w ev))) = true.
Proof.
  destruct w as [sz [p|] d]; cbn [w_disk]; intros H;
    destruct ev as [a|n a|r a|a| |start lim echo|a|k|r k]; try rewrite step_live; cbn [step w_proc w_size w_disk]; try exact H.
  - (* Protect *) apply (issue_durable sz p d); [apply nsn_frame|exact H].
  - (* Seq *) pose proof (seq_loop_inv (fun _ d' => d_durable d' = true) (fun q d0 a0 => number_durable q d0 _ (nsn_frame q d0 a0)) (Z.to_nat n) p d a [] H) as Hl.
    destruct (seq_loop (Z.to_nat n) p d a []) as [[[p1 d1] l] []]; exact Hl.
  - (* Unprotect *) apply (hand_on_durable sz (uc p) r p d); [apply unprotect_frame|exact H].
  - (* CleanStop *) pose proof (destroy_seq p d a) as Hst. cbv zeta in Hst. destruct (_destroy p d a) as [d' died]. apply Hst, H.
  - (* Respond *) destruct (pend p) as [[m [|]]|]; [exact H| |]; (apply (issue_durable sz p d); [apply nsn_frame|exact H]).
  - (* ProtectFails *) apply (issue_durable sz p d); [apply nsn_fails_frame|exact H].
  - (* UnprotectFails *) apply (hand_on_durable sz (uc p) r p d); [apply unprotect_fails_frame|exact H].
Qed.
Theorem run_durable w evs : d_durable (w_disk w) = true -> d_durable (w_disk (fst (run w evs))) = true.
Proof.
  revert w; induction evs as [|e r IH]; intros w H; cbn [run]; [exact H|].
  pose proof (step_durable w e H) as Hs. destruct (step w e) as [w1 o]. cbn [fst] in Hs.
  specialize (IH w1 Hs). destruct (run w1 r) as [w2 os]. exact IH.
Qed.
