(* C10 — "acknowledged exactly once" over whole histories: the invariant AInv (opportunities <-> pending empty-ACK handles), the fate of
   one recorded opportunity (Pend) and of the request's handler (Good before its handle fires, Gone after), on the micro-steps of C10Acks.v. *)
From Verif Require Import Lib.Py Lib.PyLemmas Lib.Tactics Model.C10 Proofs.C10 Proofs.C10Acks.
Open Scope Z_scope.

Notation pgl := (list ((Z * list Z) * (Z * Z))).
Lemma adel_absent (l : pgl) k : aget pk_eqb l k = None -> adel pk_eqb l k = l.
Proof. apply adel_none. Qed.

Definition AI (nw sq : Z) (P : pgl) (T : list timer) : Prop :=
  (forall t, In t T -> nw <= due t /\ tid t < sq /\
      exists r tok pm, kind t = EmptyAck r tok /\ aget pk_eqb P (rpeer r, tok) = Some (pm, tid t)) /\
  (forall k pm h, aget pk_eqb P k = Some (pm, h) -> exists t, In t T /\ tid t = h) /\
  (forall k k' pm pm' h, aget pk_eqb P k = Some (pm, h) -> aget pk_eqb P k' = Some (pm', h) -> k = k') /\
  NoDup (map tid T).
(* every pending empty-ACK handle is not overdue, has a handle number below the counter and belongs to exactly the opportunity that stores
   it; every opportunity has its pending handle; handle numbers are unique *)
Definition AInv (s : st) : Prop := AI (now s) (seq s) (piggy s) (atimers s).

Lemma AI_mono nw sq sq' P T : AI nw sq P T -> sq <= sq' -> AI nw sq' P T.
Proof.
  intros (A1 & A2 & A3 & A4) Hs. split; [|auto]. intros t Hin. destruct (A1 t Hin) as (Hd & Ht & He). repeat split; auto. lia.
Qed.
Lemma AInv_frame s s' : pframe s s' -> AInv s -> AInv s'.
Proof. unfold AInv. intros (-> & -> & -> & Hs & _) H. eapply AI_mono; eauto. Qed.
Lemma AI_now nw nw' sq P T : AI nw sq P T -> (forall t, In t T -> nw' <= due t) -> AI nw' sq P T.
Proof.
  intros (A1 & A2 & A3 & A4) Hd. split; [|auto]. intros t Hin. destruct (A1 t Hin) as (_ & Ht & He). repeat split; auto.
Qed.
Lemma AI_handle_lt nw sq P T k pm h : AI nw sq P T -> aget pk_eqb P k = Some (pm, h) -> h < sq.
Proof. intros (A1 & A2 & _) Hg. destruct (A2 _ _ _ Hg) as (t & Hin & <-). apply A1. exact Hin. Qed.

Lemma cancel_in T h t : In t (cancel T h) <-> In t T /\ tid t <> h.
Proof. unfold cancel. rewrite filter_In. split; intros [H1 H2]; split; auto; lia. Qed.
Lemma cancel_snoc T x hh : tid x <> hh -> cancel (T ++ [x]) hh = cancel T hh ++ [x].
Proof. intros Hne. unfold cancel. rewrite filter_app. cbn. replace (tid x =? hh) with false by lia. reflexivity. Qed.
Lemma NoDup_cancel T h : NoDup (map tid T) -> NoDup (map tid (cancel T h)).
Proof.
  unfold cancel. induction T as [|t T IH]; cbn; [auto|]. intros H. inv H. destruct (negb (tid t =? h)); cbn; auto.
  constructor; auto. intros Hin. apply H2. apply in_map_iff in Hin as (x & Hx & Hin). apply filter_In in Hin as [Hin _]. apply in_map_iff. eauto.
Qed.
Lemma NoDup_tid_eq T a b : NoDup (map tid T) -> In a T -> In b T -> tid a = tid b -> a = b.
Proof.
  induction T as [|t T IH]; cbn; [tauto|]. intros Hnd [Ha|Ha] [Hb|Hb] He; inv Hnd; try congruence.
  - exfalso. apply H1. rewrite He. apply in_map. exact Hb.
  - exfalso. apply H1. rewrite <- He. apply in_map. exact Ha.
  - auto.
Qed.

Lemma AI_remove nw sq P T k pm h : AI nw sq P T -> aget pk_eqb P k = Some (pm, h) -> AI nw sq (adel pk_eqb P k) (cancel T h).
Proof.
  intros (A1 & A2 & A3 & A4) Hg.
  assert (Hget : forall k' pm' h', aget pk_eqb (adel pk_eqb P k) k' = Some (pm', h') -> k <> k' /\ aget pk_eqb P k' = Some (pm', h')).
  { intros k' pm' h'. rewrite (aget_adel _ pk_ok). destruct (pk_eqb k k') eqn:E; [discriminate|]. split; [|assumption].
    intros ->. rewrite (eqb_refl _ pk_ok) in E. discriminate. }
  split; [|split; [|split]].
  - intros t Hin. apply cancel_in in Hin as [Hin Hne]. destruct (A1 t Hin) as (Hd & Ht & r & tok & pm' & Hk & He). repeat split; auto.
    exists r, tok, pm'. split; auto. rewrite (aget_adel_other _ pk_ok); auto. intros ->. rewrite Hg in He. inv He. contradiction.
  - intros k' pm' h' Hg'. apply Hget in Hg' as [Hne Hg']. destruct (A2 _ _ _ Hg') as (t & Hin & Ht). exists t. split; auto.
    apply cancel_in. split; auto. rewrite Ht. intros ->. apply Hne. eapply A3; eauto.
  - intros k1 k2 p1 p2 h' H1 H2. apply Hget in H1 as [_ H1]. apply Hget in H2 as [_ H2]. eapply A3; eauto.
  - apply NoDup_cancel. exact A4.
Qed.

Lemma AI_add nw sq P T r tok md delay : AI nw sq P T -> aget pk_eqb P (rpeer r, tok) = None -> 0 <= delay ->
  AI nw (sq + 1) (aset pk_eqb P (rpeer r, tok) (md, sq)) (T ++ [{| due := nw + delay; tid := sq; kind := EmptyAck r tok |}]).
Proof.
  intros HA Hn Hd. pose proof (fun k pm h => AI_handle_lt _ _ _ _ k pm h HA) as Hlt. destruct HA as (A1 & A2 & A3 & A4).
  assert (Hget : forall k pm h, aget pk_eqb (aset pk_eqb P (rpeer r, tok) (md, sq)) k = Some (pm, h) ->
            (k = (rpeer r, tok) /\ h = sq) \/ aget pk_eqb P k = Some (pm, h)).
  { intros k pm h. rewrite (aget_aset _ pk_ok). destruct (pk_eqb (rpeer r, tok) k) eqn:E; [|auto].
    apply pk_ok in E. intros H. inv H. auto. }
  split; [|split; [|split]].
  - intros t Hin. apply in_app_or in Hin as [Hin|[<-|[]]].
    + destruct (A1 t Hin) as (H1 & H2 & r' & tok' & pm' & Hk & He). repeat split; auto; try lia. exists r', tok', pm'. split; auto.
      rewrite (aget_aset_other _ pk_ok); [exact He|]. intros Heq. congruence.
    + cbn. repeat split; try lia. exists r, tok, md. split; auto. apply (aget_aset_same _ pk_ok).
  - intros k pm h Hg. apply Hget in Hg as [[_ ->]|Hg].
    + eexists. split; [apply in_or_app; right; left; reflexivity|reflexivity].
    + destruct (A2 _ _ _ Hg) as (t & Hin & Ht). exists t. split; auto. apply in_or_app. auto.
  - intros k1 k2 p1 p2 h H1 H2. apply Hget in H1, H2. destruct H1 as [[-> E1]|H1], H2 as [[-> E2]|H2]; try reflexivity.
    + apply Hlt in H2. lia.
    + apply Hlt in H1. lia.
    + eapply A3; eauto.
  - rewrite map_app. cbn. apply NoDup_snoc; [exact A4|]. intros Hin. apply in_map_iff in Hin as (t & Ht & Hin).
    destruct (A1 t Hin) as (_ & Hlt' & _). lia.
Qed.

Lemma fired_own s k pm h id : AInv s -> aget pk_eqb (piggy s) k = Some (pm, h) -> id = h \/ fired s id k -> id = h.
Proof.
  intros (A1 & _) Hg [->|(t & r & tok & Hin & <- & Hk & ->)]; [reflexivity|].
  destruct (A1 t Hin) as (_ & _ & r' & tok' & pm' & Hk' & Hg'). rewrite Hk in Hk'. inv Hk'. rewrite Hg in Hg'. inv Hg'. reflexivity.
Qed.
Lemma AInv_arm s r m : AInv s -> AInv (arm s r m).
Proof.
  intros HA. unfold AInv. destruct (arm_rest s r m) as (-> & -> & _). rewrite arm_piggy, arm_atimers. unfold new_handle.
  destruct (aget pk_eqb (piggy s) (rpeer r, token m)) as [[pm old]|] eqn:Eg.
  - pose proof (AI_handle_lt _ _ _ _ _ _ _ HA Eg). rewrite cancel_snoc by (cbn; lia).
    apply AI_add; [eapply AI_remove; eauto|apply (aget_adel_same _ pk_ok)|unfold EMPTY_ACK_DELAY; lia].
  - rewrite (adel_none _ _ _ Eg). apply AI_add; [exact HA|exact Eg|unfold EMPTY_ACK_DELAY; lia].
Qed.

Lemma astep_AInv K C A s o s' : astep K C A s o s' -> AInv s -> AInv s'.
Proof.
  intros H HA. destruct H as [s o s' Hf _ _|s k pm h id r w _ Hg Hid _ _ _|s t Hin Hn|s r m _ _ _|s r m _|s b t En|s d].
  - (* a_frame *) eapply AInv_frame; eauto.
  - (* a_ack *) rewrite (fired_own _ _ _ _ _ HA Hg Hid). unfold AInv. cbn. eapply AI_remove; eauto.
  - (* a_stale *) exfalso. destruct HA as (A1 & _). destruct (A1 t Hin) as (_ & _ & r & tok & pm & Hk & Hg). rewrite (Hn _ _ Hk) in Hg. discriminate.
  - (* a_arm *) apply AInv_arm. exact HA.
  - (* a_start *) exact HA.
  - (* a_tick *) unfold AInv. cbn. eapply AI_now; [exact HA|]. intros x Hx. pose proof (next_timer_le _ _ _ En x Hx). destruct HA as (A1 & _). destruct (A1 x Hx). lia.
  - (* waiting never passes a due handle *)
    unfold AInv. cbn. eapply AI_now; [exact HA|]. intros x Hx. destruct HA as (A1 & _). destruct (A1 x Hx) as (Hd' & _).
    destruct (next_timer s) as [[b t]|] eqn:En.
    + pose proof (next_timer_le _ _ _ En x Hx). destruct (due t <? now s + Z.max 0 d) eqn:E; lia.
    + apply next_timer_none in En. rewrite En in Hx. destruct Hx.
Qed.

Lemma ustep_AInv L K C A s o s' : ustep L K C A s o s' -> (L -> BInv s) -> AInv s -> AInv s'.
Proof.
  intros H HB. apply (asteps_rel K C A (fun s _ s' => AInv s -> AInv s')) with (o := o); auto.
  - intros; eapply astep_AInv; eauto.
  - eapply ustep_a; eauto.
Qed.
Lemma AInv_step s e s' o : step s e = (s', o) -> BInv s -> AInv s -> AInv s'.
Proof.
  intros H HB. apply (step_rel (fun _ => True) (fun _ => True) (fun _ _ => True) (fun s _ s' => AInv s -> AInv s')) with (e := e) (o := o); auto using allows_all.
  intros; eapply astep_AInv; eauto.
Qed.
Lemma AInv_run es s s' os : run s es = (s', os) -> BInv s -> AInv s -> AInv s'.
Proof. apply run_ainv. intros; eapply astep_AInv; eauto. Qed.
Lemma AInv_init m0 t0 : AInv (init m0 t0).
Proof. unfold AInv, AI, init; cbn. repeat split; try (intros; contradiction); try discriminate. constructor. Qed.

Section Pending.
Variables (p : Z) (tok : list Z) (M h d : Z) (r0 : remote).
Definition Pend (s : st) : Prop :=
  aget pk_eqb (piggy s) (p, tok) = Some (M, h) /\ In {| due := d; tid := h; kind := EmptyAck r0 tok |} (atimers s).

Lemma Pend_frame s s' : pframe s s' -> Pend s -> Pend s'.
Proof. intros (Hp & Ha & _). unfold Pend. rewrite Hp, Ha. auto. Qed.
Lemma Pend_consumed s k pm hh : AInv s -> aget pk_eqb (piggy s) k = Some (pm, hh) -> k <> (p, tok) -> Pend s -> Pend (consumed s k hh).
Proof.
  intros HA Hg Hne [P1 P2]. split; cbn; [rewrite (aget_adel_other _ pk_ok); auto|].
  apply cancel_in. split; [exact P2|]. cbn. intros ->. apply Hne. destruct HA as (_ & _ & A3 & _). eapply A3; eauto.
Qed.

(* the opportunity stays pending unless this micro-step consumes it — then the ACK under M goes out *)
Definition live (C : Z * list Z -> Prop) (s : st) (o : list output) (s' : st) : Prop :=
  AInv s -> AInv s' /\ (Pend s -> Pend s' \/ (C (p, tok) /\ (1 <= acks p M o)%nat)).
Lemma live_nil C s : live C s [] s.
Proof. intros HA. auto. Qed.
Lemma live_app C s o s1 o' s2 : live C s o s1 -> live C s1 o' s2 -> live C s (o ++ o') s2.
Proof.
  intros H1 H2 HA. destruct (H1 HA) as [HA1 P1]. destruct (H2 HA1) as [HA2 P2]. split; [exact HA2|].
  intros HP. rewrite acks_app. destruct (P1 HP) as [HP1|[]]; [|right; split; [assumption|lia]]. destruct (P2 HP1) as [|[]]; [auto|right; split; [assumption|lia]].
Qed.
Lemma astep_live K C A s o s' : astep K C A s o s' -> (forall r m, A r m -> (rpeer r, token m) <> (p, tok)) -> live C s o s'.
Proof.
  intros H Ha HA. split; [eapply astep_AInv; eauto|]. intros HP.
  destruct H as [s o s' Hf _ _|s k pm hh id r w Hc Hg Hid Hr Hw Hm|s t Hin Hn|s r m Har _ _|s r m _|s b t En|s dd]; try (left; exact HP).
  - (* a_frame *) left. eapply Pend_frame; eauto.
  - (* a_ack *) rewrite (fired_own _ _ _ _ _ HA Hg Hid). destruct (pk_eqb k (p, tok)) eqn:Ek.
    + apply pk_ok in Ek. subst k. right. split; [exact Hc|]. destruct HP as [P1 _]. rewrite P1 in Hg. inv Hg.
      unfold acks. cbn. rewrite Hw, Hr, !Z.eqb_refl. cbn. lia.
    + left. eapply Pend_consumed; eauto. intros ->. rewrite (eqb_refl _ pk_ok) in Ek. discriminate.
  - (* a_stale *) exfalso. destruct HA as (A1 & _). destruct (A1 t Hin) as (_ & _ & r & tk & pm & Hk & Hg). rewrite (Hn _ _ Hk) in Hg. discriminate.
  - (* a_arm *) left. specialize (Ha r m Har). destruct HP as [P1 P2]. split.
    + rewrite arm_piggy, (aget_aset_other _ pk_ok), (aget_adel_other _ pk_ok); auto.
    + rewrite arm_atimers. destruct (aget pk_eqb (piggy s) (rpeer r, token m)) as [[pm old]|] eqn:Eg; [|apply in_or_app; auto].
      apply cancel_in. split; [apply in_or_app; auto|]. cbn. intros ->. apply Ha. destruct HA as (_ & _ & A3 & _). eapply A3; eauto.
Qed.

(* events that do not reuse the opportunity's (peer, token) in a new CON request *)
Definition ev_live (e : event) : Prop :=
  match e with Recv r m => ~ (mtype m = CON /\ (rpeer r, token m) = (p, tok)) | _ => True end.
Lemma live_step s e s' o : ev_live e -> step s e = (s', o) -> BInv s -> live (fun _ => True) s o s'.
Proof.
  intros He H HB.
  apply (step_rel (fun _ => True) (fun _ => True) (fun r m => (rpeer r, token m) <> (p, tok)) (live (fun _ => True))) with (e := e);
    [apply live_nil|apply live_app| |exact H|exact HB|].
  - intros; eapply astep_live; eauto.
  - destruct e; cbn in *; auto. split; [exact I|]. intros _. split; [exact I|]. intros Hc Hk. apply He. auto.
Qed.
Lemma live_run es s s' os : run s es = (s', os) -> BInv s -> Forall ev_live es -> live (fun _ => True) s (outputs_of os) s'.
Proof. intros H HB Hev. eapply (run_relB (live (fun _ => True)) ev_live); eauto using live_nil, live_app, live_step. Qed.
End Pending.

(* the step in which a fresh CON request arrives: either its ACK goes out in this very step (the library or a fast resource answered
   at once) or its opportunity is pending with the handle due EMPTY_ACK_DELAY after arrival; and at most one ACK is accounted for *)
Lemma arrival s0 r m s1 o1 : AInv s0 -> aget pk_eqb (piggy s0) (rpeer r, token m) = None -> mtype m = CON ->
  _process_request s0 r m = (s1, o1) ->
  AInv s1 /\
  (Pend (rpeer r) (token m) (mid m) (seq s0) (now s0 + EMPTY_ACK_DELAY) r s1 \/ (1 <= acks (rpeer r) (mid m) o1)%nat) /\
  (acks (rpeer r) (mid m) o1 + cnt (rpeer r) (mid m) (piggy s1) <= cnt (rpeer r) (mid m) (piggy s0) + 1)%nat.
Proof.
  intros HA Hn Ht H. rewrite process_request_arm, Ht in H.
  apply (tm_process_request_a (fun _ => False) (fun _ => True) (fun _ _ => False)) in H; [|exact I].
  assert (HP : Pend (rpeer r) (token m) (mid m) (seq s0) (now s0 + EMPTY_ACK_DELAY) r (arm s0 r m)).
  { split; [rewrite arm_piggy; apply (aget_aset_same _ pk_ok)|rewrite arm_atimers, Hn; apply in_or_app; right; left; reflexivity]. }
  assert (Hl : live (rpeer r) (token m) (mid m) (seq s0) (now s0 + EMPTY_ACK_DELAY) r (fun _ => True) (arm s0 r m) o1 s1).
  { revert H. apply asteps_rel; [apply live_nil|apply live_app|]. intros; eapply astep_live; eauto. }
  destruct (Hl (AInv_arm _ _ _ HA)) as [HA1 Hp1]. split; [exact HA1|]. split; [destruct (Hp1 HP) as [|[]]; auto|].
  apply (asteps_okp (rpeer r) (mid m)) in H; [|intros ? []|intros ? ? []]. unfold okp in H. rewrite cnt_arm, (adel_none _ _ _ Hn) in H.
  destruct (counts _ _ _); lia.
Qed.

(* a CON request to the slow resource whose token is not in use and whose (peer, mid) has no opportunity recorded: afterwards there is
   exactly one, so by [acks_bounded] at most one ACK is ever sent under that message ID *)
Theorem con_request_acked_at_most_once s r m s1 o1 es s' os :
  BInv s -> mtype m = CON -> path m = 0 -> 1 <= code m <= 7 ->
  aget zz_eqb (recent s) (rpeer r, mid m) = None ->                       (* not a duplicate *)
  aget pk_eqb (piggy s) (rpeer r, token m) = None ->                       (* side condition O3 *)
  cnt (rpeer r) (mid m) (piggy s) = 0%nat ->                               (* no opportunity under this (peer, mid) yet *)
  dispatch_message s r m = (s1, o1) -> run s1 es = (s', os) -> Forall (ev_ok (rpeer r) (mid m)) es ->
  acks (rpeer r) (mid m) o1 = 0%nat /\ (acks (rpeer r) (mid m) (outputs_of os) <= 1)%nat.
Proof.
  intros HB Ht Hp Hc Hfresh Ho3 Hcnt Hd Hrun Hev.
  assert (HB1 : BInv s1) by (eapply dispatch_message_ok; eauto).
  apply dispatch_fresh_request in Hd; [|unfold is_request; lia|auto|auto]. rewrite process_request_arm, Ht in Hd.
  destruct (tm_process_request_slow _ _ _ _ _ Hp Hc Hd) as (_ & _ & Hpg & _ & _ & Hout).
  split; [apply handler_outputs_no_ack; exact Hout|].
  pose proof (acks_bounded es s1 s' os (rpeer r) (mid m) Hrun HB1 Hev) as Hb.
  rewrite Hpg, cnt_arm in Hb. change (piggy (register _ _ _)) with (piggy s) in Hb. rewrite (adel_none _ _ _ Ho3), Hcnt in Hb.
  destruct (counts _ _ _); lia.
Qed.

(* Time in the model: [Fire] runs the pending handle with the least (due, creation number) and sets the clock to max(now, due);
   [Wait d] advances the clock by d but never past the due time of a pending handle (AInv: now <= due for every pending empty-ACK
   handle).  So "the clock has passed arrival + EMPTY_ACK_DELAY" ([d < now]) implies the request's handle is no longer pending. *)
Theorem con_request_acked_exactly_once s r m s1 o1 post s' os : BInv s -> AInv s ->
  mtype m = CON -> is_request (code m) = true ->
  aget zz_eqb (recent s) (rpeer r, mid m) = None ->                        (* not a duplicate *)
  aget pk_eqb (piggy s) (rpeer r, token m) = None ->                       (* O3: token not in use by an unacknowledged request *)
  cnt (rpeer r) (mid m) (piggy s) = 0%nat ->                               (* no opportunity recorded under this (peer, mid) *)
  dispatch_message s r m = (s1, o1) -> run s1 post = (s', os) ->
  Forall (ev_ok (rpeer r) (mid m)) post ->                                 (* no other message with this (peer, mid); no ACK-typed app requests *)
  Forall (ev_live (rpeer r) (token m)) post ->                             (* O3: no CON request reusing (peer, token) *)
  let n := acks (rpeer r) (mid m) (o1 ++ outputs_of os) in
  (n <= 1)%nat /\ (now s + EMPTY_ACK_DELAY < now s' -> n = 1%nat).
Proof.
  intros HB HA Ht Hrq Hfresh Ho3 Hcnt Hd Hrun Hok Hlv n.
  assert (HB1 : BInv s1) by (eapply dispatch_message_ok; eauto).
  apply dispatch_fresh_request in Hd; auto. set (s0 := register s (rpeer r) (mid m)) in Hd.
  destruct (arrival s0 r m s1 o1 (AInv_frame _ _ (pframe_register _ _ _) HA) Ho3 Ht Hd) as (HA1 & Hprog & Hbound). change (piggy s0) with (piggy s) in Hbound.
  pose proof (acks_bounded post s1 s' os (rpeer r) (mid m) Hrun HB1 Hok) as Hb.
  pose proof (live_run (rpeer r) (token m) (mid m) (seq s0) (now s0 + EMPTY_ACK_DELAY) r post s1 s' os Hrun HB1 Hlv HA1) as Hl.
  subst n. rewrite acks_app. split; [lia|].
  intros Hlate. destruct Hprog as [HP|Hack]; [|lia].
  destruct Hl as [HA' Hl]. destruct (Hl HP) as [[_ HP']|[_ Hack]]; [|lia].
  destruct HA' as (A1 & _). destruct (A1 _ HP') as (Hdue & _). cbn in Hdue. lia.
Qed.

(* a NON request is never acknowledged: over every continuation, no ACK-typed message under its (peer, message ID) *)
Theorem non_request_never_acked s r m s1 o1 es s' os :
  BInv s -> mtype m = NON -> is_request (code m) = true ->
  aget zz_eqb (recent s) (rpeer r, mid m) = None -> cnt (rpeer r) (mid m) (piggy s) = 0%nat ->
  dispatch_message s r m = (s1, o1) -> run s1 es = (s', os) -> Forall (ev_ok (rpeer r) (mid m)) es ->
  acks (rpeer r) (mid m) (o1 ++ outputs_of os) = 0%nat.
Proof.
  intros HB Ht Hrq Hfresh Hcnt Hd Hrun Hok.
  assert (HB1 : BInv s1) by (eapply dispatch_message_ok; eauto).
  apply dispatch_fresh_request in Hd; auto. rewrite process_request_arm, Ht in Hd.
  apply (tm_process_request_a (fun _ => False) (fun _ => True) (fun _ _ => False)) in Hd; [|exact I].
  apply (asteps_okp (rpeer r) (mid m)) in Hd; [|intros ? []|intros ? ? []]. unfold okp in Hd. change (piggy (register _ _ _)) with (piggy s) in Hd.
  pose proof (acks_bounded es s1 s' os (rpeer r) (mid m) Hrun HB1 Hok) as Hb. rewrite acks_app. lia.
Qed.

Lemma astep_now K C A s o s' : astep K C A s o s' -> now s <= now s'.
Proof.
  destruct 1 as [s o s' (_ & _ & -> & _) _ _| | |s r m _ _ _| | |s d]; try (cbn; lia).
  - (* a_arm *) rewrite (proj1 (arm_rest s r m)). lia.
  - (* a_wait *) cbn. destruct (next_timer s) as [[b t]|]; [destruct (due t <? now s + Z.max 0 d) eqn:E|]; lia.
Qed.
Lemma nw_run es s s' os : run s es = (s', os) -> BInv s -> now s <= now s'.
Proof.
  intros H HB. apply (run_ainv (fun x => now s <= now x)) with (es := es) (s := s) (os := os); auto; [|lia].
  intros x o x' Hs Hle. apply astep_now in Hs. lia.
Qed.

Definition GIx (n : Z) (x : (list Z * Z) * srv) : Prop :=
  fst x = (token (sv_req (snd x)), rpeer (sv_remote (snd x))) /\ sv_id (snd x) < n.
Definition GI (s : st) : Prop := forall x, In x (incoming s) -> GIx (next_srv s) x.
Lemma GI_frame s s' : pframe s s' -> GI s -> GI s'.
Proof. intros (_ & _ & _ & _ & F5 & F6) HG x Hx. destruct (HG x (F6 x Hx)) as [G1 G2]. split; [exact G1|lia]. Qed.
Lemma astep_GI K C A s o s' : astep K C A s o s' -> GI s -> GI s'.
Proof.
  intros H HG. destruct H as [s o s' Hf _ _| | |s r m _ _ _|s r m _| |]; try exact HG.
  - (* a_frame *) eapply GI_frame; eauto.
  - (* a_arm *) destruct (arm_rest s r m) as (_ & _ & Hi & Hn). unfold GI. rewrite Hi, Hn. exact HG.
  - (* a_start *) intros x Hx. cbn in Hx. apply (in_aset _ ik_ok) in Hx as [Hx| ->]; [destruct (HG x Hx); split; [assumption|cbn; lia]|].
    split; cbn; [reflexivity|lia].
Qed.
Lemma GI_run es s s' os : run s es = (s', os) -> BInv s -> GI s -> GI s'.
Proof. apply run_ainv. intros; eapply astep_GI; eauto. Qed.
Lemma GI_init m0 t0 : GI (init m0 t0).
Proof. intros x []. Qed.
Lemma find_srv_in l k x : find_srv l k = Some x -> In x l /\ sv_id (snd x) = k.
Proof.
  induction l as [|[key sv] l IH]; cbn; [discriminate|]. destruct (sv_id sv =? k) eqn:E.
  - intros H. inv H. split; [auto|cbn; lia].
  - intros H. destruct (IH H). auto.
Qed.

(* the request's No-Response option is the default at two places (resource.py:141, tokenmanager.py:139-143), to one effect *)
Lemma handler_respond_found s k key sv c rnr pl : find_srv (incoming s) k = Some (key, sv) ->
  handler_respond s k c rnr pl =
  (let a := {| a_mtype := None; a_code := c; a_token := token (sv_req sv); a_nr := match rnr with Some v => Some v | None => nr (sv_req sv) end;
               a_obs := None; a_payload := pl |} in
   let '(s1, o, _) := send_message s (as_response_address (sv_remote sv)) a MonResp (Some (mtype (sv_req sv))) in
   (set_incoming s1 (adel ik_eqb (incoming s1) key), o)).
Proof.
  intros H. unfold handler_respond, send_response. rewrite H. destruct rnr; [|destruct (nr (sv_req sv))]; cbv zeta;
    match goal with |- context [send_message ?x ?r ?a ?mn ?q] => destruct (send_message x r a mn q) as [[? ?] ?] end; reflexivity.
Qed.

Section Ours.
Variables (r : remote) (m : wire) (k0 h d : Z).
Notation p := (rpeer r). Notation tok := (token m). Notation M := (mid m).
Notation PendO := (Pend p tok M h d r).
(* a running handler: registered under its request's (token, peer); if its request has our (peer, token) it is ours; number k0 is ours *)
Definition Px (x : (list Z * Z) * srv) : Prop :=
  fst x = (token (sv_req (snd x)), rpeer (sv_remote (snd x))) /\
  ((rpeer (sv_remote (snd x)), token (sv_req (snd x))) = (p, tok) -> sv_id (snd x) = k0) /\
  (sv_id (snd x) = k0 -> sv_remote (snd x) = r /\ sv_req (snd x) = m).
Definition Ours (s : st) : Prop := (forall x, In x (incoming s) -> Px x) /\ k0 < next_srv s.
(* before the ACK: the opportunity is pending and handler k0 is the request's *)
Definition Good (s : st) : Prop := AInv s /\ PendO s /\ Ours s.
(* after the empty ACK: nothing is recorded under the request's (peer, token) *)
Definition Gone (s : st) : Prop := aget pk_eqb (piggy s) (p, tok) = None /\ Ours s.

Lemma Ours_frame s s' : pframe s s' -> Ours s -> Ours s'.
Proof. intros (_ & _ & _ & _ & F5 & F6) [HI HN]. split; [intros x Hx; apply HI, F6, Hx|lia]. Qed.
Lemma astep_Ours K C A s o s' : astep K C A s o s' -> (forall k, C k -> k <> (p, tok)) -> Ours s -> Ours s'.
Proof.
  intros H Hc HO. destruct H as [s o s' Hf _ _| | |s r' m' _ _ _|s r' m' Hk| |]; try exact HO.
  - (* a_frame *) eapply Ours_frame; eauto.
  - (* a_arm *) destruct (arm_rest s r' m') as (_ & _ & Hi & Hn). unfold Ours. rewrite Hi, Hn. exact HO.
  - (* a_start *) destruct HO as [HI HN]. split; [|cbn; lia]. intros x Hx. cbn in Hx. apply (in_aset _ ik_ok) in Hx as [Hx| ->]; [auto|].
    split; [reflexivity|]. cbn. split; [intros Hq; destruct (Hc _ Hk Hq)|lia].
Qed.
Lemma astep_Gone K C A s o s' : astep K C A s o s' -> (forall k, C k -> k <> (p, tok)) -> (forall r' m', A r' m' -> (rpeer r', token m') <> (p, tok)) ->
  Gone s -> Gone s'.
Proof.
  intros H Hc Ha [G1 HO]. split; [|eapply astep_Ours; eauto].
  destruct H as [s o s' (-> & _) _ _|s k pm hh id r' w _ _ _ _ _ _| |s r' m' Har _ _| | |]; try exact G1.
  - (* a_ack *) cbn. apply (aget_adel_none _ pk_ok). exact G1.
  - (* a_arm *) rewrite arm_piggy, (aget_aset_other _ pk_ok) by (apply Ha; exact Har). apply (aget_adel_none _ pk_ok). exact G1.
Qed.
Lemma astep_Good K C A s o s' : astep K C A s o s' -> (forall k, C k -> k <> (p, tok)) -> (forall r' m', A r' m' -> (rpeer r', token m') <> (p, tok)) ->
  Good s -> Good s'.
Proof.
  intros H Hc Ha (HA & HP & HO). destruct (astep_live p tok M h d r K C A s o s' H Ha HA) as [HA' HP'].
  split; [exact HA'|]. split; [|eapply astep_Ours; eauto]. destruct (HP' HP) as [|[Hx _]]; [assumption|destruct (Hc _ Hx eq_refl)].
Qed.

(* events before our handler answers: no request reusing our (peer, token), and the answer itself comes later *)
Definition strict (e : event) : Prop :=
  match e with
  | Recv r' m' => ~ (is_request (code m') = true /\ (rpeer r', token m') = (p, tok))
  | Respond k _ _ _ => k <> k0
  | _ => True
  end.
(* the one event that may consume our opportunity: the firing of our own handle *)
Definition not_ours (s : st) : Prop :=
  forall t rr tk v, next_timer s = Some (true, t) -> kind t = EmptyAck rr tk -> aget pk_eqb (piggy s) (rpeer rr, tk) = Some v -> (rpeer rr, tk) <> (p, tok).
Lemma strict_allows s e : Ours s -> strict e -> (e = Fire -> not_ours s) ->
  allows (fun _ => True) (fun k => k <> (p, tok)) (fun r' m' => (rpeer r', token m') <> (p, tok)) s e.
Proof.
  intros [HI _] He Hf. destruct e as [r' m'|k c rnr pl|pe mt ob| |dd]; cbn in *; auto.
  - split; [exact I|]. intros Hrq. assert ((rpeer r', token m') <> (p, tok)) by (intros Hq; apply He; auto). auto.
  - intros key sv Hs Hq. apply find_srv_in in Hs as [Hin Hid]. destruct (HI _ Hin) as (_ & Hm & _). cbn in Hm, Hid. specialize (Hm Hq). lia.
  - apply Hf. reflexivity.
Qed.
Lemma strict_step (P : st -> Prop) s e s' o :
  (forall K s o s', astep K (fun k => k <> (p, tok)) (fun r' m' => (rpeer r', token m') <> (p, tok)) s o s' -> P s -> P s') ->
  strict e -> step s e = (s', o) -> BInv s -> Ours s -> (e = Fire -> not_ours s) -> P s -> P s'.
Proof.
  intros HP He H HB HO Hn.
  apply (step_rel (fun _ => True) (fun k => k <> (p, tok)) (fun r' m' => (rpeer r', token m') <> (p, tok)) (fun s _ s' => P s -> P s')) with (e := e) (o := o);
    auto using strict_allows. apply HP.
Qed.

(* under strict events the request's state stays Good until its own handle fires: then the empty ACK goes out, the clock is at least d
   and nothing is recorded under (peer, token) any more *)
Lemma keep_step s e s' o : strict e -> step s e = (s', o) -> BInv s -> Good s ->
  Good s' \/ (o = [Send (as_response_address r) (empty_msg ACK M)] /\ d <= now s' /\ Gone s').
Proof.
  intros He H HB HG.
  assert (Hother : (e = Fire -> not_ours s) -> Good s').
  { intros Hn. eapply (strict_step Good); eauto; [|apply HG]. intros; eapply astep_Good; eauto. }
  destruct e as [r' m'|k c rnr pl|pe mt ob| |dd]; try (left; apply Hother; discriminate).
  destruct (next_timer s) as [[[|] t]|] eqn:En; try (left; apply Hother; intros _ ? ? ? ? Hq; rewrite En in Hq; discriminate Hq).
  destruct HG as (HA & [P1 P2] & HO). pose proof HA as (A1 & A2 & A3 & A4).
  pose proof (next_timer_in _ _ _ En) as Hin. destruct (A1 t Hin) as (Hd & Hts & rr & tk & pm & Hk & Hg).
  destruct (pk_eqb (rpeer rr, tk) (p, tok)) eqn:Ek.
  2:{ left. apply Hother. intros _ t' rr' tk' v Hq Hk' _. rewrite En in Hq. inv Hq. rewrite Hk in Hk'. inv Hk'. intros Hq. rewrite Hq, (eqb_refl _ pk_ok) in Ek. discriminate. }
  (* it is ours *)
  right. apply pk_ok in Ek. cbn [step] in H. rewrite En, Hk in H. unfold on_timeout in H. cbn [piggy set_now cancel_a set_atimers] in H. rewrite Hg in H.
  rewrite Ek, P1 in Hg. injection Hg as <- Hh.
  assert (Heq : t = {| due := d; tid := h; kind := EmptyAck r tok |}) by (eapply NoDup_tid_eq; eauto).
  assert (Hrr : rr = r) by (rewrite Heq in Hk; cbn in Hk; congruence). subst rr. injection Ek as ->. unfold _send_empty_ack in H.
  match type of H with _send_initially ?x ?rx ?w ?mm = _ => pose proof (frame_send_initially x rx w mm) as Hf;
    pose proof (send_initially_out x rx w mm) as [Ho _]; rewrite H in Hf, Ho; cbn [fst snd] in Hf, Ho end.
  split; [exact Ho|]. destruct Hf as [(F1 & _ & F3 & _ & F5 & F6) _]. split; [rewrite F3, Heq; cbn; lia|]. split.
  - rewrite F1. cbn. apply (aget_adel_same _ pk_ok).
  - destruct HO as [HI HN]. split; [intros x Hx; apply HI, F6, Hx|cbn in F5; lia].
Qed.
Lemma gone_step s e s' o : strict e -> step s e = (s', o) -> BInv s -> Gone s -> Gone s'.
Proof.
  intros He H HB HG. eapply (strict_step Gone); eauto; [|apply HG|].
  - intros; eapply astep_Gone; eauto.
  - intros _ t rr tk v _ _ Hg Hq. destruct HG as [G1 _]. rewrite Hq, G1 in Hg. discriminate.
Qed.

Lemma gone_run es s s' os : run s es = (s', os) -> BInv s -> Forall strict es -> Gone s -> Gone s'.
Proof.
  intros H HB Hev. eapply (run_relB (fun s _ s' => Gone s -> Gone s') strict); eauto. intros; eapply gone_step; eauto.
Qed.
Lemma keep_run es : forall s s' os, run s es = (s', os) -> BInv s -> Forall strict es -> Good s ->
  Good s' \/ (In (Send (as_response_address r) (empty_msg ACK M)) (outputs_of os) /\ d <= now s' /\ Gone s').
Proof.
  induction es as [|e es IH]; intros s s' os H HB Hev HG; cbn [run] in H; [inv H; left; exact HG|].
  destruct (step s e) as [s1 o] eqn:E1. destruct (run s1 es) as [s2 os2] eqn:E2. inv H. inv Hev.
  assert (HB1 : BInv s1) by (eapply step_ok; eauto). unfold outputs_of. cbn [map concat snd].
  destruct (keep_step _ _ _ _ H1 E1 HB HG) as [HG1|(Ho & Hd & HGn)].
  - destruct (IH _ _ _ E2 HB1 H2 HG1) as [HG2|(Hi & Hd & HGn)]; [left; exact HG2|right; split; [apply in_or_app; right; exact Hi|auto]].
  - right. split; [apply in_or_app; left; rewrite Ho; left; reflexivity|]. split; [pose proof (nw_run _ _ _ _ E2 HB1); lia|].
    eapply gone_run; eauto.
Qed.
(* our handler answers while the opportunity is pending: the answer travels in the ACK (or, suppressed, the empty ACK does) *)
Lemma respond_while_pending s c rnr pl s' o : Good s -> is_response c = true -> handler_respond s k0 c rnr pl = (s', o) ->
  let eff := match rnr with Some v => Some v | None => nr m end in
  let a := {| a_mtype := None; a_code := c; a_token := tok; a_nr := eff; a_obs := None; a_payload := pl |} in
  (find_srv (incoming s) k0 = None /\ o = []) \/                                     (* the handler was cancelled meanwhile *)
  (no_response_of a = false /\ o = [Send (as_response_address r) (mk_wire a ACK M)]) \/
  (no_response_of a = true /\ o = [Send (as_response_address r) (empty_msg ACK M)]).
Proof.
  intros (HA & [P1 P2] & [HI HN]) Hc H eff a.
  destruct (find_srv (incoming s) k0) as [[key sv]|] eqn:Ef; [|unfold handler_respond in H; rewrite Ef in H; inv H; left; auto]. right.
  rewrite (handler_respond_found _ _ _ _ _ _ _ Ef) in H. apply find_srv_in in Ef as [Hin Hid]. cbn in Hid.
  destruct (HI _ Hin) as (_ & _ & Hours). cbn in Hours. destruct (Hours Hid) as [Hr Hm]. rewrite Hr, Hm in H. cbv zeta in H. fold eff a in H.
  match type of H with context [send_message ?x ?rr ?aa ?mm ?q] => destruct (send_message x rr aa mm q) as [[s2 o2] e] eqn:E end. injection H as <- <-.
  assert (Hg : aget pk_eqb (piggy s) (rpeer (as_response_address r), a_token a) = Some (M, h)) by (rewrite rpeer_ara; exact P1).
  destruct (send_message_hit s (as_response_address r) a MonResp (Some (mtype m)) M h Hc Hg) as (sx & Hx & _). rewrite Hx in E. injection E as _ <- _.
  destruct (no_response_of a); [right; rewrite as_response_address_idempotent|left]; auto.
Qed.
End Ours.

(* after the empty ACK: the handler's answer is a separate message — fresh message ID from our counter, the request's token, CON for a CON
   request to a unicast peer (NON otherwise), possibly waiting in the NSTART backlog (C14) *)
Theorem respond_after_ack s r m k0 key sv c rnr pl s' o :
  find_srv (incoming s) k0 = Some (key, sv) -> sv_remote sv = r -> sv_req sv = m ->
  aget pk_eqb (piggy s) (rpeer r, token m) = None -> is_response c = true ->
  handler_respond s k0 c rnr pl = (s', o) ->
  let eff := match rnr with Some v => Some v | None => nr m end in
  let a := {| a_mtype := None; a_code := c; a_token := token m; a_nr := eff; a_obs := None; a_payload := pl |} in
  let t := select_mtype None (as_response_address r) (Some (mtype m)) in
  (no_response_of a = true /\ o = []) \/
  (no_response_of a = false /\
   (o = [Send (as_response_address r) (mk_wire a t (next_mid s))] \/ (o = [] /\ t = CON /\ amem Z.eqb (backlogs s) (rpeer r) = true))).
Proof.
  intros Hf Hr Hm Hg Hc H eff a t. rewrite (handler_respond_found _ _ _ _ _ _ _ Hf), Hr, Hm in H. cbv zeta in H. fold eff a in H.
  assert (Hg' : aget pk_eqb (piggy s) (rpeer (as_response_address r), a_token a) = None) by (rewrite rpeer_ara; exact Hg).
  destruct (no_response_of a) eqn:En.
  - left. split; [reflexivity|]. rewrite (send_message_suppressed_silent s (as_response_address r) a MonResp (Some (mtype m)) Hc Hg' En) in H. injection H as <- <-. reflexivity.
  - right. split; [reflexivity|].
    match type of H with context [send_message ?x ?rr ?aa ?mm ?q] => destruct (send_message x rr aa mm q) as [[sx ox] e] eqn:Es end. injection H as <- <-.
    destruct (send_message_separate s (as_response_address r) a MonResp (Some (mtype m)) sx ox e eq_refl (fun _ => conj Hg' En) Es) as (_ & _ & Hout).
    rewrite rpeer_ara in Hout. exact Hout.
Qed.

Lemma cnt_pos p M (l : pgl) k h : aget pk_eqb l k = Some (M, h) -> fst k = p -> (1 <= cnt p M l)%nat.
Proof. intros Hg Hk. pose proof (cnt_adel_hit p M l k h Hg Hk). lia. Qed.

(* The fate of a fresh CON request for the slow resource, arriving at clock [now s] in a state satisfying the invariants; its handler
   gets number k0 = next_srv s.  [es1] is any continuation in which the peer does not reuse the (peer, token) pair in another request,
   nothing else carries the request's message ID, and handler k0 has not answered yet.  Either the request is still unacknowledged, its
   opportunity pending and handler k0 the only one that can consume it; or its own handle has fired: the empty ACK is in the trace, the
   clock is at least d = arrival + EMPTY_ACK_DELAY, and nothing is recorded under (peer, token). *)
Lemma slow_request_fate s r m s1 o1 es1 s2 os1 : BInv s -> AInv s -> GI s ->
  mtype m = CON -> path m = 0 -> 1 <= code m <= 7 ->
  aget zz_eqb (recent s) (rpeer r, mid m) = None -> aget pk_eqb (piggy s) (rpeer r, token m) = None ->
  cnt (rpeer r) (mid m) (piggy s) = 0%nat ->
  dispatch_message s r m = (s1, o1) -> run s1 es1 = (s2, os1) ->
  let k0 := next_srv s in let d := now s + EMPTY_ACK_DELAY in
  Forall (strict r m k0) es1 -> Forall (ev_ok (rpeer r) (mid m)) es1 ->
  In (StartHandler k0) o1 /\ acks (rpeer r) (mid m) o1 = 0%nat /\
  ((exists h, Good r m k0 h d s2 /\ acks (rpeer r) (mid m) (outputs_of os1) = 0%nat) \/
   (In (Send (as_response_address r) (empty_msg ACK (mid m))) (outputs_of os1) /\ d <= now s2 /\ Gone r m k0 s2)).
Proof.
  intros HB HA HGI Ht Hp Hc Hfresh Ho3 Hcnt Hd Hrun k0 d Hst Hok.
  assert (HB1 : BInv s1) by (eapply dispatch_message_ok; eauto).
  apply dispatch_fresh_request in Hd; [|unfold is_request; lia|auto|auto]. set (s0 := register s (rpeer r) (mid m)) in Hd.
  assert (HA0 : AInv s0) by (eapply AInv_frame; [apply pframe_register|exact HA]).
  destruct (arrival s0 r m s1 o1 HA0 Ho3 Ht Hd) as (HA1 & Hprog & Hbound). change (piggy s0) with (piggy s) in Hbound.
  rewrite process_request_arm, Ht in Hd. destruct (tm_process_request_slow _ _ _ _ _ Hp Hc Hd) as (Hinc & Hsrv & _ & _ & Hstart & Hout).
  destruct (arm_rest s0 r m) as (_ & _ & Hi & Hn). rewrite Hi, Hn in Hinc. rewrite Hn in Hsrv, Hstart. clear Hi Hn.
  change (next_srv s0) with k0 in *. change (incoming s0) with (incoming s) in Hinc.
  pose proof (handler_outputs_no_ack (rpeer r) (mid m) o1 Hout) as Ho1.
  split; [exact Hstart|]. split; [exact Ho1|]. destruct Hprog as [HP|]; [|lia].
  assert (HG1 : Good r m k0 (seq s0) d s1).
  { split; [exact HA1|]. split; [exact HP|]. split; [|lia]. intros [kx vx] Hx. rewrite Hinc in Hx.
    apply (in_aset _ ik_ok) in Hx as [Hx|Hx]; [|inv Hx; repeat split].
    pose proof (in_adel_neq _ ik_ok _ _ _ _ Hx) as Hne. apply in_adel in Hx. destruct (HGI _ Hx) as [G1 G2]. cbn in G1, G2. split; [exact G1|]. cbn. split.
    - intros Hq. exfalso. apply Hne. rewrite G1. injection Hq as -> ->. reflexivity.
    - unfold k0. lia. }
  pose proof (acks_bounded es1 s1 s2 os1 (rpeer r) (mid m) Hrun HB1 Hok) as Hb.
  destruct (keep_run r m k0 (seq s0) d es1 s1 s2 os1 Hrun HB1 Hst HG1) as [HG2|Hgone]; [left|right; exact Hgone].
  exists (seq s0). split; [exact HG2|]. destruct HG2 as (_ & [P1 _] & _). pose proof (cnt_pos (rpeer r) (mid m) _ _ _ P1 eq_refl). lia.
Qed.

(* Piggy-backed iff the response is ready strictly before arrival + EMPTY_ACK_DELAY:
   (a) while the clock is strictly before d no ACK has been sent, and whatever response code / No-Response value / payload the handler
       produces at that moment travels in the ACK under the request's message ID (or, suppressed, the empty ACK is sent; or the handler
       was cancelled by a give-up and nothing is sent);
   (b) if an ACK under the request's message ID has already been sent by then, the clock is at least d (only the timer can have sent it). *)
Theorem con_response_timing s r m s1 o1 es1 s2 os1 : BInv s -> AInv s -> GI s ->
  mtype m = CON -> path m = 0 -> 1 <= code m <= 7 ->
  aget zz_eqb (recent s) (rpeer r, mid m) = None -> aget pk_eqb (piggy s) (rpeer r, token m) = None ->
  cnt (rpeer r) (mid m) (piggy s) = 0%nat ->
  dispatch_message s r m = (s1, o1) -> run s1 es1 = (s2, os1) ->
  let k0 := next_srv s in let d := now s + EMPTY_ACK_DELAY in
  Forall (strict r m k0) es1 -> Forall (ev_ok (rpeer r) (mid m)) es1 ->
  In (StartHandler k0) o1 /\
  (now s2 < d ->
     acks (rpeer r) (mid m) (o1 ++ outputs_of os1) = 0%nat /\
     forall c rnr pl s3 o3, is_response c = true -> handler_respond s2 k0 c rnr pl = (s3, o3) ->
       let eff := match rnr with Some v => Some v | None => nr m end in
       let a := {| a_mtype := None; a_code := c; a_token := token m; a_nr := eff; a_obs := None; a_payload := pl |} in
       (find_srv (incoming s2) k0 = None /\ o3 = []) \/
       (no_response_of a = false /\ o3 = [Send (as_response_address r) (mk_wire a ACK (mid m))]) \/
       (no_response_of a = true /\ o3 = [Send (as_response_address r) (empty_msg ACK (mid m))])) /\
  ((1 <= acks (rpeer r) (mid m) (o1 ++ outputs_of os1))%nat -> d <= now s2).
Proof.
  intros HB HA HGI Ht Hp Hc Hfresh Ho3 Hcnt Hd Hrun k0 d Hst Hok.
  destruct (slow_request_fate s r m s1 o1 es1 s2 os1 HB HA HGI Ht Hp Hc Hfresh Ho3 Hcnt Hd Hrun Hst Hok) as (Hstart & Ho1 & Hfate).
  split; [exact Hstart|]. rewrite acks_app, Ho1. cbn [Nat.add]. destruct Hfate as [(h & HG2 & Hz)|(_ & Hd2 & _)]; (split; [|lia]).
  - intros _. split; [exact Hz|]. intros c rnr pl s3 o3. apply (respond_while_pending r m k0 h d). exact HG2.
  - fold d. lia.
Qed.

(* "... otherwise by an empty ACK followed by a separate response with a fresh message ID and the request's token", over histories: at
   any moment before handler k0 answers, either nothing has been sent under the request's message ID yet and the clock has not passed
   d, or the empty ACK is in the trace, the clock is at least d, and whatever the handler answers then is not sent as an ACK: suppressed
   by No-Response it is dropped, otherwise it is exactly one CON/NON datagram to the request's response address with the request's
   token and the next message ID of our own counter (or, CON, it waits in the NSTART backlog behind an unacknowledged CON to that peer,
   C14); or the handler was cancelled by a give-up. *)
Theorem con_separate_response s r m s1 o1 es1 s2 os1 : BInv s -> AInv s -> GI s ->
  mtype m = CON -> path m = 0 -> 1 <= code m <= 7 ->
  aget zz_eqb (recent s) (rpeer r, mid m) = None -> aget pk_eqb (piggy s) (rpeer r, token m) = None ->
  cnt (rpeer r) (mid m) (piggy s) = 0%nat ->
  dispatch_message s r m = (s1, o1) -> run s1 es1 = (s2, os1) ->
  let k0 := next_srv s in let d := now s + EMPTY_ACK_DELAY in
  Forall (strict r m k0) es1 -> Forall (ev_ok (rpeer r) (mid m)) es1 ->
  (acks (rpeer r) (mid m) (o1 ++ outputs_of os1) = 0%nat /\ now s2 <= d) \/
  (In (Send (as_response_address r) (empty_msg ACK (mid m))) (outputs_of os1) /\ d <= now s2 /\
   forall c rnr pl s3 o3, is_response c = true -> handler_respond s2 k0 c rnr pl = (s3, o3) ->
     let eff := match rnr with Some v => Some v | None => nr m end in
     let a := {| a_mtype := None; a_code := c; a_token := token m; a_nr := eff; a_obs := None; a_payload := pl |} in
     let t := select_mtype None (as_response_address r) (Some (mtype m)) in
     (find_srv (incoming s2) k0 = None /\ o3 = []) \/
     (no_response_of a = true /\ o3 = []) \/
     (no_response_of a = false /\
      (o3 = [Send (as_response_address r) (mk_wire a t (next_mid s2))] \/ (o3 = [] /\ t = CON /\ amem Z.eqb (backlogs s2) (rpeer r) = true)))).
Proof.
  intros HB HA HGI Ht Hp Hc Hfresh Ho3 Hcnt Hd Hrun k0 d Hst Hok.
  destruct (slow_request_fate s r m s1 o1 es1 s2 os1 HB HA HGI Ht Hp Hc Hfresh Ho3 Hcnt Hd Hrun Hst Hok) as (_ & Ho1 & [(h & HG2 & Hz)|(Hin & Hd2 & HGn)]).
  - left. rewrite acks_app, Ho1, Hz. split; [reflexivity|]. destruct HG2 as ((A1 & _) & [_ P2] & _). destruct (A1 _ P2) as (Hdue & _). exact Hdue.
  - right. split; [exact Hin|]. split; [exact Hd2|].
    intros c rnr pl s3 o3 Hcr Hr eff a t. destruct HGn as (G1 & G2 & G3).
    destruct (find_srv (incoming s2) k0) as [[key sv]|] eqn:Ef.
    + right. pose proof (find_srv_in _ _ _ Ef) as [Hin' Hid]. cbn in Hid. destruct (G2 _ Hin') as (_ & _ & Hours). cbn in Hours. destruct (Hours Hid) as [Hsr Hsm].
      exact (respond_after_ack s2 r m k0 key sv c rnr pl s3 o3 Ef Hsr Hsm G1 Hcr Hr).
    + left. unfold handler_respond in Hr. rewrite Ef in Hr. inv Hr. auto.
Qed.

Lemma send_response_hit s r req c rnr pl s' o M h : aget pk_eqb (piggy s) (rpeer r, token req) = Some (M, h) -> is_response c = true ->
  send_response s r req c rnr pl = (s', o) ->
  acks (rpeer r) M o = 1%nat /\ aget pk_eqb (piggy s') (rpeer r, token req) = None.
Proof.
  intros Hg Hc H. unfold send_response in H.
  match type of H with context [send_message ?x ?rr ?aa ?mm ?q] => destruct (send_message x rr aa mm q) as [[sx ox] e] eqn:Es; set (a := aa) in Es end.
  injection H as <- <-.
  assert (Hg' : aget pk_eqb (piggy s) (rpeer (as_response_address r), a_token a) = Some (M, h)) by (rewrite rpeer_ara; exact Hg).
  destruct (send_message_hit s (as_response_address r) a MonResp (Some (mtype req)) M h Hc Hg') as (sy & Hy & Hp & _).
  rewrite Hy in Es. injection Es as <- <- _. split.
  - unfold acks. destruct (no_response_of a); cbn; rewrite !rpeer_ara, !Z.eqb_refl; reflexivity.
  - rewrite Hp. cbn [a_token a]. rewrite rpeer_ara. apply (aget_adel_same _ pk_ok).
Qed.

Lemma immediate_answer sa r m s1 o1 hh : aget pk_eqb (piggy sa) (rpeer r, token m) = Some (mid m, hh) ->
  path m <> 0 \/ ~ (1 <= code m <= 7) -> tm_process_request sa r m = (s1, o1) ->
  acks (rpeer r) (mid m) o1 = 1%nat /\ aget pk_eqb (piggy s1) (rpeer r, token m) = None.
Proof.
  intros Hga Himm Hd. unfold tm_process_request in Hd.
  set (q := match aget ik_eqb (incoming sa) (token m, rpeer r) with Some sv => _ | None => (sa, []) end) in Hd.
  assert (Hq : piggy (fst q) = piggy sa /\ acks (rpeer r) (mid m) (snd q) = 0%nat) by (subst q; destruct (aget ik_eqb _ _); cbn; auto).
  destruct q as [sb ob]. cbn [fst snd] in Hq. destruct Hq as [Hpb Hab]. rewrite <- Hpb in Hga.
  dlet Hd s2 o2 E. injection Hd as <- <-. rewrite acks_app, Hab. cbn [Nat.add].
  assert (Hresp : forall c rnr pl, is_response c = true -> send_response sb r m c rnr pl = (s2, o2) ->
            acks (rpeer r) (mid m) o2 = 1%nat /\ aget pk_eqb (piggy s2) (rpeer r, token m) = None)
    by (intros; eapply send_response_hit; eauto).
  destruct (negb _) eqn:E1; [eapply Hresp; [|exact E]; reflexivity|].
  destruct (negb ((1 <=? code m) && (code m <=? 7))) eqn:E2; [eapply Hresp; [|exact E]; reflexivity|].
  destruct (path m =? 0) eqn:E3. { exfalso. destruct Himm as [Hp|Hc]; [lia|apply Hc; lia]. }
  destruct (path m =? 1).
  - eapply Hresp; [|exact E]. unfold default_code. destruct ((code m =? 1) || (code m =? 5)); [reflexivity|]. destruct (code m =? 4); reflexivity.
  - eapply Hresp; [|exact E]; reflexivity.
Qed.

Lemma reachable_invariants es m0 t0 s os : run (init m0 t0) es = (s, os) -> BInv s /\ AInv s /\ GI s.
Proof.
  intros H. split; [eapply run_ok; [exact H|apply BInv_init]|]. split.
  - eapply AInv_run; [exact H|apply BInv_init|apply AInv_init].
  - eapply GI_run; [exact H|apply BInv_init|apply GI_init].
Qed.

(* the model's internal-error output of on_timeout (KeyError: the handle's opportunity is gone) is unreachable: in every reachable state
   the next empty-ACK handle to fire still has its opportunity *)
Theorem on_timeout_keyerror_unreachable es m0 t0 s os t : run (init m0 t0) es = (s, os) -> next_timer s = Some (true, t) ->
  exists r tok pm, kind t = EmptyAck r tok /\ aget pk_eqb (piggy s) (rpeer r, tok) = Some (pm, tid t) /\
                   forall e, ~ In (LoopException e) (snd (step s Fire)).
Proof.
  intros Hrun En. assert (HA : AInv s) by (eapply AInv_run; [exact Hrun|apply BInv_init|apply AInv_init]).
  pose proof (next_timer_in _ _ _ En) as Hin. destruct HA as (A1 & _). destruct (A1 t Hin) as (_ & _ & r & tok & pm & Hk & Hg).
  exists r, tok, pm. split; [exact Hk|]. split; [exact Hg|].
  intros e. cbn [step]. rewrite En, Hk. unfold on_timeout. cbn [piggy set_now cancel_a set_atimers]. rewrite Hg. unfold _send_empty_ack.
  match goal with |- context [_send_initially ?x ?rx ?w ?mm] => pose proof (send_initially_out x rx w mm) as [Ho _]; rewrite Ho end.
  intros [H|[]]. discriminate.
Qed.
