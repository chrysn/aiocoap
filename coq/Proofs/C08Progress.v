(* C08 — progress: from every reachable state, completing the renders in progress and acknowledging what is in flight (no further
   state change, no loss) brings a live registration to the idle state with nothing of it waiting in the backlog — the fairness
   hypotheses of C08_latest_state_sent are reachable, so "eventually sent" is not assumed away. *)
From Verif Require Import Lib.Py Lib.PyLemmas Lib.Tactics Model.C08 Proofs.C08 Proofs.C08Silent Proofs.C08Ends Proofs.C08Observe Proofs.C08Wire Proofs.C08Latest Proofs.C08R6.
Open Scope Z_scope.

Definition idle (x r : Z) (s : state) : Prop := forall g1, In g1 (s_regs s) -> g_gid g1 = x -> g_phase g1 = PWait /\ g_remote g1 = r.
Lemma idle_put s g : g_phase g = PWait -> idle (g_gid g) (g_remote g) (put_reg s g).
Proof. intros Hp g1 H E. apply In_put_reg in H as [->|[_ H]]; [split; [exact Hp | reflexivity] | contradiction]. Qed.
Lemma idle_remove s x r : idle x r (remove_reg s x).
Proof. intros g1 H E. apply In_remove_reg in H. tauto. Qed.
Lemma idle_same x r s s' : s_regs s' = s_regs s -> idle x r s -> idle x r s'.
Proof. intros E H g1 Hg. rewrite E in Hg. apply H. exact Hg. Qed.

Lemma respond_idle last n cont s g res : s_gate s = false ->
  (forall s1 g1, g_gid g1 = g_gid g -> g_remote g1 = g_remote g -> g_trig g1 = g_trig g -> s_gate s1 = false -> idle (g_gid g) (g_remote g) (cont s1 g1)) ->
  idle (g_gid g) (g_remote g) (respond last n cont s g res).
Proof.
  intros Hg Hc. unfold respond. destruct res as [code pk pv|code pk pv]; [destruct (last || negb (successful code))|].
  - apply (idle_same _ _ (remove_reg (emit s g code None pk pv) (g_gid g))); [reflexivity | apply idle_remove].
  - apply (Hc _ (set_next g n)); try reflexivity. rewrite (k_gate _ _ (proj1 (emit_keep s _ code (Some n) pk pv))). exact Hg.
  - apply idle_remove.
Qed.
Lemma run_loop_idle_untriggered f s g : g_trig g = None -> idle (g_gid g) (g_remote g) (run_loop (S f) s g).
Proof. intros Ht. cbn [run_loop]. rewrite Ht. apply (idle_put s (set_phase g PWait)). reflexivity. Qed.
Lemma run_loop_idle_ungated f s g : s_gate s = false -> idle (g_gid g) (g_remote g) (run_loop (S (S f)) s g).
Proof.
  intros Hg. destruct (g_trig g) as [tv|] eqn:Et; [|apply run_loop_idle_untriggered; exact Et]. cbn [run_loop]. rewrite Et.
  assert (Hc : forall s0 res, s_gate s0 = false -> idle (g_gid g) (g_remote g) (after_response (run_loop (S f)) s0 (set_trig g None (g_late g)) res)).
  { intros s0 res H0. rewrite after_response_respond. apply (respond_idle _ _ _ s0 (set_trig g None (g_late g))); [exact H0|].
    intros s1 g2 A A' B _. rewrite <- A, <- A'. apply run_loop_idle_untriggered. rewrite B. reflexivity. }
  destruct tv as [|code k]; [|apply Hc, Hg]. set (s1 := log s _). change (s_gate s1) with (s_gate s). rewrite Hg. apply Hc, Hg.
Qed.

Lemma render_done_idle s g0 : GI s -> In g0 (s_regs s) -> s_gate s = false ->
  let s' := step s (ERenderDone (g_remote g0) (g_token g0)) in keep3 s s' /\ idle (g_gid g0) (g_remote g0) s'.
Proof.
  intros HG Hg0 Hgate. cbn [step].
  rewrite (find_key_of_In s g0 (g_kd s HG) Hg0).
  assert (Htask : forall last n res, let s1 := respond last n (run_loop 2) s g0 res in
            keep3 s (flush_cancels s1) /\ idle (g_gid g0) (g_remote g0) (flush_cancels s1)).
  { intros last n res s1. split.
    - eapply keep3_trans; [apply (tf_respond last n (run_loop 2) s g0 res); intros s2 g2 <-; apply tf_run_loop | constructor; apply flush_field; reflexivity].
    - apply (idle_same _ _ s1); [apply regs_flush | apply respond_idle; [exact Hgate|]].
      intros s2 g2 A A' _ C. rewrite <- A, <- A'. apply run_loop_idle_ungated, C. }
  destruct (g_phase g0) eqn:Ep.
  - rewrite first_render_done_respond. apply Htask.
  - split; [apply keep3_refl|]. intros g1 Hg1 Eg. assert (g1 = g0) by (apply (NoDup_map_inj_in g_gid (s_regs s)); [apply (g_nd s HG) | assumption ..]). subst g1. split; [exact Ep | reflexivity].
  - rewrite after_response_respond. apply Htask.
Qed.

Definition cnt_x (r : Z) (l : list exch) : nat := length (filter (fun x => x_remote x =? r) l).
Definition cnt_b (r : Z) (l : list (msg * Z)) : nat := length (filter (fun e => m_remote (fst e) =? r) l).
(* an ACK removes one exchange and _continue_backlog may turn one backlog entry into a new one (-1 +1 -2): the backlog counts twice *)
Definition Mr (r : Z) (s : state) : nat := (cnt_x r (s_exch s) + 2 * cnt_b r (s_backlog s))%nat.
Lemma cnt_filter_le r (p : exch -> bool) l : (cnt_x r (filter p l) <= cnt_x r l)%nat.
Proof. unfold cnt_x. induction l as [|y l IH]; cbn; [lia|]. destruct (p y); cbn; destruct (x_remote y =? r); cbn; lia. Qed.
Lemma cnt_filter_lt r (p : exch -> bool) l x : In x l -> x_remote x = r -> p x = false -> (cnt_x r (filter p l) < cnt_x r l)%nat.
Proof. unfold cnt_x. induction l as [|y l IH]; cbn; [tauto|]. intros [->|Hi] Hr Hp.
  - rewrite Hp. cbn. replace (x_remote x =? r) with true by lia. cbn. pose proof (cnt_filter_le r p l). unfold cnt_x in H. lia.
  - specialize (IH Hi Hr Hp). destruct (p y); cbn; destruct (x_remote y =? r); cbn; lia. Qed.
Lemma cnt_drop1 r l e : find (fun e => m_remote (fst e) =? r) l = Some e -> (cnt_b r (drop1 r l) + 1 = cnt_b r l)%nat.
Proof. unfold cnt_b. induction l as [|y l IH]; cbn [find]; [discriminate|]. cbn [drop1 filter]. destruct (m_remote (fst y) =? r) eqn:E.
  - intros _. cbn [length]. lia.
  - intros H. cbn [filter]. rewrite E. apply IH. exact H. Qed.

Lemma ack_effect s r x : GI s -> In x (s_exch s) -> x_remote x = r -> s_down s = false ->
  let s' := step s (EAck r (x_mid x)) in s_regs s' = s_regs s /\ keep3 s s' /\ (Mr r s' < Mr r s)%nat.
Proof.
  intros HG Hx Hr Hd. cbn [step]. rewrite Hd. unfold remove_exchange.
  set (p := fun y => (x_remote y =? r) && (x_mid y =? x_mid x)).
  destruct (find p (s_exch s)) as [x'|] eqn:Ef.
  2:{ exfalso. eapply find_none in Ef; [|exact Hx]. unfold p in Ef. rewrite Hr, !Z.eqb_refl in Ef. discriminate. }
  set (sA := cancel_timers (set_exch s (filter (fun y => negb (p y)) (s_exch s))) (is_retrans r (x_mid x))).
  assert (LA : (cnt_x r (s_exch sA) < cnt_x r (s_exch s))%nat).
  { apply (cnt_filter_lt r _ _ x Hx Hr). unfold p. rewrite Hr, !Z.eqb_refl. reflexivity. }
  set (sB := continue_backlog sA r).
  assert (F : forall {T} (f : state -> T), (forall s v, f (set_observers s v) = f s) -> (forall s v, f (set_hist s v) = f s) ->
     (forall s v, f (set_cancelq s v) = f s) -> (forall s v, f (set_timers s v) = f s) -> (forall s v, f (set_seq s v) = f s) ->
     (forall s v, f (set_exch s v) = f s) -> (forall s v, f (set_recent s v) = f s) -> (forall s v, f (set_backlog s v) = f s) ->
     f (flush_cancels sB) = f s).
  { intros T f H1 H2 H3 H4 H5 H6 H7 H8. unfold sB, sA, cancel_timers. rewrite flush_field, continue_backlog_field, H4, H6 by assumption. reflexivity. }
  change (s_regs (flush_cancels sB) = s_regs s /\ keep3 s (flush_cancels sB) /\ (Mr r (flush_cancels sB) < Mr r s)%nat).
  split; [apply F; reflexivity | split; [constructor; apply F; reflexivity|]].
  replace (Mr r (flush_cancels sB)) with (Mr r sB) by (unfold Mr; rewrite !flush_field by reflexivity; reflexivity).
  unfold sB. destruct (continue_backlog_cases sA r) as [[-> _]|(m & x2 & _ & Eb & ->)]; [unfold Mr; change (s_backlog sA) with (s_backlog s); lia|].
  pose proof (find_some _ _ Eb) as [Em Emr]. cbn [fst] in Emr.
  assert (Hcon : m_mtype m = CON) by (apply (g_t s HG (m, x2)); exact Em).
  pose proof (cnt_drop1 r (s_backlog sA) (m, x2) Eb) as Cd. change (s_backlog sA) with (s_backlog s) in *.
  unfold Mr, send_initially, store_response_for_duplicates, send_via_transport, add_exchange, add_timer. rewrite Hcon. fsimpl.
  unfold cnt_x in *. rewrite filter_app, app_length. cbn [filter x_remote]. replace (m_remote m =? r) with true by lia. cbn [length]. lia.
Qed.

Definition is_ack (e : event) : Prop := match e with EAck _ _ => True | _ => False end.
Lemma ack_drain mid0 r : forall n es, let s := run (init mid0) es in (Mr r s < n)%nat -> s_down s = false ->
  exists acks, Forall is_ack acks /\ let s' := run s acks in
    s_regs s' = s_regs s /\ keep3 s s' /\ forall e, In e (s_backlog s') -> m_remote (fst e) <> r.
Proof.
  induction n as [|n IH]; intros es s Hm Hd; [lia|]. destruct (reach mid0 es) as ([HG _] & _); fold s in HG.
  destruct (has_exchange s r) eqn:Ex.
  - unfold has_exchange in Ex. apply existsb_exists in Ex as [x [Hx Hr]]. apply Z.eqb_eq in Hr.
    destruct (ack_effect s r x HG Hx Hr Hd) as (A & B & C).
    destruct (IH (es ++ [EAck r (x_mid x)])) as (acks & F & D).
    + rewrite run_app. cbn [run fold_left]. fold s. lia.
    + rewrite run_app. cbn [run fold_left]. fold s. rewrite (k_down _ _ B). exact Hd.
    + rewrite run_app in D. cbn [run fold_left] in D. fold s in D. destruct D as (D1 & D2 & D3).
      exists (EAck r (x_mid x) :: acks). split; [constructor; [exact I | exact F]|]. cbn [run fold_left].
      split; [unfold run in *; congruence | split; [eapply keep3_trans; [exact B | exact D2] | exact D3]].
  - exists []. split; [constructor|]. cbn. split; [reflexivity | split; [apply keep3_refl|]]. intros e He Hr. pose proof (g_j s HG Hd r e He Hr). congruence.
Qed.

(* the events that make progress: render completions, acknowledgements, and renders stop being slow *)
Definition progress_event (e : event) : Prop := match e with EAck _ _ | ERenderDone _ _ | ESetGate false => True | _ => False end.
Lemma progress_schedule : forall mid0 es g0, let s := run (init mid0) es in
  In g0 (s_regs s) -> s_down s = false ->
  exists es', Forall progress_event es' /\ let s' := run s es' in
    s_version s' = s_version s /\
    (~ live (g_gid g0) s' \/
     exists g1, In g1 (s_regs s') /\ g_gid g1 = g_gid g0 /\ g_phase g1 = PWait /\ queuel (g_gid g0) s' = []).
Proof.
  intros mid0 es g0 s Hg Hd. set (r := g_remote g0).
  set (es1 := es ++ [ESetGate false]). set (s1 := run (init mid0) es1).
  assert (E1 : s1 = set_gate s false) by (unfold s1, es1; rewrite run_app; reflexivity).
  destruct (reach mid0 es1) as ([HG1 _] & _). fold s1 in HG1.
  assert (Hg1 : In g0 (s_regs s1)) by (rewrite E1; exact Hg).
  destruct (render_done_idle s1 g0 HG1 Hg1 ltac:(rewrite E1; reflexivity)) as [K2 I2].
  set (e2 := ERenderDone (g_remote g0) (g_token g0)) in *. set (es2 := es1 ++ [e2]).
  assert (E2 : run (init mid0) es2 = step s1 e2) by (unfold es2; rewrite run_app; reflexivity).
  destruct (ack_drain mid0 r (S (Mr r (run (init mid0) es2))) es2 (le_n _)) as (acks & Fa & A1 & A2 & A3).
  { rewrite E2, (k_down _ _ K2), E1. exact Hd. }
  rewrite E2 in A1, A2, A3. set (s3 := run (step s1 e2) acks) in *.
  exists (ESetGate false :: e2 :: acks). split.
  - constructor; [exact I | constructor; [exact I|]]. eapply Forall_impl; [|exact Fa]. intros [] H; try destruct H; exact I.
  - assert (E3 : run s (ESetGate false :: e2 :: acks) = s3).
    { unfold s3. cbn [run fold_left]. change (step s (ESetGate false)) with (set_gate s false). rewrite <- E1. reflexivity. }
    rewrite E3. split; [rewrite (k_ver _ _ A2), (k_ver _ _ K2), E1; reflexivity|].
    destruct (in_dec Z.eq_dec (g_gid g0) (map g_gid (s_regs s3))) as [Hl|Hl]; [right | left; exact Hl].
    apply in_map_iff in Hl as [g1 [Eg Hi]]. exists g1. split; [exact Hi | split; [exact Eg|]].
    assert (Hi2 : In g1 (s_regs (step s1 e2))) by (rewrite <- A1; exact Hi). destruct (I2 g1 Hi2 Eg) as [Hp Hrem]. split; [exact Hp|].
    (* s3 is reachable: the FIFO invariant locates whatever waits for g at its endpoint, whose queue is empty *)
    assert (R3 : s3 = run (init mid0) (es2 ++ acks)) by (unfold s3; rewrite run_app, E2; reflexivity).
    destruct (reach mid0 (es2 ++ acks)) as ([HG3 Ho3] & _). rewrite <- R3 in HG3, Ho3.
    destruct (Ho3 g1 Hi) as [[R1 _ _ _ R5] _]. rewrite Eg in R1, R5.
    apply nil_if_empty. intros m Hm. assert (Hmr : m_remote m = g_remote g1) by (apply R5; rewrite R1; apply in_or_app; right; exact Hm).
    apply gfilter_In in Hm as [Hm _]. apply in_map_iff in Hm as [e [He1 He2]]. apply (A3 e He2). rewrite He1, Hmr, Hrem. reflexivity.
Qed.

(* "eventually sent": after the progress events the registration has ended or the newest datagram on the wire is current *)
Lemma eventually_sent : forall mid0 es g0, let s := run (init mid0) es in
  In g0 (s_regs s) -> s_down s = false ->
  exists es', Forall progress_event es' /\ let s' := run s es' in
    s_version s' = s_version s /\
    (~ live (g_gid g0) s' \/ exists m, last_wire (g_gid g0) s' = Some m /\ (m_pk m = 1 -> m_pv m = s_version s)).
Proof.
  intros mid0 es g0 s Hg Hd. destruct (progress_schedule mid0 es g0 Hg Hd) as (es' & F & Hv & H). fold s in Hv, H.
  exists es'. split; [exact F|]. cbn zeta. split; [exact Hv|]. destruct H as [H|(g1 & Hi & Eg & Hp & Hq)]; [left; exact H | right].
  assert (E : run s es' = run (init mid0) (es ++ es')) by (unfold s; rewrite run_app; reflexivity).
  rewrite E in Hi, Hq, Hv |- *. rewrite <- Eg in Hq. destruct (latest_state_sent mid0 (es ++ es') g1 Hi Hp Hq) as (_ & m & A & _ & B).
  exists m. rewrite <- Eg. split; [exact A|]. intros Hk. rewrite <- Hv. apply B. exact Hk.
Qed.
