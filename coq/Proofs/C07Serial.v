(* C07 — order theory of the RFC 7641 section 3.4 freshness test, over the expression translated from protocol.py *)
From Verif Require Import Lib.Py Lib.Tactics Gen.protocol_is_recent.
Open Scope Z_scope.

Definition W : Z := 16777216.   (* 2^24 *)
Definition HW : Z := 8388608.   (* 2^23 *)
Lemma pow23 : 2 ^ 23 = HW. Proof. reflexivity. Qed.
Lemma pow24 : 2 ^ 24 = W. Proof. reflexivity. Qed.

(* RFC 7641 section 3.4, verbatim:  (V1 < V2 and V2 - V1 < 2^23) or (V1 > V2 and V1 - V2 > 2^23) or (T2 > T1 + 128 seconds) *)
Definition serial_lt (v1 v2 : Z) : Prop := (v1 < v2 /\ v2 - v1 < 2 ^ 23) \/ (v1 > v2 /\ v1 - v2 > 2 ^ 23).
Definition rfc_fresh (v1 t1 v2 t2 reset : Z) : Prop := serial_lt v1 v2 \/ t2 > t1 + reset.

(* closed constant expressions of the translated code (2**23, 1 << 23, ...) are evaluated before the arithmetic *)
Ltac numeral v := match v with Z0 => idtac | Zpos _ => idtac | Zneg _ => idtac end.
Ltac eval_consts :=
  repeat match goal with
  | |- context [?a ^ ?b] => let v := eval vm_compute in (a ^ b) in numeral v; change (a ^ b) with v
  | |- context [Z.shiftl ?a ?b] => let v := eval vm_compute in (Z.shiftl a b) in numeral v; change (Z.shiftl a b) with v
  end.

Lemma is_recent_spec : forall v1 v2 t1 t2 reset, is_recent v1 v2 t1 t2 reset = true <-> rfc_fresh v1 t1 v2 t2 reset.
Proof.
  intros. unfold is_recent, rfc_fresh, serial_lt. eval_consts. lia.
Qed.

Lemma is_recent_false_spec : forall v1 v2 t1 t2 reset, is_recent v1 v2 t1 t2 reset = false <-> ~ rfc_fresh v1 t1 v2 t2 reset.
Proof. intros. rewrite <- is_recent_spec. destruct (is_recent v1 v2 t1 t2 reset); split; congruence. Qed.

Lemma serial_lt_irrefl : forall v, ~ serial_lt v v.
Proof. unfold serial_lt. intros. lia. Qed.

Lemma serial_lt_asym : forall a b, serial_lt a b -> ~ serial_lt b a.
Proof. unfold serial_lt. intros a b. rewrite pow23. unfold HW. lia. Qed.

(* position of a 24-bit value inside the half-window that starts at [base] *)
Definition off (base v : Z) : Z := (v - base) mod W.
Definition in_range (v : Z) : Prop := 0 <= v < W.
Definition in_window (base v : Z) : Prop := in_range v /\ off base v < HW.

(* inside one half-window serial comparison is the strict total order of the offsets *)
Lemma serial_lt_window : forall base a b, in_window base a -> in_window base b ->
  (serial_lt a b <-> off base a < off base b).
Proof.
  unfold in_window, in_range, off, serial_lt. intros base a b [Ha Ha'] [Hb Hb']. rewrite pow23. unfold HW, W in *. lia.
Qed.

Lemma off_inj : forall base a b, in_range a -> in_range b -> off base a = off base b -> a = b.
Proof. unfold in_range, off, W. intros. lia. Qed.

Lemma serial_lt_trans_window : forall base a b c, in_window base a -> in_window base b -> in_window base c ->
  serial_lt a b -> serial_lt b c -> serial_lt a c.
Proof.
  intros base a b c Ha Hb Hc H1 H2.
  rewrite (serial_lt_window base) in * by assumption. lia.
Qed.

Lemma serial_lt_total_window : forall base a b, in_window base a -> in_window base b ->
  serial_lt a b \/ a = b \/ serial_lt b a.
Proof.
  intros base a b Ha Hb. rewrite !(serial_lt_window base) by assumption.
  destruct (Z.lt_trichotomy (off base a) (off base b)) as [H|[H|H]]; auto.
  right; left. destruct Ha, Hb. eapply off_inj; eauto.
Qed.

(* exactly half the number space apart: neither direction is fresh (RFC 1982's undefined case) *)
Lemma half_apart_incomparable : forall v, 0 <= v < HW -> ~ serial_lt v (v + HW) /\ ~ serial_lt (v + HW) v.
Proof. unfold serial_lt. rewrite pow23. unfold HW. intros. lia. Qed.
