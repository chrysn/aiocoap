(* C10 — the vocabulary of the statements; every function above the message layer decomposed once into steps ([ustep], [step_u]), on which
   BInv ("no CON to multicast") and, in the later files, the other invariants are proved; the reaction table and the cells of send_message. *)
From Verif Require Import Lib.Py Lib.PyLemmas Lib.Tactics Model.C10.
Open Scope Z_scope.

Inductive cclass := CEmpty | CRequest | CResponse | CReserved | CSignalling.
(* RFC 7252 section 3 / 12.1: 0.00 | 0.01-0.31 | 2.00-5.31 | 1.xx, 6.xx | 7.xx *)
Definition classify (c : Z) : cclass :=
  if c =? 0 then CEmpty else if is_request c then CRequest else if is_response c then CResponse
  else if 224 <=? c then CSignalling else CReserved.

Definition is_reply (o : output) : bool :=
  match o with Send _ m => match mtype m with ACK | RST => true | _ => false end | _ => false end.
Definition replies (o : list output) : list output := filter is_reply o.
Definition is_upward (o : output) : bool :=
  match o with StartHandler _ | CancelHandler _ | Deliver _ _ _ => true | _ => false end.
Definition upward (o : list output) : list output := filter is_upward o.

(* the response's token belongs to a pending request to this peer, or to a pending multicast request *)
Definition known (s : st) (r : remote) (m : wire) : bool :=
  amem ok_eqb (outgoing s) (token m, Some (rpeer r)) || amem ok_eqb (outgoing s) (token m, None).
(* not a duplicate in the sense of RFC 7252 4.5 (only request-coded messages are deduplicated) *)
Definition fresh (s : st) (r : remote) (m : wire) : Prop :=
  is_request (code m) = true -> aget zz_eqb (recent s) (rpeer r, mid m) = None.

Inductive reaction := Reset | EmptyAcknowledgement | NoReply | ToHandler.
Definition table (t : mtype_t) (c : cclass) (known mcast : bool) : reaction :=
  match c, t with
  | CEmpty, CON => Reset
  | CEmpty, _ => NoReply
  | CRequest, (CON | NON) => ToHandler
  | CRequest, _ => NoReply
  | CResponse, CON => if known then EmptyAcknowledgement else if mcast then NoReply else Reset
  | CResponse, _ => NoReply
  | (CReserved | CSignalling), _ => NoReply
  end.

(* backlogged and retransmitted messages are confirmable and never go to multicast; stored replies are ACK/RST under their key *)
Definition con_uni (r : remote) (m : wire) : Prop := mtype m = CON /\ is_multicast r = false.
Definition BInv (s : st) : Prop :=
  (forall p bl, In (p, bl) (backlogs s) -> forall r m mon, In (r, m, mon) bl -> con_uni r m) /\
  (forall t r m to c, In t (rtimers s) -> kind t = Retransmit r m to c -> con_uni r m) /\
  (forall k r m, In (k, Some (r, m)) (recent s) -> is_reply (Send r m) = true /\ k = (rpeer r, mid m)).

Section AList.
  Context {K V : Type} (eqb : K -> K -> bool).
  Implicit Type l : list (K * V).
  Lemma aget_in l k v : aget eqb l k = Some v -> exists k', In (k', v) l /\ eqb k' k = true.
  Proof.
    induction l as [|[k0 v0] l IH]; cbn; [discriminate|]. destruct (eqb k0 k) eqn:E.
    - intros H. inv H. eauto.
    - intros H. destruct (IH H) as (k' & Hin & He). eauto.
  Qed.
  Lemma in_adel l k x : In x (adel eqb l k) -> In x l.
  Proof. induction l as [|[k0 v0] l IH]; cbn; auto. destruct (eqb k0 k); cbn; intuition. Qed.
  Lemma aget_app l k v k' :
    aget eqb (l ++ [(k, v)]) k' = match aget eqb l k' with Some x => Some x | None => if eqb k k' then Some v else None end.
  Proof. induction l as [|[k0 v0] l IH]; cbn; [reflexivity|]. destruct (eqb k0 k'); auto. Qed.

  Hypothesis eqb_ok : forall a b, eqb a b = true <-> a = b.
  Lemma eqb_refl a : eqb a a = true. Proof. apply eqb_ok. reflexivity. Qed.
  Lemma eqb_neq a b : a <> b -> eqb a b = false.
  Proof. intros H. destruct (eqb a b) eqn:E; [apply eqb_ok in E; contradiction|reflexivity]. Qed.
  Lemma aget_In l k v : aget eqb l k = Some v -> In (k, v) l.
  Proof. intros H. apply aget_in in H as (k' & Hin & He). apply eqb_ok in He. subst k'. exact Hin. Qed.
  Lemma aget_adel l k k' : aget eqb (adel eqb l k) k' = if eqb k k' then None else aget eqb l k'.
  Proof.
    induction l as [|[k0 v0] l IH]; cbn; [destruct (eqb k k'); reflexivity|]. destruct (eqb k0 k) eqn:E.
    - apply eqb_ok in E. subst k0. rewrite IH. destruct (eqb k k'); reflexivity.
    - cbn. destruct (eqb k0 k') eqn:E2; [|exact IH]. apply eqb_ok in E2. subst k0. rewrite eqb_neq; [reflexivity|].
      intros ->. rewrite eqb_refl in E. discriminate.
  Qed.
  Lemma aget_areplace l k v k' : aget eqb l k <> None ->
    aget eqb (areplace eqb l k v) k' = if eqb k k' then Some v else aget eqb l k'.
  Proof.
    induction l as [|[k0 v0] l IH]; cbn; [congruence|]. destruct (eqb k0 k) eqn:E; cbn.
    - intros _. apply eqb_ok in E. subst k0. destruct (eqb k k'); reflexivity.
    - intros H. rewrite (IH H). destruct (eqb k0 k') eqn:E2; [|reflexivity]. apply eqb_ok in E2. subst k0.
      rewrite eqb_neq; [reflexivity|]. intros ->. rewrite eqb_refl in E. discriminate.
  Qed.
  Lemma aget_aset l k v k' : aget eqb (aset eqb l k v) k' = if eqb k k' then Some v else aget eqb l k'.
  Proof.
    unfold aset, amem. destruct (aget eqb l k) eqn:E.
    - apply aget_areplace. congruence.
    - rewrite aget_app. destruct (eqb k k') eqn:E2.
      + apply eqb_ok in E2. subst k'. rewrite E. reflexivity.
      + destruct (aget eqb l k'); reflexivity.
  Qed.
  Lemma aget_aset_same l k v : aget eqb (aset eqb l k v) k = Some v.
  Proof. rewrite aget_aset, eqb_refl. reflexivity. Qed.
  Lemma aget_aset_other l k v k' : k <> k' -> aget eqb (aset eqb l k v) k' = aget eqb l k'.
  Proof. intros H. rewrite aget_aset, eqb_neq by exact H. reflexivity. Qed.
  Lemma aget_adel_same l k : aget eqb (adel eqb l k) k = None.
  Proof. rewrite aget_adel, eqb_refl. reflexivity. Qed.
  Lemma aget_adel_other l k k' : k <> k' -> aget eqb (adel eqb l k) k' = aget eqb l k'.
  Proof. intros H. rewrite aget_adel, eqb_neq by exact H. reflexivity. Qed.
  Lemma aget_adel_none l k k' : aget eqb l k = None -> aget eqb (adel eqb l k') k = None.
  Proof. intros H. rewrite aget_adel. destruct (eqb k' k); [reflexivity|exact H]. Qed.
  Lemma aget_aset_none l k v k' : aget eqb (aset eqb l k v) k' = None <-> aget eqb l k' = None /\ k <> k'.
  Proof.
    rewrite aget_aset. destruct (eqb k k') eqn:E.
    - apply eqb_ok in E. split; [discriminate|intros [_ H]; contradiction].
    - split; [intros H; split; [exact H|]; intros ->; rewrite eqb_refl in E; discriminate|tauto].
  Qed.
  Lemma amem_aset l k v k' : amem eqb (aset eqb l k v) k' = eqb k k' || amem eqb l k'.
  Proof. unfold amem at 1. rewrite aget_aset. destruct (eqb k k'); reflexivity. Qed.
  Lemma amem_adel l k k' : amem eqb (adel eqb l k) k' = negb (eqb k k') && amem eqb l k'.
  Proof. unfold amem at 1. rewrite aget_adel. destruct (eqb k k'); reflexivity. Qed.
  Lemma in_adel_neq l k k' v : In (k', v) (adel eqb l k) -> k' <> k.
  Proof.
    induction l as [|[k0 v0] l IH]; cbn; [tauto|]. destruct (eqb k0 k) eqn:E; [exact IH|].
    intros [H|H]; [|exact (IH H)]. inv H. intros ->. rewrite eqb_refl in E. discriminate.
  Qed.
  Lemma adel_none l k : aget eqb l k = None -> adel eqb l k = l.
  Proof. induction l as [|[k0 v0] l IH]; cbn; [reflexivity|]. destruct (eqb k0 k); [discriminate|]. intros H. rewrite IH; auto. Qed.
  Lemma in_aset l k v x : In x (aset eqb l k v) -> In x l \/ x = (k, v).
  Proof.
    unfold aset. destruct (amem eqb l k); [|intros H; apply in_app_or in H as [H|[H|[]]]; auto].
    induction l as [|[k0 v0] l IH]; cbn; auto. destruct (eqb k0 k) eqn:E; cbn.
    - apply eqb_ok in E. subst k0. intros [H|H]; auto.
    - intros [H|H]; [auto|]. destruct (IH H); auto.
  Qed.
End AList.

Lemma z_ok a b : (a =? b) = true <-> a = b. Proof. apply Z.eqb_eq. Qed.
Lemma zz_ok a b : zz_eqb a b = true <-> a = b.
Proof. destruct a, b. unfold zz_eqb. cbn. rewrite andb_true_iff, !Z.eqb_eq. split; [intros []|intros H; inv H]; auto; congruence. Qed.
Lemma pk_ok a b : pk_eqb a b = true <-> a = b.
Proof. destruct a, b. unfold pk_eqb. cbn. rewrite andb_true_iff, Z.eqb_eq, list_eqb_Z_eq. split; [intros []|intros H; inv H]; auto; congruence. Qed.
Lemma ik_ok a b : ik_eqb a b = true <-> a = b.
Proof. destruct a, b. unfold ik_eqb. cbn. rewrite andb_true_iff, Z.eqb_eq, list_eqb_Z_eq. split; [intros []|intros H; inv H]; auto; congruence. Qed.

Tactic Notation "dlet" hyp(H) ident(s) ident(o) ident(E) := match type of H with (match ?X with pair _ _ => _ end) = _ => destruct X as [s o] eqn:E end.
Lemma send_initially_out s r m mon : snd (_send_initially s r m mon) = [Send r m] /\ outgoing (fst (_send_initially s r m mon)) = outgoing s /\
  piggy (fst (_send_initially s r m mon)) = piggy s /\ next_mid (fst (_send_initially s r m mon)) = next_mid s.
Proof.
  unfold _send_initially, _store_response_for_duplicates, _add_exchange, call_later_r. split; [reflexivity|].
  destruct (mtype m); cbn; repeat (match goal with |- context [if ?b then _ else _] => destruct b end; cbn); auto.
Qed.
Lemma send_initially_eta s r m mon : _send_initially s r m mon = (fst (_send_initially s r m mon), [Send r m]).
Proof. reflexivity. Qed.
Lemma tail_ack s1 r1 build pmid mon rq :
  send_message_tail s1 r1 build (Some ACK) (Some pmid) mon rq =
  (fst (_send_initially s1 r1 (build ACK pmid) mon), [Send r1 (build ACK pmid)], None).
Proof. reflexivity. Qed.

Lemma rpeer_ara r : rpeer (as_response_address r) = rpeer r.
Proof. unfold as_response_address. destruct (negb _); reflexivity. Qed.
(* a message ID seen for the first time is registered, with the handle that will forget it (messagemanager.py:214-221) *)
Definition register (s : st) (p md : Z) : st :=
  set_recent (fst (call_later_r s EXCHANGE_LIFETIME (Forget p md))) (aset zz_eqb (recent s) (p, md) None).
Lemma dedup_fresh s r m : aget zz_eqb (recent s) (rpeer r, mid m) = None ->
  _deduplicate_message s r m = (register s (rpeer r) (mid m), [], false).
Proof. intros Hf. unfold _deduplicate_message. rewrite Hf. reflexivity. Qed.
Lemma dedup_registers s r m s0 o0 : _deduplicate_message s r m = (s0, o0, false) ->
  aget zz_eqb (recent s) (rpeer r, mid m) = None /\ s0 = register s (rpeer r) (mid m).
Proof.
  intros H. destruct (aget zz_eqb (recent s) (rpeer r, mid m)) as [stored|] eqn:E; [|rewrite (dedup_fresh _ _ _ E) in H; inv H; auto].
  unfold _deduplicate_message in H. rewrite E in H. destruct (mtype m); try discriminate. destruct stored as [[r' m']|]; [|discriminate].
  destruct (_send_initially s r' m' MonResp). discriminate.
Qed.
(* the backlog loop: transmit while the peer has no exchange, then put the rest back or drop the empty backlog *)
Lemma continue_loop_rel (R : st -> list output -> st -> Prop) (Pm : remote -> wire -> Prop) p :
  (forall s o s1 o' s2, R s o s1 -> R s1 o' s2 -> R s (o ++ o') s2) ->
  (forall s rest, (forall r m mon, In (r, m, mon) rest -> Pm r m) -> R s [] (set_backlogs s (aset Z.eqb (backlogs s) p rest))) ->
  (forall s, has_exchange s p = false -> R s [] (set_backlogs s (adel Z.eqb (backlogs s) p))) ->
  (forall s r m mon, Pm r m -> has_exchange s p = false -> R s [Send r m] (fst (_send_initially s r m mon))) ->
  forall bl s s' o, (forall r m mon, In (r, m, mon) bl -> Pm r m) -> _continue_backlog_loop s p bl = (s', o) -> R s o s'.
Proof.
  intros Ha Hput Hdel Hsend. induction bl as [|[[r m] mon] bl IH]; intros s s' o Hbl H; cbn [_continue_backlog_loop] in H.
  - destruct (has_exchange s p) eqn:Eh; inv H; auto.
  - destruct (has_exchange s p) eqn:Eh; [inv H; auto|].
    pose proof (Hsend s r m mon (Hbl _ _ _ (or_introl eq_refl)) Eh) as H1. pose proof (proj1 (send_initially_out s r m mon)) as Ho.
    destruct (_send_initially s r m mon) as [s1 o1]. cbn [fst snd] in H1, Ho. subst o1.
    destruct (_continue_backlog_loop s1 p bl) as [s2 o2] eqn:E2. inv H. apply (Ha _ [Send r m] s1); [exact H1|]. eapply IH; eauto. intros; eapply Hbl; right; eauto.
Qed.
Lemma select_ack mt r rq : select_mtype mt r rq = ACK -> mt = Some ACK.
Proof. destruct mt; cbn; [congruence|]. destruct (is_multicast r); [discriminate|]. destruct rq as [[]|]; discriminate. Qed.
Lemma min_timer_in l t : min_timer l = Some t -> In t l.
Proof.
  revert t. induction l as [|x l IH]; cbn; [discriminate|]. intros t. destruct (min_timer l) as [u|].
  - destruct (earlier u x); intros H; inv H; auto.
  - intros H; inv H; auto.
Qed.
Lemma next_timer_in s b t : next_timer s = Some (b, t) -> In t (if b then atimers s else rtimers s).
Proof.
  unfold next_timer. intros H.
  destruct (min_timer (atimers s)) as [a|] eqn:Ea; destruct (min_timer (rtimers s)) as [c|] eqn:Ec; try discriminate;
    [destruct (earlier c a)| |]; inv H; apply min_timer_in; assumption.
Qed.
Lemma min_timer_le l u : min_timer l = Some u -> forall x, In x l -> due u <= due x.
Proof.
  revert u. induction l as [|t l IH]; cbn; [discriminate|]. intros u H x Hin. destruct (min_timer l) as [u'|] eqn:E.
  - unfold earlier in H. destruct ((due u' <? due t) || (due u' =? due t) && (tid u' <? tid t)) eqn:Ee; inv H.
    + destruct Hin as [<-|Hin]; [lia|eapply IH; eauto].
    + destruct Hin as [<-|Hin]; [lia|]. specialize (IH u' eq_refl x Hin). lia.
  - inv H. destruct Hin as [<-|Hin]; [lia|]. destruct l; [destruct Hin|]. cbn in E. destruct (min_timer l); [destruct (earlier _ _)|]; discriminate.
Qed.
Lemma min_timer_none l : min_timer l = None -> l = [].
Proof. destruct l as [|t l]; [reflexivity|]. cbn. destruct (min_timer l); [destruct (earlier _ _)|]; discriminate. Qed.
Lemma next_timer_le s b t : next_timer s = Some (b, t) -> forall x, In x (atimers s) -> due t <= due x.
Proof.
  unfold next_timer. intros H x Hin. destruct (min_timer (atimers s)) as [a|] eqn:Ea.
  - pose proof (min_timer_le _ _ Ea x Hin) as Hle. destruct (min_timer (rtimers s)) as [c|]; [|inv H; exact Hle].
    unfold earlier in H. destruct ((due c <? due a) || (due c =? due a) && (tid c <? tid a)) eqn:Ee; inv H; lia.
  - apply min_timer_none in Ea. rewrite Ea in Hin. destruct Hin.
Qed.
Lemma next_timer_none s : next_timer s = None -> atimers s = [].
Proof.
  unfold next_timer. intros H. destruct (min_timer (atimers s)) as [a|] eqn:Ea; [|apply min_timer_none; exact Ea].
  destruct (min_timer (rtimers s)); [destruct (earlier _ _)|]; discriminate.
Qed.

(* the message layer untouched; the acknowledgement layer untouched (handlers may end, none starts) *)
Definition msame (s s' : st) : Prop := recent s' = recent s /\ exch s' = exch s /\ backlogs s' = backlogs s /\ rtimers s' = rtimers s.
Definition pframe (s s' : st) : Prop :=
  piggy s' = piggy s /\ atimers s' = atimers s /\ now s' = now s /\ seq s <= seq s' /\ next_srv s <= next_srv s' /\
  incl (incoming s') (incoming s).
Ltac fields_unchanged := unfold msame, pframe; cbn; repeat split; try reflexivity; try lia; try apply incl_refl.
Lemma mtype_eqb_CON t : mtype_eqb t CON = true <-> t = CON.
Proof. destruct t; cbn; split; congruence. Qed.
(* the three ways send_message_tail ends: refused (CON to multicast); put into the peer's backlog; transmitted *)
Lemma tail_cases s1 r1 build mt md mon rq s' o e : send_message_tail s1 r1 build mt md mon rq = (s', o, e) ->
  let t := select_mtype mt r1 rq in
  (t = CON /\ is_multicast r1 = true /\ s' = s1 /\ o = []) \/
  exists s2 md1, (s2, md1) = match md with Some v => (s1, v) | None => _next_message_id s1 end /\ msame s1 s2 /\ pframe s1 s2 /\ e = None /\
    ((t = CON /\ is_multicast r1 = false /\ amem Z.eqb (backlogs s2) (rpeer r1) = true /\ o = [] /\
      s' = set_backlogs s2 (aset Z.eqb (backlogs s2) (rpeer r1)
             (match aget Z.eqb (backlogs s2) (rpeer r1) with Some l => l | None => [] end ++ [(r1, build t md1, mon)]))) \/
     ((t = CON -> is_multicast r1 = false /\ amem Z.eqb (backlogs s2) (rpeer r1) = false) /\
      o = [Send r1 (build t md1)] /\ s' = fst (_send_initially s2 r1 (build t md1) mon))).
Proof.
  intros H t. unfold send_message_tail in H. fold t in H.
  set (q := match md with Some v => (s1, v) | None => _next_message_id s1 end) in *.
  assert (Hq : msame s1 (fst q) /\ pframe s1 (fst q)) by (subst q; destruct md; repeat split; try reflexivity; apply incl_refl).
  destruct (mtype_eqb t CON) eqn:Et; cbn [andb] in H.
  - apply mtype_eqb_CON in Et. destruct (is_multicast r1). { inv H. left. auto. }
    right. destruct q as [s2 md1]. exists s2, md1. destruct (amem Z.eqb (backlogs s2) (rpeer r1)) eqn:Eb; inv H; cbn [fst] in Hq; intuition.
  - right. destruct q as [s2 md1]. exists s2, md1. inv H. cbn [fst] in Hq. repeat (split; [tauto|]). right.
    split; [intros Hc; rewrite Hc in Et; discriminate|auto].
Qed.
(* the state in which _process_request hands a CON request on: handle armed, an older opportunity under the same (peer, token)
   dropped with its handle (messagemanager.py:389-397), the new one recorded *)
Definition arm (s : st) (r : remote) (m : wire) : st :=
  let '(s0, handle) := call_later_a s EMPTY_ACK_DELAY (EmptyAck r (token m)) in
  let key := (rpeer r, token m) in
  let s0' := match aget pk_eqb (piggy s0) key with
             | Some (_, old_handle) => cancel_a (set_piggy s0 (adel pk_eqb (piggy s0) key)) old_handle
             | None => s0
             end in
  set_piggy s0' (aset pk_eqb (piggy s0') key (mid m, handle)).
Lemma process_request_arm s r m :
  _process_request s r m = tm_process_request (match mtype m with CON => arm s r m | _ => s end) r m.
Proof. reflexivity. Qed.
Lemma arm_msame s r m : msame s (arm s r m).
Proof. unfold arm, call_later_a. cbn [piggy set_atimers]. destruct (aget pk_eqb (piggy s) (rpeer r, token m)) as [[pm old]|]; repeat split. Qed.
Definition consumed (s : st) (k : Z * list Z) (id : Z) : st := cancel_a (set_piggy s (adel pk_eqb (piggy s) k)) id.
Definition fired (s : st) (id : Z) (k : Z * list Z) : Prop :=
  exists t r tok, In t (atimers s) /\ tid t = id /\ kind t = EmptyAck r tok /\ k = (rpeer r, tok).
(* registered in this very instant: the Forget handle is due a whole EXCHANGE_LIFETIME from now *)
Definition just_registered (s : st) (p md : Z) : Prop :=
  aget zz_eqb (recent s) (p, md) <> None /\ exists id, In {| due := now s + EXCHANGE_LIFETIME; tid := id; kind := Forget p md |} (rtimers s).
Lemma register_just_registered s p md : just_registered (register s p md) p md.
Proof. split; [cbn; rewrite (aget_aset_same _ zz_ok); discriminate|]. exists (seq s). cbn. apply in_or_app. right. left. reflexivity. Qed.
(* outputs towards the layers above only *)
Definition benign (o : list output) : Prop := forall x, In x o -> match x with Send _ _ | LoopException _ => False | _ => True end.
Lemma benign_nil : benign []. Proof. intros x []. Qed.
Lemma benign_one x : match x with Send _ _ | LoopException _ => False | _ => True end -> benign [x].
Proof. intros H y [<-|[]]. exact H. Qed.

Section UStep.
(* [K]: (peer, mid) under which an ACK-typed message may be sent that consumes no opportunity; [C]: the (peer, token) pairs whose
   opportunity may be consumed or for whose request a handler may be started; [A]: the CON requests that may arm a handle *)
(* [L]: the three steps inside the message layer proper may occur (not so within tm_process_request) *)
Variables (L : Prop) (K : Z * Z -> Prop) (C : Z * list Z -> Prop) (A : remote -> wire -> Prop).
(* The steps of the functions above the message layer.  The first group leaves the acknowledgement layer alone: bookkeeping of the
   token layer; a message handed to the message layer; a reply; deduplication; the end of an exchange; a retransmission / Forget handle.
   The second group leaves the message layer alone: an opportunity is consumed (by the answer, with its own handle, or by a firing
   handle) and the ACK goes out; a handle fires that is not an empty-ACK handle with its opportunity; a CON request arms its handle; a
   handler is started; the clock moves. *)
Inductive ustep : st -> list output -> st -> Prop :=
| u_same s o s' : msame s s' -> pframe s s' -> benign o -> ustep s o s'
| u_tail s r build mt md mon rq s' o e : send_message_tail s r build mt md mon rq = (s', o, e) ->
    (forall md1, mtype (build (select_mtype mt r rq) md1) = select_mtype mt r rq) -> (select_mtype mt r rq = ACK -> forall k, K k) -> ustep s o s'
| u_send s r w mon (silent : bool) : mtype w <> CON -> (silent = false -> mtype w = ACK -> K (rpeer r, mid w)) ->
    ustep s (if silent then [] else [Send r w]) (fst (_send_initially s r w mon))
| u_dedup s r m s' o d : L -> _deduplicate_message s r m = (s', o, d) -> K (rpeer r, mid m) -> ustep s o s'
| u_remove s r m s' o : L -> _remove_exchange s r m = (s', o) -> ustep s o s'
| u_timer s t s' o : L -> In t (rtimers s) -> (forall x, In x (atimers s) -> due t <= due x) -> run_timer (cancel_r s (tid t)) t = (s', o) -> ustep s o s'
| u_ack s k pm h id r w : C k -> aget pk_eqb (piggy s) k = Some (pm, h) -> id = h \/ fired s id k ->
    rpeer r = fst k -> mtype w = ACK -> mid w = pm -> ustep s [Send r w] (consumed s k id)
| u_stale s t o : In t (atimers s) -> (forall r tok, kind t = EmptyAck r tok -> aget pk_eqb (piggy s) (rpeer r, tok) = None) ->
    o = [] \/ o = [LoopException KeyError] -> ustep s o (cancel_a s (tid t))
| u_arm s r m : A r m -> mtype m = CON -> just_registered s (rpeer r) (mid m) -> ustep s [] (arm s r m)
| u_start s r m : C (rpeer r, token m) ->
    ustep s [StartHandler (next_srv s)]
      (set_next_srv (set_incoming s (aset ik_eqb (incoming s) (token m, rpeer r) {| sv_id := next_srv s; sv_remote := r; sv_req := m |})) (next_srv s + 1))
| u_tick s b t : next_timer s = Some (b, t) -> ustep s [] (set_now s (Z.max (now s) (due t)))
| u_wait s d : ustep s [] (fst (step s (Wait d))).
Inductive usteps : st -> list output -> st -> Prop :=
| us_nil s : usteps s [] s
| us_cons s o s1 o' s2 : ustep s o s1 -> usteps s1 o' s2 -> usteps s (o ++ o') s2.
Lemma usteps_one s o s' : ustep s o s' -> usteps s o s'.
Proof. intros H. rewrite <- (app_nil_r o). eapply us_cons; [exact H|apply us_nil]. Qed.
Lemma usteps_app s o s1 o' s2 : usteps s o s1 -> usteps s1 o' s2 -> usteps s (o ++ o') s2.
Proof. induction 1 as [|x o1 x1 o2 x2 H1 _ IH]; intros H2; [exact H2|]. rewrite <- app_assoc. eapply us_cons; eauto. Qed.
Lemma usteps_rel (R : st -> list output -> st -> Prop) :
  (forall s, R s [] s) -> (forall s o s1 o' s2, R s o s1 -> R s1 o' s2 -> R s (o ++ o') s2) ->
  (forall s o s', ustep s o s' -> R s o s') -> forall s o s', usteps s o s' -> R s o s'.
Proof. intros Hn Ha Hs. induction 1; eauto. Qed.

Lemma send_message_u s r a mon rq s' o e : send_message s r a mon rq = (s', o, e) ->
  (is_response (a_code a) = true -> C (rpeer r, a_token a)) -> (a_mtype a = Some ACK -> forall k, K k) -> usteps s o s'.
Proof.
  unfold send_message. intros H Hc Hm.
  assert (Hplain : send_message_tail s r (mk_wire a) (a_mtype a) None mon rq = (s', o, e) -> usteps s o s').
  { intros Ht. apply usteps_one. eapply u_tail; [exact Ht|reflexivity|]. intros Hs. apply Hm. eapply select_ack. exact Hs. }
  destruct (is_response (a_code a)); [|exact (Hplain H)].
  destruct (aget pk_eqb (piggy s) (rpeer r, a_token a)) as [[pmid h]|] eqn:Eg.
  - assert (Hgo : forall r1 w, rpeer r1 = rpeer r -> mtype w = ACK -> mid w = pmid ->
              usteps s [Send r1 w] (fst (_send_initially (consumed s (rpeer r, a_token a) h) r1 w mon))).
    { intros r1 w H1 H2 H3. change [Send r1 w] with ([Send r1 w] ++ [] ++ []). eapply us_cons; [eapply u_ack; eauto|].
      eapply us_cons; [apply (u_send _ r1 w mon true); [rewrite H2|]; discriminate|apply us_nil]. }
    destruct (no_response_of a); rewrite tail_ack in H; inv H; apply Hgo; auto using rpeer_ara.
  - destruct (no_response_of a); [inv H; apply us_nil|exact (Hplain H)].
Qed.
Lemma send_response_u s r req c rnr pl s' o : send_response s r req c rnr pl = (s', o) ->
  (is_response c = true -> C (rpeer r, token req)) -> usteps s o s'.
Proof.
  unfold send_response. intros H Hc.
  match type of H with context [send_message ?x ?rr ?a ?mn ?q] => destruct (send_message x rr a mn q) as [[s1 o1] e] eqn:E end.
  inv H. eapply send_message_u; [exact E|cbn; rewrite rpeer_ara; exact Hc|discriminate].
Qed.
Lemma tm_process_request_u s r m s' o : tm_process_request s r m = (s', o) -> C (rpeer r, token m) -> usteps s o s'.
Proof.
  unfold tm_process_request. intros H Hc.
  set (q := match aget ik_eqb (incoming s) (token m, rpeer r) with Some sv => _ | None => (s, []) end) in H.
  assert (Hq : usteps s (snd q) (fst q)).
  { subst q. destruct (aget ik_eqb _ _); cbn [fst snd]; [|apply us_nil].
    apply usteps_one, u_same; [fields_unchanged; intros x Hx; eapply in_adel; eauto..|apply benign_one; exact I]. }
  destruct q as [s1 o1]. cbn [fst snd] in Hq. dlet H s2 o2 E. injection H as <- <-. apply (usteps_app _ _ _ _ _ Hq).
  destruct (negb _); [eapply send_response_u; eauto|]. destruct (negb _); [eapply send_response_u; eauto|].
  destruct (path m =? 0). { inv E. apply usteps_one, u_start, Hc. }
  destruct (path m =? 1); eapply send_response_u; eauto.
Qed.
Lemma handler_respond_u s k c rnr pl s' o : handler_respond s k c rnr pl = (s', o) ->
  (forall key sv, find_srv (incoming s) k = Some (key, sv) -> C (rpeer (sv_remote sv), token (sv_req sv))) -> usteps s o s'.
Proof.
  unfold handler_respond. intros H Hc. destruct (find_srv (incoming s) k) as [[key sv]|]; [|inv H; apply us_nil].
  dlet H s2 o2 E. injection H as <- <-. rewrite <- (app_nil_r o2).
  eapply usteps_app; [eapply send_response_u; [exact E|intros _; eapply Hc; reflexivity]|].
  apply usteps_one, u_same; [fields_unchanged; intros x Hx; eapply in_adel; eauto..|apply benign_nil].
Qed.
Lemma tm_request_u s pe mt ob s' o : tm_request s pe mt ob = (s', o) -> (mt = Some ACK -> forall k, K k) -> usteps s o s'.
Proof.
  unfold tm_request, next_token_. intros H Hm. cbv zeta in H.
  match type of H with context [send_message ?x ?r ?a ?mn ?q] =>
    destruct (send_message x r a mn q) as [[s3 o3] e] eqn:E; assert (H0 : usteps s [] x) by (apply usteps_one, u_same; [fields_unchanged..|apply benign_nil]) end.
  apply send_message_u in E; [|discriminate|exact Hm]. pose proof (usteps_app _ _ _ _ _ H0 E) as H3. cbn [app] in H3.
  destruct e as [e|]; [|inv H; exact H3]. unfold fail_request in H. destruct (find_req (outgoing s3) (next_req s)); inv H; [|rewrite app_nil_r; exact H3].
  eapply usteps_app; [exact H3|]. apply usteps_one, u_same; [fields_unchanged..|apply benign_one; exact I].
Qed.
Lemma process_request_u s r m s' o : _process_request s r m = (s', o) -> C (rpeer r, token m) ->
  (mtype m = CON -> A r m /\ just_registered s (rpeer r) (mid m)) -> usteps s o s'.
Proof.
  rewrite process_request_arm. intros H Hc Ha. destruct (mtype m) eqn:Et; try (eapply tm_process_request_u; eauto; fail). destruct (Ha eq_refl).
  change o with ([] ++ o). eapply us_cons; [apply (u_arm s r m); assumption|]. eapply tm_process_request_u; eauto.
Qed.
(* a request is processed in the very state deduplication left: CON and NON messages end no exchange *)
Lemma dispatch_message_u s r m s' o : L -> dispatch_message s r m = (s', o) -> K (rpeer r, mid m) ->
  (is_request (code m) = true -> C (rpeer r, token m) /\ (mtype m = CON -> A r m)) -> usteps s o s'.
Proof.
  unfold dispatch_message. intros HL H Hk Hrq.
  assert (Hrep : forall x t x' o', t <> CON -> _send_initially x (as_response_address r) (empty_msg t (mid m)) MonResp = (x', o') -> usteps x o' x').
  { intros x t x' o' Ht E. pose proof (proj1 (send_initially_out x (as_response_address r) (empty_msg t (mid m)) MonResp)) as Ho.
    rewrite E in Ho. cbn [snd] in Ho. subst o'. replace x' with (fst (_send_initially x (as_response_address r) (empty_msg t (mid m)) MonResp)) by (rewrite E; reflexivity).
    apply usteps_one. apply (u_send x _ _ MonResp false); [exact Ht|]. intros _ _. cbn. rewrite rpeer_ara. exact Hk. }
  destruct (if is_request (code m) then _deduplicate_message s r m else (s, [], false)) as [[s0 o0] dup] eqn:E0.
  assert (H0 : usteps s o0 s0) by (destruct (is_request (code m)); [apply usteps_one; eapply u_dedup; eauto|inv E0; apply us_nil]).
  destruct dup. { inv H. exact H0. }
  destruct (match mtype m with ACK | RST => _remove_exchange s0 r m | _ => (s0, []) end) as [s1 o1] eqn:E1.
  assert (H1 : usteps s0 o1 s1 /\ (mtype m = CON \/ mtype m = NON -> s1 = s0)).
  { destruct (mtype m); try (inv E1; split; [apply us_nil|reflexivity]); (split; [apply usteps_one; eapply u_remove; eauto|intros [|]; discriminate]). }
  destruct H1 as [H1 Hsame]. dlet H s2 o2 E. injection H as <- <-.
  apply (usteps_app _ _ _ _ _ H0), (usteps_app _ _ _ _ _ H1).
  destruct (code m =? EMPTY). { destruct (mtype m); try (inv E; apply us_nil; fail). unfold _process_ping in E. eapply Hrep; [|exact E]; discriminate. }
  destruct (is_request (code m)) eqn:Erq.
  { destruct (Hrq eq_refl) as [Hc Ha]. apply dedup_registers in E0 as [_ ->].
    destruct (mtype m) eqn:Et; try (inv E; apply us_nil; fail); rewrite Hsame in * by auto;
      (eapply process_request_u; [exact E|exact Hc|]); rewrite Et; intros Hcon; try discriminate; (split; [auto|apply register_just_registered]). }
  destruct (is_response (code m)); [|inv E; apply us_nil].
  assert (Hgo : forall t, (let '(s', o, success) := tm_process_response s1 r m in
      if success then match t with CON => let '(s'', o') := _send_empty_ack s' r (mid m) in (s'', o ++ o') | _ => (s', o) end
      else if mtype_eqb t CON && negb (is_multicast_locally r)
           then let '(s'', o') := _send_initially s' (as_response_address r) (empty_msg RST (mid m)) MonResp in (s'', o ++ o')
           else (s', o)) = (s2, o2) -> usteps s1 o2 s2).
  { intros t Ht. destruct (tm_process_response s1 r m) as [[sx ox] success] eqn:Et.
    assert (Hx : usteps s1 ox sx).
    { unfold tm_process_response in Et. destruct (aget ok_eqb (outgoing s1) _) as [[q ob]|]; inv Et; [|apply us_nil].
      apply usteps_one, u_same; [destruct (negb _); fields_unchanged..|apply benign_one; exact I]. }
    destruct success.
    - destruct t; try (inv Ht; exact Hx; fail). unfold _send_empty_ack in Ht.
      destruct (_send_initially sx (as_response_address r) (empty_msg ACK (mid m)) MonResp) as [s'' o''] eqn:Ea. inv Ht.
      apply (usteps_app _ _ _ _ _ Hx). eapply Hrep; [|exact Ea]; discriminate.
    - destruct (mtype_eqb t CON && negb (is_multicast_locally r)); [|inv Ht; exact Hx].
      destruct (_send_initially sx (as_response_address r) (empty_msg RST (mid m)) MonResp) as [s'' o''] eqn:Ea. inv Ht.
      apply (usteps_app _ _ _ _ _ Hx). eapply Hrep; [|exact Ea]; discriminate. }
  destruct (mtype m); [apply (Hgo CON); exact E|apply (Hgo NON); exact E|apply (Hgo ACK); exact E|inv E; apply us_nil].
Qed.

Definition allows (s : st) (e : event) : Prop :=
  match e with
  | Recv r m => K (rpeer r, mid m) /\ (is_request (code m) = true -> C (rpeer r, token m) /\ (mtype m = CON -> A r m))
  | Respond k _ _ _ => forall key sv, find_srv (incoming s) k = Some (key, sv) -> C (rpeer (sv_remote sv), token (sv_req sv))
  | Request _ mt _ => mt = Some ACK -> forall k, K k
  | Fire => forall t r tok v, next_timer s = Some (true, t) -> kind t = EmptyAck r tok -> aget pk_eqb (piggy s) (rpeer r, tok) = Some v -> C (rpeer r, tok)
  | Wait _ => True
  end.
Theorem step_u s e s' o : L -> step s e = (s', o) -> allows s e -> usteps s o s'.
Proof.
  destruct e as [r m|k c rnr pl|pe mt ob| |d]; cbn [step allows]; intros HL H Hal.
  - (* Recv *) destruct Hal. eapply dispatch_message_u; eauto.
  - (* Respond *) eapply handler_respond_u; eauto.
  - (* Request *) eapply tm_request_u; eauto.
  - (* Fire *) destruct (next_timer s) as [[b t]|] eqn:En; [|inv H; apply us_nil]. change o with ([] ++ o). eapply us_cons; [eapply u_tick; exact En|].
    pose proof (next_timer_in _ _ _ En) as Hin. set (st := set_now s (Z.max (now s) (due t))) in *. destruct b.
    + (* an empty-ACK handle *)
      change (set_now (cancel_a s (tid t)) (Z.max (now s) (due t))) with (cancel_a st (tid t)) in H.
      assert (Hstale : forall o', (forall r tok, kind t = EmptyAck r tok -> aget pk_eqb (piggy s) (rpeer r, tok) = None) ->
                o' = [] \/ o' = [LoopException KeyError] -> usteps st o' (cancel_a st (tid t))).
      { intros o' Hn Ho'. apply usteps_one. apply (u_stale st t); assumption. }
      destruct (kind t) as [r tok| |] eqn:Ek; try (inv H; apply Hstale; [discriminate|auto]).
      unfold on_timeout in H. change (piggy (cancel_a st (tid t))) with (piggy s) in H.
      destruct (aget pk_eqb (piggy s) (rpeer r, tok)) as [[pm h]|] eqn:Eg; [|inv H; apply Hstale; [intros r' tok' Hq; inv Hq; exact Eg|auto]].
      unfold _send_empty_ack in H. change (set_piggy (cancel_a st (tid t)) (adel pk_eqb (piggy s) (rpeer r, tok))) with (consumed st (rpeer r, tok) (tid t)) in H.
      pose proof (proj1 (send_initially_out (consumed st (rpeer r, tok) (tid t)) (as_response_address r) (empty_msg ACK pm) MonResp)) as Ho.
      rewrite H in Ho. cbn [snd] in Ho. subst o. replace s' with (fst (_send_initially (consumed st (rpeer r, tok) (tid t)) (as_response_address r) (empty_msg ACK pm) MonResp)) by (rewrite H; reflexivity).
      change [Send (as_response_address r) (empty_msg ACK pm)] with ([Send (as_response_address r) (empty_msg ACK pm)] ++ [] ++ []). eapply us_cons.
      * eapply (u_ack st (rpeer r, tok) pm h (tid t)); [eapply Hal; eauto|exact Eg| |apply rpeer_ara|reflexivity|reflexivity]. right. exists t, r, tok. auto.
      * eapply us_cons; [apply (u_send (consumed st (rpeer r, tok) (tid t)) (as_response_address r) (empty_msg ACK pm) MonResp true); discriminate|apply us_nil].
    + (* a retransmission or Forget handle *)
      change (set_now (cancel_r s (tid t)) (Z.max (now s) (due t))) with (cancel_r st (tid t)) in H.
      apply usteps_one. eapply u_timer; [exact HL|exact Hin|exact (next_timer_le _ _ _ En)|exact H].
  - (* Wait *) inv H. apply usteps_one. exact (u_wait s d).
Qed.
End UStep.
Lemma allows_all s e : allows (fun _ => True) (fun _ => True) (fun _ _ => True) s e.
Proof. destruct e; cbn; auto. Qed.

Definition ok_out (o : output) : Prop := match o with Send r m => mtype m = CON -> is_multicast r = false | _ => True end.

Lemma BInv_ext s s' : backlogs s' = backlogs s -> rtimers s' = rtimers s -> recent s' = recent s -> BInv s -> BInv s'.
Proof. unfold BInv. intros -> -> ->. auto. Qed.

Lemma store_ok s r m : BInv s -> BInv (_store_response_for_duplicates s r m).
Proof.
  intros HB. unfold _store_response_for_duplicates.
  assert (Hgo : is_reply (Send r m) = true -> BInv (if amem zz_eqb (recent s) (rpeer r, mid m) then set_recent s (aset zz_eqb (recent s) (rpeer r, mid m) (Some (r, m))) else s)).
  { intros Hr. destruct (amem zz_eqb (recent s) (rpeer r, mid m)); [|exact HB].
    destruct HB as (H1 & H2 & H3). split; [exact H1|]. split; [exact H2|]. cbn.
    intros k r' m' Hin. apply (in_aset _ zz_ok) in Hin as [Hin|Heq]; [eauto|]. inv Heq. auto. }
  destruct (mtype m) eqn:Em; try exact HB; apply Hgo; cbn; rewrite Em; reflexivity.
Qed.

Lemma add_exchange_ok s r m mon : BInv s -> con_uni r m -> BInv (_add_exchange s r m mon).
Proof.
  intros (H1 & H2 & H3) Hc. unfold _add_exchange, call_later_r.
  destruct (amem Z.eqb (backlogs s) (rpeer r)); cbn; (split; [|split; [|exact H3]]); cbn.
  - exact H1.
  - intros t r' m' to c Hin Hk. apply in_app_or in Hin as [Hin|[Hin|[]]]; [eauto|]. subst t. cbn in Hk. inv Hk. exact Hc.
  - intros p bl Hin. apply (in_aset _ z_ok) in Hin as [Hin|Heq]; [eauto|]. inv Heq. intros ? ? ? [].
  - intros t r' m' to c Hin Hk. apply in_app_or in Hin as [Hin|[Hin|[]]]; [eauto|]. subst t. cbn in Hk. inv Hk. exact Hc.
Qed.

Lemma send_initially_ok s r m mon : BInv s -> (mtype m = CON -> is_multicast r = false) -> BInv (fst (_send_initially s r m mon)).
Proof.
  intros HB Hc. unfold _send_initially. cbn [fst].
  destruct (mtype m) eqn:Em; try (apply store_ok; exact HB). apply store_ok, add_exchange_ok; [exact HB|split; auto].
Qed.

Lemma Forall_ok_app a b : Forall ok_out a -> Forall ok_out b -> Forall ok_out (a ++ b).
Proof. intros. apply Forall_app; auto. Qed.

Lemma BInv_msame s s' : msame s s' -> BInv s -> BInv s'.
Proof. intros (H1 & _ & H3 & H4). apply BInv_ext; assumption. Qed.
Lemma tail_ok s1 r1 build mt md mon rq s' o e : send_message_tail s1 r1 build mt md mon rq = (s', o, e) -> BInv s1 ->
  (forall md, mtype (build (select_mtype mt r1 rq) md) = select_mtype mt r1 rq) ->
  BInv s' /\ Forall ok_out o.
Proof.
  intros H HB Hb. apply tail_cases in H as [(_ & _ & -> & ->)|(s2 & md1 & _ & Hm & _ & _ & Hc)]; [auto|]. apply (BInv_msame _ _ Hm) in HB.
  destruct Hc as [(Ht & Hu & _ & -> & ->)|(Hc & -> & ->)].
  - split; [|constructor]. destruct HB as (H1 & H2 & H3). split; [|split; [exact H2|exact H3]]. cbn.
    intros p bl Hin. apply (in_aset _ z_ok) in Hin as [Hin|Heq]; [eauto|]. inv Heq.
    intros r m mon' Hin. apply in_app_or in Hin as [Hin|[Hin|[]]].
    + destruct (aget Z.eqb (backlogs s2) (rpeer r1)) as [l|] eqn:Eg; [|destruct Hin]. apply aget_in in Eg as (k' & Hk & _). eauto.
    + inv Hin. split; [rewrite Hb; exact Ht|exact Hu].
  - assert (Hcu : mtype (build (select_mtype mt r1 rq) md1) = CON -> is_multicast r1 = false) by (rewrite Hb; apply Hc).
    split; [apply send_initially_ok; assumption|constructor; [exact Hcu|constructor]].
Qed.

Lemma fail_request_ok s q e s' o : fail_request s q e = (s', o) -> BInv s -> BInv s' /\ Forall ok_out o.
Proof.
  unfold fail_request. intros H HB. destruct (find_req (outgoing s) q); inv H.
  - split; [apply (BInv_ext s); [reflexivity..|exact HB]|]. repeat constructor.
  - auto.
Qed.
Lemma run_monitor_ok s mon s' o : run_monitor s mon = (s', o) -> BInv s -> BInv s' /\ Forall ok_out o.
Proof. destruct mon; cbn; [apply fail_request_ok|]. intros H; inv H; auto. Qed.

Lemma dispatch_error_sends_nothing s p e r w : ~ In (Send r w) (snd (tm_dispatch_error s p e)).
Proof.
  unfold tm_dispatch_error. cbn [snd]. intros H. apply in_app_or in H as [H|H].
  - induction (outgoing s) as [|[[? rm] [? ?]] l IH]; cbn in H; [exact H|]. destruct (oz_eqb rm (Some p)); [destruct H as [H|H]; [discriminate|]|]; auto.
  - induction (incoming s) as [|[[? rm] ?] l IH]; cbn in H; [exact H|]. destruct (rm =? p); [destruct H as [H|H]; [discriminate|]|]; auto.
Qed.
Lemma tm_dispatch_error_ok s p e s' o : tm_dispatch_error s p e = (s', o) -> BInv s -> BInv s' /\ Forall ok_out o.
Proof.
  intros H HB. pose proof (dispatch_error_sends_nothing s p e) as Hn. rewrite H in Hn. cbn [snd] in Hn. unfold tm_dispatch_error in H. inv H.
  split; [apply (BInv_ext s); auto|]. apply Forall_forall. intros [r w| | | | |] Hin; cbn; auto. destruct (Hn _ _ Hin).
Qed.

Lemma dedup_ok s r m s' o b : _deduplicate_message s r m = (s', o, b) -> BInv s -> BInv s' /\ Forall ok_out o.
Proof.
  unfold _deduplicate_message. intros H HB. destruct (aget zz_eqb (recent s) (rpeer r, mid m)) as [stored|] eqn:Eg.
  - destruct (mtype m); try (inv H; auto; fail). destruct stored as [[r' m']|]; [|inv H; auto].
    rewrite send_initially_eta in H. inv H.
    apply aget_in in Eg as (k' & Hin & _). pose proof HB as (_ & _ & H3). apply H3 in Hin as [Hr _]. cbn in Hr.
    assert (Hn : mtype m' = CON -> is_multicast r' = false) by (intros Hc; rewrite Hc in Hr; discriminate).
    split; [apply send_initially_ok; assumption|constructor; [exact Hn|constructor]].
  - unfold call_later_r in H. inv H. split; [|constructor]. destruct HB as (H1 & H2 & H3). split; [exact H1|]. split; cbn.
    + intros t r' m' to c Hin Hk. apply in_app_or in Hin as [Hin|[Hin|[]]]; [eauto|]. subst t. discriminate.
    + intros k r' m' Hin. apply (in_aset _ zz_ok) in Hin as [Hin|Heq]; [eauto|discriminate].
Qed.

Lemma continue_loop_ok bl s p s' o : _continue_backlog_loop s p bl = (s', o) -> BInv s ->
  (forall r m mon, In (r, m, mon) bl -> con_uni r m) -> BInv s' /\ Forall ok_out o.
Proof.
  intros H HB Hbl. revert HB. revert H. apply (continue_loop_rel (fun s o s' => BInv s -> BInv s' /\ Forall ok_out o) con_uni); [| | | |exact Hbl].
  - intros x o1 x1 o2 x2 H1 H2 HB. destruct (H1 HB) as [HB1 ?]. destruct (H2 HB1). auto using Forall_ok_app.
  - intros x rest Hr (H1 & H2 & H3). split; [|constructor]. split; [|split; [exact H2|exact H3]]. cbn.
    intros p' bl' Hin. apply (in_aset _ z_ok) in Hin as [Hin|Heq]; [eapply H1; eauto|]. inv Heq. exact Hr.
  - intros x _ (H1 & H2 & H3). split; [|constructor]. split; [|split; [exact H2|exact H3]]. cbn. intros p' bl' Hin. apply in_adel in Hin. eauto.
  - intros x r m mon [Hc Hu] _ HB. split; [apply send_initially_ok; auto|]. repeat constructor. cbn. auto.
Qed.

Lemma continue_backlog_ok s p s' o : _continue_backlog s p = (s', o) -> BInv s -> BInv s' /\ Forall ok_out o.
Proof.
  unfold _continue_backlog. intros H HB. destruct (aget Z.eqb (backlogs s) p) as [bl|] eqn:Eg.
  - eapply continue_loop_ok; eauto. apply aget_in in Eg as (k' & Hin & _). destruct HB as (H1 & _). eauto.
  - inv H. split; auto. repeat constructor.
Qed.

Lemma cancel_r_BInv s id : BInv s -> BInv (cancel_r s id).
Proof.
  intros (H1 & H2 & H3). split; [exact H1|split; [|exact H3]]. cbn. intros t r m to c Hin. apply filter_In in Hin as [Hin _]. eauto.
Qed.

Lemma remove_exchange_ok s r m s' o : _remove_exchange s r m = (s', o) -> BInv s -> BInv s' /\ Forall ok_out o.
Proof.
  unfold _remove_exchange. intros H HB. destruct (aget zz_eqb (exch s) (rpeer r, mid m)) as [[mon h]|]; [|inv H; auto].
  set (s1 := cancel_r _ h) in H. assert (HB1 : BInv s1). { subst s1. apply cancel_r_BInv. apply (BInv_ext s); auto. }
  set (p := match mtype m with RST => run_monitor s1 mon | _ => (s1, []) end) in H.
  assert (Hp : BInv (fst p) /\ Forall ok_out (snd p)).
  { subst p. destruct (mtype m); cbn; auto. destruct (run_monitor s1 mon) eqn:E. eapply run_monitor_ok; eauto. }
  destruct p as [s2 o1]. cbn in Hp. destruct Hp as [HB2 Ho1].
  destruct (_continue_backlog s2 (rpeer r)) as [s3 o2] eqn:E. inv H. apply continue_backlog_ok in E as []; auto.
  split; auto. apply Forall_ok_app; auto.
Qed.

Lemma retransmit_ok s r m to c s' o : _retransmit s r m to c = (s', o) -> BInv s -> con_uni r m -> BInv s' /\ Forall ok_out o.
Proof.
  unfold _retransmit. intros H HB Hc. destruct (aget zz_eqb (exch s) (rpeer r, mid m)) as [[mon h]|].
  2:{ inv H. split; auto. repeat constructor. }
  set (s1 := cancel_r _ h) in H. assert (HB1 : BInv s1). { subst s1. apply cancel_r_BInv. exact HB. }
  destruct (c <? MAX_RETRANSMIT).
  - unfold call_later_r in H. inv H. split; [|constructor; [cbn; intros _; apply Hc|constructor]].
    destruct HB1 as (H1 & H2 & H3). split; [exact H1|split; [|exact H3]]. cbn.
    intros t r' m' to' c' Hin Hk. apply in_app_or in Hin as [Hin|[Hin|[]]]; [eapply H2; eauto|]. subst t. cbn in Hk. inv Hk. exact Hc.
  - destruct (amem Z.eqb (backlogs s1) (rpeer r)).
    + eapply tm_dispatch_error_ok; [exact H|]. destruct HB1 as (H1 & H2 & H3). split; [|split; [exact H2|exact H3]]. cbn.
      intros p bl Hin. apply in_adel in Hin. eapply H1; eauto.
    + inv H. split; auto. repeat constructor.
Qed.

Lemma run_timer_ok s t s' o : run_timer s t = (s', o) -> BInv s ->
  (forall r m to c, kind t = Retransmit r m to c -> con_uni r m) -> BInv s' /\ Forall ok_out o.
Proof.
  unfold run_timer. intros H HB Hk. destruct (kind t) as [r tok|r m to c|p md].
  - inv H. auto.
  - eapply retransmit_ok; eauto.
  - inv H. split; [|constructor]. destruct HB as (H1 & H2 & H3). split; [exact H1|split; [exact H2|]]. cbn.
    intros k r m Hin. apply in_adel in Hin. eauto.
Qed.

Lemma benign_ok o : benign o -> Forall ok_out o.
Proof. intros H. apply Forall_forall. intros [r w| | | | |] Hin; cbn; auto. destruct (H _ Hin). Qed.
Lemma ustep_ok L K C A s o s' : ustep L K C A s o s' -> BInv s -> BInv s' /\ Forall ok_out o.
Proof.
  intros H HB. destruct H as [s o s' Hm _ Ho|s r build mt md mon rq s' o e H Hb _|s r w mon silent Hw _|s r m s' o d _ H _|s r m s' o _ H|s t s' o _ Hin _ H
                            |s k pm h id r w _ _ _ _ Hw _|s t o _ _ Ho|s r m _ _ _|s r m _|s b t _|s d].
  - (* u_same *) split; [eapply BInv_msame; eauto|apply benign_ok; exact Ho].
  - (* u_tail *) eapply tail_ok; eauto.
  - (* u_send *) split; [apply send_initially_ok; [exact HB|intros Hc; destruct (Hw Hc)]|]. destruct silent; repeat constructor. intros Hc. destruct (Hw Hc).
  - (* u_dedup *) eapply dedup_ok; eauto.
  - (* u_remove *) eapply remove_exchange_ok; eauto.
  - (* u_timer *) eapply run_timer_ok; [exact H|apply cancel_r_BInv; exact HB|]. intros r m to c Hk. destruct HB as (_ & H2 & _). eapply H2; eauto.
  - (* u_ack *) split; [apply (BInv_ext s); [reflexivity..|exact HB]|]. repeat constructor. cbn. rewrite Hw. discriminate.
  - (* u_stale *) split; [apply (BInv_ext s); [reflexivity..|exact HB]|]. destruct Ho as [-> | ->]; repeat constructor.
  - (* u_arm *) split; [apply (BInv_msame s), HB; apply arm_msame|constructor].
  - (* u_start *) split; [apply (BInv_ext s); [reflexivity..|exact HB]|repeat constructor].
  - (* u_tick *) split; [apply (BInv_ext s); [reflexivity..|exact HB]|constructor].
  - (* u_wait *) split; [apply (BInv_ext s); [reflexivity..|exact HB]|constructor].
Qed.
Lemma step_ok s e s' o : step s e = (s', o) -> BInv s -> BInv s' /\ Forall ok_out o.
Proof.
  intros H. apply (usteps_rel True (fun _ => True) (fun _ => True) (fun _ _ => True) (fun s o s' => BInv s -> BInv s' /\ Forall ok_out o)).
  - auto.
  - intros x o1 x1 o2 x2 H1 H2 HB. destruct (H1 HB) as [HB1 ?]. destruct (H2 HB1). auto using Forall_ok_app.
  - apply ustep_ok.
  - eapply step_u; [exact I|exact H|apply allows_all].
Qed.
Lemma dispatch_message_ok s r m s' o : dispatch_message s r m = (s', o) -> BInv s -> BInv s' /\ Forall ok_out o.
Proof. exact (step_ok s (Recv r m) s' o). Qed.

Definition outputs_of (l : list (Z * list output)) : list output := concat (map snd l).

Lemma Forall_True {A} (l : list A) : Forall (fun _ => True) l.
Proof. induction l; auto. Qed.
Lemma run_relB (R : st -> list output -> st -> Prop) (Ev : event -> Prop) :
  (forall s, R s [] s) -> (forall s o s1 o' s2, R s o s1 -> R s1 o' s2 -> R s (o ++ o') s2) ->
  (forall s e s' o, Ev e -> step s e = (s', o) -> BInv s -> R s o s') ->
  forall es s s' os, run s es = (s', os) -> BInv s -> Forall Ev es -> BInv s' /\ R s (outputs_of os) s'.
Proof.
  intros Hn Ha Hs. induction es as [|e es IH]; intros s s' os H HB Hev; cbn [run] in H; [inv H; auto|].
  destruct (step s e) as [s1 o] eqn:E1. destruct (run s1 es) as [s2 os2] eqn:E2. inv H. inv Hev.
  destruct (IH _ _ _ E2 (proj1 (step_ok _ _ _ _ E1 HB)) H2) as [HB2 HR]. split; [exact HB2|].
  unfold outputs_of. cbn [map concat snd]. eapply Ha; [eapply Hs; eauto|exact HR].
Qed.
Lemma run_ok es s s' os : run s es = (s', os) -> BInv s -> BInv s' /\ Forall ok_out (outputs_of os).
Proof.
  intros H HB. eapply (run_relB (fun _ o _ => Forall ok_out o) (fun _ => True)); eauto using Forall_True, Forall_ok_app.
  intros x e x' o _ Hx HBx. eapply step_ok; eauto.
Qed.

Lemma BInv_init m0 t0 : BInv (init m0 t0).
Proof. unfold BInv, init; cbn. repeat split; intros; contradiction. Qed.

(* no confirmable message is ever sent to a multicast destination: every history from the initial state *)
Theorem never_con_to_multicast es m0 t0 r m :
  In (Send r m) (outputs_of (snd (run (init m0 t0) es))) -> mtype m = CON -> is_multicast r = false.
Proof.
  intros Hin. destruct (run (init m0 t0) es) as [s' os] eqn:E. apply run_ok in E; [|apply BInv_init].
  destruct E as [_ Hall]. rewrite Forall_forall in Hall. exact (Hall _ Hin).
Qed.

Definition quiet (o : list output) : Prop := Forall (fun x => is_reply x = false /\ is_upward x = false) o.
Lemma quiet_app a b : quiet a -> quiet b -> quiet (a ++ b).
Proof. intros. apply Forall_app; auto. Qed.
Lemma quiet_replies o : quiet o -> replies o = [] /\ upward o = [].
Proof.
  induction 1 as [|x l [H1 H2] _ [IH1 IH2]]; [split; reflexivity|]. unfold replies, upward in *. cbn. rewrite H1, H2. auto.
Qed.
Lemma replies_app a b : replies (a ++ b) = replies a ++ replies b.
Proof. apply filter_app. Qed.
Lemma upward_app a b : upward (a ++ b) = upward a ++ upward b.
Proof. apply filter_app. Qed.

Lemma continue_loop_quiet bl s p s' o : _continue_backlog_loop s p bl = (s', o) ->
  (forall r m mon, In (r, m, mon) bl -> con_uni r m) -> quiet o /\ outgoing s' = outgoing s.
Proof.
  intros H Hbl. revert H. apply (continue_loop_rel (fun s o s' => quiet o /\ outgoing s' = outgoing s) con_uni); [| | | |exact Hbl].
  - intros x o1 x1 o2 x2 [Q1 G1] [Q2 G2]. split; [apply quiet_app; assumption|congruence].
  - intros. split; [constructor|reflexivity].
  - intros. split; [constructor|reflexivity].
  - intros x r m mon [Hc _] _. split; [|apply send_initially_out]. constructor; [|constructor]. cbn. rewrite Hc. auto.
Qed.

Lemma fail_request_quiet s q e : quiet (snd (fail_request s q e)).
Proof. unfold fail_request. destruct (find_req (outgoing s) q); cbn; repeat constructor. Qed.

Lemma remove_exchange_quiet s r m s' o : _remove_exchange s r m = (s', o) -> BInv s ->
  quiet o /\ (mtype m <> RST -> outgoing s' = outgoing s).
Proof.
  unfold _remove_exchange. intros H HB. destruct (aget zz_eqb (exch s) (rpeer r, mid m)) as [[mon h]|]; [|inv H; split; [constructor|reflexivity]].
  set (s1 := cancel_r _ h) in H.
  set (p := match mtype m with RST => run_monitor s1 mon | _ => (s1, []) end) in H.
  assert (Hp : quiet (snd p) /\ (mtype m <> RST -> outgoing (fst p) = outgoing s) /\ backlogs (fst p) = backlogs s).
  { subst p. destruct (mtype m); cbn; try (split; [constructor|split; reflexivity]).
    destruct mon as [q|]; cbn.
    - split; [apply fail_request_quiet|]. split; [congruence|]. unfold fail_request. destruct (find_req _ _); reflexivity.
    - split; [constructor|split; [congruence|reflexivity]]. }
  destruct p as [s2 o1]. cbn in Hp. destruct Hp as (Hq1 & Hg1 & Hb1).
  destruct (_continue_backlog s2 (rpeer r)) as [s3 o2] eqn:E. inv H. unfold _continue_backlog in E. rewrite Hb1 in E.
  destruct (aget Z.eqb (backlogs s) (rpeer r)) as [bl|] eqn:Eg.
  - apply continue_loop_quiet in E.
    + destruct E as [Hq2 Hg2]. split; [apply quiet_app; assumption|]. intros Hn. rewrite Hg2. auto.
    + apply aget_in in Eg as (k' & Hin & _). destruct HB as (H1 & _). eauto.
  - inv E. split; [apply quiet_app; [assumption|repeat constructor]|auto].
Qed.

Lemma tm_process_response_known s r m s' o b : tm_process_response s r m = (s', o, b) ->
  b = known s r m /\ replies o = [] /\ (b = false -> o = [] /\ s' = s) /\ (b = true -> exists q last, o = [Deliver q m last]).
Proof.
  unfold tm_process_response, known, amem. intros H.
  destruct (aget ok_eqb (outgoing s) (token m, Some (rpeer r))) as [[q ob]|] eqn:E1; cbn in H.
  - rewrite E1 in H. inv H. repeat split; try discriminate; eauto.
  - destruct (aget ok_eqb (outgoing s) (token m, None)) as [[q ob]|] eqn:E2; inv H; repeat split; try discriminate; eauto.
Qed.

Lemma ara_unicast r : is_multicast_locally r = false -> as_response_address r = r.
Proof. unfold as_response_address. intros ->. reflexivity. Qed.

Lemma BInv_register s r m : aget zz_eqb (recent s) (rpeer r, mid m) = None -> BInv s -> BInv (register s (rpeer r) (mid m)).
Proof. intros Hf HB. eapply dedup_ok; [apply dedup_fresh; exact Hf|exact HB]. Qed.
Lemma dispatch_fresh_request s r m s1 o1 : is_request (code m) = true -> mtype m = CON \/ mtype m = NON ->
  aget zz_eqb (recent s) (rpeer r, mid m) = None -> dispatch_message s r m = (s1, o1) ->
  _process_request (register s (rpeer r) (mid m)) r m = (s1, o1).
Proof.
  intros Hrq Ht Hf Hd. unfold dispatch_message in Hd. rewrite Hrq, (dedup_fresh _ _ _ Hf) in Hd.
  replace (code m =? EMPTY) with false in Hd by (unfold is_request, EMPTY in *; lia).
  destruct Ht as [Ht|Ht]; rewrite Ht in Hd; cbn [app] in Hd; destruct (_process_request _ r m); injection Hd as <- <-; reflexivity.
Qed.

Theorem reaction_table s r m s' o : BInv s -> fresh s r m -> dispatch_message s r m = (s', o) ->
  match table (mtype m) (classify (code m)) (known s r m) (is_multicast_locally r) with
  | Reset => replies o = [Send (as_response_address r) (empty_msg RST (mid m))]
  | EmptyAcknowledgement => replies o = [Send (as_response_address r) (empty_msg ACK (mid m))]
  | NoReply => replies o = []
  | ToHandler => exists s0, piggy s0 = piggy s /\ atimers s0 = atimers s /\ incoming s0 = incoming s /\ now s0 = now s /\
                            _process_request s0 r m = (s', o)
  end.
Proof.
  intros HB Hf H. pose proof H as Hd. unfold dispatch_message in H. unfold classify.
  (* an ACK / RST first ends its exchange, which sends no reply; what is sent to the peer's address is that one message *)
  assert (Hrm : forall s0 s2 o2 o3, _remove_exchange s0 r m = (s2, o2) -> BInv s0 -> replies (o2 ++ o3) = replies o3).
  { intros s0 s2 o2 o3 E HB0. apply remove_exchange_quiet in E as [Hq _]; auto. rewrite replies_app, (proj1 (quiet_replies _ Hq)). reflexivity. }
  assert (Hsend : forall x t x' o', _send_initially x (as_response_address r) (empty_msg t (mid m)) MonResp = (x', o') ->
            o' = [Send (as_response_address r) (empty_msg t (mid m))]).
  { intros x t x' o' E. pose proof (proj1 (send_initially_out x (as_response_address r) (empty_msg t (mid m)) MonResp)) as Ho. rewrite E in Ho. exact Ho. }
  destruct (is_request (code m)) eqn:Erq.
  - (* request codes: registered for deduplication first *)
    assert (Hc0 : (code m =? 0) = false) by (unfold is_request in Erq; lia). rewrite Hc0.
    destruct (mtype m) eqn:Et; cbn [table];
      try (exists (register s (rpeer r) (mid m)); do 4 (split; [reflexivity|]); apply dispatch_fresh_request; auto; fail);
      rewrite (dedup_fresh _ _ _ (Hf Erq)) in H; unfold EMPTY in H; rewrite Hc0 in H; destruct (_remove_exchange _ r m) as [s1 o1] eqn:E1; inv H;
      cbn [app]; rewrite (Hrm _ _ _ _ E1); auto using BInv_register.
  - unfold EMPTY in H. destruct (code m =? 0) eqn:Ec0; [|destruct (is_response (code m)) eqn:Ers].
    + (* empty messages *)
      destruct (mtype m) eqn:Et; cbn [table].
      * unfold _process_ping in H. dlet H s2 o2 E. inv H. rewrite (Hsend _ _ _ _ E). reflexivity.
      * inv H. reflexivity.
      * destruct (_remove_exchange s r m) as [s1 o1] eqn:E1. inv H. cbn [app]. rewrite (Hrm _ _ _ _ E1); auto.
      * destruct (_remove_exchange s r m) as [s1 o1] eqn:E1. inv H. cbn [app]. rewrite (Hrm _ _ _ _ E1); auto.
    + (* responses *)
      destruct (mtype m) eqn:Et; cbn [table].
      * destruct (tm_process_response s r m) as [[s1 o1] b] eqn:Ep. apply tm_process_response_known in Ep as (-> & Hr & Hfalse & _).
        destruct (known s r m).
        -- unfold _send_empty_ack in H. destruct (_send_initially s1 _ (empty_msg ACK (mid m)) MonResp) as [s2 o2] eqn:E. inv H.
           cbn [app]. rewrite replies_app, Hr, (Hsend _ _ _ _ E). reflexivity.
        -- destruct (Hfalse eq_refl) as [-> ->]. cbn [mtype_eqb andb] in H. destruct (is_multicast_locally r); cbn [negb] in H; [inv H; reflexivity|].
           destruct (_send_initially s _ (empty_msg RST (mid m)) MonResp) as [s2 o2] eqn:E. inv H. rewrite (Hsend _ _ _ _ E). reflexivity.
      * destruct (tm_process_response s r m) as [[s1 o1] b] eqn:Ep. apply tm_process_response_known in Ep as (-> & Hr & _).
        destruct (known s r m); cbn [mtype_eqb andb] in H; inv H; cbn; rewrite Hr; reflexivity.
      * destruct (_remove_exchange s r m) as [s0 o0] eqn:E0. destruct (tm_process_response s0 r m) as [[s1 o1] b] eqn:Ep.
        apply tm_process_response_known in Ep as (_ & Hr & _). destruct b; cbn [mtype_eqb andb] in H; inv H; cbn [app]; rewrite (Hrm _ _ _ _ E0); auto.
      * destruct (_remove_exchange s r m) as [s0 o0] eqn:E0. inv H. cbn [app]. rewrite (Hrm _ _ _ _ E0); auto.
    + (* reserved and signalling codes *)
      replace (table (mtype m) (if 224 <=? code m then CSignalling else CReserved) (known s r m) (is_multicast_locally r)) with NoReply
        by (destruct (224 <=? code m), (mtype m); reflexivity).
      destruct (mtype m) eqn:Et; try (inv H; reflexivity); destruct (_remove_exchange s r m) as [s0 o0] eqn:E0; inv H; cbn [app]; rewrite (Hrm _ _ _ _ E0); auto.
Qed.

(* the cells of the table without a reply are also silent towards the layers above: no handler is started or cancelled, nothing is
   delivered (for response codes a matched response is of course delivered, hence the exception) *)
Theorem misfit_no_upward s r m s' o : BInv s -> fresh s r m -> dispatch_message s r m = (s', o) ->
  table (mtype m) (classify (code m)) (known s r m) (is_multicast_locally r) = NoReply ->
  classify (code m) <> CResponse -> upward o = [].
Proof.
  intros HB Hf H Htab Hnr. unfold dispatch_message in H. unfold classify in Htab, Hnr.
  assert (Hrm : forall s0 s2 o2, _remove_exchange s0 r m = (s2, o2) -> BInv s0 -> upward ([] ++ o2 ++ []) = []).
  { intros s0 s2 o2 E HB0. apply remove_exchange_quiet in E; auto. rewrite app_nil_r. cbn. apply quiet_replies. exact (proj1 E). }
  destruct (is_request (code m)) eqn:Erq.
  - rewrite (dedup_fresh _ _ _ (Hf Erq)) in H. assert (Hc0 : (code m =? 0) = false) by (unfold is_request in Erq; lia).
    rewrite Hc0 in Htab. unfold EMPTY in H. rewrite Hc0 in H.
    destruct (mtype m) eqn:Et; cbn [table] in Htab; try discriminate;
      destruct (_remove_exchange _ r m) as [s1 o1] eqn:E1; inv H; apply (Hrm _ _ _ E1); auto using BInv_register.
  - unfold EMPTY in H. destruct (code m =? 0) eqn:Ec0.
    + destruct (mtype m) eqn:Et; cbn [table] in Htab; try discriminate; [inv H; reflexivity| |];
        destruct (_remove_exchange s r m) as [s1 o1] eqn:E1; inv H; apply (Hrm _ _ _ E1); exact HB.
    + destruct (is_response (code m)) eqn:Ers; [contradiction Hnr; reflexivity|].
      destruct (mtype m) eqn:Et; try (inv H; reflexivity); destruct (_remove_exchange s r m) as [s1 o1] eqn:E1; inv H; apply (Hrm _ _ _ E1); exact HB.
Qed.

(* the response is ready while the request is unacknowledged: it travels in the ACK, under the request's message ID; suppressed by
   No-Response, an empty ACK goes out instead, also for a request received on a multicast address *)
Lemma send_message_hit s r a mon rq pmid h :
  is_response (a_code a) = true -> aget pk_eqb (piggy s) (rpeer r, a_token a) = Some (pmid, h) ->
  exists s', send_message s r a mon rq =
               (s', [if no_response_of a then Send (as_response_address r) (empty_msg ACK pmid) else Send r (mk_wire a ACK pmid)], None) /\
             piggy s' = adel pk_eqb (piggy s) (rpeer r, a_token a) /\ atimers s' = cancel (atimers s) h.
Proof.
  intros Hr Hg. unfold send_message. rewrite Hr, Hg. destruct (no_response_of a); rewrite tail_ack; (eexists; split; [reflexivity|]);
    unfold _send_initially, _store_response_for_duplicates; cbn; destruct (amem _ _ _); cbn; auto.
Qed.
Lemma as_response_address_idempotent r : as_response_address (as_response_address r) = as_response_address r.
Proof. unfold as_response_address, is_multicast_locally. destruct ((rlocal r =? 2) || (100 <=? rlocal r)) eqn:E; cbn; [reflexivity|rewrite E; reflexivity]. Qed.

(* suppressed by No-Response and no acknowledgement pending: nothing is sent and nothing changes *)
Lemma send_message_suppressed_silent s r a mon rq :
  is_response (a_code a) = true -> aget pk_eqb (piggy s) (rpeer r, a_token a) = None -> no_response_of a = true ->
  send_message s r a mon rq = (s, [], None).
Proof. intros Hr Hg Hn. unfold send_message. rewrite Hr, Hg, Hn. reflexivity. Qed.

(* separate response (or a request): fresh message ID, the message's token; NON for a NON request or a multicast destination, else CON,
   and a CON may wait in the NSTART backlog *)
Lemma send_message_separate s r a mon rq s' o e :
  a_mtype a = None -> (is_response (a_code a) = true -> aget pk_eqb (piggy s) (rpeer r, a_token a) = None /\ no_response_of a = false) ->
  send_message s r a mon rq = (s', o, e) ->
  let t := select_mtype None r rq in
  e = None /\ next_mid s' = Z.land 65535 (1 + next_mid s) /\
  (o = [Send r (mk_wire a t (next_mid s))] \/ (o = [] /\ t = CON /\ amem Z.eqb (backlogs s) (rpeer r) = true)).
Proof.
  intros Hm Hresp H t.
  assert (Ht : send_message_tail s r (mk_wire a) None None mon rq = (s', o, e)).
  { unfold send_message in H. destruct (is_response (a_code a)); [|rewrite Hm in H; exact H].
    destruct (Hresp eq_refl) as [Hg Hn]. rewrite Hg, Hn, Hm in H. exact H. }
  clear H. unfold send_message_tail in Ht. fold t in Ht.
  assert (Hmc : mtype_eqb t CON && is_multicast r = false).
  { subst t. unfold select_mtype. destruct (is_multicast r); [reflexivity|]. apply andb_false_r. }
  rewrite Hmc in Ht. cbn [_next_message_id] in Ht. cbv zeta in Ht.
  set (s2 := set_next_mid s (Z.land 65535 (1 + next_mid s))) in *.
  destruct (mtype_eqb t CON && amem Z.eqb (backlogs s2) (rpeer r)) eqn:Eb.
  - injection Ht as <- <- <-. apply andb_true_iff in Eb as [E1 E2]. apply mtype_eqb_CON in E1. split; [reflexivity|]. split; [reflexivity|]. right. auto.
  - pose proof (send_initially_out s2 r (mk_wire a t (next_mid s)) mon) as (Ho & _ & _ & Hnm).
    destruct (_send_initially s2 r (mk_wire a t (next_mid s)) mon) as [s3 o3] eqn:E3. cbn [fst snd] in Ho, Hnm. injection Ht as <- <- <-.
    split; [reflexivity|]. split; [exact Hnm|left; exact Ho].
Qed.

Lemma con_by_default r : is_multicast r = false -> select_mtype None r (Some CON) = CON /\ select_mtype None r None = CON.
Proof. unfold select_mtype. intros ->. auto. Qed.
(* the slow resource: a handler with the next number is registered under (token, peer), replacing and cancelling a running one *)
Lemma tm_process_request_slow s r m s' o : path m = 0 -> 1 <= code m <= 7 -> tm_process_request s r m = (s', o) ->
  incoming s' = aset ik_eqb (adel ik_eqb (incoming s) (token m, rpeer r)) (token m, rpeer r) {| sv_id := next_srv s; sv_remote := r; sv_req := m |} /\
  next_srv s' = next_srv s + 1 /\ piggy s' = piggy s /\ atimers s' = atimers s /\
  In (StartHandler (next_srv s)) o /\ (forall x, In x o -> exists k, x = StartHandler k \/ x = CancelHandler k).
Proof.
  intros Hp Hc H. unfold tm_process_request in H. rewrite Hp in H. replace ((1 <=? code m) && (code m <=? 7)) with true in H by lia.
  cbn [negb orb Z.eqb] in H. cbv zeta in H.
  destruct (aget ik_eqb (incoming s) (token m, rpeer r)) as [sv|] eqn:Eg; injection H as <- <-; cbn [incoming next_srv piggy atimers set_next_srv set_incoming];
    rewrite ?(adel_none _ _ _ Eg); do 4 (split; [reflexivity|]); (split; [cbn; auto|]); intros x Hin; cbn in Hin.
  - destruct Hin as [<-|[<-|[]]]; eauto.
  - destruct Hin as [<-|[]]; eauto.
Qed.
(* the timer fires first: an empty ACK under the request's message ID, and the opportunity is gone (so it cannot be used twice) *)
Lemma on_timeout_acks s r tok pmid h : aget pk_eqb (piggy s) (rpeer r, tok) = Some (pmid, h) ->
  exists s', on_timeout s r tok = (s', [Send (as_response_address r) (empty_msg ACK pmid)]) /\
             aget pk_eqb (piggy s') (rpeer r, tok) = None.
Proof.
  intros Hg. unfold on_timeout. rewrite Hg. unfold _send_empty_ack.
  pose proof (send_initially_out (set_piggy s (adel pk_eqb (piggy s) (rpeer r, tok))) (as_response_address r) (empty_msg ACK pmid) MonResp) as (Ho & _ & Hp & _).
  destruct (_send_initially (set_piggy s (adel pk_eqb (piggy s) (rpeer r, tok))) (as_response_address r) (empty_msg ACK pmid) MonResp) as [s2 o2].
  cbn [fst snd] in Ho, Hp. subst o2. eexists. split; [reflexivity|]. rewrite Hp. cbn [piggy set_piggy]. apply (aget_adel_same _ pk_ok).
Qed.

Definition is_ack_for (p M : Z) (o : output) : bool :=
  match o with Send r m => mtype_eqb (mtype m) ACK && (rpeer r =? p) && (mid m =? M) | _ => false end.
Definition acks (p M : Z) (o : list output) : nat := length (filter (is_ack_for p M) o).
Lemma handler_outputs_no_ack p M o : (forall x, In x o -> exists k, x = StartHandler k \/ x = CancelHandler k) -> acks p M o = 0%nat.
Proof.
  intros Hout. unfold acks. induction o as [|x l IH]; [reflexivity|]. cbn.
  destruct (Hout x (or_introl eq_refl)) as (k & [->| ->]); cbn; apply IH; intros; apply Hout; right; assumption.
Qed.
Definition sends (o : list output) : list (remote * wire) :=
  flat_map (fun x => match x with Send r m => [(r, m)] | _ => [] end) o.
Definition trace (es : list event) : list output := outputs_of (snd (run (init 0 0) es)).
Definition final_now (es : list event) : Z := now (fst (run (init 0 0) es)).
Definition creq (t : mtype_t) (md : Z) (tok : list Z) (pth : Z) (n : option Z) : wire :=
  {| mtype := t; code := 1; mid := md; token := tok; nr := n; obs := None; path := pth; payload := [] |}.
Definition uni (p : Z) : remote := {| rpeer := p; rlocal := 1 |}.
Definition mc (p : Z) : remote := {| rpeer := p; rlocal := 2 |}.
