(* C12 — the replay window as the set [seen], and the single message; the histories are in Proofs/C12b.v. *)
From Verif Require Import Lib.Py Lib.Tactics Gen.oscore_replay Model.C12.
Open Scope Z_scope.

(* The translated code in closed form: [is_valid_eq] and [strike_out_eq] are the only lemmas that look inside Gen. *)
Definition is_valid_b (w : rw) (n : Z) : bool :=
  if n <? rw_index w then false
  else if n >=? rw_index w + rw_size w then true
  else Z.land (Z.shiftr (rw_bitfield w) (n - rw_index w)) 1 =? 0.
Lemma is_valid_eq w n : is_valid w n = Ok (is_valid_b w n).
Proof. unfold is_valid, is_valid_b. destruct (n <? rw_index w); [reflexivity|].
  destruct (n >=? rw_index w + rw_size w); reflexivity. Qed.

Definition slide (w : rw) (n : Z) : rw :=
  let ov := n - (rw_index w + rw_size w - 1) in
  if ov >? 0 then {| rw_size := rw_size w; rw_index := rw_index w + ov; rw_bitfield := Z.shiftr (rw_bitfield w) ov |} else w.
Definition mark (w : rw) (n : Z) : rw :=
  {| rw_size := rw_size w; rw_index := rw_index w; rw_bitfield := Z.lor (rw_bitfield w) (Z.shiftl 1 (n - rw_index w)) |}.
Definition strike (w : rw) (n : Z) : rw := mark (slide w n) n.
Lemma strike_out_eq w n :
  strike_out w n =
  if negb (is_valid_b w n) then Raise ValueError
  else if is_valid_b (slide w n) n then Ok (strike w n, tt) else Raise AssertionError.
Proof.
  unfold strike_out. rewrite is_valid_eq. cbn [bind].
  destruct (negb (is_valid_b w n)); [reflexivity|].
  unfold strike, slide. cbv zeta.
  destruct (n - (rw_index w + rw_size w - 1) >? 0); cbn [bind rw_size rw_index rw_bitfield];
    rewrite is_valid_eq; cbn [bind];
    match goal with |- context [massert ?b] => destruct b end; reflexivity.
Qed.

Definition Inv (w : rw) : Prop := 0 < rw_size w /\ 0 <= rw_index w /\ 0 <= rw_bitfield w < 2 ^ rw_size w.

Lemma land1_testbit a k : (Z.land (Z.shiftr a k) 1 =? 0) = negb (Z.testbit a k).
Proof.
  rewrite Z.testbit_odd. change 1 with (Z.ones 1). rewrite Z.land_ones by lia.
  change (2^1) with 2. rewrite Zmod_odd. destruct (Z.odd (Z.shiftr a k)); reflexivity.
Qed.
Lemma testbit_high a size k : 0 <= a < 2^size -> 0 < size -> size <= k -> Z.testbit a k = false.
Proof. intros Ha Hs Hk. rewrite <- (Z.mod_small a (2^size)) by exact Ha. apply Z.mod_pow2_bits_high. lia. Qed.
Lemma lor_bound a b s : 0 < s -> 0 <= a < 2^s -> 0 <= b < 2^s -> 0 <= Z.lor a b < 2^s.
Proof.
  intros Hs Ha Hb. split. { apply Z.lor_nonneg. lia. }
  destruct (Z.eq_dec (Z.lor a b) 0) as [->|Hnz]; [apply Z.pow_pos_nonneg; lia|].
  apply Z.log2_lt_pow2. { pose proof (proj2 (Z.lor_nonneg a b)). lia. }
  rewrite Z.log2_lor by lia. apply Z.max_lub_lt.
  - destruct (Z.eq_dec a 0) as [->|]; [cbn; lia|]. apply Z.log2_lt_pow2; lia.
  - destruct (Z.eq_dec b 0) as [->|]; [cbn; lia|]. apply Z.log2_lt_pow2; lia.
Qed.
Lemma shiftr_bound a s k : 0 <= k -> 0 <= a < 2^s -> 0 <= Z.shiftr a k < 2^s.
Proof.
  intros Hk [Ha Hb]. rewrite Z.shiftr_div_pow2 by lia.
  assert (0 < 2^k) by (apply Z.pow_pos_nonneg; lia).
  split. apply Z.div_pos; lia.
  apply Z.le_lt_trans with a; [|lia]. apply Z.div_le_upper_bound; [lia|]. nia.
Qed.

Lemma is_valid_b_spec w n : Inv w -> 0 <= n -> is_valid_b w n = negb (seen w n).
Proof.
  intros (Hs & Hi & Hb) Hn. unfold is_valid_b, seen.
  destruct (n <? rw_index w) eqn:E1; [reflexivity|]. cbn [orb].
  destruct (n >=? rw_index w + rw_size w) eqn:E2; [|apply land1_testbit].
  rewrite (testbit_high (rw_bitfield w) (rw_size w)) by lia. reflexivity.
Qed.
Theorem is_valid_spec w n : Inv w -> 0 <= n -> is_valid w n = Ok (negb (seen w n)).
Proof. intros HI Hn. rewrite is_valid_eq, is_valid_b_spec by assumption. reflexivity. Qed.

Lemma seen_slide w n m : seen (slide w n) m = (m <? rw_index (slide w n)) || seen w m.
Proof.
  unfold slide. set (ov := n - (rw_index w + rw_size w - 1)).
  destruct (ov >? 0) eqn:Eo; unfold seen; cbn [rw_index rw_bitfield].
  - destruct (m <? rw_index w + ov) eqn:E; [reflexivity|]. replace (m <? rw_index w) with false by lia. cbn [orb].
    rewrite Z.shiftr_spec by lia. f_equal. lia.
  - destruct (m <? rw_index w); reflexivity.
Qed.
Lemma seen_mark w n m : rw_index w <= n -> seen (mark w n) m = seen w m || (m =? n).
Proof.
  intros Hn. unfold seen, mark; cbn [rw_index rw_bitfield].
  rewrite Z.lor_spec, Z.shiftl_1_l, Z.pow2_bits_eqb, orb_assoc by lia. f_equal. lia.
Qed.

Lemma slide_inv w n : Inv w ->
  Inv (slide w n) /\ rw_size (slide w n) = rw_size w /\ rw_index w <= rw_index (slide w n) /\
  n < rw_index (slide w n) + rw_size w /\ (rw_index w <= n -> rw_index (slide w n) <= n).
Proof.
  intros (Hs & Hi & Hb). unfold slide. set (ov := n - (rw_index w + rw_size w - 1)).
  destruct (ov >? 0) eqn:Eo; unfold Inv; cbn [rw_size rw_index rw_bitfield]; [|lia].
  pose proof (shiftr_bound (rw_bitfield w) (rw_size w) ov ltac:(lia) Hb). lia.
Qed.
Lemma mark_inv w n : Inv w -> rw_index w <= n < rw_index w + rw_size w -> Inv (mark w n).
Proof.
  intros (Hs & Hi & Hb) Hn. unfold Inv, mark; cbn [rw_size rw_index rw_bitfield].
  split; [exact Hs|]. split; [exact Hi|]. apply lor_bound; [exact Hs|exact Hb|]. rewrite Z.shiftl_1_l.
  split; [apply Z.pow_nonneg; lia|apply Z.pow_lt_mono_r; lia].
Qed.

Lemma strike_spec w n : Inv w -> 0 <= n -> seen w n = false ->
  strike_out w n = Ok (strike w n, tt) /\ Inv (strike w n) /\ rw_size (strike w n) = rw_size w /\
  rw_index w <= rw_index (strike w n) <= n /\
  forall m, seen (strike w n) m = (m <? rw_index (strike w n)) || seen w m || (m =? n).
Proof.
  intros HI Hn Hs.
  assert (Hge : rw_index w <= n) by (unfold seen in Hs; apply orb_false_elim in Hs; lia).
  destruct (slide_inv w n HI) as (HI1 & Hsz & Hle & Hlt & Hge1). specialize (Hge1 Hge).
  assert (Hs1 : seen (slide w n) n = false) by (rewrite seen_slide, Hs; lia).
  split. { rewrite strike_out_eq, !is_valid_b_spec, Hs, Hs1 by assumption. reflexivity. }
  split. { apply mark_inv; [exact HI1|lia]. }
  split; [exact Hsz|]. split; [exact (conj Hle Hge1)|].
  intros m. unfold strike. rewrite seen_mark, seen_slide by exact Hge1. reflexivity.
Qed.

(* strike_out marks exactly [n]; numbers below the (possibly advanced) index are forgotten as
   "seen"; nothing that was seen becomes valid again; the assert inside never fires. *)
Theorem strike_out_spec w n : Inv w -> 0 <= n ->
  (seen w n = true /\ strike_out w n = Raise ValueError) \/
  (seen w n = false /\ exists w', strike_out w n = Ok (w', tt) /\
     Inv w' /\ rw_size w' = rw_size w /\ rw_index w <= rw_index w' /\ seen w' n = true /\
     (forall m, seen w m = true -> seen w' m = true) /\
     (forall m, m <> n -> rw_index w' <= m -> seen w' m = seen w m)).
Proof.
  intros HI Hn. destruct (seen w n) eqn:Es; [left|right]; (split; [reflexivity|]).
  { rewrite strike_out_eq, is_valid_b_spec, Es by assumption. reflexivity. }
  destruct (strike_spec w n HI Hn Es) as (He & HI' & Hsz & (Hle & _) & Hseen).
  exists (strike w n). do 4 (split; [assumption|]).
  split; [rewrite Hseen, Z.eqb_refl; apply orb_true_r|]. split; intros m Hm; rewrite Hseen.
  - rewrite Hm, orb_true_r. reflexivity.
  - intros Hge. replace (m <? rw_index (strike w n)) with false by lia. replace (m =? n) with false by lia. apply orb_false_r.
Qed.

Lemma wstep_inv w o : Inv w -> (match o with IsValid n | StrikeOut n => 0 <= n end) ->
  Inv (fst (wstep w o)) /\ rw_size (fst (wstep w o)) = rw_size w /\
  (forall m, seen w m = true -> seen (fst (wstep w o)) m = true).
Proof.
  intros HI Hn. destruct o as [n|n]; cbn [wstep].
  - rewrite is_valid_eq. cbn. auto.
  - destruct (strike_out_spec w n HI Hn) as [[_ ->]|[_ (w' & -> & HI' & Hsz & _ & _ & Hm & _)]]; cbn; auto.
Qed.

Definition CtxInv (c : ctx) : Prop :=
  0 < size c /\ match window c with Some w => Inv w /\ rw_size w = size c | None => True end.
Definition cseen (c : ctx) (n : Z) : Prop :=
  match window c with Some w => seen w n = true | None => False end.

Lemma fresh_inv sz n : 0 < sz -> 0 <= n -> Inv (initialize_from_freshlyseen sz n).
Proof. intros Hs Hn. unfold Inv; cbn. repeat split; try lia. apply (Z.pow_lt_mono_r 2 0 sz); lia. Qed.
Lemma fresh_seen sz n m : seen (initialize_from_freshlyseen sz n) m = (m <=? n).
Proof.
  unfold seen; cbn [initialize_from_freshlyseen rw_index rw_bitfield].
  change 1 with (2^0). rewrite Z.pow2_bits_eqb by lia. lia.
Qed.

Definition set_window (c : ctx) (win : option rw) : ctx :=
  {| size := size c; window := win; echo_recovery := echo_recovery c |}.
(* unprotect_request in terms of [seen]; the context changes only on Accept *)
Definition unprotect_spec (c : ctx) (r : preq) : ctx * outcome :=
  let n := seqno r in
  let decrypted (x : ctx * outcome) := if authentic r then x else (c, RejectInvalid) in
  match window c with
  | Some w =>
      if seen w n then match echo_recovery c with None => (c, RejectReplay) | Some _ => decrypted (c, RejectReplay) end
      else decrypted (set_window c (Some (strike w n)), Accept)
  | None =>
      match echo_recovery c with
      | None => (c, RejectReplay)
      | Some e => decrypted (if opt_eqb (echo r) (Some e)
                             then (set_window c (Some (initialize_from_freshlyseen (size c) n)), Accept)
                             else (c, RejectEcho))
      end
  end.
Lemma unprotect_eq c r : CtxInv c -> 0 <= seqno r -> unprotect_request c r = unprotect_spec c r.
Proof.
  destruct c as [sz win er]. intros (Hs & Hw) Hn. unfold unprotect_request, unprotect_spec, set_window. cbn [size window echo_recovery] in *.
  destruct win as [w|].
  - destruct Hw as (HIw & Hsz). rewrite is_valid_eq. cbn [bind].
    rewrite (is_valid_b_spec w _ HIw Hn), negb_involutive.
    destruct (seen w (seqno r)) eqn:Es; cbn [andb negb].
    + destruct er; [|reflexivity]. destruct (authentic r); reflexivity.
    + destruct (authentic r); cbn [negb]; [|reflexivity].
      rewrite (proj1 (strike_spec w _ HIw Hn Es)). reflexivity.
  - cbn [bind andb]. destruct er as [e|]; [|reflexivity].
    destruct (authentic r); cbn [negb andb]; [|reflexivity].
    destruct (opt_eqb (echo r) (Some e)); reflexivity.
Qed.

(* true of each leaf, and [if] keeps it *)
Lemma unprotect_request_static c r :
  size (fst (unprotect_request c r)) = size c /\ echo_recovery (fst (unprotect_request c r)) = echo_recovery c.
Proof.
  set (keeps := fun x : ctx * outcome => size (fst x) = size c /\ echo_recovery (fst x) = echo_recovery c).
  assert (Hif : forall (b : bool) x y, keeps x -> keeps y -> keeps (if b then x else y)) by (intros []; auto).
  change (keeps (unprotect_request c r)). unfold unprotect_request.
  destruct (window c) as [w|]; [rewrite is_valid_eq|]; cbn [bind]; do 2 (apply Hif; [split; reflexivity|]).
  - destruct (negb (negb _)); [destruct (strike_out w (seqno r)) as [[w' []]|]|]; cbn [bind]; repeat apply Hif; split; reflexivity.
  - repeat apply Hif; split; reflexivity.
Qed.

Lemma opt_eqb_eq a b : opt_eqb a b = true -> a = b.
Proof. destruct a, b; cbn; try discriminate; auto. intros H. apply Z.eqb_eq in H. congruence. Qed.
Lemma accept_dec (o : outcome) : {o = Accept} + {o <> Accept}.
Proof. destruct o; (left; reflexivity) || (right; discriminate). Qed.

Lemma unprotect_reject c r : CtxInv c -> 0 <= seqno r ->
  snd (unprotect_request c r) <> Accept -> fst (unprotect_request c r) = c.
Proof.
  intros HI Hn. rewrite (unprotect_eq c r HI Hn). unfold unprotect_spec.
  destruct (window c); [destruct (seen _ _)|]; destruct (echo_recovery c); try destruct (authentic r);
    try destruct (opt_eqb _ _); cbn [fst snd]; congruence.
Qed.
Lemma unprotect_accept c r : CtxInv c -> 0 <= seqno r -> snd (unprotect_request c r) = Accept ->
  authentic r = true /\ exists w', fst (unprotect_request c r) = set_window c (Some w') /\ Inv w' /\ rw_size w' = size c /\
    match window c with
    | Some w => seen w (seqno r) = false /\ forall m, seen w' m = (m <? rw_index w') || seen w m || (m =? seqno r)
    | None => echo r = echo_recovery c /\ echo_recovery c <> None /\ forall m, seen w' m = (m <=? seqno r)
    end.
Proof.
  intros HI Hn. rewrite (unprotect_eq c r HI Hn). destruct HI as (Hs & Hw). unfold unprotect_spec.
  destruct (window c) as [w|].
  - destruct Hw as (HIw & Hsz). destruct (seen w (seqno r)) eqn:Es.
    { destruct (echo_recovery c); [destruct (authentic r)|]; cbn; discriminate. }
    destruct (authentic r); cbn [fst snd]; [intros _|discriminate].
    destruct (strike_spec w _ HIw Hn Es) as (_ & HI' & Hsz' & _ & Hseen).
    split; [reflexivity|]. exists (strike w (seqno r)). split; [reflexivity|]. split; [exact HI'|]. split; [congruence|auto].
  - destruct (echo_recovery c) as [e|]; [|cbn; discriminate]. destruct (authentic r); [|cbn; discriminate].
    destruct (opt_eqb (echo r) (Some e)) eqn:Eq; cbn [fst snd]; [intros _|discriminate].
    split; [reflexivity|]. eexists. split; [reflexivity|]. split; [apply fresh_inv; assumption|]. split; [reflexivity|].
    split; [apply opt_eqb_eq, Eq|]. split; [discriminate|apply fresh_seen].
Qed.
(* is_valid never raises on the path and the assert inside strike_out never fires *)
Lemma unprotect_no_internal_error c r e : CtxInv c -> 0 <= seqno r -> snd (unprotect_request c r) <> InternalError e.
Proof.
  intros HI Hn. rewrite (unprotect_eq c r HI Hn). unfold unprotect_spec.
  destruct (window c); [destruct (seen _ _)|]; destruct (echo_recovery c); try destruct (authentic r);
    try destruct (opt_eqb _ _); cbn [snd]; discriminate.
Qed.

Lemma unseen_outcome c w r : CtxInv c -> window c = Some w -> 0 <= seqno r -> seen w (seqno r) = false ->
  snd (unprotect_request c r) = if authentic r then Accept else RejectInvalid.
Proof.
  intros HI Ew Hn Hns. rewrite (unprotect_eq c r HI Hn). unfold unprotect_spec. rewrite Ew, Hns. destruct (authentic r); reflexivity.
Qed.

Lemma unprotect_response_eq c own auth :
  unprotect_response c own auth =
  (match window c, echo_recovery c, own with
   | None, Some _, Some n => if auth then set_window c (Some (initialize_from_freshlyseen (size c) n)) else c
   | _, _, _ => c
   end, auth).
Proof. unfold unprotect_response, set_window. destruct auth, (window c), (echo_recovery c), own; reflexivity. Qed.

Lemma can_reuse_nonce_spec c r : CtxInv c -> 0 <= seqno r ->
  can_reuse_nonce c r = match window c with Some w => negb (seen w (seqno r)) | None => false end.
Proof.
  intros (Hs & Hw) Hn. unfold can_reuse_nonce. destruct (window c) as [w|]; [|reflexivity].
  destruct Hw as (HIw & _). rewrite (is_valid_spec w _ HIw Hn). reflexivity.
Qed.

(* the flag is set exactly for requests whose number passed the replay check before decryption;
   in particular never for an Echo-recovered request and never with ReplayErrorWithEcho *)
Theorem reuse_only_when_fresh c r o : CtxInv c -> 0 <= seqno r ->
  snd (pstep c (PReq r)) = OReq o true ->
  o = Accept /\ authentic r = true /\ exists w, window c = Some w /\ seen w (seqno r) = false.
Proof.
  intros HI Hn. cbn [pstep]. rewrite (can_reuse_nonce_spec c r HI Hn). destruct (window c) as [w|] eqn:Ew.
  - pose proof (unseen_outcome c w r HI Ew Hn) as Hu. destruct (unprotect_request c r) as [c' o0]. cbn [snd] in *.
    intros [= -> Hb]. apply andb_prop in Hb as [Hh Hc]. apply negb_true_iff in Hc. specialize (Hu Hc). subst o.
    destruct (authentic r); [|discriminate Hh]. split; [reflexivity|]. split; [reflexivity|]. exists w. auto.
  - destruct (unprotect_request c r) as [c' o0]. cbn [snd]. rewrite andb_false_r. discriminate.
Qed.

Lemma pstep_inv c m : CtxInv c -> pwf m ->
  let '(c', o) := pstep c m in
  CtxInv c' /\ size c' = size c /\ echo_recovery c' = echo_recovery c /\
  (forall k, cseen c k -> cseen c' k) /\
  (pauth m = false -> c' = c) /\
  match m, o with
  | PReq r, OReq x reuse =>
      (x = Accept -> ~ cseen c (seqno r) /\ cseen c' (seqno r)) /\
      (reuse = true -> x = Accept /\ exists w, window c = Some w /\ seen w (seqno r) = false)
  | _, _ => True
  end.
Proof.
  intros HI Hwf. destruct m as [r|own auth]; cbn [pstep pauth].
  - cbn in Hwf. pose proof (unprotect_accept c r HI Hwf) as Ha. pose proof (unprotect_reject c r HI Hwf) as Hr.
    pose proof (reuse_only_when_fresh c r) as Hre. cbn [pstep] in Hre.
    destruct (unprotect_request c r) as [c' o]. cbn [fst snd] in *.
    assert (Hre' : hands_on_request_id o && can_reuse_nonce c r = true -> o = Accept /\ exists w, window c = Some w /\ seen w (seqno r) = false).
    { intros Hb. destruct (Hre o HI Hwf) as (Ho & _ & Hw); [rewrite Hb; reflexivity|exact (conj Ho Hw)]. }
    clear Hre. destruct (accept_dec o) as [->|Hne].
    + destruct (Ha eq_refl) as (Hauth & w' & -> & HI' & Hsz' & Hcase). clear Ha Hr.
      split; [exact (conj (proj1 HI) (conj HI' Hsz'))|]. split; [reflexivity|]. split; [reflexivity|].
      unfold cseen; cbn [window set_window]. destruct (window c) as [w|].
      * destruct Hcase as (Hns & Hseen). split; [intros m Hm; rewrite Hseen, Hm, orb_true_r; reflexivity|]. split; [congruence|].
        split; [|exact Hre']. intros _. split; [congruence|rewrite Hseen, Z.eqb_refl; apply orb_true_r].
      * destruct Hcase as (_ & _ & Hseen). split; [contradiction|]. split; [congruence|].
        split; [|exact Hre']. intros _. split; [tauto|rewrite Hseen; lia].
    + rewrite (Hr Hne). split; [exact HI|]. split; [reflexivity|]. split; [reflexivity|]. split; [auto|]. split; [auto|].
      split; [contradiction|exact Hre'].
  - rewrite unprotect_response_eq.
    destruct (window c) eqn:Ew, (echo_recovery c) eqn:Ee, own as [n|], auth; cbv beta iota zeta;
      try (rewrite ?Ee; exact (conj HI (conj eq_refl (conj eq_refl (conj (fun _ H => H) (conj (fun _ => eq_refl) I)))))).
    split; [exact (conj (proj1 HI) (conj (fresh_inv _ n (proj1 HI) Hwf) eq_refl))|]. split; [reflexivity|]. split; [exact Ee|].
    split; [unfold cseen; rewrite Ew; contradiction|]. split; [discriminate|exact I].
Qed.

Theorem accept_fresh_has_reuse c w r : CtxInv c -> window c = Some w -> 0 <= seqno r -> authentic r = true ->
  seen w (seqno r) = false -> snd (pstep c (PReq r)) = OReq Accept true.
Proof.
  intros HI Ew Hn Ha Hns. cbn [pstep].
  pose proof (unseen_outcome c w r HI Ew Hn Hns) as Hacc. rewrite Ha in Hacc.
  rewrite (can_reuse_nonce_spec c r HI Hn), Ew, Hns.
  destruct (unprotect_request c r) as [c' o]. cbn [snd] in *. subst o. reflexivity.
Qed.

