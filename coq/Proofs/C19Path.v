(* C19 — proofs about the path algebra (posixpath.join / PurePosixPath model) and about the translated
   FileServer.request_to_localpath (Gen/fileserver.v): whatever the Uri-Path components are, an accepted request is
   mapped to root's parts followed by the non-empty components, none of which is "..". *)
From Verif Require Import Lib.Py Lib.PyLemmas Lib.Tactics Model.C19Path Gen.fileserver.
Open Scope Z_scope.

Lemma str_eqb_eq a b : str_eqb a b = true <-> a = b.
Proof. apply list_eqb_Z_eq. Qed.
Lemma str_eqb_refl a : str_eqb a a = true.
Proof. apply str_eqb_eq. reflexivity. Qed.
Lemma str_eqb_neq a b : str_eqb a b = false <-> a <> b.
Proof. split.
  - intros H E. apply str_eqb_eq in E. congruence.
  - intros H. destruct (str_eqb a b) eqn:E; [|reflexivity]. apply str_eqb_eq in E. contradiction. Qed.

Definition noslash (s : list Z) : Prop := Forall (fun c => c <> SEP) s.

Lemma existsb_false_iff {A} (f : A -> bool) l : existsb f l = false <-> Forall (fun a => f a = false) l.
Proof. induction l as [|a l IH]; cbn [existsb]; [split; [constructor|reflexivity]|]. rewrite orb_false_iff, Forall_cons_iff, IH. reflexivity. Qed.

Lemma str_contains_sep s : str_contains [SEP] s = existsb (Z.eqb SEP) s.
Proof. induction s as [|c r IH]; [reflexivity|]. cbn [str_contains str_prefix existsb]. rewrite IH.
  destruct (SEP =? c); reflexivity. Qed.
Lemma str_contains_sep_iff s : str_contains [47] s = false <-> noslash s.
Proof. change [47] with [SEP]. rewrite str_contains_sep, existsb_false_iff. split; apply Forall_impl; intros c; lia. Qed.

Lemma noslash_startswith b : noslash b -> startswith_sep b = false.
Proof. intros H. destruct b as [|c r]; [reflexivity|]. cbn. inversion H; subst. lia. Qed.

Lemma split_sep_acc_app cur x y :
  split_sep_acc cur (x ++ SEP :: y) = split_sep_acc cur x ++ split_sep_acc [] y.
Proof. revert cur; induction x as [|c x IH]; intros cur; cbn [app split_sep_acc].
  - rewrite Z.eqb_refl. reflexivity.
  - destruct (c =? SEP); [rewrite IH; reflexivity | apply IH]. Qed.
Lemma split_sep_acc_noslash cur s : noslash s -> split_sep_acc cur s = [cur ++ s].
Proof. revert cur; induction s as [|c r IH]; intros cur H; cbn [split_sep_acc].
  - rewrite app_nil_r. reflexivity.
  - inversion H; subst. replace (c =? SEP) with false by lia. rewrite IH by assumption. rewrite <- app_assoc. reflexivity. Qed.

(* the tail of a parsed path: non-empty, non-"." pieces between slashes *)
Definition tail (s : list Z) : list (list Z) := filter keep_part (split_sep s).
Lemma tail_nil : tail [] = []. Proof. reflexivity. Qed.
Lemma tail_cons_sep s : tail (SEP :: s) = tail s.
Proof. unfold tail, split_sep. cbn [split_sep_acc]. rewrite Z.eqb_refl. reflexivity. Qed.
Lemma tail_app_sep x y : tail (x ++ SEP :: y) = tail x ++ tail y.
Proof. unfold tail, split_sep. rewrite split_sep_acc_app, filter_app. reflexivity. Qed.
Lemma tail_noslash b : noslash b -> tail b = filter keep_part [b].
Proof. intros H. unfold tail, split_sep. rewrite split_sep_acc_noslash by assumption. reflexivity. Qed.

Lemma parse_path_parts s : parts (parse_path s) = tail s.
Proof.
  unfold parse_path. destruct s as [|c1 r1]; [reflexivity|]. cbn [str_empty splitroot].
  destruct (c1 =? SEP) eqn:E1; [|reflexivity]. apply Z.eqb_eq in E1. subst c1. rewrite tail_cons_sep.
  destruct r1 as [|c2 r2]; [reflexivity|].
  destruct (c2 =? SEP) eqn:E2; [|reflexivity]. apply Z.eqb_eq in E2. subst c2.
  destruct r2 as [|c3 r3]; [reflexivity|].
  destruct (c3 =? SEP) eqn:E3; cbn [parts]; [reflexivity|]. rewrite tail_cons_sep. reflexivity. Qed.

Lemma endswith_sep_inv path : endswith_sep path = true -> exists x, path = x ++ [SEP].
Proof. unfold endswith_sep. destruct path as [|c r] eqn:E; [discriminate|]. rewrite <- E. intros H.
  assert (path <> []) as Hn by (rewrite E; discriminate).
  exists (removelast path). rewrite (app_removelast_last 0 Hn) at 1. apply Z.eqb_eq in H. rewrite H. reflexivity. Qed.

Lemma posix_join_app path a b : posix_join path (a ++ b) = posix_join (posix_join path a) b.
Proof. revert path; induction a as [|x a IH]; intros path; [reflexivity|]. cbn [app posix_join].
  destruct (startswith_sep x); [apply IH|]. destruct (str_empty path || endswith_sep path); apply IH. Qed.

(* one slash-free segment is appended, after a slash unless the path is empty or ends in one *)
Lemma posix_join_step path b r : noslash b ->
  exists suf, posix_join path (b :: r) = posix_join (path ++ suf) r
    /\ tail (path ++ suf) = tail path ++ filter keep_part [b]
    /\ (startswith_sep path = false -> startswith_sep (path ++ suf) = false).
Proof.
  intros Hb. cbn [posix_join]. rewrite (noslash_startswith b Hb). destruct (str_empty path) eqn:Ee; cbn [orb].
  - destruct path; [|discriminate]. exists b. cbn [app]. rewrite (tail_noslash b Hb), tail_nil.
    repeat split. intros _. apply noslash_startswith. exact Hb.
  - assert (forall suf, startswith_sep path = false -> startswith_sep (path ++ suf) = false) as Hs
      by (destruct path; [discriminate|auto]).
    destruct (endswith_sep path) eqn:Es.
    + exists b. split; [reflexivity|]. split; [|apply Hs].
      apply endswith_sep_inv in Es as [x ->]. rewrite <- app_assoc. cbn [app].
      rewrite !tail_app_sep, tail_nil, app_nil_r, (tail_noslash b Hb). reflexivity.
    + exists (SEP :: b). split; [reflexivity|]. split; [|apply Hs].
      rewrite tail_app_sep, (tail_noslash b Hb). reflexivity.
Qed.
(* so joining slash-free components keeps the beginning of the string (hence its root) and whether it is relative, and
   appends the components that are neither empty nor "." to the tail *)
Lemma posix_join_noslash comps : Forall noslash comps -> forall path, exists suf,
  posix_join path comps = path ++ suf
  /\ tail (path ++ suf) = tail path ++ filter keep_part comps
  /\ (startswith_sep path = false -> startswith_sep (path ++ suf) = false).
Proof. induction 1 as [|b r Hb Hr IH]; intros path.
  - exists []. cbn [posix_join filter]. rewrite !app_nil_r. auto.
  - destruct (posix_join_step path b r Hb) as (s1 & -> & Ht1 & Hs1). destruct (IH (path ++ s1)) as (s2 & -> & Ht2 & Hs2).
    exists (s1 ++ s2). rewrite app_assoc. split; [reflexivity|]. split; [|auto].
    rewrite Ht2, Ht1, <- app_assoc, <- filter_app. reflexivity. Qed.

Definition root_str (root : list (list Z)) : list Z := match root with [] => [] | a :: r => posix_join a r end.
(* the root directory is given either as an absolute path ("/" followed by something that is not a slash) or as a relative
   path (anything that does not start with a slash: ".", "sub", "./sub/" — the CLI default is ".") *)
Definition root_abs (root : list (list Z)) : Prop := exists c rest, root_str root = SEP :: c :: rest /\ c <> SEP.
Definition root_rel (root : list (list Z)) : Prop := startswith_sep (root_str root) = false.
Definition root_ok (root : list (list Z)) : Prop := root <> [] /\ (root_abs root \/ root_rel root).

Lemma load_parts_joinpath root comps : root <> [] ->
  load_parts (joinpath root comps) = parse_path (posix_join (root_str root) comps).
Proof. intros H. destruct root as [|a r]; [contradiction|]. unfold joinpath, load_parts, root_str. cbn [app].
  rewrite posix_join_app. reflexivity. Qed.
Lemma load_parts_root root : root <> [] -> load_parts root = parse_path (root_str root).
Proof. intros H. destruct root; [contradiction|reflexivity]. Qed.

Lemma anchor_abs c rest suf : c <> SEP -> anchor (parse_path ((SEP :: c :: rest) ++ suf)) = 1.
Proof. intros H. unfold parse_path. cbn [app str_empty splitroot]. rewrite Z.eqb_refl. replace (c =? SEP) with false by lia. reflexivity. Qed.

Lemma anchor_rel s : startswith_sep s = false -> anchor (parse_path s) = 0.
Proof. intros H. unfold parse_path. destruct s as [|c r]; [reflexivity|]. cbn [str_empty splitroot]. cbn in H. rewrite H. reflexivity. Qed.

Lemma strip_prefix_app pre rest : strip_prefix pre (pre ++ rest) = Some rest.
Proof. induction pre as [|a pre IH]; [reflexivity|]. cbn. rewrite str_eqb_refl. exact IH. Qed.
Lemma strip_prefix_inv pre l rest : strip_prefix pre l = Some rest -> l = pre ++ rest.
Proof. revert l; induction pre as [|a pre IH]; intros l H; cbn in H.
  - injection H as ->. reflexivity.
  - destruct l as [|b l]; [discriminate|]. destruct (str_eqb a b) eqn:E; [|discriminate].
    apply str_eqb_eq in E. subst b. rewrite (IH _ H). reflexivity. Qed.

Lemma no_dotdot_iff rest : existsb (str_eqb DOTDOT) rest = false <-> ~ In DOTDOT rest.
Proof. rewrite existsb_false_iff, Forall_forall. split.
  - intros H Hin. specialize (H _ Hin). rewrite str_eqb_refl in H. discriminate.
  - intros H x Hx. apply str_eqb_neq. intros <-. exact (H Hx). Qed.
(* under is really a prefix statement *)
Lemma under_iff root p : under root p = true <->
  anchor p = anchor root /\ exists rest, parts p = parts root ++ rest /\ ~ In DOTDOT rest.
Proof. unfold under. split.
  - intros H. apply andb_prop in H as [Ha H]. split; [lia|].
    destruct (strip_prefix (parts root) (parts p)) as [rest|] eqn:E; [|discriminate].
    exists rest. split; [apply strip_prefix_inv; exact E|]. apply no_dotdot_iff. apply negb_true_iff. exact H.
  - intros [Ha [rest [Hp Hd]]]. rewrite Ha, Z.eqb_refl, Hp, strip_prefix_app. apply no_dotdot_iff in Hd. rewrite Hd. reflexivity. Qed.

Definition nonempty (x : list Z) : bool := negb (str_empty x).
(* components the check lets through, and those it must stop *)
Definition comp_ok (p : list Z) : Prop := noslash p /\ p <> DOT /\ p <> DOTDOT.
Definition hostile (p : list Z) : Prop := ~ noslash p \/ p = DOT \/ p = DOTDOT.
Lemma comp_ok_not_hostile p : comp_ok p -> ~ hostile p.
Proof. intros [H1 [H2 H3]] [H|[H|H]]; contradiction. Qed.

Lemma filter_keep_ok comps : Forall comp_ok comps -> filter keep_part comps = filter nonempty comps.
Proof. induction 1 as [|b r [_ [Hd _]] _ IH]; [reflexivity|]. cbn [filter]. rewrite IH. unfold keep_part, nonempty.
  apply str_eqb_neq in Hd. rewrite Hd, andb_true_r. reflexivity. Qed.

(* the joined path of checked components *)
Lemma joined_ok root comps : root_ok root -> Forall comp_ok comps ->
  load_parts (joinpath root comps) =
    {| anchor := anchor (load_parts root); parts := parts (load_parts root) ++ filter nonempty comps |}.
Proof.
  intros [Hne Hkind] Hok.
  assert (Forall noslash comps) as Hns by (eapply Forall_impl; [|exact Hok]; intros a [Ha _]; exact Ha).
  rewrite load_parts_joinpath, load_parts_root by assumption.
  destruct (posix_join_noslash comps Hns (root_str root)) as (suf & -> & Ht & Hs).
  assert (parts (parse_path (root_str root ++ suf)) = parts (parse_path (root_str root)) ++ filter nonempty comps) as Hp
    by (rewrite !parse_path_parts, Ht, filter_keep_ok by assumption; reflexivity).
  assert (anchor (parse_path (root_str root ++ suf)) = anchor (parse_path (root_str root))) as Ha.
  { destruct Hkind as [[c [rest [Hr Hc]]]|Hrel].
    - rewrite Hr, (anchor_abs c rest suf Hc), <- (app_nil_r (SEP :: c :: rest)). symmetry. apply anchor_abs. exact Hc.
    - rewrite (anchor_rel _ Hrel). apply anchor_rel. apply Hs. exact Hrel. }
  destruct (parse_path (root_str root ++ suf)) as [a p]. cbn in Ha, Hp. subst. reflexivity.
Qed.

(* The check inside request_to_localpath is whatever boolean combination the source has; this one case analysis only uses
   what it decides (by cases on the three atomic tests), so that reordering / rephrasing the condition does not break it.
   Everything else about request_to_localpath follows from it. *)
Ltac atom_cases p :=
  destruct (str_contains [47] p) eqn:?E1; destruct (str_eqb p [46]) eqn:?E2; destruct (str_eqb p [46; 46]) eqn:?E3.
Lemma atoms_ok p : str_contains [47] p = false -> str_eqb p [46] = false -> str_eqb p [46; 46] = false -> comp_ok p.
Proof. intros H1 H2 H3. repeat split; [apply str_contains_sep_iff; exact H1|apply str_eqb_neq in H2; exact H2|apply str_eqb_neq in H3; exact H3]. Qed.
Lemma atoms_hostile p : str_contains [47] p = true \/ str_eqb p [46] = true \/ str_eqb p [46; 46] = true -> hostile p.
Proof. intros [H|[H|H]]; [left; intros N; apply str_contains_sep_iff in N; congruence|right; left|right; right]; apply str_eqb_eq; exact H. Qed.

Lemma request_to_localpath_cases self req :
  (Forall comp_ok (opt_uri_path req) /\ request_to_localpath self req = Ok (joinpath (fs_root self) (opt_uri_path req)))
  \/ ((exists p, In p (opt_uri_path req) /\ hostile p) /\ request_to_localpath self req = Raise InvalidPathError).
Proof.
  unfold request_to_localpath. cbv zeta.
  match goal with |- context [existsb ?F ?l] => destruct (existsb F l) eqn:E end; [right|left]; (split; [|reflexivity]).
  - apply existsb_exists in E as [p [Hp E]]. exists p. split; [exact Hp|]. cbv beta in E. unfold str_in in E. cbn [existsb] in E.
    atom_cases p; cbn in E; try discriminate; apply atoms_hostile; auto.
  - apply existsb_false_iff in E. eapply Forall_impl; [|exact E]. intros q Hq. cbv beta in Hq. unfold str_in in Hq. cbn [existsb] in Hq.
    atom_cases q; cbn in Hq; try discriminate. apply atoms_ok; assumption.
Qed.

Lemma request_to_localpath_ok self req p : request_to_localpath self req = Ok p ->
  Forall comp_ok (opt_uri_path req) /\ p = joinpath (fs_root self) (opt_uri_path req).
Proof. intros H. destruct (request_to_localpath_cases self req) as [[Hc E]|[_ E]]; rewrite E in H; [|discriminate].
  injection H as <-. split; [exact Hc|reflexivity]. Qed.

(* THE kernel theorem: an accepted request designates root's parts followed by the non-empty Uri-Path components *)
Theorem request_to_localpath_confined self req p : root_ok (fs_root self) ->
  request_to_localpath self req = Ok p ->
  load_parts p = {| anchor := anchor (load_parts (fs_root self));
                    parts := parts (load_parts (fs_root self)) ++ filter nonempty (opt_uri_path req) |}
  /\ under (load_parts (fs_root self)) (load_parts p) = true.
Proof.
  intros Hroot H. destruct (request_to_localpath_ok _ _ _ H) as [Hok ->].
  pose proof (joined_ok _ _ Hroot Hok) as Hj. split; [exact Hj|].
  rewrite Hj. apply under_iff. split; [reflexivity|]. eexists. split; [reflexivity|].
  intros Hin. apply filter_In in Hin as [Hin _]. rewrite Forall_forall in Hok. destruct (Hok _ Hin) as [_ [_ Hd]]. exact (Hd eq_refl).
Qed.
(* the anchor of the root: 1 for an absolute root, 0 (relative: never an absolute path, whatever the components) otherwise *)
Lemma root_anchor root : root <> [] -> (root_abs root -> anchor (load_parts root) = 1) /\ (root_rel root -> anchor (load_parts root) = 0).
Proof. intros Hne. rewrite load_parts_root by exact Hne. split.
  - intros [c [rest [Hr Hc]]]. rewrite Hr, <- (app_nil_r (SEP :: c :: rest)). apply anchor_abs. exact Hc.
  - intros H. apply anchor_rel. exact H. Qed.

Theorem request_to_localpath_rejects self req p : In p (opt_uri_path req) -> hostile p ->
  request_to_localpath self req = Raise InvalidPathError.
Proof. intros Hin Hh. destruct (request_to_localpath_cases self req) as [[H _]|[_ H]]; [|exact H].
  rewrite Forall_forall in H. destruct (comp_ok_not_hostile _ (H _ Hin) Hh). Qed.

(* the code before commit 2f695ec (finding F8): root / "/".join(path); refuted by C19_F8_old_code_refuted in Props/C19.v *)
Definition request_to_localpath_F8 (self : fileserver) (request : request) : M (list (list Z)) :=
  let path := (opt_uri_path request) in
  if (existsb (fun p => ((str_contains [47] p) || (str_in p [[46]; [46; 46]]))) path) then
    Raise InvalidPathError
  else
    Ok (truediv (fs_root self) (str_join [47] path)).
