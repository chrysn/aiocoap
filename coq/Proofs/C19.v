(* C19 — proofs over the FileServer model (Model/C19.v): every effect stays under the root, reading requests change
   nothing, hostile paths are answered without any call, error responses leave the file system as it was, the Block1
   spool, and single block-wise reads. *)
From Verif Require Import Lib.Py Lib.PyLemmas Lib.Tactics Model.C19Path Gen.fileserver Model.C19 Proofs.C19Path.
Open Scope Z_scope.

Lemma parts_eqb_eq a b : parts_eqb a b = true <-> a = b.
Proof. exact (list_eqb_eq str_eqb str_eqb_eq a b). Qed.
Lemma parts_eqb_refl a : parts_eqb a a = true. Proof. apply parts_eqb_eq. reflexivity. Qed.
Lemma parts_eqb_neq a b : a <> b -> parts_eqb a b = false.
Proof. intros H. destruct (parts_eqb a b) eqn:E; [|reflexivity]. apply parts_eqb_eq in E. contradiction. Qed.

Lemma alookup_aremove_same fs k : alookup (aremove fs k) k = None.
Proof. induction fs as [|[k' n] r IH]; [reflexivity|]. cbn. destruct (parts_eqb k' k) eqn:E; [exact IH|]. cbn. rewrite E. exact IH. Qed.
Lemma alookup_aremove_other fs k k' : k <> k' -> alookup (aremove fs k) k' = alookup fs k'.
Proof. intros H. induction fs as [|[k2 n] r IH]; [reflexivity|]. cbn. destruct (parts_eqb k2 k) eqn:E.
  - apply parts_eqb_eq in E. subst k2. rewrite (parts_eqb_neq _ _ H). exact IH.
  - cbn. rewrite IH. reflexivity. Qed.
Lemma lookup_aremove_other fs k k' : k <> k' -> lookup (aremove fs k) k' = lookup fs k'.
Proof. intros H. destruct k'; [reflexivity|]. apply alookup_aremove_other. exact H. Qed.
Lemma lookup_aset_other fs k n k' : k <> k' -> lookup (aset fs k n) k' = lookup fs k'.
Proof. intros H. destruct k' as [|x k']; [reflexivity|]. unfold lookup, aset. cbn [alookup].
  rewrite (parts_eqb_neq _ _ H). apply alookup_aremove_other. exact H. Qed.
Lemma lookup_aset_same fs k n : k <> [] -> lookup (aset fs k n) k = Some n.
Proof. intros H. destruct k; [contradiction|]. unfold lookup, aset. cbn [alookup]. rewrite parts_eqb_refl. reflexivity. Qed.
Lemma lookup_aremove_same fs k : k <> [] -> lookup (aremove fs k) k = None.
Proof. intros H. destruct k; [contradiction|]. apply alookup_aremove_same. Qed.
Lemma alookup_none_aremove fs k : alookup fs k = None -> aremove fs k = fs.
Proof. induction fs as [|[k' n] r IH]; [reflexivity|]. cbn. destruct (parts_eqb k' k); [discriminate|]. intros H. rewrite (IH H). reflexivity. Qed.

Lemma walk_key fs rest : forall cur k, walk fs cur rest = inr k -> k = cur ++ rest.
Proof. induction rest as [|p r IH]; intros cur k H; cbn in H.
  - injection H as <-. rewrite app_nil_r. reflexivity.
  - destruct (lookup fs cur) as [[c|]|]; try discriminate. destruct (255 <? utf8_len p); [discriminate|].
    apply IH in H. rewrite H, <- app_assoc. reflexivity. Qed.
Lemma resolve_key fs p k : resolve fs p = inr k -> k = parts p.
Proof. unfold resolve. destruct (has_nul p); [discriminate|]. intros H. apply walk_key in H. exact H. Qed.

Lemma fs_create_inv fs p c fs1 : fs_create fs p c = inr fs1 ->
  resolve fs p = inr (parts p) /\ lookup fs (parts p) = None /\ fs1 = aset fs (parts p) (NFile c).
Proof. unfold fs_create. destruct (resolve fs p) as [e|k] eqn:Er; [discriminate|]. apply resolve_key in Er as Ek. subst k.
  destruct (lookup fs (parts p)); [discriminate|]. intros H. injection H as <-. auto. Qed.
Lemma fs_unlink_inv fs p fs1 : fs_unlink fs p = inr fs1 -> fs1 = aremove fs (parts p).
Proof. unfold fs_unlink. destruct (resolve fs p) as [e|k] eqn:Er; [discriminate|]. apply resolve_key in Er. subst k.
  destruct (lookup fs (parts p)) as [[c|]|]; congruence. Qed.
Lemma fs_rename_inv fs a b fs1 : fs_rename fs a b = inr fs1 ->
  exists na, lookup fs (parts a) = Some na /\ resolve fs b = inr (parts b) /\ fs1 = aset (aremove fs (parts a)) (parts b) na.
Proof. unfold fs_rename. destruct (resolve fs a) as [e|ka] eqn:Ea; [discriminate|]. apply resolve_key in Ea. subst ka.
  destruct (lookup fs (parts a)) as [na|]; [|discriminate].
  destruct (resolve fs b) as [e|kb] eqn:Eb; [discriminate|]. apply resolve_key in Eb as Ek. subst kb.
  intros H. exists na. split; [reflexivity|]. split; [reflexivity|]. destruct (lookup fs (parts b)) as [[c|]|]; congruence. Qed.

Definition below (rp k : list (list Z)) : Prop := exists rest, k = rp ++ rest.
(* nothing outside the root changes *)
Definition frame (rp : list (list Z)) (fs fs' : fsys) : Prop := forall k, ~ below rp k -> lookup fs' k = lookup fs k.
Lemma frame_refl rp fs : frame rp fs fs. Proof. intros k _. reflexivity. Qed.
Lemma frame_trans rp a b c : frame rp a b -> frame rp b c -> frame rp a c.
Proof. intros H1 H2 k Hk. rewrite (H2 k Hk). apply H1. exact Hk. Qed.
Lemma frame_aset rp fs k n : below rp k -> frame rp fs (aset fs k n).
Proof. intros Hk k' Hk'. apply lookup_aset_other. intros ->. exact (Hk' Hk). Qed.
Lemma frame_aremove rp fs k : below rp k -> frame rp fs (aremove fs k).
Proof. intros Hk k' Hk'. apply lookup_aremove_other. intros ->. exact (Hk' Hk). Qed.

Lemma children_no_dotdot fs k : Forall (fun n => n <> DOTDOT) (children fs k).
Proof. unfold children. apply Forall_forall. intros n Hn. apply in_flat_map in Hn as [e [_ Hn]].
  destruct (strip_prefix k (fst e)) as [[|x [|y r]]|]; try contradiction.
  destruct (str_eqb x DOT || str_eqb x DOTDOT) eqn:E; [contradiction|]. destruct Hn as [<-|[]].
  apply orb_false_elim in E as [_ E]. apply str_eqb_neq in E. exact E. Qed.
Lemma fs_listdir_no_dotdot fs p :
  match fs_listdir fs p with inr names => Forall (fun n => n <> DOTDOT) names | inl _ => True end.
Proof. unfold fs_listdir. destruct (resolve fs p); [exact I|]. destruct (lookup fs l) as [[c|]|]; try exact I.
  apply children_no_dotdot. Qed.

Section Triple.
  Variable I : state -> state -> Prop.       (* relation between the state before and after *)
  Variable E : effect -> Prop.               (* what every emitted effect satisfies *)

  Definition triple {A} (m : FM A) (Q : A -> Prop) : Prop :=
    forall st, match m st with
               | ((st', effs), r) => I st st' /\ Forall E effs /\ match r with inr a => Q a | inl _ => True end
               end.
  Lemma triple_weaken {A} (m : FM A) (Q Q' : A -> Prop) : triple m Q -> (forall a, Q a -> Q' a) -> triple m Q'.
  Proof. intros Hm H st. specialize (Hm st). destruct (m st) as [[st1 e1] [x|a]]; intuition. Qed.
  Lemma triple_obs {A} (m : FM A) Q :
    (forall st, match m st with ((st', effs), r) => st_fs st' = st_fs st /\ Forall E effs /\ match r with inr a => Q a | inl _ => True end end) ->
    (forall s s', st_fs s' = st_fs s -> I s s') -> triple m Q.
  Proof. intros H HI st. specialize (H st). destruct (m st) as [[st1 e1] r]. destruct H as [H1 [H2 H3]]. auto. Qed.
End Triple.

(* [triple] with a clause for raised exceptions: [triple I E] is [hoare I E (fun _ => True)] *)
Definition hoare (Inv : state -> state -> Prop) (Eff : effect -> Prop) (Exn : exnk -> Prop) {A} (m : FM A) (Q : A -> Prop) : Prop :=
  forall st, match m st with
             | ((st', effs), r) => Inv st st' /\ Forall Eff effs /\ match r with inr a => Q a | inl e => Exn e end
             end.
Section Hoare.
  Context {Inv : state -> state -> Prop} {Eff : effect -> Prop} {Exn : exnk -> Prop}.
  Hypothesis Inv_refl : forall s, Inv s s.
  Hypothesis Inv_trans : forall a b c, Inv a b -> Inv b c -> Inv a c.
  Notation H := (hoare Inv Eff Exn).

  Lemma hoare_ret {A} (a : A) (Q : A -> Prop) : Q a -> H (ret a) Q.
  Proof using Inv_refl. intros Hq st. cbn. auto. Qed.
  Lemma hoare_raise {A} e (Q : A -> Prop) : Exn e -> H (raise e) Q.
  Proof using Inv_refl. intros He st. cbn. auto. Qed.
  Lemma hoare_bind {A B} (m : FM A) (f : A -> FM B) Q Q' : H m Q -> (forall a, Q a -> H (f a) Q') -> H (bindF m f) Q'.
  Proof using Inv_trans. intros Hm Hf st. unfold bindF. specialize (Hm st). destruct (m st) as [[st1 e1] [x|a]].
    - exact Hm.
    - destruct Hm as [H1 [H2 H3]]. specialize (Hf a H3 st1). destruct (f a st1) as [[st2 e2] r].
      destruct Hf as [H4 [H5 H6]]. split; [eapply Inv_trans; eauto|]. split; [apply Forall_app; auto|exact H6]. Qed.
  (* stat, listdir, open_read, open_dir_w have this shape *)
  Lemma hoare_call {A} (e : effect) (f : state -> A) (Q : A -> Prop) :
    Eff e -> (forall st, Q (f st)) -> H (fun st => ((st, [e]), inr (f st))) Q.
  Proof using Inv_refl. intros He Hq st. split; [apply Inv_refl|]. split; [repeat constructor; exact He|apply Hq]. Qed.
End Hoare.

Lemma feed_and_take_cases req st :
  match feed_and_take req st with
  | ((st', effs), r) => st_fs st' = st_fs st /\ st_obs st' = st_obs st /\ effs = [] /\
      match r with
      | inr req' => opt_uri_path req' = opt_uri_path req /\ code req' = code req
      | inl e => e = XIncomplete \/ e = XBadRequest \/ (e = XContinue /\ exists n s, opt_block1 req = Some (n, true, s))
      end
  end.
Proof.
  unfold feed_and_take. destruct (opt_block1 req) as [[[num more] szx]|]; [|cbn; auto 8].
  destruct (num =? 0).
  - destruct more; cbn; eauto 10.
  - destruct (spool_find (st_spool st) (block_key req)) as [acc|]; [|cbn; auto 8].
    destruct (block1_invalid more szx (payload req)); [cbn; auto 8|]. destruct (blk_start num szx =? blen acc); [|cbn; auto 8].
    destruct more; cbn; eauto 10.
Qed.
Lemma hoare_feed (Inv : state -> state -> Prop) (Eff : effect -> Prop) (Exn : exnk -> Prop) req :
  (forall s s', st_fs s' = st_fs s -> st_obs s' = st_obs s -> Inv s s') ->
  Exn XIncomplete -> Exn XBadRequest -> ((exists n s, opt_block1 req = Some (n, true, s)) -> Exn XContinue) ->
  hoare Inv Eff Exn (feed_and_take req) (fun req' => opt_uri_path req' = opt_uri_path req /\ code req' = code req).
Proof. intros HI H1 H2 H3 st. pose proof (feed_and_take_cases req st) as H. destruct (feed_and_take req st) as [[st' effs] r].
  destruct H as (Hf & Ho & -> & Hr). split; [apply HI; assumption|]. split; [constructor|].
  destruct r as [e|req']; [|exact Hr]. destruct Hr as [->|[->|[-> Hm]]]; auto. Qed.

Lemma feed_last req st num szx acc :
  opt_block1 req = Some (num, false, szx) -> num <> 0 ->
  spool_find (st_spool st) (block_key req) = Some acc -> blk_start num szx = blen acc ->
  block1_invalid false szx (payload req) = false ->          (* the final block does not exceed its block size *)
  exists st', feed_and_take req st = ((st', []), inr (with_payload req (acc ++ payload req))) /\ st_fs st' = st_fs st
              /\ st_spool st' = spool_remove (st_spool st) (block_key req).
Proof. intros H1 Hn Hs Ho Hv. unfold feed_and_take. rewrite H1, Hs, Hv. replace (num =? 0) with false by lia.
  rewrite Ho, Z.eqb_refl. eexists. split; [reflexivity|split; reflexivity]. Qed.
Lemma feed_gap req st num more szx acc :
  opt_block1 req = Some (num, more, szx) -> num <> 0 ->
  spool_find (st_spool st) (block_key req) = Some acc -> blk_start num szx <> blen acc ->
  exists e, feed_and_take req st = ((st, []), inl e) /\ (e = XIncomplete \/ e = XBadRequest).
Proof. intros H1 Hn Hs Ho. unfold feed_and_take. rewrite H1, Hs. replace (num =? 0) with false by lia.
  destruct (block1_invalid more szx (payload req)); [eexists; split; [reflexivity|right; reflexivity]|].
  replace (blk_start num szx =? blen acc) with false by lia. eexists; split; [reflexivity|left; reflexivity]. Qed.
Lemma feed_oversize req st num more szx acc :
  opt_block1 req = Some (num, more, szx) -> num <> 0 -> spool_find (st_spool st) (block_key req) = Some acc ->
  block1_invalid more szx (payload req) = true -> feed_and_take req st = ((st, []), inl XBadRequest).
Proof. intros H1 Hn Hs Hv. unfold feed_and_take. rewrite H1, Hs, Hv. replace (num =? 0) with false by lia. reflexivity. Qed.
Lemma feed_unknown req st num more szx :
  opt_block1 req = Some (num, more, szx) -> num <> 0 -> spool_find (st_spool st) (block_key req) = None ->
  feed_and_take req st = ((st, []), inl XIncomplete).
Proof. intros H1 Hn Hs. unfold feed_and_take. rewrite H1, Hs. replace (num =? 0) with false by lia. reflexivity. Qed.

(* the three ways a request reaches [render] *)
Lemma pipe_cases (J : FM response -> Prop) self req :
  J (render self req) -> J (req' <-- feed_and_take req ;;; render self req') -> J (add_observation self req ;;; render self req) ->
  J (render_to_pipe self req).
Proof. intros H1 H2 H3. unfold render_to_pipe. destruct (opt_observe req) as [[|?|?]|]; try exact H3; destruct (needs_blockwise_assembly req); assumption. Qed.
Lemma hoare_pipe {Inv : state -> state -> Prop} {Eff Exn} (Inv_trans : forall a b c, Inv a b -> Inv b c -> Inv a c) self req Q :
  (forall req', opt_uri_path req' = opt_uri_path req -> code req' = code req -> hoare Inv Eff Exn (render self req') Q) ->
  hoare Inv Eff Exn (feed_and_take req) (fun req' => opt_uri_path req' = opt_uri_path req /\ code req' = code req) ->
  hoare Inv Eff Exn (add_observation self req) (fun _ => True) ->
  hoare Inv Eff Exn (render_to_pipe self req) Q.
Proof. intros Hr Hf Ha. apply pipe_cases.
  - auto.
  - eapply (hoare_bind Inv_trans); [exact Hf|]. intros req' [H1 H2]. auto.
  - eapply (hoare_bind Inv_trans); [exact Ha|]. intros _ _. auto. Qed.

(* a path is acceptable when it is under the root as the server names it, or under the absolutised root (aroot = the working
   directory's parts followed by the root's parts: what os.path.abspath makes of tempfile's directory when the root is relative) *)
Definition okp (root aroot : ppath) (p : ppath) : Prop := under root p = true \/ under aroot p = true.
Definition conf (root aroot : ppath) (e : effect) : Prop :=
  match e with
  | EStat p | EOpenRead p | EListDir p | EOpenDirW p | ECreate p | EUnlink p => okp root aroot p
  | ERename a b => okp root aroot a /\ okp root aroot b
  end.
(* ... and every observed path (key of _observations) stays under the root *)
Definition obs_under (root : ppath) (s : state) : Prop := Forall (fun e => under root (fst e) = true) (st_obs s).
Definition Iframe (root : ppath) (s s' : state) : Prop :=
  frame (parts root) (st_fs s) (st_fs s') /\ (obs_under root s -> obs_under root s').
Lemma Iframe_refl root s : Iframe root s s. Proof. split; [apply frame_refl|auto]. Qed.
Lemma Iframe_trans root a b c : Iframe root a b -> Iframe root b c -> Iframe root a c.
Proof. intros [H1 H2] [H3 H4]. split; [eapply frame_trans; eassumption|auto]. Qed.
Lemma Iframe_same root s s' : st_fs s' = st_fs s -> st_obs s' = st_obs s -> Iframe root s s'.
Proof. unfold Iframe, obs_under. intros -> ->. split; [apply frame_refl|auto]. Qed.
Lemma Iframe_fs root st fs' : frame (parts root) (st_fs st) fs' -> Iframe root st (with_fs st fs').
Proof. intros H. split; [exact H|auto]. Qed.

Definition reading (e : effect) : Prop := match e with EStat _ | EOpenRead _ | EListDir _ => True | _ => False end.
Definition Isame (s s' : state) : Prop := st_fs s' = st_fs s.

Lemma under_below root p : under root p = true -> below (parts root) (parts p).
Proof. intros H. apply under_iff in H as [_ [rest [H _]]]. exists rest. exact H. Qed.
Lemma under_child root p n : under root p = true -> n <> DOTDOT -> under root (child p n) = true.
Proof. intros H Hn. apply under_iff in H as [Ha [rest [Hp Hd]]]. apply under_iff. split; [exact Ha|].
  exists (rest ++ [n]). cbn [child parts]. rewrite Hp, app_assoc. split; [reflexivity|].
  intros Hin. apply in_app_or in Hin as [Hin|[Hin|[]]]; [exact (Hd Hin)|exact (Hn Hin)]. Qed.
Lemma under_parent root p rest : under root p = true -> parts p = parts root ++ rest -> rest <> [] -> under root (parent p) = true.
Proof. intros H Hp Hne. apply under_iff in H as [Ha [rest' [Hp' Hd]]]. apply under_iff. split; [exact Ha|].
  assert (rest' = rest) by (rewrite Hp in Hp'; apply app_inv_head in Hp'; congruence). subst rest'.
  exists (removelast rest). cbn [parent parts]. rewrite Hp, removelast_app by exact Hne. split; [reflexivity|].
  intros Hin. apply Hd. rewrite (app_removelast_last [] Hne). apply in_or_app. left. exact Hin. Qed.
Lemma under_abspath self root d : under root d = true -> under (abspath self root) (abspath self d) = true.
Proof. intros H. apply under_iff in H as [Ha [rest [Hp Hd]]]. apply under_iff. unfold abspath. rewrite Ha.
  destruct (anchor root =? 0); cbn [anchor parts]; (split; [first [reflexivity|exact Ha]|]); exists rest; (split; [|exact Hd]).
  - rewrite Hp, app_assoc. reflexivity.
  - exact Hp. Qed.

Lemma map_fst_obs_mark o p : map fst (obs_mark o p) = map fst o.
Proof. induction o as [|[q b] r IH]; [reflexivity|]. cbn. destruct (ppath_eqb q p); cbn; [reflexivity|]. rewrite IH. reflexivity. Qed.
(* the entries render_get_dir builds are children of the listed directory, hence below whatever that directory is below *)
Lemma rels_all_some rp rest (entries : list (list (list Z) * bool)) names :
  map fst entries = map (fun n => (rp ++ rest) ++ [n]) names ->
  forallb (fun x : option (list (list Z) * bool) => match x with Some _ => true | None => false end)
          (map (fun e => match strip_prefix rp (fst e) with Some rel => Some (rel, snd e) | None => None end) entries) = true.
Proof. revert names; induction entries as [|e es IH]; intros names H; [reflexivity|].
  destruct names as [|n ns]; [discriminate|]. cbn [map] in H. injection H as H1 H2. cbn [map forallb].
  rewrite H1, <- !app_assoc, strip_prefix_app. cbn [andb]. exact (IH ns H2). Qed.

(* What the walk through the reading half of the server needs of (Inv, Eff, Exn) and of the set P of paths the calls are
   made on.  Path.relative_to's ValueError (render_get_dir) is tolerated by Exn, or impossible because P-paths lie below the root. *)
Set Implicit Arguments.
Record reads_ok (self : fileserver) (Inv : state -> state -> Prop) (Eff : effect -> Prop) (Exn : exnk -> Prop) (P : ppath -> Prop) : Prop := {
  rd_refl : forall s, Inv s s;
  rd_trans : forall a b c, Inv a b -> Inv b c -> Inv a c;
  rd_obs : forall s s', st_fs s' = st_fs s ->
             (forall q, In q (map fst (st_obs s')) -> In q (map fst (st_obs s)) \/ P q) -> Inv s s';
  rd_eff : forall p, P p -> Eff (EStat p) /\ Eff (EOpenRead p) /\ Eff (EListDir p);
  rd_child : forall p n, P p -> n <> DOTDOT -> P (child p n);
  rd_path : forall req p, request_to_localpath self req = Ok p -> P (load_parts p);
  rd_exn : forall e, e <> XValueError -> Exn e;
  rd_below : forall p, P p -> Exn XValueError \/ below (parts (load_parts (fs_root self))) (parts p) }.
Unset Implicit Arguments.

Section Reads.
  Context {self : fileserver} {Inv : state -> state -> Prop} {Eff : effect -> Prop} {Exn : exnk -> Prop} {P : ppath -> Prop}.
  Hypothesis Hrd : reads_ok self Inv Eff Exn P.
  Notation T := (hoare Inv Eff Exn).
  Let Ir := rd_refl Hrd.
  Let It := rd_trans Hrd.

  Lemma rd_done {A} (a : A) : T (ret a) (fun _ => True).
  Proof. apply (hoare_ret Ir). exact I. Qed.
  Lemma rd_raise {A} e (Q : A -> Prop) : e <> XValueError -> T (raise e) Q.
  Proof. intros He. apply (hoare_raise Ir). apply (rd_exn Hrd). exact He. Qed.
  Lemma rd_stat p : P p -> T (stat p) (fun _ => True).
  Proof. intros Hp. apply (hoare_call Ir); [apply (rd_eff Hrd _ Hp)|auto]. Qed.
  Lemma rd_open_read p : P p -> T (open_read p) (fun _ => True).
  Proof. intros Hp. apply (hoare_call Ir); [apply (rd_eff Hrd _ Hp)|auto]. Qed.
  Lemma rd_listdir p : P p ->
    T (listdir p) (fun r => match r with inr names => Forall (fun n => n <> DOTDOT) names | inl _ => True end).
  Proof. intros Hp. apply (hoare_call Ir); [apply (rd_eff Hrd _ Hp)|]. intros st. apply fs_listdir_no_dotdot. Qed.

  Lemma rd_lift req :
    T (lift_path (request_to_localpath self req)) (fun lp => exists p, request_to_localpath self req = Ok p /\ lp = load_parts p).
  Proof. unfold lift_path. destruct (request_to_localpath self req) as [p|e].
    - apply (hoare_ret Ir). eauto.
    - apply rd_raise. discriminate. Qed.
  Lemma rd_obs_register p : P p -> T (obs_register p) (fun _ => True).
  Proof. intros Hp st. unfold obs_register. destruct (obs_find (st_obs st) p); cbn.
    - split; [apply Ir|split; [constructor|exact I]].
    - split; [|split; [constructor|exact I]]. apply (rd_obs Hrd); [reflexivity|]. cbn [st_obs]. intros q Hq.
      rewrite map_app in Hq. apply in_app_or in Hq as [Hq|[<-|[]]]; auto. Qed.
  Lemma rd_obs_stat p : P p -> T (obs_stat p) (fun _ => True).
  Proof. intros Hp st. unfold obs_stat. destruct (obs_find (st_obs st) p) as [[|]|]; cbn; try (split; [apply Ir|split; [constructor|exact I]]).
    split; [|split; [constructor; [apply (rd_eff Hrd _ Hp)|constructor]|exact I]].
    apply (rd_obs Hrd); [reflexivity|]. cbn [st_obs]. rewrite map_fst_obs_mark. auto. Qed.
  Lemma rd_add_observation req : T (add_observation self req) (fun _ => True).
  Proof. unfold add_observation. eapply (hoare_bind It); [apply rd_lift|]. intros lp [p [Ep ->]].
    apply rd_obs_register. exact (rd_path Hrd _ Ep). Qed.

  Lemma rd_stat_children p names : P p -> Forall (fun n => n <> DOTDOT) names ->
    T (stat_children p names) (fun entries => map fst entries = map (fun n => parts p ++ [n]) names).
  Proof. intros Hp. induction 1 as [|n r Hn Hr IH]; cbn [stat_children].
    - apply (hoare_ret Ir). reflexivity.
    - eapply (hoare_bind It); [apply rd_stat; apply (rd_child Hrd); assumption|]. intros s _.
      eapply (hoare_bind It); [exact IH|]. intros rest Hrest. apply (hoare_ret Ir). cbn [map fst child parts]. rewrite Hrest. reflexivity. Qed.
  Lemma rd_render_get_dir req p : P p -> T (render_get_dir self req p) (fun _ => True).
  Proof. intros Hp. unfold render_get_dir. destruct (_ && _); [apply rd_raise; discriminate|].
    eapply (hoare_bind It); [apply rd_listdir; exact Hp|]. intros [e|names] Hn; [apply rd_raise; discriminate|].
    eapply (hoare_bind It); [apply rd_stat_children; assumption|]. intros entries Hent. cbv zeta.
    destruct (rd_below Hrd _ Hp) as [Hx|[rest Hb]].
    - destruct (forallb _ _); [apply rd_done|apply (hoare_raise Ir); exact Hx].
    - rewrite Hb in Hent. rewrite (rels_all_some _ _ _ _ Hent). apply rd_done. Qed.
  Lemma rd_render_get_file req p : P p -> T (render_get_file self req p) (fun _ => True).
  Proof. intros Hp. unfold render_get_file. destruct (_ && _); [apply rd_raise; discriminate|].
    destruct (match opt_block2 req with Some b => b | None => (0, false, 6) end) as [[num m] szx].
    eapply (hoare_bind It); [apply rd_open_read; exact Hp|]. intros [e|content] _; [apply rd_raise; discriminate|].
    eapply (hoare_bind It); [apply rd_obs_stat; exact Hp|]. intros _ _. apply rd_done. Qed.
  Lemma rd_render_get req : T (render_get self req) (fun _ => True).
  Proof. unfold render_get. destruct (parts_eqb _ _); [apply rd_done|].
    eapply (hoare_bind It); [apply rd_lift|]. intros lp [p [Ep ->]]. pose proof (rd_path Hrd _ Ep) as Hp.
    eapply (hoare_bind It); [apply rd_stat; exact Hp|]. intros [[]|n] _; try (apply rd_raise; discriminate).
    destruct (_ && _); [apply rd_done|]. destruct n.
    - eapply (hoare_bind It); [apply rd_render_get_file; exact Hp|]. intros r _. apply rd_done.
    - eapply (hoare_bind It); [apply rd_render_get_dir; exact Hp|]. intros r _. apply rd_done. Qed.

  Lemma rd_check_if_match req p x : x <> XValueError -> P p -> T (check_if_match self req p x) (fun _ => True).
  Proof. intros Hx Hp. unfold check_if_match. destruct (_ && _); [|apply rd_done].
    eapply (hoare_bind It); [apply rd_stat; exact Hp|]. intros [[]|n] _; try (apply rd_raise; first [exact Hx|discriminate]).
    destruct (_ && _); [apply rd_done|apply rd_raise; discriminate]. Qed.
  Lemma rd_put_preconditions req p : P p -> T (put_preconditions self req p) (fun _ => True).
  Proof. intros Hp. unfold put_preconditions. eapply (hoare_bind It) with (Q := fun _ => True).
    - destruct (opt_if_none_match req); [|apply rd_done].
      eapply (hoare_bind It); [apply rd_stat; exact Hp|]. intros [[]|n] _; first [apply rd_raise; discriminate|apply rd_done].
    - intros _ _. apply rd_check_if_match; [discriminate|exact Hp]. Qed.
End Reads.

Lemma filter_last_nonempty l : nonempty_list l = true -> last_is_empty l = false -> filter nonempty l <> [].
Proof.
  unfold last_is_empty. induction l as [|a l IH]; [discriminate|]. intros _ H.
  destruct l as [|b r].
  - cbn in H. cbn. unfold nonempty. rewrite H. discriminate.
  - change (last (a :: b :: r) [0]) with (last (b :: r) [0]) in H. specialize (IH eq_refl H).
    cbn [filter]. destruct (nonempty a); [discriminate|exact IH]. Qed.

Section ServerConf.
  Variable self : fileserver.
  Hypothesis Hroot : root_ok (fs_root self).
  Let rootp := load_parts (fs_root self).
  Let arootp := abspath self rootp.
  (* the temporary name only matters for the path shown to create/rename/unlink: as a premise of the effect predicate it
     leaves what the walk says about exceptions free of the hypothesis on the name *)
  Let Ec (e : effect) : Prop := fs_tmpname self <> DOTDOT -> conf rootp arootp e.
  Notation T := (hoare (Iframe rootp) Ec (fun e => e <> XValueError)).
  Let Ir := Iframe_refl rootp.
  Let It := Iframe_trans rootp.

  Lemma reads_ok_conf : reads_ok self (Iframe rootp) Ec (fun e => e <> XValueError) (fun p => under rootp p = true).
  Proof. constructor.
    - exact Ir.
    - exact It.
    - intros s s' Hf Ho. split; [rewrite Hf; apply frame_refl|]. unfold obs_under. rewrite !Forall_forall. intros Hu e He.
      destruct (Ho (fst e) (in_map fst _ _ He)) as [Hq|Hq]; [|exact Hq]. apply in_map_iff in Hq as [e' [<- He']]. exact (Hu _ He').
    - intros p Hp. repeat split; intros _; left; exact Hp.
    - intros p n. apply under_child.
    - intros req p Ep. apply (request_to_localpath_confined _ _ _ Hroot Ep).
    - auto.
    - intros p Hp. right. apply under_below. exact Hp.
  Qed.
  Let Hrd := reads_ok_conf.

  Lemma conf_write (op : fsys -> ferr + fsys) eff : Ec eff -> (forall fs fs', op fs = inr fs' -> frame (parts rootp) fs fs') ->
    T (fun st => match op (st_fs st) with
                 | inl e => ((st, [eff]), inr (inl e))
                 | inr fs' => ((with_fs st fs', [eff]), inr (inr tt))
                 end) (fun _ : ferr + unit => True).
  Proof. intros He Hf st. destruct (op (st_fs st)) as [e|fs'] eqn:Eo; (split; [|split; [constructor; [exact He|constructor]|exact I]]).
    - apply Ir.
    - apply Iframe_fs. exact (Hf _ _ Eo). Qed.
  Lemma conf_create shown p c : Ec (ECreate shown) -> below (parts rootp) (parts p) -> T (create shown p c) (fun _ => True).
  Proof. intros He Hb. apply (conf_write (fun fs => fs_create fs p c)); [exact He|]. intros fs fs' H.
    apply fs_create_inv in H as (_ & _ & ->). apply frame_aset. exact Hb. Qed.
  Lemma conf_unlink shown p : Ec (EUnlink shown) -> below (parts rootp) (parts p) -> T (unlink shown p) (fun _ => True).
  Proof. intros He Hb. apply (conf_write (fun fs => fs_unlink fs p)); [exact He|]. intros fs fs' H.
    apply fs_unlink_inv in H as ->. apply frame_aremove. exact Hb. Qed.
  Lemma conf_rename shown a b : Ec (ERename shown b) -> below (parts rootp) (parts a) -> below (parts rootp) (parts b) ->
    T (rename shown a b) (fun _ => True).
  Proof. intros He Ha Hb. apply (conf_write (fun fs => fs_rename fs a b)); [exact He|]. intros fs fs' H.
    apply fs_rename_inv in H as (na & _ & _ & ->). eapply frame_trans; [apply frame_aremove; exact Ha|apply frame_aset; exact Hb]. Qed.

  Lemma conf_store_file req p rest : under rootp p = true -> parts p = parts rootp ++ rest -> rest <> [] ->
    T (store_file self req p) (fun _ => True).
  Proof. intros Hp Hparts Hne. unfold store_file.
    assert (under rootp (parent p) = true) as Hpar by (eapply under_parent; eassumption).
    assert (below (parts rootp) (parts (child (parent p) (fs_tmpname self)))) as Htmpb
      by (destruct (under_below _ _ Hpar) as [r Hr]; exists (r ++ [fs_tmpname self]); cbn [child parts]; rewrite Hr, app_assoc; reflexivity).
    assert (fs_tmpname self <> DOTDOT -> okp rootp arootp (child (abspath self (parent p)) (fs_tmpname self))) as Hshown
      by (intros Htmp; right; apply under_child; [apply under_abspath; exact Hpar|exact Htmp]).
    eapply (hoare_bind It) with (Q := fun _ => True); [apply (hoare_call Ir); [intros _; left; exact Hpar|auto]|]. intros [e|[]] _; [apply (rd_raise Hrd); discriminate|].
    eapply (hoare_bind It); [apply conf_create; [exact Hshown|exact Htmpb]|].
    intros [e|[]] _; [apply (rd_raise Hrd); discriminate|].
    eapply (hoare_bind It) with (Q := fun _ => True).
    { destruct (fs_disk_full self && nonempty_list (payload req)); [apply (rd_done Hrd)|].
      apply conf_rename; [intros Htmp; split; [exact (Hshown Htmp)|left; exact Hp]|exact Htmpb|apply under_below; exact Hp]. }
    intros [e|[]] _.
    - eapply (hoare_bind It); [apply conf_unlink; [exact Hshown|exact Htmpb]|].
      intros _ _. apply (rd_raise Hrd). discriminate.
    - eapply (hoare_bind It); [apply (rd_stat Hrd); exact Hp|]. intros [e|n] _; [apply (rd_raise Hrd); discriminate|apply (rd_done Hrd)]. Qed.
  Lemma conf_render_put req : T (render_put self req) (fun _ => True).
  Proof. unfold render_put. destruct (negb (fs_write self)); [apply (rd_done Hrd)|].
    destruct (negb (nonempty_list (opt_uri_path req)) || last_is_empty (opt_uri_path req)) eqn:G; [apply (rd_done Hrd)|].
    apply orb_false_elim in G as [G1 G2]. apply negb_false_iff in G1.
    eapply (hoare_bind It); [apply (rd_lift Hrd)|]. intros lp [p [Ep ->]].
    destruct (request_to_localpath_confined _ _ _ Hroot Ep) as [Hparts Hp].
    eapply (hoare_bind It); [apply (rd_put_preconditions Hrd); exact Hp|]. intros _ _.
    eapply conf_store_file; [exact Hp|rewrite Hparts; reflexivity|apply filter_last_nonempty; assumption]. Qed.
  Lemma conf_render_delete req : T (render_delete self req) (fun _ => True).
  Proof. unfold render_delete. destruct (negb (fs_write self)); [apply (rd_done Hrd)|].
    destruct (_ || _); [apply (rd_done Hrd)|].
    eapply (hoare_bind It); [apply (rd_lift Hrd)|]. intros lp [p [Ep ->]]. pose proof (rd_path Hrd _ Ep) as Hp. cbv beta in Hp.
    eapply (hoare_bind It); [apply (rd_check_if_match Hrd); [discriminate|exact Hp]|]. intros _ _.
    eapply (hoare_bind It); [apply conf_unlink; [intros _; left; exact Hp|apply under_below; exact Hp]|].
    intros [[]|[]] _; first [apply (rd_raise Hrd); discriminate|apply (rd_done Hrd)]. Qed.
  Lemma conf_render req : T (render self req) (fun _ => True).
  Proof. unfold render. destruct (code req =? 1); [apply (rd_render_get Hrd)|]. destruct (code req =? 3); [apply conf_render_put|].
    destruct (code req =? 4); [apply conf_render_delete|apply (rd_raise Hrd); discriminate]. Qed.
  Lemma conf_render_to_pipe req : T (render_to_pipe self req) (fun _ => True).
  Proof. apply (hoare_pipe It); [intros; apply conf_render| |apply (rd_add_observation Hrd)].
    apply hoare_feed; [apply Iframe_same|discriminate..]. Qed.

  Lemma conf_run {A} (m : FM A) Q st : T m Q -> fs_tmpname self <> DOTDOT ->
    match m st with ((st', effs), _) => Forall (conf rootp arootp) effs /\ Iframe rootp st st' end.
  Proof. intros Hm Htmp. specialize (Hm st). destruct (m st) as [[st' effs] r]. destruct Hm as [H1 [H2 _]].
    split; [|exact H1]. eapply Forall_impl; [|exact H2]. intros e He. exact (He Htmp). Qed.
  Lemma serve_confined : fs_tmpname self <> DOTDOT -> forall req st,
    match serve self req st with (st', effs, _) => Forall (conf rootp arootp) effs /\ Iframe rootp st st' end.
  Proof. intros Htmp req st. unfold serve. pose proof (conf_run _ _ st (conf_render_to_pipe req) Htmp) as Hm.
    destruct (render_to_pipe self req st) as [[st' effs] [e|r]]; exact Hm. Qed.
  Lemma render_confined : fs_tmpname self <> DOTDOT -> forall req st,
    match render self req st with ((st', effs), _) => Forall (conf rootp arootp) effs /\ Iframe rootp st st' end.
  Proof. intros Htmp req st. exact (conf_run _ _ st (conf_render req) Htmp). Qed.
End ServerConf.

Definition all_effects (o : list (list effect * response)) : list effect := flat_map fst o.
Section Histories.
  Variable self : fileserver.
  Hypothesis Hroot : root_ok (fs_root self).
  Hypothesis Htmp : fs_tmpname self <> DOTDOT.
  Let rootp := load_parts (fs_root self).
  Let arootp := abspath self rootp.
  Lemma fetch_all_confined fuel req szx : forall n st,
    match fetch_all fuel self req szx n st with (st', o) => Forall (conf rootp arootp) (all_effects o) /\ Iframe rootp st st' end.
  Proof. induction fuel as [|f IH]; intros n st; cbn [fetch_all];
    pose proof (serve_confined self Hroot Htmp (with_block2 req (Some (n, false, szx))) st) as H;
    destruct (serve self (with_block2 req (Some (n, false, szx))) st) as [[st1 effs] r]; destruct H as [H1 H2].
    - destruct (has_more r); cbn; rewrite app_nil_r; split; assumption.
    - destruct (has_more r); [|cbn; rewrite app_nil_r; split; assumption].
      specialize (IH (n + 1) st1). destruct (fetch_all f self req szx (n + 1) st1) as [st2 rs]. destruct IH as [H3 H4].
      split; [cbn; apply Forall_app; split; assumption|eapply Iframe_trans; eassumption]. Qed.
  Lemma refresh_confined fs o : Forall (fun e : ppath * bool => under rootp (fst e) = true) o -> Forall (conf rootp arootp) (refresh_list fs o).
  Proof. induction 1 as [|[p b] r Hp Hr IH]; cbn [refresh_list]; [constructor|]. destruct b; [|exact IH].
    constructor; [left; exact Hp|]. destruct (fs_stat fs p); [constructor|exact IH]. Qed.
  Lemma rerender_confined rs : forall st,
    match rerender self rs st with (st', effs) => Forall (conf rootp arootp) effs /\ Iframe rootp st st' end.
  Proof. induction rs as [|r rest IH]; intros st; cbn [rerender]; [split; [constructor|apply Iframe_refl]|].
    pose proof (render_confined self Hroot Htmp r st) as H. destruct (render self r st) as [[st1 e1] x]. destruct H as [H1 H2].
    specialize (IH st1). destruct (rerender self rest st1) as [st2 e2]. destruct IH as [H3 H4].
    split; [apply Forall_app; split; assumption|eapply Iframe_trans; eassumption]. Qed.
  Lemma step_confined st i : obs_under rootp st ->
    match step self st i with (st', o) => Forall (conf rootp arootp) (all_effects o) /\ Iframe rootp st st' end.
  Proof. intros Hobs. destruct i as [r|r szx|r|rs]; cbn [step].
    - pose proof (serve_confined self Hroot Htmp r st) as H. destruct (serve self r st) as [[st1 effs] resp]. destruct H. cbn. rewrite app_nil_r. split; assumption.
    - apply fetch_all_confined.
    - pose proof (serve_confined (with_full self) Hroot Htmp r st) as H. destruct (serve (with_full self) r st) as [[st1 effs] resp]. destruct H. cbn. rewrite app_nil_r. split; assumption.
    - pose proof (rerender_confined rs st) as H. destruct (rerender self rs st) as [st1 e1]. destruct H as [H1 H2].
      cbn. rewrite app_nil_r. split; [apply Forall_app; split; [apply refresh_confined; exact Hobs|exact H1]|exact H2]. Qed.
  Lemma run_confined items : forall st, obs_under rootp st ->
    match run self st items with
    | (st', os) => Forall (fun o => Forall (conf rootp arootp) (all_effects o)) os /\ frame (parts rootp) (st_fs st) (st_fs st') /\ obs_under rootp st'
    end.
  Proof. induction items as [|i r IH]; intros st Hobs; cbn [run].
    - split; [constructor|split; [apply frame_refl|exact Hobs]].
    - pose proof (step_confined st i Hobs) as H. destruct (step self st i) as [st1 o]. destruct H as [H1 [H2 H2o]].
      specialize (IH st1 (H2o Hobs)). destruct (run self st1 r) as [st2 os]. destruct IH as [H3 [H4 H5]].
      split; [constructor; assumption|split; [eapply frame_trans; eassumption|exact H5]]. Qed.
End Histories.

Lemma reads_ok_ro self : reads_ok self Isame reading (fun _ => True) (fun _ => True).
Proof. constructor; unfold Isame; cbn; auto; congruence. Qed.

Section ServerRO.
  Variable self : fileserver.
  Notation R := (triple Isame reading).
  Let Hrd := reads_ok_ro self.
  Let Ir := rd_refl Hrd.
  Let It := rd_trans Hrd.

  Definition read_only_request (req : request) : Prop := fs_write self = false \/ (code req <> 3 /\ code req <> 4).
  Lemma ro_render req : read_only_request req -> R (render self req) (fun _ => True).
  Proof. intros H. unfold render. destruct (code req =? 1) eqn:E1; [apply (rd_render_get Hrd)|].
    destruct (code req =? 3) eqn:E3.
    - destruct H as [H|[H _]]; [|lia]. unfold render_put. rewrite H. apply (rd_done Hrd).
    - destruct (code req =? 4) eqn:E4; [|apply (hoare_raise Ir); exact I].
      destruct H as [H|[_ H]]; [|lia]. unfold render_delete. rewrite H. apply (rd_done Hrd). Qed.
  Lemma ro_feed_and_take req : R (feed_and_take req) (fun req' => opt_uri_path req' = opt_uri_path req /\ code req' = code req).
  Proof. apply hoare_feed; auto. Qed.
  Lemma ro_render_to_pipe req : read_only_request req -> R (render_to_pipe self req) (fun _ => True).
  Proof. intros H. apply (hoare_pipe It); [|apply ro_feed_and_take|apply (rd_add_observation Hrd)].
    intros req' _ Hc. apply ro_render. unfold read_only_request in *. rewrite Hc. exact H. Qed.
End ServerRO.

Definition fs_equiv (a b : fsys) : Prop := forall k, lookup a k = lookup b k.
Lemma fs_equiv_refl a : fs_equiv a a. Proof. intros k. reflexivity. Qed.
(* final state and result of a computation, forgetting the effects *)
Definition out {A} (m : FM A) (st : state) : state * (exnk + A) := (fst (fst (m st)), snd (m st)).
Lemma out_bind {A B} (m : FM A) (f : A -> FM B) st :
  out (bindF m f) st = match out m st with (st1, inl x) => (st1, inl x) | (st1, inr a) => out (f a) st1 end.
Proof. unfold out, bindF. destruct (m st) as [[st1 e1] [x|a]]; cbn; [reflexivity|]. destruct (f a st1) as [[st2 e2] r]. reflexivity. Qed.
Definition errsafe_at (st : state) (m : FM response) : Prop :=
  match out m st with
  | (st', inl _) => fs_equiv (st_fs st') (st_fs st)
  | (st', inr r) => 128 <= rcode r -> fs_equiv (st_fs st') (st_fs st)
  end.
Lemma out_ret {A} (a : A) st : out (ret a) st = (st, inr a). Proof. reflexivity. Qed.
Lemma out_raise {A} e st : out (@raise A e) st = (st, inl e). Proof. reflexivity. Qed.
Lemma out_stat p st : out (stat p) st = (st, inr (fs_stat (st_fs st) p)). Proof. reflexivity. Qed.
Lemma out_open_dir_w p st : out (open_dir_w p) st = (st, inr (if has_nul p then inl EINVAL else inr tt)). Proof. reflexivity. Qed.
Lemma out_create shown p c st : out (create shown p c) st =
  match fs_create (st_fs st) p c with inl e => (st, inr (inl e)) | inr fs' => (with_fs st fs', inr (inr tt)) end.
Proof. unfold out, create. destruct (fs_create (st_fs st) p c); reflexivity. Qed.
Lemma out_rename shown a b st : out (rename shown a b) st =
  match fs_rename (st_fs st) a b with inl e => (st, inr (inl e)) | inr fs' => (with_fs st fs', inr (inr tt)) end.
Proof. unfold out, rename. destruct (fs_rename (st_fs st) a b); reflexivity. Qed.
Lemma out_unlink shown p st : out (unlink shown p) st =
  match fs_unlink (st_fs st) p with inl e => (st, inr (inl e)) | inr fs' => (with_fs st fs', inr (inr tt)) end.
Proof. unfold out, unlink. destruct (fs_unlink (st_fs st) p); reflexivity. Qed.

(* resolving a path only looks at shorter keys *)
Lemma walk_congr fs fs' rest : forall cur,
  (forall q, (length q < length (cur ++ rest))%nat -> lookup fs' q = lookup fs q) -> walk fs' cur rest = walk fs cur rest.
Proof. induction rest as [|p r IH]; intros cur H; cbn [walk]; [reflexivity|].
  rewrite H by (rewrite app_length; cbn; lia).
  destruct (lookup fs cur) as [[c|]|]; try reflexivity. destruct (255 <? utf8_len p); [reflexivity|].
  apply IH. intros q Hq. apply H. rewrite <- app_assoc in Hq. exact Hq. Qed.
Lemma resolve_congr fs fs' p :
  (forall q, (length q < length (parts p))%nat -> lookup fs' q = lookup fs q) -> resolve fs' p = resolve fs p.
Proof. intros H. unfold resolve. destruct (has_nul p); [reflexivity|]. apply walk_congr. exact H. Qed.
Lemma resolve_aset fs k n p : (length (parts p) <= length k)%nat -> resolve (aset fs k n) p = resolve fs p.
Proof. intros H. apply resolve_congr. intros q Hq. apply lookup_aset_other. intros ->. lia. Qed.
Lemma resolve_aremove fs k p : (length (parts p) <= length k)%nat -> resolve (aremove fs k) p = resolve fs p.
Proof. intros H. apply resolve_congr. intros q Hq. apply lookup_aremove_other. intros ->. lia. Qed.

Lemma create_unlink fs p c fs1 : parts p <> [] -> fs_create fs p c = inr fs1 ->
  exists fs2, fs_unlink fs1 p = inr fs2 /\ fs_equiv fs2 fs.
Proof. intros Hne Hc. apply fs_create_inv in Hc as (Er & El & ->). unfold fs_unlink.
  rewrite resolve_aset, Er, lookup_aset_same by auto. eexists. split; [reflexivity|]. intros k.
  destruct (list_eq_dec (list_eq_dec Z.eq_dec) k (parts p)) as [->|Hk].
  - rewrite lookup_aremove_same, El by exact Hne. reflexivity.
  - rewrite lookup_aremove_other, lookup_aset_other by congruence. reflexivity. Qed.
(* so the final stat of a PUT cannot turn a success into an error *)
Lemma rename_stat fs a b fs2 : parts b <> [] -> length (parts a) = length (parts b) -> fs_rename fs a b = inr fs2 ->
  exists n, fs_stat fs2 b = inr n.
Proof. intros Hne Hlen H. apply fs_rename_inv in H as (na & _ & Eb & ->).
  unfold fs_stat. rewrite resolve_aset, resolve_aremove, Eb, lookup_aset_same by (auto; lia). eauto. Qed.

Lemma length_removelast_snoc {A} (l : list A) x : l <> [] -> length (removelast l ++ [x]) = length l.
Proof. intros H. rewrite (app_removelast_last x H) at 2. rewrite !app_length. reflexivity. Qed.

(* nothing is assumed about the temporary name: if it exists already, creating it fails and nothing has changed *)
Lemma store_file_errsafe self req p st : parts p <> [] -> errsafe_at st (store_file self req p).
Proof.
  intros Hne. unfold errsafe_at, store_file. set (tmp := child (parent p) (fs_tmpname self)).
  assert (parts tmp <> []) as Htne by (cbn; intros H; apply app_eq_nil in H as [_ H]; discriminate).
  assert (length (parts tmp) = length (parts p)) as Hlen by (apply length_removelast_snoc; exact Hne).
  rewrite out_bind, out_open_dir_w.
  destruct (has_nul (parent p)); cbv beta iota; [rewrite out_raise; apply fs_equiv_refl|].
  rewrite out_bind, out_create.
  destruct (fs_create (st_fs st) tmp _) as [e|fs1] eqn:Ec; cbv beta iota; [rewrite out_raise; apply fs_equiv_refl|].
  (* from here on every failure goes through the except clause, which removes the temporary file *)
  destruct (create_unlink _ _ _ _ Htne Ec) as [fs2 [Eu Hundo]].
  assert (forall shown e, out (unlink shown tmp ;;; @raise response (XOSError e)) (with_fs st fs1) = (with_fs st fs2, inl (XOSError e))) as Hunl
    by (intros shown e; rewrite out_bind, out_unlink; cbn [st_fs with_fs]; rewrite Eu; reflexivity).
  rewrite out_bind. destruct (fs_disk_full self && nonempty_list (payload req)).
  { rewrite out_ret. cbv beta iota. rewrite Hunl. exact Hundo. }
  rewrite out_rename. cbn [st_fs with_fs]. destruct (fs_rename fs1 tmp p) as [e|fs3] eqn:Er; cbv beta iota.
  - rewrite Hunl. exact Hundo.
  - destruct (rename_stat _ _ _ _ Hne Hlen Er) as [n Hs]. rewrite out_bind, out_stat. cbn [st_fs with_fs]. rewrite Hs. cbv beta iota.
    rewrite out_ret. intros Hc. cbn in Hc. lia.
Qed.

Lemma errsafe_ro {Eff Exn} st (m : FM response) Q : hoare Isame Eff Exn m Q -> errsafe_at st m.
Proof. intros H. unfold errsafe_at, out. specialize (H st). destruct (m st) as [[st1 e1] [x|r]]; destruct H as [H _]; cbn; unfold Isame in H; rewrite H; intros; apply fs_equiv_refl. Qed.
Lemma errsafe_bind_ro {Eff Exn A} st (m : FM A) (f : A -> FM response) Q :
  hoare Isame Eff Exn m Q -> (forall a st1, Q a -> st_fs st1 = st_fs st -> errsafe_at st1 (f a)) -> errsafe_at st (bindF m f).
Proof. intros Hm Hf. unfold errsafe_at. rewrite out_bind. unfold out at 1. specialize (Hm st).
  destruct (m st) as [[st1 e1] [x|a]]; destruct Hm as [H [_ HQ]]; unfold Isame in H; cbn [fst snd].
  - rewrite H. apply fs_equiv_refl.
  - specialize (Hf a st1 HQ H). unfold errsafe_at in Hf. rewrite <- H. exact Hf. Qed.

Section ErrSafe.
  Variable self : fileserver.
  Hypothesis Hroot : root_ok (fs_root self).
  (* the temporary name chosen by tempfile does not exist yet (tempfile retries until that is the case) *)
  Definition tmp_fresh (req : request) (fs : fsys) : Prop :=
    forall p, request_to_localpath self req = Ok p ->
      lookup fs (parts (child (parent (load_parts p)) (fs_tmpname self))) = None.

  Lemma errsafe_done (r : response) st : errsafe_at st (ret r).
  Proof. unfold errsafe_at. rewrite out_ret. intros _. apply fs_equiv_refl. Qed.
  Lemma errsafe_render_put req st : errsafe_at st (render_put self req).
  Proof. unfold render_put. destruct (negb (fs_write self)); [apply errsafe_done|].
    destruct (negb (nonempty_list (opt_uri_path req)) || last_is_empty (opt_uri_path req)) eqn:G; [apply errsafe_done|].
    apply orb_false_elim in G as [G1 G2]. apply negb_false_iff in G1.
    eapply errsafe_bind_ro; [apply (rd_lift (reads_ok_ro self))|]. intros lp st1 [p [Ep ->]] _.
    eapply errsafe_bind_ro; [apply (rd_put_preconditions (reads_ok_ro self)); exact I|]. intros _ st2 _ _. apply store_file_errsafe.
    destruct (request_to_localpath_confined _ _ _ Hroot Ep) as [Hp _]. rewrite Hp. cbn [parts].
    intros H. apply app_eq_nil in H as [_ H]. exact (filter_last_nonempty _ G1 G2 H). Qed.
  Lemma errsafe_render_delete req st : errsafe_at st (render_delete self req).
  Proof. unfold render_delete. destruct (negb (fs_write self)); [apply errsafe_done|]. destruct (_ || _); [apply errsafe_done|].
    eapply errsafe_bind_ro; [apply (rd_lift (reads_ok_ro self))|]. intros p st1 _ _.
    eapply errsafe_bind_ro; [apply (rd_check_if_match (reads_ok_ro self)); [discriminate|exact I]|]. intros _ st2 _ _.
    unfold errsafe_at. rewrite out_bind, out_unlink. destruct (fs_unlink (st_fs st2) p) as [[]|fs']; cbv beta iota;
      try (rewrite out_raise; apply fs_equiv_refl). rewrite out_ret. intros Hc. cbn in Hc. lia. Qed.
  Lemma errsafe_render req st : errsafe_at st (render self req).
  Proof. unfold render. destruct (code req =? 1); [eapply errsafe_ro; apply (rd_render_get (reads_ok_ro self))|].
    destruct (code req =? 3); [apply errsafe_render_put|].
    destruct (code req =? 4); [apply errsafe_render_delete|]. unfold errsafe_at. rewrite out_raise. apply fs_equiv_refl. Qed.
  Lemma errsafe_render_to_pipe req st : errsafe_at st (render_to_pipe self req).
  Proof. apply pipe_cases.
    - apply errsafe_render.
    - eapply errsafe_bind_ro; [apply ro_feed_and_take|]. intros. apply errsafe_render.
    - eapply errsafe_bind_ro; [apply (rd_add_observation (reads_ok_ro self))|]. intros. apply errsafe_render. Qed.
End ErrSafe.

Definition errcode (r : response) : Prop := 128 <= rcode r.
Lemma exn_code_error e : e <> XContinue -> 128 <= exn_code e.
Proof. destruct e; cbn; try lia. intros H. contradiction. Qed.
Section Escaping.
  Variable self : fileserver.
  (* no change of the file system, no effect at all, no 2.31 Continue *)
  Notation Q := (hoare Isame (fun _ => False) (fun e => e <> XContinue)).
  Let Ir : forall s, Isame s s := fun s => eq_refl.
  Let It : forall a b c, Isame a b -> Isame b c -> Isame a c := fun a b c H1 H2 => eq_trans H2 H1.

  (* whatever would be done with the local path is never reached *)
  Lemma rtl_hostile req p {A} (k : ppath -> FM A) P : In p (opt_uri_path req) -> hostile p ->
    Q (bindF (lift_path (request_to_localpath self req)) k) P.
  Proof. intros Hin Hh. rewrite (request_to_localpath_rejects self req p Hin Hh).
    eapply (hoare_bind It) with (Q := fun _ => False); [apply (hoare_raise Ir); discriminate|intros a []]. Qed.
  Lemma hostile_not_wkc path p : In p path -> hostile p -> parts_eqb path WKC = false.
  Proof. intros Hin Hh. destruct (parts_eqb path WKC) eqn:E; [|reflexivity]. apply parts_eqb_eq in E. subst path. exfalso.
    destruct Hin as [<-|[<-|[]]]; destruct Hh as [H|[H|H]]; try discriminate; apply H; repeat constructor; discriminate. Qed.
  Lemma quiet_render req p : In p (opt_uri_path req) -> hostile p -> Q (render self req) errcode.
  Proof. intros Hin Hh. unfold render. destruct (code req =? 1).
    - unfold render_get. rewrite (hostile_not_wkc _ _ Hin Hh). apply (rtl_hostile req p); assumption.
    - destruct (code req =? 3).
      + unfold render_put. destruct (negb (fs_write self)); [apply (hoare_ret Ir); unfold errcode; cbn; lia|].
        destruct (_ || _); [apply (hoare_ret Ir); unfold errcode; cbn; lia|].
        apply (rtl_hostile req p); assumption.
      + destruct (code req =? 4); [|apply (hoare_raise Ir); discriminate].
        unfold render_delete. destruct (negb (fs_write self)); [apply (hoare_ret Ir); unfold errcode; cbn; lia|].
        destruct (_ || _); [apply (hoare_ret Ir); unfold errcode; cbn; lia|].
        apply (rtl_hostile req p); assumption. Qed.
  Lemma escaping_request_error req st p : In p (opt_uri_path req) -> hostile p ->
    (forall n m s, opt_block1 req = Some (n, m, s) -> m = false) ->
    match serve self req st with (st', effs, r) => 128 <= rcode r /\ effs = [] /\ st_fs st' = st_fs st end.
  Proof.
    intros Hin Hh Hb.
    assert (Q (render_to_pipe self req) errcode) as Hq.
    { apply (hoare_pipe It).
      - intros req' Hu _. apply (quiet_render req' p); [rewrite Hu; exact Hin|exact Hh].
      - apply hoare_feed; [auto|discriminate|discriminate|]. intros [n [s Hm]]. discriminate (Hb _ _ _ Hm).
      - apply (rtl_hostile req p); assumption. }
    unfold serve. specialize (Hq st). destruct (render_to_pipe self req st) as [[st' effs] [e|r]]; destruct Hq as [H1 [H2 H3]];
      (split; [|split; [destruct H2 as [|? ? []]; reflexivity|exact H1]]).
    - apply exn_code_error. exact H3.
    - exact H3.
  Qed.
End Escaping.

Lemma blk_size_pos szx : 0 <= szx -> 16 <= blk_size szx.
Proof. intros H. unfold blk_size. change 16 with (2 ^ 4). apply Z.pow_le_mono_r; lia. Qed.
Lemma blk_start_nonneg n szx : 0 <= n -> 0 <= szx -> 0 <= blk_start n szx.
Proof. intros Hn Hs. pose proof (blk_size_pos szx Hs). unfold blk_start. nia. Qed.
Lemma blk_start_succ n szx : blk_start (n + 1) szx = blk_start n szx + blk_size szx.
Proof. unfold blk_start. lia. Qed.
Lemma blk_size_divide a b : 0 <= a -> a <= b -> (blk_size a | blk_size b).
Proof. intros Ha Hab. unfold blk_size. exists (2 ^ (Z.min b 6 - Z.min a 6)). rewrite <- Z.pow_add_r by lia. f_equal. lia. Qed.

Lemma skipn_skipn_add {A} b : forall a (l : list A), skipn a (skipn b l) = skipn (b + a) l.
Proof. induction b as [|b IH]; intros a l; [reflexivity|]. destruct l as [|x l]; [cbn; apply skipn_nil|]. cbn. apply IH. Qed.
Lemma bfrom_add (c : list Z) s k : 0 <= s -> 0 <= k -> bfrom c (s + k) = bfrom (bfrom c s) k.
Proof. intros Hs Hk. unfold bfrom. rewrite skipn_skipn_add. f_equal. rewrite <- Z2Nat.inj_add by lia. reflexivity. Qed.

(* the payload and the M bit of block [n] of content [c], as render_get_file computes them (it reads one byte more than
   the block size to see whether anything follows) *)
Definition block_payload (c : list Z) (n szx : Z) : list Z := bto (bto (bfrom c (blk_start n szx)) (blk_size szx + 1)) (blk_size szx).
Definition block_more (c : list Z) (n szx : Z) : bool := blen (bto (bfrom c (blk_start n szx)) (blk_size szx + 1)) >? blk_size szx.

Lemma block_payload_spec c n szx : 0 <= szx -> block_payload c n szx = bto (bfrom c (blk_start n szx)) (blk_size szx).
Proof. intros H. pose proof (blk_size_pos szx H). unfold block_payload, bto. rewrite firstn_firstn. f_equal. lia. Qed.
Lemma block_more_spec c n szx : 0 <= szx -> block_more c n szx = (blen (bfrom c (blk_start n szx)) >? blk_size szx).
Proof. intros H. pose proof (blk_size_pos szx H). unfold block_more, bto, blen. rewrite firstn_length.
  destruct (Z.of_nat (length (bfrom c (blk_start n szx))) >? blk_size szx) eqn:E; lia. Qed.
Lemma block_split_at c n szx : 0 <= n -> 0 <= szx ->
  bfrom c (blk_start n szx) = block_payload c n szx ++ bfrom c (blk_start n szx + blk_size szx).
Proof. intros Hn Hs. pose proof (blk_size_pos szx Hs). rewrite block_payload_spec by assumption.
  rewrite bfrom_add by (try apply blk_start_nonneg; lia). symmetry. apply firstn_skipn. Qed.
Lemma block_last c n szx : 0 <= szx -> block_more c n szx = false -> block_payload c n szx = bfrom c (blk_start n szx).
Proof. intros H Hm. rewrite block_more_spec in Hm by assumption. rewrite block_payload_spec by assumption.
  unfold bto. apply firstn_all2. unfold blen in Hm. lia. Qed.
Lemma block_payload_len_more c n szx : 0 <= szx -> block_more c n szx = true -> blen (block_payload c n szx) = blk_size szx.
Proof. intros Hs Hm. pose proof (blk_size_pos szx Hs). rewrite block_more_spec in Hm by assumption. rewrite block_payload_spec by assumption.
  unfold blen, bto in *. rewrite firstn_length. lia. Qed.

Lemma read_at_spec (c : list Z) s k : read_at c s k = bto (bfrom c s) k.
Proof. unfold read_at. destruct (blen c <=? s) eqn:E; [|reflexivity]. unfold bfrom, bto, blen in *.
  rewrite skipn_all2 by lia. symmetry. apply firstn_nil. Qed.
Lemma out_obs_stat p st : exists st1, out (obs_stat p) st = (st1, inr tt) /\ st_fs st1 = st_fs st.
Proof. unfold out, obs_stat. destruct (obs_find (st_obs st) p) as [[|]|]; eexists; split; reflexivity. Qed.
Lemma out_open_read p st : out (open_read p) st = (st, inr (fs_read (st_fs st) p)). Proof. reflexivity. Qed.

Lemma out_render_get_file self req lp c n m szx st :
  nonempty_list (opt_uri_path req) && last_is_empty (opt_uri_path req) = false ->
  match opt_block2 req with Some b => b | None => (0, false, 6) end = (n, m, szx) ->
  fs_stat (st_fs st) lp = inr (NFile c) ->
  exists st1, st_fs st1 = st_fs st /\
    out (render_get_file self req lp) st =
      (st1, inr {| rcode := 69; retag := false;
                   rbody := BFile (block_payload c n szx) (if (n =? 0) && negb (block_more c n szx) then None else Some (n, block_more c n szx, szx)) |}).
Proof. intros Hl Hb Hst. unfold render_get_file. rewrite Hl, Hb, out_bind, out_open_read. unfold fs_read. rewrite Hst. cbv beta iota.
  rewrite out_bind. destruct (out_obs_stat lp st) as [st1 [Ho Hs]]. rewrite Ho. cbv beta iota. rewrite out_ret.
  exists st1. split; [exact Hs|]. unfold block_payload, block_more. rewrite !read_at_spec. reflexivity. Qed.

Section Blockwise.
  Variable self : fileserver.
  Variable req : request.
  Variable p : list (list Z).
  Variable c : list Z.
  (* a GET without Observe and ETag options for a path that designates a regular file with content c *)
  Hypothesis Hcode : code req = 1.
  Hypothesis Hobs : opt_observe req = None.
  Hypothesis Hetags : existsb is_cur (opt_etags req) = false.     (* no ETag option carries the file's current ETag (that would be answered 2.03 Valid without a body) *)
  Hypothesis Hnba : needs_blockwise_assembly req = false.        (* i.e. a non-empty Uri-Path that does not end in "" and is not .well-known/core *)
  Hypothesis Hpath : request_to_localpath self req = Ok p.
  Lemma nba_last : nonempty_list (opt_uri_path req) && last_is_empty (opt_uri_path req) = false.
  Proof using Hnba. unfold needs_blockwise_assembly in Hnba. apply orb_false_elim in Hnba as [H _]. apply orb_false_elim in H as [_ H]. rewrite H. apply andb_false_r. Qed.
  Lemma nba_wkc : parts_eqb (opt_uri_path req) WKC = false.
  Proof using Hnba. unfold needs_blockwise_assembly in Hnba. apply orb_false_elim in Hnba as [_ H]. exact H. Qed.

  Definition block_response (n szx : Z) : response :=
    {| rcode := 69;
       rbody := BFile (block_payload c n szx) (if (n =? 0) && negb (block_more c n szx) then None else Some (n, block_more c n szx, szx));
       retag := fs_etag_enabled self && (nonempty_list (opt_etags req) || match (if (n =? 0) && negb (block_more c n szx) then None else Some (n, block_more c n szx, szx)) with Some _ => true | None => false end) |}.

  (* any Block2 option value, or none (fileserver.py:289-291: then block 0 of 1024 bytes) *)
  Lemma serve_block b n m szx st : match b with Some x => x | None => (0, false, 6) end = (n, m, szx) ->
    fs_stat (st_fs st) (load_parts p) = inr (NFile c) ->
    exists st1 effs, serve self (with_block2 req b) st = (st1, effs, block_response n szx) /\ st_fs st1 = st_fs st.
  Proof.
    intros Hb Hst.
    assert (exists st1, out (render_to_pipe self (with_block2 req b)) st = (st1, inr (block_response n szx)) /\ st_fs st1 = st_fs st) as [st1 [H1 H2]].
    { unfold render_to_pipe. cbn [opt_observe with_block2]. rewrite Hobs.
      change (needs_blockwise_assembly (with_block2 req b)) with (needs_blockwise_assembly req). rewrite Hnba.
      unfold render. cbn [code with_block2]. rewrite Hcode. cbn [Z.eqb Pos.eqb].
      unfold render_get. cbn [opt_uri_path with_block2]. rewrite nba_wkc.
      assert (request_to_localpath self (with_block2 req b) = Ok p) as -> by exact Hpath.
      rewrite out_bind. unfold lift_path. rewrite out_ret, out_bind, out_stat, Hst. cbv beta iota.
      cbn [opt_etags with_block2]. rewrite Hetags, andb_false_r, out_bind.
      destruct (out_render_get_file self (with_block2 req b) (load_parts p) c n m szx st nba_last Hb Hst) as [st1 [Hs ->]].
      rewrite out_ret. exists st1. split; [reflexivity|exact Hs]. }
    unfold serve. unfold out in H1. destruct (render_to_pipe self (with_block2 req b) st) as [[st' effs] r].
    cbn [fst snd] in H1. injection H1 as -> ->. exists st1, effs. split; [reflexivity|exact H2]. Qed.

  Lemma has_more_block n szx : has_more (block_response n szx) = block_more c n szx.
  Proof. unfold has_more, block_response. cbn [rbody]. destruct (block_more c n szx); [rewrite andb_false_r|]; [reflexivity|]. destruct (n =? 0); reflexivity. Qed.
End Blockwise.
