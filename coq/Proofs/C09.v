(* C09 — the rendering decision and the pipes of one request (Model/C09.v): the decision table of final messages, and the
   shape of what the pipes hand to the token manager under every interleaving of the coroutine and stop() *)
From Coq Require Import String Ascii.
From Verif Require Import Lib.Py Lib.Tactics Model.C09.
Open Scope Z_scope.

Definition bare_500 : msg := mk_msg INTERNAL_SERVER_ERROR [].

(* the plain path: a resource.Resource, or an observable resource asked without Observe=0 (Resource._render_to_pipe) *)
Definition plain_methods (s : site) (r : request) : option (list Z) :=
  match find_resource s (r_path r) with
  | Some (Plain ms) => Some ms
  | Some (Observable ms _) => if observing r then None else Some ms
  | _ => None
  end.
Definition handled (s : site) (r : request) (methods : list Z) : Prop :=
  plain_methods s r = Some methods /\ is_request (r_code r) = true /\
  existsb (Z.eqb (r_code r)) methods = true.

Lemma default_code_is_response : forall c, is_response (default_code c) = true.
Proof. intros c. unfold default_code. destruct ((c =? GET) || (c =? FETCH)); [reflexivity|]. destruct (c =? DELETE); reflexivity. Qed.
(* the code the message leaves Resource.render with *)
Definition final_code (r : request) (m : msg) : Z := match m_code m with Some c => c | None => default_code (r_code r) end.

(* every class but NoRequestInterface renders the message it was constructed with *)
Lemma cre_to_message_own : forall c t, c <> E_NoRequestInterface ->
  cre_to_message c t = match t with
                       | CDefault => TMReturn (VMsg (mk_msg (cre_code c) (cre_default_text c)))
                       | CText b => TMReturn (VMsg (mk_msg (cre_code c) b))
                       | CNotStr => TMRaises
                       end.
Proof. intros c t H. unfold cre_to_message. destruct c; try reflexivity. congruence. Qed.
(* what error_to_message makes of an exception *)
Definition final_of_exc (e : exc) : option msg := match fst (exception_to_value e) with VMsg m => Some m | _ => None end.
(* what a plain resource with these handlers answers *)
Definition plain_final (methods : list Z) (r : request) : option msg :=
  match render methods r with Responded m => Some m | Raised e => final_of_exc e end.
(* the decision by the kind of resource the path leads to; for a resource with its own render_to_pipe only the first
   thing its script does counts *)
Lemma final_message_by_resource : forall srv r,
  final_message srv r =
  match srv with
  | None => Some (mk_msg NOT_FOUND (ascii_bytes "not a server"))
  | Some s =>
      match find_resource s (r_path r) with
      | None => Some (mk_msg NOT_FOUND [])
      | Some (Plain methods) => plain_final methods r
      | Some Raw =>
          match r_outcome r with
          | Script (RAdd (VMsg m) true :: _) => Some m
          | Script (RRaise e :: _) => final_of_exc e
          | Script _ => None
          | _ => Some bare_500
          end
      | Some (Observable methods mode) =>
          if observing r
          then match mode with
               | ORaise e => final_of_exc e
               | _ => if establishes methods mode r then None else plain_final methods r
               end
          else plain_final methods r
      end
  end.
Proof.
  intros [s|] r; [|reflexivity]. unfold final_message, respond, plain_final.
  destruct (find_resource s (r_path r)) as [[methods| |methods mode]|]; [| | |reflexivity].
  - unfold respond_plain. destruct (render methods r); reflexivity.
  - destruct (r_outcome r) as [v|e|[|[[m| | |] [|]|e|] l]]; reflexivity.
  - destruct (observing r); [|unfold respond_plain; destruct (render methods r); reflexivity].
    unfold respond_observable, establishes.
    destruct mode as [| | |e]; [| | |reflexivity]; destruct (render methods r) as [m|e]; try reflexivity.
    destruct (is_successful (code_of_msg m)); reflexivity.
Qed.
Lemma plain_final_message : forall s r methods, plain_methods s r = Some methods ->
  final_message (Some s) r = plain_final methods r.
Proof.
  intros s r methods H. rewrite final_message_by_resource. unfold plain_methods in H.
  destruct (find_resource s (r_path r)) as [[ms| |ms mode]|]; try discriminate; [|destruct (observing r); [discriminate|]];
    injection H as ->; reflexivity.
Qed.

(* the whole table for a request that gets as far as a handler, by what the handler does:
   - a returned message is sent with the default code / the request's No-Response filled in if it had none, unless its code
     is not a response code (EMPTY, a request code, 6.xx/7.xx): then Resource.render raises (a9de195) and a bare 5.00 goes out;
   - a raised exception is rendered by error_to_message;
   - any other return value: bare 5.00 *)
Lemma handled_table : forall s r methods, handled s r methods ->
  final_message (Some s) r =
  match r_outcome r with
  | Return (VMsg m) => Some (if is_response (final_code r m) then fill_defaults r m else bare_500)
  | Return VNoResponse =>
      Some {| m_code := Some (default_code (r_code r)); m_payload := []; m_cf := None; m_nr := Some 26; m_obs := None |}
  | Raise_ e => final_of_exc e
  | _ => Some bare_500
  end.
Proof.
  intros s r methods (Hp & Hq & Hm). rewrite (plain_final_message _ _ _ Hp). unfold plain_final, render. rewrite Hq, Hm.
  destruct (r_outcome r) as [[m| | |]|e|l]; try reflexivity; unfold checked; cbn [negb fill_defaults m_code].
  - fold (final_code r m). destruct (is_response (final_code r m)); reflexivity.
  - rewrite default_code_is_response. reflexivity.
Qed.
Lemma returned_noresponse_sentinel : forall s r methods, handled s r methods -> r_outcome r = Return VNoResponse ->
  final_message (Some s) r = Some {| m_code := Some (default_code (r_code r)); m_payload := []; m_cf := None; m_nr := Some 26; m_obs := None |}.
Proof. intros s r methods H Ho. rewrite (handled_table _ _ _ H), Ho. reflexivity. Qed.

(* everything else: a bare 5.00 — no payload, whatever the exception or value was *)
Definition yields_bare_500 (o : outcome) : Prop :=
  o = Raise_ EOther \/ o = Raise_ (ERenderable TMRaises) \/ o = Raise_ (ERenderable (TMReturn VNone)) \/
  o = Raise_ (ERenderable (TMReturn VOther)) \/ o = Raise_ (ERenderable (TMReturn VNoResponse)) \/
  o = Return VNone \/ o = Return VOther.

(* the renderings that end with a final message: not a resource with its own render_to_pipe, not an observation being
   established *)
Definition finalising (srv : option site) (r : request) : Prop :=
  match srv with
  | Some s => match find_resource s (r_path r) with
              | Some Raw => False
              | Some (Observable ms mode) => observing r = true -> establishes ms mode r = false
              | _ => True
              end
  | None => True
  end.
Lemma respond_plain_shapes : forall methods r,
  (exists m, respond_plain methods r = [RAdd (VMsg m) true; RReturn]) \/ (exists e, respond_plain methods r = [RRaise e]).
Proof. intros methods r. unfold respond_plain. destruct (render methods r); [left|right]; eexists; reflexivity. Qed.
Lemma respond_shapes : forall srv r, finalising srv r ->
  (exists m, respond srv r = [RAdd (VMsg m) true; RReturn]) \/
  (exists e, respond srv r = [RRaise e]).
Proof.
  intros [s|] r Hn; [|left; eexists; reflexivity]. unfold respond, finalising in *.
  destruct (find_resource s (r_path r)) as [[methods| |methods mode]|];
    [apply respond_plain_shapes | destruct Hn | | right; eexists; reflexivity].
  destruct (observing r); [|apply respond_plain_shapes].
  unfold respond_observable. rewrite (Hn eq_refl).
  destruct mode as [| | |e]; [| | |right; eexists; reflexivity]; apply respond_plain_shapes.
Qed.

Definition live : pipes := setup_pipes.
Definition ended : pipes := {| p_old := None; p_next := None; p_registered := false; p_cancelled := true |}.

Lemma live_explicit : live =
  {| p_old := Some [(TmOnEvent, true); (EndOnEnd, false); (EndRemoveInterest, false)];
     p_next := Some [(EtmOnEvent, true); (EndTaskCancel, false)]; p_registered := true; p_cancelled := false |}.
Proof. reflexivity. Qed.

Lemma live_add_msg : forall m last,
  do_raction live (RAdd (VMsg m) last) = (if last then ended else live, [Send m last], false).
Proof. intros m [|]; reflexivity. Qed.
Lemma live_add_none : forall last,
  do_raction live (RAdd VNone last) = (if last then ended else live, [Log LogTmError], false).
Proof. intros [|]; reflexivity. Qed.
Lemma live_add_garbage : forall v last, v = VNoResponse \/ v = VOther ->
  do_raction live (RAdd v last) = (live, [], true).
Proof. intros v last [->| ->]; reflexivity. Qed.
Lemma live_return : do_raction live RReturn = (live, [], false).
Proof. reflexivity. Qed.
Lemma live_raise : forall e,
  do_raction live (RRaise e) =
  match exception_to_value e with
  | (VMsg m, logs) => (ended, map Log logs ++ [Send m true], false)
  | (_, logs) => (live, map Log logs, true)
  end.
Proof. intros [[[m| | |]|]|]; reflexivity. Qed.
Lemma live_stop : old_unregister_tm live = (ended, [], false).
Proof. reflexivity. Qed.

(* Three classes of effect lists.  [once]: nothing outside the model, at most one final Send, and nothing sent after it;
   [calm]: nothing outside the model, no final Send; [quiet]: nothing outside the model, nothing sent. *)
Definition is_unmodelled (a : action) : bool := match a with Log LogUnmodelled => true | _ => false end.
Definition quiet (l : list action) : bool := forallb (fun a => negb (is_send a) && negb (is_unmodelled a)) l.
Definition calm (l : list action) : bool := forallb (fun a => negb (is_final_send a) && negb (is_unmodelled a)) l.
Fixpoint once (l : list action) : bool :=
  match l with
  | [] => true
  | Send _ true :: rest => quiet rest
  | a :: rest => negb (is_unmodelled a) && once rest
  end.

Lemma once_app_calm : forall a b, calm a = true -> once (a ++ b) = once b.
Proof.
  induction a as [|x a IH]; intros b H; [reflexivity|]. cbn [calm forallb] in H. apply andb_prop in H as [Hx Ha].
  destruct x as [m [|]|[]]; try discriminate; cbn [app once is_unmodelled negb andb]; apply IH; exact Ha.
Qed.
Lemma quiet_once : forall a, quiet a = true -> once a = true.
Proof.
  induction a as [|x a IH]; intros H; [reflexivity|]. cbn [quiet forallb] in H. apply andb_prop in H as [Hx Ha].
  destruct x as [m l|lg]; [discriminate|]. apply andb_prop in Hx as [_ Hx]. cbn [once]. rewrite Hx. exact (IH Ha).
Qed.
Lemma once_app_quiet : forall a b, once a = true -> quiet b = true -> once (a ++ b) = true.
Proof.
  induction a as [|x a IH]; intros b Ha Hb; [exact (quiet_once b Hb)|].
  destruct x as [m [|]|lg]; cbn [app once] in *.
  - unfold quiet in *. rewrite forallb_app, Ha. exact Hb.
  - apply IH; assumption.
  - apply andb_prop in Ha as [-> Ha]. apply IH; assumption.
Qed.
Lemma quiet_no_send : forall a x, quiet a = true -> In x a -> is_send x = false.
Proof.
  intros a x H Hx. unfold quiet in H. rewrite forallb_forall in H. specialize (H x Hx).
  apply andb_prop in H as [H _]. apply negb_true_iff. exact H.
Qed.
Lemma quiet_count : forall a, quiet a = true -> count_final a = 0%nat.
Proof.
  unfold count_final. induction a as [|x a IH]; intros H; [reflexivity|]. cbn [quiet forallb] in H. apply andb_prop in H as [Hx Ha].
  destruct x as [m l|lg]; [discriminate|]. exact (IH Ha).
Qed.
Lemma once_count : forall a, once a = true -> (count_final a <= 1)%nat.
Proof.
  unfold count_final. induction a as [|x a IH]; intros H; [cbn; lia|].
  destruct x as [m [|]|lg]; cbn [once] in H; cbn [filter is_final_send].
  - apply quiet_count in H. unfold count_final in H. cbn [length]. lia.
  - exact (IH H).
  - apply andb_prop in H as [_ H]. exact (IH H).
Qed.
Lemma once_after_final : forall pre m post, once (pre ++ Send m true :: post) = true ->
  forall x, In x post -> is_send x = false.
Proof.
  induction pre as [|y pre IH]; intros m post H x Hx.
  - exact (quiet_no_send post x H Hx).
  - destruct y as [m' [|]|lg]; cbn [app once] in H.
    + (* an earlier final Send: the later one would have to be quiet *)
      pose proof (quiet_no_send _ (Send m true) H (in_elt _ _ _)). discriminate.
    + exact (IH m post H x Hx).
    + apply andb_prop in H as [_ H]. exact (IH m post H x Hx).
Qed.
Lemma once_closed : forall a, once a = true -> ~ In (Log LogUnmodelled) a.
Proof.
  assert (Hq: forall a, quiet a = true -> ~ In (Log LogUnmodelled) a).
  { intros a H Hin. unfold quiet in H. rewrite forallb_forall in H. specialize (H _ Hin). discriminate. }
  induction a as [|x a IH]; intros H Hin; [destruct Hin|destruct Hin as [Hx|Hx]].
  - subst x. discriminate.
  - destruct x as [m [|]|lg]; cbn [once] in H; [exact (Hq a H Hx)|exact (IH H Hx)|].
    apply andb_prop in H as [_ H]. exact (IH H Hx).
Qed.

(* one input to ended pipes: nothing is sent any more; late events are logged and dropped *)
Lemma pstep_ended : forall i, exists a, pstep ended i = (ended, a) /\ quiet a = true.
Proof. intros [[v last|e|]|]; eexists; split; reflexivity. Qed.
Lemma pstep_live : forall i, let '(q, a) := pstep live i in (q = live /\ calm a = true) \/ (q = ended /\ once a = true).
Proof.
  intros [[v last|e|]|]; unfold pstep.
  - destruct v as [m| | |].
    + rewrite live_add_msg. destruct last; [right|left]; split; reflexivity.
    + rewrite live_add_garbage by auto. left; split; reflexivity.
    + rewrite live_add_none. destruct last; [right|left]; split; reflexivity.
    + rewrite live_add_garbage by auto. left; split; reflexivity.
  - rewrite live_raise. destruct e as [[[m| | |]|]|]; right; split; reflexivity.
  - rewrite live_return. left; split; reflexivity.
  - rewrite live_stop. right; split; reflexivity.
Qed.

Lemma prun_ended : forall l, fst (prun ended l) = ended /\ quiet (snd (prun ended l)) = true.
Proof.
  induction l as [|i l [IH1 IH2]]; [split; reflexivity|].
  cbn [prun]. destruct (pstep_ended i) as (a & -> & Ha). destruct (prun ended l) as [q' a']. cbn [fst snd] in *.
  split; [exact IH1|]. unfold quiet in *. rewrite forallb_app, Ha. exact IH2.
Qed.
(* for every interleaving of coroutine actions and stop(), from the set-up state: the state is always one of the two and
   the effects are [once] *)
Lemma prun_live : forall l, (fst (prun live l) = live \/ fst (prun live l) = ended) /\ once (snd (prun live l)) = true.
Proof.
  induction l as [|i l [IH1 IH2]]; [split; [left|]; reflexivity|].
  cbn [prun]. pose proof (pstep_live i) as Hi. destruct (pstep live i) as [q a].
  destruct Hi as [[-> Ha]|[-> Ha]].
  - destruct (prun live l) as [q' a']. cbn [fst snd] in *. split; [exact IH1|]. rewrite (once_app_calm _ _ Ha). exact IH2.
  - destruct (prun_ended l) as [E1 E2]. destruct (prun ended l) as [q' a']. cbn [fst snd] in *.
    split; [right; exact E1|]. apply once_app_quiet; assumption.
Qed.

(* the coroutine as run by the stack model is a special case of prun *)
Lemma run_ractions_prun : forall l p,
  let '(q, a, _) := run_ractions p l in
  exists l', (q, a) = prun p (map PCoro l').
Proof.
  induction l as [|x l IH]; intros p; cbn [run_ractions].
  - exists []. reflexivity.
  - destruct (do_raction p x) as [[q a] raised] eqn:E.
    destruct x as [v last|e|].
    + specialize (IH q). destruct (run_ractions q l) as [[q' a'] n]. destruct IH as (l' & IH).
      exists (RAdd v last :: l'). cbn [map prun pstep]. rewrite E, <- IH. reflexivity.
    + exists [RRaise e]. cbn [map prun pstep]. rewrite E, app_nil_r. reflexivity.
    + exists [RReturn]. cbn [map prun pstep]. rewrite E, app_nil_r. reflexivity.
Qed.
Lemma run_ractions_live : forall l,
  let '(q, a, _) := run_ractions live l in (q = live \/ q = ended) /\ once a = true.
Proof.
  intros l. pose proof (run_ractions_prun l live) as H. destruct (run_ractions live l) as [[q a] n].
  destruct H as (l' & H). pose proof (prun_live (map PCoro l')) as H1. rewrite <- H in H1. exact H1.
Qed.

Lemma coroutine_final_once : forall srv r, finalising srv r ->
  exists m acts n, final_message srv r = Some m /\
                   run_ractions live (respond srv r) = (ended, acts, n) /\ filter is_send acts = [Send m true].
Proof.
  intros srv r Hn. unfold final_message. destruct (respond_shapes srv r Hn) as [(m & ->)|(e & ->)].
  - exists m, [Send m true], 0. repeat split; reflexivity.
  - cbn [run_ractions]. rewrite live_raise. destruct e as [[[m| | |]|]|]; do 3 eexists; repeat split; reflexivity.
Qed.

(* an observation being established: the first response goes out non-final with Observe:0, the pipes stay set up *)
Lemma observable_established : forall s r methods mode,
  find_resource s (r_path r) = Some (Observable methods mode) -> observing r = true -> establishes methods mode r = true ->
  exists m, render methods r = Responded m /\ is_successful (code_of_msg m) = true /\ mode = OAccept /\
            run_ractions live (respond (Some s) r) = (live, [Send (set_obs m (Some 0)) false], 0).
Proof.
  intros s r methods mode Hf Ho He. unfold respond. rewrite Hf, Ho. unfold respond_observable. rewrite He.
  unfold establishes in He. destruct mode; try discriminate.
  destruct (render methods r) as [m|e]; [|discriminate].
  exists m. repeat split; auto.
Qed.
