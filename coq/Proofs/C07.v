(* C07 — the requester model (Model/C07.v) refines a three-phase abstract client (RFC 7641 section 3.4) for an observer
   registered from the start; the property's clauses are proved on that client and carried over to runs. *)
From Verif Require Import Lib.Py Lib.Tactics Gen.protocol_is_recent Model.C07 Proofs.C07Serial.
From Coq Require Import Permutation.
Open Scope Z_scope.

Inductive sig := Deliver (id : Z) | EndSignal (e : option exn).

Definition view1 (k : Z) (o : out) : list sig :=
  match o with
  | OCb k' id => if k' =? k then [Deliver id] else []
  | OEb k' e => if k' =? k then [EndSignal e] else []
  | _ => []
  end.
Definition view (k : Z) (outs : list out) : list sig := flat_map (view1 k) outs.

Lemma view_app k a b : view k (a ++ b) = view k a ++ view k b.
Proof. apply flat_map_app. Qed.
Lemma view_cons k o a : view k (o :: a) = view1 k o ++ view k a.
Proof. reflexivity. Qed.
Lemma view_concat k l : view k (concat l) = concat (map (view k) l).
Proof. induction l as [|a l IH]; [reflexivity|]. cbn [concat map]. rewrite view_app, IH. reflexivity. Qed.

Fixpoint cnt (k : Z) (ls : list listener) : nat :=
  match ls with
  | [] => O
  | LObserver k' :: r => if k' =? k then S (cnt k r) else cnt k r
  | LIterator :: r => cnt k r
  end.
Lemma cnt_app k a b : cnt k (a ++ b) = (cnt k a + cnt k b)%nat.
Proof. induction a as [|[k'|] a IH]; cbn; auto. destruct (k' =? k); cbn; auto. Qed.
Lemma cnt_other k k' : k' <> k -> cnt k [LObserver k'] = O.
Proof. intros H. cbn. destruct (k' =? k) eqn:E; [lia|reflexivity]. Qed.

(* deliver_callbacks and deliver_errbacks are one function up to the output constructor and the pushed item *)
Fixpoint observers (ls : list listener) : list Z :=
  match ls with [] => [] | LObserver k :: r => k :: observers r | LIterator :: r => observers r end.
Fixpoint cntI (ls : list listener) : nat := match ls with [] => O | LIterator :: r => S (cntI r) | _ :: r => cntI r end.
Fixpoint npush (n : nat) (it : iter) (x : item) : iter := match n with O => it | S m => npush m (push it x) x end.
Lemma cntI_app a b : cntI (a ++ b) = (cntI a + cntI b)%nat.
Proof. induction a as [|[k'|] a IH]; cbn; auto. Qed.

Lemma deliver_callbacks_eq ls id : forall it,
  deliver_callbacks ls id it = (npush (cntI ls) it (IMsg id), map (fun k => OCb k id) (observers ls)).
Proof. induction ls as [|[k|] ls IH]; intros it; cbn [deliver_callbacks cntI npush observers map]; rewrite ?IH; reflexivity. Qed.
Lemma deliver_errbacks_eq ls e : forall it,
  deliver_errbacks ls e it = (npush (cntI ls) it (IErr e), map (fun k => OEb k (Some e)) (observers ls)).
Proof. induction ls as [|[k|] ls IH]; intros it; cbn [deliver_errbacks cntI npush observers map]; rewrite ?IH; reflexivity. Qed.

Lemma view_observers k (mk : Z -> out) sg ls : (forall k', view1 k (mk k') = if k' =? k then [sg] else []) ->
  view k (map mk (observers ls)) = repeat sg (cnt k ls).
Proof.
  intros H. induction ls as [|[k'|] ls IH]; cbn [observers map cnt]; auto.
  rewrite view_cons, H, IH. destruct (k' =? k); reflexivity.
Qed.

Definition called_back (o : cobs) (id : Z) : cobs :=
  {| callbacks := callbacks o; errbacks := errbacks o; cancelled := cancelled o;
     latest_response := Some id; cancellation_reason := cancellation_reason o |}.
Definition errored (o : cobs) (e : exn) : cobs :=
  {| callbacks := []; errbacks := []; cancelled := true; latest_response := latest_response o; cancellation_reason := Some e |}.

Lemma callback_eq o it id :
  callback o it id = (called_back o id, npush (cntI (callbacks o)) it (IMsg id), map (fun k => OCb k id) (observers (callbacks o))).
Proof. unfold callback. rewrite deliver_callbacks_eq. reflexivity. Qed.
Lemma error_eq o it e :
  error o it e = (errored o e, npush (cntI (errbacks o)) it (IErr e), map (fun k => OEb k (Some e)) (observers (errbacks o))).
Proof. unfold error. rewrite deliver_errbacks_eq. reflexivity. Qed.

Lemma view_callbacks k id ls : view k (map (fun k' => OCb k' id) (observers ls)) = repeat (Deliver id) (cnt k ls).
Proof. apply view_observers. reflexivity. Qed.
Lemma view_errbacks k e ls : view k (map (fun k' => OEb k' (Some e)) (observers ls)) = repeat (EndSignal (Some e)) (cnt k ls).
Proof. apply view_observers. reflexivity. Qed.

Fixpoint acts_view (acts : list action) : list sig :=
  match acts with
  | [] => []
  | ACallback id :: r => Deliver id :: acts_view r
  | AError e :: _ => [EndSignal (Some e)]
  | ARaise _ :: _ => []
  | _ :: r => acts_view r
  end.
Fixpoint has_error (acts : list action) : bool :=
  match acts with
  | [] => false
  | AError _ :: _ => true
  | ARaise _ :: _ => false
  | _ :: r => has_error r
  end.
Fixpoint stops (acts : list action) : bool :=
  match acts with
  | [] => false
  | AStopInterest :: _ => true
  | ARaise _ :: _ => false
  | _ :: r => stops r
  end.
Fixpoint sets_response (acts : list action) : bool :=
  match acts with
  | [] => false
  | ASetResult _ :: _ => true | ASetException _ :: _ => true
  | ARaise _ :: _ => false
  | _ :: r => sets_response r
  end.
Fixpoint raises (acts : list action) : bool :=
  match acts with
  | [] => false
  | ARaise _ :: _ => true
  | _ :: r => raises r
  end.

Definition aa_sys (s : sys) acts := fst (fst (apply_actions s acts)).
Definition aa_outs (s : sys) acts := snd (fst (apply_actions s acts)).
Definition aa_raised (s : sys) acts := snd (apply_actions s acts).

Definition act1 (s : sys) (a : action) : sys * list out :=
  match a with
  | ASetResult id => (set_parts s (s_ended s) RespDone (s_obs s) (s_iter s), [OResp id])
  | ASetException e => (set_parts s (s_ended s) RespDone (s_obs s) (s_iter s), [ORespExn e])
  | ACallback id =>
      (set_parts s (s_ended s) (s_resp s) (called_back (s_obs s) id) (npush (cntI (callbacks (s_obs s))) (s_iter s) (IMsg id)),
       map (fun k => OCb k id) (observers (callbacks (s_obs s))))
  | AError e =>
      (set_parts s (s_ended s) (s_resp s) (errored (s_obs s) e) (npush (cntI (errbacks (s_obs s))) (s_iter s) (IErr e)),
       map (fun k => OEb k (Some e)) (observers (errbacks (s_obs s))))
  | AStopInterest => if s_ended s then (s, []) else (set_parts s true (s_resp s) (s_obs s) (s_iter s), [OEnd])
  | ARaise _ => (s, [])
  end.

(* apply_actions runs act1 along the list until an ARaise *)
Lemma apply_actions_ind (Q : sys -> list action -> sys -> list out -> bool -> Prop) :
  (forall s, Q s [] s [] false) ->
  (forall s e acts, Q s (ARaise e :: acts) s [OEscaped e] true) ->
  (forall s a acts s2 o2 r, raises [a] = false ->
     Q (fst (act1 s a)) acts s2 o2 r -> Q s (a :: acts) s2 (snd (act1 s a) ++ o2) r) ->
  forall acts s, Q s acts (aa_sys s acts) (aa_outs s acts) (aa_raised s acts).
Proof.
  intros Hnil Hraise Hcons. unfold aa_sys, aa_outs, aa_raised. intros acts. induction acts as [|a acts IH]; intros s; [apply Hnil|].
  specialize (Hcons s a acts). destruct a; cbn [apply_actions]; [| | | | |apply Hraise].
  all: unfold act1 in Hcons; rewrite ?callback_eq, ?error_eq.
  5: destruct (s_ended s).
  all: match goal with |- context [apply_actions ?S ?A] => specialize (IH S); destruct (apply_actions S A) as [[s2 o2] r] end.
  all: apply Hcons; [reflexivity|exact IH].
Qed.

Definition quiet (k : Z) (s : sys) : Prop := cnt k (callbacks (s_obs s)) = O /\ cnt k (errbacks (s_obs s)) = O.
Definition live (k : Z) (s : sys) : Prop :=
  cancelled (s_obs s) = false /\ cnt k (callbacks (s_obs s)) = 1%nat /\ cnt k (errbacks (s_obs s)) = 1%nat.

Lemma apply_actions_frame : forall acts s,
  s_has_obs (aa_sys s acts) = s_has_obs s /\ s_reset (aa_sys s acts) = s_reset s /\ s_runner (aa_sys s acts) = s_runner s
  /\ s_ended (aa_sys s acts) = (s_ended s || stops acts)
  /\ s_resp (aa_sys s acts) = (if sets_response acts then RespDone else s_resp s)
  /\ aa_raised s acts = raises acts.
Proof.
  apply (apply_actions_ind (fun s acts s' _ r =>
    s_has_obs s' = s_has_obs s /\ s_reset s' = s_reset s /\ s_runner s' = s_runner s /\ s_ended s' = (s_ended s || stops acts)
    /\ s_resp s' = (if sets_response acts then RespDone else s_resp s) /\ r = raises acts)).
  - intros s. cbn. rewrite orb_false_r. auto 10.
  - intros s e acts. cbn. rewrite orb_false_r. auto 10.
  - intros s a acts s2 o2 r Ha (H1 & H2 & H3 & H4 & H5 & H6).
    destruct a; try discriminate Ha; cbn [act1 stops sets_response raises] in *; try (destruct (s_ended s) eqn:En); cbn [fst] in *;
      repeat split; auto; try (destruct (sets_response acts); assumption). rewrite H4, En. reflexivity.
Qed.

Lemma apply_actions_view k : forall acts s,
  (quiet k s -> view k (aa_outs s acts) = [] /\ quiet k (aa_sys s acts))
  /\ (live k s -> view k (aa_outs s acts) = acts_view acts
                  /\ (if has_error acts then quiet k (aa_sys s acts) else live k (aa_sys s acts))).
Proof.
  apply (apply_actions_ind (fun s acts s' o _ =>
    (quiet k s -> view k o = [] /\ quiet k s')
    /\ (live k s -> view k o = acts_view acts /\ (if has_error acts then quiet k s' else live k s')))).
  - intros s. cbn. auto.
  - intros s e acts. cbn. auto.
  - intros s a acts s2 o2 r Ha [IQ IL]. rewrite view_app.
    destruct a; try discriminate Ha; cbn [act1 acts_view has_error fst snd] in *.
    1,2: split; [intros Q; apply IQ; exact Q|intros L; apply IL; exact L].
    + rewrite view_callbacks. split.
      * intros Q. rewrite (proj1 Q). apply IQ. exact Q.
      * intros (Lc & L1 & L2). rewrite L1. destruct IL as [V X]; [repeat split; assumption|]. rewrite V. auto.
    + rewrite view_errbacks. split.
      * intros Q. rewrite (proj2 Q). apply IQ. split; reflexivity.
      * intros (Lc & L1 & L2). rewrite L2. destruct IQ as [V X]; [split; reflexivity|]. rewrite V. auto.
    + destruct (s_ended s); (split; [intros Q; apply IQ; exact Q|intros L; apply IL; exact L]).
Qed.

(* the abstract client (RFC 7641 section 3.4) *)
Inductive phase := PFirst | PObs (v1 t1 : Z) | PEnd.

Definition spec_event (reset : Z) (p : phase) (now : Z) (ev : event) : phase * list sig :=
  match p with
  | PEnd => (PEnd, [])
  | PFirst =>
      match ev with
      | EvMsg _ (Some v) false => (PObs v now, [])
      | EvMsg _ None false => (PEnd, [])                      (* inconsistent pipe ("more to come" without Observe) *)
      | _ => (PEnd, [EndSignal (Some NotObservable)])
      end
  | PObs v1 t1 =>
      match ev with
      | EvExn e => (PEnd, [EndSignal (Some e)])
      | EvMsg id None _ => (PEnd, [Deliver id; EndSignal (Some ObservationCancelled)])
      | EvMsg id (Some v2) is_last =>
          let recent := is_recent v1 v2 t1 now reset in
          ((if is_last then PEnd else if recent then PObs v2 now else PObs v1 t1),
           (if recent then [Deliver id] else []) ++ (if is_last then [EndSignal (Some ObservationCancelled)] else []))
      end
  end.

Definition spec_step (reset : Z) (p : phase) (o : op) : phase * list sig :=
  match o with
  | OpEvent now ev => spec_event reset p now ev
  | OpCancelObs => (PEnd, [])                                 (* the application's own end: no signal *)
  | OpCancelResp => (match p with PFirst => PEnd | _ => p end, [])
  | _ => (p, [])
  end.

Fixpoint spec_run (reset : Z) (p : phase) (ops : list op) : list (list sig) :=
  match ops with
  | [] => []
  | o :: rest => let '(p', out) := spec_step reset p o in out :: spec_run reset p' rest
  end.

Definition no_reg (k : Z) (ops : list op) : Prop :=
  forall k', In (OpRegister k') ops -> k' <> k.

(* refinement relation between the requester model and the abstract client, for observer k *)
Definition R (k : Z) (s : sys) (p : phase) : Prop :=
  s_has_obs s = true /\
  match p with
  | PFirst => s_runner s = RFirst /\ s_ended s = false /\ s_resp s = RespPending /\ live k s
  | PObs v1 t1 => s_runner s = RObserving v1 t1 /\ s_ended s = false /\ s_resp s = RespDone /\ live k s
  | PEnd => s_ended s = true \/ quiet k s
  end.

Definition idle : iter := {| it_started := true; it_finished := false; it_w := None; it_s := None |}.

Lemma anext_drain_cases it :
  anext_drain it = (it, [])
  \/ (it_started it = true /\ it_finished it = false /\ exists x, it_w it = Some x
      /\ ((is_err x = true
           /\ anext_drain it = ({| it_started := true; it_finished := true; it_w := None; it_s := None |}, [yield x]))
          \/ (is_err x = false /\ it_s it = None /\ anext_drain it = (idle, [yield x]))
          \/ (is_err x = false /\ exists y, it_s it = Some y
              /\ anext_drain it = ({| it_started := true; it_finished := is_err y; it_w := None; it_s := None |}, [yield x; yield y])))).
Proof.
  unfold anext_drain. destruct (it_started it), (it_finished it); cbn [negb orb]; auto.
  destruct (it_w it) as [x|]; [right|auto]. repeat split. exists x. split; [reflexivity|].
  destruct (is_err x); [auto|]. right. destruct (it_s it) as [y|]; [right; eauto|left; auto].
Qed.

Lemma view_yield k x : view1 k (yield x) = [].
Proof. destruct x as [id|e]; [reflexivity|]. destruct e; reflexivity. Qed.

(* a loop run touches nothing but the iterator *)
Lemma drain_eq s :
  drain s = (set_parts s (s_ended s) (s_resp s) (s_obs s) (fst (anext_drain (s_iter s))), snd (anext_drain (s_iter s))).
Proof. unfold drain. destruct (anext_drain (s_iter s)). reflexivity. Qed.
Lemma drain_ended s : s_ended (fst (drain s)) = s_ended s.
Proof. rewrite drain_eq. reflexivity. Qed.
Lemma drain_view k s : view k (snd (drain s)) = [].
Proof.
  rewrite drain_eq. destruct (anext_drain_cases (s_iter s)) as [->|(_ & _ & x & _ & [(_ & ->)|[(_ & _ & ->)|(_ & y & _ & ->)]])];
    cbn; rewrite ?view_yield; reflexivity.
Qed.

Lemma add_event_ended s now ev : s_ended s = true -> add_event s now ev = (s, []).
Proof. unfold add_event. intros ->. reflexivity. Qed.

Definition run_event (s : sys) (now : Z) (ev : event) : sys * list out :=
  let ra := Request_run (s_has_obs s) (s_reset s) (s_runner s) (cancelled (s_obs s)) now ev in
  let s0 := set_runner s (fst ra) in
  let s1 := aa_sys s0 (snd ra) in
  if aa_raised s0 (snd ra) then (s1, aa_outs s0 (snd ra))
  else if ev_is_last ev && negb (s_ended s1) then (set_parts s1 true (s_resp s1) (s_obs s1) (s_iter s1), aa_outs s0 (snd ra) ++ [OEnd])
  else (s1, aa_outs s0 (snd ra)).

Lemma add_event_cases s now ev :
  (s_ended s = true /\ add_event s now ev = (s, []))
  \/ (s_ended s = false /\ s_runner s = RFinished
      /\ add_event s now ev = (set_parts s true (s_resp s) (s_obs s) (s_iter s), [OEnd]))
  \/ (s_ended s = false /\ s_runner s <> RFinished /\ add_event s now ev = run_event s now ev).
Proof.
  unfold add_event, run_event, aa_sys, aa_outs, aa_raised. destruct (s_ended s); [auto|]. right.
  destruct (s_runner s) as [|v1 t1|]; [right| right|left; auto].
  all: split; [reflexivity|]; split; [discriminate|].
  all: destruct (Request_run _ _ _ _ now ev) as [r' acts]; cbn [fst snd];
       destruct (apply_actions (set_runner s r') acts) as [[s1 outs] raised]; reflexivity.
Qed.

Lemma add_event_quiet k s now ev : quiet k s ->
  view k (snd (add_event s now ev)) = [] /\ (s_ended (fst (add_event s now ev)) = true \/ quiet k (fst (add_event s now ev)))
  /\ s_has_obs (fst (add_event s now ev)) = s_has_obs s /\ s_reset (fst (add_event s now ev)) = s_reset s.
Proof.
  intros Q. destruct (add_event_cases s now ev) as [(En & ->)|[(En & Er & ->)|(En & Er & ->)]]; [cbn; auto..|].
  unfold run_event. set (ra := Request_run _ _ _ _ now ev).
  destruct (proj1 (apply_actions_view k (snd ra) (set_runner s (fst ra))) Q) as [V Q'].
  pose proof (apply_actions_frame (snd ra) (set_runner s (fst ra))) as (F1 & F2 & _).
  destruct (aa_raised _ _); [|destruct (ev_is_last ev && _)]; cbn [fst snd]; rewrite ?view_app, V; auto.
Qed.

Lemma add_event_live k s now ev : live k s -> s_ended s = false -> s_runner s <> RFinished ->
  let ra := Request_run (s_has_obs s) (s_reset s) (s_runner s) (cancelled (s_obs s)) now ev in
  raises (snd ra) = false ->
  let s' := fst (add_event s now ev) in
  view k (snd (add_event s now ev)) = acts_view (snd ra)
  /\ s_runner s' = fst ra /\ s_has_obs s' = s_has_obs s /\ s_reset s' = s_reset s
  /\ s_ended s' = (stops (snd ra) || ev_is_last ev)
  /\ s_resp s' = (if sets_response (snd ra) then RespDone else s_resp s)
  /\ (if has_error (snd ra) then quiet k s' else live k s').
Proof.
  intros L En Hr. cbv zeta.
  destruct (add_event_cases s now ev) as [(E & _)|[(_ & E & _)|(_ & _ & ->)]]; [congruence..|].
  unfold run_event. set (ra := Request_run _ _ _ _ now ev). intros Hra.
  destruct (proj2 (apply_actions_view k (snd ra) (set_runner s (fst ra))) L) as [V Q].
  pose proof (apply_actions_frame (snd ra) (set_runner s (fst ra))) as (F1 & F2 & F3 & F4 & F5 & F6).
  rewrite F6, Hra, F4. cbn [set_runner s_ended s_runner s_has_obs s_reset s_resp] in *. rewrite En in *. cbn [orb] in *.
  destruct (ev_is_last ev), (stops (snd ra)); cbn [andb negb orb fst snd set_parts s_runner s_has_obs s_reset s_ended s_resp];
    rewrite ?view_app, V; cbn [view flat_map view1 app]; rewrite ?app_nil_r; repeat split; auto; destruct (has_error (snd ra)); exact Q.
Qed.

Lemma add_event_refines k s p now ev : R k s p ->
  view k (snd (add_event s now ev)) = snd (spec_event (s_reset s) p now ev)
  /\ R k (fst (add_event s now ev)) (fst (spec_event (s_reset s) p now ev))
  /\ s_reset (fst (add_event s now ev)) = s_reset s.
Proof.
  intros [Ho Rp]. destruct p as [|v1 t1|].
  3: { cbn [spec_event fst snd]. destruct Rp as [En|Q].
       - rewrite add_event_ended by exact En. cbn [fst snd]. unfold R. auto.
       - destruct (add_event_quiet k s now ev Q) as (V & Q' & Ho' & Hr'). split; [exact V|split; [|exact Hr']].
         split; [congruence|exact Q']. }
  all: destruct Rp as (Er & En & Ers & L); pose proof L as (Lc & _ & _).
  all: assert (Hnf : s_runner s <> RFinished) by congruence.
  all: pose proof (add_event_live k s now ev L En Hnf) as A; cbv zeta in A; rewrite Ho, Er, Lc in A.
  (* per phase: notification (fresh / stale where it matters), last notification, response without Observe (not last / last),
     transport error — the generator's branch against the abstract client's *)
  all: destruct ev as [id [v|] [|] | e]; cbn [Request_run negb ev_is_last fst snd] in A.
  all: try destruct (is_recent v1 v t1 now (s_reset s)) eqn:Erec.
  all: cbn [app raises acts_view stops sets_response has_error orb fst snd] in A.
  all: destruct (A eq_refl) as (V & A1 & A2 & A3 & A4 & A5 & A6); clear A.
  all: cbn [spec_event fst snd]; rewrite ?Erec; cbn [app]; split; [exact V|split; [|exact A3]].
  all: unfold R; split; [exact A2|].
  all: rewrite ?A1, ?A4, ?A5, ?Ers; auto.
Qed.

Lemma R_frame k s s' p :
  s_has_obs s' = s_has_obs s -> s_runner s' = s_runner s -> s_ended s' = s_ended s -> s_resp s' = s_resp s ->
  cancelled (s_obs s') = cancelled (s_obs s) ->
  cnt k (callbacks (s_obs s')) = cnt k (callbacks (s_obs s)) -> cnt k (errbacks (s_obs s')) = cnt k (errbacks (s_obs s)) ->
  R k s p -> R k s' p.
Proof.
  intros H1 H2 H3 H4 H5 H6 H7 [Ho Rp]. unfold R, live, quiet in *. rewrite H1, H2, H3, H4, H5, H6, H7.
  split; auto.
Qed.

Lemma drain_refines k s p : R k s p ->
  view k (snd (drain s)) = [] /\ R k (fst (drain s)) p /\ s_reset (fst (drain s)) = s_reset s.
Proof.
  intros H. split; [apply drain_view|]. rewrite drain_eq. split; [apply (R_frame k s); auto|reflexivity].
Qed.

Definition resp_cancelled (s : sys) : sys := set_runner (set_parts s true RespCancelled (s_obs s) (s_iter s)) RFinished.
Definition cancel_outs (s : sys) : list out := ORespCancelled :: (if s_ended s then [] else [OEnd]).
Lemma step_cancel_resp s : step s OpCancelResp =
  match s_resp s with
  | RespPending => (fst (drain (resp_cancelled s)), cancel_outs s ++ snd (drain (resp_cancelled s)))
  | _ => drain s
  end.
Proof. unfold step, resp_cancelled, cancel_outs. destruct (s_resp s); try reflexivity. destruct (drain _). reflexivity. Qed.

(* register_callback then register_errback of one listener, as OpRegister and OpIter do it *)
Definition registered (s : sys) (it : iter) (l : listener) : sys * list out :=
  let '(o1, it1, outs1) := register_callback (s_obs s) it l in
  let '(o2, it2, outs2) := register_errback o1 it1 l in
  (set_parts s (s_ended s) (s_resp s) o2 it2, outs1 ++ outs2).

Lemma step_register s k : step s (OpRegister k) = if negb (s_has_obs s) then (s, []) else registered s (s_iter s) (LObserver k).
Proof.
  unfold step, registered. destruct (register_callback _ _ _) as [[o1 it1] outs1]. destruct (register_errback _ _ _) as [[o2 it2] outs2]. reflexivity.
Qed.
Lemma step_iter s : step s OpIter =
  if negb (s_has_obs s) || it_started (s_iter s) then drain s
  else (fst (drain (fst (registered s idle LIterator))), snd (registered s idle LIterator) ++ snd (drain (fst (registered s idle LIterator)))).
Proof.
  unfold step, registered, idle. destruct (register_callback _ _ _) as [[o1 it1] outs1]. destruct (register_errback _ _ _) as [[o2 it2] outs2].
  cbn [fst snd]. destruct (drain (set_parts _ _ _ o2 it2)) as [s3 outs3]. cbn [fst snd]. rewrite app_assoc. reflexivity.
Qed.

Definition added (o : cobs) (l : listener) : cobs :=
  {| callbacks := callbacks o ++ [l]; errbacks := errbacks o ++ [l]; cancelled := false;
     latest_response := latest_response o; cancellation_reason := cancellation_reason o |}.

Lemma registered_eq s it l : registered s it l =
  if cancelled (s_obs s) then
    match l, cancellation_reason (s_obs s) with
    | LObserver k, r => (set_parts s (s_ended s) (s_resp s) (s_obs s) it, [OEb k r])
    | LIterator, Some e => (set_parts s (s_ended s) (s_resp s) (s_obs s) (push it (IErr e)), [])
    | LIterator, None =>
        (set_parts s (s_ended s) (s_resp s) (s_obs s) {| it_started := true; it_finished := true; it_w := None; it_s := None |},
         [OItExn TypeError])
    end
  else
    match latest_response (s_obs s), l with
    | None, _ => (set_parts s (s_ended s) (s_resp s) (added (s_obs s) l) it, [])
    | Some id, LObserver k => (set_parts s (s_ended s) (s_resp s) (added (s_obs s) l) it, [OCb k id])
    | Some id, LIterator => (set_parts s (s_ended s) (s_resp s) (added (s_obs s) l) (push it (IMsg id)), [])
    end.
Proof.
  unfold registered, register_callback, register_errback, added. destruct (cancelled (s_obs s)) eqn:Ec.
  - rewrite Ec. destruct l, (cancellation_reason (s_obs s)); reflexivity.
  - destruct (latest_response (s_obs s)), l; reflexivity.
Qed.

Lemma registered_ended s it l : s_ended (fst (registered s it l)) = s_ended s.
Proof.
  rewrite registered_eq.
  destruct (cancelled (s_obs s)); [destruct l, (cancellation_reason (s_obs s))|destruct (latest_response (s_obs s)), l]; reflexivity.
Qed.

Lemma registered_other k s it l : cnt k [l] = O ->
  view k (snd (registered s it l)) = [] /\ (forall p, R k s p -> R k (fst (registered s it l)) p)
  /\ s_reset (fst (registered s it l)) = s_reset s.
Proof.
  intros Hl. rewrite registered_eq. destruct (cancelled (s_obs s)) eqn:Ec.
  - assert (F : forall it' p, R k s p -> R k (set_parts s (s_ended s) (s_resp s) (s_obs s) it') p) by (intros; apply (R_frame k s); auto).
    destruct l as [k'|]; [|destruct (cancellation_reason (s_obs s))]; cbn [fst snd]; (split; [|split; [apply F|reflexivity]]); try reflexivity.
    cbn in Hl |- *. destruct (k' =? k); [discriminate|reflexivity].
  - assert (A : forall it' p, R k s p -> R k (set_parts s (s_ended s) (s_resp s) (added (s_obs s) l) it') p).
    { intros it' p HR. apply (R_frame k s); auto; cbn; rewrite ?cnt_app, ?Hl, ?Nat.add_0_r; auto. }
    destruct (latest_response (s_obs s)), l as [k'|]; cbn [fst snd]; (split; [|split; [apply A|reflexivity]]); try reflexivity.
    cbn in Hl |- *. destruct (k' =? k); [discriminate|reflexivity].
Qed.

Lemma step_refines k s p o : R k s p -> (forall k', o = OpRegister k' -> k' <> k) ->
  view k (snd (step s o)) = snd (spec_step (s_reset s) p o)
  /\ R k (fst (step s o)) (fst (spec_step (s_reset s) p o))
  /\ s_reset (fst (step s o)) = s_reset s.
Proof.
  intros HR Hk. pose proof HR as [Ho Rp].
  destruct o as [now ev| | |k'| |]; cbn [spec_step].
  - (* event *)
    apply add_event_refines. exact HR.
  - (* observation.cancel() by the application *)
    cbn [step]. rewrite Ho. cbn [negb]. destruct (cancelled (s_obs s)) eqn:Ec; cbn [fst snd].
    + split; [reflexivity|split; [|reflexivity]]. destruct p; auto; destruct Rp as (_ & _ & _ & (L & _)); congruence.
    + split; [reflexivity|split; [|reflexivity]]. split; [exact Ho|]. right. unfold quiet. cbn. auto.
  - (* response.cancel() by the application *)
    rewrite step_cancel_resp. destruct (s_resp s) eqn:Ers.
    + cbn [fst snd]. split; [|split; [|rewrite drain_eq; reflexivity]].
      * rewrite view_app, drain_view. unfold cancel_outs. destruct (s_ended s); reflexivity.
      * assert (RE : R k (fst (drain (resp_cancelled s))) PEnd). { split; [rewrite drain_eq; exact Ho|]. left. apply drain_ended. }
        destruct p; cbn [fst]; auto. destruct Rp as (_ & _ & Hd & _). congruence.
    + destruct p; try (apply drain_refines; exact HR). destruct Rp as (_ & _ & Hd & _). congruence.
    + destruct p; try (apply drain_refines; exact HR). destruct Rp as (_ & _ & Hd & _). congruence.
  - (* another observer registers *)
    rewrite step_register, Ho. cbn [negb].
    destruct (registered_other k s (s_iter s) (LObserver k') (cnt_other k k' (Hk k' eq_refl))) as (V & F & Er). split; [exact V|split; [apply F; exact HR|exact Er]].
  - (* async iteration starts *)
    rewrite step_iter, Ho. cbn [negb orb]. destruct (it_started (s_iter s)); [apply drain_refines; exact HR|].
    destruct (registered_other k s idle LIterator eq_refl) as (V & F & Er).
    destruct (drain_refines k _ p (F p HR)) as (V2 & R2 & D6).
    cbn [fst snd]. rewrite view_app, V, V2, D6. auto.
  - apply drain_refines. exact HR.
Qed.

Theorem run_refines k : forall ops s p, R k s p -> no_reg k ops ->
  map (view k) (run s ops) = spec_run (s_reset s) p ops.
Proof.
  induction ops as [|o ops IH]; intros s p HR Hn; [reflexivity|].
  cbn [run spec_run].
  destruct (step_refines k s p o HR) as (V & HR' & Hr').
  { intros k' ->. apply Hn. left. reflexivity. }
  destruct (step s o) as [s' outs]. destruct (spec_step (s_reset s) p o) as [p' sout]. cbn [fst snd] in *.
  cbn [map]. rewrite V. f_equal. rewrite <- Hr'. apply IH; auto.
  intros k' Hin. apply Hn. right. exact Hin.
Qed.

Lemma R_initial k reset : R k (fst (step (sys0 true reset) (OpRegister k))) PFirst /\ snd (step (sys0 true reset) (OpRegister k)) = []
  /\ s_reset (fst (step (sys0 true reset) (OpRegister k))) = reset.
Proof.
  cbn. unfold R, live. cbn. rewrite Z.eqb_refl. auto 10.
Qed.

Theorem observer_refines_rfc_client : forall k reset ops, no_reg k ops ->
  map (view k) (run (sys0 true reset) (OpRegister k :: ops)) = [] :: spec_run reset PFirst ops.
Proof.
  intros k reset ops Hn. cbn [run].
  destruct (R_initial k reset) as (HR & Ho & Hr).
  destruct (step (sys0 true reset) (OpRegister k)) as [s outs]. cbn [fst snd] in *. subst outs.
  cbn [map view flat_map]. f_equal. rewrite <- Hr. apply run_refines; auto.
Qed.

Inductive Subseq {A} : list A -> list A -> Prop :=
| sub_nil : forall l, Subseq [] l
| sub_skip : forall a l1 l2, Subseq l1 l2 -> Subseq l1 (a :: l2)
| sub_take : forall a l1 l2, Subseq l1 l2 -> Subseq (a :: l1) (a :: l2).
Ltac solve_sub := repeat first [apply sub_nil | apply sub_take | apply sub_skip].

Lemma Subseq_refl {A} (l : list A) : Subseq l l.
Proof. induction l; [apply sub_nil|apply sub_take; assumption]. Qed.
Lemma Subseq_trans {A} : forall (b a c : list A), Subseq a b -> Subseq b c -> Subseq a c.
Proof.
  intros b a c H1 H2. revert a H1. induction H2 as [c|x b c H IH|x b c H IH]; intros a H1.
  - inversion H1. constructor.
  - constructor. apply IH. exact H1.
  - inversion H1 as [|? ? ? H3|? ? ? H3]; subst.
    + constructor.
    + constructor. apply IH. exact H3.
    + apply sub_take. apply IH. exact H3.
Qed.
Lemma Subseq_app {A} (a b c d : list A) : Subseq a b -> Subseq c d -> Subseq (a ++ c) (b ++ d).
Proof. intros H1 H2. induction H1; cbn; try (constructor; assumption). induction l; cbn; [exact H2|constructor; assumption]. Qed.
Lemma Subseq_app_l {A} (c a b : list A) : Subseq a b -> Subseq (c ++ a) (c ++ b).
Proof. apply Subseq_app, Subseq_refl. Qed.
Lemma Subseq_app_r {A} (c a b : list A) : Subseq a b -> Subseq (a ++ c) (b ++ c).
Proof. intros H. apply Subseq_app; [exact H|apply Subseq_refl]. Qed.
Lemma Subseq_prefix {A} (a b : list A) : Subseq a (a ++ b).
Proof. rewrite <- (app_nil_r a) at 1. apply Subseq_app_l. constructor. Qed.

Fixpoint deliveries (l : list sig) : list Z :=
  match l with [] => [] | Deliver id :: r => id :: deliveries r | EndSignal _ :: r => deliveries r end.
Fixpoint end_signals (l : list sig) : list (option exn) :=
  match l with [] => [] | Deliver _ :: r => end_signals r | EndSignal e :: r => e :: end_signals r end.
Lemma deliveries_app a b : deliveries (a ++ b) = deliveries a ++ deliveries b.
Proof. induction a as [|[id|e] a IH]; cbn; congruence. Qed.
Lemma end_signals_app a b : end_signals (a ++ b) = end_signals a ++ end_signals b.
Proof. induction a as [|[id|e] a IH]; cbn; congruence. Qed.
Lemma deliveries_view_app k a b : deliveries (view k (a ++ b)) = deliveries (view k a) ++ deliveries (view k b).
Proof. rewrite view_app. apply deliveries_app. Qed.
Lemma repeat_deliveries id n : deliveries (repeat (Deliver id) n) = repeat id n.
Proof. induction n; cbn; congruence. Qed.
Lemma repeat_ends e n : deliveries (repeat (EndSignal e) n) = [].
Proof. induction n; cbn; auto. Qed.

(* ids of the response messages that arrive, in arrival order *)
Fixpoint msg_ids (ops : list op) : list Z :=
  match ops with
  | [] => []
  | OpEvent _ (EvMsg id _ _) :: r => id :: msg_ids r
  | _ :: r => msg_ids r
  end.

Lemma spec_run_silent reset ops : spec_run reset PEnd ops = map (fun _ => []) ops.
Proof. induction ops as [|o ops IH]; [reflexivity|]. destruct o as [now ev| | | | |]; cbn; rewrite IH; reflexivity. Qed.
Lemma spec_run_end reset ops : concat (spec_run reset PEnd ops) = [].
Proof. rewrite spec_run_silent. induction ops; auto. Qed.

Lemma msg_ids_cons o ops : msg_ids (o :: ops) = msg_ids [o] ++ msg_ids ops.
Proof. destruct o as [now [id ob l|e]| | | | |]; reflexivity. Qed.

Lemma spec_step_shape reset p o : exists ids, Subseq ids (msg_ids [o]) /\
  (snd (spec_step reset p o) = map Deliver ids
   \/ (fst (spec_step reset p o) = PEnd /\ exists e, snd (spec_step reset p o) = map Deliver ids ++ [EndSignal e])).
Proof.
  exists (deliveries (snd (spec_step reset p o))).
  destruct o as [now ev| | |k'| |]; try (split; [constructor|left; reflexivity]).
  destruct p as [|v1 t1|], ev as [id [v|] [|]|e]; cbn [spec_step spec_event fst snd msg_ids];
    try destruct (is_recent v1 v t1 now reset); cbn; (split; [first [apply Subseq_refl|constructor]|eauto]).
Qed.

Lemma spec_run_shape reset : forall ops p, exists ids tail,
  concat (spec_run reset p ops) = map Deliver ids ++ tail /\ (tail = [] \/ exists e, tail = [EndSignal e]) /\ Subseq ids (msg_ids ops).
Proof.
  induction ops as [|o ops IH]; intros p; [exists [], []; repeat split; auto; constructor|].
  cbn [spec_run]. rewrite msg_ids_cons. destruct (spec_step_shape reset p o) as (ids0 & S0 & H).
  destruct (spec_step reset p o) as [p' out]. cbn [fst snd concat] in *. destruct H as [->|(-> & e & ->)].
  - destruct (IH p') as (ids & tail & E & T & S). exists (ids0 ++ ids), tail. rewrite E, map_app, app_assoc.
    split; [reflexivity|split; [exact T|apply Subseq_app; assumption]].
  - rewrite spec_run_end, app_nil_r. exists ids0, [EndSignal e]. split; [reflexivity|split; [eauto|]].
    eapply Subseq_trans; [exact S0|apply Subseq_prefix].
Qed.

Lemma deliveries_map_Deliver ids : deliveries (map Deliver ids) = ids.
Proof. induction ids; cbn; congruence. Qed.

Theorem spec_deliveries_subsequence reset ops p : Subseq (deliveries (concat (spec_run reset p ops))) (msg_ids ops).
Proof.
  destruct (spec_run_shape reset ops p) as (ids & tail & -> & T & S). rewrite deliveries_app, deliveries_map_Deliver.
  destruct T as [->|[e ->]]; cbn; rewrite app_nil_r; exact S.
Qed.
Theorem spec_terminates_once reset ops p : exists ids tail,
  concat (spec_run reset p ops) = map Deliver ids ++ tail /\ (tail = [] \/ exists e, tail = [EndSignal e]).
Proof. destruct (spec_run_shape reset ops p) as (ids & tail & E & T & _). eauto. Qed.

Record notif := { n_id : Z; n_v : Z; n_t : Z }.

Fixpoint accept (reset v1 t1 : Z) (l : list notif) : list notif :=
  match l with
  | [] => []
  | n :: r => if is_recent v1 (n_v n) t1 (n_t n) reset then n :: accept reset (n_v n) (n_t n) r else accept reset v1 t1 r
  end.

(* each accepted notification is fresh, by the RFC rule, with respect to the previously accepted one *)
Inductive chain (reset : Z) : Z -> Z -> list notif -> Prop :=
| chain_nil : forall v t, chain reset v t []
| chain_cons : forall v t n r, rfc_fresh v t (n_v n) (n_t n) reset -> chain reset (n_v n) (n_t n) r -> chain reset v t (n :: r).

Theorem accept_chain reset : forall l v1 t1, chain reset v1 t1 (accept reset v1 t1 l).
Proof.
  induction l as [|n l IH]; intros; cbn [accept]; [constructor|].
  destruct (is_recent v1 (n_v n) t1 (n_t n) reset) eqn:E; [|apply IH].
  constructor; [apply is_recent_spec; exact E|apply IH].
Qed.

Theorem accept_subseq reset : forall l v1 t1, Subseq (accept reset v1 t1 l) l.
Proof.
  induction l as [|n l IH]; intros; cbn [accept]; [constructor|].
  destruct (is_recent v1 (n_v n) t1 (n_t n) reset); [apply sub_take|apply sub_skip]; apply IH.
Qed.

(* nothing fresh is dropped: a notification is skipped only if it is not fresh w.r.t. the one accepted last before it *)
Fixpoint last_accepted (reset v1 t1 : Z) (l : list notif) : Z * Z :=
  match l with
  | [] => (v1, t1)
  | n :: r => if is_recent v1 (n_v n) t1 (n_t n) reset then last_accepted reset (n_v n) (n_t n) r else last_accepted reset v1 t1 r
  end.
Theorem accept_complete reset : forall pre n post v1 t1,
  let '(v, t) := last_accepted reset v1 t1 pre in
  (rfc_fresh v t (n_v n) (n_t n) reset -> In n (accept reset v1 t1 (pre ++ n :: post)))
  /\ (~ rfc_fresh v t (n_v n) (n_t n) reset -> accept reset v1 t1 (pre ++ n :: post) = accept reset v1 t1 pre ++ accept reset v t post).
Proof.
  induction pre as [|m pre IH]; intros n post v1 t1; cbn [last_accepted app accept].
  - split; intros H.
    + apply is_recent_spec in H. rewrite H. left. reflexivity.
    + apply is_recent_false_spec in H. rewrite H. reflexivity.
  - destruct (is_recent v1 (n_v m) t1 (n_t m) reset).
    + specialize (IH n post (n_v m) (n_t m)). destruct (last_accepted reset (n_v m) (n_t m) pre) as [v t].
      destruct IH as [I1 I2]. split; intros H; [right; auto|]. cbn [app]. f_equal. auto.
    + apply IH.
Qed.

(* the notifications that arrive while the observation is live: up to the first terminal event or application cancel *)
Fixpoint live_notifs (ops : list op) : list notif :=
  match ops with
  | [] => []
  | OpEvent now (EvMsg id (Some v) false) :: r => {| n_id := id; n_v := v; n_t := now |} :: live_notifs r
  | OpEvent now (EvMsg id (Some v) true) :: _ => [{| n_id := id; n_v := v; n_t := now |}]
  | OpEvent _ _ :: _ => []
  | OpCancelObs :: _ => []
  | _ :: r => live_notifs r
  end.
(* the terminal response (a message without Observe option), if that is what ends the observation *)
Fixpoint final_response (ops : list op) : list Z :=
  match ops with
  | [] => []
  | OpEvent _ (EvMsg _ (Some _) false) :: r => final_response r
  | OpEvent _ (EvMsg id None _) :: _ => [id]
  | OpEvent _ _ :: _ => []
  | OpCancelObs :: _ => []
  | _ :: r => final_response r
  end.

Theorem spec_deliveries_characterised reset : forall ops v1 t1,
  deliveries (concat (spec_run reset (PObs v1 t1) ops))
  = map n_id (accept reset v1 t1 (live_notifs ops)) ++ final_response ops.
Proof.
  induction ops as [|o ops IH]; intros v1 t1; [reflexivity|].
  destruct o as [now ev| | |k'| |]; cbn [spec_run spec_step live_notifs final_response concat app]; try apply IH.
  - destruct ev as [id [v|] [|]|e]; cbn [spec_event live_notifs final_response accept n_v n_t].
    + destruct (is_recent v1 v t1 now reset); cbn; rewrite ?deliveries_app, spec_run_end; reflexivity.
    + destruct (is_recent v1 v t1 now reset); cbn; rewrite IH; reflexivity.
    + cbn. rewrite spec_run_end. reflexivity.
    + cbn. rewrite spec_run_end. reflexivity.
    + cbn. rewrite spec_run_end. reflexivity.
  - cbn. rewrite spec_run_end. reflexivity.
Qed.

Definition last_v (v0 : Z) (acc : list notif) : Z := last (map n_v acc) v0.
Definition max_off (base v0 : Z) (l : list notif) : Z := fold_right (fun n m => Z.max (off base (n_v n)) m) (off base v0) l.
Fixpoint increasing (base prev : Z) (l : list notif) : Prop :=
  match l with [] => True | n :: r => off base prev < off base (n_v n) /\ increasing base (n_v n) r end.

Lemma last_cons {A} (a : A) l d : last (a :: l) d = last l a.
Proof. revert a d. induction l as [|b l IH]; intros; [reflexivity|]. cbn [last] in *. destruct l; auto. Qed.

Lemma max_off_ge base v0 l : off base v0 <= max_off base v0 l.
Proof. unfold max_off. induction l; cbn [fold_right]; lia. Qed.
Lemma max_off_mono base a b l : off base a <= off base b -> max_off base a l <= max_off base b l.
Proof. intros. unfold max_off. induction l; cbn [fold_right]; lia. Qed.

Lemma fold_max_absorb base x d l :
  Z.max x (fold_right (fun (n : notif) m => Z.max (off base (n_v n)) m) d l) = fold_right (fun n m => Z.max (off base (n_v n)) m) (Z.max x d) l.
Proof. induction l; cbn [fold_right]; lia. Qed.

Definition timely (lo reset t : Z) : Prop := lo <= t <= lo + reset.

Lemma is_recent_in_window base lo reset v1 t1 v2 t2 :
  in_window base v1 -> in_window base v2 -> timely lo reset t1 -> timely lo reset t2 ->
  is_recent v1 v2 t1 t2 reset = (off base v1 <? off base v2).
Proof.
  intros W1 W2 T1 T2. unfold timely in *.
  destruct (off base v1 <? off base v2) eqn:E.
  - apply is_recent_spec. left. apply (serial_lt_window base); auto. lia.
  - apply is_recent_false_spec. intros [H|H]; [|lia]. apply (serial_lt_window base) in H; auto. lia.
Qed.

Theorem freshest_accepted base lo reset : forall l v0 t0,
  in_window base v0 -> timely lo reset t0 ->
  Forall (fun n => in_window base (n_v n) /\ timely lo reset (n_t n)) l ->
  increasing base v0 (accept reset v0 t0 l)
  /\ off base (last_v v0 (accept reset v0 t0 l)) = max_off base v0 l.
Proof.
  induction l as [|n l IH]; intros v0 t0 W0 T0 HF; [cbn; auto|].
  inversion HF as [|? ? [Wn Tn] HF']; subst. cbn [accept max_off fold_right].
  rewrite (is_recent_in_window base lo) by assumption.
  destruct (off base v0 <? off base (n_v n)) eqn:E.
  - destruct (IH (n_v n) (n_t n) Wn Tn HF') as [I1 I2]. split; [cbn; split; [lia|exact I1]|].
    unfold last_v in *. cbn [map]. rewrite last_cons, I2. unfold max_off. rewrite fold_max_absorb.
    replace (Z.max (off base (n_v n)) (off base v0)) with (off base (n_v n)) by lia. reflexivity.
  - destruct (IH v0 t0 W0 T0 HF') as [I1 I2]. split; [exact I1|]. rewrite I2.
    pose proof (max_off_ge base v0 l). unfold max_off in *. lia.
Qed.

Lemma max_off_perm base v0 l l' : Permutation l l' -> max_off base v0 l = max_off base v0 l'.
Proof. unfold max_off. induction 1; cbn [fold_right]; lia. Qed.

Lemma last_v_in_range base reset : forall l v0 t0, in_window base v0 -> Forall (fun n => in_window base (n_v n)) l ->
  in_range (last_v v0 (accept reset v0 t0 l)).
Proof.
  induction l as [|n l IH]; intros v0 t0 W0 HF; [exact (proj1 W0)|].
  inversion HF; subst. cbn [accept]. destruct (is_recent v0 (n_v n) t0 (n_t n) reset).
  - unfold last_v in *. cbn [map]. rewrite last_cons. apply IH; auto.
  - apply IH; auto.
Qed.

(* whatever the order in which the network delivers them, the observer ends up with the same, freshest, notification *)
Theorem freshest_for_every_order base lo reset : forall l l' v0 t0,
  in_window base v0 -> timely lo reset t0 ->
  Forall (fun n => in_window base (n_v n) /\ timely lo reset (n_t n)) l ->
  Permutation l l' ->
  last_v v0 (accept reset v0 t0 l) = last_v v0 (accept reset v0 t0 l').
Proof.
  intros l l' v0 t0 W0 T0 HF HP.
  assert (HF' : Forall (fun n => in_window base (n_v n) /\ timely lo reset (n_t n)) l') by (eapply Permutation_Forall; eauto).
  destruct (freshest_accepted base lo reset l v0 t0 W0 T0 HF) as [_ E1].
  destruct (freshest_accepted base lo reset l' v0 t0 W0 T0 HF') as [_ E2].
  apply (off_inj base).
  - apply (last_v_in_range base); auto. eapply Forall_impl; [|exact HF]. cbn. tauto.
  - apply (last_v_in_range base); auto. eapply Forall_impl; [|exact HF']. cbn. tauto.
  - rewrite E1, E2. apply max_off_perm. exact HP.
Qed.

Fixpoint plain (ops : list op) : bool :=          (* no terminal event, no application cancel *)
  match ops with
  | [] => true
  | OpEvent _ (EvMsg _ (Some _) false) :: r => plain r
  | OpEvent _ _ :: _ => false
  | OpCancelObs :: _ => false
  | _ :: r => plain r
  end.
Fixpoint spec_phase (reset : Z) (p : phase) (ops : list op) : phase :=
  match ops with [] => p | o :: r => spec_phase reset (fst (spec_step reset p o)) r end.

Lemma spec_run_app reset : forall a b p,
  spec_run reset p (a ++ b) = spec_run reset p a ++ spec_run reset (spec_phase reset p a) b.
Proof.
  induction a as [|o a IH]; intros b p; [reflexivity|].
  cbn [app spec_run spec_phase]. destruct (spec_step reset p o) as [p' out]. cbn [fst]. rewrite IH. reflexivity.
Qed.

Lemma plain_stays_observing reset : forall pre v1 t1, plain pre = true ->
  exists v t, spec_phase reset (PObs v1 t1) pre = PObs v t.
Proof.
  induction pre as [|o pre IH]; intros v1 t1 Hp; [cbn; eauto|].
  destruct o as [now ev| | |k'| |]; cbn [plain] in Hp; try discriminate; cbn [spec_phase spec_step fst]; try (apply IH; exact Hp).
  destruct ev as [id [v|] [|]|e]; try discriminate. cbn [spec_event fst].
  destruct (is_recent v1 v t1 now reset); apply IH; exact Hp.
Qed.

Definition is_terminal (ev : event) : bool := match ev with EvExn _ => true | EvMsg _ None _ => true | _ => false end.
Definition terminal_outcome (ev : event) : list sig :=
  match ev with
  | EvExn e => [EndSignal (Some e)]                                           (* transport failure: the network error *)
  | EvMsg id None _ => [Deliver id; EndSignal (Some ObservationCancelled)]    (* final response, then the cancellation signal *)
  | _ => []
  end.

Theorem spec_termination_at_every_position reset : forall pre now ev post v1 t1,
  plain pre = true -> is_terminal ev = true ->
  spec_run reset (PObs v1 t1) (pre ++ OpEvent now ev :: post)
  = spec_run reset (PObs v1 t1) pre ++ terminal_outcome ev :: map (fun _ => []) post.
Proof.
  intros pre now ev post v1 t1 Hp Ht. rewrite spec_run_app.
  destruct (plain_stays_observing reset pre v1 t1 Hp) as (v & t & ->).
  f_equal. destruct ev as [id [v'|] l|e]; try discriminate; cbn; rewrite spec_run_silent; reflexivity.
Qed.

Theorem spec_not_observable reset : forall now ev post, ev_is_last ev = true ->
  spec_run reset PFirst (OpEvent now ev :: post) = [EndSignal (Some NotObservable)] :: map (fun _ => []) post.
Proof.
  intros now ev post Hl. destruct ev as [id [v|] [|]|e]; try discriminate; cbn; rewrite spec_run_silent; reflexivity.
Qed.

Lemma Request_run_acts h reset r c now ev :
  let ra := Request_run h reset r c now ev in
  (has_error (snd ra) = true ->
     raises (snd ra) = false /\ stops (snd ra) || ev_is_last ev = true /\ (c = false -> fst ra = RFinished))
  /\ (c = false -> raises (snd ra) = false).
Proof.
  cbv zeta. destruct r as [|v1 t1|]; [| |cbn; split; [discriminate|reflexivity]].
  - destruct h, c, ev as [id [v|] [|]|e]; cbn; split; auto; discriminate.
  - destruct c, ev as [id [v|] [|]|e]; cbn [Request_run fst snd app]; try destruct (is_recent v1 v t1 now reset); cbn; split; auto; discriminate.
Qed.

Lemma end_signals_repeat_deliver id n : end_signals (repeat (Deliver id) n) = [].
Proof. induction n; cbn; auto. Qed.

Lemma apply_actions_end_signals k : forall acts s, end_signals (view k (aa_outs s acts)) <> [] -> has_error acts = true.
Proof.
  apply (apply_actions_ind (fun _ acts _ o _ => end_signals (view k o) <> [] -> has_error acts = true)).
  - intros s H. cbn in H. congruence.
  - intros s e acts H. cbn in H. congruence.
  - intros s a acts s2 o2 r Ha IH. rewrite view_app, end_signals_app.
    destruct a; try discriminate Ha; cbn [act1 has_error snd]; try exact IH; [|reflexivity|destruct (s_ended s); exact IH].
    rewrite view_callbacks, end_signals_repeat_deliver. exact IH.
Qed.

(* every state, every pipe event: if it hands observer k an end signal, the pipe's interest has ended when the event is done
   (this is what frees the token) *)
Lemma add_event_end_signal_ends k s now ev :
  end_signals (view k (snd (add_event s now ev))) <> [] -> s_ended (fst (add_event s now ev)) = true.
Proof.
  destruct (add_event_cases s now ev) as [(En & ->)|[(En & Er & ->)|(En & Er & ->)]]; [cbn; congruence|cbn; auto|].
  unfold run_event. set (ra := Request_run _ _ _ _ now ev). set (s0 := set_runner s (fst ra)).
  pose proof (proj1 (Request_run_acts (s_has_obs s) (s_reset s) (s_runner s) (cancelled (s_obs s)) now ev)) as RA. fold ra in RA.
  pose proof (apply_actions_end_signals k (snd ra) s0) as HE.
  pose proof (apply_actions_frame (snd ra) s0) as (_ & _ & _ & F4 & _ & F6). rewrite F6.
  destruct (raises (snd ra)) eqn:Era; [intros H; discriminate (proj1 (RA (HE H)))|].
  destruct (ev_is_last ev) eqn:El; cbn [andb].
  - destruct (s_ended (aa_sys s0 (snd ra))) eqn:E1; cbn [negb fst snd]; auto.
  - cbn [fst snd]. intros H. rewrite F4. cbn [s0 set_runner s_ended]. rewrite En. destruct (RA (HE H)) as (_ & SL & _). rewrite orb_false_r in SL. exact SL.
Qed.

Definition latest (it : iter) : option item := match it_s it with Some y => Some y | None => it_w it end.
Definition good (it : iter) : Prop :=
  it_started it = true /\ it_finished it = false
  /\ (forall a, it_w it = Some a -> is_err a = false)          (* an end signal is the last thing ever pushed *)
  /\ (it_s it <> None -> it_w it <> None).

Lemma good_idle : good idle.
Proof. unfold good, idle. cbn. repeat split; congruence. Qed.

Lemma push_latest it x : good it -> latest (push it x) = Some x.
Proof.
  intros (Hs & Hf & Hw & Hsw). unfold push, latest. rewrite Hf.
  destruct (it_w it) eqn:Ew; cbn; [reflexivity|].
  destruct (it_s it) eqn:Es; [exfalso; apply Hsw; congruence|reflexivity].
Qed.
Lemma push_good it id : good it -> good (push it (IMsg id)).
Proof.
  intros (Hs & Hf & Hw & Hsw). unfold push, good. rewrite Hf.
  destruct (it_w it) eqn:Ew; cbn; repeat split; auto; try congruence.
  intros a Ha. inversion Ha; subst. reflexivity.
Qed.

Fixpoint pushes (it : iter) (xs : list item) : iter := match xs with [] => it | x :: r => pushes (push it x) r end.

Lemma pushes_resolved xs : forall a s,
  pushes {| it_started := true; it_finished := false; it_w := Some a; it_s := s |} xs
  = {| it_started := true; it_finished := false; it_w := Some a; it_s := last (map Some xs) s |}.
Proof. induction xs as [|x xs IH]; intros a s; [reflexivity|]. cbn [pushes map]. rewrite last_cons. apply IH. Qed.

Lemma last_pushed_sub {B} (f : item -> B) xs z : forall d, last (map Some xs) d = Some z -> d = Some z \/ Subseq [f z] (map f xs).
Proof.
  induction xs as [|x xs IH]; intros d H; [left; exact H|]. right. cbn [map] in *. rewrite last_cons in H.
  destruct (IH _ H) as [E|S]; [inversion E; apply sub_take; constructor|apply sub_skip; exact S].
Qed.

(* one wake-up of the consumer yields, in order, a subsequence of what was pushed since it last blocked ... *)
Theorem iterator_yields_subsequence : forall xs,
  Subseq (snd (anext_drain (pushes idle xs))) (map yield xs).
Proof.
  intros [|x xs]; [constructor|]. change (pushes idle (x :: xs)) with (pushes (push idle x) xs).
  change (push idle x) with {| it_started := true; it_finished := false; it_w := Some x; it_s := None |}.
  rewrite pushes_resolved. unfold anext_drain. cbn [it_started it_finished it_w it_s negb orb map].
  destruct (is_err x); [apply sub_take; constructor|].
  destruct (last (map Some xs) None) as [z|] eqn:El; cbn [snd]; apply sub_take; [|constructor].
  destruct (last_pushed_sub yield xs z None El) as [E|S]; [discriminate|exact S].
Qed.

(* weaker than [good]: the awaited future may hold the end signal, provided nothing was pushed after it.  Pushing anything
   into a good iterator leaves it in such a state, and a drain then ends with the most recent item *)
Definition drainable (it : iter) : Prop :=
  it_started it = true /\ it_finished it = false /\ (it_s it <> None -> exists a, it_w it = Some a /\ is_err a = false).

Lemma good_drainable it : good it -> drainable it.
Proof.
  intros (Hs & Hf & Hw & Hsw). repeat split; auto. intros H. destruct (it_w it) as [a|]; [exists a; auto|destruct (Hsw H); reflexivity].
Qed.
Lemma push_drainable it x : good it -> drainable (push it x).
Proof.
  intros (Hs & Hf & Hw & Hsw). unfold push, drainable. rewrite Hf. destruct (it_w it) as [a|] eqn:Ew; cbn; repeat split; auto.
  - intros _. exists a. auto.
  - intros H. destruct (Hsw H). reflexivity.
Qed.

Lemma drain_ends_with_latest it x d : drainable it -> latest it = Some x -> last (snd (anext_drain it)) d = yield x.
Proof.
  intros (Hs & Hf & Hsw) Hl. unfold anext_drain, latest in *. rewrite Hs, Hf. cbn [negb orb].
  destruct (it_s it) as [y|].
  - destruct Hsw as (a & -> & ->); [discriminate|]. inversion Hl; subst. reflexivity.
  - rewrite Hl. destruct (is_err x); reflexivity.
Qed.

(* ... and always ends with the most recent one: the queue is lossy but never loses the latest *)
Theorem iterator_ends_with_latest : forall it x d, good it -> latest it = Some x ->
  last (snd (anext_drain it)) d = yield x /\ it_w (fst (anext_drain it)) = None /\ it_s (fst (anext_drain it)) = None.
Proof.
  intros it x d G Hl. split; [apply drain_ends_with_latest; [apply good_drainable; exact G|exact Hl]|].
  destruct G as (Hs & Hf & _ & Hsw). unfold anext_drain, latest in *. rewrite Hs, Hf. cbn [negb orb].
  destruct (it_w it) as [a|]; [destruct (is_err a), (it_s it); auto|].
  destruct (it_s it); [exfalso; apply Hsw; congruence|discriminate].
Qed.

Lemma pushes_msgs_good : forall ids it, good it -> good (pushes it (map IMsg ids)).
Proof. induction ids as [|i ids IH]; intros it G; cbn [map pushes]; auto using push_good. Qed.

Lemma pushes_app : forall xs ys it, pushes it (xs ++ ys) = pushes (pushes it xs) ys.
Proof. induction xs as [|a xs IH]; intros; cbn [app pushes]; auto. Qed.

Theorem iterator_lossy_but_latest : forall ids x d,
  last (snd (anext_drain (pushes idle (map IMsg ids ++ [x])))) d = yield x.
Proof.
  intros ids x d. rewrite pushes_app. cbn [pushes]. pose proof (pushes_msgs_good ids idle good_idle) as G.
  apply drain_ends_with_latest; [apply push_drainable|apply push_latest]; exact G.
Qed.

(* everything observer k (registered before anything happens) is handed during the run of ops *)
Definition observed (k reset : Z) (ops : list op) : list sig :=
  concat (map (view k) (run (sys0 true reset) (OpRegister k :: ops))).

Lemma observed_spec k reset ops : no_reg k ops -> observed k reset ops = concat (spec_run reset PFirst ops).
Proof. intros H. unfold observed. rewrite observer_refines_rfc_client by exact H. reflexivity. Qed.

Lemma no_reg_cons k o ops : (forall k', o <> OpRegister k') -> no_reg k ops -> no_reg k (o :: ops).
Proof. intros Ho H k' [E|Hin]; [exfalso; eapply Ho; eauto|apply H; exact Hin]. Qed.
Lemma no_reg_app k a b : no_reg k a -> no_reg k b -> no_reg k (a ++ b).
Proof. intros Ha Hb k' Hin. apply in_app_or in Hin as [H|H]; auto. Qed.
