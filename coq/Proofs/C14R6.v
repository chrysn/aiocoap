(* C14 — histories: the first transmission of a confirmable message to r opens the exchange for exactly that message, which stays
   the one in flight until it is acknowledged/reset or r fails; the liveness bound counted from submission; fairness over infinite
   schedules of the general model.  All from any state satisfying the invariant. *)
From Verif Require Import Lib.Tactics Model.C14 Model.C14refuse Proofs.C14 Proofs.C14step Proofs.C14live Proofs.C14gen.
Import ListNotations.
Open Scope Z_scope.

Definition first_con_tx (r : Z) (m : msg) (o : list output) : Prop := In (Tx m false) o /\ con_to r m = true.

Lemma neutral_no_first_tx m o : forallb neutral o = true -> ~ In (Tx m false) o.
Proof. intros H Hi. rewrite forallb_forall in H. specialize (H _ Hi). discriminate. Qed.

(* a confirmable message handed to C14.send_message for an idle remote: on the wire, and its exchange is the only one *)
Lemma send_message_idle who r mt code tok maxre s : Inv s -> aget r (backlogs s) = None ->
  forall m, In (Tx m false) (snd (C14.send_message who r mt code tok maxre s)) -> con_to r m = true ->
  exists x, exs r (fst (C14.send_message who r mt code tok maxre s)) = [x] /\ x_msg x = m.
Proof. intros HI Ha m Hin Hc. destruct (send_message_base who r mt code tok maxre s HI) as [(q & _ & Ha' & _)|(_ & E)]; [congruence|].
  rewrite E in *. cbn [fst snd] in *. destruct Hin as [Hin|[Hin|[]]]; [discriminate|]. inv Hin.
  replace (resolve_mtype mt =? 0) with true by (unfold con_to in Hc; cbn [new_msg m_mtype] in Hc; lia).
  destruct (add_exchange_exs_same (new_msg who r mt code tok maxre s) (snd (next_message_id s))) as (x & A & _ & B);
    [exact (inv_idle s r HI Ha)|exists x; auto]. Qed.

Theorem first_tx_opens_exchange s e r m : Inv s -> first_con_tx r m (snd (step s e)) ->
  exists x, exs r (fst (step s e)) = [x] /\ x_msg x = m.
Proof. intros HI (Hin & Hc). assert (Hrm : m_remote m = r) by (unfold con_to in Hc; lia).
  destruct (aget r (backlogs s)) as [q|] eqn:Ha.
  - (* r busy: only a release can do that *)
    pose proof (first_tx_needs_ack s e r _ _ m (step_trichotomy s e r HI) Hin Hc ltac:(unfold in_backlogs; rewrite Ha; reflexivity)) as Hack.
    pose proof (released_when_acked s e r q HI Hack Ha) as R. cbn zeta in R. pose proof (in_left r m _ Hin Hc) as Hl.
    destruct q as [|m0 rest]; destruct R as (_ & R).
    + destruct R as (R & _). rewrite R in Hl. destruct Hl.
    + destruct R as (_ & R1 & _ & x' & Hx & Hm & _). rewrite R1 in Hl. destruct Hl as [<-|[]]. exists x'. auto.
  - (* r idle *)
    destruct (touches s e r) eqn:Ht.
    2:{ destruct (step_frame s e r HI Ht) as (_ & _ & C). destruct (silent_no_tx r m false _ C Hrm Hin). }
    assert (Hidle : forall x, In x (active_exchanges s) -> m_remote (x_msg x) <> r).
    { intros x Hi Hr. pose proof (in_exs r s x Hi Hr) as H. rewrite (inv_idle s r HI Ha) in H. exact H. }
    destruct (step_kinds s e r HI Ht) as [H|H|_ (_ & _ & Hn)|_ (who & mt & code & tok & maxre & s1 & tail & He1 & Hb1 & Ho & Hn & He & Hb)|y _ E Hy _].
    + destruct (acks_inv s e r H) as (_ & mid & x & _ & Ex & _). destruct (xget_some _ _ _ _ Ex) as (Hi & Hr & _). destruct (Hidle x Hi Hr).
    + destruct e; cbn in H; try discriminate.
      * exfalso. unfold step, dispatch_error in Hin. destruct (tm_dispatch_error_spec NetworkError r0 s) as (_ & _ & _ & T1 & _). cbn zeta in T1.
        destruct (tm_dispatch_error NetworkError r0 s) as [s1 o1]. cbn [fst snd] in *. apply in_app_or in Hin. destruct Hin as [H'|H']; [exact (T1 _ _ H')|exact (no_tx_dropped _ _ _ H')].
      * destruct (min_timer (active_exchanges s)) as [x|] eqn:E; [|discriminate]. destruct (Hidle x (min_timer_in _ _ E)). lia.
    + destruct (neutral_no_first_tx m _ Hn Hin).
    + rewrite Ho in Hin. apply in_app_or in Hin. destruct Hin as [Hin|Hin]; [|destruct (neutral_no_first_tx m _ Hn Hin)].
      destruct (send_message_idle who r mt code tok maxre s1 (inv_ext s s1 He1 Hb1 HI) ltac:(rewrite Hb1; exact Ha) m Hin Hc) as (x & Hx & Hm).
      exists x. unfold exs in *. rewrite He. auto.
    + destruct (Hidle y (min_timer_in _ _ E) Hy). Qed.

Theorem general_first_tx_opens_exchange l r : refuses l r = false -> forall s e m, Inv s ->
  first_con_tx r m (snd (step_ev l s e)) -> exists x, exs r (fst (step_ev l s e)) = [x] /\ x_msg x = m.
Proof. intros Hacc s e m HI (Hin & Hc). destruct (touches s e r) eqn:Ht.
  - rewrite (step_ev_touched l r Hacc s e HI Ht) in *. apply first_tx_opens_exchange; [exact HI|split; assumption].
  - destruct (step_ev_frame l s e r HI Ht) as (_ & _ & C). exfalso. apply (silent_no_tx r m false _ C); [unfold con_to in Hc; lia|exact Hin]. Qed.

(* no step of the run acknowledges/resets the exchange open with r or fails r *)
Fixpoint quiet_for (r : Z) (sl : st * list Z) (es : list revent) : bool :=
  match es with
  | [] => true
  | e :: es' =>
      (match e with Ev e0 => negb (acks (fst sl) e0 r) && negb (fails (fst sl) e0 r) | Refuse _ _ => true end) &&
      quiet_for r (fst (rstep sl e)) es'
  end.

Theorem in_flight_persists : forall es s l r x, Inv s -> refuses l r = false -> never_refuses r es = true ->
  exs r s = [x] -> quiet_for r (s, l) es = true ->
  (forall m, ~ first_con_tx r m (concat (snd (rrun (s, l) es)))) /\
  refuses (snd (fst (rrun (s, l) es))) r = false /\
  exists x', exs r (fst (fst (rrun (s, l) es))) = [x'] /\ x_msg x' = x_msg x.
Proof. induction es as [|e es IH]; intros s l r x HI Hacc Hnr Hx Hq.
  - cbn. split; [intros m (H & _); exact H|]. split; [exact Hacc|]. exists x. auto.
  - cbn [never_refuses forallb] in Hnr. apply andb_prop in Hnr. destruct Hnr as [Hne Hnr].
    cbn [quiet_for] in Hq. apply andb_prop in Hq. destruct Hq as [Hq0 Hq]. cbn [rrun].
    destruct e as [e|r' on].
    + cbn [rstep fst] in *. apply andb_prop in Hq0. destruct Hq0 as [Hna Hnf].
      destruct (inv_cases s r HI) as [[Hc _]|(y & q & _ & Ha & _)]; [rewrite Hc in Hx; discriminate|].
      pose proof (general_held_otherwise l r Hacc s e q HI Ha ltac:(destruct (acks s e r); [discriminate|reflexivity]) ltac:(destruct (fails s e r); [discriminate|reflexivity]))
        as (_ & Hl & x0 & x' & Hx0 & Hx' & Hm & _).
      pose proof (step_ev_trans l s e HI) as (HI1 & _).
      destruct (step_ev l s e) as [s1 o1]. cbn [fst snd] in *.
      rewrite Hx in Hx0. inv Hx0.
      destruct (IH s1 l r x' HI1 Hacc Hnr Hx' Hq) as (A & B & x2 & C & D).
      destruct (rrun (s1, l) es) as [sl2 os]. cbn [fst snd concat] in *.
      split; [|split; [exact B|exists x2; split; [exact C|congruence]]].
      intros m (Hin & Hc). apply in_app_or in Hin. destruct Hin as [Hin|Hin].
      * pose proof (in_left r m o1 Hin Hc) as H. rewrite Hl in H. exact H.
      * exact (A m (conj Hin Hc)).
    + destruct (refuse_other_keeps l r r' on s Hacc Hne) as (l1 & E & Hacc'). rewrite E in *. cbn [fst snd concat app] in *.
      specialize (IH s l1 r x HI Hacc' Hnr Hx Hq). destruct (rrun (s, l1) es) as [sl2 os]. exact IH. Qed.

Theorem one_confirmable_in_flight_history : forall es s l r e1 m1 e2 m2, Inv s -> refuses l r = false ->
  never_refuses r es = true ->
  first_con_tx r m1 (snd (step_ev l s e1)) ->
  let s1 := fst (step_ev l s e1) in
  quiet_for r (s1, l) es = true ->
  let s2 := fst (fst (rrun (s1, l) es)) in let l2 := snd (fst (rrun (s1, l) es)) in
  (forall m, ~ first_con_tx r m (concat (snd (rrun (s1, l) es)))) /\
  (exists x, exs r s2 = [x] /\ x_msg x = m1) /\
  (first_con_tx r m2 (snd (step_ev l2 s2 e2)) -> acks s2 e2 r = true).
Proof. intros es s l r e1 m1 e2 m2 HI Hacc Hnr H1. cbn zeta. intros Hq.
  destruct (general_first_tx_opens_exchange l r Hacc s e1 m1 HI H1) as (x & Hx & Hm).
  pose proof (step_ev_trans l s e1 HI) as (HI1 & _).
  destruct (in_flight_persists es (fst (step_ev l s e1)) l r x HI1 Hacc Hnr Hx Hq) as (A & B & x' & C & D).
  split; [exact A|]. split; [exists x'; split; [exact C|congruence]|].
  intros (Hin & Hc).
  set (s2 := fst (fst (rrun (fst (step_ev l s e1), l) es))) in *. set (l2 := snd (fst (rrun (fst (step_ev l s e1), l) es))) in *.
  assert (HI2 : Inv s2) by (apply rrun_trans; exact HI1).
  apply (first_tx_needs_ack s2 e2 r _ _ m2 (step_ev_trichotomy l2 r B s2 e2 HI2) Hin Hc). unfold in_backlogs.
  destruct (inv_cases s2 r HI2) as [[Hc0 _]|(x0 & q & _ & -> & _)]; [rewrite C in Hc0; discriminate|reflexivity]. Qed.

Lemma rrun_app a : forall sl b, fst (rrun sl (a ++ b)) = fst (rrun (fst (rrun sl a)) b).
Proof. induction a as [|e a IH]; intros sl b; [reflexivity|]. cbn [app rrun].
  destruct (rstep sl e) as [sl1 o1]. specialize (IH sl1 b). destruct (rrun sl1 (a ++ b)), (rrun sl1 a). cbn [fst] in *. exact IH. Qed.

Lemma quiet_for_app r a : forall sl b, quiet_for r sl (a ++ b) = quiet_for r sl a && quiet_for r (fst (rrun sl a)) b.
Proof. induction a as [|e a IH]; intros sl b; [reflexivity|]. cbn [app quiet_for rrun]. rewrite IH.
  destruct (rstep sl e) as [sl1 o1]. cbn [fst]. destruct (rrun sl1 a). cbn [fst]. rewrite andb_assoc. reflexivity. Qed.

(* the second transmission's own step counts as a separating step *)
Theorem two_first_transmissions_are_separated : forall es s l r e1 m1 e2 m2, Inv s -> refuses l r = false -> never_refuses r es = true ->
  first_con_tx r m1 (snd (step_ev l s e1)) ->
  let s1 := fst (step_ev l s e1) in
  let s2 := fst (fst (rrun (s1, l) es)) in let l2 := snd (fst (rrun (s1, l) es)) in
  first_con_tx r m2 (snd (step_ev l2 s2 e2)) ->
  quiet_for r (s1, l) (es ++ [Ev e2]) = false.
Proof. intros es s l r e1 m1 e2 m2 HI Hacc Hnr H1. cbn zeta. intros H2.
  rewrite quiet_for_app. destruct (quiet_for r _ es) eqn:Eq; [|reflexivity]. cbn [andb].
  destruct (one_confirmable_in_flight_history es s l r e1 m1 e2 m2 HI Hacc Hnr H1 Eq) as (_ & _ & Hack).
  specialize (Hack H2).
  destruct (fst (rrun (fst (step_ev _ _ e1), _) es)) as [s2 l2] eqn:E. cbn [fst snd quiet_for] in *. rewrite Hack. reflexivity. Qed.

Lemma in_subm r m o : In (Submitted m) o -> con_to r m = true -> In m (subm r o).
Proof. intros H Hc. apply in_flat_map. exists (Submitted m). split; [exact H|]. cbn. rewrite Hc. left; reflexivity. Qed.

Lemma firstn_cost_mono (q : list msg) : forall k k', (k <= k')%nat ->
  (list_sum (map cost (firstn k q)) <= list_sum (map cost (firstn k' q)))%nat.
Proof. induction q as [|a q IH]; intros k k' H; [rewrite !firstn_nil; lia|].
  destruct k as [|k]; [cbn; lia|]. destruct k' as [|k']; [lia|]. cbn [firstn map].
  change (list_sum (?x :: ?t)) with (x + list_sum t)%nat. specialize (IH k k' ltac:(lia)). lia. Qed.

Lemma budget_mono r s k k' : (k <= k')%nat -> (budget r k s <= budget r k' s)%nat.
Proof. intros H. unfold budget. pose proof (firstn_cost_mono (backlog_of r s) k k' H). lia. Qed.

Theorem submitted_eventually_leaves : forall es l s e r m, Inv s -> refuses l r = false -> never_refuses r es = true ->
  In (Submitted m) (snd (step_ev l s e)) -> con_to r m = true ->
  let s1 := fst (step_ev l s e) in
  (budget r (length (backlog_of r s1)) s1 <= gcount (s1, l) es r)%nat ->
  In m (left r (snd (step_ev l s e) ++ concat (snd (rrun (s1, l) es)))).
Proof. intros es l s e r m HI Hacc Hnr Hs Hc. cbn zeta. intros Hb.
  destruct (step_ev_trans l s e HI) as (HI1 & B & _). specialize (B r).
  pose proof (in_subm r m _ Hs Hc) as Hm.
  assert (Hin : In m (left r (snd (step_ev l s e)) ++ backlog_of r (fst (step_ev l s e)))) by (rewrite <- B; apply in_or_app; right; exact Hm).
  rewrite left_app. apply in_or_app. apply in_app_or in Hin. destruct Hin as [Hin|Hin]; [left; exact Hin|right].
  destruct (In_nth_error _ _ Hin) as (k & Hk).
  apply (general_eventually_leaves es (fst (step_ev l s e)) l r k m HI1 Hacc Hnr Hk).
  assert (k < length (backlog_of r (fst (step_ev l s e))))%nat by (apply nth_error_Some; congruence).
  pose proof (budget_mono r (fst (step_ev l s e)) k (length (backlog_of r (fst (step_ev l s e)))) ltac:(lia)). lia. Qed.

Definition rschedule := nat -> revent.
Fixpoint rprefix (sch : rschedule) (n : nat) : list revent := match n with O => [] | S n => rprefix sch n ++ [sch n] end.
Definition rstate_at (sch : rschedule) (sl : st * list Z) (n : nat) : st * list Z := fst (rrun sl (rprefix sch n)).
Definition rtrace_to (sch : rschedule) (sl : st * list Z) (n : nat) : list output := concat (snd (rrun sl (rprefix sch n))).
Definition gprogress_at (sl : st * list Z) (e : revent) (r : Z) : bool :=
  match e with Ev e0 => progress (fst sl) e0 r | Refuse _ _ => false end.
(* timers keep firing: from every point on, a later step makes progress at r, or nothing is outstanding at r *)
Definition rfair (sch : rschedule) (sl : st * list Z) (r : Z) : Prop :=
  forall n, exists n', (n <= n')%nat /\
    (gprogress_at (rstate_at sch sl n') (sch n') r = true \/ exs r (fst (rstate_at sch sl n')) = []).
Definition never_refused_in (r : Z) (sch : rschedule) : Prop :=
  forall n, match sch n with Refuse r' true => r' <> r | _ => True end.

Lemma gcount_app a : forall sl b r, gcount sl (a ++ b) r = (gcount sl a r + gcount (fst (rrun sl a)) b r)%nat.
Proof. induction a as [|e a IH]; intros sl b r; [reflexivity|]. cbn [app gcount rrun]. rewrite IH.
  destruct (rstep sl e) as [sl1 o1]. cbn [fst]. destruct (rrun sl1 a). cbn [fst]. lia. Qed.

Lemma never_refuses_prefix r sch n : never_refused_in r sch -> never_refuses r (rprefix sch n) = true.
Proof. intros H. induction n as [|n IH]; [reflexivity|]. cbn [rprefix]. unfold never_refuses in *. rewrite forallb_app, IH. cbn.
  specialize (H n). destruct (sch n) as [e|r' [|]]; try reflexivity. replace (r' =? r) with false by lia. reflexivity. Qed.

Theorem general_fair_eventually_leaves sch s l r k m : Inv s -> refuses l r = false -> never_refused_in r sch ->
  nth_error (backlog_of r s) k = Some m -> rfair sch (s, l) r -> exists n, In m (left r (rtrace_to sch (s, l) n)).
Proof. intros HI Hacc Hnr Hn Hf.
  destruct (unbounded_or (fun n => gcount (s, l) (rprefix sch n) r) (fun n => In m (left r (rtrace_to sch (s, l) n)))) with (B := budget r k s) as (n & [Hc|Hl]).
  - intros n. cbn [rprefix]. rewrite gcount_app. lia.
  - intros n. destruct (Hf n) as (n' & Hle & [Hp|He]); exists n'; (split; [exact Hle|]).
    + left. cbn [rprefix]. rewrite gcount_app. cbn [gcount]. fold (rstate_at sch (s, l) n').
      unfold gprogress_at in Hp. destruct (sch n') as [e|? ?]; [|discriminate]. rewrite Hp. lia.
    + right. exact (idle_means_left s _ _ r k m (rrun_trans (rprefix sch n') s l HI) Hn He).
  - exists n. apply (general_eventually_leaves (rprefix sch n) s l r k m HI Hacc (never_refuses_prefix r sch n Hnr) Hn Hc).
  - exists n. exact Hl. Qed.
