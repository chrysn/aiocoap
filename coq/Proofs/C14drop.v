(* C14 — [nodrop o]: no message is discarded in o; no theorem of Props/C14.v is stated with it. *)
From Verif Require Import Lib.Tactics Model.C14 Model.C14refuse Proofs.C14 Proofs.C14step.
Import ListNotations.
Open Scope Z_scope.

Definition nodrop (o : list output) : Prop := forall m, ~ In (Dropped m) o.

Lemma nodrop_fails e l : nodrop (map (fun o : Z * Z * Z => Fail (q_of o) e) l).
Proof. intros m H. apply in_map_iff in H. destruct H as (? & H & _). discriminate. Qed.
