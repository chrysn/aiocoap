(* C15 — CoAP over TCP (RFC 8323): framing independent of segmentation, signalling rules.
   The proofs are in Proofs/C15*.v (here at most a few lines from a lemma there), the Examples are evaluated here. extract_message_size, encode_length,
   read_ / write_extended_field_value are translated from tcp.py / options.py on every run (coq/Gen); the rest is Model/C15.v.
   Clauses of the property text: 1 behaviour independent of how the stream is cut; 2 exactly the sent messages are
   dispatched, in order; 3 frames as RFC 8323 3.2; 4 nothing dispatched before the CSM; Abort + close on 5 a frame above
   the local maximum, 6 TKL > 8 or an unparsable frame, 7 an unknown critical signalling option; 8 Ping -> Pong, same
   token; 9 the peer's Release / Abort fail the pending requests with a network error; 10 empty messages are ignored. *)
From Verif Require Import Lib.Py Lib.Tactics Gen.options_ext Gen.tcp_framing Model.C15 Model.C15Sys Proofs.C15 Proofs.C15Interleave Proofs.C15Gate Proofs.C15Total Proofs.C15Compose Proofs.C15Sys Proofs.C15R6b.
Open Scope Z_scope.

(* _encode_length produces exactly the RFC's Len nibble and Extended Length bytes, in every range
   (boundaries 13 / 269 / 65805), and overflows beyond 65805 + 2^32 - 1 *)
Theorem C15_encode_length_is_rfc8323 : forall n, 0 <= n < 65805 + 2 ^ 32 -> encode_length n = Ok (rfc8323_len n).
Proof. exact encode_length_rfc8323. Qed.
Print Assumptions C15_encode_length_is_rfc8323.

(* _extract_message_size never raises and is the header reader [header] *)
Theorem C15_extract_message_size_total : forall data, extract_message_size data = Ok (header data).
Proof. exact extract_message_size_spec. Qed.
Print Assumptions C15_extract_message_size_total.

(* what _encode_length wrote is read back by _extract_message_size, for every length, token length and continuation *)
Theorem C15_length_roundtrip : forall n tkl rest, 0 <= n < 65805 + 2 ^ 32 -> 0 <= tkl < 16 ->
  extract_message_size ((Z.lor (Z.shiftl (fst (rfc8323_len n)) 4) tkl :: snd (rfc8323_len n)) ++ rest)
  = Ok (Some (2 + blen (snd (rfc8323_len n)), tkl, n)).
Proof. intros. rewrite extract_message_size_spec. f_equal. apply length_roundtrip; assumption. Qed.
Print Assumptions C15_length_roundtrip.

(* _serialize output is: (Len | TKL) byte, extended length, code, token, options, [0xFF payload] — for options
   added to the message in ANY order ([opts m] is the insertion sequence; option_list sorts it stably by number) *)
Theorem C15_serialize_is_rfc8323 : forall m b, serialize m = Ok b ->
  exists od, options_encode (option_list (opts m)) = Ok od /\
    let data := od ++ (match payload m with [] => [] | _ => 255 :: payload m end) in
    0 <= blen data < 65805 + 2 ^ 32 /\ blen (token m) <= 8 /\
    b = (Z.lor (Z.shiftl (fst (rfc8323_len (blen data))) 4) (blen (token m)) :: snd (rfc8323_len (blen data)))
        ++ [code m] ++ token m ++ data.
Proof. exact serialize_inv. Qed.
Print Assumptions C15_serialize_is_rfc8323.

(* decoding a serialised message gives back the message: code, token, options, payload *)
Theorem C15_decode_serialize : forall m b, msg_ok m = true -> serialize m = Ok b ->
  decode_message b = Ok m /\ bytes_ok b = true /\
  exists a l, header b = Some (a, blen (token m), l) /\ a + blen (token m) + l = blen b /\ 2 <= a.
Proof. exact decode_serialize. Qed.
Print Assumptions C15_decode_serialize.

(* the same for any insertion order of the options: the receiver sees them in option_list() order *)
Theorem C15_decode_serialize_any_order : forall m b, msg_ok (canon m) = true -> serialize m = Ok b ->
  decode_message b = Ok (canon m) /\ bytes_ok b = true /\
  exists a l, header b = Some (a, blen (token m), l) /\ a + blen (token m) + l = blen b /\ 2 <= a.
Proof. exact decode_serialize_any. Qed.
Print Assumptions C15_decode_serialize_any_order.
(* option_list() leaves options that were added in non-decreasing number order alone *)
Theorem C15_option_list_sorted_id : forall cur os, opts_ok cur os = true -> option_list os = os.
Proof. exact option_list_sorted_id. Qed.
Print Assumptions C15_option_list_sorted_id.

(* however a byte stream is cut into (a non-empty list of) chunks, the connection behaves, up to and
   including the first close() of the transport, as if the stream had arrived in one piece *)
Theorem C15_framing_chunk_independent : forall rest c d, closed c = false -> bytes_ok (spool c) = true ->
  bytes_ok d = true -> Forall (fun x => bytes_ok x = true) rest ->
  upto_close (snd (run c (map EData (d :: rest)))) = upto_close (snd (data_received c (concat (d :: rest)))).
Proof. intros. rewrite chunking_exact by assumption. reflexivity. Qed.
Print Assumptions C15_framing_chunk_independent.

(* ... and so are the complete outputs, a close() being the last thing a data_received call does (next theorem) *)
Theorem C15_framing_chunk_independent_exact : forall rest c d, closed c = false -> bytes_ok (spool c) = true ->
  bytes_ok d = true -> Forall (fun x => bytes_ok x = true) rest ->
  snd (run c (map EData (d :: rest))) = snd (data_received c (concat (d :: rest))).
Proof. exact chunking_exact. Qed.
Print Assumptions C15_framing_chunk_independent_exact.

(* nothing is processed, written or dispatched after the endpoint closed the transport (own Abort, or
   the peer's Release/Abort): within a data_received call the Close is the last output *)
Theorem C15_nothing_after_close : forall c d, closed c = false -> bytes_ok (spool c) = true -> bytes_ok d = true ->
  upto_close (snd (data_received c d)) = snd (data_received c d).
Proof.
  intros c d Hcl Hok Hd. pose proof (loop_inv (feed c d) (feed_ok c d Hok Hd) Hcl) as H. unfold data_received.
  rewrite data_received_ctl_loop'. destruct (loop' (feed c d)) as [[c1 o1] k]. apply H.
Qed.
Print Assumptions C15_nothing_after_close.

(* ... also in histories that interleave data with outgoing messages and connection loss: cutting any data chunk in two at
   any place changes no output (any two segmentations are connected by such steps) *)
Theorem C15_framing_chunk_independent_interleaved : forall pre post c a b, bytes_ok (spool c) = true ->
  Forall data_ok pre -> bytes_ok a = true -> bytes_ok b = true ->
  snd (run c (pre ++ EData (a ++ b) :: post)) = snd (run c (pre ++ EData a :: EData b :: post)).
Proof. exact split_chunk_anywhere. Qed.
Print Assumptions C15_framing_chunk_independent_interleaved.

(* the loop's fuel (spool length + 1) always suffices: more fuel changes nothing *)
Theorem C15_loop_fuel_irrelevant : forall n n' c, bytes_ok (spool c) = true ->
  (length (spool c) < n)%nat -> (length (spool c) < n')%nat -> data_received_loop n c = data_received_loop n' c.
Proof. exact loop_fuel. Qed.
Print Assumptions C15_loop_fuel_irrelevant.

(* the stream of the frames of any sequence of well-formed messages within the local size limit is
   processed exactly as the message sequence, message by message (outputs and final state but the spool) *)
Theorem C15_stream_processed_as_messages : forall ms c bs,
  Forall (fun m => msg_ok m = true) ms -> Forall (fun m => fits (my_max_message_size c) m = true) ms ->
  frames ms = Ok bs -> spool c = [] ->
  let '(c1, o1) := data_received c bs in let '(c2, o2) := process_messages c ms in
  o1 = o2 /\ set_spool c1 [] = set_spool c2 [].
Proof. exact stream_processed_as_messages. Qed.
Print Assumptions C15_stream_processed_as_messages.

(* Options.decode on EVERY byte string: a result or UnparsableMessage; option numbers are bounded by the input length *)
Theorem C15_options_decode_total : forall fuel num raw, bytes_ok raw = true -> 0 <= num -> (length raw < fuel)%nat ->
  (exists os p, options_decode_loop fuel num raw = Ok (os, p) /\
     Forall (fun o => 0 <= fst o <= num + 65804 * blen raw) os) \/
  options_decode_loop fuel num raw = Raise UnparsableMessage.
Proof.
  intros fuel num raw Hok Hnum Hf.
  destruct (parses_elim _ _ (options_decode_loop_parses fuel num raw Hok Hnum Hf)) as [([os p] & E & H)|E]; eauto.
Qed.
Print Assumptions C15_options_decode_total.

(* _decode_message on EVERY complete frame (what data_received passes to it): a message with a token of at most
   8 bytes, or UnparsableMessage — no IndexError, TypeError, UnicodeDecodeError, ... *)
Theorem C15_decode_message_total : forall f a t l, bytes_ok f = true -> header f = Some (a, t, l) -> a + t + l = blen f ->
  (exists m, decode_message f = Ok m /\ blen (token m) <= 8 /\
     Forall (fun o => 0 <= fst o <= 65804 * blen f) (opts m)) \/
  decode_message f = Raise UnparsableMessage.
Proof. exact decode_message_total. Qed.
Print Assumptions C15_decode_message_total.

(* no exception leaves data_received, whatever the state and the bytes (local maximum at most 2^40; aiocoap's is 2^20):
   what the parser rejects has become Abort + close, and the endpoint's own Abort / Pong always serialise *)
Theorem C15_no_exception_escapes : forall c d, bytes_ok (spool c) = true -> bytes_ok d = true ->
  my_max_message_size c <= 2 ^ 40 -> existsb is_escaped (snd (data_received c d)) = false.
Proof.
  intros c d Hok Hd Hmax. unfold data_received. rewrite data_received_ctl_loop'.
  pose proof (loop_no_esc (feed c d) (feed_ok c d Hok Hd) Hmax) as H.
  destruct (loop' (feed c d)) as [[c1 o1] k]. exact H.
Qed.
Print Assumptions C15_no_exception_escapes.

(* clause 2 end to end: the frames of any sequence of requests / responses arriving after the CSM — in one
   piece; by C15_framing_chunk_independent_exact in any segmentation — make the endpoint hand exactly these
   messages to the token manager, in order, and leave the connection as it was *)
Theorem C15_dispatches_exactly_sent : forall ms c bs s, remote_settings c = Some s -> spool c = [] -> closed c = false ->
  Forall (plain_ok (my_max_message_size c)) ms -> frames ms = Ok bs ->
  data_received c bs = (c, map dispatch_out ms).
Proof. exact dispatches_exactly_sent. Qed.
Print Assumptions C15_dispatches_exactly_sent.

(* whatever follows a stream of good frames (any messages, signalling included, that leave the connection open) is
   processed from the state those messages lead to, its outputs appended *)
Theorem C15_after_good_prefix : forall ms c bs rest, spool c = [] -> closed c = false -> my_max_message_size c <= 2 ^ 40 ->
  Forall (fun m => msg_ok m = true) ms -> Forall (fun m => fits (my_max_message_size c) m = true) ms ->
  frames ms = Ok bs -> bytes_ok rest = true ->
  closed (fst (process_messages c ms)) = false ->
  snd (data_received c (bs ++ rest)) =
  snd (process_messages c ms) ++ snd (data_received (fst (process_messages c ms)) rest) /\
  spool (fst (process_messages c ms)) = [] /\
  my_max_message_size (fst (process_messages c ms)) = my_max_message_size c.
Proof. exact after_good_prefix. Qed.
Print Assumptions C15_after_good_prefix.

(* clauses 5 / 6 at ANY position of the stream: an oversized announcement, or a complete frame that does not
   parse, after any number of good messages: their outputs, then exactly Abort + close *)
Theorem C15_abort_after_good_prefix_oversize : forall ms c bs bad a t l, spool c = [] -> closed c = false ->
  my_max_message_size c <= 2 ^ 40 ->
  Forall (fun m => msg_ok m = true) ms -> Forall (fun m => fits (my_max_message_size c) m = true) ms ->
  frames ms = Ok bs -> bytes_ok bad = true -> closed (fst (process_messages c ms)) = false ->
  header bad = Some (a, t, l) -> a + t + l > my_max_message_size c ->
  snd (data_received c (bs ++ bad)) = snd (process_messages c ms) ++ [Write (abort_frame txt_overly_large); Close].
Proof.
  intros ms c bs bad a t l Hsp Hcl Hmax Hok Hfit Hfr Hbad Hopen Hh Hbig.
  destruct (after_good_prefix ms c bs bad Hsp Hcl Hmax Hok Hfit Hfr Hbad Hopen) as (-> & Hs2 & Hm2).
  rewrite (abort_on_oversize _ bad a t l); [reflexivity|rewrite Hs2; exact Hh|rewrite Hm2; exact Hbig].
Qed.
Print Assumptions C15_abort_after_good_prefix_oversize.
Theorem C15_abort_after_good_prefix_unparsable : forall ms c bs bad f r, spool c = [] -> closed c = false ->
  my_max_message_size c <= 2 ^ 40 ->
  Forall (fun m => msg_ok m = true) ms -> Forall (fun m => fits (my_max_message_size c) m = true) ms ->
  frames ms = Ok bs -> bytes_ok bad = true -> closed (fst (process_messages c ms)) = false ->
  view_of (my_max_message_size c) bad = VFrame f r -> decode_message f = Raise UnparsableMessage ->
  snd (data_received c (bs ++ bad)) = snd (process_messages c ms) ++ [Write (abort_frame txt_failed_to_parse); Close].
Proof.
  intros ms c bs bad f r Hsp Hcl Hmax Hok Hfit Hfr Hbad Hopen V Hdec.
  destruct (after_good_prefix ms c bs bad Hsp Hcl Hmax Hok Hfit Hfr Hbad Hopen) as (-> & Hs2 & Hm2).
  rewrite (abort_on_unparsable _ bad f r); [reflexivity|rewrite Hs2, Hm2; exact V|exact Hdec].
Qed.
Print Assumptions C15_abort_after_good_prefix_unparsable.

Theorem C15_send_message_masked : forall c m, no_response_masked m = true -> pool_send_message c m = (c, [], true).
Proof. intros c m H. unfold pool_send_message. rewrite H. reflexivity. Qed.
Print Assumptions C15_send_message_masked.
Theorem C15_send_message_unmasked : forall c m, no_response_masked m = false ->
  pool_send_message c m = send_message c (strip_no_response m) /\
  Forall (fun o => fst o <> 258) (option_list (opts (strip_no_response m))) /\
  code (strip_no_response m) = code m /\ token (strip_no_response m) = token m /\ payload (strip_no_response m) = payload m.
Proof. exact pool_send_unmasked. Qed.
Print Assumptions C15_send_message_unmasked.

(* clause 9 beyond the connection: pool and token manager (Model/C15Sys.v) *)
(* the exception handed to the requests is a NetworkError: RemoteServerShutdown as it is, None wrapped *)
Theorem C15_failure_is_network_error : forall x, delivered_is_network (tm_wrap x) = true.
Proof. exact tm_wrap_network. Qed.
Print Assumptions C15_failure_is_network_error.

(* the peer's Release / Abort: exactly one NetworkError for every request outstanding on that connection, in table
   order, then close; these requests leave the table, the connection leaves the pool, everything else is untouched *)
Theorem C15_peer_close_fails_pending : forall s id c m, code m = RELEASE \/ code m = ABORT -> has_critical (opts m) = false ->
  let k := if code m =? RELEASE then PeerReleased else PeerAborted in
  route_all id (snd (fst (handle_message c m))) s =
  ({| conns := conns s; pool := filter (fun i => negb (i =? id)) (pool s);
      outgoing := filter (fun r => negb (r_remote r =? id)) (outgoing s) |},
   map (fun r => SFail (r_token r) id (DAsIs (XShutdown k))) (filter (fun r => r_remote r =? id) (outgoing s)) ++ [SConn id Close]).
Proof.
  intros s id c m Hc Hn. rewrite (release_abort_close c m Hc Hn). cbn [fst snd route_all route].
  unfold pool_dispatch_error, tm_dispatch_error. cbn [outgoing pool conns].
  destruct Hc as [Hc|Hc]; rewrite Hc; reflexivity.
Qed.
Print Assumptions C15_peer_close_fails_pending.

(* whenever a connection reports the peer's Release / Abort or its loss among its outputs: every request outstanding on it has got a
   terminal event (final response, else NetworkError), none stays in the table, it is out of the pool, other connections are untouched *)
Theorem C15_dead_connection_fails_pending : forall os id s k, In (DispatchError k) os ->
  let '(s1, x) := route_all id os s in
  (forall r, In r (outgoing s) -> r_remote r = id -> terminal id r x) /\
  (forall r, In r (outgoing s1) -> r_remote r <> id) /\ ~ In id (pool s1) /\
  filter (other id) (outgoing s1) = filter (other id) (outgoing s) /\
  (forall i, i <> id -> In i (pool s) -> In i (pool s1)) /\
  (forall t i d, In (SFail t i d) x -> i = id /\ delivered_is_network d = true).
Proof. exact dead_connection_fails_pending. Qed.
Print Assumptions C15_dead_connection_fails_pending.

(* ... for bytes arriving on a pooled connection, and for connection_lost (asyncio calls it after close(): this is what ends
   the requests after the endpoint's OWN Abort) *)
Theorem C15_data_with_peer_close_fails_pending : forall s id c d k, get_conn id (conns s) = Some c -> closed c = false ->
  In (DispatchError k) (snd (data_received c d)) ->
  let '(s1, x) := sys_step s (PData id d) in
  (forall r, In r (outgoing s) -> r_remote r = id -> terminal id r x) /\
  (forall r, In r (outgoing s1) -> r_remote r <> id) /\ ~ In id (pool s1) /\
  filter (other id) (outgoing s1) = filter (other id) (outgoing s).
Proof.
  intros s id c d k Hg Hcl Hk. cbn [sys_step]. rewrite Hg, Hcl. destruct (data_received c d) as [c1 o]. cbn [snd] in Hk.
  pose proof (dead_connection_fails_pending o id {| conns := set_conn id c1 (conns s); pool := pool s; outgoing := outgoing s |} k Hk) as H.
  destruct (route_all id o _) as [s1 x]. cbn [outgoing pool] in H. destruct H as (H1 & H2 & H3 & H4 & _). auto.
Qed.
Print Assumptions C15_data_with_peer_close_fails_pending.
Theorem C15_connection_lost_fails_pending : forall s id,
  let '(s1, x) := sys_step s (PLost id) in
  (forall r, In r (outgoing s) -> r_remote r = id -> terminal id r x) /\
  (forall r, In r (outgoing s1) -> r_remote r <> id) /\ ~ In id (pool s1) /\
  filter (other id) (outgoing s1) = filter (other id) (outgoing s).
Proof. exact sys_step_lost_dead. Qed.
Print Assumptions C15_connection_lost_fails_pending.
Theorem C15_release_abort_frames : forall c, spool c = [] -> 2 <= my_max_message_size c ->
  snd (data_received c [0; 228]) = [DispatchError PeerReleased; Close] /\
  snd (data_received c [0; 229]) = [DispatchError PeerAborted; Close].
Proof. exact release_frame. Qed.
Print Assumptions C15_release_abort_frames.

(* after any history — in particular the endpoint's OWN Abort, which by itself fails nobody — connection_lost gives every request
   that was in the table for the connection its terminal event; none is left, the connection is out of the pool *)
Theorem C15_lost_ends_all_pending : forall es s id r, In r (outgoing s) -> r_remote r = id ->
  let '(s1, x) := sys_run s (es ++ [PLost id]) in
  terminal id r x /\ (forall q, In q (outgoing s1) -> r_remote q <> id) /\ ~ In id (pool s1).
Proof. exact lost_ends_all_pending. Qed.
Print Assumptions C15_lost_ends_all_pending.

(* over every history that issues requests only under keys not in the table and does not issue (t, i) again: keys stay unique;
   (t, i) gets AT MOST ONE terminal event and is then out of the table; a key not in the table gets no event at all *)
Theorem C15_at_most_one_terminal : forall es s t i, uniq s -> fresh_run s es -> existsb (requests t i) es = false ->
  let '(s1, x) := sys_run s es in
  uniq s1 /\ (tcnt t i s1 <= tcnt t i s)%nat /\ (tcnt t i s = 0%nat -> cnt (ev_is t i) x = 0%nat) /\
  (cnt (term_is t i) x <= 1)%nat /\ (cnt (term_is t i) x = 1%nat -> tcnt t i s1 = 0%nat).
Proof. exact at_most_one_terminal. Qed.
Print Assumptions C15_at_most_one_terminal.

(* the hypotheses follow from reachability: empty table, pairwise distinct request keys (TokenManager.next_token is a counter) ... *)
Theorem C15_fresh_from_distinct : forall es s, uniq s -> distinct_reqs es = true ->
  (forall t i, existsb (requests t i) es = true -> tcnt t i s = 0%nat) -> fresh_run s es.
Proof. exact fresh_from_distinct. Qed.
Print Assumptions C15_fresh_from_distinct.
(* ... so: at most one terminal event per request, unconditionally over such histories *)
Theorem C15_at_most_one_terminal_reachable : forall es1 es2 s t i, outgoing s = [] ->
  distinct_reqs (es1 ++ es2) = true -> existsb (requests t i) es2 = false ->
  (cnt (term_is t i) (snd (sys_run (fst (sys_run s es1)) es2)) <= 1)%nat.
Proof. exact at_most_one_terminal_reachable. Qed.
Print Assumptions C15_at_most_one_terminal_reachable.

(* clause 2, one message ([handle_message] = one loop iteration): after the CSM a request / response is handed on unchanged *)
Theorem C15_dispatch_exact : forall c m s, remote_settings c = Some s -> is_signalling (code m) = false -> code m <> 0 ->
  handle_message c m = (c, [if is_response (code m) then Response m else Request m], Continue).
Proof. exact dispatch_exact. Qed.
Print Assumptions C15_dispatch_exact.

(* clause 4, one message: before any CSM a request / response gets Abort "No CSM received" + close *)
Theorem C15_csm_gate : forall c m, remote_settings c = None -> is_signalling (code m) = false ->
  handle_message c m = (set_closed c, [Write (abort_frame txt_no_csm); Close], Return).
Proof.
  intros c m Hs Hc. unfold handle_message. rewrite Hc, Hs, abort_none by apply serialize_abort_texts. reflexivity.
Qed.
Print Assumptions C15_csm_gate.

(* clause 10: code 0.00 after the CSM: no output, no change *)
Theorem C15_empty_ignored : forall c m s, remote_settings c = Some s -> code m = 0 -> handle_message c m = (c, [], Continue).
Proof. exact empty_ignored. Qed.
Print Assumptions C15_empty_ignored.

(* clause 8: exactly one frame, Pong with the Ping's token *)
Theorem C15_ping_pong : forall c m, code m = PING -> has_critical (opts m) = false -> blen (token m) <= 8 ->
  process_signaling c m = (c, [Write ([blen (token m); PONG] ++ token m)], SOk).
Proof. exact ping_pong. Qed.
Print Assumptions C15_ping_pong.

(* clause 9 at the connection: error reported to the pool (_dispatch_error), close; the requests: C15_peer_close_fails_pending *)
Theorem C15_release_abort_fail_requests : forall c m, code m = RELEASE \/ code m = ABORT -> has_critical (opts m) = false ->
  handle_message c m =
  (set_closed c, [DispatchError (if code m =? RELEASE then PeerReleased else PeerAborted); Close], Return).
Proof. exact release_abort_close. Qed.
Print Assumptions C15_release_abort_fail_requests.

(* over EVERY history of data chunks (any segmentation), outgoing messages and connection loss:
   once set the settings stay set, and as long as they are unset (no CSM received) nothing at all
   has been handed to the token manager *)
Theorem C15_csm_gate_run : forall es c, bytes_ok (spool c) = true ->
  Forall (fun e => match e with EData d => bytes_ok d = true | _ => True end) es ->
  let '(c1, o1) := run c es in
  (remote_settings c <> None -> remote_settings c1 <> None) /\
  (remote_settings c1 = None -> existsb is_dispatch o1 = false).
Proof. exact csm_gate_run. Qed.
Print Assumptions C15_csm_gate_run.

(* clause 5: the next frame's header announces more than the local maximum: Abort + close, nothing else *)
Theorem C15_abort_on_oversize : forall c d a t l, header (spool c ++ d) = Some (a, t, l) -> a + t + l > my_max_message_size c ->
  data_received c d = (set_closed (feed c d), [Write (abort_frame txt_overly_large); Close]).
Proof. exact abort_on_oversize. Qed.
Print Assumptions C15_abort_on_oversize.

(* clause 6: _decode_message raises UnparsableMessage on the complete next frame: Abort + close ... *)
Theorem C15_abort_on_unparsable : forall c d f r, view_of (my_max_message_size c) (spool c ++ d) = VFrame f r ->
  decode_message f = Raise UnparsableMessage ->
  data_received c d = (set_closed (feed c d), [Write (abort_frame txt_failed_to_parse); Close]).
Proof. exact abort_on_unparsable. Qed.
Print Assumptions C15_abort_on_unparsable.

(* ... as for a token length above 8 *)
Theorem C15_tkl_above_8_unparsable : forall f a t l, header f = Some (a, t, l) -> t > 8 -> decode_message f = Raise UnparsableMessage.
Proof.
  intros f a t l Hh Ht. unfold decode_message. rewrite extract_message_size_spec, Hh. cbn [bind].
  replace (t >? 8) with true by lia. reflexivity.
Qed.
Print Assumptions C15_tkl_above_8_unparsable.

(* an unknown critical option in Ping / Pong / Release / Abort: exactly Abort + close, the method returns
   (no Pong, no release handling, nothing further from the spool) — unconditional *)
Theorem C15_abort_on_critical_option : forall c m,
  code m = PING \/ code m = PONG \/ code m = RELEASE \/ code m = ABORT -> has_critical (opts m) = true ->
  handle_message c m = (set_closed c, [Write (abort_frame txt_unknown_critical_option); Close], Return).
Proof.
  intros c m Hk Hn. unfold handle_message.
  rewrite (known_is_signalling m Hk), (process_signaling_known c m Hk), Hn, abort_none by apply serialize_abort_texts.
  reflexivity.
Qed.
Print Assumptions C15_abort_on_critical_option.

(* an unknown critical option in a CSM (numbers below 2^64, i.e. any that fits a frame): exactly one Abort
   carrying Bad-CSM-Option, close, return *)
Theorem C15_abort_on_critical_csm_option : forall c m n v, code m = CSM -> In (n, v) (opts m) -> is_critical n = true ->
  (forall n' v', In (n', v') (opts m) -> 0 <= n' < 2 ^ 64) ->
  exists c1 b n1, handle_message c m = (c1, [Write b; Close], Return) /\ closed c1 = true /\
    remote_settings c1 <> None /\ is_critical n1 = true /\
    serialize (abort_msg txt_option_not_supported (Some n1)) = Ok b.
Proof. exact csm_critical_option_aborts. Qed.
Print Assumptions C15_abort_on_critical_csm_option.

(* a signalling code the endpoint does not know: Abort + close, return (behaviour of the code; the property text is silent) *)
Theorem C15_abort_on_unknown_signalling_code : forall c m, is_signalling (code m) = true ->
  code m <> CSM -> code m <> PING -> code m <> PONG -> code m <> RELEASE -> code m <> ABORT ->
  handle_message c m = (set_closed c, [Write (abort_frame txt_unknown_signalling_code); Close], Return).
Proof. exact unknown_signalling_code_aborts. Qed.
Print Assumptions C15_abort_on_unknown_signalling_code.

Definition ex_get : msg := {| code := 1; token := [170; 187]; opts := [(11, [116; 101; 109; 112]); (12, []); (60, [1; 0])]; payload := [] |}.
Definition ex_content : msg := {| code := 69; token := [170; 187]; opts := [(12, [50])]; payload := [123; 125] |}.
Definition ex_unsorted : msg := {| code := 2; token := [1]; opts := [(60, [1; 0]); (11, [98]); (12, []); (11, [97])]; payload := [33] |}.
Definition ex_conn : conn := {| spool := []; remote_settings := Some {| max_message_size := Some 1152; block_wise_transfer := true |};
                                my_max_message_size := 1048576; closed := false |}.
Example C15_msg_ok_nonvacuous : msg_ok ex_get = true /\ msg_ok ex_content = true /\
  fits 1048576 ex_get = true /\ frames [ex_get; ex_content] = Ok ([162; 1; 170; 187; 180; 116; 101; 109; 112; 16; 210; 35; 1; 0] ++ [82; 69; 170; 187; 193; 50; 255; 123; 125]).
Proof. vm_compute. repeat split; reflexivity. Qed.
Example C15_unsorted_example : msg_ok (canon ex_unsorted) = true /\ msg_ok ex_unsorted = false /\
  opts (canon ex_unsorted) = [(11, [98]); (11, [97]); (12, []); (60, [1; 0])] /\
  match serialize ex_unsorted with Ok b => decode_message b = Ok (canon ex_unsorted) | Raise _ => False end.
Proof. vm_compute. repeat split; reflexivity. Qed.
(* CSM, GET, Ping with token, Release, one byte at a time: same as in one piece *)
Example C15_bytewise_example :
  let stream := [0; 225; 0; 1; 1; 226; 7; 0; 228] in
  snd (run (init 1048576) (map EData (map (fun b => [b]) stream))) = snd (data_received (init 1048576) stream) /\
  snd (data_received (init 1048576) stream) =
    [Request {| code := 1; token := []; opts := []; payload := [] |}; Write [1; 227; 7]; DispatchError PeerReleased; Close].
Proof. vm_compute. split; reflexivity. Qed.
Example C15_abort_frames :
  abort_frame txt_no_csm = [208; 3; 229; 255; 78; 111; 32; 67; 83; 77; 32; 114; 101; 99; 101; 105; 118; 101; 100] /\
  view_of 1048576 [9; 1; 0; 0; 0; 0; 0; 0; 0; 0; 0] = VFrame [9; 1; 0; 0; 0; 0; 0; 0; 0; 0; 0] [] /\
  header [240; 255; 255; 255; 255] = Some (6, 0, 65805 + 4294967295).
Proof. vm_compute. repeat split; reflexivity. Qed.
(* aiocoap e207fa9: after its own Abort (critical option 1 in a CSM) the endpoint stops; the request
   that follows in the same segment stays in the spool and is not dispatched *)
Example C15_no_activity_after_own_abort :
  exists b, data_received (init 1048576) [16; 225; 16; 0; 1] =
    ({| spool := [0; 1]; remote_settings := Some {| max_message_size := None; block_wise_transfer := false |};
        my_max_message_size := 1048576; closed := true |}, [Write b; Close]).
Proof. eexists. vm_compute. reflexivity. Qed.

(* two requests on connection 0 (one answered in the same segment as the Release), one on connection 1 *)
Example C15_pending_example :
  let tA := [1] in let tB := [2] in let tC := [3] in
  let r := sys_run sys0 [PRequest 0 tA false; PRequest 1 tB false; PRequest 0 tC false;
                         PData 0 ([33; 69; 1; 255; 111] ++ [0; 228])] in
  pool (fst r) = [1] /\ outgoing (fst r) = [{| r_token := tB; r_remote := 1; r_observe := false |}] /\
  skipn 3 (snd r) = [SResponse tA 0 69 true; SFail tC 0 (DAsIs (XShutdown PeerReleased)); SConn 0 Close].
Proof. vm_compute. repeat split; reflexivity. Qed.
(* No-Response 0x02 masks a 2.05 but not a 4.04; the option never goes on the wire *)
Example C15_no_response_example :
  no_response_masked {| code := 69; token := []; opts := [(258, [2])]; payload := [] |} = true /\
  pool_send_message ex_conn {| code := 132; token := [9]; opts := [(258, [2]); (12, [])]; payload := [] |}
  = (ex_conn, [Write [17; 132; 9; 192]], true).
Proof. vm_compute. split; reflexivity. Qed.

(* own Abort (TKL 9) with a request outstanding fails nobody; the following connection_lost does, once *)
Example C15_own_abort_then_lost_example :
  let es := [PRequest 0 [1] false; PData 0 ([9; 69] ++ repeat 0 9); PLost 0] in
  distinct_reqs es = true /\ outgoing sys0 = [] /\
  cnt (term_is [1] 0) (snd (sys_run sys0 [PRequest 0 [1] false; PData 0 ([9; 69] ++ repeat 0 9)])) = 0%nat /\
  cnt (term_is [1] 0) (snd (sys_run sys0 es)) = 1%nat /\ outgoing (fst (sys_run sys0 es)) = [] /\ pool (fst (sys_run sys0 es)) = [1].
Proof. vm_compute. repeat split; reflexivity. Qed.
