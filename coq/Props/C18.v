(* C18 — shutdown at any moment fails pending work and leaves nothing running. *)
From Verif Require Import Lib.Py Lib.Tactics Model.C18 Proofs.C18 Proofs.C18Inv Proofs.C18Req Proofs.C18R6.
Open Scope Z_scope.

(* The Shutdown step, from any state that is not yet shut down and whose cancellable timers are all referenced from
   _active_exchanges / _piggyback_opportunities: every outstanding client request fails with LibraryShutdown (an
   observe request that had no response yet additionally ends its observation with NotObservable), every running
   observation ends with LibraryShutdown, every running server handler is cancelled, shutdown returns, nothing is
   sent and nothing raises; afterwards no cancellable timer is left. *)
Theorem C18_shutdown_fails_all : forall s xs, exchanges (mm s) = Some xs -> timers_owned (mm s) ->
  Down (fst (step s Shutdown)) /\
  snd (step s Shutdown) = map (fun i => OHCancel (i_h i)) (ilist (tm s)) ++ flat_map shutdown_outcome (olist (tm s)) ++ [OShutdownDone] /\
  forgets (mm (fst (step s Shutdown))) = forgets (mm s) /\ recents (mm (fst (step s Shutdown))) = recents (mm s) /\
  next_tid (mm (fst (step s Shutdown))) = next_tid (mm s).
Proof. exact shutdown_step. Qed.
Print Assumptions C18_shutdown_fails_all.

(* After shutdown, for every sequence of events that can still reach the context (any timer, any lapse of time, late
   handler completions, new requests, cancellations, transport errors): no datagram is sent, no exception is raised,
   nothing is delivered or started; the only outputs are the immediate LibraryShutdown failures of new requests. *)
Theorem C18_silent_after_shutdown : forall es s, Down s -> G (mm s) -> forallb in_scope es = true ->
  forallb (forallb quiet) (snd (run s es)) = true /\ Down (fst (run s es)) /\ G (mm (fst (run s es))).
Proof. exact run_down. Qed.
Print Assumptions C18_silent_after_shutdown.
Theorem C18_quiet_means_silent : forall o, quiet o = true -> is_send o = false /\ is_exc o = false.
Proof. destruct o; cbn; try discriminate; auto. Qed.
Print Assumptions C18_quiet_means_silent.

(* a request submitted after shutdown fails at once with LibraryShutdown and changes nothing *)
Theorem C18_request_after_shutdown_fails : forall s q r mt observe, outgoing (tm s) = None ->
  tm_request s q r mt observe = (s, OFail q LibraryShutdown :: (if observe then [OObsEnd q NotObservable] else [])).
Proof. exact request_after_shutdown. Qed.
Print Assumptions C18_request_after_shutdown_fails.

(* nothing keeps running: the remaining (deduplication-expiry) timers run out, one per Fire, and none is re-armed *)
Theorem C18_timers_run_out : forall n s, Down s -> G (mm s) -> (length (forgets (mm s)) <= n)%nat ->
  pending (mm (fst (run s (repeat Fire n)))) = [].
Proof. exact timers_run_out. Qed.
Print Assumptions C18_timers_run_out.

(* other contexts in the same process: NOTE — these two statements restate the definition of [step2] (a pair of
   states with no shared component; an event addressed to one context is applied to that component only), so no
   definition of [step] could falsify them.  They record that the model has no process-wide state; the evidence that
   the implementation has none that matters (module globals, the shared event loop's timer queue) is the bystander
   context of the correspondence run and the survivor check of the twoctx stream, not these theorems. *)
Theorem C18_contexts_independent_state : forall es a b,
  fst (fst (run2 (a, b) es)) = fst (run a (events_of false es)) /\
  snd (fst (run2 (a, b) es)) = fst (run b (events_of true es)).
Proof. intros es a b. rewrite (proj1 (run2_split es a b)). auto. Qed.
Print Assumptions C18_contexts_independent_state.
Theorem C18_contexts_independent_outputs : forall es a b,
  outputs_of false es (snd (run2 (a, b) es)) = snd (run a (events_of false es)) /\
  outputs_of true es (snd (run2 (a, b) es)) = snd (run b (events_of true es)).
Proof. intros es a b. exact (proj2 (run2_split es a b)). Qed.
Print Assumptions C18_contexts_independent_outputs.

(* the hypothesis G of the theorems above (every pending deduplication-expiry timer still finds its key, so that its
   _recent_messages.pop(key) cannot raise) holds in every state reachable from a fresh context, by any events at all *)
Theorem C18_expiry_timers_find_their_key : forall es u m t, G (mm (fst (run (init u m t) es))).
Proof. exact reachable_G. Qed.
Print Assumptions C18_expiry_timers_find_their_key.

(* every retransmission / empty-ACK timer of a context that has not been shut down is referenced from
   _active_exchanges or _piggyback_opportunities (so MessageManager.shutdown can cancel it), in every state reachable
   from a fresh context by any events.  Rests on the NSTART bookkeeping invariant WFm of Proofs/C18Inv.v. *)
Theorem C18_timers_always_owned : forall es u m t, forallb not_shutdown es = true ->
  timers_owned (mm (fst (run (init u m t) es))) /\ exists xs, exchanges (mm (fst (run (init u m t) es))) = Some xs.
Proof. exact reachable_owned. Qed.
Print Assumptions C18_timers_always_owned.

(* in every reachable state, a submitted request that has not been settled (no response / failure / cancellation; for an
   observe request: no end of the observation) has its entry in outgoing_requests or is still in [resolving] *)
Theorem C18_unsettled_requests_are_outstanding : forall es u m t,
  NoDup (map fst (reqs_of es)) -> 0 <= t -> t + Z.of_nat (length es) < 2 ^ 64 ->
  TI (tm (fst (run (init u m t) es))) /\ tracked (reqs_of es) (tm (fst (run (init u m t) es))) (concat (snd (run (init u m t) es))).
Proof. exact unsettled_requests_are_outstanding. Qed.
Print Assumptions C18_unsettled_requests_are_outstanding.

(* THE PROPERTY over whole histories, from a fresh context, with no hypothesis on states: for every [before] (any
   events, datagrams included) and every [after] (in-scope events), where the only conditions are on the event lists
   themselves (Shutdown is not called twice, request labels are distinct, start token + number of events < 2^64):
   the Shutdown step cancels every handler and fails every table entry with a library error and returns; every
   request ever submitted (ClientRequest or ClientRequestSlow) is settled by then — or is still inside Context.request's
   remote lookup, where no table knows it (open finding C18:resolving-request-left-hanging; see C18_resolved_after_shutdown_fails ff.);
   afterwards nothing is sent, raised, delivered or started; the remaining timers run out. *)
Theorem C18_shutdown_at_any_moment : forall u m t before after, wf_history t before after ->
  let s := fst (run (init u m t) before) in
  let outs := concat (snd (run (init u m t) before)) in
  let s' := fst (step s Shutdown) in
  let out := snd (step s Shutdown) in
  out = map (fun i => OHCancel (i_h i)) (ilist (tm s)) ++ flat_map shutdown_outcome (olist (tm s)) ++ [OShutdownDone] /\
  forallb lib_outcome out = true /\
  (forall q ob, In (q, ob) (reqs_of before) ->
     (exists o, In o (outs ++ out) /\ settles ob q o = true) \/
     (exists x, In x (resolving (tm s')) /\ rlabel x = q /\ snd x = ob)) /\
  forallb (forallb quiet) (snd (run s' after)) = true /\
  pending (mm (fst (run (fst (run s' after)) (repeat Fire (length (forgets (mm (fst (run s' after))))))))) = [].
Proof. exact shutdown_at_any_moment. Qed.
Print Assumptions C18_shutdown_at_any_moment.
(* SHUTDOWN_TIMEOUT (clause "shutdown itself completes", protocol.py:514-536), over whole histories from a fresh context: with a
   transport whose shutdown() never returns ([CShutdown false] of the layered machine [cstep]), for every [before] without Shutdown
   and every in-scope [after]: at the call every handler is cancelled and every outstanding request / observation fails with a
   library error exactly as with a prompt transport (only the return is missing); afterwards every output is either quiet or
   the return of Context.shutdown, which happens at most once (returns + still-waiting = 1), and Context.shutdown is no longer
   waiting as soon as the clock has reached call time + SHUTDOWN_TIMEOUT. *)
Theorem C18_shutdown_times_out : forall u m t before after,
  forallb not_shutdown before = true -> forallb in_scope after = true ->
  let s := fst (run (init u m t) before) in
  let r1 := cstep {| c_base := s; c_wait := None |} (CShutdown false) in
  let r2 := crun (fst r1) (map CEvent after) in
  snd r1 = map (fun i => OHCancel (i_h i)) (ilist (tm s)) ++ flat_map shutdown_outcome (olist (tm s)) /\
  forallb (forallb quiet_or_done) (snd r2) = true /\
  (count_done (concat (snd r2)) + waiting (fst r2) = 1)%nat /\
  (now (mm s) + SHUTDOWN_TIMEOUT <= now (mm (c_base (fst r2))) -> c_wait (fst r2) = None /\ count_done (concat (snd r2)) = 1%nat).
Proof. exact shutdown_times_out. Qed.
Print Assumptions C18_shutdown_times_out.
Theorem C18_hung_shutdown_settles_requests : forall u m t before after, wf_history t before after ->
  let s := fst (run (init u m t) before) in
  let outs := concat (snd (run (init u m t) before)) in
  let r1 := cstep {| c_base := s; c_wait := None |} (CShutdown false) in
  forallb lib_outcome (snd r1) = true /\
  forall q ob, In (q, ob) (reqs_of before) ->
     (exists o, In o (outs ++ snd r1) /\ settles ob q o = true) \/
     (exists x, In x (resolving (tm (c_base (fst r1)))) /\ rlabel x = q /\ snd x = ob).
Proof. exact hung_shutdown_settles_requests. Qed.
Print Assumptions C18_hung_shutdown_settles_requests.
Example C18_shutdown_times_out_example :
  let c1 := fst (cstep {| c_base := busy_state; c_wait := None |} (CShutdown false)) in
  c_wait c1 = Some (100000 + SHUTDOWN_TIMEOUT) /\
  snd (crun c1 [CEvent (Advance 2999999); CEvent (ClientRequest 7 1 CON false); CEvent (Advance 1); CEvent (Advance 300000000)])
    = [[]; [OFail 7 LibraryShutdown]; [OShutdownDone]; []].
Proof. vm_compute. split; reflexivity. Qed.

(* what the code guarantees for a request whose remote lookup outlives shutdown: it fails with LibraryShutdown at the
   moment the lookup returns *)
Theorem C18_resolved_after_shutdown_fails : forall s q r mt ob, outgoing (tm s) = None ->
  find (fun x => fst (fst (fst x)) =? q) (resolving (tm s)) = Some (q, r, mt, ob) ->
  snd (step s (Resolved q)) = OFail q LibraryShutdown :: (if ob then [OObsEnd q NotObservable] else []) /\
  ~ In q (map rlabel (resolving (tm (fst (step s (Resolved q)))))).
Proof.
  intros s q r mt ob D F. cbn [step]. rewrite F, request_after_shutdown by exact D. split; [reflexivity|apply rlabel_filtered].
Qed.
Print Assumptions C18_resolved_after_shutdown_fails.
(* ... and what it does not: until then the request has no outcome, whatever time passes (refutes the reading "every
   outstanding request terminates within the shutdown time-out"; replayed on the implementation by the corpus) *)
Theorem C18_resolving_request_not_failed_refuted :
  let r := run (init 2000000 0 0) [ClientRequestSlow 1 1 CON false; Shutdown; Advance 300000000] in
  In OShutdownDone (concat (snd r)) /\ (forall o, In o (concat (snd r)) -> settles false 1 o = false) /\
  resolving (tm (fst r)) = [(1, 1, CON, false)] /\
  snd (step (fst r) (Resolved 1)) = [OFail 1 LibraryShutdown].
Proof. vm_compute. split; [auto|]. split; [|auto]. intros o [<-|[]]. reflexivity. Qed.
Print Assumptions C18_resolving_request_not_failed_refuted.

Theorem C18_orphans_check_sound : forall s, orphans s = 0 -> timers_owned s.
Proof. exact orphans_zero. Qed.
Print Assumptions C18_orphans_check_sound.

(* the code before the F13 repair violates silence: a pending empty-ACK timer fires after shutdown returned *)
Theorem C18_f13_refuted :
  let s := fst (run (init 2000000 0 0) f13_history) in
  let s' := fst (shutdown_f13 s) in
  In OShutdownDone (snd (shutdown_f13 s)) /\
  snd (fire s') = [OSend {| m_type := ACK; m_code := EMPTY; m_mid := 100; m_token := 0; m_obs := None; m_remote := 1 |}] /\
  snd (fire (fst (shutdown s))) = [].
Proof. vm_compute. repeat split. right; left; reflexivity. Qed.
Print Assumptions C18_f13_refuted.

(* non-vacuity of C18_shutdown_at_any_moment: a busy history and a continuation satisfy wf_history *)
Example C18_busy_history_wf : wf_history 0 busy_history [Fire; Advance 300000000; ClientRequest 9 1 CON true; HandlerRespond 0 69 true None true; Resolved 9; ClientRequestSlow 10 2 NON false; TransportError 1].
Proof.
  unfold wf_history. repeat split; try reflexivity; try (vm_compute; congruence); try lia.
  cbn. repeat constructor; cbn; intuition congruence.
Qed.

(* non-vacuity: a reachable busy state (4 outstanding requests of which one running observation and two queued behind
   NSTART, 3 running handlers, an exchange awaiting its ACK, a pending empty-ACK timer, a separate response in the
   backlog, 3 deduplication entries) satisfies the hypotheses, and this is what Shutdown does to it *)
Example C18_busy_state_nonvacuous :
  exists xs, exchanges (mm busy_state) = Some xs /\ xs <> [] /\ orphans (mm busy_state) = 0 /\
  length (olist (tm busy_state)) = 4%nat /\ length (ilist (tm busy_state)) = 3%nat /\ length (piggys (mm busy_state)) = 1%nat /\
  length (timers (mm busy_state)) = 2%nat /\ length (forgets (mm busy_state)) = 3%nat /\ backlogs (mm busy_state) <> [] /\
  snd (step busy_state Shutdown) =
    [OHCancel 0; OHCancel 1; OHCancel 2; OObsEnd 1 LibraryShutdown; OFail 2 LibraryShutdown; OFail 3 LibraryShutdown;
     OFail 4 LibraryShutdown; OObsEnd 4 NotObservable; OShutdownDone].
Proof. vm_compute. eexists. repeat split; try reflexivity; discriminate. Qed.
Example C18_busy_state_owned : timers_owned (mm busy_state).
Proof. apply orphans_zero. vm_compute. reflexivity. Qed.
Example C18_down_nonvacuous : Down (fst (step busy_state Shutdown)) /\ G (mm (fst (step busy_state Shutdown))) /\
  forgets (mm (fst (step busy_state Shutdown))) <> [].
Proof.
  destruct C18_busy_state_nonvacuous as (xs & E & _).
  pose proof (shutdown_step busy_state xs E C18_busy_state_owned) as (D & _ & F1 & _).
  split; [exact D|]. split; [apply G_step; apply reachable_G|]. cbn [step]. rewrite F1. vm_compute. discriminate.
Qed.

(* the model's transport constants and message-ID successor are the translated source's
   (Gen/c03_constants.v <- numbers/constants.py TransportTuning, microseconds = seconds * 10^6; Gen/c14_message_id.v <- MessageManager._next_message_id) *)
From Verif Require Gen.c03_constants Gen.c14_message_id.
From Verif Require Proofs.C18Tie.
Theorem C18_exchange_lifetime_is_source :
  QArith_base.Qeq (QArith_base.inject_Z EXCHANGE_LIFETIME) (QArith_base.Qmult (c03_constants.EXCHANGE_LIFETIME c03_constants.default_transport_tuning) (QArith_base.inject_Z 1000000)).
Proof. exact C18Tie.exchange_lifetime_is_source. Qed.
Print Assumptions C18_exchange_lifetime_is_source.
Theorem C18_empty_ack_delay_is_source :
  QArith_base.Qeq (QArith_base.inject_Z EMPTY_ACK_DELAY) (QArith_base.Qmult (c03_constants.tt_EMPTY_ACK_DELAY c03_constants.default_transport_tuning) (QArith_base.inject_Z 1000000)).
Proof. exact C18Tie.empty_ack_delay_is_source. Qed.
Print Assumptions C18_empty_ack_delay_is_source.
Theorem C18_observation_reset_time_is_source :
  OBSERVATION_RESET_TIME = c03_constants.tt_OBSERVATION_RESET_TIME c03_constants.default_transport_tuning * 1000000.
Proof. exact C18Tie.observation_reset_time_is_source. Qed.
Print Assumptions C18_observation_reset_time_is_source.
Theorem C18_max_retransmit_is_source :
  MAX_RETRANSMIT = c03_constants.tt_MAX_RETRANSMIT c03_constants.default_transport_tuning.
Proof. exact C18Tie.max_retransmit_is_source. Qed.
Print Assumptions C18_max_retransmit_is_source.
Theorem C18_next_message_id_is_source :
  forall s, c14_message_id.next_message_id {| c14_message_id.mmids_message_id := message_id s |} = Ok ({| c14_message_id.mmids_message_id := message_id (fst (_next_message_id s)) |}, snd (_next_message_id s)).
Proof. exact C18Tie.next_message_id_is_source. Qed.
Print Assumptions C18_next_message_id_is_source.
