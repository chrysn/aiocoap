(* C14 — NSTART=1: one open confirmable exchange per peer, FIFO backlog, none forgotten.

   Vocabulary (Model/C14.v, Proofs/C14.v): [run (init mid0 token0 rnd) es] executes an arbitrary event list
   (submissions of CON/NON requests and raw responses to any remotes, empty messages and responses from any
   remote, transport errors, timer firings, time advances, cancellations, incoming requests being served and their
   responders' responses) from the initial state with arbitrary
   message-id/token counters and arbitrary random.uniform draws.  [exs r s] = the active exchanges with r,
   [count_r r s] their number, [backlog_of r s] the queue of r, [subm r tr] the confirmable messages handed to
   send_message for r in trace tr, [left r tr] those that left the queue (first transmission [Tx m false] or
   [Dropped m]), [reqs r s] the outstanding requests to r.
   Model/C14refuse.v is the same code for transports that may refuse a datagram synchronously (the error is reported
   from inside message_interface.send()): [rrun (s, l) es] runs events [Ev e] and [Refuse r on/off], l = the remotes
   currently refused; [quiet es] = the transport never starts refusing.  With l = [] it IS Model/C14.v
   (C14_accepting_transport_is_base_model).  The run-level theorems below hold for ARBITRARY refusals (they were
   refuted for the code before /repo commits 11456f9 and 8d04b7c: findings C14-R1 / C14-R2 in notes/C14.md). *)
From Verif Require Import Lib.Py Lib.Tactics Gen.c14_message_id Model.C14 Model.C14refuse Proofs.C14 Proofs.C14step Proofs.C14mid Proofs.C14refuse Proofs.C14drop Proofs.C14live Proofs.C14gen Proofs.C14R6 Proofs.C14R6b.
Import ListNotations.
Open Scope Z_scope.

(* the general model without refusals is Model/C14.v: same final state, same trace *)
Theorem C14_accepting_transport_is_base_model : forall es s, Inv s -> quiet es = true ->
  fst (rrun (s, []) es) = (fst (run s (events_of es)), []) /\
  concat (snd (rrun (s, []) es)) = concat (snd (run s (events_of es))).
Proof. exact rrun_quiet. Qed.
Print Assumptions C14_accepting_transport_is_base_model.
Theorem C14_step_without_refusal : forall s e, Inv s -> step_ev [] s e = step s e.
Proof. exact step_without_refusal. Qed.
Print Assumptions C14_step_without_refusal.

(* at every instant at most one confirmable message per remote awaits its acknowledgement — whatever the
   transport refuses and when *)
Theorem C14_one_exchange_per_remote : forall mid0 token0 rnd es r,
  let s := fst (fst (rrun (init mid0 token0 rnd, []) es)) in
  (count_r r s <= 1)%nat /\ (in_backlogs r s = true <-> count_r r s = 1%nat) /\
  Forall (fun m => m_mtype m = 0 /\ m_remote m = r) (backlog_of r s).
Proof. intros mid0 token0 rnd es r. apply inv_plain, general_inv. Qed.
Print Assumptions C14_one_exchange_per_remote.
Theorem C14_general_inv : forall mid0 token0 rnd es, Inv (fst (fst (rrun (init mid0 token0 rnd, []) es))).
Proof. exact general_inv. Qed.
Print Assumptions C14_general_inv.
Theorem C14_general_step : forall l s e, Inv s ->
  let s' := fst (step_ev l s e) in let o := snd (step_ev l s e) in
  Inv s' /\ (forall r, backlog_of r s ++ subm r o = left r o ++ backlog_of r s') /\ (forall x, ~ In (Crash x) o).
Proof. exact general_step. Qed.
Print Assumptions C14_general_step.

(* the invariant all step theorems below assume holds in every reachable state *)
Theorem C14_reachable_inv : forall mid0 token0 rnd es, Inv (fst (run (init mid0 token0 rnd) es)).
Proof. exact reachable_inv. Qed.
Print Assumptions C14_reachable_inv.
Theorem C14_inv_preserved : forall s e, Inv s -> Inv (fst (step s e)).
Proof. exact (fun s e H => proj1 (step_trans s e H)). Qed.
Print Assumptions C14_inv_preserved.

(* no exception leaves the modelled code: the AssertionError of _continue_backlog / send_message and the KeyErrors of
   _retransmit are unreachable, also with a transport that refuses datagrams from inside send(); and a responder's response
   never raises (before /repo fix 44c4a4c a refused non-last response raised TypeError in Pipe._add_event: finding C14-R3) *)
Theorem C14_no_internal_error : forall mid0 token0 rnd es e,
  ~ In (Crash e) (concat (snd (rrun (init mid0 token0 rnd, []) es))).
Proof. intros mid0 token0 rnd es e. apply nocrash_in, (rrun_trans es _ [] (inv_init mid0 token0 rnd)). Qed.
Print Assumptions C14_no_internal_error.

(* FIFO refinement, none forgotten: for every remote, the confirmable messages submitted, in order, are
   exactly those that left the queue (first transmission, or discarded when the endpoint failed), in order,
   followed by the current backlog.  Equality of lists: each submission is accounted for exactly once. *)
Theorem C14_fifo : forall mid0 token0 rnd es r,
  let s := fst (fst (rrun (init mid0 token0 rnd, []) es)) in let tr := concat (snd (rrun (init mid0 token0 rnd, []) es)) in
  subm r tr = left r tr ++ backlog_of r s.
Proof. intros mid0 token0 rnd es r. apply (rrun_trans es _ [] (inv_init mid0 token0 rnd)). Qed.
Print Assumptions C14_fifo.
(* ... and a message is discarded ([Dropped]: from the queue on give-up / transport error / refusal, or because its own
   first transmission was refused) only in a step after which no request to its remote is outstanding and no responder
   for its remote is alive any more; no step other than a request submission adds an outstanding request, none other than
   process_request a responder.  (Entries leave outgoing_requests only through
   tm_dispatch_error / call_monitor / tm_process_response / Cancel, which emit Fail / Deliver / Cancelled for them by
   definition; that every outstanding request to the remote gets its Fail in that step is C14_dropped_when_failed.) *)
Theorem C14_discarded_only_with_requests_failed : forall l s e, Inv s ->
  (forall m, In (Dropped m) (snd (step_ev l s e)) ->
     reqs (m_remote m) (fst (step_ev l s e)) = [] /\ served_from (m_remote m) (fst (step_ev l s e)) = []) /\
  ((forall q r mt maxre, e <> Request q r mt maxre) -> forall r en, In en (reqs r (fst (step_ev l s e))) -> In en (reqs r s)) /\
  ((forall k r tok mt, e <> Serve k r tok mt) -> forall v, In v (incoming_requests (fst (step_ev l s e))) -> In v (incoming_requests s)).
Proof. intros l s e HI. destruct (step_ev_effect l s e HI) as (A & B & C & _). auto. Qed.
Print Assumptions C14_discarded_only_with_requests_failed.
(* a refusal is, literally, the transport-error step: C14_dropped_when_failed describes what it does *)
Theorem C14_refusal_is_transport_error : forall l what r s, refuses l r = true ->
  send_via_transport l what r s = (fst (step s (TransportError r)), refused_ghost what ++ snd (step s (TransportError r))).
Proof. exact refusal_is_transport_error. Qed.
Print Assumptions C14_refusal_is_transport_error.

(* released as soon as, and only when, the exchange ahead is acknowledged or reset:
   (a) an ACK/RST from r with the message ID of the open exchange puts the head of r's queue on the wire in the
       very same step, opens its exchange (counter 0) and keeps the rest queued; an empty queue entry is removed; *)
Theorem C14_released_when_acked : forall s e r q, Inv s -> acks s e r = true -> aget r (backlogs s) = Some q ->
  let s' := fst (step s e) in let o := snd (step s e) in
  subm r o = [] /\
  match q with
  | m :: rest => In (Tx m false) o /\ left r o = [m] /\ aget r (backlogs s') = Some rest /\
                 exists x', exs r s' = [x'] /\ x_msg x' = m /\ x_counter x' = 0
  | [] => left r o = [] /\ aget r (backlogs s') = None /\ exs r s' = []
  end.
Proof. exact released_when_acked. Qed.
Print Assumptions C14_released_when_acked.

(* (b) a transport error for r, or the final time-out of the exchange with r, discards the whole queue of r without
       transmitting anything, fails every request to r that is still outstanding (in particular those of the
       held-back messages), and leaves neither exchange nor queue nor outstanding request for r; *)
Theorem C14_dropped_when_failed : forall s e r q, Inv s -> fails s e r = true -> aget r (backlogs s) = Some q ->
  let s' := fst (step s e) in let o := snd (step s e) in
  left r o = q /\ subm r o = [] /\ (forall m, In m q -> In (Dropped m) o) /\ (forall m b, ~ In (Tx m b) o) /\
  (forall en, In en (reqs r s) -> exists err, In (Fail (q_of en) err) o) /\
  aget r (backlogs s') = None /\ exs r s' = [] /\ reqs r s' = [] /\
  (forall v, In v (served_from r s) -> In (Ended (v_k v)) o) /\ served_from r s' = [].
Proof. exact dropped_when_failed. Qed.
Print Assumptions C14_dropped_when_failed.
(* held-back messages that are not requests (CON notifications / separate responses, [m_sub m = Resp j k]) have no request
   to fail; what "failed" means for them is that their responder is stopped: every entry of TokenManager.incoming_requests
   for r — [respond] sends to the remote of the responder's own entry, so these are the responders whose messages wait in
   r's queue — loses its pipe in that step ([Ended k]: handler cancelled, entry deleted).  A responder that has already
   produced its last response is not in incoming_requests any more: nothing is left to notify. *)
Theorem C14_dropped_response_stopped : forall s e r q, Inv s -> fails s e r = true -> aget r (backlogs s) = Some q ->
  (forall v, In v (incoming_requests s) -> v_remote v = r -> In (Ended (v_k v)) (snd (step s e))) /\
  served_from r (fst (step s e)) = [].
Proof. intros s e r q HI Hf Ha. destruct (dropped_when_failed s e r q HI Hf Ha) as (_ & _ & _ & _ & _ & _ & _ & _ & A & B).
  split; [|exact B]. intros v Hv Hr. apply A, filter_In. split; [exact Hv|lia]. Qed.
Print Assumptions C14_dropped_response_stopped.

(* (c) any other event — whatever it is and whichever remote it concerns — leaves every queued message queued, in
       order, behind the same outstanding message (new submissions are appended), and puts no confirmable message
       for r on the wire for the first time. *)
Theorem C14_held_otherwise : forall s e r q, Inv s -> aget r (backlogs s) = Some q -> acks s e r = false -> fails s e r = false ->
  let s' := fst (step s e) in let o := snd (step s e) in
  aget r (backlogs s') = Some (q ++ subm r o) /\ left r o = [] /\
  exists x x', exs r s = [x] /\ exs r s' = [x'] /\ x_msg x' = x_msg x.
Proof. intros s e r q HI Ha Hack Hf. destruct (held_otherwise s e r q HI Ha Hack Hf) as (A & B & x & x' & C & D & E & _). eauto 8. Qed.
Print Assumptions C14_held_otherwise.

(* not delayed: a non-confirmable message, and a confirmable one to a remote with nothing outstanding, goes on
   the wire in the step in which it is submitted (no hypothesis on the state at all) ... *)
Theorem C14_not_delayed : forall s e who r mt, submits e = Some (who, r, mt) ->
  (resolve_mtype mt <> 0 \/ in_backlogs r s = false) ->
  exists m, snd (step s e) = [Submitted m; Tx m false] /\ m_sub m = who /\ m_remote m = r /\ m_mtype m = resolve_mtype mt.
Proof. exact not_delayed. Qed.
Print Assumptions C14_not_delayed.

(* ... whereas a confirmable one to a busy remote is appended to its queue and nothing is sent *)
Theorem C14_held_back_when_busy : forall s e who r mt q, Inv s -> submits e = Some (who, r, mt) -> resolve_mtype mt = 0 ->
  aget r (backlogs s) = Some q ->
  exists m, snd (step s e) = [Submitted m] /\ aget r (backlogs (fst (step s e))) = Some (q ++ [m]) /\
    exs r (fst (step s e)) = exs r s /\ m_sub m = who /\ m_remote m = r /\ m_mtype m = 0.
Proof. exact held_back_when_busy. Qed.
Print Assumptions C14_held_back_when_busy.

(* exchanges with different endpoints do not influence each other: an event that is about remote r' (a
   submission to r', a datagram from r', an error for r', the timer of an exchange with r') leaves the exchange
   and the queue of every other remote r exactly as they are and emits nothing that concerns r *)
Theorem C14_other_remotes_untouched : forall s e r, Inv s -> touches s e r = false ->
  exs r (fst (step s e)) = exs r s /\ aget r (backlogs (fst (step s e))) = aget r (backlogs s) /\
  silent r (snd (step s e)) = true.
Proof. exact step_frame. Qed.
Print Assumptions C14_other_remotes_untouched.

(* on the wire: a confirmable message to a remote that has something outstanding is transmitted for the first
   time only in a step in which that outstanding exchange is acknowledged or reset *)
Theorem C14_first_transmission_only_when_idle_or_acked : forall s e r m, Inv s ->
  In (Tx m false) (snd (step s e)) -> con_to r m = true -> in_backlogs r s = true -> acks s e r = true.
Proof. intros s e r m HI. exact (first_tx_needs_ack s e r _ _ m (step_trichotomy s e r HI)). Qed.
Print Assumptions C14_first_transmission_only_when_idle_or_acked.

(* ... and the outstanding requests of every other remote stay exactly as they are (none failed, none forgotten) *)
Theorem C14_requests_to_other_remotes_untouched : forall s e r, Inv s -> touches s e r = false -> (forall q, e <> Cancel q) ->
  reqs r (fst (step s e)) = reqs r s.
Proof. intros s e r HI Ht Hc. destruct (step_effect s e HI) as (_ & _ & _ & U). destruct (U r Ht) as (_ & _ & _ & D). exact (D Hc). Qed.
Print Assumptions C14_requests_to_other_remotes_untouched.

(* eventually, for EVERY schedule (any interleaving of submissions, datagrams, errors, timers on any remotes):
   a message held back at position k of r's queue has left the queue — put on the wire, or discarded with its request
   failed (C14_dropped_when_failed) — as soon as the schedule contains [budget r k s] progress steps of the exchange
   ahead of it: steps in which that exchange is acknowledged/reset, fails, or its retransmission timer fires.
   The measure is the retransmission budget: what is left for the exchange ahead + (1 + MAX_RETRANSMIT) for each
   message queued ahead. *)
Theorem C14_eventually_transmitted_or_failed : forall es s r k m, Inv s -> nth_error (backlog_of r s) k = Some m ->
  (budget r k s <= count_progress s es r)%nat -> In m (left r (concat (snd (run s es)))).
Proof. exact eventually_leaves. Qed.
Print Assumptions C14_eventually_transmitted_or_failed.

(* fairness hypothesis, explicit: in the infinite schedule [sch], from every point on there is a later step at which the
   exchange open with r is acknowledged/reset, fails or has its timer fired, or nothing is outstanding at r ("timers
   keep firing").  Then every held-back message is eventually transmitted or its request failed. *)
Theorem C14_fair_schedule_eventually : forall sch s r k m, Inv s -> nth_error (backlog_of r s) k = Some m ->
  fair sch s r -> exists n, In m (left r (trace_to sch s n)).
Proof. exact fair_eventually_leaves. Qed.
Print Assumptions C14_fair_schedule_eventually.
Theorem C14_timers_only_schedule_is_fair : forall s r, Inv s -> fair (fun _ => Fire) s r.
Proof. exact timers_only_schedule_is_fair. Qed.
Print Assumptions C14_timers_only_schedule_is_fair.

(* the per-step theorems and the liveness bound under refusals.  An event about remote r hands datagrams only
   to r, so as long as r itself is not refused the general step is the base step, whatever else is refused; an event
   about another remote leaves r alone even if that remote is refused.  Hence, for every remote r that is not refused: *)
Theorem C14_general_step_about_accepted_remote : forall l r, refuses l r = false -> forall s e, Inv s -> touches s e r = true ->
  step_ev l s e = step s e.
Proof. exact step_ev_touched. Qed.
Print Assumptions C14_general_step_about_accepted_remote.
Theorem C14_general_other_remotes_untouched : forall l s e r, Inv s -> touches s e r = false ->
  exs r (fst (step_ev l s e)) = exs r s /\ aget r (backlogs (fst (step_ev l s e))) = aget r (backlogs s) /\
  silent r (snd (step_ev l s e)) = true.
Proof. exact step_ev_frame. Qed.
Print Assumptions C14_general_other_remotes_untouched.
Theorem C14_general_released_when_acked : forall l r, refuses l r = false -> forall s e q, Inv s -> acks s e r = true ->
  aget r (backlogs s) = Some q ->
  let s' := fst (step_ev l s e) in let o := snd (step_ev l s e) in
  subm r o = [] /\
  match q with
  | m :: rest => In (Tx m false) o /\ left r o = [m] /\ aget r (backlogs s') = Some rest /\
                 exists x', exs r s' = [x'] /\ x_msg x' = m /\ x_counter x' = 0
  | [] => left r o = [] /\ aget r (backlogs s') = None /\ exs r s' = []
  end.
Proof. intros l r Hacc s e q HI Ha Hq. pose proof (step_ev_trichotomy l r Hacc s e HI q Hq) as T. rewrite Ha in T. exact T. Qed.
Print Assumptions C14_general_released_when_acked.
Theorem C14_general_dropped_when_failed : forall l r, refuses l r = false -> forall s e q, Inv s -> fails s e r = true ->
  aget r (backlogs s) = Some q -> failed_outcome r q s (fst (step_ev l s e)) (snd (step_ev l s e)).
Proof. intros l r Hacc s e q HI Hf Hq. pose proof (step_ev_trichotomy l r Hacc s e HI q Hq) as T. rewrite Hf in T.
  destruct (acks s e r) eqn:Ea; [|exact T]. destruct e; cbn in Ea, Hf; discriminate. Qed.
Print Assumptions C14_general_dropped_when_failed.
Theorem C14_general_held_otherwise : forall l r, refuses l r = false -> forall s e q, Inv s -> aget r (backlogs s) = Some q ->
  acks s e r = false -> fails s e r = false ->
  let s' := fst (step_ev l s e) in let o := snd (step_ev l s e) in
  aget r (backlogs s') = Some (q ++ subm r o) /\ left r o = [] /\
  exists x x', exs r s = [x] /\ exs r s' = [x'] /\ x_msg x' = x_msg x /\
    (if fires_on s e r then x_counter x' = x_counter x + 1 /\ x_counter x < m_maxre (x_msg x) else x' = x).
Proof. exact general_held_otherwise. Qed.
Print Assumptions C14_general_held_otherwise.
(* liveness over [rrun], for every schedule in which r itself is never refused (other remotes may be refused and accepted
   again at will): same budget, same notion of progress ([gcount] counts ACK/RST, failure and timer steps of r's exchange).
   For a refused r see C14_refused_remote_every_event below. *)
Theorem C14_general_eventually : forall es s l r k m, Inv s -> refuses l r = false -> never_refuses r es = true ->
  nth_error (backlog_of r s) k = Some m -> (budget r k s <= gcount (s, l) es r)%nat ->
  In m (left r (concat (snd (rrun (s, l) es)))).
Proof. exact general_eventually_leaves. Qed.
Print Assumptions C14_general_eventually.

(* history-level statements (run level; r is never refused, every other remote may be refused and accepted
   again at will).  [first_con_tx r m o]: the confirmable message m for r is put on the wire for the first time in o. *)
(* the first transmission of a confirmable message opens the exchange for exactly that message *)
Theorem C14_first_tx_opens_exchange : forall l r, refuses l r = false -> forall s e m, Inv s ->
  first_con_tx r m (snd (step_ev l s e)) -> exists x, exs r (fst (step_ev l s e)) = [x] /\ x_msg x = m.
Proof. exact general_first_tx_opens_exchange. Qed.
Print Assumptions C14_first_tx_opens_exchange.
(* at most one confirmable message per remote in flight, as a statement about histories: from ANY reachable state, after a
   step that puts CON m1 for r on the wire, through any run in which no step acknowledges/resets that exchange or fails r
   ([quiet_for]), m1 stays the one in flight, no other CON for r is put on the wire, and a step that then does put another
   one on the wire is an ACK/RST carrying the message ID of m1's exchange *)
Theorem C14_one_confirmable_in_flight_history : forall mid0 token0 rnd es0 es r e1 m1 e2 m2,
  let s := fst (fst (rrun (init mid0 token0 rnd, []) es0)) in let l := snd (fst (rrun (init mid0 token0 rnd, []) es0)) in
  refuses l r = false -> never_refuses r es = true ->
  first_con_tx r m1 (snd (step_ev l s e1)) ->
  let s1 := fst (step_ev l s e1) in
  quiet_for r (s1, l) es = true ->
  let s2 := fst (fst (rrun (s1, l) es)) in let l2 := snd (fst (rrun (s1, l) es)) in
  (forall m, ~ first_con_tx r m (concat (snd (rrun (s1, l) es)))) /\
  (exists x, exs r s2 = [x] /\ x_msg x = m1) /\
  (first_con_tx r m2 (snd (step_ev l2 s2 e2)) -> acks s2 e2 r = true).
Proof. intros mid0 token0 rnd es0 es r e1 m1 e2 m2. cbn zeta. apply one_confirmable_in_flight_history, general_inv. Qed.
Print Assumptions C14_one_confirmable_in_flight_history.
(* ... and, with no hypothesis on what happens in between: two first transmissions of confirmable messages to r are always
   separated by a step that acknowledges/resets the open exchange or fails r (the second one's own step included) *)
Theorem C14_two_first_transmissions_are_separated : forall mid0 token0 rnd es0 es r e1 m1 e2 m2,
  let s := fst (fst (rrun (init mid0 token0 rnd, []) es0)) in let l := snd (fst (rrun (init mid0 token0 rnd, []) es0)) in
  refuses l r = false -> never_refuses r es = true ->
  first_con_tx r m1 (snd (step_ev l s e1)) ->
  let s1 := fst (step_ev l s e1) in
  let s2 := fst (fst (rrun (s1, l) es)) in let l2 := snd (fst (rrun (s1, l) es)) in
  first_con_tx r m2 (snd (step_ev l2 s2 e2)) ->
  quiet_for r (s1, l) (es ++ [Ev e2]) = false.
Proof. intros mid0 token0 rnd es0 es r e1 m1 e2 m2. cbn zeta. apply two_first_transmissions_are_separated, general_inv. Qed.
Print Assumptions C14_two_first_transmissions_are_separated.
(* fairness over infinite schedules of the general model (events and refusals of other remotes), from any reachable state:
   if from every point on a later step acknowledges/resets/fails r's exchange or fires its timer, or nothing is outstanding
   at r, every held-back message has eventually left the queue *)
Theorem C14_general_fair_schedule_eventually : forall mid0 token0 rnd es0 sch r k m,
  let s := fst (fst (rrun (init mid0 token0 rnd, []) es0)) in let l := snd (fst (rrun (init mid0 token0 rnd, []) es0)) in
  refuses l r = false -> never_refused_in r sch -> nth_error (backlog_of r s) k = Some m -> rfair sch (s, l) r ->
  exists n, In m (left r (rtrace_to sch (s, l) n)).
Proof. intros mid0 token0 rnd es0 sch r k m. cbn zeta. apply general_fair_eventually_leaves, general_inv. Qed.
Print Assumptions C14_general_fair_schedule_eventually.
(* none forgotten, from submission on, unconditional: from ANY reachable state, a confirmable message handed to
   send_message for r ([Submitted m]) has left r's queue — on the wire, or discarded with the requests to r failed — once the
   schedule that follows contains [budget] progress steps (ACK/RST, failure, timer of the exchange ahead); the budget is
   the retransmission budget of the exchange ahead plus that of everything queued at submission *)
Theorem C14_submitted_eventually_leaves : forall mid0 token0 rnd es0 es e r m,
  let s := fst (fst (rrun (init mid0 token0 rnd, []) es0)) in let l := snd (fst (rrun (init mid0 token0 rnd, []) es0)) in
  refuses l r = false -> never_refuses r es = true ->
  In (Submitted m) (snd (step_ev l s e)) -> con_to r m = true ->
  let s1 := fst (step_ev l s e) in
  (budget r (length (backlog_of r s1)) s1 <= gcount (s1, l) es r)%nat ->
  In m (left r (snd (step_ev l s e) ++ concat (snd (rrun (s1, l) es)))).
Proof. intros mid0 token0 rnd es0 es e r m. cbn zeta. apply submitted_eventually_leaves, general_inv. Qed.
Print Assumptions C14_submitted_eventually_leaves.

(* the remote itself refused, one event kind: when the exchange of a refused remote is ended by an
   empty ACK / RST, the release of the head is refused and the whole queue is discarded in that very step — nothing is
   transmitted, nothing raises (before /repo fix 8d04b7c this was the KeyError of finding C14-R2).  Every
   event kind: C14_refused_remote_every_event below. *)
Theorem C14_refused_release_discards_queue_partial : forall l r, refuses l r = true -> forall s mt mid q x, Inv s ->
  (mt = 2 \/ mt = 3) -> xget r mid (active_exchanges s) = Some x -> aget r (backlogs s) = Some q ->
  let s' := fst (step_ev l s (RecvEmpty r mt mid)) in let o := snd (step_ev l s (RecvEmpty r mt mid)) in
  Inv s' /\ aget r (backlogs s') = None /\ exs r s' = [] /\ (forall m, In m q -> In m (left r o)) /\
  (forall m b, ~ In (Tx m b) o) /\ subm r o = [].
Proof. exact refused_release_step. Qed.
Print Assumptions C14_refused_release_discards_queue_partial.

(* the special case of silent peers, with the explicit bound [measure s] on the number of firings *)
Theorem C14_quiesces_when_peers_silent : forall s, Inv s ->
  let s' := fst (run s (repeat Fire (measure s))) in let tr := concat (snd (run s (repeat Fire (measure s)))) in
  active_exchanges s' = [] /\ backlogs s' = [] /\ forall r, left r tr = backlog_of r s.
Proof. exact quiesces_when_peers_silent. Qed.
Print Assumptions C14_quiesces_when_peers_silent.

(* tie T: the model's message-ID counter is the code of MessageManager._next_message_id as translated from the
   source on this run (Gen/c14_message_id.v), and 65536 consecutive IDs are pairwise distinct — a queued message
   never shares its (remote, mid) key with the exchange ahead of it *)
Theorem C14_next_message_id_is_source : forall s,
  Gen.c14_message_id.next_message_id {| mmids_message_id := message_id s |} =
  Ok ({| mmids_message_id := message_id (snd (Model.C14.next_message_id s)) |}, fst (Model.C14.next_message_id s)).
Proof. exact next_message_id_is_source. Qed.
Print Assumptions C14_next_message_id_is_source.
Theorem C14_ids_distinct_within_65536 : forall m j k, 0 <= m < 65536 -> Z.of_nat j < Z.of_nat k < Z.of_nat j + 65536 ->
  nth_id j m <> nth_id k m.
Proof. exact ids_distinct_within_65536. Qed.
Print Assumptions C14_ids_distinct_within_65536.

(* non-vacuity: a reachable state with a queue of two behind an open exchange, on which the hypotheses of the
   step theorems hold for concrete events *)
Definition busy := fst (run (init 65535 7 [2500000]) [Request 1 0 0 0; Request 2 0 4 0; RawSend 3 0 8 99 1; Request 4 1 6 4; Request 5 0 1 0]).
Example C14_busy_is_nontrivial :
  Inv busy /\ map m_sub (backlog_of 0 busy) = [Req 2; Raw 3] /\ map (fun x => m_mid (x_msg x)) (exs 0 busy) = [65535] /\
  acks busy (RecvEmpty 0 2 65535) 0 = true /\ acks busy (RecvResp 0 3 65535 8) 0 = true /\ acks busy (RecvEmpty 1 2 65535) 0 = false /\
  acks busy (RecvEmpty 0 2 0) 0 = false /\ fails busy (TransportError 0) 0 = true /\ fails busy Fire 1 = false /\
  touches busy Fire 0 = false /\ touches busy (TransportError 1) 0 = false /\ measure busy = 6%nat /\
  nth_error (backlog_of 0 busy) 1 = Some {| m_sub := Raw 3; m_remote := 0; m_mtype := 0; m_code := 69; m_mid := 1; m_tok := 99; m_maxre := 1 |} /\
  budget 0 1 busy = 2%nat /\ count_progress busy [RecvEmpty 0 2 65535; Request 6 0 0 0; Fire; Fire] 0 = 2%nat.
Proof. split; [apply reachable_inv|]. vm_compute. repeat split. Qed.
Example C14_scenario :
  let tr := concat (snd (run busy [RecvEmpty 0 3 65535; Fire; Fire; RecvEmpty 0 2 0; Fire])) in
  map m_sub (left 0 tr) = [Req 2; Raw 3] /\
  tr = [Fail 1 MessageError;
        Tx {| m_sub := Req 2; m_remote := 0; m_mtype := 0; m_code := 1; m_mid := 0; m_tok := 9; m_maxre := 0 |} false;
        Fired 1 2; Tx {| m_sub := Req 4; m_remote := 1; m_mtype := 0; m_code := 1; m_mid := 2; m_tok := 10; m_maxre := 4 |} true;
        Fired 0 0; Dropped {| m_sub := Raw 3; m_remote := 0; m_mtype := 0; m_code := 69; m_mid := 1; m_tok := 99; m_maxre := 1 |};
        Fail 2 ConRetransmitsExceeded; Fail 5 ConRetransmitsExceeded;
        Fired 1 2; Tx {| m_sub := Req 4; m_remote := 1; m_mtype := 0; m_code := 1; m_mid := 2; m_tok := 10; m_maxre := 4 |} true].
Proof. vm_compute. split; reflexivity. Qed.

Example C14_history_nontrivial :
  let m1 := {| m_sub := Req 1; m_remote := 0; m_mtype := 0; m_code := 1; m_mid := 0; m_tok := 1; m_maxre := 1 |} in
  let es := [Ev (Request 2 0 0 1); Refuse 1 true; Ev (Request 3 1 0 0); Ev Fire; Ev (RecvEmpty 0 2 5)] in
  let s1 := fst (step_ev [] (init 0 0 []) (Request 1 0 0 1)) in
  first_con_tx 0 m1 (snd (step_ev [] (init 0 0 []) (Request 1 0 0 1))) /\ quiet_for 0 (s1, []) es = true /\
  never_refuses 0 es = true /\ map m_sub (backlog_of 0 (fst (fst (rrun (s1, []) es)))) = [Req 2] /\
  acks (fst (fst (rrun (s1, []) es))) (RecvEmpty 0 2 0) 0 = true /\
  gcount (s1, []) (es ++ [Ev (RecvEmpty 0 2 0); Ev Fire; Ev Fire]) 0 = 4%nat.
Proof. split; [split; [cbn; auto|reflexivity]|]. vm_compute. repeat split. Qed.

(* the remote r ITSELF is refused by the transport (whatever else is refused).  Vocabulary (Proofs/C14R7.v), for the step
   s --e--> (s', o): [wsil r o]: no datagram for r is handed successfully to the transport; [Discarded]: exchange and queue
   entry gone, the whole queue and what was submitted in this step left the accounting ([Dropped], not on the wire); [Kept]:
   same exchange, nothing left the queue, confirmable submissions appended; [attempts s e r]: e hands a datagram for r to the
   transport (a NON, a CON that is not held back, the empty ACK/RST answering a CON from r, a retransmission) or ends r's
   exchange (matching ACK/RST, transport error, final time-out). *)
From Verif Require Import Proofs.C14R7.
Theorem C14_refused_remote_every_event : forall l r, refuses l r = true -> forall s e, Inv s ->
  let s' := fst (step_ev l s e) in let o := snd (step_ev l s e) in
  Inv s' /\ (forall x, ~ In (Crash x) o) /\ wsil r o /\ (Discarded l r s e \/ Kept l r s e).
Proof. exact refused_remote_step. Qed.
Print Assumptions C14_refused_remote_every_event.
Theorem C14_refused_remote_discarded_iff_attempt : forall l r, refuses l r = true -> forall s e, Inv s ->
  if attempts s e r then Discarded l r s e else Kept l r s e.
Proof. exact refused_remote_step_which. Qed.
Print Assumptions C14_refused_remote_discarded_iff_attempt.
(* liveness for a refused remote: ONE progress step (ACK/RST of the open exchange, failure, its timer firing) and every
   held-back message has left the queue *)
Theorem C14_refused_progress_discards : forall l r s e, refuses l r = true -> Inv s -> progress s e r = true ->
  Discarded l r s e /\ forall m, In m (backlog_of r s) -> In m (left r (snd (step_ev l s e))).
Proof. exact refused_progress_discards. Qed.
Print Assumptions C14_refused_progress_discards.
(* all of it from any reachable state of the general model: no hypothesis but "r is refused now" *)
Theorem C14_refused_remote_reachable : forall mid0 token0 rnd es r e,
  let s := fst (fst (rrun (init mid0 token0 rnd, []) es)) in let l := snd (fst (rrun (init mid0 token0 rnd, []) es)) in
  refuses l r = true ->
  let s' := fst (step_ev l s e) in let o := snd (step_ev l s e) in
  Inv s' /\ (forall x, ~ In (Crash x) o) /\ wsil r o /\ (if attempts s e r then Discarded l r s e else Kept l r s e) /\
  (progress s e r = true -> forall m, In m (backlog_of r s) -> In m (left r o)).
Proof. intros mid0 token0 rnd es r e. cbn zeta. intros Href. pose proof (general_inv mid0 token0 rnd es) as HI.
  destruct (refused_remote_step _ r Href _ e HI) as (A & B & C & _). split; [exact A|]. split; [exact B|]. split; [exact C|].
  split; [apply refused_remote_step_which; assumption|]. intros Hp. apply (refused_progress_discards _ r _ e Href HI Hp). Qed.
Print Assumptions C14_refused_remote_reachable.
(* non-vacuity ([attempts] takes both values); more cases in [refused_remote_step_nontrivial], Proofs/C14R7.v *)
Example C14_refused_remote_nontrivial : Inv s_busy /\ refuses [0] 0 = true /\ map m_sub (backlog_of 0 s_busy) = [Req 2] /\
  attempts s_busy Fire 0 = true /\ attempts s_busy (Request 3 0 0 4) 0 = false /\ progress s_busy Fire 0 = true.
Proof. split; [apply general_inv|]. vm_compute. repeat split. Qed.
