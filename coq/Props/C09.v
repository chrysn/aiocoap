(* C09 — every request that reaches a server context gets exactly one final response reflecting the handler outcome.
   The statements; each proof is a lemma of Proofs/C09*.v or a few lines from one.
   Standing hypothesis, carried by the types: a response Message has a [bytes] payload (it serialises). A [str] payload is
   the open finding C09:unencodable-response (known_findings.d/C09.json), exercised by an oracle-only stream of the check. *)
From Coq Require Import String Ascii.
From Verif Require Import Lib.Py Lib.Tactics Model.C09 Model.C09Stack Proofs.C09 Proofs.C09Stack Proofs.C09Wire Proofs.C09R6.
Open Scope Z_scope.

(* ================================================================ 1. the decision table of final responses *)
(* a context without a site answers 4.04 *)
Theorem C09_no_site_404 : forall r, final_message None r = Some (mk_msg NOT_FOUND (ascii_bytes "not a server")).
Proof. reflexivity. Qed.
Print Assumptions C09_no_site_404.
(* unknown paths give 4.04 *)
Theorem C09_unknown_path_404 : forall s r, find_resource s (r_path r) = None ->
  final_message (Some s) r = Some (mk_msg NOT_FOUND []).
Proof. intros s r H. rewrite final_message_by_resource, H. reflexivity. Qed.
Print Assumptions C09_unknown_path_404.
(* unimplemented methods give 4.05 *)
Theorem C09_no_method_405 : forall s r methods, find_resource s (r_path r) = Some (Plain methods) ->
  existsb (Z.eqb (r_code r)) methods = false ->
  final_message (Some s) r = Some (mk_msg METHOD_NOT_ALLOWED
     (if is_request (r_code r) then ascii_bytes "Error: Method not allowed!" else ascii_bytes "Error: Method not recognized!")).
Proof.
  intros s r methods H1 H2. rewrite final_message_by_resource, H1. unfold plain_final, render. rewrite H2.
  destruct (is_request (r_code r)); reflexivity.
Qed.
Print Assumptions C09_no_method_405.
(* a returned message is sent with the default success code for the method filled in if it had none
   (2.05 for GET/FETCH, 2.02 for DELETE, 2.04 otherwise), payload and options untouched *)
Theorem C09_returned_message : forall s r methods m, handled s r methods -> r_outcome r = Return (VMsg m) ->
  is_response (final_code r m) = true ->
  final_message (Some s) r = Some (fill_defaults r m).
Proof. intros s r methods m H Ho Hc. rewrite (handled_table _ _ _ H), Ho, Hc. reflexivity. Qed.
Print Assumptions C09_returned_message.
(* the hypothesis is void when the handler set no code: every default code is a response code *)
Theorem C09_default_code_is_response : forall c, is_response (default_code c) = true.
Proof. exact default_code_is_response. Qed.
Print Assumptions C09_default_code_is_response.
(* ... and a returned message whose code is not a response code (EMPTY, a request code, 6.xx / 7.xx) is treated like any
   other wrong return value: bare 5.00 (Resource.render raises ValueError for it, a9de195, so the message layer never gets
   to send it as a message of our own) *)
Theorem C09_returned_non_response_code : forall s r methods m, handled s r methods -> r_outcome r = Return (VMsg m) ->
  is_response (final_code r m) = false ->
  final_message (Some s) r = Some bare_500.
Proof. intros s r methods m H Ho Hc. rewrite (handled_table _ _ _ H), Ho, Hc. reflexivity. Qed.
Print Assumptions C09_returned_non_response_code.
Theorem C09_fill_defaults_spec : forall r m,
  m_code (fill_defaults r m) = Some (match m_code m with Some c => c | None => default_code (r_code r) end) /\
  m_payload (fill_defaults r m) = m_payload m /\ m_cf (fill_defaults r m) = m_cf m /\
  m_nr (fill_defaults r m) = match m_nr m with Some n => Some n | None => r_nr r end /\ m_obs (fill_defaults r m) = m_obs m.
Proof. intros; repeat split. Qed.
Print Assumptions C09_fill_defaults_spec.
Theorem C09_default_code_table : forall c,
  default_code c = (if (c =? 1) || (c =? 5) then 69 else if c =? 4 then 66 else 68).
Proof. reflexivity. Qed.
Print Assumptions C09_default_code_table.
(* a raised renderable error is sent with its own code and diagnostic payload *)
Theorem C09_renderable_error : forall s r methods c t, handled s r methods -> r_outcome r = Raise_ (cre c t) ->
  c <> E_NoRequestInterface ->
  final_message (Some s) r =
    Some (match t with
          | CDefault => mk_msg (cre_code c) (cre_default_text c)
          | CText b => mk_msg (cre_code c) b
          | CNotStr => bare_500
          end).
Proof.
  intros s r methods c t H Ho Hc. rewrite (handled_table _ _ _ H), Ho. unfold final_of_exc, cre.
  rewrite (cre_to_message_own c t Hc). destruct t; reflexivity.
Qed.
Print Assumptions C09_renderable_error.
(* ... NoRequestInterface(RuntimeError, ...) included: its constructor argument never reaches the message, the class text is sent *)
Theorem C09_renderable_error_no_request_interface : forall s r methods t, handled s r methods ->
  r_outcome r = Raise_ (cre E_NoRequestInterface t) ->
  final_message (Some s) r = Some (mk_msg 165 (cre_default_text E_NoRequestInterface)).
Proof. intros s r methods t H Ho. rewrite (handled_table _ _ _ H), Ho. destruct t; reflexivity. Qed.
Print Assumptions C09_renderable_error_no_request_interface.
Theorem C09_custom_renderable : forall s r methods m, handled s r methods ->
  r_outcome r = Raise_ (ERenderable (TMReturn (VMsg m))) -> final_message (Some s) r = Some m.
Proof. intros s r methods m H Ho. rewrite (handled_table _ _ _ H), Ho. reflexivity. Qed.
Print Assumptions C09_custom_renderable.
(* any other exception, a non-message return value, an error renderer that raises or returns anything but a Message: a bare 5.00
   (empty payload — nothing of the exception or the value can appear in it) *)
Theorem C09_bare_500 : forall s r methods, handled s r methods -> yields_bare_500 (r_outcome r) ->
  final_message (Some s) r = Some bare_500.
Proof.
  intros s r methods H Ho. rewrite (handled_table _ _ _ H).
  destruct Ho as [Ho|[Ho|[Ho|[Ho|[Ho|[Ho|Ho]]]]]]; rewrite Ho; reflexivity.
Qed.
Print Assumptions C09_bare_500.
(* ---- Observe=0 to an observable resource (interfaces.ObservableResource._render_to_pipe):
   add_observation raising -> that exception rendered as usual; otherwise (observation accepted, deregistered early or
   declined) -> the plain table, unless the observation gets established (accepted and successful first response: then the
   first response is NOT final, C08 takes over).  (The finally block runs the cancellation callback only for accepted
   observations, 195eca8, so declining does not replace the handler's exception.) *)
Theorem C09_plain_final_message : forall s r methods, plain_methods s r = Some methods ->
  final_message (Some s) r = plain_final methods r.
Proof. exact plain_final_message. Qed.
Print Assumptions C09_plain_final_message.
Theorem C09_observable_final_message : forall s r methods mode,
  find_resource s (r_path r) = Some (Observable methods mode) -> observing r = true ->
  final_message (Some s) r =
    match mode with
    | ORaise e => final_of_exc e
    | _ => if establishes methods mode r then None else plain_final methods r
    end.
Proof. intros s r methods mode Hf Ho. rewrite final_message_by_resource, Hf, Ho. reflexivity. Qed.
Print Assumptions C09_observable_final_message.
(* a declined observation is answered exactly like a plain request — a raised renderable error with its own code and text *)
Theorem C09_declined_observation_plain : forall s r methods,
  find_resource s (r_path r) = Some (Observable methods ODecline) -> observing r = true ->
  final_message (Some s) r = plain_final methods r.
Proof. intros s r methods. exact (C09_observable_final_message s r methods ODecline). Qed.
Print Assumptions C09_declined_observation_plain.
Theorem C09_observable_established : forall s r methods mode,
  find_resource s (r_path r) = Some (Observable methods mode) -> observing r = true -> establishes methods mode r = true ->
  exists m, render methods r = Responded m /\ is_successful (code_of_msg m) = true /\ mode = OAccept /\
            run_ractions live (respond (Some s) r) = (live, [Send (set_obs m (Some 0)) false], 0).
Proof. exact observable_established. Qed.
Print Assumptions C09_observable_established.
Definition obs_site (mode : obs_mode) : site := [([1], Observable [GET; FETCH] mode)].
Definition obs_request (o : outcome) : request :=
  {| r_id := 0; r_remote := 0; r_token := [1]; r_mid := 7; r_con := true; r_code := GET; r_path := [1]; r_nr := None;
     r_obs := Some 0; r_slow := false; r_outcome := o |}.
Example C09_declined_observation_example :
  let r := obs_request (Raise_ (cre E_BadRequest (CText [100]))) in
  final_message (Some (obs_site OAccept)) r = Some (mk_msg 128 [100]) /\     (* accepted: the error's own code and text *)
  final_message (Some (obs_site ODecline)) r = Some (mk_msg 128 [100]) /\    (* declined: the same (was a bare 5.00 before 195eca8) *)
  finalising (Some (obs_site ODecline)) r.
Proof. cbv zeta. split; [reflexivity|]. split; [reflexivity|]. cbn. reflexivity. Qed.

(* the table is total for every finalising rendering: not a resource with its own render_to_pipe, not an observation being established *)
Theorem C09_final_message_total : forall srv r, finalising srv r -> exists m, final_message srv r = Some m.
Proof. intros srv r H. destruct (coroutine_final_once srv r H) as (m & _ & _ & Hm & _). exists m. exact Hm. Qed.
Print Assumptions C09_final_message_total.

(* ================================================================ 2. the once-only final event of the request's pipes *)
(* for every interleaving of what the rendering coroutine does (add_response with final / non-final / non-message
   values, raise, return) and stop() of the token manager, starting from the pipes as process_request/render_to_pipe set them up *)
Theorem C09_pipe_at_most_one_final : forall l, (count_final (snd (prun live l)) <= 1)%nat.
Proof. intros l. apply once_count, prun_live. Qed.
Print Assumptions C09_pipe_at_most_one_final.
Theorem C09_pipe_nothing_after_final : forall l pre m post, snd (prun live l) = pre ++ Send m true :: post ->
  forall x, In x post -> is_send x = false.
Proof. intros l pre m post E. apply (once_after_final pre m post). rewrite <- E. apply prun_live. Qed.
Print Assumptions C09_pipe_nothing_after_final.
Theorem C09_pipe_two_states : forall l, fst (prun live l) = live \/ fst (prun live l) = ended.
Proof. intros l. apply prun_live. Qed.
Print Assumptions C09_pipe_two_states.
(* the model never leaves its domain (tombstone delivered to error_to_message.on_event, foreign callbacks) *)
Theorem C09_pipe_model_closed : forall l, ~ In (Log LogUnmodelled) (snd (prun live l)).
Proof. intros l. apply once_closed, prun_live. Qed.
Print Assumptions C09_pipe_model_closed.
(* a finalising rendering puts exactly its final message on the pipes, once, and ends them *)
Theorem C09_coroutine_final_once : forall srv r, finalising srv r ->
  exists m acts n, final_message srv r = Some m /\
                   run_ractions live (respond srv r) = (ended, acts, n) /\ filter is_send acts = [Send m true].
Proof. exact coroutine_final_once. Qed.
Print Assumptions C09_coroutine_final_once.

(* ================================================================ 3. the server stack: exactly one, and isolation *)
(* in every run (any arrivals incl. token reuse, any order of handler completions, failures, time steps, ACKs),
   from every well-formed state, no request is ever given two final responses *)
Theorem C09_at_most_one_final : forall srv evs s id, Inv s -> fresh s evs ->
  (length (finals_for id (run_sends srv s evs)) <= 1)%nat.
Proof. exact at_most_one_final. Qed.
Print Assumptions C09_at_most_one_final.
(* a request whose handler gets to finish receives exactly its final message (section 1), whatever happens in between
   (other requests with other tokens arriving, finishing, failing; time; ACKs) and nothing afterwards *)
Theorem C09_exactly_one_final : forall srv s r mid m post,
  Inv s -> fresh s (Req r :: mid ++ Done (r_id r) :: post) ->
  finalising srv r -> final_message srv r = Some m ->
  Forall (fun ev => match ev with
                    | Req r' => key_eqb (key_of r') (key_of r) = false
                    | Done j => j <> r_id r
                    | _ => True end) mid ->
  finals_for (r_id r) (run_sends srv s (Req r :: mid ++ Done (r_id r) :: post)) = [m].
Proof. exact exactly_one_final. Qed.
Print Assumptions C09_exactly_one_final.
(* isolation, content: the response handed to the message layer when a handler finishes is a function of that request
   and the site alone — independent of everything else in the state *)
Theorem C09_done_sends_own : forall srv s id e, Inv s -> find_by_id id (s_incoming s) = Some e -> e_finished e = false ->
  finalising srv (e_req e) ->
  step_sends srv s (Done id) = match final_message srv (e_req e) with Some m => [(id, m, true)] | None => [] end.
Proof.
  intros srv s id e HI Ef Efin Hn. destruct (find_by_id_some _ _ _ Ef) as (_ & <-).
  apply (turn_sends_own srv s (Done (eid e)) e HI); [cbn [turn]; rewrite Ef, Efin; reflexivity|exact Hn].
Qed.
Print Assumptions C09_done_sends_own.
(* isolation, frame: an event about other requests leaves a rendering in flight untouched and sends nothing for it *)
Theorem C09_step_frame : forall srv s ev id e, Inv s -> find_by_id id (s_incoming s) = Some e -> unrelated s id e ev ->
  find_by_id id (s_incoming (fst (step srv s ev))) = Some e /\ finals_for id (step_sends srv s ev) = [].
Proof. exact step_frame. Qed.
Print Assumptions C09_step_frame.
(* from the message layer to the wire: a final response is piggy-backed on the pending ACK, or sent NON/CON with a
   fresh message id, or waits in the per-remote backlog; No-Response suppression leaves at most the empty ACK *)
Theorem C09_send_message_cases : forall s r m, is_response (code_of m) = true ->
  let '(s', out) := send_message s r m in
  match lookup_piggy (key_of r) (s_piggy s) with
  | Some (mid, _) =>
      lookup_piggy (key_of r) (s_piggy s') = None /\
      out = [if suppressed m then empty_ack (r_remote r) mid else mk_wire r T_ACK mid m]
  | None =>
      if suppressed m then s' = s /\ out = []
      else let w := mk_wire r (if r_con r then T_CON else T_NON) (s_mid s) m in
           (out = [w] \/ (out = [] /\ r_con r = true /\ has_backlog s (r_remote r) = true /\
                          find_backlog (r_remote r) (s_backlog s') = option_map (fun b => b ++ [w]) (find_backlog (r_remote r) (s_backlog s))))
  end.
Proof. exact send_message_cases. Qed.
Print Assumptions C09_send_message_cases.
(* a response to a NON request, and any response while the request's ACK is still pending, is on the wire in the very step
   in which it is handed over: exactly one datagram answering the request (unless No-Response applies) *)
Theorem C09_response_on_wire_at_once : forall s r m, is_response (code_of m) = true -> suppressed m = false ->
  r_con r = false \/ lookup_piggy (key_of r) (s_piggy s) <> None ->
  exists t mid, snd (send_message s r m) = [mk_wire r t mid m] /\ is_answer (r_id r) (mk_wire r t mid m) = true.
Proof. exact response_on_wire_at_once. Qed.
Print Assumptions C09_response_on_wire_at_once.
(* the message layer itself skips its whole response branch for a message whose code is not a response code
   (messagemanager.py `if message.code.is_response():`): such a message would go out as a CON/NON of our own.  Resource.render
   never lets one through (a9de195); resources with their own render_to_pipe and to_message() renderers are assumed to
   produce response codes (plugin assumption) *)
Theorem C09_send_message_non_response : forall s r m, is_response (code_of m) = false -> send_message s r m = send_plain s r m.
Proof. exact send_message_non_response. Qed.
Print Assumptions C09_send_message_non_response.
Example C09_non_response_code_example :
  let r := {| r_id := 0; r_remote := 0; r_token := [7]; r_mid := 7; r_con := true; r_code := GET; r_path := [1]; r_nr := None; r_obs := None;
              r_slow := false; r_outcome := Return (VMsg (mk_msg GET [120])) |} in
  let srv := Some [([1], Plain [GET])] in
  finalising srv r /\ final_message srv r = Some bare_500 /\
  map (fun o => map (fun w => (w_type w, w_mid w, w_code w, w_token w, w_payload w)) (fst (fst o))) (fst (run_script srv 100 [Req r; Tick 100000]))
  = [[(T_ACK, 7, 160, [7], [])]; []].
Proof. cbv zeta. split; [exact I|]. split; vm_compute; reflexivity. Qed.

(* ---- the datagrams of whole runs (the real [run], from the initial state) ---- *)
(* In every run — any arrivals incl. token reuse, any completions, failures, time steps, ACKs — the non-empty datagrams that
   answer a finalising request r are at most one, go to r's remote with r's token, and carry the code, payload and options
   of r's own final message (section 1).  "At least one" is C09_exactly_one_final (handed to the message layer) followed by
   C09_response_on_wire_at_once (NON / still piggy-backable) or by the client's ACKs releasing the NSTART backlog (CON: C14). *)
Theorem C09_wire_at_most_one_with_token : forall srv mid0 evs r m,
  NoDup (req_ids evs) -> In (Req r) evs -> finalising srv r -> final_message srv r = Some m ->
  let ws := answers (r_id r) (wires (snd (run srv (init_state mid0) evs))) in
  (length ws <= 1)%nat /\ forall w, In w ws -> carries r m w.
Proof. exact wire_at_most_one. Qed.
Print Assumptions C09_wire_at_most_one_with_token.
(* EXACTLY one on the wire, over whole runs from the initial state: a NON request — or a CON request whose handler answers at
   once, i.e. while its ACK is still pending — that arrives and whose handler gets to finish (no reuse of its token, no second
   completion in between: [mid_ok]) is answered by exactly one non-empty datagram, with its token, to its remote, carrying its
   own final message, unless No-Response applies.  (Separate CON responses additionally need the client's ACKs: C14.) *)
Theorem C09_wire_exactly_one : forall srv mid0 pre r mid post m,
  NoDup (req_ids (pre ++ Req r :: mid ++ Done (r_id r) :: post)) ->
  finalising srv r -> final_message srv r = Some m ->
  r_con r = false \/ r_slow r && reaches_handler srv r = false ->
  is_response (code_of m) = true -> suppressed (tm_fill r m) = false ->
  Forall (mid_ok (r_id r) r) mid ->
  exists w, answers (r_id r) (wires (snd (run srv (init_state mid0) (pre ++ Req r :: mid ++ Done (r_id r) :: post)))) = [w] /\ carries r m w.
Proof. exact wire_exactly_one. Qed.
Print Assumptions C09_wire_exactly_one.
(* its side conditions are derivable: final messages of plain renderings have response codes (given that custom error
   renderers hand over response codes; the library's own classes do), and nothing is suppressed without a No-Response option *)
Theorem C09_final_message_is_response : forall s r methods m, handled s r methods -> final_message (Some s) r = Some m ->
  (forall m', r_outcome r = Raise_ (ERenderable (TMReturn (VMsg m'))) -> is_response (code_of m') = true) ->
  is_response (code_of m) = true.
Proof. exact final_message_is_response. Qed.
Print Assumptions C09_final_message_is_response.
Theorem C09_cre_code_is_response : forall c, is_response (cre_code c) = true.
Proof. exact cre_code_is_response. Qed.
Print Assumptions C09_cre_code_is_response.
Theorem C09_not_suppressed_without_option : forall r m, m_nr m = None -> r_nr r = None -> suppressed (tm_fill r m) = false.
Proof. exact not_suppressed_without_option. Qed.
Print Assumptions C09_not_suppressed_without_option.
(* the model's silent branch for `AssertionError: backlogs/active_exchange relation violated` in _continue_backlog is
   unreachable: in every state of every run, an ACK that matches an active exchange finds the remote's backlog entry *)
Theorem C09_backlog_assertion_unreachable : forall srv mid0 evs remote a, NoDup (req_ids evs) ->
  let s := fst (run srv (init_state mid0) evs) in
  remove_first_active remote (s_active s) = Some a -> find_backlog remote (s_backlog s) <> None.
Proof. exact backlog_assertion_unreachable. Qed.
Print Assumptions C09_backlog_assertion_unreachable.
(* isolation on the wire: two arbitrary runs that both contain request r answer it with the same code, token, payload,
   options and destination — nothing the neighbours do (their outcomes, failures, the shared NSTART backlog, message ids,
   pending ACKs) shows in the content of r's answer; only whether a CON answer has left the backlog depends on the ACKs *)
Theorem C09_answers_depend_on_own_request : forall srv mid0 mid0' evs evs' r m,
  NoDup (req_ids evs) -> NoDup (req_ids evs') -> In (Req r) evs -> In (Req r) evs' -> finalising srv r -> final_message srv r = Some m ->
  forall w w', In w (answers (r_id r) (wires (snd (run srv (init_state mid0) evs)))) ->
               In w' (answers (r_id r) (wires (snd (run srv (init_state mid0') evs')))) ->
  (w_remote w, w_token w, w_code w, w_payload w, w_cf w, w_obs w) = (w_remote w', w_token w', w_code w', w_payload w', w_cf w', w_obs w').
Proof. exact answers_depend_on_own_request. Qed.
Print Assumptions C09_answers_depend_on_own_request.
(* the exception to "every request is answered" besides No-Response: a request in flight whose (remote, token) is used
   again by a new request is cancelled and never gets a final response (the client gave the token a new meaning) *)
Theorem C09_overridden_gets_none : forall srv s e r' post, Inv s -> fresh s (Req r' :: post) ->
  find_by_key (key_of r') (s_incoming s) = Some e ->
  finals_for (eid e) (run_sends srv s (Req r' :: post)) = [].
Proof. exact overridden_gets_none. Qed.
Print Assumptions C09_overridden_gets_none.
(* every response — from a handler, an error renderer, or built from an exception — reaches the message layer with the
   request's No-Response option filled in if it had none, so suppression applies to all of them alike *)
Theorem C09_no_response_filled_in : forall s r m last,
  perform s r [Send m last] = let '(s', w) := send_message s r (tm_fill r m) in (s', w ++ [], []).
Proof. exact perform_send. Qed.
Print Assumptions C09_no_response_filled_in.
Theorem C09_tm_fill_spec : forall r m,
  m_code (tm_fill r m) = m_code m /\ m_payload (tm_fill r m) = m_payload m /\ m_cf (tm_fill r m) = m_cf m /\
  m_nr (tm_fill r m) = match m_nr m with Some n => Some n | None => r_nr r end.
Proof. intros; repeat split. Qed.
Print Assumptions C09_tm_fill_spec.

(* ================================================================ non-vacuity *)
(* an error renderer returning a str is answered by a bare 5.00 (error_to_message accepts only a Message, abf5426) *)
Definition garbage_request : request :=
  {| r_id := 0; r_remote := 0; r_token := [1]; r_mid := 7; r_con := true; r_code := GET; r_path := [1]; r_nr := None; r_obs := None;
     r_slow := false; r_outcome := Raise_ (ERenderable (TMReturn VOther)) |}.
Example C09_failing_renderer_example :
  run_script (Some [([1], Plain [GET; POST; PUT; DELETE; FETCH; PATCH; iPATCH])]) 100 [Req garbage_request; Tick 100000]
  = ([([mk_wire garbage_request T_ACK 7 bare_500], [LogRenderFailed], 0); ([], [], 0)], (0, 0, 0, 0)).
Proof. vm_compute. reflexivity. Qed.
(* Observe=0 on an accepting observable resource with a successful handler: the first response is a non-final 2.05 with
   Observe:0 and the request stays registered; on a declining one: the same response, final, without Observe *)
Example C09_observable_example :
  let r := obs_request (Return (VMsg {| m_code := None; m_payload := [104]; m_cf := None; m_nr := None; m_obs := None |})) in
  establishes [GET; FETCH] OAccept r = true /\
  map (fun o => (map (fun w => (w_code w, w_obs w)) (fst (fst o)), snd (fst o))) (fst (run_script (Some (obs_site OAccept)) 100 [Req r])) = [([(69, Some 0)], [])] /\
  snd (run_script (Some (obs_site OAccept)) 100 [Req r]) = (1, 0, 0, 0) /\
  map (fun o => (map (fun w => (w_code w, w_obs w)) (fst (fst o)), snd (fst o))) (fst (run_script (Some (obs_site ODecline)) 100 [Req r])) = [([(69, None)], [])] /\
  snd (run_script (Some (obs_site ODecline)) 100 [Req r]) = (0, 0, 0, 0).
Proof. cbv zeta. repeat split; vm_compute; reflexivity. Qed.
(* an unknown path asked with No-Response 8 (suppress 4.xx): only the empty ACK goes out *)
Example C09_no_response_error_example :
  run_script (Some [([1], Plain [GET])]) 100
    [Req {| r_id := 0; r_remote := 0; r_token := [1]; r_mid := 7; r_con := true; r_code := GET; r_path := [9]; r_nr := Some 8; r_obs := None;
            r_slow := false; r_outcome := Return VNone |}]
  = ([([empty_ack 0 7], [], 0)], (0, 0, 0, 0)).
Proof. vm_compute. reflexivity. Qed.
Definition ex_site : site := [([1], Plain [GET; POST; PUT; DELETE; FETCH; PATCH; iPATCH]); ([2], Plain [GET])].
Definition ex_req (id tok : Z) (o : outcome) : request :=
  {| r_id := id; r_remote := 0; r_token := [tok]; r_mid := 100 + id; r_con := true; r_code := GET; r_path := [1];
     r_nr := None; r_obs := None; r_slow := true; r_outcome := o |}.
Example C09_handled_nonvacuous :
  handled ex_site (ex_req 0 1 (Return (VMsg {| m_code := None; m_payload := [104]; m_cf := None; m_nr := None; m_obs := None |}))) [GET; POST; PUT; DELETE; FETCH; PATCH; iPATCH]
  /\ yields_bare_500 (Raise_ EOther) /\ finalising (Some ex_site) (ex_req 0 1 (Raise_ EOther)).
Proof. split; [repeat split; reflexivity|]. split; [left; reflexivity|cbn; exact I]. Qed.
(* three requests in flight at once, the middle one failing, the first completing after its empty ACK: each gets exactly its own *)
Example C09_concurrent_example :
  let a := ex_req 0 1 (Return (VMsg {| m_code := None; m_payload := [104]; m_cf := None; m_nr := None; m_obs := None |})) in
  let b := ex_req 1 2 (Raise_ EOther) in
  let c := ex_req 2 3 (Raise_ (cre E_BadRequest (CText [120]))) in
  let evs := [Req a; Req b; Req c; Tick 100000; Done 1; Done 0; AckFrom 0; Done 2; AckFrom 0; AckFrom 0] in
  Inv (init_state 500) /\ fresh (init_state 500) evs /\
  map (fun id => finals_for id (run_sends (Some ex_site) (init_state 500) evs)) [0; 1; 2]
  = [[{| m_code := Some 69; m_payload := [104]; m_cf := None; m_nr := None; m_obs := None |}]; [bare_500]; [mk_msg 128 [120]]] /\
  map (fun o => map w_code (fst (fst o))) (fst (run_script (Some ex_site) 500 evs))
  = [[]; []; []; [0; 0; 0]; [160]; []; [69]; []; [128]; []].
Proof.
  cbv zeta. split; [apply init_inv|]. split; [apply init_fresh; vm_compute; repeat constructor; cbn; intuition discriminate|].
  split; vm_compute; reflexivity.
Qed.
(* a well-formed state with renderings in flight (the hypotheses of section 3 are satisfiable by a non-initial state) *)
Example C09_inv_nonvacuous :
  let s := fst (run (Some ex_site) (init_state 7) [Req (ex_req 0 1 (Raise_ EOther)); Req (ex_req 1 2 (Return VNone))]) in
  Inv s /\ length (s_incoming s) = 2%nat /\ fresh s [Done 1; Req (ex_req 2 3 (Return VNone)); Done 0] /\
  unrelated s 0 (new_entry (ex_req 0 1 (Raise_ EOther))) (Req (ex_req 2 3 (Return VNone))).
Proof.
  cbv zeta. split; [|split; [vm_compute; reflexivity|]].
  - split; [vm_compute; repeat constructor; cbn; intuition discriminate|]. vm_compute. repeat constructor.
  - split.
    + split; [vm_compute; repeat constructor; cbn; intuition|]. vm_compute. intros i [<-|[]] [H|[H|[]]]; discriminate.
    + vm_compute. split; [discriminate|]. split; [reflexivity|]. intros [H|[H|[]]]; discriminate.
Qed.
(* the wire-level statements on the concurrent scenario above, and a state in which the hypothesis of C09_overridden_gets_none holds *)
Example C09_wire_example :
  let a := ex_req 0 1 (Return (VMsg {| m_code := None; m_payload := [104]; m_cf := None; m_nr := None; m_obs := None |})) in
  let b := ex_req 1 2 (Raise_ EOther) in
  let c := ex_req 2 3 (Raise_ (cre E_BadRequest (CText [120]))) in
  let evs := [Req a; Req b; Req c; Tick 100000; Done 1; Done 0; AckFrom 0; Done 2; AckFrom 0; AckFrom 0] in
  NoDup (req_ids evs) /\ In (Req b) evs /\ finalising (Some ex_site) b /\ final_message (Some ex_site) b = Some bare_500 /\
  map (fun id => map (fun w => (w_type w, w_code w, w_token w)) (answers id (wires (snd (run (Some ex_site) (init_state 500) evs))))) [0; 1; 2]
  = [[(T_CON, 69, [1])]; [(T_CON, 160, [2])]; [(T_CON, 128, [3])]] /\
  let s := fst (run (Some ex_site) (init_state 500) [Req a]) in
  let a' := ex_req 7 1 (Raise_ EOther) in
  Inv s /\ fresh s [Req a'; Done 0] /\ find_by_key (key_of a') (s_incoming s) = Some (new_entry a) /\
  finals_for 0 (run_sends (Some ex_site) s [Req a'; Done 0]) = [] /\ finals_for 7 (run_sends (Some ex_site) s [Req a'; Done 0; Done 7]) = [bare_500].
Proof.
  cbv zeta. split; [vm_compute; repeat constructor; cbn; intuition discriminate|]. split; [cbn; tauto|]. split; [exact I|].
  split; [reflexivity|]. split; [vm_compute; reflexivity|].
  split; [split; [vm_compute; repeat constructor; cbn; intuition|vm_compute; repeat constructor]|].
  split; [split; [vm_compute; repeat constructor; cbn; intuition|vm_compute; intros i [<-|[]] [H|[]]; discriminate]|].
  split; [vm_compute; reflexivity|]. split; vm_compute; reflexivity.
Qed.
(* C09_wire_exactly_one on a concurrent scenario: a NON request failing in the middle of two CON neighbours, and a CON request answered at once *)
Example C09_wire_exactly_one_example :
  let n := {| r_id := 1; r_remote := 0; r_token := [2]; r_mid := 101; r_con := false; r_code := GET; r_path := [1]; r_nr := None; r_obs := None;
              r_slow := true; r_outcome := Raise_ EOther |} in
  let f := {| r_id := 3; r_remote := 0; r_token := [4]; r_mid := 103; r_con := true; r_code := GET; r_path := [9]; r_nr := None; r_obs := None;
              r_slow := true; r_outcome := Return VNone |} in
  let a := ex_req 0 1 (Raise_ EOther) in
  let pre := [Req a; Tick 100000] in let mid := [Done 0; Req f; Tick 50000] in let post := [AckFrom 0; Done 3] in
  NoDup (req_ids (pre ++ Req n :: mid ++ Done 1 :: post)) /\ Forall (mid_ok 1 n) mid /\
  finalising (Some ex_site) n /\ final_message (Some ex_site) n = Some bare_500 /\ suppressed (tm_fill n bare_500) = false /\
  map (fun w => (w_type w, w_code w, w_token w)) (answers 1 (wires (snd (run (Some ex_site) (init_state 9) (pre ++ Req n :: mid ++ Done 1 :: post))))) = [(T_NON, 160, [2])] /\
  r_slow f && reaches_handler (Some ex_site) f = false /\
  map (fun w => (w_type w, w_code w, w_token w)) (answers 3 (wires (snd (run (Some ex_site) (init_state 9) (pre ++ Req n :: mid ++ Done 1 :: post))))) = [(T_ACK, 132, [4])].
Proof.
  cbv zeta. split; [vm_compute; repeat constructor; cbn; intuition discriminate|].
  split; [repeat constructor; cbn; try reflexivity; discriminate|].
  split; [exact I|]. repeat split; vm_compute; reflexivity.
Qed.

(* the model's transport constants and message-ID successor are the translated source's
   (Gen/c03_constants.v <- numbers/constants.py TransportTuning, microseconds = seconds * 10^6; Gen/c14_message_id.v <- MessageManager._next_message_id) *)
From Verif Require Gen.c03_constants Gen.c14_message_id.
From Verif Require Proofs.C09Tie.
Theorem C09_empty_ack_delay_is_source :
  QArith_base.Qeq (QArith_base.inject_Z EMPTY_ACK_DELAY) (QArith_base.Qmult (c03_constants.tt_EMPTY_ACK_DELAY c03_constants.default_transport_tuning) (QArith_base.inject_Z 1000000)).
Proof. exact C09Tie.empty_ack_delay_is_source. Qed.
Print Assumptions C09_empty_ack_delay_is_source.
Theorem C09_next_message_id_is_source :
  forall mid, c14_message_id.next_message_id {| c14_message_id.mmids_message_id := mid |} = Ok ({| c14_message_id.mmids_message_id := Z.land 65535 (1 + mid) |}, mid).
Proof. exact C09Tie.next_message_id_is_source. Qed.
Print Assumptions C09_next_message_id_is_source.
