(* C06 — block-wise server: handlers see only complete bodies, blocks are exact slices.
   Statements; the proofs are lemmas of Proofs/C06*.v or short derivations from them.
   Model: Model/C06.v (TimeoutDict, Block1Spool.feed_and_take, Block2Cache.extract_or_insert,
   Resource._render_to_pipe, a site of resources under virtual time). *)
From Verif Require Import Lib.Py Lib.Tactics Gen.block_kernels Model.C06 Proofs.C06TimeoutDict Proofs.C06 Proofs.C06Kernel Proofs.C06Lifetime.
Open Scope Z_scope.

(* ---- 0. every reachable server state satisfies the invariants: each stored assembly is the
   reassembly of the reference block list of its key, each stored rendering is the reference
   rendering of its key, reference block lists are in-order chains *)
Theorem C06_reachable_inv : forall T sv gh, reachable T sv gh -> server_inv gh sv.
Proof. exact reachable_inv. Qed.
Print Assumptions C06_reachable_inv.

(* for EVERY event history (requests of any endpoints / resources / methods / options in any
   interleaving, any idle times) every output satisfies the per-request specification [out_ok]
   relative to the time-free reference maps *)
Theorem C06_run_refines_reference : forall T n es, Forall wf_event es ->
  run_ok T (server_init n) ghost_init es (snd (run T (server_init n) es)).
Proof. intros T n es F. exact (run_refines T es (server_init n) ghost_init F (server_inv_init n)). Qed.
Print Assumptions C06_run_refines_reference.

(* ---- 1. the handler is invoked only with complete bodies: a request without Block1 is passed as
   is; otherwise it is the final block (M=0) of the reference chain [bs] of its block key —
   blocks of one endpoint, one method, one set of cache-key options, starting with a block 0,
   each next one starting exactly at the end of what was assembled — and the body handed to
   the handler is the concatenation of their payloads (options, endpoint, code of block 0) *)
Theorem C06_handler_sees_complete_bodies : forall T now ga gr s req rendering,
  wf_req req -> spool_inv ga (block1 s) -> cache_inv gr (block2 s) -> gasm_wf ga ->
  forall c, In c (snd (fst (render_to_pipe T now s req rendering))) ->
  match m_block1 req with
  | None => c = req
  | Some b =>
    b_more b = false /\
    exists bs, ghost1_step ga req (extract_block_key req) = Some bs /\ chain (extract_block_key req) bs /\
               last bs req = req /\ assembled_from c bs
  end.
Proof. intros T now ga gr s req rendering Wr I1 _ W. exact (handler_bodies T now ga s req rendering Wr I1 W). Qed.
Print Assumptions C06_handler_sees_complete_bodies.

(* the reference lists are chains whatever is fed *)
Theorem C06_reference_chains : forall g r, gasm_wf g -> gasm_wf (ghost1_step g r).
Proof. exact ghost1_step_wf. Qed.
Print Assumptions C06_reference_chains.

(* ---- 2. the answers the spool gives itself to Block1 requests, as a decision table on the spool content:
   block 0 with M=1 -> 2.31 echoing the option; NUM>0 without an assembly (never started,
   expired) -> 4.08; with an assembly: payload length contradicting the option ([size_ok]) -> 4.00,
   start <> assembled length (gap, overlap) -> 4.08, otherwise M=1 -> 2.31 echoing the option;
   the handler is not invoked in any of these; assemblies of other keys are untouched *)
Theorem C06_block1_responses : forall T now ga s req rendering b,
  m_block1 req = Some b -> spool_inv ga (block1 s) ->
  let k := extract_block_key req in
  let '(s', calls, res) := render_to_pipe T now s req rendering in
  (b_more b = true -> b_num b = 0 -> calls = [] /\ res = continue_resp b /\ kget k (block1 s') = Some req) /\
  (b_num b <> 0 -> kget k (block1 s) = None -> calls = [] /\ res = incomplete_resp /\ s' = s) /\
  (forall asm, b_num b <> 0 -> kget k (block1 s) = Some asm ->
     (size_ok b req = false -> calls = [] /\ res = bad_request_resp txt_size_mismatch /\ kget k (block1 s') = Some asm) /\
     (size_ok b req = true -> b_start b <> blen (m_payload asm) -> calls = [] /\ res = incomplete_resp /\ kget k (block1 s') = Some asm) /\
     (size_ok b req = true -> b_start b = blen (m_payload asm) -> b_more b = true ->
        calls = [] /\ res = continue_resp b /\ kget k (block1 s') = Some (appended asm req b))) /\
  (forall k', k' <> k -> kget k' (block1 s') = kget k' (block1 s)).
Proof. exact block1_table. Qed.
Print Assumptions C06_block1_responses.

(* the server never answers 5.xx by itself, over every history (F3 of DESIGN.md would break this) *)
Theorem C06_no_5xx : forall T n es, Forall wf_event es -> Forall ev_code_ok es ->
  Forall out_code_ok (snd (run T (server_init n) es)).
Proof. intros T n es. apply (run_codes_init (fun c => c <> INTERNAL_SERVER_ERROR)). repeat split; discriminate. Qed.
Print Assumptions C06_no_5xx.

(* ---- 3. Block2: a request for NUM>0 never invokes the handler; without a stored rendering it is
   answered 4.08; otherwise with the stored rendering Rn (= the reference rendering of the key):
   4.00 when the block starts at or beyond the end, else exactly Rn[start, start+size) with the
   more-flag set exactly when bytes remain (F4 of DESIGN.md would break this) *)
Theorem C06_block2_exact_slice : forall T now gr s req rendering b2,
  m_block1 req = None -> m_block2 req = Some b2 -> b_num b2 <> 0 -> cache_inv gr (block2 s) ->
  let k := extract_block_key req in
  let '(s', calls, res) := render_to_pipe T now s req rendering in
  calls = [] /\ block1 s' = block1 s /\
  match kget k (block2 s) with
  | None => res = incomplete_resp /\ s' = s
  | Some Rn =>
    gr k = Some Rn /\ kget k (block2 s') = Some Rn /\
    res = if b2_start (b_szx b2) (b_num b2) >=? blen (p_payload Rn) then bad_request_resp txt_out_of_bounds
          else slice_resp Rn (b_num b2) (b_szx b2) (m_mps req)
  end.
Proof.
  intros T now gr s req rendering b2 H1 H2 Hn I k. rewrite (rtp_later T now s req rendering b2 H1 H2 Hn). fold k.
  destruct (kget k (block2 s)) as [Rn|] eqn:Hg; repeat split; [exact (I k Rn Hg)|apply kget_setitem_same].
Qed.
Print Assumptions C06_block2_exact_slice.

(* NUM>0 is answered 4.08 or from the rendering made for the LATEST rendering (block-0 / Block2-less)
   request of its key ([gl], advanced by [glatest_step] at every handler invocation, stored or not):
   never from an older one.  [stored_is_latest] holds in every reachable state (next theorem).
   False before commit d768e89 (finding C06:block2-stale-rendering, now fixed). *)
Theorem C06_block2_latest_rendering : forall T now gr gl s req rendering b2,
  m_block1 req = None -> m_block2 req = Some b2 -> b_num b2 <> 0 -> cache_inv gr (block2 s) -> stored_is_latest gr gl ->
  let k := extract_block_key req in
  let '(s', calls, res) := render_to_pipe T now s req rendering in
  calls = [] /\
  (res = incomplete_resp \/
   exists Rn, gl k = Some Rn /\
     res = if b2_start (b_szx b2) (b_num b2) >=? blen (p_payload Rn) then bad_request_resp txt_out_of_bounds
           else slice_resp Rn (b_num b2) (b_szx b2) (m_mps req)).
Proof.
  intros T now gr gl s req rendering b2 H1 H2 Hn I L k. rewrite (rtp_later T now s req rendering b2 H1 H2 Hn). fold k.
  destruct (kget k (block2 s)) as [Rn|] eqn:Hg; (split; [reflexivity|]); [right|left; reflexivity].
  exists Rn. split; [exact (L k Rn (I k Rn Hg))|reflexivity].
Qed.
Print Assumptions C06_block2_latest_rendering.
Theorem C06_stored_is_latest_reachable : forall T sv gh, reachable T sv gh ->
  forall i, cache_inv (g_rend gh i) (block2 (nth i (resources sv) rstate_empty)) /\ stored_is_latest (g_rend gh i) (g_latest gh i).
Proof. intros T sv gh H i. destruct (reachable_inv T sv gh H i) as (_ & I2 & _ & I4). split; assumption. Qed.
Print Assumptions C06_stored_is_latest_reachable.
Theorem C06_latest_reference_step : forall g gl req1 rendering,
  stored_is_latest g gl -> stored_is_latest (ghost2_step g req1 rendering) (glatest_step gl req1 rendering).
Proof. exact stored_is_latest_step. Qed.
Print Assumptions C06_latest_reference_step.

(* a block-0 (or Block2-less) request invokes the handler exactly once; when the rendering needs
   chunking it is stored and its first block returned, otherwise it is returned whole and any
   older stored rendering of the key is evicted *)
Theorem C06_block2_first_block : forall T now s req rendering,
  m_block1 req = None -> match m_block2 req with Some b2 => b_num b2 = 0 | None => True end ->
  let k := extract_block_key req in
  let szx := match m_block2 req with Some b2 => b_szx b2 | None => m_mbse req end in
  let '(s', calls, res) := render_to_pipe T now s req rendering in
  calls = [req] /\
  if needs_chunking req rendering
  then kget k (block2 s') = Some rendering /\
       res = if 0 >=? blen (p_payload rendering) then bad_request_resp txt_out_of_bounds
             else slice_resp rendering 0 szx (m_mps req)
  else res = set_block1 rendering None /\ block2 s' = td_pop key_eqb k (block2 s).
Proof.
  intros T now s req rendering H1 H2 k szx. rewrite (rtp_first T now s req rendering H1 H2). fold k szx.
  destruct (needs_chunking req rendering); repeat split. apply kget_setitem_same.
Qed.
Print Assumptions C06_block2_first_block.

(* Message._extract_block: exact slice arithmetic for every block number, size exponent (incl. BERT) *)
Theorem C06_extract_block_slice : forall R number szx mps,
  let start := b2_start szx number in let size := b2_size szx mps in
  extract_block R number szx mps =
    if start >=? blen (p_payload R) then RRaise (EBadRequest txt_out_of_bounds)
    else ROk {| p_code := p_code R; p_block1 := p_block1 R;
                p_block2 := Some {| b_num := number; b_more := start + size <? blen (p_payload R); b_szx := szx |};
                p_payload := bslice (p_payload R) start (start + size) |}.
Proof. exact extract_block_spec. Qed.
Print Assumptions C06_extract_block_slice.

(* ---- 4. TimeoutDict lifetime: over every history of lookups, assignments, pops and time advances (any
   keys, any idle times), with [last k] the time of the last successful access of [k] since its last pop: an entry is
   present whenever less than T has passed since, and every present entry was accessed less than 2T ago *)
Theorem C06_timeoutdict_lifetime : forall (K V : Type) (keqb : K -> K -> bool),
  (forall a b, keqb a b = true <-> a = b) -> forall T, 0 < T ->
  forall ops : list (@tdop K V), Forall nonneg_op ops ->
  let '(now, last, d) := td_run keqb T (0, (fun _ => None), td_empty) ops in
  (forall k a, last k = Some a -> now < a + T -> has keqb k d = true) /\
  (forall k, has keqb k d = true -> exists a, last k = Some a /\ a <= now /\ now < a + 2 * T).
Proof. exact @timeoutdict_lifetime. Qed.
Print Assumptions C06_timeoutdict_lifetime.

(* pop is not an idle-reset: the timer that is pending keeps its deadline (the code has one call_later handle per dict and
   pop does not touch it); an entry assigned after a pop that emptied the dict is recorded as recently accessed and survives
   the old timer's tick — part of C06_timeoutdict_lifetime (TPop), shown on the seeded history below *)
Theorem C06_timeoutdict_pop_keeps_timer : forall (K V : Type) (keqb : K -> K -> bool) k (d : td K V),
  td_timer (td_pop keqb k d) = td_timer d.
Proof. exact @td_pop_timer. Qed.
Print Assumptions C06_timeoutdict_pop_keeps_timer.
Example C06_timeoutdict_pop_scenario :
  let T := MAX_TRANSMIT_WAIT_us in
  match drun T (0, td_empty) [DSet 0 1; DAdv (T / 2); DPop 0; DAdv (T / 10); DSet 0 2; DAdv (7 * T / 10); DGet 0; DAdv (T - 1); DGet 0; DAdv (2 * T); DGet 0] with
  | [_; _; DOut (Some 1) [] (Some due_after_pop); _; DOut None [0] (Some due_after_set); DOut None [0] (Some due2); DOut (Some 2) [0] _; _; DOut (Some 2) [0] _; _; DOut None [] None] =>
      due_after_pop = T /\ due_after_set = T /\ due2 = 2 * T
  | _ => False
  end.
Proof. vm_compute. repeat split. Qed.

(* the two rounds of td_advance fire every due timer (fixed point of the loop) and keep the invariant *)
Theorem C06_timeoutdict_advance_settled : forall (K V : Type) (keqb : K -> K -> bool),
  (forall a b, keqb a b = true <-> a = b) -> forall T, 0 < T ->
  forall now target last (d : td K V), td_ginv keqb T now last d -> now <= target ->
  td_ginv keqb T target last (td_advance keqb T target d) /\ settled target (td_advance keqb T target d).
Proof. exact @td_ginv_advance. Qed.
Print Assumptions C06_timeoutdict_advance_settled.

(* ---- 5. lifetime at SERVER level.  [l_asm lg i k] / [l_rend lg i k] = the time of the last USE of the assembly /
   stored rendering of key k on resource i, computed along the event history by [last1_step] / [last2_step]
   (Proofs/C06Lifetime.v).  What counts as a use:
     assembly:  a block 0 of k with M=1; every continuation (NUM>0) of k that finds an assembly and is appended with M=1 (2.31)
                or REJECTED with 4.00 / 4.08 (gap, overlap): the lookup refreshes the timeout first; a block with M=0 that
                completes the assembly hands it to the handler and REMOVES it (6759bee; the ghost forgets the key);
                a continuation that finds nothing, or a request without Block1, is not a use;
     rendering: a block-0 / Block2-less request whose rendering is chunked (stored); a NUM>0 request that finds a
                rendering (served, or answered 4.00 beyond the end); a rendering request answered whole EVICTS the
                entry (the ghost forgets the key); a NUM>0 request that finds nothing is not a use; idle time never is.
   Model assumption as everywhere: handlers are atomic.  Advance steps are non-negative. *)
Theorem C06_reachable_life_inv : forall T sv gh lg, 0 < T -> reachable_life T sv gh lg -> server_inv gh sv /\ life_inv T lg sv.
Proof. exact reachable_life_inv. Qed.
Print Assumptions C06_reachable_life_inv.

(* for every event history of the multi-resource server: an entry used at [a] is present at every now < a + T, every
   present entry was used less than 2T ago, and an entry never used / evicted / used 2T or more ago is absent *)
Theorem C06_server_state_lifetime : forall T sv gh lg, 0 < T -> reachable_life T sv gh lg -> forall i k,
  let s := nth i (resources sv) rstate_empty in
  ((forall a, l_asm lg i k = Some a -> now sv < a + T -> kget k (block1 s) <> None) /\
   (kget k (block1 s) <> None -> exists a, l_asm lg i k = Some a /\ a <= now sv /\ now sv < a + 2 * T) /\
   (l_asm lg i k = None -> kget k (block1 s) = None) /\
   (forall a, l_asm lg i k = Some a -> a + 2 * T <= now sv -> kget k (block1 s) = None)) /\
  ((forall a, l_rend lg i k = Some a -> now sv < a + T -> kget k (block2 s) <> None) /\
   (kget k (block2 s) <> None -> exists a, l_rend lg i k = Some a /\ a <= now sv /\ now sv < a + 2 * T) /\
   (l_rend lg i k = None -> kget k (block2 s) = None) /\
   (forall a, l_rend lg i k = Some a -> a + 2 * T <= now sv -> kget k (block2 s) = None)).
Proof.
  intros T sv gh lg Tp R i k. destruct (reachable_life_inv T sv gh lg Tp R) as (_ & L). destruct (L i) as (G1 & G2).
  split; [exact (ginv_bounds T (now sv) _ _ G1 k)|exact (ginv_bounds T (now sv) _ _ G2 k)].
Qed.
Print Assumptions C06_server_state_lifetime.

(* observable: a continuation arriving less than T after the last use of its transfer finds the assembly and is
   answered 4.08 only for a gap / overlap (never for expiry); one arriving 2T or more after it (or for a transfer
   never started) is answered 4.08, the handler is not invoked and the state is unchanged.
   The hypotheses hold for every resource of every reachable server (C06_reachable_life_inv). *)
Theorem C06_continuation_expiry : forall T now g l s req rendering b,
  spool_inv g (block1 s) -> td_ginv key_eqb T now l (block1 s) -> m_block1 req = Some b -> b_num b <> 0 ->
  let k := extract_block_key req in
  (forall a, l k = Some a -> now < a + T ->
     exists asm, kget k (block1 s) = Some asm /\
       (forall sp', feed_and_take T now (block1 s) req = (sp', RRaise EIncomplete) ->
          size_ok b req = true /\ b_start b <> blen (m_payload asm)) /\
       (b_more b = true -> snd (render_to_pipe T now s req rendering) = incomplete_resp ->
          size_ok b req = true /\ b_start b <> blen (m_payload asm))) /\
  (l k = None \/ (exists a, l k = Some a /\ a + 2 * T <= now) ->
     render_to_pipe T now s req rendering = (s, [], incomplete_resp)).
Proof. exact continuation_expiry. Qed.
Print Assumptions C06_continuation_expiry.

(* the same for a later block of a response: less than T after the last use of the stored rendering it is served
   (exact slice, or 4.00 beyond the end) and never answered 4.08; 2T or more after it (or evicted / never stored): 4.08 *)
Theorem C06_later_block_expiry : forall T now gr l s req rendering b2,
  cache_inv gr (block2 s) -> td_ginv key_eqb T now l (block2 s) -> m_block1 req = None -> m_block2 req = Some b2 -> b_num b2 <> 0 ->
  let k := extract_block_key req in
  (forall a, l k = Some a -> now < a + T ->
     exists Rn, kget k (block2 s) = Some Rn /\ gr k = Some Rn /\
       snd (render_to_pipe T now s req rendering) =
         (if b2_start (b_szx b2) (b_num b2) >=? blen (p_payload Rn) then bad_request_resp txt_out_of_bounds
          else slice_resp Rn (b_num b2) (b_szx b2) (m_mps req)) /\
       snd (render_to_pipe T now s req rendering) <> incomplete_resp) /\
  (l k = None \/ (exists a, l k = Some a /\ a + 2 * T <= now) ->
     render_to_pipe T now s req rendering = (s, [], incomplete_resp)).
Proof. exact later_block_expiry. Qed.
Print Assumptions C06_later_block_expiry.

(* concrete requests / renderings used by the Examples below *)
Definition get_req (b2 : blockopt) (id : Z) : msg :=
  {| m_remote := 0; m_mps := 1124; m_mbse := 6; m_code := 1; m_opts := []; m_block1 := None; m_block2 := Some b2;
     m_payload := []; m_id := id |}.
Definition rend (seed : Z) : resp := {| p_code := 69; p_block1 := None; p_block2 := None; p_payload := mk_body seed 100 |}.
Definition put_req (b1 : blockopt) (pl : list Z) (id : Z) : msg :=
  {| m_remote := 0; m_mps := 1124; m_mbse := 6; m_code := 3; m_opts := [(15, [97; 61; 49]); (60, [id])];
     m_block1 := Some b1; m_block2 := None; m_payload := pl; m_id := id |}.

(* the decision tables at HISTORY level: for every resource of every reachable server (any event history), the answer to the
   next request; [step] of a request is [render_to_pipe] on that resource at the server's time *)
Theorem C06_step_is_render_to_pipe : forall T sv i req rendering,
  step T sv (Request i req rendering) =
  let '(s', calls, res) := render_to_pipe T (now sv) (nth i (resources sv) rstate_empty) req rendering in
  ({| now := now sv; resources := set_nth i s' (resources sv) |}, ORequest calls res (fst (rsizes s')) (snd (rsizes s'))).
Proof. reflexivity. Qed.
Print Assumptions C06_step_is_render_to_pipe.
Theorem C06_reachable_block1_table : forall T sv gh i req rendering b, reachable T sv gh -> m_block1 req = Some b ->
  let s := nth i (resources sv) rstate_empty in
  let k := extract_block_key req in
  let '(s', calls, res) := render_to_pipe T (now sv) s req rendering in
  (b_more b = true -> b_num b = 0 -> calls = [] /\ res = continue_resp b /\ kget k (block1 s') = Some req) /\
  (b_num b <> 0 -> kget k (block1 s) = None -> calls = [] /\ res = incomplete_resp /\ s' = s) /\
  (forall asm, b_num b <> 0 -> kget k (block1 s) = Some asm ->
     (size_ok b req = false -> calls = [] /\ res = bad_request_resp txt_size_mismatch /\ kget k (block1 s') = Some asm) /\
     (size_ok b req = true -> b_start b <> blen (m_payload asm) -> calls = [] /\ res = incomplete_resp /\ kget k (block1 s') = Some asm) /\
     (size_ok b req = true -> b_start b = blen (m_payload asm) -> b_more b = true ->
        calls = [] /\ res = continue_resp b /\ kget k (block1 s') = Some (appended asm req b))) /\
  (forall k', k' <> k -> kget k' (block1 s') = kget k' (block1 s)).
Proof.
  intros T sv gh i req rendering b R Hb. destruct (reachable_inv T sv gh R i) as (I1 & _).
  exact (block1_table T (now sv) (g_asm gh i) _ req rendering b Hb I1).
Qed.
Print Assumptions C06_reachable_block1_table.
Theorem C06_reachable_block2_table : forall T sv gh i req rendering b2, reachable T sv gh ->
  m_block1 req = None -> m_block2 req = Some b2 -> b_num b2 <> 0 ->
  let s := nth i (resources sv) rstate_empty in
  let k := extract_block_key req in
  let '(s', calls, res) := render_to_pipe T (now sv) s req rendering in
  calls = [] /\
  (res = incomplete_resp \/
   exists Rn, g_latest gh i k = Some Rn /\
     res = if b2_start (b_szx b2) (b_num b2) >=? blen (p_payload Rn) then bad_request_resp txt_out_of_bounds
           else slice_resp Rn (b_num b2) (b_szx b2) (m_mps req)).
Proof.
  intros T sv gh i req rendering b2 R H1 H2 Hn. destruct (reachable_inv T sv gh R i) as (_ & I2 & _ & I4).
  exact (C06_block2_latest_rendering T (now sv) (g_rend gh i) (g_latest gh i) _ req rendering b2 H1 H2 Hn I2 I4).
Qed.
Print Assumptions C06_reachable_block2_table.
Theorem C06_reachable_handler_bodies : forall T sv gh i req rendering, reachable T sv gh -> wf_req req ->
  forall c, In c (snd (fst (render_to_pipe T (now sv) (nth i (resources sv) rstate_empty) req rendering))) ->
  match m_block1 req with
  | None => c = req
  | Some b =>
    b_more b = false /\
    exists bs, ghost1_step (g_asm gh i) req (extract_block_key req) = Some bs /\ chain (extract_block_key req) bs /\
               last bs req = req /\ assembled_from c bs
  end.
Proof.
  intros T sv gh i req rendering R Wr. destruct (reachable_inv T sv gh R i) as (I1 & _ & I3 & _).
  exact (handler_bodies T (now sv) (g_asm gh i) _ req rendering Wr I1 I3).
Qed.
Print Assumptions C06_reachable_handler_bodies.

(* no answer of ANY 5.xx class unless a handler rendering has one (C06_no_5xx: the same for the code 5.00), and where the code of
   an answer comes from *)
Theorem C06_no_5xx_any : forall T n es, Forall wf_event es -> Forall ev_class_ok es ->
  Forall out_class_ok (snd (run T (server_init n) es)).
Proof. intros T n es. apply (run_codes_init (fun c => is_5xx c = false)). repeat split. Qed.
Print Assumptions C06_no_5xx_any.
Theorem C06_answer_code_origin : forall ga' gr req rendering calls res, resp_ok ga' gr req rendering calls res ->
  In (p_code res) [CONTINUE; BAD_REQUEST; REQUEST_ENTITY_INCOMPLETE] \/ p_code res = p_code rendering \/
  exists k Rn, gr k = Some Rn /\ p_code res = p_code Rn.
Proof. exact resp_ok_code. Qed.
Print Assumptions C06_answer_code_origin.

(* a request stopped by the spool (2.31 / 4.00 / 4.08) leaves the rendering cache untouched and invokes no handler *)
Theorem C06_spool_error_keeps_cache : forall T now s req rendering sp e,
  feed_and_take T now (block1 s) req = (sp, RRaise e) ->
  render_to_pipe T now s req rendering = ({| block1 := sp; block2 := block2 s |}, [], error_to_message e).
Proof. exact spool_error_keeps_cache. Qed.
Print Assumptions C06_spool_error_keeps_cache.

(* T of the model is the translated source constant; the length check of C06_block1_responses ([size_ok], M=1 and M=0) is the
   translated BlockwiseTuple.is_valid_for_payload_size *)
Theorem C06_T_is_source :
  QArith_base.Qeq (QArith_base.inject_Z MAX_TRANSMIT_WAIT_us)
      (QArith_base.Qmult (c03_constants.MAX_TRANSMIT_WAIT c03_constants.default_transport_tuning) (QArith_base.inject_Z 1000000)).
Proof. exact T_is_source. Qed.
Print Assumptions C06_T_is_source.
Theorem C06_size_check_is_source : forall b r,
  bt_is_valid_for_payload_size (b_num b) (b_more b) (b_szx b) (blen (m_payload r)) = Ok (size_ok b r).
Proof. exact size_ok_is_valid. Qed.
Print Assumptions C06_size_check_is_source.
(* the slice arithmetic of C06_extract_block_slice is the arithmetic of the source.  The hand-written
   [extract_block], [b_size], [b_start] agree with the code translated from message.py
   Message._extract_block and optiontypes.py BlockwiseTuple.size/start (Gen/block_kernels.v,
   regenerated from the repository on every check). *)
Theorem C06_extract_block_is_source : forall R n szx mps,
  match block_kernels.extract_block (p_payload R) n szx mps with
  | Ok (pl, (num, more, sz)) =>
      C06.extract_block R n szx mps =
      ROk {| p_code := p_code R; p_block1 := p_block1 R;
             p_block2 := Some {| b_num := num; b_more := more; b_szx := sz |}; p_payload := pl |}
  | Raise BadRequest => C06.extract_block R n szx mps = RRaise (EBadRequest txt_out_of_bounds)
  | Raise _ => False
  end.
Proof. exact extract_block_is_source. Qed.
Print Assumptions C06_extract_block_is_source.
Theorem C06_block_size_start_is_source : forall b,
  bt_size (b_num b) (b_more b) (b_szx b) = Ok (b_size b) /\ bt_start (b_num b) (b_more b) (b_szx b) = Ok (b_start b).
Proof. intros b. split; reflexivity. Qed.
Print Assumptions C06_block_size_start_is_source.

(* the scenario of the former finding C06:final-block-oversize-accepted (fixed by 8f63ed9): a FINAL block of 40 bytes with block size
   16 is answered 4.00, the handler is not invoked, the assembly stays *)
Example C06_final_block_oversize_rejected :
  let es := [Request 0 (put_req {| b_num := 0; b_more := true; b_szx := 0 |} (mk_body 0 16) 1) (rend 0);
             Request 0 (put_req {| b_num := 1; b_more := false; b_szx := 0 |} (mk_body 0 40) 2) (rend 0)] in
  bt_is_valid_for_payload_size 1 false 0 40 = Ok false /\
  match snd (run MAX_TRANSMIT_WAIT_us (server_init 1) es) with
  | [ORequest [] r1 1 0; ORequest [] r2 1 0] => p_code r1 = CONTINUE /\ r2 = bad_request_resp txt_size_mismatch
  | _ => False
  end.
Proof. vm_compute. repeat split. Qed.

(* overlapping handler schedules (Model sstep/srun, requests without Block1).  With a handler that returns at once the
   schedule model IS the atomic model ... *)
Theorem C06_atomic_schedule_is_request : forall T st id req rendering, m_block1 req = None -> is_first req = true ->
  let '(st1, o1) := sstep T st (SBegin id req) in
  let '(st2, o2) := sstep T st1 (SFinish id rendering) in
  let '(s', calls, res) := render_to_pipe T (s_now st) (s_res st) req rendering in
  o1 = SOBegin calls /\ o2 = SOFinish (Some res) (snd (rsizes s')) /\ s_res st2 = s' /\ s_now st2 = s_now st.
Proof. exact atomic_schedule_is_request. Qed.
Print Assumptions C06_atomic_schedule_is_request.
(* ... and under overlap (3302d9e: only the builder started last for its key may store / evict) the stored rendering of a key is the one
   returned by the handler of the LATEST begun rendering request of that key: invariant over every schedule history ... *)
Theorem C06_schedule_inv : forall T es, Forall wf_sevent es ->
  sinv (fst (srun_state T sstate_init sghost_init es)) (snd (srun_state T sstate_init sghost_init es)).
Proof. intros T es F. exact (srun_state_inv T es sstate_init sghost_init F sinv_init). Qed.
Print Assumptions C06_schedule_inv.
(* ... so a later block, requested while no builder of its key is pending as the latest one, is answered 4.08 or is the exact slice of
   the rendering [Rn] that the handler of request [i] returned, [i] being the latest begun rendering request of the key *)
Theorem C06_schedule_later_block_latest : forall T st g req b2, sinv st g ->
  m_block1 req = None -> m_block2 req = Some b2 -> b_num b2 <> 0 -> marker st (extract_block_key req) = None ->
  match snd (sstep T st (SLater req)) with
  | SOLater calls res _ =>
    calls = [] /\
    (res = incomplete_resp \/
     exists i Rn, sg_fin g (extract_block_key req) = Some (i, Rn) /\ sg_latest g (extract_block_key req) = Some i /\
       res = if b2_start (b_szx b2) (b_num b2) >=? blen (p_payload Rn) then bad_request_resp txt_out_of_bounds
             else slice_resp Rn (b_num b2) (b_szx b2) (m_mps req))
  | _ => False
  end.
Proof.
  intros T st g req b2 I H1 H2 Hn Mn. cbn [sstep]. rewrite (rtp_later T (s_now st) (s_res st) req _ b2 H1 H2 Hn).
  destruct (kget (extract_block_key req) (block2 (s_res st))) as [Rn|] eqn:Hg; (split; [reflexivity|]); [right|left; reflexivity].
  destruct (sinv_stored st g _ Rn I Mn Hg) as (i & Fi & Li). exists i, Rn. repeat split; assumption.
Qed.
Print Assumptions C06_schedule_later_block_latest.
(* the scenario of the former finding C06:overlap-older-rendering-served: request 1 starts rendering, request 2 of the same key starts
   and returns, then request 1 returns (answered from its own rendering, which is NOT stored); block 1 is a slice of rendering 2 *)
Example C06_overlapping_renderings_latest :
  let q := get_req {| b_num := 0; b_more := false; b_szx := 0 |} in
  let es := [SBegin 1 (q 1); SBegin 2 (q 2); SFinish 2 (rend 2); SFinish 1 (rend 1);
             SLater (get_req {| b_num := 1; b_more := false; b_szx := 0 |} 3)] in
  match srun MAX_TRANSMIT_WAIT_us sstate_init es with
  | [SOBegin [_]; SOBegin [_]; SOFinish (Some r2) 1; SOFinish (Some r1) 1; SOLater [] r3 1] =>
      p_payload r2 = bslice (mk_body 2 100) 0 16 /\ p_payload r1 = bslice (mk_body 1 100) 0 16 /\
      p_payload r3 = bslice (mk_body 2 100) 16 32 /\ p_payload r3 <> bslice (mk_body 1 100) 16 32
  | _ => False
  end.
Proof. vm_compute. repeat split. discriminate. Qed.

(* ---- the scenario of the former finding C06:block2-stale-rendering (corpus/C06/stale.json): after a
   block-0 request that is answered whole, a NUM>0 request gets 4.08 and nothing is kept *)
Example C06_block2_after_whole_answer :
  let es := [Request 0 (get_req {| b_num := 0; b_more := false; b_szx := 0 |} 1) (rend 1);
             Request 0 (get_req {| b_num := 2; b_more := false; b_szx := 0 |} 2) (rend 2);
             Request 0 (get_req {| b_num := 0; b_more := false; b_szx := 6 |} 3) (rend 3);
             Request 0 (get_req {| b_num := 2; b_more := false; b_szx := 0 |} 4) (rend 4)] in
  match snd (run MAX_TRANSMIT_WAIT_us (server_init 1) es) with
  | [ORequest [_] r1 0 1; ORequest [] r2 0 1; ORequest [_] r3 0 0; ORequest [] r4 0 0] =>
      p_payload r2 = bslice (mk_body 1 100) 32 48 /\ p_block2 r3 = None /\ p_payload r3 = mk_body 3 100 /\ r4 = incomplete_resp
  | _ => False
  end.
Proof. vm_compute. repeat split. Qed.

(* ---- non-vacuity *)
Example C06_wf_nonvacuous : wf_req (put_req {| b_num := 0; b_more := true; b_szx := 0 |} (mk_body 0 16) 1) /\
  reachable 93 (server_init 2) ghost_init /\ server_inv ghost_init (server_init 2).
Proof.
  split; [reflexivity|]. split; [|apply server_inv_init].
  exists 2%nat, []. split; [constructor|]. split; reflexivity.
Qed.
(* blocks 0,1 in order -> 2.31, then the handler sees the 21-byte concatenation; a gap -> 4.08; a wrong
   size -> 4.00; after 2*MAX_TRANSMIT_WAIT the assembly is gone and a continuation gets 4.08.
   Size1 (NoCacheKey) differs between the blocks without splitting the transfer. *)
Example C06_scenario :
  let es := [Request 0 (put_req {| b_num := 0; b_more := true; b_szx := 0 |} (mk_body 0 16) 1) (rend 0);
             Request 0 (put_req {| b_num := 2; b_more := false; b_szx := 0 |} (mk_body 9 5) 2) (rend 0);
             Request 0 (put_req {| b_num := 1; b_more := true; b_szx := 0 |} (mk_body 9 15) 3) (rend 0);
             Request 0 (put_req {| b_num := 1; b_more := false; b_szx := 0 |} (mk_body 16 5) 4) (rend 0);
             Advance (2 * MAX_TRANSMIT_WAIT_us);
             Request 0 (put_req {| b_num := 2; b_more := false; b_szx := 0 |} (mk_body 9 5) 5) (rend 0)] in
  match snd (run MAX_TRANSMIT_WAIT_us (server_init 1) es) with
  | [ORequest [] r1 1 0; ORequest [] r2 1 0; ORequest [] r3 1 0; ORequest [c] r4 0 0; OAdvance [(0, 0)]; ORequest [] r6 0 0] =>
      p_code r1 = CONTINUE /\ p_code r2 = REQUEST_ENTITY_INCOMPLETE /\ p_code r3 = BAD_REQUEST /\ p_code r4 = 69 /\
      m_payload c = mk_body 0 16 ++ mk_body 16 5 /\ m_id c = 4 /\ p_code r6 = REQUEST_ENTITY_INCOMPLETE
  | _ => False
  end.
Proof. vm_compute. repeat split. Qed.

(* (section 5) a rejected continuation is a use: block 0 at 0, a gap (4.08) at T-1, and block 1 at 2T-2 — more than T after block 0,
   less than T after the rejected block — is still appended (2.31); the ghost records T-1 resp. 2T-2 as last use;
   after 2T more idle time a continuation gets 4.08 *)
Example C06_rejected_continuation_is_a_use :
  let T := MAX_TRANSMIT_WAIT_us in
  let r0 := put_req {| b_num := 0; b_more := true; b_szx := 0 |} (mk_body 0 16) 1 in
  let es := [Request 0 r0 (rend 0); Advance (T - 1);
             Request 0 (put_req {| b_num := 2; b_more := true; b_szx := 0 |} (mk_body 9 16) 2) (rend 0)] in
  let es2 := es ++ [Advance (T - 1); Request 0 (put_req {| b_num := 1; b_more := true; b_szx := 0 |} (mk_body 9 16) 3) (rend 0)] in
  let es3 := es2 ++ [Advance (2 * T); Request 0 (put_req {| b_num := 2; b_more := true; b_szx := 0 |} (mk_body 9 16) 4) (rend 0)] in
  l_asm (run_last T (server_init 1) lghost_init es) 0%nat (extract_block_key r0) = Some (T - 1) /\
  l_asm (run_last T (server_init 1) lghost_init es2) 0%nat (extract_block_key r0) = Some (2 * T - 2) /\
  match snd (run T (server_init 1) es3) with
  | [ORequest [] r1 1 0; OAdvance _; ORequest [] r2 1 0; OAdvance [(1, 0)]; ORequest [] r3 1 0; OAdvance [(0, 0)]; ORequest [] r4 0 0] =>
      p_code r1 = CONTINUE /\ r2 = incomplete_resp /\ p_code r3 = CONTINUE /\ r4 = incomplete_resp
  | _ => False
  end /\
  reachable_life T (fst (run T (server_init 1) es)) (run_ghost T (server_init 1) ghost_init es) (run_last T (server_init 1) lghost_init es).
Proof.
  cbn zeta. split; [vm_compute; reflexivity|]. split; [vm_compute; reflexivity|]. split; [vm_compute; repeat split|].
  exists 1%nat. eexists. split; [|split; [|split; [reflexivity|split; reflexivity]]].
  - repeat constructor.
  - repeat constructor; vm_compute; discriminate.
Qed.
