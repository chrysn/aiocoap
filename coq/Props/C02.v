(* C02 — a response reaches exactly the request it answers; every request completes once. *)
From Verif Require Import Lib.Py Lib.Tactics Gen.tokenmanager_next_token Model.C02 Proofs.C02 Proofs.C02Once Proofs.C02Origin Proofs.C02Inv Proofs.C02Safe Proofs.C02R6 Proofs.C02R7.
Open Scope Z_scope.

(* ==== tokens *)
(* ---- tokens (over next_token as translated from tokenmanager.py on this run) *)
Theorem C02_next_token_spec : forall t,
  next_token t = Ok ({| tm_token := (tm_token t + 1) mod 2 ^ 64 |}, tokbytes ((tm_token t + 1) mod 2 ^ 64)).
Proof. exact next_token_spec. Qed.
Print Assumptions C02_next_token_spec.
Theorem C02_token_injective : forall a b, 0 <= a < 2 ^ 64 -> 0 <= b < 2 ^ 64 -> tokbytes a = tokbytes b -> a = b.
Proof. exact token_injective. Qed.
Print Assumptions C02_token_injective.
(* the token handed out d calls later (0 < d < 2^64) differs *)
Theorem C02_tokens_distinct : forall t d, 0 <= t < 2 ^ 64 -> 0 < d < 2 ^ 64 -> tokbytes ((t + d) mod 2 ^ 64) <> tokbytes t.
Proof. exact tokens_distinct. Qed.
Print Assumptions C02_tokens_distinct.
(* ---- tokens handed out by two calls of next_token fewer than 2^64 apart differ *)
Theorem C02_tokens_of_calls_distinct : forall t i j, 0 <= tm_token t < 2 ^ 64 -> (i < j)%nat -> Z.of_nat j - Z.of_nat i < 2 ^ 64 ->
  tokbytes (tm_token (next_token_n i t)) <> tokbytes (tm_token (next_token_n j t)).
Proof. intros t i j Ht Hij Hd E. rewrite !next_token_n_val in E by exact Ht. apply tokbytes_mod_inj in E; lia. Qed.
Print Assumptions C02_tokens_of_calls_distinct.

(* ---- table level: in every state reachable with at most 2^64 events, the TOKENS of all outstanding requests are
   pairwise different (a fortiori their (token, remote) keys towards one endpoint): a new request never reuses the token
   of, nor overwrites the entry of, a request that is still outstanding. Over next_token as translated on this run. *)
Theorem C02_outstanding_tokens_distinct : forall t m a es og, 0 <= t < 2 ^ 64 -> Z.of_nat (length es) <= 2 ^ 64 ->
  outgoing (fst (run (init t m a) es)) = Some og -> NoDup (map (fun e => fst (fst e)) og).
Proof. exact outstanding_tokens_distinct. Qed.
Print Assumptions C02_outstanding_tokens_distinct.
(* token uniqueness over time: from EVERY state, along EVERY list of at most 2^64 events, the tokens handed out
   (the Token outputs, in order) are pairwise different; a token handed out during es1 is not handed out again during es2; one step hands out at most one *)
Theorem C02_run_tokens_unique : forall s es, Z.of_nat (length es) <= 2 ^ 64 -> NoDup (toks (concat (snd (run s es)))).
Proof. exact run_tokens_unique. Qed.
Print Assumptions C02_run_tokens_unique.
Theorem C02_token_not_reissued : forall s es1 es2 q1 q2 tok o1 o2, Z.of_nat (length (es1 ++ es2)) <= 2 ^ 64 ->
  In o1 (snd (run s es1)) -> In (Token q1 tok) o1 ->
  In o2 (snd (run (fst (run s es1)) es2)) -> In (Token q2 tok) o2 -> False.
Proof.
  intros s es1 es2 q1 q2 tok o1 o2 Hn H1 T1 H2 T2. pose proof (run_tokens_unique s (es1 ++ es2) Hn) as N.
  rewrite run_app in N. cbn [snd] in N. rewrite concat_app, toks_app in N.
  eapply (nodup_app_disj _ _ tok N); eapply toks_in; apply in_concat; eexists; split; eassumption.
Qed.
Print Assumptions C02_token_not_reissued.
Theorem C02_step_one_token : forall s e, (length (toks (snd (step s e))) <= 1)%nat.
Proof. intros s e. destruct (step s e) as [s' o] eqn:S. apply step_toks in S. cbn [snd]. destruct S as [[_ ->]|[_ ->]]; cbn; lia. Qed.
Print Assumptions C02_step_one_token.
(* the tie between the table and the tokens on the wire: every entry (tok, _) -> q of the final table was in the initial table, or
   `Token q tok` was emitted in some step of the run (from `init` the table is empty, so the second alternative holds) *)
Theorem C02_entry_token_emitted : forall es s og' k q, outgoing (fst (run s es)) = Some og' -> In (k, q) og' ->
  (exists og, outgoing s = Some og /\ In (k, q) og) \/ exists o, In o (snd (run s es)) /\ In (Token q (fst k)) o.
Proof.
  intros es s og' k q E Hin. destruct (run s es) as [s' os] eqn:R.
  apply (run_closed ent_step ent_closed) in R; [|intros s0 e; apply (step_closed e); [exact ent_closed|apply prim_ent|apply app_ent]].
  destruct (R _ _ _ E Hin) as [B|T]; [left; exact B|right]. apply in_concat in T. destruct T as (o & H1 & H2). exists o. split; assumption.
Qed.
Print Assumptions C02_entry_token_emitted.

(* ==== table invariant *)
(* ---- the table invariant holds in every reachable state ... *)
Theorem C02_reachable_inv : forall t m a es, Inv (fst (run (init t m a) es)).
Proof. intros. destruct (run (init t m a) es) eqn:R. eapply run_inv; [|exact R]. intros k q []. Qed.
Print Assumptions C02_reachable_inv.
Theorem C02_step_inv : forall s e s' o, Inv s -> step s e = (s', o) -> Inv s'.
Proof. exact step_inv. Qed.
Print Assumptions C02_step_inv.
(* ... so the request a response is matched to is still outstanding (waiting for its first response, or an
   observation that got one) and was sent to the endpoint the response comes from, or to a multicast address *)
Theorem C02_matched_is_outstanding : forall s og tok r q, Inv s -> outgoing s = Some og -> matching og tok r = Some q ->
  exists c, get_req s q = Some c /\ live c /\ (cq_remote c = r \/ is_multicast (cq_remote c) = true).
Proof. intros s og tok r q HI Hog M. destruct (matching_In _ _ _ _ M) as (k & L & _ & Hs). eapply entry_outstanding; eassumption. Qed.
Print Assumptions C02_matched_is_outstanding.
(* ... and a request that failed, was cancelled, or (not an observation) got its response is retired: a later
   response carrying its token is never matched to it (C02_unmatched_con_rst then gives the Reset) *)
Theorem C02_retired_unmatched : forall s og q c tok r, Inv s -> outgoing s = Some og -> get_req s q = Some c -> retired c ->
  matching og tok r <> Some q.
Proof.
  intros s og q c tok r HI Hog G R M. destruct (matching_In _ _ _ _ M) as (k & L & _).
  apply alookup_In in L; [|exact key_eqb_spec]. eapply retired_not_in_table; eauto.
Qed.
Print Assumptions C02_retired_unmatched.

(* ==== delivery and replies *)
(* ---- in EVERY state, a datagram hands a response to the application only as the result / notification of the
   request registered under (token, source endpoint) -- or under (token, None), the entry of a request sent to a
   multicast address, the one case where the source is not compared -- and it is that very datagram *)
(* (side condition for piggy-backed responses only: the ACK first ends an exchange, which may release a backlogged
   request; if the transport refuses THAT transmission synchronously the error fan-out runs before the table is
   consulted -- the statement is then about the table as it is at that moment, see C02_reachable_inv) *)
Theorem C02_deliver_only_matching : forall s r mcl w s' outs o,
  (w_mtype w = ACK -> refuses s r = false) ->
  dispatch_message s r mcl w = (s', outs) -> In o outs -> is_delivery o = true ->
  exists og q, outgoing s = Some og /\ matching og (w_token w) r = Some q /\
    (o = SetResult q (w_rid w) (w_token w) r \/ o = Notify q (w_rid w) (w_token w) r) /\
    is_response (w_code w) = true /\ w_mtype w <> RST.
Proof. exact deliver_only_matching. Qed.
Print Assumptions C02_deliver_only_matching.
(* ---- C02_deliver_only_matching without its side condition: whatever the message layer did before the table was consulted
   (it only removes entries), the request had an entry under the datagram's token and (its source endpoint or None) BEFORE the datagram *)
Theorem C02_deliver_only_matching_gen : forall s r mcl w s' outs o og, outgoing s = Some og ->
  dispatch_message s r mcl w = (s', outs) -> In o outs -> is_delivery o = true ->
  exists q k, alookup key_eqb k og = Some q /\ fst k = w_token w /\ (snd k = Some r \/ snd k = None) /\
    (o = SetResult q (w_rid w) (w_token w) r \/ o = Notify q (w_rid w) (w_token w) r) /\
    is_response (w_code w) = true /\ w_mtype w <> RST.
Proof. exact deliver_only_matching_gen. Qed.
Print Assumptions C02_deliver_only_matching_gen.
(* ---- the delivery clause in one statement over every state with the invariant (all reachable ones: C02_reachable_inv) *)
Theorem C02_run_delivery : forall s e s' o x q rid tok from, Inv s -> event_wf e -> step s e = (s', o) -> In x o ->
  (x = SetResult q rid tok from \/ x = Notify q rid tok from) ->
  exists mcl w og k c, e = Recv from mcl w /\ rid = w_rid w /\ tok = w_token w /\ outgoing s = Some og /\
    alookup key_eqb k og = Some q /\ fst k = tok /\ (snd k = Some from \/ snd k = None) /\
    get_req s q = Some c /\ live c /\ (cq_remote c = from \/ is_multicast (cq_remote c) = true).
Proof. exact run_delivery. Qed.
Print Assumptions C02_run_delivery.
(* ---- a matching response to a pending request IS delivered (separate CON / NON response: whatever the transport does;
   piggy-backed: while the transport accepts datagrams for r and the ACK's own message-layer processing does not raise) *)
Theorem C02_matching_delivered : forall s r mcl w og q c, Inv s -> outgoing s = Some og ->
  is_response (w_code w) = true -> (w_mtype w = CON \/ w_mtype w = NON) ->
  matching og (w_token w) r = Some q -> get_req s q = Some c -> cq_fut c = FPending ->
  In (SetResult q (w_rid w) (w_token w) r) (snd (dispatch_message s r mcl w)).
Proof. exact matching_delivered. Qed.
Print Assumptions C02_matching_delivered.
Theorem C02_matching_delivered_piggybacked : forall s r mcl w og q c, Inv s -> outgoing s = Some og -> refuses s r = false ->
  is_response (w_code w) = true -> w_mtype w = ACK -> snd (_remove_exchange s r w) = false ->
  matching og (w_token w) r = Some q -> get_req s q = Some c -> cq_fut c = FPending ->
  In (SetResult q (w_rid w) (w_token w) r) (snd (dispatch_message s r mcl w)).
Proof. exact matching_delivered_ack. Qed.
Print Assumptions C02_matching_delivered_piggybacked.
(* ---- unknown / retired token or other endpoint: nothing changes, nothing is delivered; a CON is answered with
   exactly one RST (none when it was received on a multicast address), a NON with nothing *)
Theorem C02_unmatched_con_rst_general : forall s r mcl w og, outgoing s = Some og ->
  is_response (w_code w) = true -> w_mtype w = CON -> matching og (w_token w) r = None ->
  dispatch_message s r mcl w = if mcl then (s, []) else _send_via_transport s r (empty_msg RST (w_mid w)).
Proof. exact unmatched_con_rst_general. Qed.
Print Assumptions C02_unmatched_con_rst_general.
(* ... which, unless the transport refuses datagrams for r at that moment, is exactly one RST on the wire *)
Theorem C02_unmatched_con_rst : forall s r mcl w og, outgoing s = Some og -> refuses s r = false ->
  is_response (w_code w) = true -> w_mtype w = CON -> matching og (w_token w) r = None ->
  dispatch_message s r mcl w = (s, if mcl then [] else [Send r RST EMPTY (w_mid w) [] None]).
Proof.
  intros s r mcl w og Hog Hr Hresp Hcon M. rewrite (unmatched_con_rst_general s r mcl w og Hog Hresp Hcon M).
  destruct mcl; [reflexivity|]. unfold _send_via_transport. rewrite Hr. reflexivity.
Qed.
Print Assumptions C02_unmatched_con_rst.
Theorem C02_unmatched_non_silent : forall s r mcl w og, outgoing s = Some og ->
  is_response (w_code w) = true -> w_mtype w = NON -> matching og (w_token w) r = None ->
  dispatch_message s r mcl w = (s, []).
Proof.
  intros s r mcl w og Hog Hresp Hcon M. dm_head Hcon Hresp.
  rewrite (process_response_spec s r w og Hog), M. reflexivity.
Qed.
Print Assumptions C02_unmatched_non_silent.
Theorem C02_unmatched_ack_only_ends_exchange : forall s r mcl w og, outgoing s = Some og ->
  is_response (w_code w) = true -> w_mtype w = ACK -> matching og (w_token w) r = None ->
  dispatch_message s r mcl w = fst (_remove_exchange s r w).
Proof. exact unmatched_ack. Qed.
Print Assumptions C02_unmatched_ack_only_ends_exchange.
Theorem C02_matched_con_acked : forall s r mcl w og q, outgoing s = Some og -> refuses s r = false ->
  is_response (w_code w) = true -> w_mtype w = CON -> matching og (w_token w) r = Some q ->
  exists s' o, dispatch_message s r mcl w = (s', o ++ [Send r ACK EMPTY (w_mid w) [] None]) /\
               Forall (fun x => is_send x = false) o.
Proof. exact matched_con_acked. Qed.
Print Assumptions C02_matched_con_acked.

(* ==== completion *)
(* ---- every request completes at most once: over ALL event lists (requests, datagrams with any loss / duplication /
   reordering / forgery pattern, timers, transport errors, cancellations, shutdown) from ANY state, the outputs contain
   at most one of SetResult / SetException / Cancelled per request id *)
Theorem C02_complete_at_most_once : forall es s q, (ncomp q (concat (snd (run s es))) <= 1)%nat.
Proof.
  intros es s q. destruct (run s es) as [s' os] eqn:R. pose proof (run_budget _ _ _ _ R q) as B. cbn [snd].
  assert (pend s q <= 1)%nat by (unfold pend, fpend; destruct (get_req s q) as [c|]; [destruct (cq_fut c)|]; auto). lia.
Qed.
Print Assumptions C02_complete_at_most_once.
Theorem C02_completed_stays_completed : forall es s q c, get_req s q = Some c -> cq_fut c <> FPending ->
  ncomp q (concat (snd (run s es))) = 0%nat.
Proof.
  intros es s q c G F. destruct (run s es) as [s' os] eqn:R. pose proof (run_budget _ _ _ _ R q) as B. cbn [snd].
  unfold pend in B at 2. rewrite G in B. unfold fpend in B. destruct (cq_fut c); try contradiction; lia.
Qed.
Print Assumptions C02_completed_stays_completed.
(* ---- what a request completes with: an exception is always one of the library's error classes (LibraryShutdown,
   NetworkError and its subclasses ConRetransmitsExceeded / MessageError, ConToMulticast raised by send_message);
   a result or notification is only ever the datagram being processed, with its token and source *)
Theorem C02_completion_kinds : forall s e s' o x, step s e = (s', o) -> event_wf e -> In x o ->
  match x with
  | SetException q err => lib_error err = true
  | SetResult q rid tok from => exists mcl w, e = Recv from mcl w /\ rid = w_rid w /\ tok = w_token w
  | Notify q rid tok from => exists mcl w, e = Recv from mcl w /\ rid = w_rid w /\ tok = w_token w
  | _ => True
  end.
Proof. exact completion_kinds. Qed.
Print Assumptions C02_completion_kinds.

(* ==== failures *)
(* ---- a transport error for remote r fails, in that very step, every still-pending request registered for r --
   whatever else is outstanding (entries of multicast requests, keyed (token, None), are skipped:
   `None == <udp6 address>` is False, udp6.py:149-153); the give-up of a CON exchange is the same dispatch with
   ConRetransmitsExceeded *)
Theorem C02_transport_error_fails : forall s og r kind tok q c, Inv s -> outgoing s = Some og -> exchanges s <> None ->
  In ((tok, Some r), q) og -> get_req s q = Some c -> cq_fut c = FPending ->
  In (SetException q (wrap_error kind)) (snd (mm_dispatch_error s kind r)).
Proof. exact transport_error_fails. Qed.
Print Assumptions C02_transport_error_fails.
Theorem C02_giveup_fails : forall s og r tok q c, Inv s -> outgoing s = Some og ->
  In ((tok, Some r), q) og -> get_req s q = Some c -> cq_fut c = FPending ->
  In (SetException q ConRetransmitsExceeded) (snd (tm_dispatch_error s (ENet ConRetransmitsExceeded) r)).
Proof. intros s og r. exact (tm_dispatch_error_fails s og r (ENet ConRetransmitsExceeded)). Qed.
Print Assumptions C02_giveup_fails.
(* the script of corpus/C02/multicast-key-regression.json: with a multicast request outstanding,
   the error for remote 0 fails request 1 with NetworkError and leaves the multicast request registered; likewise
   the fifth timer firing fails it with ConRetransmitsExceeded *)
Example C02_transport_error_with_multicast_pending :
  let r := run (init 5 10 2000000) [Request 0 100 None false; Request 1 0 (Some 0) false; Err 0 EOs] in
  nth 2 (snd r) [] = [SetException 1 NetworkError] /\ outgoing (fst r) = Some [(([6], None), 0)].
Proof. vm_compute. split; reflexivity. Qed.
Example C02_giveup_with_multicast_pending :
  let r := run (init 5 10 2000000) [Request 0 100 None false; Request 1 0 (Some 0) false; Fire; Fire; Fire; Fire; Fire] in
  nth 6 (snd r) [] = [SetException 1 ConRetransmitsExceeded] /\ outgoing (fst r) = Some [(([6], None), 0)] /\ now (fst r) = 62000000.
Proof. vm_compute. repeat split; reflexivity. Qed.
(* ---- datagram loss: the timer step itself (not only the helper of C02_giveup_fails) fails every pending request of the remote
   whose exchange has used up its retransmissions *)
Theorem C02_fire_giveup_fails : forall s ex r mid e og tok q c, Inv s -> exchanges s = Some ex ->
  next_timer ex None = Some ((r, mid), e) -> alookup rm_eqb (r, mid) ex = Some e -> (ex_counter e <? 4) = false ->
  amem Z.eqb r (backlogs s) = true ->
  outgoing s = Some og -> In ((tok, Some r), q) og -> get_req s q = Some c -> cq_fut c = FPending ->
  In (SetException q ConRetransmitsExceeded) (snd (step s Fire)).
Proof. exact fire_giveup_fails. Qed.
Print Assumptions C02_fire_giveup_fails.
(* ---- a transport that refuses the datagram synchronously (udp6: sendmsg fails -> error_received -> dispatch_error, all
   from INSIDE send_message): the request being sent is failed with NetworkError in the very step in which it is issued.
   This is what registering the request BEFORE calling send_message guarantees (a request registered afterwards would
   be missed by the fan-out and stay pending for ever). Side condition: the request is actually handed to the
   transport (NON, or CON with no exchange/backlog to r in front of it), and r is not a multicast address. *)
Theorem C02_refused_request_fails : forall s q r mt obs og,
  Inv s -> get_req s q = None -> outgoing s = Some og -> exchanges s <> None ->
  refuses s r = true -> is_multicast r = false ->
  (eff_mtype mt = CON -> amem Z.eqb r (backlogs s) = false) ->
  In (SetException q NetworkError) (snd (new_request s q r mt obs)).
Proof. exact refused_request_fails. Qed.
Print Assumptions C02_refused_request_fails.
(* the refused transmission also fails the OTHER outstanding requests to that remote (pending NON, queued CONs), once each *)
Example C02_refused_request_with_others_pending :
  snd (run (init 5 10 2000000) [Request 0 0 (Some 1) false; Request 1 0 (Some 0) false; Request 2 0 (Some 0) false;
                                Refuse 0 true; Request 3 0 (Some 1) false; Refuse 0 false;
                                Recv 0 false {| w_mtype := 1; w_code := 69; w_mid := 7; w_token := [9]; w_observe := None; w_rid := 1 |}])
  = [[Token 0 [6]; Send 0 1 1 10 [6] None]; [Token 1 [7]; Send 0 0 1 11 [7] None]; [Token 2 [8]]; [];
     [Token 3 [9]; SetException 0 NetworkError; SetException 1 NetworkError; SetException 2 NetworkError; SetException 3 NetworkError];
     []; []].
Proof. vm_compute. reflexivity. Qed.
(* ---- shutdown fails, in the Shutdown step itself, every registered request whose future is still pending, and
   closes both tables; a request issued afterwards fails at once *)
Theorem C02_shutdown_fails_all : forall s og k q c, Inv s -> outgoing s = Some og -> alookup key_eqb k og = Some q ->
  get_req s q = Some c -> cq_fut c = FPending ->
  In (SetException q LibraryShutdown) (snd (shutdown s)) /\ outgoing (fst (shutdown s)) = None /\ exchanges (fst (shutdown s)) = None.
Proof.
  intros s og k q c HI Hog L G Hf. unfold shutdown. rewrite Hog.
  pose proof (shutdown_loop_delivers (length og) s og k q c HI Hog (le_n _) L G Hf) as H.
  destruct (tm_shutdown_loop (length og) s) as [s1 o1]. cbn. repeat split. exact H.
Qed.
Print Assumptions C02_shutdown_fails_all.
Theorem C02_request_after_shutdown : forall s q r mt obs, outgoing s = None -> get_req s q = None ->
  In (SetException q LibraryShutdown) (snd (new_request s q r mt obs)).
Proof. exact request_after_shutdown. Qed.
Print Assumptions C02_request_after_shutdown.
(* ---- a Reset for the exchange of a CON request that still waits for its response fails it with MessageError *)
Theorem C02_reset_fails : forall s r mcl w ex e c rest, exchanges s = Some ex -> alookup rm_eqb (r, w_mid w) ex = Some e ->
  w_mtype w = RST -> is_request (w_code w) = false -> get_req s (ex_monitor e) = Some c ->
  cq_cbs c = Some (CbProcess :: rest) -> cq_runner c = AwaitFirst -> cq_fut c = FPending ->
  In (SetException (ex_monitor e) MessageError) (snd (dispatch_message s r mcl w)).
Proof. exact reset_fails. Qed.
Print Assumptions C02_reset_fails.

(* ==== nothing escapes *)
(* ---- "completes at most once" has content: in Python a second set_result / set_exception on the response future raises
   InvalidStateError; the model renders that branch (and every other branch it marks as unreachable) as the output [Crash _],
   which C02_complete_at_most_once does not count. From the initial state, for every event list of client-side events (no
   request codes in incoming datagrams: the server side is outside this model), no Crash is ever produced. *)
Theorem C02_no_second_completion : forall t m a es x, Forall ev_client es ->
  In x (concat (snd (run (init t m a) es))) -> nocrash x.
Proof. intros t m a es x Hc Hin. pose proof (no_crash_no_escape t m a es x Hc Hin) as C. destruct x; try exact I. exact C. Qed.
Print Assumptions C02_no_second_completion.
(* ---- ... and no exception ever ESCAPES the library into the transport or the event loop (the model's Raised / LoopExc
   outputs: KeyError / AssertionError branches of _retransmit / _continue_backlog), by the message-layer invariant MLInv: every
   exchange's remote has a backlog entry and there is at most one exchange per remote, in every reachable state *)
Theorem C02_reachable_mlinv : forall t m a es, Forall ev_client es -> MLInv (fst (run (init t m a) es)).
Proof. intros. destruct (run (init t m a) es) eqn:R. eapply run_clean in R; [apply R|assumption]. Qed.
Print Assumptions C02_reachable_mlinv.
Theorem C02_no_crash_no_escape : forall t m a es x, Forall ev_client es ->
  In x (concat (snd (run (init t m a) es))) -> clean x.
Proof. exact no_crash_no_escape. Qed.
Print Assumptions C02_no_crash_no_escape.
(* with MLInv the side conditions of C02_fire_giveup_fails (the fired exchange is the one looked up; its remote has a backlog entry)
   and of C02_matching_delivered_piggybacked (_remove_exchange does not raise) are consequences of reachability *)
Theorem C02_fire_giveup_fails_reachable : forall s ex r mid e og tok q c, Inv s -> MLInv s -> exchanges s = Some ex ->
  next_timer ex None = Some ((r, mid), e) -> (ex_counter e <? 4) = false ->
  outgoing s = Some og -> In ((tok, Some r), q) og -> get_req s q = Some c -> cq_fut c = FPending ->
  In (SetException q ConRetransmitsExceeded) (snd (step s Fire)).
Proof. exact fire_giveup_fails_ml. Qed.
Print Assumptions C02_fire_giveup_fails_reachable.
Theorem C02_matching_delivered_piggybacked_reachable : forall s r mcl w og q c, Inv s -> MLInv s -> outgoing s = Some og -> refuses s r = false ->
  is_response (w_code w) = true -> w_mtype w = ACK ->
  matching og (w_token w) r = Some q -> get_req s q = Some c -> cq_fut c = FPending ->
  In (SetResult q (w_rid w) (w_token w) r) (snd (dispatch_message s r mcl w)).
Proof.
  intros s r mcl w og q c HI HM Hog Href Hresp Ht M G Hf. eapply matching_delivered_ack; eauto.
  destruct (_remove_exchange s r w) as [[s1 o1] x1] eqn:RE. cbn [snd].
  eapply (remove_exchange_ml (fun _ => True) (fun _ => True)) in RE; [apply RE| | | |split; [exact I|exact HM]]; auto.
  intros. split; [exact I|]. apply Forall_forall. auto.
Qed.
Print Assumptions C02_matching_delivered_piggybacked_reachable.

(* ==== cancelled observations *)
(* ---- in EVERY state, a datagram never produces a notification for an observation whose `cancelled` flag is set
   (by the application or by an earlier error); the flag is never reset *)
Theorem C02_cancelled_obs_silent : forall s r mcl w q c o, get_req s q = Some c -> cq_obs_cancelled c = true ->
  In o (snd (dispatch_message s r mcl w)) -> forall rid tok from, o <> Notify q rid tok from.
Proof.
  intros s r mcl w q c o G F Hin. destruct (dispatch_message s r mcl w) as [s' os] eqn:D.
  apply (dispatch_message_acts (fun _ _ => True)) in D; try (intros; exact I).
  apply (acts_closed _ (cok q) (keeping_closed _ _) (prim_canc q _)) in D. destruct D as [_ D]; [exists c; split; assumption|].
  rewrite Forall_forall in D. apply D. exact Hin.
Qed.
Print Assumptions C02_cancelled_obs_silent.
(* run-level form of C02_cancelled_obs_silent: in EVERY state, once the `cancelled` flag of observation q is set, no step of ANY event
   list produces a Notify for q, and the flag is still set at the end *)
Theorem C02_cancelled_obs_silent_run : forall s q c es, get_req s q = Some c -> cq_obs_cancelled c = true ->
  (forall os rid tok from, In os (snd (run s es)) -> ~ In (Notify q rid tok from) os) /\
  (exists c', get_req (fst (run s es)) q = Some c' /\ cq_obs_cancelled c' = true).
Proof.
  intros s q c es G F. destruct (run s es) as [s' os] eqn:R. apply (run_canc_all q) in R. destruct R as [R1 R2]; [exists c; split; assumption|].
  cbn [fst snd]. split; [|exact R1]. intros o rid tok from Hin Hn. rewrite Forall_forall in R2.
  eapply (R2 (Notify q rid tok from)); [apply in_concat; exists o; split; assumption|reflexivity].
Qed.
Print Assumptions C02_cancelled_obs_silent_run.
(* any history: from ANY state s0, after any events es1 that leave q a running observation, `ObsCancel q` silences q in all later steps es2 *)
Theorem C02_obs_cancel_silences_run : forall s0 es1 es2 q c v,
  get_req (fst (run s0 es1)) q = Some c -> cq_runner c = Observing v ->
  forall os rid tok from, In os (skipn (length es1) (snd (run s0 (es1 ++ ObsCancel q :: es2)))) -> ~ In (Notify q rid tok from) os.
Proof. exact obs_cancel_silences_run. Qed.
Print Assumptions C02_obs_cancel_silences_run.

(* ==== non-vacuity *)
(* ---- non-vacuity: the invariant and the hypotheses above are satisfied by concrete busy states *)
Example C02_nonvacuous_state :
  let s := fst (run (init 5 10 2000000) [Request 0 0 (Some 0) false; Request 1 0 (Some 0) true; Request 2 1 (Some 1) false;
                                          Recv 0 false {| w_mtype := 2; w_code := 69; w_mid := 10; w_token := [6]; w_observe := None; w_rid := 1 |}]) in
  Inv s /\ (exists og, outgoing s = Some og /\ In (([7], Some 0), 1) og /\ matching og [7] 0 = Some 1 /\ matching og [6] 0 = None /\ matching og [7] 1 = None) /\
  (exists c, get_req s 0 = Some c /\ retired c) /\ (exists c, get_req s 1 = Some c /\ cq_fut c = FPending) /\ exchanges s <> None.
Proof.
  split; [apply C02_reachable_inv|]. vm_compute. split.
  - eexists. split; [reflexivity|]. split; [left; reflexivity|repeat split].
  - split; [eexists; split; [reflexivity|right; right; split; [reflexivity|discriminate]]|].
    split; [eexists; split; reflexivity|discriminate].
Qed.
(* a script in which a response is delivered, forgeries are rejected with RST, and a retired token is rejected *)
Example C02_scenario :
  snd (run (init 5 10 2000000)
        [Request 0 0 (Some 0) false;
         Recv 1 false {| w_mtype := 0; w_code := 69; w_mid := 70; w_token := [6]; w_observe := None; w_rid := 1 |};   (* right token, wrong remote *)
         Recv 0 false {| w_mtype := 0; w_code := 69; w_mid := 71; w_token := [0; 6]; w_observe := None; w_rid := 2 |}; (* wrong token *)
         Recv 0 false {| w_mtype := 2; w_code := 69; w_mid := 10; w_token := [6]; w_observe := None; w_rid := 3 |};   (* the answer *)
         Recv 0 false {| w_mtype := 0; w_code := 69; w_mid := 72; w_token := [6]; w_observe := None; w_rid := 4 |}])  (* retired token *)
  = [[Token 0 [6]; Send 0 0 1 10 [6] None]; [Send 1 3 0 70 [] None]; [Send 0 3 0 71 [] None]; [SetResult 0 3 [6] 0]; [Send 0 3 0 72 [] None]].
Proof. vm_compute. reflexivity. Qed.
(* non-vacuity of the run-level statements (concrete histories: with / without ObsCancel; counter wrap-around; table vs. Token outputs) *)
Example C02_r7_nonvacuous_obs : skipn 3 (snd (run (init 5 10 2000000) (r7_pre ++ r7_post))) = [[Notify 0 3 [6] 0]; [Send 0 0 1 10 [6] (Some 0)]; [Notify 0 4 [6] 0]] /\
  skipn 3 (snd (run (init 5 10 2000000) (r7_pre ++ ObsCancel 0 :: r7_post))) = [[]; []; [Send 0 0 1 10 [6] (Some 0)]; []].
Proof. destruct r7_nonvacuous as (_ & _ & A & B & _). split; assumption. Qed.
Example C02_r7_nonvacuous_tokens : toks (concat (snd (run (init (2 ^ 64 - 2) 10 2000000) r7_tok_script))) = [[255; 255; 255; 255; 255; 255; 255; 255]; []; [1]].
Proof. exact (proj1 (proj2 r7_tokens_nonvacuous)). Qed.
