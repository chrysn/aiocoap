(* C13 — OSCORE nonces are never reused across restarts, crashes and exhaustion.
   The statements; each follows in a line or two from the lemmas of Proofs/C13*.v.
   [run w evs] executes an event list (Protect / Seq / Unprotect / CleanStop / Respond, each optionally with a crash after its
   k-th file-system effect; ProtectFails / UnprotectFails, where _store raises after k effects; Kill; Reload) on a
   world = live process state (or none) + disk state (Model/C13.v). *)
From Verif Require Import Lib.Py Lib.Tactics Gen.oscore_replay Model.C12 Model.C13 Proofs.C12 Proofs.C13 Proofs.C13replay Proofs.C13reuse Proofs.C13Kernel.
From Verif Require Gen.oscore_seqno Gen.oscore_rwchanged.
From Coq Require Import Sorted.
Open Scope Z_scope.

(* Over every event list — any number of lifetimes, a crash after any file-system effect of any operation, kills, clean
   stops, reloads with any non-negative chunk parameters — the numbers handed out, in the order they are handed out over
   the WHOLE history, strictly increase.  [SInv w hi]: every number issued before is < hi <= bound on disk. *)
Theorem C13_issued_strictly_increasing : forall w hi evs, SInv w hi -> Forall ev_ok evs ->
  StronglySorted Z.lt (issued (snd (run w evs))).
Proof. exact issued_strictly_increasing. Qed.
Print Assumptions C13_issued_strictly_increasing.

(* hence no sender sequence number is issued twice ... *)
Theorem C13_issued_nodup : forall w hi evs, SInv w hi -> Forall ev_ok evs -> NoDup (issued (snd (run w evs))).
Proof. exact issued_nodup. Qed.
Print Assumptions C13_issued_nodup.
(* ... starting from any content of the directory with no process running *)
Theorem C13_issued_nodup_from_any_disk : forall size seq evs, Forall ev_ok evs ->
  NoDup (issued (snd (run (initial_world size seq) evs))).
Proof. intros size seq evs H. eapply issued_nodup; [apply initial_sinv|exact H]. Qed.
Print Assumptions C13_issued_nodup_from_any_disk.
(* ... and no 5-byte Partial IV (the only varying nonce input under one key and sender ID) either *)
Theorem C13_nonces_nodup : forall w hi evs, SInv w hi -> 0 <= hi -> Forall ev_ok evs ->
  NoDup (map piv (issued (snd (run w evs)))).
Proof. exact nonces_nodup. Qed.
Print Assumptions C13_nonces_nodup.

(* the invariant behind it, at every point of every history: whatever has been handed out is below the "next-to-send"
   a reload would start from, so a crash at this very point cannot lead to a reissue *)
Theorem C13_issued_below_persisted : forall w hi evs, SInv w hi -> Forall ev_ok evs ->
  Forall (fun v => hi <= v < dbound (w_disk (fst (run w evs)))) (issued (snd (run w evs))).
Proof. exact issued_below_persisted. Qed.
Print Assumptions C13_issued_below_persisted.

(* exhaustion: at 2^40-1 protection is refused, nothing changes, and no number >= 2^40-1 is ever handed out *)
Theorem C13_exhaustion_refused : forall p d a, MAX_SEQNO <= ssn p ->
  new_sequence_number p d a = (p, d, Exn ContextUnavailable).
Proof. intros p d a H. rewrite nsn_cases. replace (ssn p >=? MAX_SEQNO) with true by lia. reflexivity. Qed.
Print Assumptions C13_exhaustion_refused.
Theorem C13_issued_below_max : forall w hi evs, SInv w hi -> Forall ev_ok evs ->
  Forall (fun v => v < 2 ^ 40 - 1) (issued (snd (run w evs))).
Proof. exact issued_below_max. Qed.
Print Assumptions C13_issued_below_max.

(* ---- persisted replay state ----
   [ROK w A]: the live window (if initialised) and the window a reload would read from sequence.json (unless that says
   "unknown"/null) both mark every number in A as seen.  [fresh_echo_run w [] evs]: whenever the window is uninitialised and
   a request carries this lifetime's Echo value, its number is above every number accepted before — what RFC 8613 B.1.2
   relies on: the Echo value cannot occur in a message created before this lifetime, and the peer's numbers increase. *)

(* over every history with crash points, clean stops and reloads, no request number is accepted twice *)
Theorem C13_accepted_nodup : forall w evs, ROK w [] -> Forall ev_ok2 evs -> fresh_echo_run w [] evs ->
  NoDup (accepted evs (snd (run w evs))).
Proof. intros w evs HR Hok Hfr. exact (proj2 (run_rok evs w [] HR Hok Hfr (NoDup_nil _))). Qed.
Print Assumptions C13_accepted_nodup.

(* stated on the input alone: if no request carries the Echo value of any lifetime (E = the values lifetimes may draw;
   recorded messages replayed after a restart are of this kind), then over every history nothing is accepted twice —
   "requests seen before the crash are not accepted again without a fresh Echo exchange" *)
Theorem C13_accepted_nodup_without_echo : forall (E : Z -> Prop) sz seq evs, 0 < sz -> disk_wf sz seq ->
  Forall ev_ok2 evs -> Forall (ev_noecho E) evs ->
  NoDup (accepted evs (snd (run (initial_world sz seq) evs))).
Proof.
  intros E sz seq evs Hs Hwf Hok Hne. apply C13_accepted_nodup; [apply initial_rok; assumption|exact Hok|].
  eapply noecho_fresh; [apply initial_rok; assumption|exact Hok|exact I|exact Hne].
Qed.
Print Assumptions C13_accepted_nodup_without_echo.

(* at the end of ANY history — e.g. directly after a crash at any file-system step, or after a clean stop — sequence.json
   either says unknown/null (the reloaded window is uninitialised) or holds a window rejecting every accepted number *)
Theorem C13_persisted_state_safe : forall w evs, ROK w [] -> Forall ev_ok2 evs -> fresh_echo_run w [] evs ->
  let w' := fst (run w evs) in
  match load_window (w_size w') (w_disk w') with
  | None => True
  | Some win => Inv win /\ rw_size win = w_size w' /\ forall n, In n (accepted evs (snd (run w evs))) -> seen win n = true
  end.
Proof. intros w evs HR Hok Hfr. destruct (run_rok evs w [] HR Hok Hfr (NoDup_nil _)) as ((_ & HD & _) & _). exact HD. Qed.
Print Assumptions C13_persisted_state_safe.

(* the context a Reload then builds satisfies C12's context invariant, has the fresh Echo value e, and is either
   uninitialised (C12_uninitialised_requires_echo / _never_accepts_without_echo apply: nothing is accepted without e) or
   has seen every accepted number (C12_seen_never_accepted applies: none of them is ever accepted again) *)
Theorem C13_reloaded_context_safe : forall w evs start lim e, ROK w [] -> Forall ev_ok2 evs -> fresh_echo_run w [] evs ->
  let w' := fst (run w evs) in
  let c := uc (load (w_size w') start lim e (fs_create_lock (w_disk w'))) in
  CtxInv c /\ echo_recovery c = Some e /\
  (window c = None \/ forall n, In n (accepted evs (snd (run w evs))) -> cseen c n).
Proof. exact reloaded_context_safe. Qed.
Print Assumptions C13_reloaded_context_safe.

(* unclean stop: an acceptance through the window check has already turned sequence.json to "unknown" when it returns,
   so a crash at any later point reloads an uninitialised window *)
Theorem C13_unclean_stop_unknown : forall sz p d a r A p' d', 0 < sz -> ProcOK sz p d A -> DiskOK sz d A -> 0 <= seqno r ->
  window (uc p) <> None -> unprotect p d a r = (p', d', Val Accept) ->
  load_window sz d' = None /\ wpers p' = false.
Proof.
  intros sz p d a r A p' d' _ (_ & _ & _ & Hrel) _ _. apply accept_writes_unknown. intros E. rewrite E in Hrel. exact Hrel.
Qed.
Print Assumptions C13_unclean_stop_unknown.

(* clean stop: the exact live window and the exact live counter are what the next lifetime starts from *)
Theorem C13_clean_stop_preserves : forall sz p d A d', 0 < sz -> ProcOK sz p d A -> DiskOK sz d A ->
  _destroy p d None = (d', false) ->
  load_window sz d' = window (uc p) /\ load_wpers d' = true /\ dbound d' = ssn p /\ d_lock d' = false.
Proof. intros sz p d A d' _ (_ & _ & Hw & _) _. exact (destroy_exact sz A p d d' Hw). Qed.
Print Assumptions C13_clean_stop_preserves.

(* ---- nonces of requests reused for responses ----
   unprotect hands on request identifiers with can_reuse_nonce; [Respond] = protect(..., request_id=...) encrypts the response
   under the request's nonce exactly when that flag is set (output [OReused n]) and clears it, otherwise takes an own number.
   Over every history: no request's nonce is used for two responses, and only for requests accepted through the window check —
   with C13_issued_nodup (own numbers) this is "no AEAD nonce under the sender key twice" for everything the context encrypts. *)
Theorem C13_reused_nonces_nodup : forall w evs, ROK w [] -> w_proc w = None -> Forall ev_ok2 evs -> fresh_echo_run w [] evs ->
  NoDup (reused (snd (run w evs))) /\
  (forall n, In n (reused (snd (run w evs))) -> In n (accepted evs (snd (run w evs)))).
Proof.
  intros w evs HR Hnone Hok Hfr. apply (run_ri evs w [] [] HR Hok Hfr (NoDup_nil _)).
  unfold RI, PendOK. rewrite Hnone. split; [exact I|split; [intros n []|constructor]].
Qed.
Print Assumptions C13_reused_nonces_nodup.
(* identifiers built while the replay state is unknown (Echo challenge, Echo recovery) or for a rejected request never allow reuse *)
Theorem C13_no_reuse_unless_window_accepts : forall c r, CtxInv c -> 0 <= seqno r ->
  (window c = None \/ snd (unprotect_request c r) <> Accept) ->
  forall n, pend_of c r (snd (unprotect_request c r)) <> Some (n, true).
Proof.
  intros c r HI Hn Hcase n H. destruct (pend_of_true c r n HI Hn H) as (Hacc & _ & Hw). destruct Hcase; contradiction.
Qed.
Print Assumptions C13_no_reuse_unless_window_accepts.

(* sequence.json only ever changes by the rename of a temp file whose content had been fsynced *)
Theorem C13_sequence_json_durable : forall w evs, d_durable (w_disk w) = true -> d_durable (w_disk (fst (run w evs))) = true.
Proof. exact run_durable. Qed.
Print Assumptions C13_sequence_json_durable.

(* non-vacuity *)
Example C13_sinv_nonvacuous :
  SInv (initial_world 32 None) 0 /\
  SInv (initial_world 32 (Some {| sf_next := 30; sf_recv := RUnknown |})) 30 /\
  ev_ok (Reload 10 10000 1000).
Proof. unfold SInv, ev_ok; cbn. lia. Qed.
(* a crash after the rename in the 11th protect, reload, continue: 0..9 then 30.. (10..29, persisted ahead, are skipped — never reused) *)
Example C13_doctest :
  issued (snd (run (initial_world 32 None)
     [Reload 10 10000 1000; Seq 10 None; Protect (Some 4); Reload 10 10000 1002; Protect None; Protect None; CleanStop None;
      Reload 10 10000 1007; Protect None]))
  = [0; 1; 2; 3; 4; 5; 6; 7; 8; 9; 30; 31; 32].
Proof. vm_compute. reflexivity. Qed.

Definition C13_example_history : list event :=
  [Reload 10 10000 1000; Unprotect {| seqno := 5; authentic := true; echo := None |} None; Protect None; Kill;
   Reload 10 10000 1004; Unprotect {| seqno := 5; authentic := true; echo := None |} None;
   Unprotect {| seqno := 6; authentic := true; echo := Some 1004 |} None;
   Unprotect {| seqno := 5; authentic := true; echo := None |} None; CleanStop None;
   Reload 10 10000 1009; Unprotect {| seqno := 6; authentic := true; echo := Some 1004 |} None].
(* the hypotheses of the replay theorems hold for a history with a crash, an Echo recovery and a clean stop ... *)
Example C13_rok_nonvacuous :
  ROK (initial_world 32 None) [] /\ Forall ev_ok2 C13_example_history /\
  fresh_echo_run (initial_world 32 None) [] C13_example_history.
Proof.
  split; [apply initial_rok; [lia|exact I]|]. split; [repeat constructor; cbn; lia|].
  cbv. repeat split; intros; try discriminate; try contradiction.
  match goal with H : _ \/ False |- _ => destruct H as [<-|[]] end. reflexivity.
Qed.
(* ... in which 5 is accepted, replayed after the crash (Echo demanded), 6 recovers with the Echo value, 5 stays rejected,
   and after the clean stop 6 is rejected by the persisted window *)
Example C13_example_outcomes :
  snd (run (initial_world 32 None) C13_example_history) =
  [OLoaded 0 true; OUnprot Accept; OIssued 0; ODied; OLoaded 10 false; OUnprot RejectEcho; OUnprot Accept;
   OUnprot RejectReplay; OStopped; OLoaded 10 true; OUnprot RejectReplay].
Proof. vm_compute. reflexivity. Qed.
(* chunk parameters must be non-negative: a negative chunk size lowers the bound on disk and numbers are reissued *)
Example C13_negative_chunk_refuted :
  issued (snd (run (initial_world 32 None)
     [Reload 10 10000 1000; Seq 10 None; Kill; Reload (-20) 10000 1003; Protect None; Kill; Reload 10 10000 1006; Seq 11 None]))
  = [0; 1; 2; 3; 4; 5; 6; 7; 8; 9; -10; -9; -8; -7; -6; -5; -4; -3; -2; -1; 0].
Proof. vm_compute. reflexivity. Qed.
(* the input-only hypothesis is satisfiable by a history with acceptances, a crash, a clean stop and replays *)
Example C13_noecho_nonvacuous :
  Forall (ev_noecho (fun e => 1000 <= e))
    [Reload 10 10000 1000; Unprotect {| seqno := 5; authentic := true; echo := None |} None; Kill;
     Reload 10 10000 1003; Unprotect {| seqno := 5; authentic := true; echo := Some 7 |} (Some 2); CleanStop None].
Proof. repeat constructor; cbn; intros; try lia; try discriminate. intros H1; injection H1 as <-. lia. Qed.

(* ---- tie T (the only section that depends on Proofs/C13Kernel.v and the translator jobs oscore_seqno, oscore_rwchanged) ----
   The model's sender sequence number kernels are the code of aiocoap/oscore.py as translated on this run:
   [proj] projects the process record onto the four counters, [store_cb p d a] is self._store() instantiated with the
   model's file-system steps on disk d under crash plan a (dying inside it = exception [Crashed]), [lift] maps
   (state, disk, Val v / Exn e / Died) to Ok (proj state, v) / Raise e / Raise Crashed; the second conjunct says what the
   model does besides: replay state untouched, disk = result of the one _store call if the code reaches it. *)
Theorem C13_post_seqnoincrease_is_source : forall p d a,
  oscore_seqno.post_seqnoincrease (store_cb p d a) (proj p) = lift (fun p' u => (proj p', u)) (C13.post_seqnoincrease p d a) /\
  (let '(p', d', _) := C13.post_seqnoincrease p d a in
   uc p' = uc p /\ wpers p' = wpers p /\ d' = if ssn p >? persisted p then fst (_store p' d a) else d).
Proof. exact post_seqnoincrease_is_source. Qed.
Print Assumptions C13_post_seqnoincrease_is_source.
Theorem C13_new_sequence_number_is_source : forall p d a,
  oscore_seqno.new_sequence_number (store_cb p d a) (proj p) = lift (fun p' v => (proj p', v)) (C13.new_sequence_number p d a) /\
  (let '(p', d', _) := C13.new_sequence_number p d a in
   uc p' = uc p /\ wpers p' = wpers p /\
   d' = if ssn p >=? C13.MAX_SEQNO then d else if ssn p + 1 >? persisted p then fst (_store p' d a) else d).
Proof. exact new_sequence_number_is_source. Qed.
Print Assumptions C13_new_sequence_number_is_source.
(* likewise _replay_window_changed (job oscore_rwchanged): the flag is cleared before the one write, so that write says "unknown" *)
Theorem C13_replay_window_changed_is_source : forall p d a,
  oscore_rwchanged.replay_window_changed (store_cbw p d a) (projw p) =
    (let '(p', _, died) := C13._replay_window_changed p d a in if died then Raise Crashed else Ok (projw p', tt)) /\
  (let '(p', d', _) := C13._replay_window_changed p d a in
   p' = (if wpers p then set_wpers p false else p) /\ d' = if wpers p then fst (_store p' d a) else d).
Proof. exact replay_window_changed_is_source. Qed.
Print Assumptions C13_replay_window_changed_is_source.
Theorem C13_max_seqno_is_source : oscore_seqno.MAX_SEQNO = 2 ^ 40 - 1.
Proof. exact max_seqno_is_source. Qed.
Print Assumptions C13_max_seqno_is_source.
(* the translated code itself on the 11th call of a lifetime (chunk 10 used up): persists 10 -> 30, chunk 20 -> 40 *)
Example C13_kernel_doctest :
  oscore_seqno.new_sequence_number (fun s => Ok s)
    {| oscore_seqno.fsc_sender_sequence_number := 10; oscore_seqno.fsc_sequence_number_persisted := 10;
       oscore_seqno.fsc_sequence_number_chunksize := 20; oscore_seqno.fsc_sequence_number_chunksize_limit := 10000 |}
  = Ok ({| oscore_seqno.fsc_sender_sequence_number := 11; oscore_seqno.fsc_sequence_number_persisted := 30;
           oscore_seqno.fsc_sequence_number_chunksize := 40; oscore_seqno.fsc_sequence_number_chunksize_limit := 10000 |}, 10).
Proof. vm_compute. reflexivity. Qed.

(* ---- _store raising OSError instead of dying (the callers roll back: `except BaseException` in post_seqnoincrease and
   _replay_window_changed, /repo 304561f) ----
   ProtectFails k / UnprotectFails r k are ordinary events of every theorem above ([ev_ok], [ev_ok2] do not exclude them). *)
(* protect() during which _store raises: either no write was needed and the number is within the reservation, or nothing is
   handed out and "persisted = bound on disk" still holds (the reservation is rolled back) *)
Theorem C13_store_error_rolled_back : forall p d k hi, hi <= dbound d -> PInv p d hi ->
  match new_sequence_number_fails p d k with
  | (p', d', Val v) => v = ssn p /\ v < MAX_SEQNO /\ PInv p' d' (v + 1) /\ v + 1 <= dbound d'
  | (p', d', Exn e) => PInv p' d' hi /\ hi <= dbound d'
  | (p', d', Died) => hi <= dbound d'
  end.
Proof. exact nsn_fails_step. Qed.
Print Assumptions C13_store_error_rolled_back.
(* unprotect during which the "unknown" write fails: not accepted, flag set again, sequence.json untouched *)
Theorem C13_store_error_window_flag_rolled_back : forall p d k r,
  strikes (uc p) (snd (unprotect_request (uc p) r)) = true -> wpers p = true ->
  match unprotect_fails p d k r with
  | (p', d', res) => res = Exn OSError /\ wpers p' = true /\ d_seq d' = d_seq d /\ d_durable d' = d_durable d
  end.
Proof.
  intros p d k r Hs Hw. pose proof (unprotect_fails_cases p d k r) as Hc. cbv zeta in Hc. rewrite Hs, Hw in Hc. cbn [andb] in Hc.
  rewrite Hc. split; [reflexivity|]. split; [exact Hw|]. apply store_fails_keeps.
Qed.
Print Assumptions C13_store_error_window_flag_rolled_back.
(* two histories with a failing write: 10 is not handed out, 11..15 come from a fresh reservation
   (bound 30 on disk), the reload starts at 30; and 6 is written off as "unknown" when accepted, so it is not accepted again *)
Example C13_store_error_doctest :
  issued (snd (run (initial_world 32 None)
     [Reload 10 10000 1000; Seq 10 None; ProtectFails 1; Seq 5 None; Kill; Reload 10 10000 1005; Seq 2 None]))
  = [0; 1; 2; 3; 4; 5; 6; 7; 8; 9;  11; 12; 13; 14; 15;  30; 31].
Proof. vm_compute. reflexivity. Qed.
Example C13_store_error_replay_doctest :
  let evs := [Reload 10 10000 1000; UnprotectFails {| seqno := 5; authentic := true; echo := None |} 0;
              Unprotect {| seqno := 6; authentic := true; echo := None |} None; Kill;
              Reload 10 10000 1004; Unprotect {| seqno := 6; authentic := true; echo := None |} None;
              Unprotect {| seqno := 7; authentic := true; echo := Some 1004 |} None] in
  snd (run (initial_world 32 None) evs) =
  [OLoaded 0 true; OExn OSError; OUnprot Accept; ODied; OLoaded 0 false; OUnprot RejectEcho; OUnprot Accept].
Proof. vm_compute. reflexivity. Qed.
(* a response to a window-accepted request reuses its nonce once; the Echo challenge and the Echo-recovered request never do *)
Example C13_reuse_doctest :
  snd (run (initial_world 32 None)
    [Reload 10 10000 1000; Unprotect {| seqno := 5; authentic := true; echo := None |} None; Respond None; Respond None; Kill;
     Reload 10 10000 1005; Unprotect {| seqno := 5; authentic := true; echo := None |} None; Respond None;
     Unprotect {| seqno := 7; authentic := true; echo := Some 1005 |} None; Respond None])
  = [OLoaded 0 true; OUnprot Accept; OReused 5; OIssued 0; ODied;
     OLoaded 10 false; OUnprot RejectEcho; OIssued 10; OUnprot Accept; OIssued 11].
Proof. vm_compute. reflexivity. Qed.
