(* C12 — OSCORE replay protection: a protected request is accepted at most once.
   The statements; each follows in a line or two from the lemmas of Proofs/C12.v (window, one message), Proofs/C12b.v
   (histories) and Proofs/C12Persist.v. *)
From Verif Require Import Lib.Py Lib.Tactics Gen.oscore_replay Model.C12 Proofs.C12 Proofs.C12b.
Open Scope Z_scope.

(* the translated ReplayWindow refines the set [seen] of no-longer-acceptable numbers *)
Theorem C12_is_valid_spec : forall w n, Inv w -> 0 <= n -> is_valid w n = Ok (negb (seen w n)).
Proof. exact is_valid_spec. Qed.
Print Assumptions C12_is_valid_spec.

Theorem C12_strike_out_spec : forall w n, Inv w -> 0 <= n ->
  (seen w n = true /\ strike_out w n = Raise ValueError) \/
  (seen w n = false /\ exists w', strike_out w n = Ok (w', tt) /\
     Inv w' /\ rw_size w' = rw_size w /\ rw_index w <= rw_index w' /\ seen w' n = true /\
     (forall m, seen w m = true -> seen w' m = true) /\
     (forall m, m <> n -> rw_index w' <= m -> seen w' m = seen w m)).
Proof. exact strike_out_spec. Qed.
Print Assumptions C12_strike_out_spec.

(* for every order and multiplicity of arriving requests, from any well-formed context
   (initialised or not), every sequence number is accepted at most once *)
Theorem C12_accept_at_most_once : forall rs c n, CtxInv c -> Forall (fun r => 0 <= seqno r) rs ->
  (accepted_count n rs (snd (run c rs)) <= 1)%nat.
Proof.
  intros rs c n HI Hpos. rewrite <- (proj2 (prun_requests rs c)), accepted_count_requests.
  apply paccepted_bound; [exact HI|apply Forall_map, Hpos].
Qed.
Print Assumptions C12_accept_at_most_once.

(* numbers already seen — in particular all that fell out of the window — are never accepted again *)
Theorem C12_seen_never_accepted : forall rs c n, CtxInv c -> Forall (fun r => 0 <= seqno r) rs ->
  cseen c n -> accepted_count n rs (snd (run c rs)) = 0%nat.
Proof.
  intros rs c n HI Hpos Hseen. rewrite <- (proj2 (prun_requests rs c)), accepted_count_requests.
  apply paccepted_bound; [exact HI|apply Forall_map, Hpos|exact Hseen].
Qed.
Print Assumptions C12_seen_never_accepted.
Theorem C12_below_window_seen : forall w n, n < rw_index w -> seen w n = true.
Proof. intros w n H. unfold seen. replace (n <? rw_index w) with true by lia. reflexivity. Qed.
Print Assumptions C12_below_window_seen.
Theorem C12_reject_seen : forall c w r, CtxInv c -> window c = Some w -> 0 <= seqno r ->
  seen w (seqno r) = true -> snd (unprotect_request c r) <> Accept.
Proof.
  intros c w r HI Ew Hn Hsn Hacc. destruct (unprotect_accept c r HI Hn Hacc) as (_ & w' & _ & _ & _ & Hcase).
  rewrite Ew in Hcase. destruct Hcase as (Hns & _). congruence.
Qed.
Print Assumptions C12_reject_seen.

(* an authentic number not yet seen — in particular any number above everything seen so far — is accepted *)
Theorem C12_accept_unseen : forall c w r, CtxInv c -> window c = Some w -> 0 <= seqno r -> authentic r = true ->
  seen w (seqno r) = false -> snd (unprotect_request c r) = Accept.
Proof. intros c w r HI Ew Hn Ha Hns. rewrite (unseen_outcome c w r HI Ew Hn Hns), Ha. reflexivity. Qed.
Print Assumptions C12_accept_unseen.
Theorem C12_above_all_unseen : forall w n, (forall m, seen w m = true -> m < n) -> seen w n = false.
Proof. intros w n H. destruct (seen w n) eqn:E; [|reflexivity]. specialize (H n E). lia. Qed.
Print Assumptions C12_above_all_unseen.

(* a message failing authentication never marks or advances the window, and is not accepted *)
Theorem C12_forgery_never_marks : forall c r, CtxInv c -> 0 <= seqno r -> authentic r = false ->
  fst (unprotect_request c r) = c /\ snd (unprotect_request c r) <> Accept.
Proof.
  intros c r HI Hn Ha. assert (Hne : snd (unprotect_request c r) <> Accept)
    by (intros Hacc; destruct (unprotect_accept c r HI Hn Hacc); congruence).
  exact (conj (unprotect_reject c r HI Hn Hne) Hne).
Qed.
Print Assumptions C12_forgery_never_marks.

(* uninitialised window: acceptance requires the Echo value issued by this process *)
Theorem C12_uninitialised_requires_echo : forall c r, CtxInv c -> window c = None -> 0 <= seqno r ->
  snd (unprotect_request c r) = Accept ->
  authentic r = true /\ echo_recovery c <> None /\ echo r = echo_recovery c /\
  exists w', window (fst (unprotect_request c r)) = Some w' /\ forall m, seen w' m = (m <=? seqno r).
Proof.
  intros c r HI Ew Hn Hacc. destruct (unprotect_accept c r HI Hn Hacc) as (Hauth & w' & -> & _ & _ & Hcase).
  rewrite Ew in Hcase. destruct Hcase as (He & Hen & Hseen).
  split; [exact Hauth|]. split; [exact Hen|]. split; [exact He|]. exists w'. split; [reflexivity|exact Hseen].
Qed.
Print Assumptions C12_uninitialised_requires_echo.
Theorem C12_uninitialised_never_accepts_without_echo : forall rs c, CtxInv c -> window c = None ->
  Forall (fun r => 0 <= seqno r /\ echo r <> echo_recovery c) rs ->
  Forall (fun o => o <> Accept) (snd (run c rs)) /\ window (fst (run c rs)) = None.
Proof. exact uninitialised_never_accepts_without_echo. Qed.
Print Assumptions C12_uninitialised_never_accepts_without_echo.

(* non-vacuity: concrete contexts satisfy the hypotheses, and the doctest history of ReplayWindow *)
Example C12_inv_nonvacuous :
  CtxInv {| size := 32; window := Some (initialize_empty 32); echo_recovery := Some 7 |} /\
  CtxInv {| size := 32; window := None; echo_recovery := Some 7 |} /\
  Inv {| rw_size := 32; rw_index := 5; rw_bitfield := 2^31 + 5 |}.
Proof. unfold CtxInv, Inv; cbn. repeat split; try lia. Qed.
Example C12_doctest :
  snd (wrun (initialize_empty 32)
        [StrikeOut 5; IsValid 3; IsValid 5; StrikeOut 0; StrikeOut 1; StrikeOut 2; IsValid 1;
         IsValid 4; StrikeOut 35; IsValid 4; StrikeOut 36; IsValid 4])
  = [RDone; RBool true; RBool false; RDone; RDone; RDone; RBool false;
     RBool true; RDone; RBool true; RDone; RBool false].
Proof. vm_compute. reflexivity. Qed.

(* ---------- histories that interleave requests and responses, nonce reuse, forgeries ---------- *)

(* every step of a mixed history keeps the context well-formed and never un-sees a number *)
Theorem C12_step_invariant : forall c m, CtxInv c -> pwf m ->
  CtxInv (fst (pstep c m)) /\ size (fst (pstep c m)) = size c /\
  echo_recovery (fst (pstep c m)) = echo_recovery c /\
  (forall k, cseen c k -> cseen (fst (pstep c m)) k).
Proof. intros c m HI Hwf. pose proof (pstep_inv c m HI Hwf) as H. destruct (pstep c m) as [c' o]. cbn [fst]. tauto. Qed.
Print Assumptions C12_step_invariant.

(* at most once per sequence number, for every order and multiplicity of requests AND responses
   (including responses that initialise the window), forged or not *)
Theorem C12_accept_at_most_once_mixed : forall ms c n, CtxInv c -> Forall pwf ms ->
  (paccepted_count n ms (snd (prun c ms)) <= 1)%nat.
Proof. intros ms c n HI Hwf. apply paccepted_bound; assumption. Qed.
Print Assumptions C12_accept_at_most_once_mixed.

(* forgeries do not interfere: the final replay state and the fate of every authentic message are
   those of the history with all forged messages removed — a forgery cannot block the genuine request *)
Theorem C12_forgeries_do_not_interfere : forall ms c, CtxInv c -> Forall pwf ms ->
  fst (prun c ms) = fst (prun c (filter pauth ms)) /\
  map snd (filter (fun mo => pauth (fst mo)) (combine ms (snd (prun c ms)))) = snd (prun c (filter pauth ms)).
Proof. exact forgeries_do_not_interfere. Qed.
Print Assumptions C12_forgeries_do_not_interfere.

(* the request's nonce may be reused for the response (RequestIdentifiers.can_reuse_nonce) only if the
   request passed the replay check before decryption: never for a replayed, an Echo-recovered or an
   Echo-challenged request; hence at most once per sequence number *)
Theorem C12_reuse_only_when_fresh : forall c r o, CtxInv c -> 0 <= seqno r ->
  snd (pstep c (PReq r)) = OReq o true ->
  o = Accept /\ authentic r = true /\ exists w, window c = Some w /\ seen w (seqno r) = false.
Proof. exact reuse_only_when_fresh. Qed.
Print Assumptions C12_reuse_only_when_fresh.
Theorem C12_reuse_at_most_once : forall ms c n, CtxInv c -> Forall pwf ms ->
  (preuse_count n ms (snd (prun c ms)) <= 1)%nat.
Proof.
  intros ms c n HI Hwf. pose proof (preuse_le_accepted ms c n HI Hwf). pose proof (proj1 (paccepted_bound ms c n HI Hwf)). lia.
Qed.
Print Assumptions C12_reuse_at_most_once.
Theorem C12_accept_fresh_has_reuse : forall c w r, CtxInv c -> window c = Some w -> 0 <= seqno r ->
  authentic r = true -> seen w (seqno r) = false -> snd (pstep c (PReq r)) = OReq Accept true.
Proof. exact accept_fresh_has_reuse. Qed.
Print Assumptions C12_accept_fresh_has_reuse.

(* uninitialised window, full statement for the code as it is: nothing is accepted (and no reusable
   nonce handed on) until either the Echo value issued by this process comes back, or an AUTHENTIC
   response carrying the peer's own Partial IV arrives (oscore.py:1408-1422: such a response is AEAD-bound
   to a request this process sent, which the code takes as freshness proof; see notes/C12.md, O1) *)
Theorem C12_uninitialised_until_echo_or_bound_response : forall ms c, CtxInv c -> window c = None ->
  Forall (no_recovery c) ms ->
  Forall (fun o => match o with OReq Accept _ => False | OReq _ true => False | _ => True end) (snd (prun c ms))
  /\ window (fst (prun c ms)) = None.
Proof. exact uninitialised_until_echo_or_bound_response. Qed.
Print Assumptions C12_uninitialised_until_echo_or_bound_response.
Theorem C12_response_init_is_freshlyseen : forall c n, CtxInv c -> window c = None -> echo_recovery c <> None -> 0 <= n ->
  exists w, window (fst (unprotect_response c (Some n) true)) = Some w /\ forall m, seen w m = (m <=? n).
Proof.
  intros c n HI Ew He Hn. rewrite unprotect_response_eq, Ew. destruct (echo_recovery c); [|congruence].
  eexists. split; [reflexivity|apply fresh_seen].
Qed.
Print Assumptions C12_response_init_is_freshlyseen.
Theorem C12_response_never_touches_initialised : forall c own auth w, window c = Some w ->
  fst (unprotect_response c own auth) = c.
Proof. intros c own auth w Ew. rewrite unprotect_response_eq, Ew. reflexivity. Qed.
Print Assumptions C12_response_never_touches_initialised.

(* the mixed-history runner restricted to requests is the request runner [run] *)
Theorem C12_prun_requests : forall rs c,
  fst (prun c (map PReq rs)) = fst (run c rs) /\
  map (fun o => match o with OReq x _ => x | OResp _ => RejectInvalid end) (snd (prun c (map PReq rs))) = snd (run c rs).
Proof. exact prun_requests. Qed.
Print Assumptions C12_prun_requests.

Example C12_mixed_nonvacuous :
  let c := {| size := 32; window := None; echo_recovery := Some 7 |} in
  snd (prun c [PReq {| seqno := 5; authentic := true; echo := None |};
               PResp (Some 9) false; PResp None true; PResp (Some 9) true;
               PReq {| seqno := 9; authentic := true; echo := None |};
               PReq {| seqno := 10; authentic := false; echo := None |};
               PReq {| seqno := 10; authentic := true; echo := None |};
               PReq {| seqno := 10; authentic := true; echo := None |}])
  = [OReq RejectEcho false; OResp false; OResp true; OResp true; OReq RejectReplay false;
     OReq RejectInvalid false; OReq Accept true; OReq RejectReplay false].
Proof. vm_compute. reflexivity. Qed.

(* ---- persisting the window (clean stop) and reloading it (ReplayWindow.persist / initialize_from_persisted, Model/C12Persist.v)
   is the identity on the context, at any point of any history: same outcomes, same final window; an uninitialised window stays
   uninitialised, so C12_uninitialised_never_accepts_without_echo carries over the restart *)
From Verif Require Import Model.C12Persist Proofs.C12Persist.
Theorem C12_reload_is_identity : forall c, CtxInv c -> reload c = c.
Proof. exact reload_id. Qed.
Print Assumptions C12_reload_is_identity.
Theorem C12_reload_anywhere_changes_nothing : forall rs k c, Forall (fun r => 0 <= seqno r) rs -> CtxInv c -> run_reload c k rs = run c rs.
Proof. exact run_reload_is_run. Qed.
Print Assumptions C12_reload_anywhere_changes_nothing.
Theorem C12_reload_stays_uninitialised : forall c, window c = None -> window (reload c) = None.
Proof. intros c H. unfold reload. cbn [window]. rewrite H. apply persist_uninitialised. Qed.
Print Assumptions C12_reload_stays_uninitialised.
