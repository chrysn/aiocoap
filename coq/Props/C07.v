(* C07 — Observe client: notifications in freshness order, termination signalled once.
   The property theorems, each an instance or a few-line consequence of the lemmas of Proofs/C07*.v; the concrete
   witnesses and examples are evaluated here.
   Model: Gen/protocol_is_recent.v (translated from protocol.py on every run), Model/C07.v, Model/C07Stack.v,
   Model/C07Iter.v, Model/C07Blockwise.v. *)
From Verif Require Import Lib.Py Lib.Tactics Gen.protocol_is_recent Model.C07 Model.C07Stack Model.C07Iter Model.C07Blockwise Proofs.C07Serial Proofs.C07 Proofs.C07Stack Proofs.C07Iter Proofs.C07Cancel Proofs.C07Blockwise Proofs.C07IterRun Proofs.C07R6 Proofs.C07R6b Proofs.C07R6c.
From Coq Require Import Permutation.
Open Scope Z_scope.

(* ---- 0. the expression in Request._run IS the RFC 7641 section 3.4 rule *)
Theorem freshness_test_is_rfc7641 : forall v1 v2 t1 t2 reset,
  is_recent v1 v2 t1 t2 reset = true <->
  ((v1 < v2 /\ v2 - v1 < 2 ^ 23) \/ (v1 > v2 /\ v1 - v2 > 2 ^ 23)) \/ t2 > t1 + reset.
Proof. exact is_recent_spec. Qed.
Print Assumptions freshness_test_is_rfc7641.

(* inside any half of the 24-bit number space serial comparison is a strict total order (that of the offsets) *)
Theorem serial_order_in_window : forall base a b, in_window base a -> in_window base b ->
  (serial_lt a b <-> off base a < off base b).
Proof. exact serial_lt_window. Qed.
Print Assumptions serial_order_in_window.

Theorem duplicate_is_stale : forall v t1 t2 reset, t2 <= t1 + reset -> is_recent v v t1 t2 reset = false.
Proof. intros. apply is_recent_false_spec. unfold rfc_fresh, serial_lt. lia. Qed.
Print Assumptions duplicate_is_stale.

Theorem wrap_around_is_fresh : forall t1 t2 reset, is_recent (W - 1) 0 t1 t2 reset = true.
Proof. intros. apply is_recent_spec. left. unfold serial_lt, W. rewrite pow23. unfold HW. lia. Qed.
Print Assumptions wrap_around_is_fresh.

(* ---- 1. refinement: for EVERY list of pipe events / application actions, what an observer registered from the start
        is handed by Request._run + ClientObservation is exactly what the three-phase RFC 7641 client hands over *)
Theorem observer_sees_rfc7641_client : forall k reset ops, no_reg k ops ->
  map (view k) (run (sys0 true reset) (OpRegister k :: ops)) = [] :: spec_run reset PFirst ops.
Proof. exact observer_refines_rfc_client. Qed.
Print Assumptions observer_sees_rfc7641_client.

(* ---- 2. deliveries form a subsequence of the arrivals ... *)
Theorem delivered_is_subsequence : forall k reset ops, no_reg k ops ->
  Subseq (deliveries (observed k reset ops)) (msg_ids ops).
Proof. intros k reset ops H. rewrite observed_spec by exact H. apply spec_deliveries_subsequence. Qed.
Print Assumptions delivered_is_subsequence.

(* ... namely: after an observable first response (Observe v0 at t0) exactly the greedy freshness filter of the
   notifications arriving while the observation lives, followed by the final response if that is what ends it *)
Theorem delivered_is_freshness_filter : forall k reset t0 id0 v0 ops, no_reg k ops ->
  deliveries (observed k reset (OpEvent t0 (EvMsg id0 (Some v0) false) :: ops))
  = map n_id (accept reset v0 t0 (live_notifs ops)) ++ final_response ops.
Proof. 
  intros k reset t0 id0 v0 ops H. rewrite observed_spec by (apply no_reg_cons; [intros; discriminate|exact H]).
  cbn [spec_run spec_step spec_event concat app]. apply spec_deliveries_characterised.
 Qed.
Print Assumptions delivered_is_freshness_filter.

(* each one is fresh by the RFC rule w.r.t. the one handed over before it; nothing fresh is dropped *)
Theorem delivered_pairwise_fresh : forall reset l v1 t1, chain reset v1 t1 (accept reset v1 t1 l).
Proof. exact accept_chain. Qed.
Print Assumptions delivered_pairwise_fresh.

Theorem accepted_is_subsequence : forall reset l v1 t1, Subseq (accept reset v1 t1 l) l.
Proof. exact accept_subseq. Qed.
Print Assumptions accepted_is_subsequence.

Theorem fresh_is_never_dropped : forall reset pre n post v1 t1,
  let '(v, t) := last_accepted reset v1 t1 pre in
  (rfc_fresh v t (n_v n) (n_t n) reset -> In n (accept reset v1 t1 (pre ++ n :: post)))
  /\ (~ rfc_fresh v t (n_v n) (n_t n) reset -> accept reset v1 t1 (pre ++ n :: post) = accept reset v1 t1 pre ++ accept reset v t post).
Proof. exact accept_complete. Qed.
Print Assumptions fresh_is_never_dropped.

(* ---- 3. all values within one half-window and all arrivals within the reset time: deliveries strictly increase and
        the last one handed over is the maximum — for every arrival order and duplication *)
Theorem freshest_delivered : forall base lo reset l v0 t0,
  in_window base v0 -> timely lo reset t0 ->
  Forall (fun n => in_window base (n_v n) /\ timely lo reset (n_t n)) l ->
  increasing base v0 (accept reset v0 t0 l)
  /\ off base (last_v v0 (accept reset v0 t0 l)) = max_off base v0 l.
Proof. exact freshest_accepted. Qed.
Print Assumptions freshest_delivered.

Theorem freshest_delivered_for_every_order : forall base lo reset l l' v0 t0,
  in_window base v0 -> timely lo reset t0 ->
  Forall (fun n => in_window base (n_v n) /\ timely lo reset (n_t n)) l ->
  Permutation l l' ->
  last_v v0 (accept reset v0 t0 l) = last_v v0 (accept reset v0 t0 l').
Proof. exact freshest_for_every_order. Qed.
Print Assumptions freshest_delivered_for_every_order.

(* ---- 4. the observation ends at most once and nothing is delivered after the end — every event list *)
Theorem terminates_once : forall k reset ops, no_reg k ops -> exists ids tail,
  observed k reset ops = map Deliver ids ++ tail /\ (tail = [] \/ exists e, tail = [EndSignal e]).
Proof. intros k reset ops H. rewrite observed_spec by exact H. apply spec_terminates_once. Qed.
Print Assumptions terminates_once.

(* 'not observable' when the first response is final (no Observe option, or the request failed) *)
Theorem first_response_final_is_not_observable : forall k reset now ev post, no_reg k post -> ev_is_last ev = true ->
  map (view k) (run (sys0 true reset) (OpRegister k :: OpEvent now ev :: post))
  = [] :: [EndSignal (Some NotObservable)] :: map (fun _ => []) post.
Proof. 
  intros k reset now ev post H Hl. rewrite observer_refines_rfc_client by (apply no_reg_cons; [intros; discriminate|exact H]).
  rewrite spec_not_observable by exact Hl. reflexivity.
 Qed.
Print Assumptions first_response_final_is_not_observable.

(* a terminating event at ANY position: final response delivered then ObservationCancelled / the transport's
   exception; afterwards silence, whatever else arrives *)
Theorem termination_at_every_position : forall k reset t0 id0 v0 pre now ev post,
  no_reg k pre -> no_reg k post -> plain pre = true -> is_terminal ev = true ->
  map (view k) (run (sys0 true reset) (OpRegister k :: OpEvent t0 (EvMsg id0 (Some v0) false) :: pre ++ OpEvent now ev :: post))
  = [] :: [] :: spec_run reset (PObs v0 t0) pre ++ terminal_outcome ev :: map (fun _ => []) post.
Proof.
  intros k reset t0 id0 v0 pre now ev post H1 H2 Hp Ht. rewrite observer_refines_rfc_client.
  - cbn [spec_run spec_step spec_event]. rewrite spec_termination_at_every_position by assumption. reflexivity.
  - apply no_reg_cons; [intros; discriminate|]. apply no_reg_app; [exact H1|]. apply no_reg_cons; [intros; discriminate|exact H2].
Qed.
Print Assumptions termination_at_every_position.

(* ---- 5. the end signal ends the pipe's interest within the same event; that releases the token; a later
        notification on that token is then an unknown response: RST if CON, ignored if NON, nobody is told *)
Theorem end_signal_releases_interest : forall k s now ev, live k s -> s_ended s = false -> s_runner s <> RFinished ->
  end_signals (view k (snd (add_event s now ev))) <> [] -> s_ended (fst (add_event s now ev)) = true.
Proof. intros k s now ev _ _ _. apply add_event_end_signal_ends. Qed.
Print Assumptions end_signal_releases_interest.

Theorem token_released_with_interest : forall ops has_obs reset con t0,
  let k := srun_state (stack0 has_obs reset con t0) ops in
  s_ended (k_sys k) = true -> k_token k = false.
Proof. intros ops has_obs reset con t0. apply WF_ended, WF_srun_state, WF_stack0. Qed.
Print Assumptions token_released_with_interest.

Theorem later_notifications_rejected : forall k now mt id observe tok mid j,
  k_token k = false -> (mt = CON \/ mt = NON) ->
  let r := sstep k (SResponse now mt id observe tok mid) in
  k_token (fst r) = false
  /\ wires (snd r) = (match mt with CON => [RST] | _ => [] end)
  /\ view j (apps (snd r)) = [].
Proof. exact late_notification_rejected. Qed.
Print Assumptions later_notifications_rejected.

(* ---- 6. the async iterator: one wake-up yields an in-order subsequence of what was pushed, ending with the latest *)
Theorem iterator_in_order : forall xs, Subseq (snd (anext_drain (pushes idle xs))) (map yield xs).
Proof. exact iterator_yields_subsequence. Qed.
Print Assumptions iterator_in_order.

Theorem iterator_lossy_but_latest : forall ids x d,
  last (snd (anext_drain (pushes idle (map IMsg ids ++ [x])))) d = yield x.
Proof. exact Proofs.C07.iterator_lossy_but_latest. Qed.
Print Assumptions iterator_lossy_but_latest.

(* ---- 7. the async iterator over a WHOLE run, with a consumer that may be busy between two __anext__ calls
        (Model/C07Iter.v; Model/C07.v's anext_drain is the instance with an instantaneous loop body):
        any interleaving of pushes, wake-ups and pulls yields an in-order subsequence of what was pushed ... *)
Theorem iterator_whole_run_subsequence : forall ops g, Subseq (grun g ops) (pending g ++ pushed ops).
Proof. exact iterator_run_subsequence. Qed.
Print Assumptions iterator_whole_run_subsequence.

(* ... and a consumer that keeps pulling eventually yields the latest notification or the end signal *)
Theorem iterator_whole_run_eventually_latest : forall ops x, err_last (pushed ops) = true -> lasto (pushed ops) = Some x ->
  lasto (grun (GBlocked None None) (ops ++ keep_pulling)) = Some x.
Proof. 
  intros ops x E L. rewrite iterator_run_ends_with_latest; [exact L|]. split; [split; [exact E|discriminate]|intros b; discriminate].
 Qed.
Print Assumptions iterator_whole_run_eventually_latest.

Theorem anext_drain_is_the_instant_consumer : forall it, it_started it = true ->
  map yield (grun (embed it) [GWake; GPull; GPull]) = snd (anext_drain it)
  /\ (fst (gstep (fst (gstep (fst (gstep (embed it) GWake)) GPull)) GPull) = embed (fst (anext_drain it)) \/ it_w it = None).
Proof. exact anext_drain_is_instant_consumer. Qed.
Print Assumptions anext_drain_is_the_instant_consumer.

(* ---- 8. side condition made explicit (observation O-C07-2): as long as the APPLICATION does not cancel the observation
        itself, no exception ever leaves Pipe._add_event — for every op list; with observation.cancel() it does *)
Theorem no_exception_leaves_the_pipe : forall ops has_obs reset, ~ In OpCancelObs ops ->
  escapes (concat (run (sys0 has_obs reset) ops)) = false.
Proof. intros ops has_obs reset. apply run_no_escape. unfold returned_if_cancelled. cbn. discriminate. Qed.
Print Assumptions no_exception_leaves_the_pipe.

Theorem no_exception_leaves_the_pipe_unconditionally_refuted :
  run (sys0 true 128000000) [OpCancelObs; OpEvent 0 (EvMsg 1 None true)] = [[]; [OResp 1; OEscaped RuntimeError]].
Proof. vm_compute. reflexivity. Qed.
Print Assumptions no_exception_leaves_the_pipe_unconditionally_refuted.

Theorem con_response_always_answered_refuted :
  fst (srun (stack0 true 128000000 false 0) [SApp 0 OpCancelObs; SResponse 1 CON 1 None true false])
  = [[]; [App (OResp 1); App (OEscaped RuntimeError)]].
Proof. vm_compute. reflexivity. Qed.
Print Assumptions con_response_always_answered_refuted.

Theorem exchanges_cleaned_after_transport_error_refuted :
  k_exchange (srun_state (stack0 true 128000000 true 0) [SApp 0 OpCancelObs; SNetError 1]) = Some 62000000.
Proof. vm_compute. reflexivity. Qed.
Print Assumptions exchanges_cleaned_after_transport_error_refuted.

(* ---- 9. BlockwiseRequest's observation (Model/C07Blockwise.v) *)
(* once the outer observation has been told its end nothing more reaches it, whatever arrives on whichever token *)
Theorem blockwise_silent_after_end : forall ops b, dead b -> outer_obs (brun_outs b ops) = [].
Proof. exact bw_silent_after_end. Qed.
Print Assumptions blockwise_silent_after_end.

(* one run of the observation task: notifications, then at most one end signal, after which the task is over
   (one run only; blockwise_ends_at_most_once below is the statement over the whole history) *)
Theorem blockwise_task_ends_once_partial : forall fuel now b,
  exists cbs tail, outer_obs (snd (consumer_run fuel now b)) = cbs ++ tail
    /\ Forall (fun o => match o with BCb _ _ => True | _ => False end) cbs
    /\ (tail = [] \/ exists e, tail = [BEb e] /\ (b_first_done b = true -> dead (fst (consumer_run fuel now b)))).
Proof.
  intros fuel now b. destruct (consumer_run_cases fuel now b) as [->|(_ & [(f & g & cbs & _ & O & F)|(cbs & e & E & O & F)])].
  - exists [], []. cbn. auto.
  - exists cbs, []. rewrite app_nil_r. auto.
  - exists cbs, [BEb e]. rewrite E. split; [exact O|]. split; [exact F|]. right. exists e. split; [reflexivity|apply dead_cancel_lower].
Qed.
Print Assumptions blockwise_task_ends_once_partial.

Theorem blockwise_assembly_exact : forall id n r id' n', complete_next id n r = inl (id', n') ->
  (r_blk r = BNone /\ id' = r_id r /\ n' = 1)
  \/ (exists more, r_blk r = BBlock n false true /\ more = false /\ r_etag_ok r = true /\ id' = id /\ n' = n + 1).
Proof. exact assembly_exact. Qed.
Print Assumptions blockwise_assembly_exact.

(* the three places where the property text fails on the faithful model (open findings, see notes/C07.md) *)
Theorem blockwise_final_response_delivered_refuted :
  fst (brun (bw0 128000000 0) final_while_busy) = [[BResp 0 1]; [BReq 1]; []; [BCb 1 2; BEb ObservationCancelled]; []].
Proof. vm_compute. reflexivity. Qed.
Print Assumptions blockwise_final_response_delivered_refuted.

Theorem blockwise_token_released_at_end_refuted :
  brun (bw0 128000000 0) first_fetch_fails
  = ([[BReq 1]; [BRespExn ResourceChanged; BEb ResourceChanged]; [BWire ACK]; [BWire ACK]], 1).
Proof. vm_compute. reflexivity. Qed.
Print Assumptions blockwise_token_released_at_end_refuted.

Theorem blockwise_later_notifications_rejected_refuted :
  brun (bw0 128000000 0) notif_fetch_fails
  = ([[BResp 0 1]; [BReq 1]; [BEb ResourceChanged]; [BWire ACK]; [BWire RST]], 0).
Proof. vm_compute. reflexivity. Qed.
Print Assumptions blockwise_later_notifications_rejected_refuted.

Example dead_reachable : dead (fst (bstep (fst (bstep (bw0 128000000 0) (BMain 1 NON 0 (Some 5) BNone))) (BMain 2 NON 1 None BNone))).
Proof. unfold dead. vm_compute. auto. Qed.
Example whole_run_instance :
  grun (GBlocked None None) ([GPush (IMsg 1); GWake; GPush (IMsg 2); GPush (IMsg 3); GPush (IErr ObservationCancelled)] ++ keep_pulling)
  = [IMsg 1; IErr ObservationCancelled].
Proof. vm_compute. reflexivity. Qed.

(* ---- 10. what the async iterator yields in a run of the requester model, for EVERY op list (pipe events, registrations,
         drains, application cancels): message items, then at most one end (clean stop or an exception), then nothing *)
Theorem iterator_on_run_ends_at_most_once : forall has_obs reset ops, exists ids tail,
  itf (concat (run (sys0 has_obs reset) ops)) = map OIt ids ++ tail
  /\ (tail = [] \/ tail = [OItStop] \/ exists e, tail = [OItExn e]).
Proof.
  intros has_obs reset ops. destruct (run_it ops (sys0 has_obs reset)) as [_ H]. { unfold started_if_finished. cbn. discriminate. }
  destruct (H eq_refl) as (ids & tail & E & T). exists ids, tail. split; [exact E|]. destruct T as [T|[T|T]]; auto.
Qed.
Print Assumptions iterator_on_run_ends_at_most_once.

(* "final response followed by a cancellation signal" is FALSE on the iterator interface (open finding
   C07:iter-final-response-lost): notification 4 waits for the consumer when final response 5 and its end signal arrive *)
Theorem iterator_final_response_delivered_refuted :
  concat (run (sys0 true 128000000)
    [OpIter; OpEvent 0 (EvMsg 2 (Some 5) false); OpDrain;
     OpEvent 1000000 (EvMsg 4 (Some 6) false); OpEvent 2000000 (EvMsg 5 None true); OpDrain])
  = [OResp 2; OEnd; OIt 4; OItStop].
Proof. vm_compute. reflexivity. Qed.
Print Assumptions iterator_final_response_delivered_refuted.

(* ---- 11. in EVERY state and for every op (other than re-registering k): an end signal handed to observer k means the
         pipe's interest has ended when the op is done (generalises end_signal_releases_interest from live states);
         token_released_with_interest then gives the released token for every datagram history
         (composed in stack_end_signal_releases_token below). *)
Theorem end_signal_releases_interest_in_every_state : forall k s o, (forall k', o = OpRegister k' -> k' <> k) ->
  end_signals (view k (snd (step s o))) <> [] -> s_ended (fst (step s o)) = true.
Proof. intros k s o H. apply (tr_step k s o H). Qed.
Print Assumptions end_signal_releases_interest_in_every_state.

(* on the network: a first response without Observe option of any type ends the observation as NotObservable
   and releases the token *)
Theorem stack_first_response_without_observe : forall k reset t0 now mt id mid, mt <> RST ->
  let k1 := fst (sstep (stack0 true reset false t0) (SApp t0 (OpRegister k))) in
  let r := sstep k1 (SResponse now mt id None true mid) in
  view k (apps (snd r)) = [EndSignal (Some NotObservable)] /\ k_token (fst r) = false.
Proof. exact stack_first_response_no_observe. Qed.
Print Assumptions stack_first_response_without_observe.

(* ---- 12. freshest-delivered on the run itself (not on the helper accept) *)
Theorem freshest_delivered_on_run : forall k reset t0 id0 v0 ops base lo, no_reg k ops ->
  in_window base v0 -> timely lo reset t0 ->
  Forall (fun n => in_window base (n_v n) /\ timely lo reset (n_t n)) (live_notifs ops) ->
  exists acc, deliveries (observed k reset (OpEvent t0 (EvMsg id0 (Some v0) false) :: ops)) = map n_id acc ++ final_response ops
    /\ Subseq acc (live_notifs ops) /\ increasing base v0 acc
    /\ off base (last_v v0 acc) = max_off base v0 (live_notifs ops).
Proof. 
  intros k reset t0 id0 v0 ops base lo Hn W0 T0 HF. exists (accept reset v0 t0 (live_notifs ops)).
  split; [apply delivered_is_freshness_filter; exact Hn|]. split; [apply accept_subseq|apply (freshest_accepted base lo); assumption].
 Qed.
Print Assumptions freshest_delivered_on_run.

(* ---- 13. the 128 s of the property text is the constant the code reads *)
Theorem reset_time_is_128 : OBSERVATION_RESET_TIME = 128.
Proof. reflexivity. Qed.
Print Assumptions reset_time_is_128.

Theorem default_tuning_resets_after_128_s : forall v t1 t2,
  is_recent v v t1 t2 (OBSERVATION_RESET_TIME * 1000000) = true <-> t2 > t1 + 128000000.
Proof. 
  intros. rewrite is_recent_spec. unfold rfc_fresh, serial_lt. change (OBSERVATION_RESET_TIME * 1000000) with 128000000. lia.
 Qed.
Print Assumptions default_tuning_resets_after_128_s.

(* ---- 14. a transport failure BEFORE the first response ends the observation as NotObservable (the
         exception goes to request.response) — open finding C07:first-failure-signalled-as-not-observable *)
Theorem transport_failure_before_first_response : forall k reset now e post, no_reg k post ->
  map (view k) (run (sys0 true reset) (OpRegister k :: OpEvent now (EvExn e) :: post))
  = [] :: [EndSignal (Some NotObservable)] :: map (fun _ => []) post.
Proof. intros. apply first_response_final_is_not_observable; [assumption|reflexivity]. Qed.
Print Assumptions transport_failure_before_first_response.

Theorem network_error_on_failed_request_refuted :
  run (sys0 true 128000000) [OpRegister 0; OpEvent 0 (EvExn NetworkError)]
  = [[]; [ORespExn NetworkError; OEb 0 (Some NotObservable); OEnd]].
Proof. vm_compute. reflexivity. Qed.
Print Assumptions network_error_on_failed_request_refuted.

(* ---- 15. over EVERY datagram history of the stack model (responses of every type, empty ACK / RST, transport errors, time
         passing, application and loop actions; the observer is not registered a second time): if the observer was handed an
         end signal anywhere in the history, the observation's token is released at its end ... *)
Theorem stack_end_signal_releases_token : forall k has_obs reset con t0 ops,
  (forall o, In o ops -> not_rereg k o) ->
  sig k (history_apps (fst (srun (stack0 has_obs reset con t0) (SApp t0 (OpRegister k) :: ops)))) ->
  snd (srun (stack0 has_obs reset con t0) (SApp t0 (OpRegister k) :: ops)) = false.
Proof. exact Proofs.C07R6.stack_end_signal_releases_token. Qed.
Print Assumptions stack_end_signal_releases_token.

(* ... and the next notification on that token is rejected like an unknown response: later_notifications_rejected with its
   hypothesis [k_token k = false] discharged by the history *)
Theorem stack_notification_after_end_rejected : forall k has_obs reset con t0 ops now mt id observe tok mid j,
  (forall o, In o ops -> not_rereg k o) -> (mt = CON \/ mt = NON) ->
  let hist := SApp t0 (OpRegister k) :: ops in
  sig k (history_apps (fst (srun (stack0 has_obs reset con t0) hist))) ->
  let r := sstep (srun_state (stack0 has_obs reset con t0) hist) (SResponse now mt id observe tok mid) in
  k_token (fst r) = false /\ wires (snd r) = (match mt with CON => [RST] | _ => [] end) /\ view j (apps (snd r)) = [].
Proof. exact Proofs.C07R6.stack_notification_after_end_rejected. Qed.
Print Assumptions stack_notification_after_end_rejected.

(* ---- 16. BlockwiseRequest's observation over EVERY history (datagrams on the observation's and the follow-ups' tokens,
         transport errors, loop runs): the outer observation is handed notifications, then at most one end signal, then
         nothing (blockwise_silent_after_end's hypothesis [dead] is reached by every end signal) *)
Theorem blockwise_ends_at_most_once : forall reset t0 ops, exists cbs tail,
  outer_obs (brun_outs (bw0 reset t0) ops) = cbs ++ tail /\ Forall isCb cbs /\ (tail = [] \/ exists e, tail = [BEb e]).
Proof. intros. apply blockwise_ends_once_from. apply inv_bw0. Qed.
Print Assumptions blockwise_ends_at_most_once.

(* ---- 17. over EVERY run of the requester model (pipe events, late observers, start of the iteration at any point, loop
         runs, application cancels) the message ids the async iterator yields form an in-order subsequence of what an
         observer registered from the start is handed *)
Theorem iterator_on_run_subsequence : forall k reset ops, no_reg k ops ->
  Subseq (it_ids (concat (run (sys0 true reset) (OpRegister k :: ops)))) (deliveries (observed k reset ops)).
Proof. exact Proofs.C07R6c.iterator_on_run_subsequence. Qed.
Print Assumptions iterator_on_run_subsequence.

Example stack_history_instance :
  sig 0 (history_apps (fst (srun (stack0 true 128000000 true 0)
     [SApp 0 (OpRegister 0); SResponse 0 ACK 1 (Some 5) true true; SResponse 1 NON 2 None true false]))).
Proof. unfold sig. vm_compute. discriminate. Qed.

(* ================================================================== non-vacuity *)
(* a concrete reordered, duplicated, wrapping history: first response Observe 2^24-2; arrivals 2^24-1, 1, 0 (late),
   1 (duplicate), then 0 again after more than 128 s (fresh again by the time rule), then a 4.04 without Observe *)
Definition history : list op :=
  [ OpEvent 0 (EvMsg 1 (Some (W - 2)) false);
    OpEvent 1000000 (EvMsg 2 (Some (W - 1)) false);
    OpEvent 2000000 (EvMsg 3 (Some 1) false);
    OpEvent 3000000 (EvMsg 4 (Some 0) false);
    OpEvent 4000000 (EvMsg 5 (Some 1) false);
    OpEvent 131000000 (EvMsg 6 (Some 0) false);
    OpEvent 132000000 (EvMsg 7 None true);
    OpEvent 133000000 (EvMsg 8 (Some 2) false) ].
Example history_no_reg : no_reg 0 history.
Proof. intros k' H. cbn in H. repeat (destruct H as [H|H]; [discriminate|]). contradiction. Qed.
Example history_observed :
  observed 0 128000000 history
  = [Deliver 2; Deliver 3; Deliver 6; Deliver 7; EndSignal (Some ObservationCancelled)].
Proof. vm_compute. reflexivity. Qed.

(* the half-window hypothesis of freshest_delivered is satisfiable across the wrap-around *)
Example window_across_wrap : in_window (W - 2) (W - 1) /\ in_window (W - 2) 0 /\ in_window (W - 2) 5.
Proof. unfold in_window, in_range, off, W, HW. cbn. lia. Qed.
Example freshest_instance :
  last_v (W - 2) (accept 128000000 (W - 2) 0
     [ {| n_id := 1; n_v := 0; n_t := 10 |}; {| n_id := 2; n_v := 5; n_t := 20 |}; {| n_id := 3; n_v := W - 1; n_t := 30 |}; {| n_id := 4; n_v := 5; n_t := 40 |} ]) = 5.
Proof. vm_compute. reflexivity. Qed.

(* the hypotheses of end_signal_releases_interest / later_notifications_rejected are reachable *)
Example live_state : live 0 (fst (step (sys0 true 128000000) (OpRegister 0))).
Proof. unfold live. cbn. auto. Qed.
Example token_gone_reachable :
  k_token (srun_state (stack0 true 128000000 true 0)
             [SApp 0 (OpRegister 0); SResponse 0 ACK 1 (Some 5) true true; SResponse 1 NON 2 None true false]) = false.
Proof. vm_compute. reflexivity. Qed.
Example rejected_after_end :
  fst (srun (stack0 true 128000000 true 0)
        [SApp 0 (OpRegister 0); SResponse 0 ACK 1 (Some 5) true true; SResponse 1 NON 2 None true false; SResponse 2 CON 3 (Some 6) true false])
  = [[]; [App (OResp 1)]; [App (OCb 0 2); App (OEb 0 (Some ObservationCancelled)); App OEnd]; [Wire RST]].
Proof. vm_compute. reflexivity. Qed.
