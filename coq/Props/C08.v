(* C08 — observe server. Statements, with concrete examples checked by evaluation; the proofs are in Proofs/C08*.v and each
   script here is [exact <lemma>] or a line or two from a more general lemma. *)
From Verif Require Import Lib.Py Lib.Tactics Model.C08 Proofs.C08 Proofs.C08Silent Proofs.C08Ends Proofs.C08Observe Proofs.C08Wire Proofs.C08Latest Proofs.C08Progress Proofs.C08R6 Proofs.C08Advance.
Open Scope Z_scope.

(* The resource's bookkeeping, for every history of requests, observer reactions, losses, timers, triggers,
   transport errors and shutdown, for any number of simultaneous registrations: the live registrations are exactly
   the resource's observers; add_observation ran once per accepted registration; the cancellation callback ran
   exactly once for every registration that is no longer an observer and never for one that still is; every
   update_observation_count call reported the true number of observers (so ending a registration brings the count
   back to what it was before that registration was accepted). *)
Theorem C08_cancel_exactly_once_count_restored : forall mid0 es, let s := run (init mid0) es in
  map g_gid (s_regs s) = s_observers s /\ NoDup (s_observers s) /\
  (forall g, count_add g (s_hist s) = if in_range g (s_gidctr s) then 1%nat else 0%nat) /\
  (forall g, count_cancel g (s_hist s) = if in_range g (s_gidctr s) && negb (memZ g (s_observers s)) then 1%nat else 0%nat) /\
  counts_ok (s_hist s) /\ Z.of_nat (length (s_observers s)) = balance (s_hist s).
Proof. exact bookkeeping. Qed.

(* ---- once ended: silence.  For a registration g that has ended (it is not in incoming_requests and its number has been
   issued), one event of any kind: it stays ended; nothing is handed to the message layer for it; the only datagrams
   transmitted for the first time for it are ones that were waiting in the per-endpoint backlog when the event began; and its
   share of the backlog does not grow. *)
Theorem C08_silent_after_end_step : forall s e g, 0 <= g -> okreg g s -> Q (queued_for g s) g s (step s e).
Proof. exact silent_step. Qed.
(* over every continuation of the history *)
Theorem C08_silent_after_end : forall es s g, 0 <= g -> okreg g s ->
  okreg g (run s es) /\
  (exists l, s_prod (run s es) = l ++ s_prod s /\ Forall (fun m => m_gid m <> g) l) /\
  (exists h, s_hist (run s es) = h ++ s_hist s /\ forall m, In (OSend m false) h -> m_gid m = g -> queued_for g s m).
Proof. exact silent_run. Qed.
(* the unconditional statement "no datagram for it is ever sent again" is false of the faithful model (finding F16) *)
Theorem C08_silent_on_wire_refuted :
  let s1 := run (init 0) (firstn 3 f16_events) in let s2 := run (init 0) f16_events in
  live 0 s1 /\ ~ live 0 s2 /\ count_cancel 0 (s_hist s2) = 1%nat /\
  notif 0 (s_hist s1) = [(1, 0); (0, 1)] /\ notif 0 (s_hist s2) = [(1, 0); (0, 1); (1, 2)].
Proof. exact silent_on_wire_refuted. Qed.
Print Assumptions C08_silent_on_wire_refuted.

(* ---- what ends a registration (together with the first theorem: callback exactly once, count restored) *)
Theorem C08_ends_on_same_token_request : forall s r con mid tok obs g0,
  find_key s r tok = Some g0 -> s_down s = false -> in_recent s r mid = None -> 0 <= g_gid g0 < s_gidctr s ->
  ~ live (g_gid g0) (step s (ERequest r con mid tok obs)).
Proof. intros s r con mid tok obs g0 Hk Hd Hr Hg. apply ends_on_same_token_below; [assumption .. | lia]. Qed.
(* Reset: case split — a notification that has an exchange entry, i.e. a confirmable one ... *)
Theorem C08_ends_on_reset_of_confirmable : forall s r mid x,
  find (fun x => (x_remote x =? r) && (x_mid x =? mid)) (s_exch s) = Some x -> s_down s = false -> 0 <= x_gid x < s_gidctr s ->
  ~ live (x_gid x) (step s (ERst r mid)).
Proof. intros s r mid x Hx Hd _. apply ends_on_rst_con_any; assumption. Qed.
Print Assumptions C08_ends_on_reset_of_confirmable.
(* ... while for a non-confirmable notification the statement is false of the faithful model (finding F15) *)
Theorem C08_ends_on_reset_of_nonconfirmable_refuted :
  let s := run (init 0) f15_events in
  live 0 s /\ s_observers s = [0] /\ count_cancel 0 (s_hist s) = 0%nat /\ notif 0 (s_hist s) = [(0, 0); (1, 1); (2, 2)].
Proof. exact rst_on_non_refuted. Qed.
Print Assumptions C08_ends_on_reset_of_nonconfirmable_refuted.
Theorem C08_ends_on_transport_error : forall s r g0,
  In g0 (s_regs s) -> g_remote g0 = r -> s_down s = false -> 0 <= g_gid g0 < s_gidctr s ->
  ~ live (g_gid g0) (step s (ETransportError r)).
Proof. intros s r g0 Hi Hr Hd _. apply ends_on_transport_error_any; assumption. Qed.
Print Assumptions C08_ends_on_transport_error.
Theorem C08_ends_on_notification_timeout : forall s m t g0,
  In g0 (s_regs s) -> g_remote g0 = m_remote m -> 0 <= g_gid g0 < s_gidctr s ->
  ~ live (g_gid g0) (flush_cancels (fire s (KRetrans m t MAX_RETRANSMIT))).
Proof. intros s m t g0 Hi Hr _. apply ends_on_timeout_any; assumption. Qed.
Print Assumptions C08_ends_on_notification_timeout.
Theorem C08_ends_on_shutdown : forall s, s_down s = false -> s_regs (step s EShutdown) = [].
Proof. exact ends_on_shutdown. Qed.
Print Assumptions C08_ends_on_shutdown.
Theorem C08_ends_on_unsuccessful_or_last : forall cont s g0 res,
  0 <= g_gid g0 < s_gidctr s ->
  match res with RResp code _ _ => g_late g0 || negb (successful code) = true | RRaise _ _ _ => True end ->
  ~ live (g_gid g0) (after_response cont s g0 res).
Proof. intros cont s g0 res _ Hres. rewrite after_response_respond. apply ends_on_respond, Hres. Qed.
Print Assumptions C08_ends_on_unsuccessful_or_last.
Theorem C08_ends_on_unsuccessful_first_response : forall s g0 res,
  match res with RResp code _ _ => successful code = false | RRaise _ _ _ => True end ->
  ~ live (g_gid g0) (first_render_done s g0 res).
Proof. intros s g0 res Hres. rewrite first_render_done_respond. apply ends_on_respond. destruct res; [rewrite Hres; reflexivity | exact I]. Qed.
Print Assumptions C08_ends_on_unsuccessful_first_response.

(* ---- token and strictly rising Observe numbers ON THE WIRE, for every history and every registration number g:
   (FIFO) the datagrams transmitted for the first time for g, in order, followed by those still waiting in the per-endpoint
   backlog, are a prefix of what the render task produced — all of it while g is live;
   their Observe values are 0,1,2,... (only the very last one may carry none: the final notification), hence strictly rising;
   all of them carry one endpoint and one token, those of the live registration. *)
Theorem C08_wire_token_and_strictly_increasing_observe : forall mid0 es g, 0 <= g -> let s := run (init mid0) es in
  (exists D, prodl g s = wirel g s ++ queuel g s ++ D) /\
  consec 0 (observes (wirel g s)) /\
  Sorted.StronglySorted Z.lt (obs_values (observes (wirel g s))) /\
  (forall m1 m2, In m1 (wirel g s) -> In m2 (wirel g s) -> m_remote m1 = m_remote m2 /\ m_token m1 = m_token m2) /\
  (forall g0, In g0 (s_regs s) -> g_gid g0 = g ->
     prodl g s = wirel g s ++ queuel g s /\
     observes (prodl g s) = somes (g_next g0 + 1) /\
     forall m, In m (wirel g s) -> m_remote m = g_remote g0 /\ m_token m = g_token g0).
Proof. exact wire_fifo_observe. Qed.
(* the invariant behind it holds in every reachable state (backlog entries are CON and have an exchange for their endpoint,
   a NON registration never queues, a pending piggy-back opportunity means nothing was produced yet, ...) *)
Theorem C08_backlog_fifo_invariant : forall mid0 es, FI None (run (init mid0) es).
Proof. intros. apply run_FI, FI_init. Qed.
Example C08_wire_nonvacuous :
  let s := run (init 0) [ERequest 1 true 1 1 (Some 0); ETrigger [] [(TRender, false)]; ETrigger [] [(TRender, false)]; ETrigger [] [(TRender, false)]; EAck 1 0] in
  map m_observe (wirel 0 s) = [Some 0; Some 1; Some 2] /\ map m_observe (queuel 0 s) = [Some 3] /\ exists g0, In g0 (s_regs s) /\ g_gid g0 = 0.
Proof. vm_compute. repeat split. eexists. split; [left; reflexivity | reflexivity]. Qed.

(* the code-level facts the invariant rests on (one pass of the notification loop) *)
Theorem C08_notification_token_and_observe_loop : forall s g code o pk pv,
  exists m, s_prod (emit s g code o pk pv) = m :: s_prod s /\
            m_token m = g_token g /\ m_remote m = g_remote g /\ m_observe m = o /\ m_gid m = g_gid g /\ m_code m = code /\ m_pk m = pk /\ m_pv m = pv.
Proof. exact emit_spec. Qed.
Print Assumptions C08_notification_token_and_observe_loop.
Theorem C08_first_response_observe_zero_loop : forall s g code pk pv, successful code = true ->
  first_render_done s g (RResp code pk pv) = run_loop 2 (emit s (set_next g 0) code (Some 0) pk pv) (set_next g 0).
Proof. exact first_response_observe_zero. Qed.
Print Assumptions C08_first_response_observe_zero_loop.
Theorem C08_observe_strictly_increasing_loop : forall cont s g code pk pv, g_late g = false -> successful code = true ->
  after_response cont s g (RResp code pk pv) =
  cont (emit s (set_next g (g_next g + 1)) code (Some (g_next g + 1)) pk pv) (set_next g (g_next g + 1)).
Proof. exact notification_observe_next. Qed.
Print Assumptions C08_observe_strictly_increasing_loop.
(* ---- latest state sent, over whole histories.  For every event list from the initial state and every LIVE registration g0
   (an ended one is the property's "or the registration ended"), under the fairness hypotheses
     - no render of g0 is in progress at the end (its task waits for the next trigger: g_phase g0 = PWait), and
     - nothing of g0 waits in the backlog (the peer has acknowledged what was sent before: queuel = []),
   there is a datagram for g0 on the wire, no trigger is pending, and the LAST datagram transmitted for g0 is the notification
   produced last; if it was rendered (m_pk = 1) it carries the resource's current version, i.e. it was rendered at or after
   the last trigger (s_version is changed by ETrigger only, once per state change). An explicit response (m_pk = 2) is the
   value the application passed; that the lossy future keeps the last one is C08_trigger_keeps_latest_loop. *)
Theorem C08_latest_state_sent : forall mid0 es g0, let s := run (init mid0) es in
  In g0 (s_regs s) -> g_phase g0 = PWait -> queuel (g_gid g0) s = [] ->
  g_trig g0 = None /\
  exists m, last_wire (g_gid g0) s = Some m /\ lastp (g_gid g0) s = Some m /\ (m_pk m = 1 -> m_pv m = s_version s).
Proof. exact latest_state_sent. Qed.
(* the invariant behind it, for every registration in every reachable state: an idle task has no pending trigger and its last
   produced notification is current; a render in progress without a newer trigger pending was started at the current version
   (so the notification it will produce is current; with a newer trigger pending another render follows) *)
Theorem C08_latest_state_invariant : forall mid0 es g0, In g0 (s_regs (run (init mid0) es)) -> QV (run (init mid0) es) g0.
Proof. intros mid0 es. apply (reach mid0 es). Qed.
(* the fairness hypotheses are satisfiable: slow renders, a burst of changes during a render, a notification waiting in the
   backlog until the previous one is acknowledged — then idle, nothing queued, and the last datagram carries version 3 = now *)
Example C08_latest_state_fair_example :
  let s := run (init 0) [ERequest 1 true 1 1 (Some 0); ESetGate true; ETrigger [] [(TRender, false)];
                         ETrigger [] [(TRender, false); (TRender, false)]; ERenderDone 1 1; ERenderDone 1 1; EAck 1 0; EAck 1 1] in
  (exists g0, In g0 (s_regs s) /\ g_gid g0 = 0 /\ g_phase g0 = PWait) /\ queuel 0 s = [] /\ s_version s = 3 /\
  map m_pv (wirel 0 s) = [0; 1; 3] /\ option_map m_pv (last_wire 0 s) = Some 3.
Proof. vm_compute. split; [eexists; split; [left; reflexivity | split; reflexivity] | repeat split].  Qed.
(* before the acknowledgement the newest notification still waits in the backlog: the hypothesis is not vacuous either way *)
Example C08_latest_state_unfair_example :
  let s := run (init 0) [ERequest 1 true 1 1 (Some 0); ESetGate true; ETrigger [] [(TRender, false)];
                         ETrigger [] [(TRender, false); (TRender, false)]; ERenderDone 1 1; ERenderDone 1 1] in
  map m_pv (queuel 0 s) = [3] /\ option_map m_pv (last_wire 0 s) = Some 1 /\ s_version s = 3.
Proof. vm_compute. repeat split. Qed.

(* ---- the liveness half: the fairness state is REACHED.  From every reachable state that is not shut down, for
   every live registration, a finite list of progress events — renders stop being slow, the render in progress completes, the
   peer acknowledges what is in flight (no state change, no loss) — leads, without changing the resource's version, to a state
   where the registration has ended or is idle with nothing of it in the backlog; there the last datagram on the wire is current. *)
Theorem C08_latest_state_reached : forall mid0 es g0, let s := run (init mid0) es in
  In g0 (s_regs s) -> s_down s = false ->
  exists es', Forall progress_event es' /\ let s' := run s es' in
    s_version s' = s_version s /\
    (~ live (g_gid g0) s' \/
     exists g1, In g1 (s_regs s') /\ g_gid g1 = g_gid g0 /\ g_phase g1 = PWait /\ queuel (g_gid g0) s' = []).
Proof. exact progress_schedule. Qed.
Theorem C08_latest_state_eventually_sent : forall mid0 es g0, let s := run (init mid0) es in
  In g0 (s_regs s) -> s_down s = false ->
  exists es', Forall progress_event es' /\ let s' := run s es' in
    s_version s' = s_version s /\
    (~ live (g_gid g0) s' \/ exists m, last_wire (g_gid g0) s' = Some m /\ (m_pk m = 1 -> m_pv m = s_version s)).
Proof. exact eventually_sent. Qed.

(* code-level fact: a burst of triggers before the task runs leaves exactly the last value in the (lossy) future, with a sticky is_last *)
Theorem C08_trigger_keeps_latest_loop : forall s gid g tv1 l1 tv2 l2, find_reg s gid = Some g ->
  find_reg (trigger (trigger s gid tv1 l1) gid tv2 l2) gid = Some (set_trig g (Some tv2) (g_late g || l1 || l2)).
Proof. exact trigger_overwrites. Qed.
Print Assumptions C08_trigger_keeps_latest_loop.

(* ---- The "ends on ..." theorems for REACHABLE states, without the side condition on registration numbers
   (0 <= gid < counter) of the one-step versions above. Only the same-token case uses reachability (the new registration must not
   take the old one's number); the other three are instances of lemmas that hold in every state (Proofs/C08Ends.v, ends_on_*_any). *)
Theorem C08_ends_on_same_token_request_reachable : forall mid0 es r con mid tok obs g0, let s := run (init mid0) es in
  find_key s r tok = Some g0 -> s_down s = false -> in_recent s r mid = None -> ~ live (g_gid g0) (step s (ERequest r con mid tok obs)).
Proof. intros mid0 es r con mid tok obs g0 s Hk Hd Hr. apply ends_on_same_token_below; auto. apply reach_rng, (find_key_In _ _ _ _ Hk). Qed.
Theorem C08_ends_on_reset_of_confirmable_reachable : forall mid0 es r mid x, let s := run (init mid0) es in
  find (fun x => (x_remote x =? r) && (x_mid x =? mid)) (s_exch s) = Some x -> s_down s = false -> ~ live (x_gid x) (step s (ERst r mid)).
Proof. intros mid0 es r mid x s. apply ends_on_rst_con_any. Qed.
Theorem C08_ends_on_transport_error_reachable : forall mid0 es r g0, let s := run (init mid0) es in
  In g0 (s_regs s) -> g_remote g0 = r -> s_down s = false -> ~ live (g_gid g0) (step s (ETransportError r)).
Proof. intros mid0 es r g0 s. apply ends_on_transport_error_any. Qed.
Theorem C08_ends_on_notification_timeout_reachable : forall mid0 es m t g0, let s := run (init mid0) es in
  In g0 (s_regs s) -> g_remote g0 = m_remote m -> ~ live (g_gid g0) (flush_cancels (fire s (KRetrans m t MAX_RETRANSMIT))).
Proof. intros mid0 es m t g0 s. apply ends_on_timeout_any. Qed.
(* "ends when a notification is unsuccessful or marked last" at the level of the EVENT, for every reachable state: a state
   change announced with is_last, or with an unsuccessful explicit response, ends every registration whose task is idle (the
   others end when their render completes: C08_ends_on_unsuccessful_or_last), whatever the other observers' tasks do first *)
Theorem C08_ends_on_last_or_unsuccessful_trigger : forall mid0 es g0 perm tv l, let s := run (init mid0) es in
  In g0 (s_regs s) -> g_phase g0 = PWait -> (tv = TRender -> s_gate s = false) ->
  (l = true \/ exists code k, tv = TResp code k /\ successful code = false) ->
  ~ live (g_gid g0) (step s (ETrigger perm [(tv, l)])).
Proof. exact ends_on_trigger_event. Qed.
Example C08_ends_on_last_trigger_example :
  let s := run (init 0) [ERequest 1 true 1 1 (Some 0); ERequest 2 false 2 1 (Some 0)] in
  (exists g0, In g0 (s_regs s) /\ g_gid g0 = 1 /\ g_phase g0 = PWait) /\ s_gate s = false /\
  s_observers (step s (ETrigger [1%nat] [(TRender, true)])) = [].
Proof. vm_compute. split; [eexists; split; [right; left; reflexivity | split; reflexivity] | split; reflexivity]. Qed.
(* the only "internal error" outcome of the model — [advance] running out of fuel with timers still due — is unreachable:
   in ANY state, after step (EAdvance dt) every remaining timer is due later than the new clock *)
Theorem C08_advance_fires_all_due_timers : forall s dt tm, In tm (s_timers (step s (EAdvance dt))) -> s_now s + dt < t_due tm.
Proof. exact advance_event_drains. Qed.
Print Assumptions C08_advance_fires_all_due_timers.

(* ---- non-vacuity: concrete reachable states satisfy the hypotheses *)
Example C08_nonvacuous_reset :
  let s := run (init 0) [ERequest 1 true 1 1 (Some 0); ETrigger [] [(TRender, false)]] in
  exists x, find (fun x => (x_remote x =? 1) && (x_mid x =? 0)) (s_exch s) = Some x /\ s_down s = false /\ 0 <= x_gid x < s_gidctr s /\ live (x_gid x) s.
Proof. vm_compute. eexists. repeat split; try reflexivity; try discriminate. left. reflexivity. Qed.
Example C08_nonvacuous_ended :
  let s := run (init 0) f16_events in okreg 0 s /\ exists m, queued_for 0 (run (init 0) (firstn 3 f16_events)) m.
Proof. vm_compute. split; [split; [intros [] | reflexivity]|]. eexists. split; [left; reflexivity | reflexivity]. Qed.
Example C08_rst_on_con_example :
  let s := run (init 0) [ERequest 1 true 1 1 (Some 0); ETrigger [] [(TRender, false)]; ERst 1 0; ETrigger [] [(TRender, false)]] in
  ~ live 0 s /\ s_observers s = [] /\ count_cancel 0 (s_hist s) = 1%nat /\ notif 0 (s_hist s) = [(1, 0); (0, 1)].
Proof. exact rst_on_con_example. Qed.

(* The theorems above that have no Print Assumptions of their own share most of their proof terms; their assumptions are
   printed in one traversal: the term below mentions every one of them, so any axiom any of them depended on would be listed here. *)
Definition C08_history_level_theorems :=
  (C08_wire_token_and_strictly_increasing_observe,
   C08_backlog_fifo_invariant,
   C08_latest_state_sent,
   C08_latest_state_invariant,
   C08_latest_state_reached,
   C08_latest_state_eventually_sent,
   C08_ends_on_same_token_request_reachable,
   C08_ends_on_reset_of_confirmable_reachable,
   C08_ends_on_transport_error_reachable,
   C08_ends_on_notification_timeout_reachable,
   C08_ends_on_last_or_unsuccessful_trigger,
   C08_cancel_exactly_once_count_restored,
   C08_silent_after_end_step,
   C08_silent_after_end,
   C08_ends_on_same_token_request).
Print Assumptions C08_history_level_theorems.

(* ---- the model's transport constants and message-ID successor are the translated source's
   (Gen/c03_constants.v <- numbers/constants.py TransportTuning, microseconds = seconds * 10^6; Gen/c14_message_id.v <- MessageManager._next_message_id) *)
From Verif Require Gen.c03_constants Gen.c14_message_id.
From Verif Require Proofs.C08Tie.
Theorem C08_exchange_lifetime_is_source :
  QArith_base.Qeq (QArith_base.inject_Z EXCHANGE_LIFETIME_US) (QArith_base.Qmult (c03_constants.EXCHANGE_LIFETIME c03_constants.default_transport_tuning) (QArith_base.inject_Z 1000000)).
Proof. exact C08Tie.exchange_lifetime_is_source. Qed.
Print Assumptions C08_exchange_lifetime_is_source.
Theorem C08_empty_ack_delay_is_source :
  QArith_base.Qeq (QArith_base.inject_Z EMPTY_ACK_DELAY_US) (QArith_base.Qmult (c03_constants.tt_EMPTY_ACK_DELAY c03_constants.default_transport_tuning) (QArith_base.inject_Z 1000000)).
Proof. exact C08Tie.empty_ack_delay_is_source. Qed.
Print Assumptions C08_empty_ack_delay_is_source.
Theorem C08_ack_timeout_is_source :
  QArith_base.Qeq (QArith_base.inject_Z ACK_TIMEOUT_US) (QArith_base.Qmult (c03_constants.tt_ACK_TIMEOUT c03_constants.default_transport_tuning) (QArith_base.inject_Z 1000000)).
Proof. exact C08Tie.ack_timeout_is_source. Qed.
Print Assumptions C08_ack_timeout_is_source.
Theorem C08_max_retransmit_is_source :
  MAX_RETRANSMIT = c03_constants.tt_MAX_RETRANSMIT c03_constants.default_transport_tuning.
Proof. exact C08Tie.max_retransmit_is_source. Qed.
Print Assumptions C08_max_retransmit_is_source.
Theorem C08_next_message_id_is_source :
  forall mid, c14_message_id.next_message_id {| c14_message_id.mmids_message_id := mid |} = Ok ({| c14_message_id.mmids_message_id := (1 + mid) mod 65536 |}, mid).
Proof. exact C08Tie.next_message_id_is_source. Qed.
Print Assumptions C08_next_message_id_is_source.
