(* C03 — confirmable messages: bounded exponential back-off that always terminates.
   Statements; each proof is [exact <lemma of Proofs/C03*.v>] or a few lines from one.

   Setting: [run] of Model/C03.v from the initial state, over EVERY event list made of
     ERequest rid r tn   a CON request (fresh request id, any remote, any admissible tuning tn attached to the message),
     ERecv r is_rst mid  an empty ACK / RST datagram from any remote with any message id,
     EWaitUntil / EFire / EFireDue   passage of time and timer callbacks (timers fire exactly when due),
     EError r            the transport reports an error for r (MessageManager.dispatch_error),
     ECancel rid         the requester cancels Request.response,
     EResponse r ty mid rid   a 2.05 response from r (piggy-backed ACK / separate CON / NON) carrying the token of request rid,
     ERefuse r on        the transport starts / stops refusing datagrams to r synchronously (udp6 sendmsg failing: dispatch_error runs
                          inside message_interface.send); every theorem below holds for runs with such transports,
   and every scripted random stream in [0,1].  [trace_of] is the list of outputs (datagrams sent with their time, request
   failures with their time); times are integer microseconds.  tn = (ACK_TIMEOUT us, ACK_RANDOM_FACTOR = num/den, MAX_RETRANSMIT). *)
From Coq Require Import QArith String.
From Verif Require Import Lib.Py Lib.Tactics Gen.c03_constants Model.C03 Model.C03const.
From Verif Require Import Proofs.C03 Proofs.C03struct Proofs.C03hist Proofs.C03main Proofs.C03const Proofs.C03tm Proofs.C03R6b.
Open Scope Z_scope.
Definition dflt0 : tuning := {| ACK_TIMEOUT := 2000000; ARF_num := 3; ARF_den := 2; MAX_RETRANSMIT := 4 |}.

(* 1. at most 1 + MAX_RETRANSMIT transmissions of a message, all of them the identical message *)
Theorem C03_transmissions_bounded : forall mid0 draws evs t m, wf_run draws evs -> In (OSend t m) (trace_of mid0 draws evs) ->
  (forall t' m', In (OSend t' m') (trace_of mid0 draws evs) -> m_rid m' = m_rid m -> m' = m) /\
  Z.of_nat (length (copies (m_rid m) (trace_of mid0 draws evs))) <= 1 + MAX_RETRANSMIT (m_tuning m).
Proof. exact transmissions_bounded. Qed.
Print Assumptions C03_transmissions_bounded.

(* 2. the copies of a message leave at T0, T0 + t, T0 + 3t, T0 + 7t, ... (copy k at T0 + t*(2^k - 1)) where the initial
      timeout t lies in [ACK_TIMEOUT, ACK_TIMEOUT * ACK_RANDOM_FACTOR]; so the first gap is t and every later gap is twice the previous *)
Theorem C03_gaps_double : forall mid0 draws evs t m, wf_run draws evs -> In (OSend t m) (trace_of mid0 draws evs) ->
  exists T0 t0 n, copies (m_rid m) (trace_of mid0 draws evs) = sched_of m T0 t0 n /\ (0 < n)%nat /\
    ACK_TIMEOUT (m_tuning m) <= t0 /\ t0 * ARF_den (m_tuning m) <= ACK_TIMEOUT (m_tuning m) * ARF_num (m_tuning m).
Proof. exact gaps_double. Qed.
Print Assumptions C03_gaps_double.
Theorem C03_sched_gaps : forall T0 t k, 0 <= k ->
  (T0 + t * (2 ^ (k + 1) - 1)) - (T0 + t * (2 ^ k - 1)) = t * 2 ^ k /\
  (T0 + t * (2 ^ (k + 2) - 1)) - (T0 + t * (2 ^ (k + 1) - 1)) = 2 * ((T0 + t * (2 ^ (k + 1) - 1)) - (T0 + t * (2 ^ k - 1))).
Proof.
  intros. replace (k + 2) with ((k + 1) + 1) by lia. rewrite (pow2_succ (k + 1)) by lia. rewrite pow2_succ by lia. split; ring.
Qed.
Print Assumptions C03_sched_gaps.

(* 3. if no ACK / RST with the message's (remote, mid) ever arrives: either the exchange is still waiting for its next timer, which
      is not overdue (the clock never passes a pending timer), or all 1 + MAX_RETRANSMIT copies were sent and the request failed
      with ConRetransmitsExceeded exactly at T0 + t*(2^(MAX_RETRANSMIT+1) - 1), one more doubled interval after the last copy *)
Theorem C03_gives_up : forall mid0 draws evs t m, wf_run draws evs -> In (OSend t m) (trace_of mid0 draws evs) ->
  ~ In (m_remote m, m_mid m) (recv_keys evs) ->       (* no ACK / RST / piggy-backed response with its (remote, mid) *)
  ~ In (err_key (m_remote m)) (recv_keys evs) ->      (* no transport error reported for its remote *)
  ~ In (gone_key (m_rid m)) (recv_keys evs) ->        (* the request was neither cancelled nor answered by a separate response *)
  exists T0 t0 n, copies (m_rid m) (trace_of mid0 draws evs) = sched_of m T0 t0 n /\ (0 < n)%nat /\ range (m_tuning m) t0 /\
    Z.of_nat n <= MAX_RETRANSMIT (m_tuning m) + 1 /\
    ( (exists e, In e (active_exchanges (final_of mid0 draws evs)) /\ h_message (e_timer e) = m /\
                 h_due (e_timer e) = T0 + t0 * (2 ^ Z.of_nat n - 1) /\ now (final_of mid0 draws evs) <= h_due (e_timer e)) \/
      (Z.of_nat n = MAX_RETRANSMIT (m_tuning m) + 1 /\
       In (OFail (T0 + t0 * (2 ^ (MAX_RETRANSMIT (m_tuning m) + 1) - 1)) (m_rid m) ConRetransmitsExceeded) (trace_of mid0 draws evs)) \/
      (* ... or a (re)transmission was refused by the transport and the request failed with NetworkError *)
      (exists tf, In (OFail tf (m_rid m) NetworkError) (trace_of mid0 draws evs)) ).
Proof. exact gives_up. Qed.
Print Assumptions C03_gives_up.
(* 3a. Where a NetworkError failure can come from: on a transport that never refuses ([no_refusal]: no `ERefuse _ true`
   in the event list) it needs a transport error report; holds for EVERY event list, no well-formedness needed *)
Theorem C03_network_error_has_cause : forall mid0 draws evs tf rid, no_refusal evs ->
  In (OFail tf rid NetworkError) (trace_of mid0 draws evs) -> exists r, In (EError r) evs.
Proof.
  intros mid0 draws evs tf rid Hn Hi. destruct (network_error_for_remote _ _ _ _ _ Hn Hi) as (r & _ & _ & Hr). eauto.
Qed.
Print Assumptions C03_network_error_has_cause.
(* ... hence the give-up clause on a plain transport (no refusal, no transport error, no ACK / RST for the message, request neither
   cancelled nor answered) has exactly the two outcomes of the property text, and nobody fails with NetworkError.
   That the failure at the deadline is the ONLY failure of the request, and of which class every failure is, is 3a'' and 3c below *)
Theorem C03_gives_up_plain : forall mid0 draws evs t m, wf_run draws evs -> no_refusal evs -> (forall r, ~ In (EError r) evs) ->
  In (OSend t m) (trace_of mid0 draws evs) ->
  ~ In (m_remote m, m_mid m) (recv_keys evs) -> ~ In (err_key (m_remote m)) (recv_keys evs) -> ~ In (gone_key (m_rid m)) (recv_keys evs) ->
  exists T0 t0 n, copies (m_rid m) (trace_of mid0 draws evs) = sched_of m T0 t0 n /\ (0 < n)%nat /\ range (m_tuning m) t0 /\
    Z.of_nat n <= MAX_RETRANSMIT (m_tuning m) + 1 /\
    ( (exists e, In e (active_exchanges (final_of mid0 draws evs)) /\ h_message (e_timer e) = m /\
                 h_due (e_timer e) = T0 + t0 * (2 ^ Z.of_nat n - 1) /\ now (final_of mid0 draws evs) <= h_due (e_timer e)) \/
      (Z.of_nat n = MAX_RETRANSMIT (m_tuning m) + 1 /\
       In (OFail (T0 + t0 * (2 ^ (MAX_RETRANSMIT (m_tuning m) + 1) - 1)) (m_rid m) ConRetransmitsExceeded) (trace_of mid0 draws evs)) ) /\
    forall tf rid, ~ In (OFail tf rid NetworkError) (trace_of mid0 draws evs).
Proof.
  intros mid0 draws evs t m W Hn He Hin H1 H2 H3.
  destruct (gives_up _ _ _ _ _ W Hin H1 H2 H3) as (T0 & t0 & n & Hc & Hn' & Hr & Hle & Hcase).
  assert (Hnn : forall tf rid, ~ In (OFail tf rid NetworkError) (trace_of mid0 draws evs))
    by (intros tf rid Hi; destruct (C03_network_error_has_cause _ _ _ _ _ Hn Hi) as [r Hr']; exact (He r Hr')).
  exists T0, t0, n. splits; auto. destruct Hcase as [Hc1|[Hc2|[tf Hf]]]; auto. destruct (Hnn _ _ Hf).
Qed.
Print Assumptions C03_gives_up_plain.
(* 3a'. The same per remote: a NetworkError failure of request rid needs a transport error for the very remote rid was addressed
   to (pending requests stay tied to their ERequest: outgoing_requests only shrinks); EVERY event list *)
Theorem C03_network_error_for_remote : forall mid0 draws evs tf rid, no_refusal evs ->
  In (OFail tf rid NetworkError) (trace_of mid0 draws evs) ->
  exists r tn, In (ERequest rid r tn) evs /\ In (EError r) evs.
Proof. exact network_error_for_remote. Qed.
Print Assumptions C03_network_error_for_remote.
(* ... so the give-up clause only needs "no transport error for the remote THIS request was addressed to" *)
Theorem C03_gives_up_plain_remote : forall mid0 draws evs t m, wf_run draws evs -> no_refusal evs ->
  (forall r tn, In (ERequest (m_rid m) r tn) evs -> ~ In (EError r) evs) ->
  In (OSend t m) (trace_of mid0 draws evs) ->
  ~ In (m_remote m, m_mid m) (recv_keys evs) -> ~ In (err_key (m_remote m)) (recv_keys evs) -> ~ In (gone_key (m_rid m)) (recv_keys evs) ->
  exists T0 t0 n, copies (m_rid m) (trace_of mid0 draws evs) = sched_of m T0 t0 n /\ (0 < n)%nat /\ range (m_tuning m) t0 /\
    Z.of_nat n <= MAX_RETRANSMIT (m_tuning m) + 1 /\
    ( (exists e, In e (active_exchanges (final_of mid0 draws evs)) /\ h_message (e_timer e) = m /\
                 h_due (e_timer e) = T0 + t0 * (2 ^ Z.of_nat n - 1) /\ now (final_of mid0 draws evs) <= h_due (e_timer e)) \/
      (Z.of_nat n = MAX_RETRANSMIT (m_tuning m) + 1 /\
       In (OFail (T0 + t0 * (2 ^ (MAX_RETRANSMIT (m_tuning m) + 1) - 1)) (m_rid m) ConRetransmitsExceeded) (trace_of mid0 draws evs)) ) /\
    forall tf, ~ In (OFail tf (m_rid m) NetworkError) (trace_of mid0 draws evs).
Proof.
  intros mid0 draws evs t m W Hn He Hin H1 H2 H3.
  destruct (gives_up _ _ _ _ _ W Hin H1 H2 H3) as (T0 & t0 & n & Hc & Hn' & Hr & Hle & Hcase).
  assert (Hnn : forall tf, ~ In (OFail tf (m_rid m) NetworkError) (trace_of mid0 draws evs))
    by (intros tf Hi; destruct (network_error_for_remote _ _ _ _ _ Hn Hi) as (r & tn & Hq & Hr'); exact (He r tn Hq Hr')).
  exists T0, t0, n. splits; auto. destruct Hcase as [Hc1|[Hc2|[tf Hf]]]; auto. destruct (Hnn _ Hf).
Qed.
Print Assumptions C03_gives_up_plain_remote.
(* 3a''. "The only failure of the request": over every well-formed run -- refusing transports, transport errors, RST, give-up and
   the collateral failures of a remote's other requests included -- the trace contains at most one failure output per request id
   ([fails rid tr] counts the OFail outputs of rid) *)
Theorem C03_request_fails_at_most_once : forall mid0 draws evs rid, wf_run draws evs -> (fails rid (trace_of mid0 draws evs) <= 1)%nat.
Proof. exact request_fails_at_most_once. Qed.
Print Assumptions C03_request_fails_at_most_once.
Example C03_fails_counts : fails 1 [OFail 5 1 MessageError; OSend 0 {| m_remote := 0; m_mid := 0; m_rid := 1; m_tuning := dflt0 |}; OFail 7 1 NetworkError; OFail 7 2 NetworkError] = 2%nat.
Proof. reflexivity. Qed.
(* 3b. "instead of hanging": once no exchange is left in the message layer, the request has failed (at the deadline, after
   all 1+R copies, or through a refusal); and firing the pending timer of an exchange with retransmissions left re-arms exactly that
   exchange with counter + 1 and doubled timeout, so R+1 firings reach the give-up *)
Theorem C03_quiescent_means_failed : forall mid0 draws evs t m, wf_run draws evs -> In (OSend t m) (trace_of mid0 draws evs) ->
  ~ In (m_remote m, m_mid m) (recv_keys evs) -> ~ In (err_key (m_remote m)) (recv_keys evs) -> ~ In (gone_key (m_rid m)) (recv_keys evs) ->
  active_exchanges (final_of mid0 draws evs) = [] ->
  (exists T0 t0, copies (m_rid m) (trace_of mid0 draws evs) = sched_of m T0 t0 (Z.to_nat (MAX_RETRANSMIT (m_tuning m) + 1)) /\
    In (OFail (T0 + t0 * (2 ^ (MAX_RETRANSMIT (m_tuning m) + 1) - 1)) (m_rid m) ConRetransmitsExceeded) (trace_of mid0 draws evs)) \/
  (exists tf, In (OFail tf (m_rid m) NetworkError) (trace_of mid0 draws evs)).
Proof.
  intros mid0 draws evs t m W Hin H1 H2 H3 Hq. destruct (gives_up _ _ _ _ _ W Hin H1 H2 H3) as (T0 & t0 & n & Hc & Hn & Hr & Hle & Hcase).
  destruct Hcase as [(e & He & _)|[(Hn' & Hf)|Hf]]; [rewrite Hq in He; inv He| |right; exact Hf].
  left. exists T0, t0. assert (Z.to_nat (MAX_RETRANSMIT (m_tuning m) + 1) = n) as -> by lia. auto.
Qed.
Print Assumptions C03_quiescent_means_failed.
Theorem C03_fire_progress : forall seen st h st' o, Struct seen st -> next_timer st = Some h ->
  h_counter h < MAX_RETRANSMIT (m_tuning (h_message h)) -> is_refusing st (m_remote (h_message h)) = false ->
  step st EFire = (st', o) ->
  let m := h_message h in
  o = [OSend (Z.max (now st) (h_due h)) m] /\
  exists mon, xget (m_remote m, m_mid m) (active_exchanges st') =
    Some (mon, {| h_due := Z.max (now st) (h_due h) + h_timeout h * 2; h_seq := next_seq st; h_message := m;
                  h_timeout := h_timeout h * 2; h_counter := h_counter h + 1 |}).
Proof. exact fire_progress. Qed.
Print Assumptions C03_fire_progress.
(* ... and that instant is never later than MAX_TRANSMIT_WAIT (the last copy never later than MAX_TRANSMIT_SPAN) after the first
   copy, with MAX_TRANSMIT_WAIT / MAX_TRANSMIT_SPAN being the code of numbers/constants.py translated on this run *)
Theorem C03_giveup_within_MAX_TRANSMIT_WAIT : forall tn t, wf_tuning tn -> range tn t ->
  (q_of_us (t * (2 ^ (MAX_RETRANSMIT tn + 1) - 1)) <= MAX_TRANSMIT_WAIT (tt_of tn))%Q /\
  (q_of_us (t * (2 ^ MAX_RETRANSMIT tn - 1)) <= MAX_TRANSMIT_SPAN (tt_of tn))%Q.
Proof. exact giveup_within_MAX_TRANSMIT_WAIT. Qed.
Print Assumptions C03_giveup_within_MAX_TRANSMIT_WAIT.
(* ... and ConRetransmitsExceeded is a TimeoutError and a NetworkError, MessageError (RST) a NetworkError (class table of error.py) *)
Theorem C03_error_classes :
  is_subclass "ConRetransmitsExceeded" "TimeoutError" = true /\ is_subclass "ConRetransmitsExceeded" "NetworkError" = true /\
  is_subclass "TimeoutError" "NetworkError" = true /\ is_subclass "MessageError" "NetworkError" = true /\
  is_subclass "NetworkError" "Error" = true /\ is_subclass "MessageError" "TimeoutError" = false.
Proof.
  vm_compute. repeat split; reflexivity.
Qed.
Print Assumptions C03_error_classes.

(* 4. an ACK / RST whose (remote, mid) is that of an outstanding exchange: no further copy of that message in this step or in
      any continuation; an RST fails the request with MessageError at that instant (unless it was cancelled / answered before); an ACK
      does not fail it -- except that, when the ACK releases a backlogged message which a refusing transport rejects, the
      dispatch_error for that remote fails the still-pending ACKed request with NetworkError *)
Theorem C03_ack_stops : forall mid0 draws evs1 r b mid evs2 mon h,
  wf_run draws (evs1 ++ ERecv r b mid :: evs2) ->
  xget (r, mid) (active_exchanges (final_of mid0 draws evs1)) = Some (mon, h) ->
  let st1 := final_of mid0 draws evs1 in
  let '(st2, o) := step st1 (ERecv r b mid) in
  let '(st3, os) := run st2 evs2 in
  mon = m_rid (h_message h) /\ copies mon (o ++ concat os) = [] /\
  (if b then In (gone_key mon) (recv_keys evs1) \/ In (OFail (now st1) mon MessageError) o
   else forall t e, In (OFail t mon e) o -> e = NetworkError /\ is_refusing st1 r = true).
Proof. exact ack_stops. Qed.
Print Assumptions C03_ack_stops.
(* 4'. the Reset clause on the state, without the history key: an RST for an outstanding exchange whose request is pending
   fails it with MessageError at that instant, in ANY state; and in every reachable state the request of an outstanding exchange is
   pending unless it was cancelled or answered *)
Theorem C03_rst_fails_pending : forall st r mid mon h, xget (r, mid) (active_exchanges st) = Some (mon, h) ->
  existsb (fun q => fst q =? mon) (outgoing_requests st) = true ->
  In (OFail (now st) mon MessageError) (snd (step st (ERecv r true mid))).
Proof. exact rst_fails_pending. Qed.
Print Assumptions C03_rst_fails_pending.
Theorem C03_exchange_request_pending : forall mid0 draws evs e, wf_run draws evs -> In e (active_exchanges (final_of mid0 draws evs)) ->
  In (e_rid e, e_remote e) (outgoing_requests (final_of mid0 draws evs)) \/ In (gone_key (e_rid e)) (recv_keys evs).
Proof. exact exchange_request_pending. Qed.
Print Assumptions C03_exchange_request_pending.
(* 4''. the piggy-backed response is an ACK with the exchange's message ID: no further copy in this step or any continuation *)
Theorem C03_piggyback_stops : forall mid0 draws evs1 r mid rid evs2 mon h,
  wf_run draws (evs1 ++ EResponse r 0 mid rid :: evs2) ->
  xget (r, mid) (active_exchanges (final_of mid0 draws evs1)) = Some (mon, h) ->
  let st1 := final_of mid0 draws evs1 in
  let '(st2, o) := step st1 (EResponse r 0 mid rid) in
  let '(st3, os) := run st2 evs2 in
  mon = m_rid (h_message h) /\ copies mon (o ++ concat os) = [] /\
  forall t e, In (OFail t mon e) o -> e = NetworkError /\ is_refusing st1 r = true.
Proof. exact piggyback_stops. Qed.
Print Assumptions C03_piggyback_stops.

(* 4b. a transport error reported for r (ICMP; MessageManager.dispatch_error): no further copy of any message that was in an
       exchange with r or backlogged for r, in this step or in any continuation; every request pending towards r fails at once *)
Theorem C03_transport_error_stops : forall mid0 draws evs1 r evs2, wf_run draws (evs1 ++ EError r :: evs2) ->
  let st1 := final_of mid0 draws evs1 in
  let '(st2, o) := step st1 (EError r) in
  let '(st3, os) := run st2 evs2 in
  (forall e, In e (active_exchanges st1) -> e_remote e = r -> copies (e_rid e) (o ++ concat os) = []) /\
  (forall q p, In (r, q) (backlogs st1) -> In p q -> copies (m_rid (fst p)) (o ++ concat os) = []) /\
  (forall rid, In (rid, r) (outgoing_requests st1) -> In (OFail (now st1) rid NetworkError) o).
Proof. exact error_stops. Qed.
Print Assumptions C03_transport_error_stops.

(* 4c. cancelling the request does NOT stop the retransmission: the message layer is not told (send_message returns no canceller);
       theorems 1-2 keep holding for the cancelled request's message; theorem 3 says nothing about it (its hypothesis
       `~ In (gone_key ..) ..` excludes cancelled requests); see the Example C03_cancelled_request_still_retransmitted *)
Theorem C03_cancel_inert : forall st rid, let '(st', o) := step st (ECancel rid) in
  active_exchanges st' = active_exchanges st /\ backlogs st' = backlogs st /\ now st' = now st /\ o = [].
Proof.
  intros. cbn. auto.
Qed.
Print Assumptions C03_cancel_inert.

(* 5. an empty ACK / RST with another message id or from another endpoint (no outstanding exchange has that (remote, mid))
      changes nothing at all -- no entry, timer, counter, backlog, request -- and produces nothing; in any state *)
Theorem C03_foreign_ack_inert : forall st r mid b, xget (r, mid) (active_exchanges st) = None ->
  step st (ERecv r b mid) = (st, []).
Proof. exact foreign_ack_inert. Qed.
Print Assumptions C03_foreign_ack_inert.
Theorem C03_foreign_means_no_such_message : forall seen st r mid, Struct seen st ->
  (xget (r, mid) (active_exchanges st) = None <->
   forall e, In e (active_exchanges st) -> ~ (m_remote (h_message (e_timer e)) = r /\ m_mid (h_message (e_timer e)) = mid)).
Proof. exact xget_none_iff. Qed.
Print Assumptions C03_foreign_means_no_such_message.

(* 6. the defaults are the RFC 7252 values and the derived spans follow the RFC formulas for every tuning (Gen/c03_constants.v);
      in the order of Model/C03const.derived_us: ACK_TIMEOUT, ACK_RANDOM_FACTOR, MAX_RETRANSMIT, MAX_TRANSMIT_SPAN, MAX_TRANSMIT_WAIT,
      PROCESSING_DELAY, MAX_RTT, EXCHANGE_LIFETIME, MAX_LATENCY, EMPTY_ACK_DELAY, OBSERVATION_RESET_TIME, NSTART *)
Theorem C03_defaults_match_rfc :
  derived_us default_transport_tuning =
  [(2000000, 1); (1500000, 1); (4, 1); (45000000, 1); (93000000, 1); (2000000, 1); (202000000, 1); (247000000, 1);
   (100000000, 1); (100000, 1); (128, 1); (1, 1)].
Proof. exact defaults_match_rfc. Qed.
Print Assumptions C03_defaults_match_rfc.
Theorem C03_derived_formulas : forall t : transport_tuning,
  (MAX_TRANSMIT_SPAN t == tt_ACK_TIMEOUT t * inject_Z (2 ^ tt_MAX_RETRANSMIT t - 1) * tt_ACK_RANDOM_FACTOR t)%Q /\
  (MAX_TRANSMIT_WAIT t == tt_ACK_TIMEOUT t * inject_Z (2 ^ (tt_MAX_RETRANSMIT t + 1) - 1) * tt_ACK_RANDOM_FACTOR t)%Q /\
  (PROCESSING_DELAY t == tt_ACK_TIMEOUT t)%Q /\
  (MAX_RTT t == inject_Z 2 * tt_MAX_LATENCY t + tt_ACK_TIMEOUT t)%Q /\
  (EXCHANGE_LIFETIME t == MAX_TRANSMIT_SPAN t + MAX_RTT t)%Q.
Proof.
  intros t. repeat split; reflexivity.
Qed.
Print Assumptions C03_derived_formulas.

(* 7. safety of the bookkeeping the above rests on: no KeyError / AssertionError inside MessageManager, at most one exchange per
      remote and `remote in _backlogs` iff an exchange with it is active (so `_active_exchanges[key] = ...` never overwrites) *)
Theorem C03_no_internal_error : forall mid0 draws evs, wf_run draws evs -> forall t e, ~ In (OError t e) (trace_of mid0 draws evs).
Proof.
  intros mid0 draws evs W. destruct (reach mid0 draws evs W) as (_ & _ & H & _). exact H.
Qed.
Print Assumptions C03_no_internal_error.
Theorem C03_nstart_invariant : forall mid0 draws evs, wf_run draws evs ->
  NoDup (map e_remote (active_exchanges (final_of mid0 draws evs))) /\
  forall r, in_backlogs (final_of mid0 draws evs) r = has_exchange_with (final_of mid0 draws evs) r.
Proof.
  intros mid0 draws evs W. destruct (reach mid0 draws evs W) as (S & _). split; [apply (s_ex_nodup _ _ S)|apply (s_nstart _ _ S)].
Qed.
Print Assumptions C03_nstart_invariant.

(* ---- non-vacuity: a concrete run satisfies [wf_run]; default tuning, draw in the middle of the range *)
Definition dflt : tuning := {| ACK_TIMEOUT := 2000000; ARF_num := 3; ARF_den := 2; MAX_RETRANSMIT := 4 |}.
Definition demo : list event := [ERequest 1 7 dflt; ERequest 2 7 dflt; ERecv 7 false 99; EFire; EFire; EFire; EFire; EFire; EFire].
Example C03_wf_run_nonvacuous : wf_run [500] demo.
Proof. unfold wf_run, demo, wf_tuning, dflt, RNG_DEN. cbn. repeat split; try lia; try (repeat constructor; lia); intuition discriminate. Qed.
Example C03_demo_trace :
  let m := {| m_remote := 7; m_mid := 65535; m_rid := 1; m_tuning := dflt |} in
  trace_of 65535 [500] demo =
  [ODraw 0 2000000 3000000 2500000; OSend 0 m; OSend 2500000 m; OSend 7500000 m; OSend 17500000 m; OSend 37500000 m;
   OFail 77500000 1 ConRetransmitsExceeded; OFail 77500000 2 ConRetransmitsExceeded].
Proof. vm_compute. reflexivity. Qed.
Example C03_demo_ack :
  let m := {| m_remote := 7; m_mid := 3; m_rid := 1; m_tuning := dflt |} in
  trace_of 3 [0] [ERequest 1 7 dflt; EFire; ERecv 7 true 3; EFire; EFire] =
  [ODraw 0 2000000 3000000 2000000; OSend 0 m; OSend 2000000 m; OFail 2000000 1 MessageError].
Proof. vm_compute. reflexivity. Qed.
(* documented behaviour outside the property text: a cancelled request, and a request answered by a SEPARATE response (no ACK),
   keep being retransmitted until MAX_RETRANSMIT; the give-up then fails nobody *)
Example C03_cancelled_request_still_retransmitted :
  let m := {| m_remote := 7; m_mid := 3; m_rid := 1; m_tuning := dflt |} in
  trace_of 3 [0] [ERequest 1 7 dflt; ECancel 1; EFire; EFire; EFire; EFire; EFire] =
  [ODraw 0 2000000 3000000 2000000; OSend 0 m; OSend 2000000 m; OSend 6000000 m; OSend 14000000 m; OSend 30000000 m].
Proof. vm_compute. reflexivity. Qed.
Example C03_separate_response_does_not_stop_retransmission :
  let m := {| m_remote := 7; m_mid := 3; m_rid := 1; m_tuning := dflt |} in
  trace_of 3 [0] [ERequest 1 7 dflt; EResponse 7 2 99 1; EFire; EFire; EFire; EFire; EFire; ERequest 2 7 dflt] =
  [ODraw 0 2000000 3000000 2000000; OSend 0 m; OResult 0 1; OSend 2000000 m; OSend 6000000 m; OSend 14000000 m; OSend 30000000 m;
   ODraw 62000000 2000000 3000000 2000000; OSend 62000000 {| m_remote := 7; m_mid := 4; m_rid := 2; m_tuning := dflt |}].
Proof. vm_compute. reflexivity. Qed.
(* whereas the piggy-backed response is an ACK *)
Example C03_piggybacked_response_stops :
  let m := {| m_remote := 7; m_mid := 3; m_rid := 1; m_tuning := dflt |} in
  trace_of 3 [0] [ERequest 1 7 dflt; EFire; EResponse 7 0 3 1; EFire; EFire] =
  [ODraw 0 2000000 3000000 2000000; OSend 0 m; OSend 2000000 m; OResult 2000000 1].
Proof. vm_compute. reflexivity. Qed.

(* ---- transports that refuse a datagram synchronously (udp6 sendmsg failing: dispatch_error runs inside message_interface.send).
   Code as of fix commits 11456f9 / 8d04b7c: every send happens in a state satisfying the invariants, and a refusal is literally
   MessageManager.dispatch_error for that remote in that state (Proofs: send_initially_struct, retransmit_struct, response_shape).
   Hence theorems 1-7 above hold for runs WITH refusals (wf_run does not restrict ERefuse), and: *)
(* step level, any state: a refused first transmission / retransmission puts nothing on the wire, leaves no exchange and no backlog
   for the remote, and fails every request pending towards it with NetworkError at that instant *)
Theorem C03_refused_first_transmission : forall st m mon st' o, is_refusing st (m_remote m) = true ->
  _send_initially st m mon = (st', o) ->
  (forall t m', ~ In (OSend t m') o) /\ has_exchange_with st' (m_remote m) = false /\ in_backlogs st' (m_remote m) = false /\
  (forall rid, In (rid, m_remote m) (outgoing_requests st) -> In (OFail (now st) rid NetworkError) o) /\
  (forall q, In q (outgoing_requests st') -> snd q <> m_remote m).
Proof. exact refused_send_initially. Qed.
Print Assumptions C03_refused_first_transmission.
Theorem C03_refused_retransmission : forall st h mon h0 st' o,
  let m := h_message h in
  xget (m_remote m, m_mid m) (active_exchanges st) = Some (mon, h0) -> h_counter h < MAX_RETRANSMIT (m_tuning m) ->
  is_refusing st (m_remote m) = true -> _retransmit st h = (st', o) ->
  (forall t m', ~ In (OSend t m') o) /\ has_exchange_with st' (m_remote m) = false /\ in_backlogs st' (m_remote m) = false /\
  (forall rid, In (rid, m_remote m) (outgoing_requests st) -> In (OFail (now st) rid NetworkError) o) /\
  (forall q, In q (outgoing_requests st') -> snd q <> m_remote m).
Proof. exact refused_retransmit. Qed.
Print Assumptions C03_refused_retransmission.
(* run level: the message whose retransmission / first transmission is refused is never put on the wire again, in that step or in
   any continuation (which may contain anything, further refusals included); the requests towards the remote fail at that instant *)
Theorem C03_refused_retransmission_stops : forall mid0 draws evs1 ev evs2 h,
  wf_run draws (evs1 ++ ev :: evs2) -> (ev = EFire \/ (ev = EFireDue /\ h_due h <= now (final_of mid0 draws evs1))) ->
  next_timer (final_of mid0 draws evs1) = Some h ->
  h_counter h < MAX_RETRANSMIT (m_tuning (h_message h)) ->
  is_refusing (final_of mid0 draws evs1) (m_remote (h_message h)) = true ->
  let st1 := final_of mid0 draws evs1 in
  let '(st2, o) := step st1 ev in
  let '(st3, os) := run st2 evs2 in
  copies (m_rid (h_message h)) (o ++ concat os) = [] /\
  (forall rid, In (rid, m_remote (h_message h)) (outgoing_requests st1) -> In (OFail (Z.max (now st1) (h_due h)) rid NetworkError) o).
Proof. exact refused_retransmission_stops. Qed.
Print Assumptions C03_refused_retransmission_stops.
Theorem C03_refused_request_stops : forall mid0 draws evs1 rid r tn evs2,
  wf_run draws (evs1 ++ ERequest rid r tn :: evs2) ->
  is_refusing (final_of mid0 draws evs1) r = true -> in_backlogs (final_of mid0 draws evs1) r = false ->
  let st1 := final_of mid0 draws evs1 in
  let '(st2, o) := step st1 (ERequest rid r tn) in
  let '(st3, os) := run st2 evs2 in
  copies rid (o ++ concat os) = [] /\ In (OFail (now st1) rid NetworkError) o.
Proof. exact refused_request_stops. Qed.
Print Assumptions C03_refused_request_stops.

(* the scenarios that were defects before 11456f9 / 8d04b7c (exchange resurrected by _retransmit after a refused retransmission: copies
   of the failed request at 6/14/30 s, request 2 failed at 62 s instead of 68 s, KeyError at 68 s; KeyError out of _continue_backlog on
   a refused backlog release) now run cleanly: *)
Definition tn1 : tuning := {| ACK_TIMEOUT := 2000000; ARF_num := 1; ARF_den := 1; MAX_RETRANSMIT := 4 |}.
Definition refused_witness : list event :=
  [ERequest 0 0 tn1; ERequest 1 0 tn1; ERefuse 0 true; EFire; ERefuse 0 false; EFire; ERequest 2 0 tn1;
   EFire; EFire; EFire; EFire; EFire; EFire; EFire; EFire].
Example C03_refused_retransmission_clean :
  let m0 := {| m_remote := 0; m_mid := 10; m_rid := 0; m_tuning := tn1 |} in
  let m2 := {| m_remote := 0; m_mid := 12; m_rid := 2; m_tuning := tn1 |} in
  trace_of 10 [0; 0; 0] refused_witness =
  [ODraw 0 2000000 2000000 2000000; OSend 0 m0;
   OFail 2000000 0 NetworkError; OFail 2000000 1 NetworkError;
   ODraw 2000000 2000000 2000000 2000000; OSend 2000000 m2; OSend 4000000 m2; OSend 8000000 m2; OSend 16000000 m2; OSend 32000000 m2;
   OFail 64000000 2 ConRetransmitsExceeded].
Proof. vm_compute. reflexivity. Qed.
Example C03_refused_backlog_release_clean :
  run_trace 10 [0; 0] [ERequest 0 0 tn1; ERequest 1 0 tn1; ERefuse 0 true; ERecv 0 false 10] =
  ([[ODraw 0 2000000 2000000 2000000; OSend 0 {| m_remote := 0; m_mid := 10; m_rid := 0; m_tuning := tn1 |}]; []; [];
    [ODraw 0 2000000 2000000 2000000; OFail 0 0 NetworkError; OFail 0 1 NetworkError]], ([], [], []), 0).
Proof. vm_compute. reflexivity. Qed.
Example C03_refused_first_transmission_clean :
  run_trace 10 [0] [ERefuse 0 true; ERequest 0 0 tn1; EFire] =
  ([[]; [ODraw 0 2000000 2000000 2000000; OFail 0 0 NetworkError]; []], ([], [], []), 0).
Proof. vm_compute. reflexivity. Qed.

Example C03_wf_run_with_refusals : wf_run [0; 0; 0] refused_witness.
Proof. unfold wf_run, refused_witness, wf_tuning, tn1, RNG_DEN. cbn. repeat split; try lia; try (repeat constructor; lia); intuition discriminate. Qed.
Example C03_range_nonvacuous : wf_tuning dflt /\ range dflt 2000000 /\ range dflt 3000000 /\ ~ range dflt 3000001.
Proof. unfold wf_tuning, range, dflt; cbn. lia. Qed.

From Verif Require Import Proofs.C03R7.
(* 3c. the CLASS of every failure of an unanswered CON request (3a'' bounds only their number). A request that failed -- with whatever
   exception -- is pending nowhere; hence (with C03_exchange_request_pending) the request of an outstanding exchange has not failed at all *)
Theorem C03_failed_not_pending : forall mid0 draws evs tf rid x, wf_run draws evs -> In (OFail tf rid x) (trace_of mid0 draws evs) ->
  forall r, ~ In (rid, r) (outgoing_requests (final_of mid0 draws evs)).
Proof. exact failed_not_pending. Qed.
Print Assumptions C03_failed_not_pending.
Theorem C03_active_exchange_not_failed : forall mid0 draws evs e, wf_run draws evs -> In e (active_exchanges (final_of mid0 draws evs)) ->
  ~ In (gone_key (e_rid e)) (recv_keys evs) -> forall tf x, ~ In (OFail tf (e_rid e) x) (trace_of mid0 draws evs).
Proof. exact active_exchange_not_failed. Qed.
Print Assumptions C03_active_exchange_not_failed.
(* the give-up theorem with the complete list of the request's failure outputs in each outcome, for every history (refusing transports
   included): still waiting => no failure of any class so far; gave up => ConRetransmitsExceeded at the deadline is its one and only
   failure; refused by the transport => NetworkError is its one and only failure *)
Theorem C03_gives_up_class : forall mid0 draws evs t m, wf_run draws evs -> In (OSend t m) (trace_of mid0 draws evs) ->
  ~ In (m_remote m, m_mid m) (recv_keys evs) -> ~ In (err_key (m_remote m)) (recv_keys evs) -> ~ In (gone_key (m_rid m)) (recv_keys evs) ->
  exists T0 t0 n, copies (m_rid m) (trace_of mid0 draws evs) = sched_of m T0 t0 n /\ (0 < n)%nat /\ range (m_tuning m) t0 /\
    Z.of_nat n <= MAX_RETRANSMIT (m_tuning m) + 1 /\
    ( ((exists e, In e (active_exchanges (final_of mid0 draws evs)) /\ h_message (e_timer e) = m /\
                  h_due (e_timer e) = T0 + t0 * (2 ^ Z.of_nat n - 1) /\ now (final_of mid0 draws evs) <= h_due (e_timer e)) /\
       (forall tf x, ~ In (OFail tf (m_rid m) x) (trace_of mid0 draws evs))) \/
      (Z.of_nat n = MAX_RETRANSMIT (m_tuning m) + 1 /\
       In (OFail (T0 + t0 * (2 ^ (MAX_RETRANSMIT (m_tuning m) + 1) - 1)) (m_rid m) ConRetransmitsExceeded) (trace_of mid0 draws evs) /\
       (forall tf x, In (OFail tf (m_rid m) x) (trace_of mid0 draws evs) ->
          tf = T0 + t0 * (2 ^ (MAX_RETRANSMIT (m_tuning m) + 1) - 1) /\ x = ConRetransmitsExceeded)) \/
      (exists tf, In (OFail tf (m_rid m) NetworkError) (trace_of mid0 draws evs) /\
         (forall tf' x, In (OFail tf' (m_rid m) x) (trace_of mid0 draws evs) -> tf' = tf /\ x = NetworkError)) ).
Proof. exact gives_up_class. Qed.
Print Assumptions C03_gives_up_class.
(* ... on a transport that never refuses and reports no error for the remote this request was addressed to: the two outcomes of the
   property text *)
Theorem C03_gives_up_class_plain_remote : forall mid0 draws evs t m, wf_run draws evs -> no_refusal evs ->
  (forall r tn, In (ERequest (m_rid m) r tn) evs -> ~ In (EError r) evs) ->
  In (OSend t m) (trace_of mid0 draws evs) ->
  ~ In (m_remote m, m_mid m) (recv_keys evs) -> ~ In (err_key (m_remote m)) (recv_keys evs) -> ~ In (gone_key (m_rid m)) (recv_keys evs) ->
  exists T0 t0 n, copies (m_rid m) (trace_of mid0 draws evs) = sched_of m T0 t0 n /\ (0 < n)%nat /\ range (m_tuning m) t0 /\
    Z.of_nat n <= MAX_RETRANSMIT (m_tuning m) + 1 /\
    ( ((exists e, In e (active_exchanges (final_of mid0 draws evs)) /\ h_message (e_timer e) = m /\
                  h_due (e_timer e) = T0 + t0 * (2 ^ Z.of_nat n - 1) /\ now (final_of mid0 draws evs) <= h_due (e_timer e)) /\
       (forall tf x, ~ In (OFail tf (m_rid m) x) (trace_of mid0 draws evs))) \/
      (Z.of_nat n = MAX_RETRANSMIT (m_tuning m) + 1 /\
       In (OFail (T0 + t0 * (2 ^ (MAX_RETRANSMIT (m_tuning m) + 1) - 1)) (m_rid m) ConRetransmitsExceeded) (trace_of mid0 draws evs) /\
       (forall tf x, In (OFail tf (m_rid m) x) (trace_of mid0 draws evs) ->
          tf = T0 + t0 * (2 ^ (MAX_RETRANSMIT (m_tuning m) + 1) - 1) /\ x = ConRetransmitsExceeded)) ).
Proof. exact gives_up_class_plain_remote. Qed.
Print Assumptions C03_gives_up_class_plain_remote.
(* headline: ANY error delivered to a CON request whose transmissions all went unanswered is ConRetransmitsExceeded, delivered after all
   1 + MAX_RETRANSMIT copies, exactly one more doubled interval after the last copy; every history *)
Theorem C03_unanswered_error_is_ConRetransmitsExceeded : forall mid0 draws evs t m, wf_run draws evs -> no_refusal evs ->
  (forall r tn, In (ERequest (m_rid m) r tn) evs -> ~ In (EError r) evs) ->
  In (OSend t m) (trace_of mid0 draws evs) ->
  ~ In (m_remote m, m_mid m) (recv_keys evs) -> ~ In (err_key (m_remote m)) (recv_keys evs) -> ~ In (gone_key (m_rid m)) (recv_keys evs) ->
  forall tf x, In (OFail tf (m_rid m) x) (trace_of mid0 draws evs) ->
    x = ConRetransmitsExceeded /\
    exists T0 t0, copies (m_rid m) (trace_of mid0 draws evs) = sched_of m T0 t0 (Z.to_nat (MAX_RETRANSMIT (m_tuning m) + 1)) /\
      range (m_tuning m) t0 /\ tf = T0 + t0 * (2 ^ (MAX_RETRANSMIT (m_tuning m) + 1) - 1).
Proof.
  intros mid0 draws evs t m W Hn He Hin H1 H2 H3 tf x Hi.
  destruct (gives_up_class_plain_remote _ _ _ _ _ W Hn He Hin H1 H2 H3) as (T0 & t0 & n & Hc & Hn' & Hr & Hle & Hcase).
  destruct Hcase as [[_ Hno]|(En & _ & Hall)]; [exfalso; eapply Hno; eauto|].
  destruct (Hall tf x Hi) as [-> ->]. split; [reflexivity|]. exists T0, t0.
  assert (Z.to_nat (MAX_RETRANSMIT (m_tuning m) + 1) = n) as -> by lia. auto.
Qed.
Print Assumptions C03_unanswered_error_is_ConRetransmitsExceeded.
(* ... and with refusing transports allowed: ConRetransmitsExceeded at the deadline or NetworkError, no other class *)
Theorem C03_unanswered_error_class : forall mid0 draws evs t m, wf_run draws evs -> In (OSend t m) (trace_of mid0 draws evs) ->
  ~ In (m_remote m, m_mid m) (recv_keys evs) -> ~ In (err_key (m_remote m)) (recv_keys evs) -> ~ In (gone_key (m_rid m)) (recv_keys evs) ->
  forall tf x, In (OFail tf (m_rid m) x) (trace_of mid0 draws evs) ->
    (x = ConRetransmitsExceeded /\
     exists T0 t0, copies (m_rid m) (trace_of mid0 draws evs) = sched_of m T0 t0 (Z.to_nat (MAX_RETRANSMIT (m_tuning m) + 1)) /\
       range (m_tuning m) t0 /\ tf = T0 + t0 * (2 ^ (MAX_RETRANSMIT (m_tuning m) + 1) - 1)) \/
    x = NetworkError.
Proof.
  intros mid0 draws evs t m W Hin H1 H2 H3 tf x Hi.
  destruct (gives_up_class _ _ _ _ _ W Hin H1 H2 H3) as (T0 & t0 & n & Hc & Hn' & Hr & Hle & Hcase).
  destruct Hcase as [[_ Hno]|[(En & _ & Hall)|(tf0 & _ & Hall)]]; [exfalso; eapply Hno; eauto| |right; apply (Hall tf x Hi)].
  left. destruct (Hall tf x Hi) as [-> ->]. split; [reflexivity|]. exists T0, t0.
  assert (Z.to_nat (MAX_RETRANSMIT (m_tuning m) + 1) = n) as -> by lia. auto.
Qed.
Print Assumptions C03_unanswered_error_class.
(* non-vacuity of the hypotheses (three concrete runs: still waiting / gave up / refused): Proofs/C03R7.v, Examples *_nonvacuous *)
