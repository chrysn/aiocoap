(* C16 — CoAP URIs and Uri-* options convert into each other without loss.
   Statements; the proofs are in Proofs/C16*.v, concrete vectors are evaluated in place.
   Strings are lists of code points; quote / quote_nonascii / hostportjoin and the safe sets are the code translated from
   aiocoap/util (Gen/uri_kernels.v); set_request_uri / get_request_uri / urlsplit / unquote are Model/C16.v.
   [ip] is ipaddress.ip_address (trusted stdlib), a parameter of the model: the theorems hold for every such function. *)
From Verif Require Import Lib.Py Lib.Tactics Model.C16Str Gen.uri_kernels Model.C16 Proofs.C16Str Proofs.C16 Proofs.C16Uri.
Open Scope Z_scope.

(* percent-coding: for EVERY string and both safe sets, unquote (quote s) = s; quoting fails only on lone surrogates *)
Theorem C16_utf8_decode_encode : forall s b, utf8_encode s = Ok b -> utf8_decode b = Ok s.
Proof. exact utf8_decode_encode. Qed.
Print Assumptions C16_utf8_decode_encode.
Theorem C16_unquote_quote : forall safe s q, mem 37 safe = false -> all_ascii safe = true ->
  quote safe s = Ok q -> unquote q = Ok s.
Proof. exact unquote_quote. Qed.
Print Assumptions C16_unquote_quote.
Theorem C16_quote_total : forall safe s, valid_str s = true -> exists q, quote safe s = Ok q.
Proof. exact quote_total. Qed.
Print Assumptions C16_quote_total.
Theorem C16_quote_fails_only_on_surrogates : forall s, valid_str s = false -> utf8_encode s = Raise UnicodeEncodeError.
Proof. exact utf8_encode_invalid. Qed.
Print Assumptions C16_quote_fails_only_on_surrogates.
(* the two safe sets of message.py qualify, and exclude the delimiters of their component *)
Theorem C16_safe_sets : (mem 37 quote_for_path_chars = false /\ all_ascii quote_for_path_chars = true /\
   mem 47 quote_for_path_chars = false /\ mem 63 quote_for_path_chars = false /\ mem 35 quote_for_path_chars = false) /\
  (mem 37 quote_for_query_chars = false /\ all_ascii quote_for_query_chars = true /\
   mem 38 quote_for_query_chars = false /\ mem 35 quote_for_query_chars = false).
Proof. exact (conj path_chars_ok query_chars_ok). Qed.
Print Assumptions C16_safe_sets.

(* segment lists: Uri-Path / Uri-Query -> text -> the same list, for every list except the single empty segment *)
Theorem C16_path_roundtrip : forall p, p <> [[]] -> forall text, compose_path p = Ok text ->
  unquote_path text = Ok p /\ mem 63 text = false /\ mem 35 text = false /\ startswith text [47] = true.
Proof. exact path_roundtrip. Qed.
Print Assumptions C16_path_roundtrip.
Theorem C16_query_roundtrip : forall q, q <> [[]] -> forall text, compose_query q = Ok text ->
  unquote_query text = Ok q /\ mem 35 text = false.
Proof. exact query_roundtrip. Qed.
Print Assumptions C16_query_roundtrip.
(* ... and the excluded option sets are exactly where distinct resources collapse *)
Theorem C16_degenerate_collapses :
  get_request_uri no_ip (mk_opts coap [104] None [[]] []) = get_request_uri no_ip (mk_opts coap [104] None [] []) /\
  get_request_uri no_ip (mk_opts coap [104] None [] [[]]) = get_request_uri no_ip (mk_opts coap [104] None [] []).
Proof. split; vm_compute; reflexivity. Qed.
Print Assumptions C16_degenerate_collapses.

(* options -> URI -> options (6.5 then 6.4). Non-degenerate option set with Uri-Host: Uri-Path <> [""], Uri-Query <> [""],
   all strings encodable; Uri-Host non-empty, without upper-case ASCII letters, not the text of an IP address, not passing the
   IPv4-literal test; effective port in 0..65535. Uri-Host may contain reserved characters, "%" and non-ASCII characters. *)
Theorem C16_options_uri_options_name : forall ip (m : request_opts) h h0 p0,
  existsb (beqb (r_scheme m)) coap_schemes = true ->
  o_proxy_uri m = None -> o_proxy_scheme m = None ->
  o_uri_host m = Some h -> h <> [] -> valid_str h = true -> Forall not_upper h ->
  ip (strip_brackets h) = IpBad -> is_ipv4_literal h = Ok false ->
  hostportsplit (r_hostinfo m) = Ok (h0, p0) ->
  let p := match o_uri_port m with Some n => if n =? 0 then p0 else Some n | None => p0 end in
  port_ok p ->
  o_uri_path m <> [[]] -> o_uri_query m <> [[]] ->
  forallb valid_str (o_uri_path m) = true -> forallb valid_str (o_uri_query m) = true ->
  exists u e, get_request_uri ip m = Ok u /\ quote quote_for_host_chars h = Ok e /\
            set_request_uri ip u true = Ok (DRequest (r_scheme m) (e ++ port_text p) (Some h) (o_uri_path m) (o_uri_query m)).
Proof. intros. eapply options_uri_options_name. repeat (split; [eassumption|]). eassumption. Qed.
Print Assumptions C16_options_uri_options_name.
(* authority taken from the remote (no Uri-Host / Uri-Port): an IPv4 literal is not sent as Uri-Host, a name is *)
Theorem C16_options_uri_options_hostinfo : forall ip (m : request_opts) h p lit,
  existsb (beqb (r_scheme m)) coap_schemes = true ->
  o_proxy_uri m = None -> o_proxy_scheme m = None -> o_uri_host m = None -> o_uri_port m = None ->
  r_hostinfo m = h ++ port_text p -> regular_host h = true -> is_ipv4_literal h = Ok lit -> port_ok p ->
  o_uri_path m <> [[]] -> o_uri_query m <> [[]] ->
  forallb valid_str (o_uri_path m) = true -> forallb valid_str (o_uri_query m) = true ->
  exists u, get_request_uri ip m = Ok u /\
            set_request_uri ip u true =
              Ok (DRequest (r_scheme m) (r_hostinfo m) (if lit then None else Some h) (o_uri_path m) (o_uri_query m)).
Proof. intros. eapply options_uri_options_hostinfo. repeat (split; [eassumption|]). eassumption. Qed.
Print Assumptions C16_options_uri_options_hostinfo.
(* bracketed IPv6 literal with zone identifier as the remote (with or without Uri-Port): never a Uri-Host, the literal stays.
   [ip6_text_ok ip t]: t is a text ipaddress prints (fixed point of ip, contains ":", ASCII, lower-case up to the zone, none of
   "@[]/?#" or tab/CR/LF, does not start with "v") *)
Theorem C16_options_uri_options_ip6 : forall ip (m : request_opts) t p0,
  existsb (beqb (r_scheme m)) coap_schemes = true ->
  o_proxy_uri m = None -> o_proxy_scheme m = None -> o_uri_host m = None ->
  r_hostinfo m = 91 :: t ++ 93 :: port_text p0 -> ip6_text_ok ip t -> port_ok p0 ->
  let p := match o_uri_port m with Some n => if n =? 0 then p0 else Some n | None => p0 end in
  port_ok p ->
  o_uri_path m <> [[]] -> o_uri_query m <> [[]] ->
  forallb valid_str (o_uri_path m) = true -> forallb valid_str (o_uri_query m) = true ->
  exists u, get_request_uri ip m = Ok u /\
            set_request_uri ip u true = Ok (DRequest (r_scheme m) (91 :: t ++ 93 :: port_text p) None (o_uri_path m) (o_uri_query m)).
Proof. exact options_uri_options_ip6. Qed.
Print Assumptions C16_options_uri_options_ip6.
(* distinct resources never collapse: two non-degenerate option sets composing to the same URI agree on scheme, Uri-Host,
   effective port, Uri-Path and Uri-Query *)
Theorem C16_compose_injective : forall ip (m1 m2 : request_opts) h1 h2 a1 b1 a2 b2 u,
  (forall (m : request_opts) h h0 p0, m = m1 /\ h = h1 /\ h0 = a1 /\ p0 = b1 \/ m = m2 /\ h = h2 /\ h0 = a2 /\ p0 = b2 ->
     existsb (beqb (r_scheme m)) coap_schemes = true /\ o_proxy_uri m = None /\ o_proxy_scheme m = None /\
     o_uri_host m = Some h /\ h <> [] /\ valid_str h = true /\ Forall not_upper h /\
     ip (strip_brackets h) = IpBad /\ is_ipv4_literal h = Ok false /\ hostportsplit (r_hostinfo m) = Ok (h0, p0) /\
     port_ok (match o_uri_port m with Some n => if n =? 0 then p0 else Some n | None => p0 end) /\
     o_uri_path m <> [[]] /\ o_uri_query m <> [[]] /\
     forallb valid_str (o_uri_path m) = true /\ forallb valid_str (o_uri_query m) = true) ->
  get_request_uri ip m1 = Ok u -> get_request_uri ip m2 = Ok u ->
  r_scheme m1 = r_scheme m2 /\ h1 = h2 /\ o_uri_path m1 = o_uri_path m2 /\ o_uri_query m1 = o_uri_query m2 /\
  match o_uri_port m1 with Some n => if n =? 0 then b1 else Some n | None => b1 end =
  match o_uri_port m2 with Some n => if n =? 0 then b2 else Some n | None => b2 end.
Proof. intros ip m1 m2 h1 h2 a1 b1 a2 b2 u Hnd. apply (compose_injective ip m1 m2 h1 h2 a1 b1 a2 b2 u); apply Hnd; auto. Qed.
Print Assumptions C16_compose_injective.
(* URI -> options -> URI -> options (6.4, 6.5, 6.4) for EVERY accepted URI that is a string of Unicode scalar values:
   the decomposed options are non-degenerate; composing and decomposing again gives the same scheme / Uri-Host / Uri-Path /
   Uri-Query with the authority in normal form.
   * Uri-Host present — any characters, percent-escaped, reserved or non-ASCII: unconditional, except the NAMED RESIDUE of a
     decoded host that is itself the text of an IP address or passes the IPv4-literal test (coap://1%2E2.3.4/, coap://%3A%3A1/),
     where 6.5 legitimately composes a literal (kept as the two hypotheses of the inner implication).
   * no Uri-Host, network location without "[" (IPv4 literal in whatever spelling the URI had: coap://1.2.3.4:0080/, coap://@1.2.3.4/):
     composition always succeeds and the decomposition is a fixed point — derived from the decomposition itself, no hypothesis
     on the shape of the remote;
   * no Uri-Host, bracketed IPv6 remote [t][:port] with t a text ipaddress prints (ip6_text_ok): fixed point.
     RESIDUE, correspondence + oracle only: what ipaddress prints is the hypothesis ip6_text_ok (so coap://[::1]x:80/ is covered once
     the remote is written [::1]:80), and network locations with non-ASCII characters (NFKC / Unicode lower-casing outside the model). *)
Theorem C16_uri_options_uri : forall ip uri s hi uh p q, valid_str uri = true ->
  set_request_uri ip uri true = Ok (DRequest s hi uh p q) ->
  existsb (beqb s) coap_schemes = true /\ p <> [[]] /\ q <> [[]] /\ forallb valid_str p = true /\ forallb valid_str q = true /\
  match uh with
  | Some h =>
      h <> [] /\ valid_str h = true /\ Forall not_upper h /\
      (ip (strip_brackets h) = IpBad -> is_ipv4_literal h = Ok false ->
       exists u' e h0 port, hostportsplit hi = Ok (h0, port) /\ get_request_uri ip (opts_of (DRequest s hi uh p q)) = Ok u' /\
         quote quote_for_host_chars h = Ok e /\
         set_request_uri ip u' true = Ok (DRequest s (e ++ port_text port) (Some h) p q))
  | None =>
      exists u', get_request_uri ip (opts_of (DRequest s hi None p q)) = Ok u' /\
      (forall netloc path query, urlsplit ip uri = Ok (s, netloc, path, query, []) -> mem 91 netloc = false ->
         hi = netloc /\ set_request_uri ip u' true = Ok (DRequest s hi None p q)) /\
      (forall t p0, hi = 91 :: t ++ 93 :: port_text p0 -> ip6_text_ok ip t -> port_ok p0 ->
         set_request_uri ip u' true = Ok (DRequest s hi None p q))
  end.
Proof. exact uri_options_uri. Qed.
Print Assumptions C16_uri_options_uri.
(* the input of the finding fixed in aiocoap by 76b5301: coap://a%2Fb/ <-> Uri-Host "a/b" *)
Theorem C16_repaired_host_escaping :
  let u := coap ++ [58; 47; 47; 97; 37; 50; 70; 98; 47] in
  let d := DRequest coap [97; 37; 50; 70; 98] (Some [97; 47; 98]) [] [] in
  set_request_uri no_ip u true = Ok d /\ get_request_uri no_ip (opts_of d) = Ok u.
Proof. cbv zeta. split; vm_compute; reflexivity. Qed.
Print Assumptions C16_repaired_host_escaping.

(* 6.4 host rules on every accepted URI; foreign schemes *)
Theorem C16_host_rules : forall ip uri flag s hi uh p q, set_request_uri ip uri flag = Ok (DRequest s hi uh p q) ->
  existsb (beqb s) coap_schemes = true /\
  exists netloc path query hostname,
    urlsplit ip uri = Ok (s, netloc, path, query, []) /\ hostname_of netloc = Ok (Some hostname) /\
    match uh with
    | Some h => flag = true /\ mem 91 netloc = false /\ is_ipv4_literal hostname = Ok false /\
                (exists h', unquote hostname = Ok h' /\ h = translate ascii_lowercase h') /\ Forall (fun c => is_upper c = false) h
    | None => flag = false \/ mem 91 netloc = true \/ is_ipv4_literal hostname = Ok true
    end.
Proof. exact host_rules. Qed.
Print Assumptions C16_host_rules.
Theorem C16_proxy_roundtrip : forall ip uri flag u, set_request_uri ip uri flag = Ok (DProxy u) ->
  u = uri /\ get_request_uri ip (opts_of (DProxy u)) = Ok uri.
Proof. exact proxy_roundtrip. Qed.
Print Assumptions C16_proxy_roundtrip.

(* 6.4 step by step, for every accepted URI and both values of set_uri_host: Uri-Path / Uri-Query ARE the percent-decoded
   segments of the path / query component; no user name / password; the port was numeric, in 0..65535, and stays with the
   remote: hostinfo is the network location verbatim, or for a bracketed literal the text ipaddress prints joined with the SAME
   port (the result type has no Uri-Port: the implementation's Uri-Port option is observed by the oracle rule C16:uri-port-set). *)
Theorem C16_decompose_spec : forall ip uri flag s hi uh p q, set_request_uri ip uri flag = Ok (DRequest s hi uh p q) ->
  existsb (beqb s) coap_schemes = true /\
  exists netloc path query hostname port,
    urlsplit ip uri = Ok (s, netloc, path, query, []) /\ hostname_of netloc = Ok (Some hostname) /\
    (let '(u, pw) := userinfo_of netloc in truthy u || truthy pw) = false /\
    unquote_path path = Ok p /\ unquote_query query = Ok q /\
    port_of netloc = Ok port /\ port_ok port /\ hostportsplit netloc = Ok (Some hostname, port) /\
    undecided_remote ip s netloc = Ok (s, hi) /\
    (mem 91 netloc = false -> hi = netloc) /\
    (mem 91 netloc = true -> exists n, (ip hostname = Ip6 n \/ ip hostname = Ip4 n) /\ hostportjoin n port = Ok hi) /\
    match uh with
    | Some h => flag = true /\ mem 91 netloc = false /\ is_ipv4_literal hostname = Ok false /\
                exists h', unquote hostname = Ok h' /\ h = translate ascii_lowercase h'
    | None => flag = false \/ mem 91 netloc = true \/ is_ipv4_literal hostname = Ok true
    end.
Proof. exact decompose_spec. Qed.
Print Assumptions C16_decompose_spec.

(* each class of unacceptable text IS rejected, with the documented error: unbalanced / unusable brackets (urlsplit's
   ValueError), fragment, no host, user info, non-UTF-8 escapes in path / query / host, non-numeric or out-of-range port,
   bracketed literal ipaddress refuses -> MalformedUrlError; no scheme -> IncompleteUrlError.
   (The hypotheses [hostname_of netloc = Ok _] exclude only the non-ASCII network locations, which are [Unmodelled].) *)
Theorem C16_rejects_each_class : forall ip uri flag,
  (urlsplit ip uri = Raise ValueError -> set_request_uri ip uri flag = Raise MalformedUrlError) /\
  forall s netloc path query frag, urlsplit ip uri = Ok (s, netloc, path, query, frag) ->
    (frag <> [] -> set_request_uri ip uri flag = Raise MalformedUrlError) /\
    (frag = [] -> s = [] -> set_request_uri ip uri flag = Raise IncompleteUrlError) /\
    (frag = [] -> existsb (beqb s) coap_schemes = true ->
       (hostname_of netloc = Ok None -> set_request_uri ip uri flag = Raise MalformedUrlError) /\
       (forall hn, hostname_of netloc = Ok (Some hn) ->
          ((let '(u, pw) := userinfo_of netloc in truthy u || truthy pw) = true ->
             set_request_uri ip uri flag = Raise MalformedUrlError) /\
          ((let '(u, pw) := userinfo_of netloc in truthy u || truthy pw) = false ->
             ((exists e, unquote_path path = Raise e) \/ (exists e, unquote_query query = Raise e) \/ (exists e, port_of netloc = Raise e) ->
                set_request_uri ip uri flag = Raise MalformedUrlError) /\
             (forall p q port, unquote_path path = Ok p -> unquote_query query = Ok q -> port_of netloc = Ok port ->
                (undecided_remote ip s netloc = Raise ValueError -> set_request_uri ip uri flag = Raise MalformedUrlError) /\
                (forall r, undecided_remote ip s netloc = Ok r -> flag = true -> mem 91 netloc = false ->
                   is_ipv4_literal hn = Ok false -> (exists e, unquote hn = Raise e) ->
                   set_request_uri ip uri flag = Raise MalformedUrlError))))).
Proof. exact rejects_each_class. Qed.
Print Assumptions C16_rejects_each_class.

(* rejections: for EVERY string, set_request_uri fails only with the two documented errors; [Unmodelled] marks the inputs
   outside the model (network location with non-ASCII characters) — holds of aiocoap from 1c4d498 / 9bbf9d1 on *)
Theorem C16_rejects_documented : forall ip uri flag e, set_request_uri ip uri flag = Raise e ->
  e = MalformedUrlError \/ e = IncompleteUrlError \/ e = Unmodelled.
Proof. exact rejects_documented. Qed.
Print Assumptions C16_rejects_documented.
(* inputs of the findings fixed by 1c4d498, 9bbf9d1, 0da23bc: coap://[v1.x]/, coap://1.2.3.<4301 digits>/, coap://@[::1]/ *)
Theorem C16_repaired_ipvfuture :
  set_request_uri no_ip (coap ++ [58; 47; 47; 91; 118; 49; 46; 120; 93; 47]) true = Raise MalformedUrlError.
Proof. vm_compute. reflexivity. Qed.
Print Assumptions C16_repaired_ipvfuture.
Theorem C16_repaired_digit_limit :
  exists hi h, set_request_uri no_ip (coap ++ [58; 47; 47; 49; 46; 50; 46; 51; 46] ++ repeat 57 4301 ++ [47]) true = Ok (DRequest coap hi (Some h) [] []).
Proof. eexists. eexists. apply long_octet_is_a_name. apply Nat.leb_le. reflexivity. Qed.
Print Assumptions C16_repaired_digit_limit.
Theorem C16_repaired_literal_after_userinfo :
  set_request_uri only_loopback (coap ++ [58; 47; 47; 64; 91; 58; 58; 49; 93; 47]) true = Ok (DRequest coap [91; 58; 58; 49; 93] None [] []).
Proof. vm_compute. reflexivity. Qed.
Print Assumptions C16_repaired_literal_after_userinfo.

(* host:port strings: join then split is the identity (up to the lower-casing hostportsplit performs) *)
Theorem C16_hostport_join_split_name : forall h p, port_ok p -> h <> [] -> host_ascii_part h = true ->
  mem 58 h = false -> mem 64 h = false -> mem 91 h = false ->
  exists j, hostportjoin h p = Ok j /\ hostportsplit j = Ok (Some (lower_before_pct h), p).
Proof. exact hostport_join_split_name. Qed.
Print Assumptions C16_hostport_join_split_name.
Theorem C16_hostport_join_split_ip6 : forall h p, port_ok p -> host_ascii_part h = true ->
  mem 58 h = true -> mem 93 h = false -> mem 91 h = false -> mem 64 h = false ->
  exists j, hostportjoin h p = Ok j /\ hostportjoin (91 :: h ++ [93]) p = Ok j /\
            hostportsplit j = Ok (Some (lower_before_pct h), p).
Proof. exact hostport_join_split_ip6. Qed.
Print Assumptions C16_hostport_join_split_ip6.
Theorem C16_port_text_roundtrip : forall n, 0 <= n -> parse_dec (print_nat_dec n) = n.
Proof. exact parse_print_nat_dec. Qed.
Print Assumptions C16_port_text_roundtrip.

(* the other direction: whatever hostportsplit returns (host without "[" inside, which only junk such as "[a[b]" yields) joins with
   the returned port into a string that splits into exactly the same pair — join . split is a normal form *)
Theorem C16_hostport_split_join : forall j h p, hostportsplit j = Ok (Some h, p) -> mem 64 j = false -> mem 91 h = false ->
  exists j', hostportjoin h p = Ok j' /\ hostportsplit j' = Ok (Some h, p).
Proof. intros j h p H _. exact (hostport_split_join j h p H). Qed.
Print Assumptions C16_hostport_split_join.
(* distinct resources never collapse, option sets WITHOUT Uri-Host (authority = the remote's host[:port]) *)
Theorem C16_compose_injective_hostinfo : forall ip (m1 m2 : request_opts) h1 p1 l1 h2 p2 l2 u,
  (forall (m : request_opts) h p l, m = m1 /\ h = h1 /\ p = p1 /\ l = l1 \/ m = m2 /\ h = h2 /\ p = p2 /\ l = l2 ->
     existsb (beqb (r_scheme m)) coap_schemes = true /\ o_proxy_uri m = None /\ o_proxy_scheme m = None /\
     o_uri_host m = None /\ o_uri_port m = None /\ r_hostinfo m = h ++ port_text p /\ regular_host h = true /\
     is_ipv4_literal h = Ok l /\ port_ok p /\ o_uri_path m <> [[]] /\ o_uri_query m <> [[]] /\
     forallb valid_str (o_uri_path m) = true /\ forallb valid_str (o_uri_query m) = true) ->
  get_request_uri ip m1 = Ok u -> get_request_uri ip m2 = Ok u ->
  r_scheme m1 = r_scheme m2 /\ r_hostinfo m1 = r_hostinfo m2 /\ o_uri_path m1 = o_uri_path m2 /\ o_uri_query m1 = o_uri_query m2.
Proof. intros ip m1 m2 h1 p1 l1 h2 p2 l2 u Hnd. apply (compose_injective_hostinfo ip m1 m2 h1 p1 l1 h2 p2 l2 u); apply Hnd; auto. Qed.
Print Assumptions C16_compose_injective_hostinfo.

(* non-vacuity: concrete, non-trivial instances satisfy the hypotheses and compute to the expected values *)
Example C16_nonvacuous_roundtrip :
  (* Uri-Host "ex.org", port 61616, Uri-Path ["a/b"; ""; "%"], Uri-Query ["x=1&y"; "?#"] *)
  let m := {| r_scheme := coap; r_hostinfo := [104; 58; 56; 48]; o_uri_host := Some [101; 120; 46; 111; 114; 103]; o_uri_port := Some 61616;
              o_uri_path := [[97; 47; 98]; []; [37]]; o_uri_query := [[120; 61; 49; 38; 121]; [63; 35]];
              o_proxy_uri := None; o_proxy_scheme := None |} in
  regular_host [101; 120; 46; 111; 114; 103] = true /\ is_ipv4_literal [101; 120; 46; 111; 114; 103] = Ok false /\
  hostportsplit (r_hostinfo m) = Ok (Some [104], Some 80) /\
  exists u, get_request_uri only_loopback m = Ok u /\
    set_request_uri only_loopback u true =
      Ok (DRequest coap ([101; 120; 46; 111; 114; 103] ++ port_text (Some 61616)) (Some [101; 120; 46; 111; 114; 103]) (o_uri_path m) (o_uri_query m)).
Proof. cbv zeta. split; [reflexivity|]. split; [reflexivity|]. split; [vm_compute; reflexivity|].
  exists [99; 111; 97; 112; 58; 47; 47; 101; 120; 46; 111; 114; 103; 58; 54; 49; 54; 49; 54; 47; 97; 37; 50; 70; 98; 47; 47; 37; 50; 53; 63; 120; 61; 49; 37; 50; 54; 121; 38; 63; 37; 50; 51]. (* coap://ex.org:61616/a%2Fb//%25?x=1%26y&?%23 *)
  split; vm_compute; reflexivity. Qed.
Example C16_nonvacuous_quote :
  (* "/?&=%#ä\U0001F600" *)
  let s := [47; 63; 38; 61; 37; 35; 228; 128512] in
  valid_str s = true /\ quote quote_for_path_chars s = Ok [37;50;70; 37;51;70; 38; 61; 37;50;53; 37;50;51; 37;67;51;37;65;52; 37;70;48;37;57;70;37;57;56;37;56;48] /\
  (exists q, quote quote_for_query_chars s = Ok q /\ unquote q = Ok s) /\
  valid_str [55296] = false /\ quote quote_for_path_chars [55296] = Raise UnicodeEncodeError.
Proof. cbv zeta. split; [reflexivity|]. split; [vm_compute; reflexivity|]. split; [exists [47; 63; 37;50;54; 61; 37;50;53; 37;50;51; 37;67;51;37;65;52; 37;70;48;37;57;70;37;57;56;37;56;48]; split; vm_compute; reflexivity|]. split; vm_compute; reflexivity. Qed.
Example C16_nonvacuous_hostport :
  (* "fe80::1%eth0", port 56830 — and the bracketed literal through UndecidedRemote / set_request_uri with an ip_address that knows ::1 *)
  let h := [102; 101; 56; 48; 58; 58; 49; 37; 101; 116; 104; 48] in
  host_ascii_part h = true /\ mem 58 h = true /\ mem 93 h = false /\
  hostportjoin h (Some 56830) = Ok ([91] ++ h ++ [93; 58; 53; 54; 56; 51; 48]) /\
  set_request_uri only_loopback (coap ++ [58; 47; 47; 91; 58; 58; 49; 93; 58; 48; 56; 48; 47; 120]) true =
    Ok (DRequest coap [91; 58; 58; 49; 93; 58; 56; 48] None [[120]] []).
Proof. cbv zeta. repeat split; vm_compute; reflexivity. Qed.
Example C16_nonvacuous_ip6 :
  (* only_loopback's "::1" is a text as ipaddress prints it; coap://[::1]:80/x is a fixed point; Uri-Host with reserved and non-ASCII characters *)
  ip6_text_ok only_loopback [58; 58; 49] /\
  (let h := [97; 47; 98; 37; 228; 58] in  (* "a/b%ä:" *)
   h <> [] /\ valid_str h = true /\ Forall not_upper h /\ only_loopback (strip_brackets h) = IpBad /\ is_ipv4_literal h = Ok false /\
   quote quote_for_host_chars h = Ok [97; 37;50;70; 98; 37;50;53; 37;67;51;37;65;52; 37;51;65]).
Proof.
  split.
  - unfold ip6_text_ok. split; [reflexivity|]. split; [reflexivity|]. split; [reflexivity|]. split; [reflexivity|]. split; [reflexivity|].
    repeat (apply Forall_cons; [reflexivity|]). apply Forall_nil.
  - cbv zeta. split; [discriminate|]. split; [reflexivity|]. split; [repeat (apply Forall_cons; [reflexivity|]); apply Forall_nil|].
    split; [reflexivity|]. split; vm_compute; reflexivity.
Qed.
Example C16_nonvacuous_round5 :
  (* split -> join -> split on "[FE80::1%Eth0]:0080" and "EXAMPLE.com:" ; coap://@1.2.3.4:0080/x is accepted without Uri-Host with the
     network location kept verbatim (the fixed-point branch of C16_uri_options_uri needs no shape hypothesis) *)
  hostportsplit [91; 70; 69; 56; 48; 58; 58; 49; 37; 69; 116; 104; 48; 93; 58; 48; 48; 56; 48] =
    Ok (Some [102; 101; 56; 48; 58; 58; 49; 37; 69; 116; 104; 48], Some 80) /\
  hostportsplit [69; 88; 46; 99; 111; 109; 58] = Ok (Some [101; 120; 46; 99; 111; 109], None) /\
  set_request_uri no_ip (coap ++ [58; 47; 47; 64; 49; 46; 50; 46; 51; 46; 52; 58; 48; 48; 56; 48; 47; 120]) true =
    Ok (DRequest coap [64; 49; 46; 50; 46; 51; 46; 52; 58; 48; 48; 56; 48] None [[120]] []) /\
  urlsplit no_ip (coap ++ [58; 47; 47; 104; 58; 120; 47]) = Ok (coap, [104; 58; 120], [47], [], []) /\ port_of [104; 58; 120] = Raise ValueError /\
  urlsplit no_ip (coap ++ [58; 47; 47; 91; 58; 58; 49; 47]) = Raise ValueError.
Proof. repeat split; vm_compute; reflexivity. Qed.
Example C16_nonvacuous_rejections :
  set_request_uri no_ip [47; 47; 104; 47] true = Raise IncompleteUrlError /\                       (* //h/ *)
  set_request_uri no_ip (coap ++ [58; 47; 47; 104; 47; 35; 102]) true = Raise MalformedUrlError /\  (* coap://h/#f *)
  set_request_uri no_ip (coap ++ [58; 47; 47; 117; 64; 104; 47]) true = Raise MalformedUrlError /\  (* coap://u@h/ *)
  set_request_uri no_ip (coap ++ [58; 47; 47; 104; 58; 120; 47]) true = Raise MalformedUrlError /\  (* coap://h:x/ *)
  set_request_uri no_ip (coap ++ [58; 47; 47; 104; 47; 37; 67; 51]) true = Raise MalformedUrlError /\ (* coap://h/%C3 *)
  set_request_uri no_ip (coap ++ [58; 47; 104]) true = Raise MalformedUrlError.                    (* coap:/h *)
Proof. repeat split; vm_compute; reflexivity. Qed.
