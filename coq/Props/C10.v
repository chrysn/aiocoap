(* C10 — message-layer reactions follow the RFC 7252 type rules.
   The statements; each proof is a short derivation from the lemmas of Proofs/C10*.v (or a vm_compute witness). *)
From Verif Require Import Lib.Py Lib.Tactics Model.C10 Proofs.C10 Proofs.C10Acks Proofs.C10Live Proofs.C10R6.
Open Scope Z_scope.

(* 1. The reaction table: type x code class x token known x received on multicast, for every state reachable-or-not that satisfies
      the backlog invariant BInv (preserved by every step, see C10_BInv_invariant) and every message that is not a duplicate.
      [replies] are the ACK/RST-typed datagrams of the step. *)
Theorem C10_reaction_table : forall s r m s' o, BInv s -> fresh s r m -> dispatch_message s r m = (s', o) ->
  match table (mtype m) (classify (code m)) (known s r m) (is_multicast_locally r) with
  | Reset => replies o = [Send (as_response_address r) (empty_msg RST (mid m))]
  | EmptyAcknowledgement => replies o = [Send (as_response_address r) (empty_msg ACK (mid m))]
  | NoReply => replies o = []
  | ToHandler => exists s0, piggy s0 = piggy s /\ atimers s0 = atimers s /\ incoming s0 = incoming s /\ now s0 = now s /\
                            _process_request s0 r m = (s', o)
  end.
Proof. exact reaction_table. Qed.
Print Assumptions C10_reaction_table.

(* the table itself, cell by cell (4 types x 5 code classes x known x multicast = 80 cells) *)
Example C10_table_cells :
  (forall k mcst, table CON CEmpty k mcst = Reset) /\
  (forall t k mcst, t <> CON -> table t CEmpty k mcst = NoReply) /\
  (forall k mcst, table CON CRequest k mcst = ToHandler /\ table NON CRequest k mcst = ToHandler /\
                  table ACK CRequest k mcst = NoReply /\ table RST CRequest k mcst = NoReply) /\
  (forall mcst, table CON CResponse true mcst = EmptyAcknowledgement) /\
  table CON CResponse false false = Reset /\ table CON CResponse false true = NoReply /\
  (forall t k mcst, t <> CON -> table t CResponse k mcst = NoReply) /\
  (forall t k mcst, table t CReserved k mcst = NoReply /\ table t CSignalling k mcst = NoReply).
Proof. repeat split; intros; try (destruct t); try (destruct k); try (destruct mcst); try reflexivity; congruence. Qed.
Example C10_classify_cells :
  classify 0 = CEmpty /\ classify 1 = CRequest /\ classify 31 = CRequest /\ classify 32 = CReserved /\ classify 63 = CReserved /\
  classify 64 = CResponse /\ classify 191 = CResponse /\ classify 192 = CReserved /\ classify 223 = CReserved /\
  classify 224 = CSignalling /\ classify 255 = CSignalling.
Proof. vm_compute. repeat split. Qed.

(* every cell of the table without a reply is also silent towards the layers above (no handler started or cancelled, nothing delivered);
   response codes are excepted because a matched NON/ACK response is delivered to its request *)
Theorem C10_misfit_no_upward : forall s r m s' o, BInv s -> fresh s r m -> dispatch_message s r m = (s', o) ->
  table (mtype m) (classify (code m)) (known s r m) (is_multicast_locally r) = NoReply ->
  classify (code m) <> CResponse -> upward o = [].
Proof. exact misfit_no_upward. Qed.
Print Assumptions C10_misfit_no_upward.
(* messages whose code and type do not fit (NON empty; CON/NON with a reserved or signalling code) change nothing and send nothing *)
Theorem C10_dont_fit_ignored : forall s r m,
  (mtype m = NON /\ code m = 0) \/
  ((mtype m = CON \/ mtype m = NON) /\ code m <> 0 /\ is_request (code m) = false /\ is_response (code m) = false) ->
  dispatch_message s r m = (s, []).
Proof.
  intros s r m [[Ht Hc]|([Ht|Ht] & Hc & Hq & Hp)]; unfold dispatch_message, EMPTY; [rewrite Hc, Ht; reflexivity|..];
    rewrite Hq, Hp, Ht; replace (code m =? 0) with false by lia; reflexivity.
Qed.
Print Assumptions C10_dont_fit_ignored.

(* 2. Invariant over all histories and its consequence: no confirmable message is ever sent to a multicast destination *)
Theorem C10_BInv_invariant : forall es s s' os, run s es = (s', os) -> BInv s -> BInv s' /\ Forall ok_out (outputs_of os).
Proof. exact run_ok. Qed.
Print Assumptions C10_BInv_invariant.
Theorem C10_never_con_to_multicast : forall es m0 t0 r m,
  In (Send r m) (outputs_of (snd (run (init m0 t0) es))) -> mtype m = CON -> is_multicast r = false.
Proof. exact never_con_to_multicast. Qed.
Print Assumptions C10_never_con_to_multicast.
Theorem C10_con_to_multicast_refused : forall s r a mon rq,
  a_mtype a = Some CON -> is_multicast r = true -> is_response (a_code a) = false -> send_message s r a mon rq = (s, [], Some ConToMulticast).
Proof.
  intros s r a mon rq Hm Hr Hc. unfold send_message, send_message_tail. rewrite Hc, Hm. cbv zeta.
  change (mtype_eqb (select_mtype (Some CON) r rq) CON) with true. rewrite Hr. reflexivity.
Qed.
Print Assumptions C10_con_to_multicast_refused.

(* 3. A CON request is acknowledged exactly once under its message ID.
      AT MOST ONCE is proved for every history: every ACK under (peer, mid) consumes one recorded piggy-back opportunity
      ([cnt p M (piggy s)] counts them), whatever the interleaving of datagrams, handler answers, client requests, timers and waiting —
      provided the history contains no other message from that peer with that message ID (a duplicate is answered by replaying the
      stored ACK, C04) and the application does not itself send ACK-typed requests ([ev_ok]). *)
Theorem C10_acks_bounded : forall es s s' os p M, run s es = (s', os) -> BInv s -> Forall (ev_ok p M) es ->
  (acks p M (outputs_of os) + cnt p M (piggy s') <= cnt p M (piggy s))%nat.
Proof. exact acks_bounded. Qed.
Print Assumptions C10_acks_bounded.
Theorem C10_con_request_acked_at_most_once : forall s r m s1 o1 es s' os,
  BInv s -> mtype m = CON -> path m = 0 -> 1 <= code m <= 7 ->
  aget zz_eqb (recent s) (rpeer r, mid m) = None ->                       (* not a duplicate *)
  aget pk_eqb (piggy s) (rpeer r, token m) = None ->                       (* side condition O3: token not in use by an unacknowledged request *)
  cnt (rpeer r) (mid m) (piggy s) = 0%nat ->                               (* no opportunity recorded under this (peer, mid) *)
  dispatch_message s r m = (s1, o1) -> run s1 es = (s', os) -> Forall (ev_ok (rpeer r) (mid m)) es ->
  acks (rpeer r) (mid m) o1 = 0%nat /\ (acks (rpeer r) (mid m) (outputs_of os) <= 1)%nat.
Proof. exact con_request_acked_at_most_once. Qed.
Print Assumptions C10_con_request_acked_at_most_once.
Example C10_acked_at_most_once_nonvacuous :   (* the hypotheses hold in the initial state, and the bound is attained *)
  let s := init 0 0 in let r := uni 0 in let m := creq CON 7 [1] 0 None in
  BInv s /\ aget zz_eqb (recent s) (rpeer r, mid m) = None /\ aget pk_eqb (piggy s) (rpeer r, token m) = None /\
  cnt (rpeer r) (mid m) (piggy s) = 0%nat /\
  Forall (ev_ok 0 7) [Wait 100000; Fire; Respond 0 69 None [5]] /\
  acks 0 7 (outputs_of (snd (run (fst (dispatch_message s r m)) [Wait 100000; Fire; Respond 0 69 None [5]]))) = 1%nat.
Proof. split; [apply BInv_init|]. vm_compute. repeat split; repeat constructor. Qed.
(*    EXACTLY ONCE over whole histories.  Second invariant [AInv] (proved along every history from the initial state): every pending
      empty-ACK handle is not overdue (now <= due), has a handle number below the counter and is the handle stored in exactly one
      recorded opportunity; every opportunity has its pending handle; handle numbers are unique.
      Time in the model: [Fire] runs the pending handle with the least (due, creation number) and sets the clock to max(now, due);
      [Wait d] advances the clock by d but never past the due time of a pending handle.  "The clock has passed arrival +
      EMPTY_ACK_DELAY" is [now s + EMPTY_ACK_DELAY < now s'].
      Shutdown is outside the model (no event for it; C18) — the theorems speak about histories without Context.shutdown, and without
      transport errors (MessageManager.dispatch_error is not modelled either). *)
(* third invariant [RI] (Proofs/C10R6.v, along every history from the initial state): an opportunity's (peer, mid) is registered for
   deduplication; its empty-ACK handle is due strictly before the Forget handle of that registration; at most one pending Forget handle
   per registered (peer, mid) and none otherwise; one opportunity per (peer, token).  Consequence: a message that is not a duplicate has
   no opportunity recorded under its (peer, message ID) — the hypothesis [cnt ... = 0] of the general theorems of Proofs/C10Live.v. *)
Theorem C10_fresh_no_opportunity : forall es m0 t0 s os p M, run (init m0 t0) es = (s, os) ->
  aget zz_eqb (recent s) (p, M) = None -> cnt p M (piggy s) = 0%nat.
Proof. exact fresh_no_opportunity. Qed.
Print Assumptions C10_fresh_no_opportunity.
Example C10_RI_nonvacuous :      (* a reachable state with an opportunity, its registration and the two handles 0.1 s / 247 s *)
  let s := fst (run (init 0 0) [Recv (uni 0) (creq CON 7 [1] 0 None); Wait 5]) in
  RI s /\ piggy s = [((0, [1]), (7, 1))] /\ map due (atimers s) = [100000] /\ map due (forgets (rtimers s)) = [247000000].
Proof.
  split; [|vm_compute; repeat split].
  destruct (run (init 0 0) [Recv (uni 0) (creq CON 7 [1] 0 None); Wait 5]) as [s os] eqn:E.
  exact (RI_run _ _ _ _ E (BInv_init 0 0) (AInv_init 0 0) (RI_init 0 0)).
Qed.
(* the model's internal-error output of on_timeout (KeyError) is unreachable: the next empty-ACK handle to fire always has its opportunity *)
Theorem C10_on_timeout_keyerror_unreachable : forall es m0 t0 s os t, run (init m0 t0) es = (s, os) -> next_timer s = Some (true, t) ->
  exists r tok pm, kind t = EmptyAck r tok /\ aget pk_eqb (piggy s) (rpeer r, tok) = Some (pm, tid t) /\
                   forall e, ~ In (LoopException e) (snd (step s Fire)).
Proof. exact on_timeout_keyerror_unreachable. Qed.
Print Assumptions C10_on_timeout_keyerror_unreachable.
Theorem C10_AInv_invariant : forall es m0 t0 s os, run (init m0 t0) es = (s, os) -> AInv s.
Proof. intros es m0 t0 s os H. exact (proj1 (proj2 (reachable_invariants _ _ _ _ _ H))). Qed.
Print Assumptions C10_AInv_invariant.
Example C10_AInv_nonvacuous :      (* a reachable state with two recorded opportunities and their two pending handles *)
  let s := fst (run (init 0 0) [Recv (uni 0) (creq CON 7 [1] 0 None); Wait 5; Recv (uni 1) (creq CON 7 [1] 0 None)]) in
  AInv s /\ length (piggy s) = 2%nat /\ map due (atimers s) = [100000; 100005].
Proof.
  split; [|vm_compute; split; reflexivity].
  destruct (run (init 0 0) [Recv (uni 0) (creq CON 7 [1] 0 None); Wait 5; Recv (uni 1) (creq CON 7 [1] 0 None)]) as [s os] eqn:E.
  exact (AInv_run _ _ _ _ E (BInv_init 0 0) (AInv_init 0 0)).
Qed.
(* for every history [pre] from the initial state and every continuation [post]: a fresh CON request (any request code, any resource,
   whatever its handler does or fails to do) has received at most one ACK-typed message under its message ID at any time, and exactly
   one as soon as the clock has passed arrival + EMPTY_ACK_DELAY — hence none afterwards.  (That no opportunity is recorded under this
   (peer, mid) at arrival follows from reachability, C10_fresh_no_opportunity.)  Hypotheses: not a duplicate; O3 (the
   (peer, token) pair is not in use by an unacknowledged request, and no later CON request reuses it: [ev_live]); no other message
   from that peer carries this message ID and the application sends no ACK-typed requests ([ev_ok]). *)
Theorem C10_con_request_acked_exactly_once : forall pre m0 t0 s os0 r m s1 o1 post s' os,
  run (init m0 t0) pre = (s, os0) ->
  mtype m = CON -> is_request (code m) = true ->
  aget zz_eqb (recent s) (rpeer r, mid m) = None ->
  aget pk_eqb (piggy s) (rpeer r, token m) = None ->
  dispatch_message s r m = (s1, o1) -> run s1 post = (s', os) ->
  Forall (ev_ok (rpeer r) (mid m)) post -> Forall (ev_live (rpeer r) (token m)) post ->
  let n := acks (rpeer r) (mid m) (o1 ++ outputs_of os) in
  (n <= 1)%nat /\ (now s + EMPTY_ACK_DELAY < now s' -> n = 1%nat).
Proof.
  intros pre m0 t0 s os0 r m s1 o1 post s' os Hpre Ht Hrq Hf Ho3. destruct (reachable_invariants _ _ _ _ _ Hpre) as (HB & HA & _).
  exact (con_request_acked_exactly_once s r m s1 o1 post s' os HB HA Ht Hrq Hf Ho3 (fresh_no_opportunity _ _ _ _ _ _ _ Hpre Hf)).
Qed.
Print Assumptions C10_con_request_acked_exactly_once.
Example C10_acked_exactly_once_nonvacuous :   (* all hypotheses hold for a request arriving in the middle of other traffic *)
  let pre := [Request 1 None false; Recv (uni 1) (creq CON 3 [9] 1 None); Wait 7] in
  let s := fst (run (init 0 0) pre) in let r := uni 0 in let m := creq CON 7 [1] 0 None in
  let post := [Recv (uni 0) (creq NON 8 [2] 1 None); Wait 100000; Fire; Wait 1; Respond 0 69 None [5]] in
  let s1 := fst (dispatch_message s r m) in
  aget zz_eqb (recent s) (rpeer r, mid m) = None /\ aget pk_eqb (piggy s) (rpeer r, token m) = None /\
  cnt (rpeer r) (mid m) (piggy s) = 0%nat /\
  Forall (ev_ok (rpeer r) (mid m)) post /\ Forall (ev_live (rpeer r) (token m)) post /\
  now s + EMPTY_ACK_DELAY < now (fst (run s1 post)) /\
  acks 0 7 (snd (dispatch_message s r m) ++ outputs_of (snd (run s1 post))) = 1%nat.
Proof.
  vm_compute. repeat split; try reflexivity; repeat constructor; try (intros H; discriminate H); try (intros [_ H]; discriminate H); try (intros [H _]; discriminate H).
Qed.
(* piggy-backed iff the response is ready strictly before arrival + EMPTY_ACK_DELAY (for the slow resource, whose handler k0 answers when
   the harness says so): see the comment at con_response_timing in Proofs/C10Live.v.  [strict]: no other request reuses the
   (peer, token) pair and handler k0 has not answered yet. *)
Theorem C10_con_response_timing : forall pre m0 t0 s os0 r m s1 o1 es1 s2 os1,
  run (init m0 t0) pre = (s, os0) ->
  mtype m = CON -> path m = 0 -> 1 <= code m <= 7 ->
  aget zz_eqb (recent s) (rpeer r, mid m) = None -> aget pk_eqb (piggy s) (rpeer r, token m) = None ->
  dispatch_message s r m = (s1, o1) -> run s1 es1 = (s2, os1) ->
  let k0 := next_srv s in let d := now s + EMPTY_ACK_DELAY in
  Forall (strict r m k0) es1 -> Forall (ev_ok (rpeer r) (mid m)) es1 ->
  In (StartHandler k0) o1 /\
  (now s2 < d ->
     acks (rpeer r) (mid m) (o1 ++ outputs_of os1) = 0%nat /\
     forall c rnr pl s3 o3, is_response c = true -> handler_respond s2 k0 c rnr pl = (s3, o3) ->
       let eff := match rnr with Some v => Some v | None => nr m end in
       let a := {| a_mtype := None; a_code := c; a_token := token m; a_nr := eff; a_obs := None; a_payload := pl |} in
       (find_srv (incoming s2) k0 = None /\ o3 = []) \/
       (no_response_of a = false /\ o3 = [Send (as_response_address r) (mk_wire a ACK (mid m))]) \/
       (no_response_of a = true /\ o3 = [Send (as_response_address r) (empty_msg ACK (mid m))])) /\
  ((1 <= acks (rpeer r) (mid m) (o1 ++ outputs_of os1))%nat -> d <= now s2).
Proof.
  intros pre m0 t0 s os0 r m s1 o1 es1 s2 os1 Hpre Ht Hp Hc Hf Ho3. destruct (reachable_invariants _ _ _ _ _ Hpre) as (HB & HA & HG).
  exact (con_response_timing s r m s1 o1 es1 s2 os1 HB HA HG Ht Hp Hc Hf Ho3 (fresh_no_opportunity _ _ _ _ _ _ _ Hpre Hf)).
Qed.
Print Assumptions C10_con_response_timing.
Example C10_response_timing_nonvacuous :
  let s := init 0 0 in let r := uni 0 in let m := creq CON 7 [1] 0 None in
  let es1 := [Recv (uni 0) (creq NON 8 [2] 1 None); Wait 99999; Request 1 None false] in
  Forall (strict r m (next_srv s)) es1 /\ Forall (ev_ok (rpeer r) (mid m)) es1 /\
  now (fst (run (fst (dispatch_message s r m)) es1)) < now s + EMPTY_ACK_DELAY.
Proof. vm_compute. repeat split; repeat constructor; try (intros [_ H]; discriminate H); try (intros H; discriminate H). Qed.
(* "... otherwise by an empty ACK followed by a separate response with a fresh message ID and the request's token", over histories
   (same setting as C10_con_response_timing; comment at con_separate_response in Proofs/C10Live.v): before handler k0 answers, either
   nothing was sent under the request's message ID and the clock has not passed d, or the EMPTY ACK is in the trace, the clock is at
   least d, and the handler's answer is then exactly one CON/NON datagram with the request's token and the next message ID of our own
   counter (dropped if suppressed by No-Response; a CON may wait in the NSTART backlog; nothing if the handler was cancelled).
   "Fresh" = taken from our own 16-bit counter, which advances with every message (C10_separate_response: next_mid s' = next_mid s + 1
   mod 2^16); that no other exchange of ours is alive under that number is C14's business. *)
Theorem C10_con_separate_response : forall pre m0 t0 s os0 r m s1 o1 es1 s2 os1,
  run (init m0 t0) pre = (s, os0) ->
  mtype m = CON -> path m = 0 -> 1 <= code m <= 7 ->
  aget zz_eqb (recent s) (rpeer r, mid m) = None -> aget pk_eqb (piggy s) (rpeer r, token m) = None ->
  dispatch_message s r m = (s1, o1) -> run s1 es1 = (s2, os1) ->
  let k0 := next_srv s in let d := now s + EMPTY_ACK_DELAY in
  Forall (strict r m k0) es1 -> Forall (ev_ok (rpeer r) (mid m)) es1 ->
  (acks (rpeer r) (mid m) (o1 ++ outputs_of os1) = 0%nat /\ now s2 <= d) \/
  (In (Send (as_response_address r) (empty_msg ACK (mid m))) (outputs_of os1) /\ d <= now s2 /\
   forall c rnr pl s3 o3, is_response c = true -> handler_respond s2 k0 c rnr pl = (s3, o3) ->
     let eff := match rnr with Some v => Some v | None => nr m end in
     let a := {| a_mtype := None; a_code := c; a_token := token m; a_nr := eff; a_obs := None; a_payload := pl |} in
     let t := select_mtype None (as_response_address r) (Some (mtype m)) in
     (find_srv (incoming s2) k0 = None /\ o3 = []) \/
     (no_response_of a = true /\ o3 = []) \/
     (no_response_of a = false /\
      (o3 = [Send (as_response_address r) (mk_wire a t (next_mid s2))] \/ (o3 = [] /\ t = CON /\ amem Z.eqb (backlogs s2) (rpeer r) = true)))).
Proof.
  intros pre m0 t0 s os0 r m s1 o1 es1 s2 os1 Hpre Ht Hp Hc Hf Ho3. destruct (reachable_invariants _ _ _ _ _ Hpre) as (HB & HA & HG).
  exact (con_separate_response s r m s1 o1 es1 s2 os1 HB HA HG Ht Hp Hc Hf Ho3 (fresh_no_opportunity _ _ _ _ _ _ _ Hpre Hf)).
Qed.
Print Assumptions C10_con_separate_response.
Example C10_separate_response_nonvacuous :   (* the second alternative is reached: timer fired at 100 000 us, other traffic in between *)
  let s := init 0 0 in let r := uni 0 in let m := creq CON 7 [1] 0 None in
  let es1 := [Wait 100000; Fire; Recv (uni 0) (creq NON 8 [2] 1 None); Request 1 None false] in
  let s2 := fst (run (fst (dispatch_message s r m)) es1) in
  Forall (strict r m (next_srv s)) es1 /\ Forall (ev_ok (rpeer r) (mid m)) es1 /\ now s + EMPTY_ACK_DELAY <= now s2 /\
  sends (snd (handler_respond s2 0 69 None [5])) =
    [(uni 0, {| mtype := CON; code := 69; mid := 2; token := [1]; nr := None; obs := None; path := -1; payload := [5] |})].
Proof. vm_compute. repeat split; repeat constructor; try (intros [_ H]; discriminate H); try (intros H; discriminate H). Qed.
(* after the ACK (no opportunity left under the request's (peer, token)): the handler's answer is a separate message with a fresh
   message ID from our own counter and the request's token — CON for a CON request from a unicast peer, NON otherwise; suppressed by
   No-Response it is not sent; a CON may wait in the NSTART backlog (C14) *)
Theorem C10_respond_after_ack : forall s r m k0 key sv c rnr pl s' o,
  find_srv (incoming s) k0 = Some (key, sv) -> sv_remote sv = r -> sv_req sv = m ->
  aget pk_eqb (piggy s) (rpeer r, token m) = None -> is_response c = true ->
  handler_respond s k0 c rnr pl = (s', o) ->
  let eff := match rnr with Some v => Some v | None => nr m end in
  let a := {| a_mtype := None; a_code := c; a_token := token m; a_nr := eff; a_obs := None; a_payload := pl |} in
  let t := select_mtype None (as_response_address r) (Some (mtype m)) in
  (no_response_of a = true /\ o = []) \/
  (no_response_of a = false /\
   (o = [Send (as_response_address r) (mk_wire a t (next_mid s))] \/ (o = [] /\ t = CON /\ amem Z.eqb (backlogs s) (rpeer r) = true))).
Proof. exact respond_after_ack. Qed.
Print Assumptions C10_respond_after_ack.
(* a NON request is never acknowledged: no ACK-typed message under its (peer, message ID) in the step of its arrival nor in any
   continuation (same hypotheses on the continuation as above; the NON request records no opportunity) *)
Theorem C10_non_request_never_acked : forall s r m s1 o1 es s' os,
  BInv s -> mtype m = NON -> is_request (code m) = true ->
  aget zz_eqb (recent s) (rpeer r, mid m) = None -> cnt (rpeer r) (mid m) (piggy s) = 0%nat ->
  dispatch_message s r m = (s1, o1) -> run s1 es = (s', os) -> Forall (ev_ok (rpeer r) (mid m)) es ->
  acks (rpeer r) (mid m) (o1 ++ outputs_of os) = 0%nat.
Proof. exact non_request_never_acked. Qed.
Print Assumptions C10_non_request_never_acked.
Theorem C10_non_request_never_acked_reachable : forall pre m0 t0 s os0 r m s1 o1 es s' os,
  run (init m0 t0) pre = (s, os0) -> mtype m = NON -> is_request (code m) = true ->
  aget zz_eqb (recent s) (rpeer r, mid m) = None ->
  dispatch_message s r m = (s1, o1) -> run s1 es = (s', os) -> Forall (ev_ok (rpeer r) (mid m)) es ->
  acks (rpeer r) (mid m) (o1 ++ outputs_of os) = 0%nat.
Proof.
  intros pre m0 t0 s os0 r m s1 o1 es s' os Hpre Ht Hrq Hf.
  exact (non_request_never_acked s r m s1 o1 es s' os (proj1 (reachable_invariants _ _ _ _ _ Hpre)) Ht Hrq Hf (fresh_no_opportunity _ _ _ _ _ _ _ Hpre Hf)).
Qed.
Print Assumptions C10_non_request_never_acked_reachable.
Example C10_non_request_never_acked_nonvacuous :
  let s := init 0 0 in let r := uni 0 in let m := creq NON 7 [1] 0 None in
  let es := [Wait 100000; Fire; Respond 0 69 None [5]; Recv (uni 0) (creq CON 8 [1] 1 None)] in
  BInv s /\ aget zz_eqb (recent s) (rpeer r, mid m) = None /\ cnt (rpeer r) (mid m) (piggy s) = 0%nat /\ Forall (ev_ok 0 7) es /\
  sends (snd (dispatch_message s r m) ++ outputs_of (snd (run (fst (dispatch_message s r m)) es))) <> [].
Proof. split; [apply BInv_init|]. vm_compute. repeat split; repeat constructor; try (intros H; discriminate H). Qed.
(* a CON request answered at once — absent resource (4.04), unknown method (4.05), fast resource, raising resource (5.00) — is
   acknowledged in the very step of its arrival by exactly one ACK-typed message under its message ID (the piggy-backed answer, or the
   empty ACK if No-Response suppresses it) and leaves no opportunity behind; with C10_con_request_acked_exactly_once: none later *)
Theorem C10_immediate_answer_piggybacked : forall s r m s1 o1, mtype m = CON -> is_request (code m) = true ->
  path m <> 0 \/ ~ (1 <= code m <= 7) -> fresh s r m -> aget pk_eqb (piggy s) (rpeer r, token m) = None ->
  dispatch_message s r m = (s1, o1) ->
  acks (rpeer r) (mid m) o1 = 1%nat /\ aget pk_eqb (piggy s1) (rpeer r, token m) = None.
Proof.
  intros s r m s1 o1 Ht Hrq Himm Hf Ho3 Hd. apply dispatch_fresh_request in Hd; auto. rewrite process_request_arm, Ht in Hd.
  eapply immediate_answer; [|exact Himm|exact Hd]. rewrite arm_piggy. apply (aget_aset_same _ pk_ok).
Qed.
Print Assumptions C10_immediate_answer_piggybacked.
(*    The single-step facts behind these theorems, for every state: *)
Theorem C10_con_request_step_arms : forall s r m s' o, mtype m = CON -> path m = 0 -> 1 <= code m <= 7 ->
  aget pk_eqb (piggy s) (rpeer r, token m) = None -> _process_request s r m = (s', o) ->
  aget pk_eqb (piggy s') (rpeer r, token m) = Some (mid m, seq s) /\
  atimers s' = atimers s ++ [{| due := now s + EMPTY_ACK_DELAY; tid := seq s; kind := EmptyAck r (token m) |}] /\
  (forall x, In x o -> exists k, x = StartHandler k \/ x = CancelHandler k).
Proof.
  intros s r m s' o Ht Hp Hc Hn H. rewrite process_request_arm, Ht in H. destruct (tm_process_request_slow _ _ _ _ _ Hp Hc H) as (_ & _ & Hpg & Hat & _ & Ho).
  rewrite Hpg, Hat, arm_piggy, arm_atimers, Hn. split; [apply (aget_aset_same _ pk_ok)|split; [reflexivity|exact Ho]].
Qed.
Print Assumptions C10_con_request_step_arms.
(* the response is ready first: it travels in the ACK under the request's message ID; opportunity and timer are removed *)
Theorem C10_con_request_step_piggyback : forall s r a mon rq pmid h,
  is_response (a_code a) = true -> aget pk_eqb (piggy s) (rpeer r, a_token a) = Some (pmid, h) -> no_response_of a = false ->
  exists s', send_message s r a mon rq = (s', [Send r (mk_wire a ACK pmid)], None) /\
             piggy s' = adel pk_eqb (piggy s) (rpeer r, a_token a) /\ atimers s' = cancel (atimers s) h.
Proof. intros s r a mon rq pmid h Hr Hg Hn. pose proof (send_message_hit s r a mon rq pmid h Hr Hg) as H. rewrite Hn in H. exact H. Qed.
Print Assumptions C10_con_request_step_piggyback.
(* the timer fires first: an empty ACK under the request's message ID; the opportunity is removed *)
Theorem C10_con_request_step_timeout : forall s r tok pmid h, aget pk_eqb (piggy s) (rpeer r, tok) = Some (pmid, h) ->
  exists s', on_timeout s r tok = (s', [Send (as_response_address r) (empty_msg ACK pmid)]) /\
             aget pk_eqb (piggy s') (rpeer r, tok) = None.
Proof. exact on_timeout_acks. Qed.
Print Assumptions C10_con_request_step_timeout.
(* ... after which the response is separate: fresh message ID from our own counter, the request's token, NON for a NON request or a
   multicast peer and CON otherwise (a CON may first wait in the NSTART backlog, C14) *)
Theorem C10_separate_response : forall s r a mon rq s' o e,
  a_mtype a = None -> (is_response (a_code a) = true -> aget pk_eqb (piggy s) (rpeer r, a_token a) = None /\ no_response_of a = false) ->
  send_message s r a mon rq = (s', o, e) ->
  let t := select_mtype None r rq in
  e = None /\ next_mid s' = Z.land 65535 (1 + next_mid s) /\
  (o = [Send r (mk_wire a t (next_mid s))] \/ (o = [] /\ t = CON /\ amem Z.eqb (backlogs s) (rpeer r) = true)).
Proof. exact send_message_separate. Qed.
Print Assumptions C10_separate_response.
Theorem C10_non_request_never_arms : forall s r m, mtype m = NON -> _process_request s r m = tm_process_request s r m.
Proof. intros s r m Ht. unfold _process_request. rewrite Ht. reflexivity. Qed.
Print Assumptions C10_non_request_never_arms.
Theorem C10_non_by_default : forall r, select_mtype None r (Some NON) = NON.
Proof. intros r. unfold select_mtype. destruct (is_multicast r); reflexivity. Qed.
Print Assumptions C10_non_by_default.
Theorem C10_non_to_multicast : forall r rq, is_multicast r = true -> select_mtype None r rq = NON.
Proof. intros r rq Hr. unfold select_mtype. rewrite Hr. reflexivity. Qed.
Print Assumptions C10_non_to_multicast.

(* 4. No-Response (RFC 7967): a suppressed response is not sent; a CON request still gets its empty ACK — on every local address *)
Theorem C10_no_response_suppressed_ack : forall s r a mon rq pmid h,
  is_response (a_code a) = true -> aget pk_eqb (piggy s) (rpeer r, a_token a) = Some (pmid, h) -> no_response_of a = true ->
  exists s', send_message s r a mon rq = (s', [Send (as_response_address r) (empty_msg ACK pmid)], None) /\
             piggy s' = adel pk_eqb (piggy s) (rpeer r, a_token a) /\ atimers s' = cancel (atimers s) h.
Proof. intros s r a mon rq pmid h Hr Hg Hn. pose proof (send_message_hit s r a mon rq pmid h Hr Hg) as H. rewrite Hn in H. exact H. Qed.
Print Assumptions C10_no_response_suppressed_ack.
(* the address a reply goes to never carries the multicast address the request was received on, and stripping is idempotent *)
Theorem C10_as_response_address : forall r,
  is_multicast_locally (as_response_address r) = false /\ as_response_address (as_response_address r) = as_response_address r /\
  rpeer (as_response_address r) = rpeer r.
Proof.
  intros r. split; [|split; [apply as_response_address_idempotent|apply rpeer_ara]].
  unfold as_response_address, is_multicast_locally. destruct ((rlocal r =? 2) || (100 <=? rlocal r)) eqn:E; cbn; [reflexivity|exact E].
Qed.
Print Assumptions C10_as_response_address.
(* the bit the local / peer kinds abstract, on packed addresses (tied to udp6.py by the `addr` stream): ff00::/8 and the IPv4-mapped
   form of 224.0.0.0/4 are groups, e.g. ::ffff:224.0.1.187 (All CoAP Nodes over the dual-stack socket); ::ffff:192.0.2.1, the
   IPv4-compatible ::224.0.1.187 and fe80:: are not *)
Example C10_packed_is_multicast_cells :
  packed_is_multicast [255;2;0;0;0;0;0;0;0;0;0;0;0;0;0;253] = true /\
  packed_is_multicast [0;0;0;0;0;0;0;0;0;0;255;255;224;0;1;187] = true /\
  packed_is_multicast [0;0;0;0;0;0;0;0;0;0;255;255;239;255;255;250] = true /\
  packed_is_multicast [0;0;0;0;0;0;0;0;0;0;255;255;240;0;0;1] = false /\
  packed_is_multicast [0;0;0;0;0;0;0;0;0;0;255;255;223;255;255;255] = false /\
  packed_is_multicast [0;0;0;0;0;0;0;0;0;0;255;255;192;0;2;1] = false /\
  packed_is_multicast [0;0;0;0;0;0;0;0;0;0;0;0;224;0;1;187] = false /\
  packed_is_multicast [254;128;0;0;0;0;0;0;0;0;0;0;0;0;0;1] = false.
Proof. vm_compute. repeat split. Qed.
(* responses built from exceptions (4.04, 4.05, 5.00) are subject to the request's No-Response option like any other *)
Theorem C10_error_response_inherits_no_response : forall s r req c pl,
  send_response s r req c None pl =
  (let '(s1, o, _) := send_message s (as_response_address r)
      {| a_mtype := None; a_code := c; a_token := token req; a_nr := nr req; a_obs := None; a_payload := pl |} MonResp (Some (mtype req)) in (s1, o)).
Proof. reflexivity. Qed.
Print Assumptions C10_error_response_inherits_no_response.
Theorem C10_no_response_suppressed_silent : forall s r a mon rq,
  is_response (a_code a) = true -> aget pk_eqb (piggy s) (rpeer r, a_token a) = None -> no_response_of a = true ->
  send_message s r a mon rq = (s, [], None).
Proof. exact send_message_suppressed_silent. Qed.
Print Assumptions C10_no_response_suppressed_silent.
Example C10_no_response_mask :   (* 26 = 2.xx + 4.xx + 5.xx; 2 = 2.xx only; 8 = 4.xx only *)
  let a c n := {| a_mtype := None; a_code := c; a_token := []; a_nr := n; a_obs := None; a_payload := [] |} in
  no_response_of (a 69 (Some 26)) = true /\ no_response_of (a 132 (Some 26)) = true /\ no_response_of (a 160 (Some 26)) = true /\
  no_response_of (a 69 (Some 2)) = true /\ no_response_of (a 132 (Some 2)) = false /\ no_response_of (a 132 (Some 8)) = true /\
  no_response_of (a 69 (Some 0)) = false /\ no_response_of (a 69 None) = false.
Proof. vm_compute. repeat split. Qed.

(* ---- witnesses (vm_compute on concrete histories; the correspondence run replays the same scripts on the implementation) *)
(* non-vacuity of the piggy-back theorems: response after 99 999 us travels in the ACK (exactly one ACK, nothing left to fire) *)
Example C10_witness_piggyback :
  let es := [Recv (uni 0) (creq CON 7 [1] 0 None); Wait 99999; Respond 0 69 None [5]; Wait 1; Fire] in
  acks 0 7 (trace es) = 1%nat /\ sends (trace es) = [(uni 0, {| mtype := ACK; code := 69; mid := 7; token := [1]; nr := None; obs := None; path := -1; payload := [5] |})].
Proof. vm_compute. split; reflexivity. Qed.
(* the timer fires at exactly 100 000 us: empty ACK, then a separate CON response with our own message ID 0 and the request's token *)
Example C10_witness_empty_ack_then_separate :
  let es := [Recv (uni 0) (creq CON 7 [1] 0 None); Wait 100000; Fire; Respond 0 69 None [5]] in
  acks 0 7 (trace es) = 1%nat /\
  sends (trace es) = [(uni 0, empty_msg ACK 7);
                      (uni 0, {| mtype := CON; code := 69; mid := 0; token := [1]; nr := None; obs := None; path := -1; payload := [5] |})].
Proof. vm_compute. split; reflexivity. Qed.
(* NON request: never acknowledged, answered NON *)
Example C10_witness_non :
  let es := [Recv (uni 0) (creq NON 7 [1] 0 None); Wait 100000; Fire; Respond 0 69 None [5]] in
  acks 0 7 (trace es) = 0%nat /\
  sends (trace es) = [(uni 0, {| mtype := NON; code := 69; mid := 0; token := [1]; nr := None; obs := None; path := -1; payload := [5] |})].
Proof. vm_compute. split; reflexivity. Qed.
(* No-Response 26 on a CON request received on a unicast address: only the empty ACK *)
Example C10_witness_no_response :
  let es := [Recv (uni 0) (creq CON 7 [1] 0 (Some 26)); Wait 5; Respond 0 69 None [5]; Wait 100000; Fire] in
  sends (trace es) = [(uni 0, empty_msg ACK 7)].
Proof. vm_compute. reflexivity. Qed.
(* O3 (documented side condition, not a violation): a second CON request reusing the token before the first is acknowledged cancels the
   first one's timer — the unconditional "acknowledged exactly once" statement is refuted by the model, faithfully to messagemanager.py:389-397 *)
Example C10_acked_once_unconditional_refuted :
  exists es, acks 0 7 (trace es) = 0%nat /\ final_now es > 2 * EMPTY_ACK_DELAY /\
             In (Recv (uni 0) (creq CON 7 [1] 0 None)) es.
Proof.
  exists [Recv (uni 0) (creq CON 7 [1] 0 None); Wait 10; Recv (uni 0) (creq CON 8 [1] 0 None); Wait 100000; Fire; Wait 150000].
  vm_compute. split; [reflexivity|]. split; [reflexivity|]. left. reflexivity.
Qed.
(* a suppressed response for a CON request received on a multicast address yields the empty ACK (sent from the stripped address), and a 4.04
   built from an exception honours No-Response 26 (aiocoap 95af16f, 3a77ec2) *)
Example C10_witness_no_response_received_on_multicast :
  let es := [Recv (mc 0) (creq CON 7 [1] 0 (Some 26)); Wait 5; Respond 0 69 None [5]; Wait 100000; Fire; Wait 100000] in
  acks 0 7 (trace es) = 1%nat /\ sends (trace es) = [({| rpeer := 0; rlocal := 0 |}, empty_msg ACK 7)].
Proof. vm_compute. split; reflexivity. Qed.
Example C10_witness_error_response_honours_no_response :
  sends (trace [Recv (uni 0) (creq CON 7 [1] 2 (Some 26))]) = [(uni 0, empty_msg ACK 7)] /\
  sends (trace [Recv (uni 0) (creq NON 7 [1] 2 (Some 8))]) = [] /\
  sends (trace [Recv (uni 0) (creq CON 7 [1] 2 (Some 2))]) =
    [(uni 0, {| mtype := ACK; code := 132; mid := 7; token := [1]; nr := None; obs := None; path := -1; payload := [] |})].
Proof. vm_compute. repeat split. Qed.
(* giving up on a CON while a multicast request is pending fails exactly the requests to that peer, without an exception in the loop *)
Example C10_witness_give_up_with_multicast_request_pending :
  let es := [Request 0 None false; Request 100 None false; Fire; Fire; Fire; Fire; Fire] in
  filter (fun o => match o with Fail _ _ | LoopException _ => true | _ => false end) (trace es) = [Fail 0 ConRetransmitsExceeded].
Proof. vm_compute. reflexivity. Qed.
(* BInv is not vacuous: it holds initially and in a state with a backlogged CON and a pending retransmission *)
Example C10_BInv_nonvacuous :
  BInv (init 0 0) /\
  let s := fst (run (init 0 0) [Request 0 None false; Request 0 None false]) in
  BInv s /\ backlogs s <> [] /\ rtimers s <> [].
Proof.
  split; [apply BInv_init|]. split; [|vm_compute; split; discriminate].
  destruct (run (init 0 0) [Request 0 None false; Request 0 None false]) as [s os] eqn:E.
  exact (proj1 (run_ok _ _ _ _ E (BInv_init 0 0))).
Qed.

(* ---- the model's transport constants and message-ID successor are the translated source's
   (Gen/c03_constants.v <- numbers/constants.py TransportTuning, microseconds = seconds * 10^6; Gen/c14_message_id.v <- MessageManager._next_message_id) *)
From Verif Require Gen.c03_constants Gen.c14_message_id.
From Verif Require Proofs.C10Tie.
Theorem C10_exchange_lifetime_is_source :
  QArith_base.Qeq (QArith_base.inject_Z EXCHANGE_LIFETIME) (QArith_base.Qmult (c03_constants.EXCHANGE_LIFETIME c03_constants.default_transport_tuning) (QArith_base.inject_Z 1000000)).
Proof. exact C10Tie.exchange_lifetime_is_source. Qed.
Print Assumptions C10_exchange_lifetime_is_source.
Theorem C10_empty_ack_delay_is_source :
  QArith_base.Qeq (QArith_base.inject_Z EMPTY_ACK_DELAY) (QArith_base.Qmult (c03_constants.tt_EMPTY_ACK_DELAY c03_constants.default_transport_tuning) (QArith_base.inject_Z 1000000)).
Proof. exact C10Tie.empty_ack_delay_is_source. Qed.
Print Assumptions C10_empty_ack_delay_is_source.
Theorem C10_ack_timeout_is_source :
  QArith_base.Qeq (QArith_base.inject_Z ACK_TIMEOUT) (QArith_base.Qmult (c03_constants.tt_ACK_TIMEOUT c03_constants.default_transport_tuning) (QArith_base.inject_Z 1000000)).
Proof. exact C10Tie.ack_timeout_is_source. Qed.
Print Assumptions C10_ack_timeout_is_source.
Theorem C10_max_retransmit_is_source :
  MAX_RETRANSMIT = c03_constants.tt_MAX_RETRANSMIT c03_constants.default_transport_tuning.
Proof. exact C10Tie.max_retransmit_is_source. Qed.
Print Assumptions C10_max_retransmit_is_source.
Theorem C10_next_message_id_is_source :
  forall s, c14_message_id.next_message_id {| c14_message_id.mmids_message_id := next_mid s |} = Ok ({| c14_message_id.mmids_message_id := next_mid (fst (_next_message_id s)) |}, snd (_next_message_id s)).
Proof. exact C10Tie.next_message_id_is_source. Qed.
Print Assumptions C10_next_message_id_is_source.

(* the model's internal-error outputs (_retransmit KeyError, _continue_backlog AssertionError; with on_timeout's KeyError above: every
   LoopException output) are unreachable from the initial state under every event history (Proofs/C10R7.v, invariant XI) *)
From Verif Require Import Proofs.C10R7.
Theorem C10_exchange_invariant : forall es m0 t0 s os, run (init m0 t0) es = (s, os) -> XI s.
Proof. exact exchange_invariant. Qed.
Print Assumptions C10_exchange_invariant.
Theorem C10_retransmit_keyerror_unreachable : forall es m0 t0 s os t r m to c, run (init m0 t0) es = (s, os) ->
  next_timer s = Some (false, t) -> kind t = Retransmit r m to c ->
  (exists mon, aget zz_eqb (exch s) (rpeer r, mid m) = Some (mon, tid t)) /\ amem Z.eqb (backlogs s) (rpeer r) = true /\
  forall e, ~ In (LoopException e) (snd (step s Fire)).
Proof. exact retransmit_keyerror_unreachable. Qed.
Print Assumptions C10_retransmit_keyerror_unreachable.
Theorem C10_continue_backlog_assertion_unreachable : forall es m0 t0 s os, run (init m0 t0) es = (s, os) ->
  (forall p M v, aget zz_eqb (exch s) (p, M) = Some v -> aget Z.eqb (backlogs s) p <> None) /\
  (forall r m e, ~ In (LoopException e) (snd (_remove_exchange s r m))) /\
  (forall r m e, ~ In (LoopException e) (snd (step s (Recv r m)))).
Proof. exact continue_backlog_assertion_unreachable. Qed.
Print Assumptions C10_continue_backlog_assertion_unreachable.
Theorem C10_no_loop_exception : forall es m0 t0 s os, run (init m0 t0) es = (s, os) -> forall e, ~ In (LoopException e) (outputs_of os).
Proof.
  intros es m0 t0 s os Hrun. apply NoLE_in. eapply XI_NoLE_run; [exact Hrun|apply BInv_init|apply AInv_init|apply XI_init].
Qed.
Print Assumptions C10_no_loop_exception.
Theorem C10_one_exchange_per_peer : forall es m0 t0 s os p M M', run (init m0 t0) es = (s, os) ->
  aget zz_eqb (exch s) (p, M) <> None -> aget zz_eqb (exch s) (p, M') <> None -> M = M'.
Proof. intros es m0 t0 s os p M M' Hrun. pose proof (exchange_invariant _ _ _ _ _ Hrun) as (_ & _ & X3 & _). apply X3. Qed.
Print Assumptions C10_one_exchange_per_peer.
