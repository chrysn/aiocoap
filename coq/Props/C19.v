(* C19 — the file server never touches anything outside its root directory.
   The statements; the proofs are in Proofs/C19*.v; the Examples are evaluated. *)
From Verif Require Import Lib.Py Lib.Tactics Model.C19Path Gen.fileserver Model.C19 Proofs.C19Path Proofs.C19 Proofs.C19R6.
From Coq Require String.
Import String.StringSyntax.
Open Scope Z_scope.

(* ================= 1. the translated request_to_localpath (Gen/fileserver.v, regenerated from source on every run),
   for EVERY Uri-Path component list over arbitrary code points: an accepted request designates root's parts followed by
   the non-empty components, lexically under the root (posixpath.join / PurePosixPath semantics of Model/C19Path.v) *)
Theorem C19_request_to_localpath_confined : forall self req p, root_ok (fs_root self) ->
  request_to_localpath self req = Ok p ->
  load_parts p = {| anchor := anchor (load_parts (fs_root self));
                    parts := parts (load_parts (fs_root self)) ++ filter nonempty (opt_uri_path req) |}
  /\ under (load_parts (fs_root self)) (load_parts p) = true.
Proof. exact request_to_localpath_confined. Qed.
Print Assumptions C19_request_to_localpath_confined.
(* root_ok covers absolute roots ("/srv/root") and relative ones (".", "sub", "./sub/" — the CLI default is "."): under a
   relative root every accepted request stays a relative path (anchor 0: no absolute replacement) made of the root's parts
   followed by non-empty, non-".." components — a location at or below the root directory whatever the working directory is *)
Theorem C19_relative_root_stays_relative : forall self req p, fs_root self <> [] -> root_rel (fs_root self) ->
  request_to_localpath self req = Ok p ->
  anchor (load_parts p) = 0
  /\ exists rest, parts (load_parts p) = parts (load_parts (fs_root self)) ++ rest /\ ~ In DOTDOT rest /\ ~ In [] rest.
Proof.
  intros self req p Hne Hrel H.
  destruct (request_to_localpath_confined self req p (conj Hne (or_intror Hrel)) H) as [Hp Hu].
  split; [rewrite Hp; cbn [anchor]; exact (proj2 (root_anchor _ Hne) Hrel)|].
  destruct (proj1 (under_iff _ _) Hu) as [_ [rest [Hr Hd]]]. exists rest. split; [exact Hr|]. split; [exact Hd|].
  rewrite Hp in Hr. cbn [parts] in Hr. apply app_inv_head in Hr. subst rest. intros Hin. apply filter_In in Hin as [_ Hin]. discriminate.
Qed.
Print Assumptions C19_relative_root_stays_relative.

(* the only exception it raises is InvalidPathError (4.00); it raises it for every component with a slash, "." or "..",
   and accepts everything else (NUL, look-alikes, leading/trailing/inner empty components ...) *)
Theorem C19_request_to_localpath_total : forall self req,
  (exists p, request_to_localpath self req = Ok p) \/ request_to_localpath self req = Raise InvalidPathError.
Proof. intros self req. destruct (request_to_localpath_cases self req) as [[_ H]|[_ H]]; [left; eexists; exact H|right; exact H]. Qed.
Print Assumptions C19_request_to_localpath_total.
Theorem C19_request_to_localpath_rejects : forall self req p, In p (opt_uri_path req) ->
  (~ noslash p \/ p = DOT \/ p = DOTDOT) -> request_to_localpath self req = Raise InvalidPathError.
Proof. exact request_to_localpath_rejects. Qed.
Print Assumptions C19_request_to_localpath_rejects.
Theorem C19_request_to_localpath_accepts : forall self req, Forall comp_ok (opt_uri_path req) ->
  request_to_localpath self req = Ok (joinpath (fs_root self) (opt_uri_path req)).
Proof.
  intros self req H. destruct (request_to_localpath_cases self req) as [[_ E]|[[p [Hp Hh]] _]]; [exact E|].
  rewrite Forall_forall in H. destruct (comp_ok_not_hostile _ (H _ Hp) Hh).
Qed.
Print Assumptions C19_request_to_localpath_accepts.

(* what "under" means: same anchor, root's parts are a prefix, no ".." after them *)
Theorem C19_under_is_prefix : forall root p, under root p = true ->
  anchor p = anchor root /\ exists rest, parts p = parts root ++ rest /\ ~ In DOTDOT rest.
Proof. intros root p. apply under_iff. Qed.
Print Assumptions C19_under_is_prefix.

(* ================= 2. confinement of the whole server: for every server configuration with an absolute or relative root,
   every file-system state, every request (any method, any options incl. Block1 sequences, any payload): every effect (stat,
   open, listdir, temp-file creation, rename, unlink) is on a path under the root — or, for the temporary file under a relative
   root, under the absolutised root (working directory ++ root: tempfile applies os.path.abspath) — and no entry outside
   the root changes *)
Theorem C19_conf_meaning : forall root aroot e, conf root aroot e ->
  match e with
  | ERename a b => okp root aroot a /\ okp root aroot b
  | EStat p | EOpenRead p | EListDir p | EOpenDirW p | ECreate p | EUnlink p => under root p = true \/ under aroot p = true
  end.
Proof. intros root aroot e H. destruct e; exact H. Qed.
Print Assumptions C19_conf_meaning.
Theorem C19_confined : forall self, root_ok (fs_root self) -> fs_tmpname self <> DOTDOT -> forall req st,
  match serve self req st with
  | (st', effs, _) => Forall (conf (load_parts (fs_root self)) (abspath self (load_parts (fs_root self)))) effs
                      /\ Iframe (load_parts (fs_root self)) st st'       (* = frame on the file system /\ observed paths stay under the root *)
  end.
Proof. exact serve_confined. Qed.
Print Assumptions C19_confined.

Theorem C19_frame_meaning : forall root s s', Iframe root s s' ->
  (forall k, ~ below (parts root) k -> lookup (st_fs s') k = lookup (st_fs s) k) /\ (obs_under root s -> obs_under root s').
Proof. intros root s s' H. exact H. Qed.
Print Assumptions C19_frame_meaning.

(* ... and over every history of requests, block-wise fetch loops, requests served while the disk is full (IOneFull) and
   rounds of the 10-second refresher check_files_for_refreshes (ITick: one stat per observed path, then any set of
   re-rendered requests), from every state whose observed paths are under the root — in particular the initial state *)
Theorem C19_confined_histories : forall self items st, root_ok (fs_root self) -> fs_tmpname self <> DOTDOT ->
  obs_under (load_parts (fs_root self)) st ->
  match run self st items with
  | (st', outs) => Forall (fun o => Forall (conf (load_parts (fs_root self)) (abspath self (load_parts (fs_root self)))) (all_effects o)) outs
                   /\ frame (parts (load_parts (fs_root self))) (st_fs st) (st_fs st')
                   /\ obs_under (load_parts (fs_root self)) st'
  end.
Proof. intros self items st H1 H2 H3. exact (run_confined self H1 H2 items st H3). Qed.
Print Assumptions C19_confined_histories.

(* a request that would lead anywhere else — some Uri-Path component is "..", "." or contains a slash — is ANSWERED WITH AN
   ERROR (code >= 4.00) whatever the method, the other options, the payload and the state, without a single file-system
   call (not even a stat below the root) and without effect.  (A non-final Block1 block is answered 2.31 Continue by the
   spool, which does not look at the path; the block that completes the body gets the error.) *)
Theorem C19_escaping_request_answered_with_error : forall self req st p, In p (opt_uri_path req) ->
  (~ noslash p \/ p = DOT \/ p = DOTDOT) ->
  (forall n m s, opt_block1 req = Some (n, m, s) -> m = false) ->
  match serve self req st with (st', effs, r) => 128 <= rcode r /\ effs = [] /\ st_fs st' = st_fs st end.
Proof. exact escaping_request_error. Qed.
Print Assumptions C19_escaping_request_answered_with_error.

(* ================= 3. without write permission — and for every method other than PUT and DELETE — no request modifies
   the file system, and only reading calls are made *)
Theorem C19_readonly_without_write : forall self req st, fs_write self = false \/ (code req <> 3 /\ code req <> 4) ->
  match serve self req st with (st', effs, _) => st_fs st' = st_fs st /\ Forall reading effs end.
Proof.
  intros self req st Hr. unfold serve. pose proof (ro_render_to_pipe self req Hr st) as H.
  destruct (render_to_pipe self req st) as [[st' effs] [e|r]]; destruct H as [H1 [H2 _]]; split; assumption.
Qed.
Print Assumptions C19_readonly_without_write.

(* ================= 4. a request answered with an error (4.xx, 5.xx — in particular 4.00 for every rejected path) has no
   effect: every file-system entry is as before.  The temporary file of a failed PUT is removed again, whether the rename
   fails or writing the body fails (full disk: fs_disk_full may be true — the write sits inside the try block whose except
   clause unlinks, commit bc47b66).  tmp_fresh is what tempfile guarantees; the proof does not use it *)
Theorem C19_error_has_no_effect : forall self, root_ok (fs_root self) -> forall req st, tmp_fresh self req (st_fs st) ->
  match serve self req st with (st', _, r) => 128 <= rcode r -> fs_equiv (st_fs st') (st_fs st) end.
Proof.
  intros self Hroot req st _. pose proof (errsafe_render_to_pipe self Hroot req st) as H. unfold errsafe_at, out in H. unfold serve.
  destruct (render_to_pipe self req st) as [[st' effs] [e|r]]; cbn [fst snd] in H; [intros _; exact H|exact H].
Qed.
Print Assumptions C19_error_has_no_effect.

(* ================= 5. a file fetched block by block, with any block size exponent, is byte-identical to its content *)
Theorem C19_blockwise_read_exact : forall self req p c szx fuel st,
  code req = 1 -> opt_observe req = None -> existsb is_cur (opt_etags req) = false -> parts_eqb (opt_uri_path req) WKC = false ->
  needs_blockwise_assembly req = false ->
  request_to_localpath self req = Ok p -> fs_stat (st_fs st) (load_parts p) = inr (NFile c) ->
  0 <= szx -> (length c <= fuel)%nat ->
  match fetch_all fuel self req szx 0 st with
  | (st', outs) => concat (map (fun o => payload_of (snd o)) outs) = c
                   /\ Forall (fun o => rcode (snd o) = 69) outs /\ st_fs st' = st_fs st
  end.
Proof.
  intros self req p c szx fuel st H1 H2 H3 _ H5 H6 H7 H8 H9.
  pose proof (fetch_all_spec self req p c H1 H2 H3 H5 H6 szx fuel 0 st H8 (Z.le_refl 0) H7 H9) as H.
  destruct (fetch_all fuel self req szx 0 st) as [st' outs]. tauto.
Qed.
Print Assumptions C19_blockwise_read_exact.
(* each single block is the corresponding slice, with the M bit set exactly when more bytes follow *)
Theorem C19_block_is_slice : forall c n szx, 0 <= szx ->
  block_payload c n szx = bto (bfrom c (blk_start n szx)) (blk_size szx)
  /\ block_more c n szx = (blen (bfrom c (blk_start n szx)) >? blk_size szx).
Proof. intros c n szx H. split; [exact (block_payload_spec c n szx H)|exact (block_more_spec c n szx H)]. Qed.
Print Assumptions C19_block_is_slice.

(* history level: ANY sequence of GETs for the same file whose requested blocks tile it — first request without
   a Block2 option (what aiocoap's own client sends; answered with block 0 of 1024 bytes), size exponent changing from
   request to request, M flag of the request arbitrary — reassembles exactly the file, over the model's run function *)
Theorem C19_blockwise_read_tiling : forall self req p c bs st,
  code req = 1 -> opt_observe req = None -> existsb is_cur (opt_etags req) = false -> needs_blockwise_assembly req = false ->
  request_to_localpath self req = Ok p -> fs_stat (st_fs st) (load_parts p) = inr (NFile c) ->
  tiling c (map blk_of bs) -> blk_start (fst (hd (0, 0) (map blk_of bs))) (snd (hd (0, 0) (map blk_of bs))) = 0 ->
  match run self st (map (fun b => IOne (with_block2 req b)) bs) with
  | (st', outs) => payloads outs = c /\ all_content outs /\ st_fs st' = st_fs st
  end.
Proof.
  intros self req p c bs st H1 H2 H3 H4 H5 H6 H7 H8.
  pose proof (run_tiling self req p c H1 H2 H3 H4 H5 bs H7 st H6) as H. rewrite H8 in H. exact H.
Qed.
Print Assumptions C19_blockwise_read_tiling.
(* one request, any Block2 option value or none: the answer is exactly the designated block *)
Theorem C19_any_block2_option : forall self req p c b st,
  code req = 1 -> opt_observe req = None -> existsb is_cur (opt_etags req) = false -> needs_blockwise_assembly req = false ->
  request_to_localpath self req = Ok p -> fs_stat (st_fs st) (load_parts p) = inr (NFile c) ->
  exists st1 effs, serve self (with_block2 req b) st = (st1, effs, block_response self req c (fst (blk_of b)) (snd (blk_of b)))
                   /\ st_fs st1 = st_fs st.
Proof. intros self req p c b st H1 H2 H3 H4 H5 H6. exact (serve_block_any self req p c H1 H2 H3 H4 H5 b st H6). Qed.
Print Assumptions C19_any_block2_option.

(* ================= 6. Block1 in front of PUT (needs_blockwise_assembly -> Block1Spool.feed_and_take): the spool has no
   file-system effect at all; the last block releases the request with the body assembled from all blocks (that is what
   render_put writes); a block that does not continue the body is answered with an error and changes nothing.  Theorems 2-4
   above quantify over these requests too (serve includes the spool). *)
Theorem C19_block1_spool_has_no_effect : forall req st,
  match feed_and_take req st with
  | ((st', effs), r) => st_fs st' = st_fs st /\ effs = [] /\
      match r with inr req' => opt_uri_path req' = opt_uri_path req /\ code req' = code req | inl _ => True end
  end.
Proof.
  intros req st. pose proof (feed_and_take_cases req st) as H. destruct (feed_and_take req st) as [[st' effs] r].
  destruct H as (H1 & _ & H2 & H3). repeat split; try assumption. destruct r; [exact I|exact H3].
Qed.
Print Assumptions C19_block1_spool_has_no_effect.
Theorem C19_block1_last_block_assembles : forall req st num szx acc,
  opt_block1 req = Some (num, false, szx) -> num <> 0 ->
  spool_find (st_spool st) (block_key req) = Some acc -> blk_start num szx = blen acc ->
  block1_invalid false szx (payload req) = false ->
  exists st', feed_and_take req st = ((st', []), inr (with_payload req (acc ++ payload req))) /\ st_fs st' = st_fs st
              /\ st_spool st' = spool_remove (st_spool st) (block_key req).      (* the completed body leaves the spool *)
Proof. exact feed_last. Qed.
Print Assumptions C19_block1_last_block_assembles.
Theorem C19_block1_gap_rejected : forall req st num more szx acc,
  opt_block1 req = Some (num, more, szx) -> num <> 0 ->
  spool_find (st_spool st) (block_key req) = Some acc -> blk_start num szx <> blen acc ->
  exists e, feed_and_take req st = ((st, []), inl e) /\ (e = XIncomplete \/ e = XBadRequest).
Proof. exact feed_gap. Qed.
Print Assumptions C19_block1_gap_rejected.
(* a block whose payload does not fit its block size (not full with M set; larger than the block size when final) is 4.00 *)
Theorem C19_block1_bad_size_rejected : forall req st num more szx acc,
  opt_block1 req = Some (num, more, szx) -> num <> 0 -> spool_find (st_spool st) (block_key req) = Some acc ->
  block1_invalid more szx (payload req) = true -> feed_and_take req st = ((st, []), inl XBadRequest).
Proof. exact feed_oversize. Qed.
Print Assumptions C19_block1_bad_size_rejected.

(* ================= 7. from the initial state, and internal errors *)
(* C19_confined_histories without its state hypothesis: a freshly started server (no observation yet) *)
Theorem C19_confined_from_start : forall self items fs, root_ok (fs_root self) -> fs_tmpname self <> DOTDOT ->
  match run self {| st_fs := fs; st_obs := []; st_spool := [] |} items with
  | (st', outs) => Forall (fun o => Forall (conf (load_parts (fs_root self)) (abspath self (load_parts (fs_root self)))) (all_effects o)) outs
                   /\ frame (parts (load_parts (fs_root self))) fs (st_fs st')
                   /\ obs_under (load_parts (fs_root self)) st'
  end.
Proof. intros self items fs H1 H2. apply (run_confined self H1 H2 items). constructor. Qed.
Print Assumptions C19_confined_from_start.
(* the model's internal error output XValueError (Path.relative_to failing in render_get_dir, which would be a 5.00) is
   unreachable: for every request and every state *)
Theorem C19_no_internal_value_error : forall self, root_ok (fs_root self) -> forall req st,
  snd (render_to_pipe self req st) <> inl XValueError.
Proof.
  intros self Hroot req st. pose proof (conf_render_to_pipe self Hroot req st) as H.
  destruct (render_to_pipe self req st) as [[st' effs] [e|r]]; [|discriminate]. destruct H as [_ [_ Hx]]. cbn. congruence.
Qed.
Print Assumptions C19_no_internal_value_error.

(* ================= non-vacuity and witnesses *)
Definition ex_root : list (list Z) := [S "/srv/root"].
Definition ex_self : fileserver := {| fs_root := ex_root; fs_write := true; fs_etag_enabled := true; fs_tmpname := S "tmpabcd1234"; fs_cwd := [S "home"; S "u"]; fs_disk_full := false |}.
Definition ex_rel (root : list Z) : fileserver := {| fs_root := [root]; fs_write := true; fs_etag_enabled := true; fs_tmpname := S "tmpabcd1234"; fs_cwd := [S "home"; S "u"]; fs_disk_full := false |}.
Definition ex_req (m : Z) (path : list (list Z)) : request :=
  {| code := m; opt_uri_path := path; opt_observe := None; opt_etags := []; opt_if_match := []; opt_if_none_match := false; opt_block1 := None; opt_block2 := None; payload := [1; 2; 3] |}.
Definition ex_blk (path : list (list Z)) (b1 : Z * bool * Z) (body : list Z) : request :=
  {| code := 3; opt_uri_path := path; opt_observe := None; opt_etags := []; opt_if_match := []; opt_if_none_match := false; opt_block1 := Some b1; opt_block2 := None; payload := body |}.
Definition ex_fs : fsys :=
  [([S "srv"], NDir); ([S "srv"; S "root"], NDir); ([S "srv"; S "root"; S "f"], NFile (pattern 40 1));
   ([S "srv"; S "secret"], NFile [7; 7; 7]); ([S "etc"], NDir); ([S "etc"; S "passwd"], NFile [9])].
Definition ex_st : state := {| st_fs := ex_fs; st_obs := []; st_spool := [] |}.

Example C19_root_ok_nonvacuous : root_ok ex_root /\ fs_tmpname ex_self <> DOTDOT.
Proof. split; [|discriminate]. split; [discriminate|]. left. exists 115, (S "rv/root"). split; [reflexivity|discriminate]. Qed.
Example C19_relative_roots_ok : root_ok [S "."] /\ root_ok [S "sub"] /\ root_ok [S "./sub/"] /\ root_ok [[]].
Proof. repeat split; try discriminate; right; reflexivity. Qed.
(* under the CLI's default root "." the hostile leading-empty request designates ./etc/passwd, and a PUT works on relative
   paths except for tempfile's absolutised temporary name *)
Example C19_relative_root_nonvacuous :
  match request_to_localpath (ex_rel (S ".")) (ex_req 1 [[]; S "etc"; S "passwd"]) with
  | Ok p => load_parts p = {| anchor := 0; parts := [S "etc"; S "passwd"] |} | Raise _ => False end
  /\ match request_to_localpath (ex_rel (S "./sub/")) (ex_req 1 [S "a"; []; S "b"]) with
     | Ok p => load_parts p = {| anchor := 0; parts := [S "sub"; S "a"; S "b"] |} | Raise _ => False end
  /\ (let '(st', effs, r) := serve (ex_rel (S ".")) (ex_req 3 [S "new"]) {| st_fs := [([S "f"], NFile [1])]; st_obs := []; st_spool := [] |} in
      rcode r = 68 /\ effs = [EOpenDirW {| anchor := 0; parts := [] |};
                              ECreate {| anchor := 1; parts := [S "home"; S "u"; S "tmpabcd1234"] |};
                              ERename {| anchor := 1; parts := [S "home"; S "u"; S "tmpabcd1234"] |} {| anchor := 0; parts := [S "new"] |};
                              EStat {| anchor := 0; parts := [S "new"] |}]
      /\ lookup (st_fs st') [S "new"] = Some (NFile [1; 2; 3])).
Proof. vm_compute. repeat split. Qed.
(* Block1: three blocks are assembled and written as one file; a block for an unknown (or already completed) body is
   answered 4.08, a block of the wrong size 4.00, and nothing is written; 2.31 responses have no effect *)
Example C19_block1_nonvacuous :
  let '(st', outs) := run ex_self ex_st [IOne (ex_blk [S "b"] (0, true, 0) (pattern 16 1)); IOne (ex_blk [S "b"] (1, true, 0) (pattern 16 2));
                                        IOne (ex_blk [S "b"] (2, false, 0) [5; 6]); IOne (ex_blk [S "c"] (1, false, 0) [5; 6]);
                                        IOne (ex_blk [S "b"] (1, true, 0) [5; 6]);                 (* the completed body has left the spool *)
                                        IOne (ex_blk [S "d"] (0, true, 0) (pattern 16 1)); IOne (ex_blk [S "d"] (1, true, 0) [5; 6]);   (* short non-final block *)
                                        IOne (ex_blk [S "d"] (1, false, 0) (pattern 17 3))] in                                     (* oversize final block *)
  map (map (fun o => (rcode (snd o), length (fst o)))) outs
    = [[(95, 0%nat)]; [(95, 0%nat)]; [(68, 4%nat)]; [(136, 0%nat)]; [(136, 0%nat)]; [(95, 0%nat)]; [(128, 0%nat)]; [(128, 0%nat)]]
  /\ lookup (st_fs st') [S "srv"; S "root"; S "b"] = Some (NFile (pattern 16 1 ++ pattern 16 2 ++ [5; 6]))
  /\ lookup (st_fs st') [S "srv"; S "root"; S "c"] = None.
Proof. vm_compute. repeat split. Qed.

(* the leading-empty-component request (finding F8) is served below the root ... *)
Example C19_leading_empty_is_confined :
  match request_to_localpath ex_self (ex_req 1 [[]; S "etc"; S "passwd"]) with
  | Ok p => load_parts p = {| anchor := 1; parts := [S "srv"; S "root"; S "etc"; S "passwd"] |}
  | Raise _ => False
  end.
Proof. vm_compute. reflexivity. Qed.
(* ... whereas the code before commit 2f695ec (root / "/".join(path)) is REFUTED by the same input: with the real join
   semantics (an absolute argument replaces the root) it designates /etc/passwd, which is not under the root, and GET
   serves it *)
Example C19_F8_old_code_refuted :
  match request_to_localpath_F8 ex_self (ex_req 1 [[]; S "etc"; S "passwd"]) with
  | Ok p => load_parts p = {| anchor := 1; parts := [S "etc"; S "passwd"] |} /\ under (load_parts ex_root) (load_parts p) = false
  | Raise _ => False
  end.
Proof. vm_compute. split; reflexivity. Qed.
(* join semantics used by the theorems: absolute segments replace, "//" is kept as its own root, "." is dropped, ".." stays *)
Example C19_join_semantics :
  load_parts (joinpath ex_root [S "a"; S "/etc/passwd"]) = {| anchor := 1; parts := [S "etc"; S "passwd"] |} /\
  load_parts (joinpath ex_root [S "a/./b//c/"; []; S ".."]) = {| anchor := 1; parts := [S "srv"; S "root"; S "a"; S "b"; S "c"; S ".."] |} /\
  load_parts [S "//x"] = {| anchor := 2; parts := [S "x"] |} /\ load_parts [S "///x"] = {| anchor := 1; parts := [S "x"] |}.
Proof. vm_compute. repeat split. Qed.

(* a PUT that succeeds, then a block-wise fetch of the new file, a DELETE, and a PUT onto a directory that fails after
   the temporary file was created (and leaves nothing behind) *)
Example C19_history_nonvacuous :
  let '(st', outs) := run ex_self ex_st [IOne (ex_req 3 [S "new"]); IAll (ex_req 1 [S "f"]) 0; IOne (ex_req 4 [S "new"]); IOne (ex_req 3 [[]; S "srv"])] in
  map (map (fun o => rcode (snd o))) outs = [[68]; [69; 69; 69]; [66]; [68]]
  /\ concat (map (fun o => payload_of (snd o)) (nth 1 outs [])) = pattern 40 1
  /\ map (fun o => length (fst o)) (nth 0 outs []) = [4%nat].
Proof. vm_compute. repeat split. Qed.
Example C19_failed_put_leaves_nothing :
  let '(st', effs, r) := serve ex_self (ex_req 3 [S "f"; S "x"]) ex_st in
  rcode r = 160 /\ st_fs st' = ex_fs /\ effs = [EOpenDirW {| anchor := 1; parts := [S "srv"; S "root"; S "f"] |};
                                               ECreate {| anchor := 1; parts := [S "srv"; S "root"; S "f"; S "tmpabcd1234"] |}].
Proof. vm_compute. repeat split. Qed.
Example C19_tmp_fresh_nonvacuous : tmp_fresh ex_self (ex_req 3 [S "new"]) ex_fs.
Proof. intros p H. vm_compute in H. injection H as <-. vm_compute. reflexivity. Qed.

(* a PUT on a full disk: 5.00, the temporary file is created and removed again, the file system is as before *)
Example C19_failed_write_leaves_nothing :
  let '(st', effs, r) := serve (with_full ex_self) (ex_req 3 [S "new"]) ex_st in
  rcode r = 160 /\ st_fs st' = ex_fs
  /\ effs = [EOpenDirW {| anchor := 1; parts := [S "srv"; S "root"] |}; ECreate {| anchor := 1; parts := [S "srv"; S "root"; S "tmpabcd1234"] |};
             EUnlink {| anchor := 1; parts := [S "srv"; S "root"; S "tmpabcd1234"] |}].
Proof. vm_compute. repeat split. Qed.
(* escaping requests: every method, with and without write permission, Observe:0, a completing Block1 block *)
Example C19_escaping_nonvacuous :
  map (fun r => let '(st', effs, resp) := serve ex_self r ex_st in (rcode resp, effs))
      [ex_req 1 [S ".."; S "secret"]; ex_req 3 [S "a/b"]; ex_req 4 [S "."]; ex_req 2 [S ".."]; ex_blk [S ".."; S "x"] (0, false, 0) [1]]
  = [(128, []); (128, []); (128, []); (133, []); (128, [])].
Proof. vm_compute. reflexivity. Qed.
(* the refresher: after an Observe:0 GET of a file, a tick stats that file (and only that) *)
Example C19_tick_nonvacuous :
  let obsreq := {| code := 1; opt_uri_path := [S "f"]; opt_observe := Some 0; opt_etags := []; opt_if_match := []; opt_if_none_match := false;
                   opt_block1 := None; opt_block2 := None; payload := [] |} in
  let '(st', outs) := run ex_self ex_st [IOne obsreq; ITick []; IOne (ex_req 4 [S "f"]); ITick [obsreq]] in
  map (map (fun o => (rcode (snd o), length (fst o)))) outs = [[(69, 3%nat)]; [(0, 1%nat)]; [(66, 1%nat)]; [(0, 2%nat)]]
  /\ obs_under (load_parts ex_root) st'.
Proof. vm_compute. split; [reflexivity|repeat constructor]. Qed.

(* aiocoap's own client (no Block2 in the first request, then blocks 1, 2 of exponent 6) and a fetch whose size
   exponent changes from block to block (32 + 16 + 16 + 64-byte blocks over 100 bytes) *)
Example C19_tiling_nonvacuous :
  let big := [([S "srv"], NDir); ([S "srv"; S "root"], NDir); ([S "srv"; S "root"; S "f"], NFile (pattern 2049 1)); ([S "srv"; S "root"; S "g"], NFile (pattern 100 2))] in
  let st := {| st_fs := big; st_obs := []; st_spool := [] |} in
  tiling (pattern 2049 1) (map blk_of [None; Some (1, false, 6); Some (2, true, 6)])
  /\ tiling (pattern 100 2) (map blk_of [Some (0, false, 1); Some (2, false, 0); Some (3, true, 0); Some (1, false, 2)])
  /\ payloads (snd (run ex_self st (map (fun b => IOne (with_block2 (ex_req 1 [S "f"]) b)) [None; Some (1, false, 6); Some (2, true, 6)]))) = pattern 2049 1
  /\ payloads (snd (run ex_self st (map (fun b => IOne (with_block2 (ex_req 1 [S "g"]) b)) [Some (0, false, 1); Some (2, false, 0); Some (3, true, 0); Some (1, false, 2)]))) = pattern 100 2.
Proof.
  split; [|split; [|split; vm_compute; reflexivity]].
  - cbn [map blk_of]. apply tile_more; try lia; [vm_compute; reflexivity|vm_compute; reflexivity|].
    apply tile_more; try lia; [vm_compute; reflexivity|vm_compute; reflexivity|]. apply tile_last; try lia. vm_compute. reflexivity.
  - cbn [map blk_of]. apply tile_more; try lia; [vm_compute; reflexivity|vm_compute; reflexivity|].
    apply tile_more; try lia; [vm_compute; reflexivity|vm_compute; reflexivity|].
    apply tile_more; try lia; [vm_compute; reflexivity|vm_compute; reflexivity|]. apply tile_last; try lia. vm_compute. reflexivity.
Qed.

(* the tiling induction for a client loop that is driven only by the server's answers (M flag, bytes received):
   request count of the model's own loop (constant size exponent), and a loop whose k-th request has its own exponent *)
From Verif Require Import Proofs.C19R7.

(* ceil_blocks len size = ceil(len/size), 1 for the empty file *)
Theorem C19_ceil_blocks_meaning : forall L s, 0 < s -> 0 <= L ->
  (L = 0 -> ceil_blocks L s = 1) /\ (0 < L -> (ceil_blocks L s - 1) * s < L <= ceil_blocks L s * s).
Proof. intros L s Hs HL. split; [intros ->; apply ceil_blocks_last; lia|intros H; apply ceil_blocks_exact; assumption]. Qed.
Print Assumptions C19_ceil_blocks_meaning.
(* fetching blocks 0,1,2,... with a constant size exponent until M is clear takes exactly ceil(len/size) requests *)
Theorem C19_blockwise_request_count : forall self req p c szx fuel st,
  code req = 1 -> opt_observe req = None -> existsb is_cur (opt_etags req) = false -> needs_blockwise_assembly req = false ->
  request_to_localpath self req = Ok p -> fs_stat (st_fs st) (load_parts p) = inr (NFile c) ->
  0 <= szx -> (List.length c <= fuel)%nat ->
  Z.of_nat (List.length (snd (fetch_all fuel self req szx 0 st))) = ceil_blocks (blen c) (blk_size szx).
Proof.
  intros self req p c szx fuel st H1 H2 H3 H4 H5 H6 H7 H8.
  pose proof (fetch_all_spec self req p c H1 H2 H3 H4 H5 szx fuel 0 st H7 (Z.le_refl 0) H6 H8) as H.
  destruct (fetch_all fuel self req szx 0 st) as [st' outs]. apply H.
Qed.
Print Assumptions C19_blockwise_request_count.
(* every request with its own size exponent (any non-increasing sequence pol; block number = bytes received so far / size,
   as aiocoap's client computes it): the payloads concatenate to exactly the file, all 2.05, file system unchanged, and
   at most 1 + len/16 requests are sent *)
Theorem C19_blockwise_read_varying_szx : forall self req p c pol fuel st,
  code req = 1 -> opt_observe req = None -> existsb is_cur (opt_etags req) = false -> needs_blockwise_assembly req = false ->
  request_to_localpath self req = Ok p -> fs_stat (st_fs st) (load_parts p) = inr (NFile c) ->
  (forall k, 0 <= pol k) -> (forall k, pol (Datatypes.S k) <= pol k) -> (List.length c <= fuel)%nat ->
  match fetch_var self req fuel pol 0%nat 0 st with
  | (st', outs) => concat (map (fun o => payload_of (snd o)) outs) = c
                   /\ Forall (fun o => rcode (snd o) = 69) outs /\ st_fs st' = st_fs st
                   /\ (List.length outs <= Datatypes.S (List.length c / 16))%nat
  end.
Proof.
  intros self req p c pol fuel st H1 H2 H3 H4 H5 H6 H7 H8 H9.
  pose proof (fetch_var_spec self req p c H1 H2 H3 H4 H5 pol H7 H8 fuel 0%nat 0 st (Z.le_refl 0) (Z.divide_0_r _) H6 H9) as H.
  destruct (fetch_var self req fuel pol 0 0 st) as [st' outs]. apply H.
Qed.
Print Assumptions C19_blockwise_read_varying_szx.
(* the same loop with a constant exponent: exactly ceil(len/size) requests *)
Theorem C19_blockwise_request_count_own_szx : forall self req p c pol szx fuel st,
  code req = 1 -> opt_observe req = None -> existsb is_cur (opt_etags req) = false -> needs_blockwise_assembly req = false ->
  request_to_localpath self req = Ok p -> fs_stat (st_fs st) (load_parts p) = inr (NFile c) ->
  0 <= szx -> (forall k, pol k = szx) -> (List.length c <= fuel)%nat ->
  Z.of_nat (List.length (snd (fetch_var self req fuel pol 0%nat 0 st))) = ceil_blocks (blen c) (blk_size szx).
Proof.
  intros self req p c pol szx fuel st H1 H2 H3 H4 H5 H6 H7 H8 H9.
  assert (forall k, 0 <= pol k) as Hp by (intros k; rewrite H8; exact H7).
  assert (forall k, pol (Datatypes.S k) <= pol k) as Hm by (intros k; rewrite !H8; lia).
  pose proof (fetch_var_spec self req p c H1 H2 H3 H4 H5 pol Hp Hm fuel 0%nat 0 st (Z.le_refl 0) (Z.divide_0_r _) H6 H9) as H.
  destruct (fetch_var self req fuel pol 0 0 st) as [st' outs]. apply H. exact H8.
Qed.
Print Assumptions C19_blockwise_request_count_own_szx.

Definition ex7_fs : fsys :=
  [([S "srv"], NDir); ([S "srv"; S "root"], NDir); ([S "srv"; S "root"; S "f"], NFile (pattern 2049 1));
   ([S "srv"; S "root"; S "g"], NFile (pattern 100 2)); ([S "srv"; S "root"; S "e"], NFile [])].
Definition ex7_st : state := {| st_fs := ex7_fs; st_obs := []; st_spool := [] |}.
Definition ex7_pol (k : nat) : Z := Z.max 0 (2 - Z.of_nat k).      (* 64, 32, 16, 16, ... bytes *)
Example C19_ceil_blocks_nonvacuous :
  ceil_blocks 0 16 = 1 /\ ceil_blocks 1 16 = 1 /\ ceil_blocks 16 16 = 1 /\ ceil_blocks 17 16 = 2 /\ ceil_blocks 2049 1024 = 3.
Proof. vm_compute. repeat split; reflexivity. Qed.
(* the hypotheses of the three theorems hold for these requests, and the conclusions are what the model computes *)
Example C19_request_count_nonvacuous :
  (exists p, request_to_localpath ex_self (ex_req 1 [S "f"]) = Ok p /\ fs_stat ex7_fs (load_parts p) = inr (NFile (pattern 2049 1)))
  /\ needs_blockwise_assembly (ex_req 1 [S "f"]) = false
  /\ List.length (snd (fetch_all 4096 ex_self (ex_req 1 [S "f"]) 6 0 ex7_st)) = 3%nat
  /\ List.length (snd (fetch_all 4096 ex_self (ex_req 1 [S "g"]) 0 0 ex7_st)) = 7%nat
  /\ List.length (snd (fetch_all 4096 ex_self (ex_req 1 [S "g"]) 2 0 ex7_st)) = 2%nat
  /\ List.length (snd (fetch_all 4096 ex_self (ex_req 1 [S "e"]) 3 0 ex7_st)) = 1%nat
  /\ ceil_blocks 2049 (blk_size 6) = 3 /\ ceil_blocks 100 (blk_size 0) = 7 /\ ceil_blocks 100 (blk_size 2) = 2 /\ ceil_blocks 0 (blk_size 3) = 1.
Proof. split; [exists (joinpath ex_root [S "f"]); split; reflexivity|]. vm_compute. repeat split; reflexivity. Qed.
Example C19_varying_szx_nonvacuous :
  (forall k, 0 <= ex7_pol k) /\ (forall k, ex7_pol (Datatypes.S k) <= ex7_pol k)
  /\ (let '(st', outs) := fetch_var ex_self (ex_req 1 [S "g"]) 4096 ex7_pol 0%nat 0 ex7_st in
      map (fun o => blen (payload_of (snd o))) outs = [64; 32; 4]
      /\ map (fun o => match rbody (snd o) with BFile _ b => b | _ => None end) outs = [Some (0, true, 2); Some (2, true, 1); Some (6, false, 0)]
      /\ concat (map (fun o => payload_of (snd o)) outs) = pattern 100 2 /\ st_fs st' = ex7_fs)
  /\ List.length (snd (fetch_var ex_self (ex_req 1 [S "f"]) 4096 (fun _ => 7) 0%nat 0 ex7_st)) = 3%nat
  /\ List.length (snd (fetch_var ex_self (ex_req 1 [S "e"]) 4096 ex7_pol 0%nat 0 ex7_st)) = 1%nat.
Proof.
  split; [intros k; unfold ex7_pol; lia|]. split; [intros k; unfold ex7_pol; lia|].
  split; [|vm_compute; split; reflexivity].
  (* f is not looked at: kept abstract, the evaluated goal stays small *)
  unfold ex7_st, ex7_fs. generalize (pattern 2049 1). intros big. vm_compute. repeat split; reflexivity.
Qed.
