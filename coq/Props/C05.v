(* C05 — block-wise client transfers deliver both bodies intact or fail loudly.
   Statements; the proofs are in Proofs/C05*.v, here an [exact], a few lines from a general lemma or — theorems 6, 7, 10, 20 about a single
   exit of one iteration — one unfolding of a loop body; the Examples by evaluation.
   extract_block, bt_* are TRANSLATED from aiocoap/message.py and aiocoap/optiontypes.py on every check (Gen/block_kernels.v);
   run / block1_loop / complete_by_requesting_block2 (Model/C05.v) model protocol.py BlockwiseRequest._run and
   _complete_by_requesting_block2; serve_ref (Model/C05Server.v) is the RFC 7959 reference server; serve_script is the server that
   answers with an arbitrary given list of responses.  bsize szx = 2^(szx+4).  Theorems 1-10 and 15-22 are about the regular size exponents 0..6, theorems 11-13 about size exponent 7 (BERT, RFC 8323); the numbers 8 and 14 are not used. *)
From Verif Require Import Lib.Py Lib.PyLemmas Lib.Tactics Gen.block_kernels Model.C05 Model.C05Server Model.C05Retry Proofs.C05 Proofs.C05Retry Proofs.C05Bert Proofs.C05Ref Proofs.C05Audit.
Open Scope Z_scope.

(* 1. _extract_block partitions the body: block NUM is exactly the bytes at offset NUM*size, it has the full size and the more-flag
      exactly when bytes remain after it, the final block is non-empty and ends at the end of the body, and BadRequest is raised
      exactly for blocks that start at or beyond the end. *)
Theorem C05_extract_blocks_partition : forall body szx mbs n, 0 <= szx <= 6 -> 0 <= n ->
  (blen body <= n * bsize szx -> extract_block body n szx mbs = Raise BadRequest) /\
  (n * bsize szx < blen body -> exists pl more,
      extract_block body n szx mbs = Ok (pl, (n, more, szx)) /\
      bto body (n * bsize szx) ++ pl = bto body (n * bsize szx + blen pl) /\
      (more = true -> blen pl = bsize szx /\ n * bsize szx + bsize szx < blen body) /\
      (more = false -> 0 < blen pl <= bsize szx /\ n * bsize szx + blen pl = blen body)).
Proof.
  intros body szx mbs n H Hn. pose proof (bsize_pos szx ltac:(lia)). rewrite extract_block_eq. replace (szx =? 7) with false by lia.
  apply block_partition; nia.
Qed.
Print Assumptions C05_extract_blocks_partition.

(* 2. On the wire, against ANY server (any state type, any reaction, responses as Message.decode can produce them), for every body,
      every client maximum exponent 0..6 and every fuel: the requests of a run are either one unfragmented request carrying the whole
      body (body not longer than the threshold), or a Block1 chain from offset 0 (b1_chain): NUM * size = bytes sent so far, the
      payload is exactly the next bytes of the body, more-flag exactly on non-final blocks, non-final blocks full, the size exponent
      never grows and never exceeds the client's maximum, Size1 = body length on block 0 only, and no Block1 option after the chain. *)
Theorem C05_block1_wire_consistent : forall (S : Type) (serve : S -> request -> S * sresult),
  (forall s rq s' r, req_wf rq = true -> serve s rq = (s', SResp r) -> resp_wf r = true) ->
  forall cfg fuel s s' tr o,
  0 <= c_mbse cfg <= 6 -> 0 <= c_mps cfg -> bt_wf6 (c_block2 cfg) = true ->
  run serve fuel s cfg = (s', tr, o) -> wire_ok cfg tr.
Proof.
  intros S serve serve_wf cfg fuel s s' tr o Hm Hp Hb2 Hrun. unfold wire_ok. destruct tr as [|rq rest]; [exact I|].
  apply (run_g_chain serve cfg) in Hrun; try lia.
  - destruct (_ >? _); [apply (g_chain_regular _ (bert_size (c_mps cfg))); [lia|]|]; exact Hrun.
  - intros s0 rq0 s0' r n m se Hb1 Hn Hse Hq2. apply serve_wf. unfold req_wf. rewrite Hb1, Hq2, Hb2. cbn [bt_wf6]. lia.
Qed.
Print Assumptions C05_block1_wire_consistent.

(* 3. Client x reference server: for every request body, every representation, every client maximum exponent 0..6, every policy of
      the server (ANY sequence of non-negative exponents for its Block1 acknowledgements and for its Block2 blocks — late and
      mid-transfer reductions, also non-monotone ones; atomic or stateless acknowledgement) the run terminates with a successful
      response, the server has reassembled exactly one body and it is the payload handed to the request API, the body returned is
      the server's representation with its ETag, and the wire is consistent. *)
Theorem C05_transfer_correct : forall scf e rep, honest_cfg scf e rep ->
  forall cfg, 0 <= c_mbse cfg <= 6 -> 0 <= c_mps cfg ->
  (c_block2 cfg = None \/ exists m2 s2, c_block2 cfg = Some (0, m2, s2) /\ 0 <= s2 <= 6) ->
  forall fuel, (Z.to_nat (blen (c_body cfg)) + Z.to_nat (blen rep) + 1 < fuel)%nat ->
  exists st tr r, run (serve_ref scf) fuel sstate0 cfg = (st, tr, Done r) /\
    sv_bodies st = [c_body cfg] /\ rs_payload r = rep /\ rs_etag r = e /\ is_successful (rs_code r) = true /\
    rs_block1 r = None /\ wire_ok cfg tr.
Proof.
  intros scf e rep Hh cfg Hm Hp Hb fuel Hf.
  destruct (transfer_correct scf e rep Hh cfg Hm Hp Hb fuel Hf) as (st & tr & r & Hrun & H1 & H2 & H3 & H4 & H5).
  exists st, tr, r. repeat split; try assumption.
  apply (C05_block1_wire_consistent _ _ (serve_ref_wf scf (h_mis _ _ _ Hh) (h_pol1 _ _ _ Hh) (h_pol2 _ _ _ Hh) (h_bert _ _ _ Hh))) in Hrun; try assumption.
  destruct Hb as [->|(m2 & s2 & -> & Hs2)]; [reflexivity|unfold bt_wf6; lia].
Qed.
Print Assumptions C05_transfer_correct.

(* 4. Block2 assembly against ANY list of responses: a response handed to the caller is the first response itself (no Block2, or block 0
      with the more-flag clear — a later block only if the application itself asked for a later block), or — by design, protocol.py:1123 —
      a later response without Block2 option, or the in-order concatenation of a chain in which every block starts exactly where the
      assembled bytes end (NUM * size = length so far), carries the ETag of the first block, is exactly one block long when more follow
      and at most one block long when final (b2_chain). *)
Theorem C05_block2_assembly_exact : forall fuel script t initial mbse rest tr r,
  complete_by_requesting_block2 serve_script fuel script t initial mbse = (rest, tr, Done r) ->
  (r = initial /\ rs_block2 initial = None /\ rest = script) \/
  (exists b, rs_block2 initial = Some b /\ bt_more b = false /\
             (bt_num b = 0 \/ exists rb, rq_block2 t = Some rb /\ bt_num rb <> 0) /\
             r = clear_block2 initial /\ rest = script) \/
  (exists szx consumed, rs_block2 initial = Some (0, true, szx) /\ script = map SResp consumed ++ rest /\
                        b2_chain initial consumed r /\ length tr = length consumed).
Proof.
  intros fuel script t initial mbse rest tr r H.
  apply complete_done_cases in H as [(-> & _ & -> & Hn)|[(-> & _ & b & Hb)|(szx & consumed & Hb & Hc & Hfed)]]; [left; auto|right; left; exists b; tauto|].
  right. right. apply fed_script in Hfed as [-> Hl]. exists szx, consumed. auto.
Qed.
Print Assumptions C05_block2_assembly_exact.

(* 4a. The guard of Message._append_response_block is TRANSLATED from source (Gen/block_kernels.append_response_block_guard) and is an OFFSET
       comparison: a block is appended only if NUM * size equals the number of bytes assembled so far (not merely if NUM equals the
       rounded-down quotient — a server that grows the size exponent mid-transfer cannot get a block accepted that starts before the end of
       the assembled bytes), its payload size fits its option and its ETag is that of the first block. *)
Theorem C05_append_only_at_assembled_length : forall acc x n m szx acc',
  rs_block2 x = Some (n, m, szx) -> append_response_block acc x = Ok acc' ->
  n * bsize (Z.min szx 6) = blen (rs_payload acc) /\ etag_eqb (rs_etag x) (rs_etag acc) = true /\
  (szx <> 7 -> if m then blen (rs_payload x) = bsize (Z.min szx 6) else blen (rs_payload x) <= bsize (Z.min szx 6)) /\
  acc' = appended acc x (n, m, szx).
Proof. exact append_ok. Qed.
Print Assumptions C05_append_only_at_assembled_length.

(* 4b. (defect fixed in 69c1201) a first response that names a later block — final or not — ends the request with UnexpectedBlock2,
       unless the application itself asked for a later block. *)
Theorem C05_first_block2_number_checked : forall (S : Type) (serve : S -> request -> S * sresult) fuel s t initial mbse b,
  rs_block2 initial = Some b -> bt_num b <> 0 ->
  (rq_block2 t = None \/ exists rb, rq_block2 t = Some rb /\ bt_num rb = 0) ->
  complete_by_requesting_block2 serve fuel s t initial mbse = (s, [], Err UnexpectedBlock2).
Proof.
  intros S serve fuel s t initial mbse b Hb Hn Ht. unfold complete_by_requesting_block2, unexpected_first_block. rewrite Hb.
  replace (bt_num b =? 0) with false by lia. destruct Ht as [->|(rb & -> & ->)]; reflexivity.
Qed.
Print Assumptions C05_first_block2_number_checked.

(* 5. ... hence, whenever and however often the representation changes during the transfer: if every block the server sends is a slice
      of one of its representations tagged with that representation's ETag (ETags distinct), a body handed to the caller is one of
      the representations, whole — never truncated, duplicated or mixed. *)
Theorem C05_block2_never_mixed : forall reps, NoDup (map fst reps) ->
  forall fuel script t initial mbse rest tr r e rep szx,
  In (e, rep) reps -> rs_etag initial = Some e -> rs_block2 initial = Some (0, true, szx) -> 0 <= szx <= 6 ->
  rs_payload initial = bto rep (bsize szx) -> bsize szx < blen rep ->
  (forall x, In (SResp x) script -> slice_of reps x) ->
  complete_by_requesting_block2 serve_script fuel script t initial mbse = (rest, tr, Done r) ->
  exists e' rep', In (e', rep') reps /\ rs_payload r = rep'.
Proof. exact block2_never_mixed. Qed.
Print Assumptions C05_block2_never_mixed.

(* 6. A later block that is not exactly one block long while more follow / longer than one block when final, that does not continue at
      the assembled length, or whose ETag differs, ends the request at once with UnexpectedBlock2 / NotImplemented / ResourceChanged. *)
Theorem C05_block2_server_errors : forall (S : Type) (serve : S -> request -> S * sresult) f s t acc mbse rq s1 x n m szx,
  generate_next_block2_request t acc mbse = Ok rq -> serve s rq = (s1, SResp x) ->
  rs_block2 x = Some (n, m, szx) -> 0 <= szx <= 6 ->
  let valid := if m then blen (rs_payload x) =? bsize szx else blen (rs_payload x) <=? bsize szx in
  (valid = false -> block2_loop serve (Datatypes.S f) s t acc mbse = (s1, [rq], Err UnexpectedBlock2)) /\
  (valid = true -> n * bsize szx <> blen (rs_payload acc) ->
     block2_loop serve (Datatypes.S f) s t acc mbse = (s1, [rq], Err NotImplementedError)) /\
  (valid = true -> n * bsize szx = blen (rs_payload acc) -> etag_eqb (rs_etag x) (rs_etag acc) = false ->
     block2_loop serve (Datatypes.S f) s t acc mbse = (s1, [rq], Err ResourceChanged)).
Proof.
  intros S serve f s t acc mbse rq s1 x n m szx Hg Hs Hb Hszx valid. cbn [block2_loop]. rewrite Hg, Hs, Hb.
  rewrite append_response_block_eq. unfold append_inline. rewrite Hb. rewrite bt_is_valid_spec by lia. cbn [bind]. fold valid.
  rewrite bt_start_spec. cbn [bind]. replace (Z.min szx 6) with szx by lia.
  repeat split.
  - intros ->. reflexivity.
  - intros -> Hne. cbn [negb]. replace (n * bsize szx =? blen (rs_payload acc)) with false by lia. reflexivity.
  - intros -> He Het. cbn [negb]. replace (n * bsize szx =? blen (rs_payload acc)) with true by lia. rewrite Het. reflexivity.
Qed.
Print Assumptions C05_block2_server_errors.

(* 7. A wrong block number in a Block1 acknowledgement, or the more-flag / 2.31 on the acknowledgement of the final block, ends the
      request at once with UnexpectedBlock1Option; a transport failure of a sub-request ends it with that failure. *)
Theorem C05_block1_server_errors : forall (S : Type) (serve : S -> request -> S * sresult) cfg f s cursor size_exp mbse rq s1 resp cb b1,
  block1_request cfg cursor size_exp = Ok rq -> serve s rq = (s1, SResp resp) ->
  rq_block1 rq = Some cb -> rs_block1 resp = Some b1 ->
  (bt_num b1 <> bt_num cb \/ (bt_more cb = false /\ (bt_more b1 = true \/ rs_code resp = CONTINUE))) ->
  block1_loop serve (Datatypes.S f) s cfg cursor size_exp mbse = (s1, [rq], Err UnexpectedBlock1Option).
Proof.
  intros S serve cfg f s cursor size_exp mbse rq s1 resp cb b1 Hrq Hs Hcb Hb1 Hviol. cbn [block1_loop]. rewrite Hrq, Hs.
  assert (Hr : block1_react rq resp cursor size_exp = B1Err UnexpectedBlock1Option).
  { unfold block1_react. rewrite Hb1, Hcb. destruct (bt_num b1 =? bt_num cb) eqn:E; cbn [negb]; [|reflexivity].
    destruct Hviol as [Hne|[Hfin Hmore]]; [lia|].
    destruct (reduce_size _ _ _ _). rewrite Hfin. cbn [negb].
    destruct Hmore as [Hm|Hc]; [rewrite Hm; reflexivity|]. rewrite Hc. rewrite Z.eqb_refl, orb_true_r. reflexivity. }
  rewrite Hr. reflexivity.
Qed.
Print Assumptions C05_block1_server_errors.
Theorem C05_block1_transport_failure : forall (S : Type) (serve : S -> request -> S * sresult) cfg f s cursor size_exp mbse rq s1,
  block1_request cfg cursor size_exp = Ok rq -> serve s rq = (s1, SFail) ->
  block1_loop serve (Datatypes.S f) s cfg cursor size_exp mbse = (s1, [rq], Err NetworkError).
Proof. intros S serve cfg f s cursor size_exp mbse rq s1 Hrq Hs. cbn [block1_loop]. rewrite Hrq, Hs. reflexivity. Qed.
Print Assumptions C05_block1_transport_failure.

(* 9. Loss and duplication of the individual block exchanges.  The block-wise client runs on the CoAP message layer: a lost request or
      response is retransmitted with the SAME message id; the server's message layer passes the first copy of a request to the
      application and answers further copies from its store (deduplication: RFC 7252 4.5, property C04 for aiocoap's own server); the
      client's sub-request is completed by the first copy of the response, later copies find no exchange (C02/C10).  Model/C05Retry.v
      puts ANY application-level server behind exactly this layer (serve_retried), driven by an arbitrary schedule of how many extra copies
      of every request reach the server and how many extra copies of every response reach the client.
      For every server, request, fuel and schedule without a dead exchange: the transcript (every request with its block options and
      payload), the outcome and the final state of the application-level server are those of the run in which every message is
      delivered exactly once. *)
Theorem C05_retried_exchanges_invisible : forall (S : Type) (serve : S -> request -> S * sresult) cfg fuel s sched s' tr o,
  forallb is_delivered sched = true ->
  run serve fuel s cfg = (s', tr, o) ->
  exists st', run (serve_retried serve) fuel (rinit s sched) cfg = (st', tr, o) /\ r_inner st' = s'.
Proof.
  intros S serve cfg fuel s sched s' tr o Hsched Hrun.
  destruct (run_retried serve False cfg fuel s sched s' tr o (or_intror Hsched) Hrun) as (st' & tr2 & o2 & H & [(-> & -> & Hin & _)|([] & _)]).
  exists st'. auto.
Qed.
Print Assumptions C05_retried_exchanges_invisible.

(* ... what the deduplicating layer hands out for one exchange: whatever the number of copies of the request that arrive, the application is
   invoked once and every copy is answered with that one answer *)
Theorem C05_retried_copies_from_one_answer : forall (S : Type) (serve : S -> request -> S * sresult) st mid rq n,
  lookup mid (r_cache st) = None ->
  exists r, snd (deliver_n serve (Datatypes.S n) st mid rq) = repeat r (Datatypes.S n) /\
            r = snd (serve (r_inner st) rq) /\ r_inner (fst (deliver_n serve (Datatypes.S n) st mid rq)) = fst (serve (r_inner st) rq).
Proof.
  intros S serve st mid rq n Hl. destruct (serve (r_inner st) rq) as [s' r] eqn:Hs. exists r.
  rewrite (deliver_n_spec serve n st mid rq s' r Hl Hs). repeat split.
Qed.
Print Assumptions C05_retried_copies_from_one_answer.

(* ... hence theorem 3 over the lossy / duplicating network: exactly one reassembled body, the right one, and the right representation *)
Theorem C05_transfer_correct_under_retries : forall scf e rep, honest_cfg scf e rep ->
  forall cfg, 0 <= c_mbse cfg <= 6 -> 0 <= c_mps cfg ->
  (c_block2 cfg = None \/ exists m2 s2, c_block2 cfg = Some (0, m2, s2) /\ 0 <= s2 <= 6) ->
  forall sched, forallb is_delivered sched = true ->
  forall fuel, (Z.to_nat (blen (c_body cfg)) + Z.to_nat (blen rep) + 1 < fuel)%nat ->
  exists st tr r, run (serve_retried (serve_ref scf)) fuel (rinit sstate0 sched) cfg = (st, tr, Done r) /\
    sv_bodies (r_inner st) = [c_body cfg] /\ rs_payload r = rep /\ rs_etag r = e /\ is_successful (rs_code r) = true /\
    rs_block1 r = None /\ wire_ok cfg tr.
Proof.
  intros scf e rep Hh cfg Hm Hp Hb sched Hs fuel Hf.
  destruct (C05_transfer_correct scf e rep Hh cfg Hm Hp Hb fuel Hf) as (st & tr & r & Hrun & H).
  destruct (C05_retried_exchanges_invisible _ _ cfg fuel sstate0 sched st tr (Done r) Hs Hrun) as (st' & Hrun' & <-).
  exists st', tr, r. split; assumption.
Qed.
Print Assumptions C05_transfer_correct_under_retries.

(* ... an exchange that dies (retransmissions exhausted) fails the sub-request — and with theorem 7 the request — and does not touch the
   application-level server when it was the request that got lost *)
Theorem C05_retried_dead_exchange : forall (S : Type) (serve : S -> request -> S * sresult) st rq arrived rest,
  r_sched st = Dead arrived :: rest ->
  snd (serve_retried serve st rq) = SFail /\
  (arrived = false -> r_inner (fst (serve_retried serve st rq)) = r_inner st).
Proof.
  intros S serve st rq arrived rest Hs. unfold serve_retried. rewrite Hs. cbn [hd tl]. destruct arrived.
  - destruct (deliver_n _ _ _ _ _). split; [reflexivity|discriminate].
  - split; reflexivity.
Qed.
Print Assumptions C05_retried_dead_exchange.

(* ... and the guarantee really is the deduplicating layer's (C04), not the block-wise code's: without it a single duplicated datagram
   makes the reference server act on the same request body twice. *)
Theorem C05_without_dedup_body_twice_refuted : exists scf cfg st tr r,
  honest_cfg scf (Some 10) (mkbody 5 1) /\
  run (serve_nodedup (serve_ref scf)) 5 (sstate0, [Delivered 1 0]) cfg = (st, tr, Done r) /\
  sv_bodies (fst st) = [c_body cfg; c_body cfg] /\ length tr = 1%nat.
Proof.
  exists {| s_policy1 := []; s_policy2 := []; s_reps := [(Some 10, mkbody 5 1)]; s_rep_at := []; s_atomic := true; s_mis := None; s_bert := 0 |},
         {| c_body := mkbody 10 3; c_mps := 1124; c_mbse := 6; c_block2 := None |}.
  eexists _, _, _. split; [split; try reflexivity; constructor|]. split; [vm_compute; reflexivity|]. split; reflexivity.
Qed.
Print Assumptions C05_without_dedup_body_twice_refuted.

(* 10. OBSERVATION (the request ends loudly, so C05 holds; the error is an accident): a non-zero Observe option on the acknowledgement of a
       non-final Block1 block ends the request with AttributeError (protocol.py:986 `blockrequest.observe.cancel()`; the attribute is
       called `observation`) instead of cancelling the erroneous observation and continuing as the comment there intends. *)
Theorem C05_early_observe_ends_request : forall (S : Type) (serve : S -> request -> S * sresult) cfg f s cursor size_exp mbse rq s1 resp cb b1,
  block1_request cfg cursor size_exp = Ok rq -> serve s rq = (s1, SResp resp) ->
  rq_block1 rq = Some cb -> rs_block1 resp = Some b1 -> bt_num b1 = bt_num cb -> bt_more cb = true -> rs_observe resp = true ->
  block1_loop serve (Datatypes.S f) s cfg cursor size_exp mbse = (s1, [rq], Err AttributeError).
Proof.
  intros S serve cfg f s cursor size_exp mbse rq s1 resp cb b1 Hrq Hs Hcb Hb1 Hn Hm Ho. cbn [block1_loop]. rewrite Hrq, Hs.
  unfold block1_react. rewrite Hb1, Hcb, Hn, Z.eqb_refl. cbn [negb]. destruct (reduce_size _ _ _ _). rewrite Hm, Ho. reflexivity.
Qed.
Print Assumptions C05_early_observe_ends_request.

(* ---- run-level statements.  Theorems 4-7 above are about the loops at arbitrary states / about serve_script; the
        following lift them to [run] against an arbitrary server and cover the client's Block2 follow-up requests. *)

(* 15. One Block2 follow-up request (exponents 0..7): NUM x size = bytes assembled so far, the exponent is min(server's last exponent, limit),
       more-flag clear, no Block1 option, no payload, Size1 as on the request it repeats. *)
Theorem C05_block2_request_consistent : forall t acc mbse rq n m szx,
  rs_block2 acc = Some (n, m, szx) -> 0 <= szx <= 7 -> 0 <= mbse ->
  generate_next_block2_request t acc mbse = Ok rq ->
  exists n', rq_block2 rq = Some (n', false, Z.min szx mbse) /\
             n' * bsize (Z.min (Z.min szx mbse) 6) = blen (rs_payload acc) /\
             rq_block1 rq = None /\ rq_payload rq = [] /\ rq_size1 rq = rq_size1 t.
Proof. exact block2_request_consistent. Qed.
Print Assumptions C05_block2_request_consistent.

(* 16. ... and over whole runs, against ANY server (answers as Message.decode produces them, remotes with a non-negative exponent): the trace is
       the Block1 phase (every request carries the application's own Block2 option) followed by the Block2 follow-ups, each of which names a
       non-negative block with the more-flag clear, carries neither Block1 option nor payload, and never exceeds the client's maximum
       exponent (the hand-over of the local limit to the response's remote, protocol.py:930-937). *)
Theorem C05_run_block2_requests_wire : forall (S : Type) (serve : S -> request -> S * sresult) cfg fuel s s' tr o,
  (forall s rq s' r, serve s rq = (s', SResp r) -> resp_wf2 r) -> 0 <= c_mbse cfg ->
  run serve fuel s cfg = (s', tr, o) ->
  exists tr1 tr2, tr = tr1 ++ tr2 /\ Forall (fun q => rq_block2 q = c_block2 cfg) tr1 /\ Forall (b2req_ok (c_mbse cfg)) tr2.
Proof. exact @run_block2_requests_wire. Qed.
Print Assumptions C05_run_block2_requests_wire.

(* 17. Every run against any server is a run against the list of answers that server gave (makes "serve_script is the general server" a
       theorem), and every response handed to the caller by a run comes out of complete_by_requesting_block2 applied to the last answer of
       the Block1 phase. *)
Theorem C05_any_server_is_a_script : forall (S : Type) (serve : S -> request -> S * sresult) cfg fuel s s' tr o,
  run serve fuel s cfg = (s', tr, o) ->
  exists script, length script = length tr /\ run serve_script fuel script cfg = ([], tr, o).
Proof.
  intros S serve cfg fuel s s' tr o. rewrite C05Machine.run_machine. intros H. apply C05Machine.mloop_script in H as (sc & Hl & Hsc).
  exists sc. split; [exact Hl|]. rewrite C05Machine.run_machine, <- (app_nil_r sc). apply Hsc.
Qed.
Print Assumptions C05_any_server_is_a_script.
Theorem C05_run_done_is_block2_completion : forall (S : Type) (serve : S -> request -> S * sresult) cfg fuel s s' tr r,
  run serve fuel s cfg = (s', tr, Done r) ->
  exists f s1 rq resp mbse cursor size_exp tr1 tr2,
    tr = tr1 ++ rq :: tr2 /\ block1_request cfg cursor size_exp = Ok rq /\
    block1_react rq resp cursor size_exp = B1Break /\
    complete_by_requesting_block2 serve f s1 rq (clear_block1 resp) mbse = (s', tr2, Done r).
Proof.
  intros S serve cfg fuel s s' tr r Hrun. destruct (block1_loop_shape serve cfg fuel _ _ _ _ _ _ _ Hrun)
    as [(f & s1 & rq & resp & mbse & c & e & tr1 & tr2 & H1 & H2 & _ & H3 & _ & _ & _ & H4)|[Hn _]]; [|destruct (Hn r eq_refl)].
  exists f, s1, rq, resp, mbse, c, e, tr1, tr2. auto.
Qed.
Print Assumptions C05_run_done_is_block2_completion.

(* 18. Theorem 4 at run level, for ANY server: a response handed to the caller by any run is the last answer of the Block1 phase itself (no
       Block2 option, or block 0 — a later block only if the application asked for one — with the more-flag clear), or the exact in-order
       concatenation of a consistent chain (b2_chain) made of the server's own answers to the follow-up requests, one per request. *)
Theorem C05_run_done_exact : forall (S : Type) (serve : S -> request -> S * sresult) cfg fuel s s' tr r,
  run serve fuel s cfg = (s', tr, Done r) ->
  exists rq resp tr1 tr2, tr = tr1 ++ rq :: tr2 /\ serve_answered serve rq resp /\ rq_block2 rq = c_block2 cfg /\
    let initial := clear_block1 resp in
    (r = initial /\ rs_block2 initial = None /\ tr2 = []) \/
    (exists b, rs_block2 initial = Some b /\ bt_more b = false /\
               (bt_num b = 0 \/ exists rb, c_block2 cfg = Some rb /\ bt_num rb <> 0) /\ r = clear_block2 initial /\ tr2 = []) \/
    (exists szx consumed, rs_block2 initial = Some (0, true, szx) /\ b2_chain initial consumed r /\ Forall2 (serve_answered serve) tr2 consumed).
Proof. exact @run_done_exact. Qed.
Print Assumptions C05_run_done_exact.

(* 19. Theorem 5 at run level, for ANY server and any number of representation changes: if every answer of the server that carries a Block2
       option is a slice of one of its representations tagged with that representation's ETag (ETags distinct) and the application did not
       ask for a later block, then a body handed to the caller by any run is one whole representation — or, by design (protocol.py:1123),
       it is one single answer of the server that carried no Block2 option at all. *)
Theorem C05_run_never_mixed : forall (S : Type) (serve : S -> request -> S * sresult) reps cfg fuel s s' tr r, NoDup (map fst reps) ->
  (forall rq x, serve_answered serve rq x -> rs_block2 x <> None -> slice_of reps x) ->
  (c_block2 cfg = None \/ exists m2 s2, c_block2 cfg = Some (0, m2, s2)) ->
  run serve fuel s cfg = (s', tr, Done r) ->
  (exists e rep, In (e, rep) reps /\ rs_payload r = rep) \/
  (exists rq x, serve_answered serve rq x /\ rs_block2 x = None /\ (r = x \/ r = clear_block1 x)).
Proof. exact @run_never_mixed. Qed.
Print Assumptions C05_run_never_mixed.

(* 20. "Missing payload bytes" on the FIRST Block2 block (the last answer of the Block1 phase): a first block with the more-flag whose payload
       is not a whole number of blocks ends the request at once — with AssertionError (message.py:512), loud but unspecific.
       A transport failure of a Block2 follow-up ends the request with that failure. *)
Theorem C05_first_block2_partial_payload_errors : forall (S : Type) (serve : S -> request -> S * sresult) f s t initial mbse szx,
  rs_block2 initial = Some (0, true, szx) -> 0 <= szx <= 6 ->
  blen (rs_payload initial) mod bsize szx <> 0 ->
  complete_by_requesting_block2 serve (Datatypes.S f) s t initial mbse = (s, [], Err AssertionError).
Proof.
  intros S serve f s t initial mbse szx Hb Hs Hmod.
  unfold complete_by_requesting_block2, unexpected_first_block. rewrite Hb. cbn [bt_num bt_more fst snd negb Z.eqb andb].
  cbn [block2_loop]. unfold generate_next_block2_request. rewrite Hb. unfold bind. rewrite bt_size_spec, bt_start_spec.
  replace (Z.min szx 6) with szx by lia. pose proof (bsize_pos szx ltac:(lia)).
  unfold massert. destruct (_ =? _) eqn:E; [|reflexivity].
  exfalso. apply Hmod. apply Z.eqb_eq in E. rewrite <- E. apply Z_mod_mult.
Qed.
Print Assumptions C05_first_block2_partial_payload_errors.
Theorem C05_block2_transport_failure : forall (S : Type) (serve : S -> request -> S * sresult) f s t acc mbse rq s1,
  generate_next_block2_request t acc mbse = Ok rq -> serve s rq = (s1, SFail) ->
  block2_loop serve (Datatypes.S f) s t acc mbse = (s1, [rq], Err NetworkError).
Proof. intros S serve f s t acc mbse rq s1 Hrq Hs. cbn [block2_loop]. rewrite Hrq, Hs. reflexivity. Qed.
Print Assumptions C05_block2_transport_failure.

(* ---- dead exchanges at run level, and which errors a run can end in *)

(* 21. Theorem 9 without its hypothesis.  For every application-level server, every request and EVERY schedule of the retrying network — any mix of
       duplicated requests, duplicated responses and exchanges that die in either direction — the run is the loss-free run (same transcript,
       same outcome, same server state), or it ends in NetworkError and its transcript is a non-empty prefix of the loss-free transcript:
       nothing is sent that the loss-free run would not have sent, and no outcome other than the loss-free one or the transport error arises.
       (From the simulation-until-failure lemma for any client machine, Proofs/C05Machine.mloop_cut, through Proofs/C05Retry.run_retried.) *)
Theorem C05_retried_any_schedule : forall (S : Type) (serve : S -> request -> S * sresult) cfg fuel s sched s' tr o,
  run serve fuel s cfg = (s', tr, o) ->
  exists st' tr2 o2, run (serve_retried serve) fuel (rinit s sched) cfg = (st', tr2, o2) /\
    ((tr2 = tr /\ o2 = o /\ r_inner st' = s') \/ (o2 = Err NetworkError /\ tr2 <> [] /\ exists tl, tr = tr2 ++ tl)).
Proof.
  intros S serve cfg fuel s sched s' tr o Hrun.
  destruct (run_retried serve True cfg fuel s sched s' tr o (or_introl I) Hrun) as (st' & tr2 & o2 & H & Hc).
  exists st', tr2, o2. split; [exact H|]. destruct Hc as [(H1 & H2 & H3 & _)|(_ & Hc)]; [left; auto|right; exact Hc].
Qed.
Print Assumptions C05_retried_any_schedule.

(* ... hence theorem 3 over ANY network schedule: the transfer completes exactly as specified, or the request ends in NetworkError *)
Theorem C05_transfer_any_schedule : forall scf e rep, honest_cfg scf e rep ->
  forall cfg, 0 <= c_mbse cfg <= 6 -> 0 <= c_mps cfg ->
  (c_block2 cfg = None \/ exists m2 s2, c_block2 cfg = Some (0, m2, s2) /\ 0 <= s2 <= 6) ->
  forall sched fuel, (Z.to_nat (blen (c_body cfg)) + Z.to_nat (blen rep) + 1 < fuel)%nat ->
  exists st tr o, run (serve_retried (serve_ref scf)) fuel (rinit sstate0 sched) cfg = (st, tr, o) /\
    ((exists r, o = Done r /\ sv_bodies (r_inner st) = [c_body cfg] /\ rs_payload r = rep /\ rs_etag r = e /\
                is_successful (rs_code r) = true /\ wire_ok cfg tr) \/
     o = Err NetworkError).
Proof.
  intros scf e rep Hh cfg Hm Hp Hb sched fuel Hf.
  destruct (C05_transfer_correct scf e rep Hh cfg Hm Hp Hb fuel Hf) as (st & tr & r & Hrun & H1 & H2 & H3 & H4 & _ & H6).
  destruct (C05_retried_any_schedule _ _ cfg fuel sstate0 sched st tr (Done r) Hrun) as (st' & tr2 & o2 & Hrun' & Hc).
  exists st', tr2, o2. split; [exact Hrun'|]. destruct Hc as [(-> & -> & <-)|(-> & _)]; [left; eauto 10|right; reflexivity].
Qed.
Print Assumptions C05_transfer_any_schedule.

(* 22. "Fail loudly" classified, for ANY server (answers as Message.decode produces them), any fuel: a run ends in a response, in running out
       of fuel, or in one of seven errors — the transport failure, the four protocol errors of theorems 4b, 6, 7 and the two loud-but-unspecific
       exits (AssertionError: ragged first Block2 block; AttributeError: Block1 / Observe on an answer where none belongs).  In particular
       BadRequest — _extract_block asked for a block beyond the end of the body (what DESIGN section 10 calls `no_out_of_bounds`: Proofs/C05Bert.block1_request_gblock
       under the loop invariant g_inv; the symptom of the cursor defects) — and every other exception of the translated arithmetic are unreachable. *)
Theorem C05_run_error_classes : forall (S : Type) (serve : S -> request -> S * sresult),
  (forall s rq s' r, req_wf rq = true -> serve s rq = (s', SResp r) -> resp_wf r = true) ->
  forall cfg fuel s s' tr o, 0 <= c_mbse cfg <= 6 -> 0 <= c_mps cfg -> bt_wf6 (c_block2 cfg) = true ->
  run serve fuel s cfg = (s', tr, o) ->
  match o with Err e => In e [NetworkError; UnexpectedBlock1Option; UnexpectedBlock2; NotImplementedError; ResourceChanged; AssertionError; AttributeError] | _ => True end.
Proof.
  intros S serve Hwf cfg fuel s s' tr o Hm Hp Hb Hrun. change (classified o). apply (run_classified serve cfg) in Hrun; try lia; [exact Hrun|].
  intros s0 rq s0' r n m se Hb1 Hn Hse Hq2. apply Hwf. unfold req_wf. rewrite Hb1, Hq2, Hb. cbn [bt_wf6]. lia.
Qed.
Print Assumptions C05_run_error_classes.

(* ---- tier B: size exponent 7 / BERT for remotes on reliable transports (maximum_block_size_exp = 7; a message carries
        bert_size mps = 1024 * (maximum_payload_size / 1024) bytes; NUM counts 1024-byte blocks) *)

(* 11. Theorem 1 for size exponent 7. *)
Theorem C05_extract_blocks_partition_bert : forall body mbs n, 1024 <= mbs -> 0 <= n ->
  (blen body <= n * 1024 -> extract_block body n 7 mbs = Raise BadRequest) /\
  (n * 1024 < blen body -> exists pl more,
      extract_block body n 7 mbs = Ok (pl, (n, more, 7)) /\
      bto body (n * 1024) ++ pl = bto body (n * 1024 + blen pl) /\
      (more = true -> blen pl = bert_size mbs /\ n * 1024 + bert_size mbs < blen body) /\
      (more = false -> 0 < blen pl <= bert_size mbs /\ n * 1024 + blen pl = blen body)).
Proof.
  intros body mbs n H Hn. destruct (bert_size_pos mbs H) as [Hs _]. rewrite extract_block_eq. cbn [Z.eqb Pos.eqb]. fold (bert_size mbs).
  apply block_partition; lia.
Qed.
Print Assumptions C05_extract_blocks_partition_bert.

(* 12. Theorem 2 for a client that starts at size exponent 7, against ANY server (responses as Message.decode can produce them — the server
       may lower the exponent from 7 at any time, to any value): the requests are one unfragmented request (body not longer than
       maximum_payload_size) or a chain (g_chain) in which NUM * unit = bytes sent so far (unit 1024 for exponents 7 and 6, 2^(szx+4)
       below), the payload is the next bytes, the full message / block size and the more-flag exactly on non-final requests, the exponent
       never grows, Size1 on the first request only.  (Before fix 166eafe this failed when an acknowledgement lowered the exponent from 7.) *)
Theorem C05_block1_wire_consistent_bert : forall (S : Type) (serve : S -> request -> S * sresult),
  (forall s rq s' r, bt_wf (rq_block1 rq) = true -> bt_wf (rq_block2 rq) = true -> serve s rq = (s', SResp r) -> resp_wf r = true) ->
  forall cfg fuel s s' tr o, c_mbse cfg = 7 -> 1024 <= c_mps cfg -> bt_wf6 (c_block2 cfg) = true ->
  run serve fuel s cfg = (s', tr, o) -> bert_wire_ok cfg tr.
Proof.
  intros S serve serve_wf cfg fuel s s' tr o Hm Hp Hb2 Hrun. unfold bert_wire_ok. destruct tr as [|rq rest]; [exact I|].
  apply (run_g_chain serve cfg) in Hrun; try lia.
  - rewrite Hm in Hrun. exact Hrun.
  - intros s0 rq0 s0' r n m se Hb1 Hn Hse Hq2. apply serve_wf; [rewrite Hb1; cbn [bt_wf]; lia|rewrite Hq2; apply bt_wf6_wf, Hb2].
Qed.
Print Assumptions C05_block1_wire_consistent_bert.

(* 13. Theorem 3 for a client that starts at size exponent 7: client x BERT reference server with ANY acknowledgement policy (any list of
       non-negative exponents: the server may keep 7 or lower it at once, later, repeatedly), any BERT message size of the server, atomic
       or stateless acknowledgement; every body, every representation: terminates with a 2.xx response, the server holds exactly the body,
       the caller exactly the representation, the wire is consistent.  (The Block2 policy keeps exponent 7, see honest_bert_cfg; a Block2
       phase that mixes BERT and regular blocks is covered by the correspondence streams only.) *)
Theorem C05_transfer_correct_bert : forall scf e rep, honest_bert_cfg scf e rep ->
  forall cfg, c_mbse cfg = 7 -> 1024 <= c_mps cfg -> c_block2 cfg = None ->
  forall fuel, (Z.to_nat (blen (c_body cfg)) + Z.to_nat (blen rep) + 1 < fuel)%nat ->
  exists st tr r, run (serve_ref scf) fuel sstate0 cfg = (st, tr, Done r) /\
    sv_bodies st = [c_body cfg] /\ rs_payload r = rep /\ rs_etag r = e /\ is_successful (rs_code r) = true /\
    rs_block1 r = None /\ bert_wire_ok cfg tr.
Proof.
  intros scf e rep Hh cfg Hm Hp Hb fuel Hf.
  destruct (transfer_correct_bert scf e rep Hh cfg Hm Hp Hb fuel Hf) as (st & tr & r & Hrun & H1 & H2 & H3 & H4 & H5).
  exists st, tr, r. repeat split; try assumption.
  apply (C05_block1_wire_consistent_bert _ _ (fun s rq s' r0 Hw1 Hw2 Hs => serve_ref_bert_wf scf e rep Hh s rq s' r0 Hs Hw1 Hw2)) in Hrun; try assumption.
  rewrite Hb. reflexivity.
Qed.
Print Assumptions C05_transfer_correct_bert.

(* ---- non-vacuity: the hypotheses are satisfiable by concrete non-trivial instances *)
Definition ex_scf : scfg := {| s_policy1 := [2; 0]; s_policy2 := [5; 1]; s_reps := [(Some 10, mkbody 300 1)]; s_rep_at := [];
                               s_atomic := true; s_mis := None; s_bert := 0 |}.
Definition ex_cfg : ccfg := {| c_body := mkbody 1200 3; c_mps := 1124; c_mbse := 6; c_block2 := None |}.
Example ex_honest : honest_cfg ex_scf (Some 10) (mkbody 300 1).
Proof. split; try reflexivity; repeat constructor; lia. Qed.
(* a transfer with mid-transfer reductions 6 -> 2 -> 0 (9 Block1 requests) and a Block2 phase at size exponent 1 (9 more requests) *)
Example ex_transfer : (let '(st, tr, o) := run (serve_ref ex_scf) 2000 sstate0 ex_cfg in
  (length tr, map rq_block1 (firstn 3 tr), beqb (hd [] (sv_bodies st)) (mkbody 1200 3), match o with Done r => blen (rs_payload r) | _ => -1 end))
  = (18%nat, [Some (0, true, 6); Some (16, true, 2); Some (68, true, 0)], true, 300).
Proof. vm_compute. reflexivity. Qed.
(* the reference server satisfies the well-formedness hypothesis of theorem 2 *)
Example ex_serve_wf : forall st rq st' r, req_wf rq = true -> serve_ref ex_scf st rq = (st', SResp r) -> resp_wf r = true.
Proof. apply serve_ref_wf; try reflexivity; repeat constructor; lia. Qed.
(* a chain of three blocks of a tagged representation, assembled *)
Definition ex_rep := mkbody 40 9.
Definition ex_block (n : Z) (m : bool) : response :=
  {| rs_code := 69; rs_block1 := None; rs_block2 := Some (n, m, 0); rs_etag := Some 7; rs_payload := bslice ex_rep (n * 16) (n * 16 + 16); rs_maxexp := 6; rs_observe := false |}.
Example ex_block2_premises :
  NoDup (map fst [(7, ex_rep)]) /\ (forall x, In (SResp x) [SResp (ex_block 1 true); SResp (ex_block 2 false)] -> slice_of [(7, ex_rep)] x) /\
  exists tr r, complete_by_requesting_block2 serve_script 5 [SResp (ex_block 1 true); SResp (ex_block 2 false)]
                 {| rq_block1 := None; rq_block2 := None; rq_size1 := None; rq_payload := [] |} (ex_block 0 true) 6 = ([], tr, Done r)
               /\ rs_payload r = ex_rep.
Proof.
  split; [repeat constructor; cbn; tauto|]. split.
  - intros x [H|[H|[]]]; inv H; exists 7, ex_rep; (split; [left; reflexivity|]); (split; [reflexivity|]); cbn [ex_block rs_block2 rs_payload]; repeat split; try lia; reflexivity.
  - eexists _, _. split; vm_compute; reflexivity.
Qed.
(* a violated acknowledgement: premises of theorem 7 on a concrete exchange *)
Example ex_block1_error : exists rq, block1_request ex_cfg 0 6 = Ok rq /\ rq_block1 rq = Some (0, true, 6) /\
  block1_loop serve_script 3 [SResp {| rs_code := 95; rs_block1 := Some (1, true, 6); rs_block2 := None; rs_etag := None; rs_payload := []; rs_maxexp := 6; rs_observe := false |}]
     ex_cfg 0 6 6 = ([], [rq], Err UnexpectedBlock1Option).
Proof.
  assert (E : blen (c_body ex_cfg) = 1200) by (apply blen_mkbody; lia).
  destruct (block1_request_gblock ex_cfg 0 6) as (_ & pl & more & Hrq & _ & _ & Hfin); [unfold g_inv; rewrite E; cbn; lia|].
  change (blk_of (bert_size (c_mps ex_cfg)) 6) with 1024 in Hfin.
  assert (more = true) as -> by (destruct more; [reflexivity|]; destruct (Hfin eq_refl) as [Hpl Hend]; rewrite E in Hend; lia).
  eexists. split; [exact Hrq|]. split; [reflexivity|].
  eapply C05_block1_server_errors; [exact Hrq|reflexivity..|left; cbn; lia].
Qed.
(* premises of theorem 4b: the response 2.05 Block2 2/0/512 to a request without Block2 option is refused (accepted before 69c1201) *)
Example ex_first_block_refused :
  run_script [SResp {| rs_code := 69; rs_block1 := None; rs_block2 := Some (2, false, 5); rs_etag := Some 4; rs_payload := mkbody 87 148; rs_maxexp := 6; rs_observe := false |}]
             {| c_body := []; c_mps := 1124; c_mbse := 5; c_block2 := None |}
  = ([{| rq_block1 := None; rq_block2 := None; rq_size1 := None; rq_payload := [] |}], Err UnexpectedBlock2).
Proof. vm_compute. reflexivity. Qed.
(* a schedule with duplicated requests and responses on every exchange: same transcript and body as ex_transfer *)
Example ex_retried : (let '(st, tr, o) := run (serve_retried (serve_ref ex_scf)) 2000 (rinit sstate0 [Delivered 2 1; Delivered 0 3; Delivered 4 0; Delivered 1 1]) ex_cfg in
  (length tr, map rq_block1 (firstn 3 tr), beqb (hd [] (sv_bodies (r_inner st))) (mkbody 1200 3), length (sv_bodies (r_inner st)), match o with Done r => blen (rs_payload r) | _ => -1 end))
  = (18%nat, [Some (0, true, 6); Some (16, true, 2); Some (68, true, 0)], true, 1%nat, 300).
Proof. vm_compute. reflexivity. Qed.
(* BERT: a server sending 2 blocks per message, exponent 7 kept; 5000-byte body in messages of 2048, 3000-byte representation *)
Definition ex_bert_scf : scfg := {| s_policy1 := [7]; s_policy2 := [7]; s_reps := [(Some 10, mkbody 3000 1)]; s_rep_at := [];
                                    s_atomic := true; s_mis := None; s_bert := 2 |}.
Example ex_bert_honest : honest_bert_cfg ex_bert_scf (Some 10) (mkbody 3000 1).
Proof. split; try reflexivity; try (repeat constructor; lia); intros k; unfold pol; cbn [ex_bert_scf s_policy1 s_policy2 last]; destruct (Z.to_nat k) as [|[|?]]; cbn; lia. Qed.
Example ex_bert_transfer : (let '(st, tr, o) := run (serve_ref ex_bert_scf) 100 sstate0 {| c_body := mkbody 5000 3; c_mps := 2048; c_mbse := 7; c_block2 := None |} in
  (map (fun r => (rq_block1 r, rq_block2 r, blen (rq_payload r))) tr, beqb (hd [] (sv_bodies st)) (mkbody 5000 3), match o with Done r => blen (rs_payload r) | _ => -1 end))
  = ([(Some (0, true, 7), None, 2048); (Some (2, true, 7), None, 2048); (Some (4, false, 7), None, 904); (None, Some (2, false, 7), 0)], true, 3000).
Proof. vm_compute. reflexivity. Qed.
(* the scenario of the defect fixed in 166eafe: the first BERT message (2048 bytes) is acknowledged with exponent 6; the client goes on at
   NUM 2 = offset 2048 in 1024-byte blocks and the conforming server completes the body (before 166eafe it continued at NUM 4 and got 4.08) *)
Example ex_bert_reduction : exists scf cfg st tr r,
  s_mis scf = None /\ c_mbse cfg = 7 /\
  run (serve_ref scf) 10 sstate0 cfg = (st, tr, Done r) /\
  map rq_block1 tr = [Some (0, true, 7); Some (2, true, 6); Some (3, true, 6); Some (4, false, 6)] /\
  sv_bodies st = [c_body cfg] /\ rs_code r = CHANGED.
Proof. exact bert_reduction_example. Qed.
(* premises of theorem 13 with an acknowledgement policy that lowers the exponent twice *)
Definition ex_bert_scf2 : scfg := {| s_policy1 := [7; 6; 3]; s_policy2 := [7]; s_reps := [(Some 10, mkbody 3000 1)]; s_rep_at := [];
                                     s_atomic := false; s_mis := None; s_bert := 1 |}.
Example ex_bert_honest2 : honest_bert_cfg ex_bert_scf2 (Some 10) (mkbody 3000 1).
Proof. split; try reflexivity; try (repeat constructor; lia); intros k; unfold pol; cbn [ex_bert_scf2 s_policy2 last]; destruct (Z.to_nat k) as [|[|?]]; cbn; lia. Qed.
(* the shape of seeded change C05b: 192 bytes received in three 64-byte blocks, then the request for block 3 is answered with a FINAL block
   NUM 1 / SZX 3 (offset 128, 102 bytes): refused with NotImplemented — the body with bytes 128..191 doubled is never returned *)
Definition ex_grow_block (n : Z) (m : bool) (s from to : Z) : sresult :=
  SResp {| rs_code := 69; rs_block1 := None; rs_block2 := Some (n, m, s); rs_etag := Some 4; rs_payload := bslice (mkbody 230 9) from to; rs_maxexp := 6; rs_observe := false |}.
Example ex_block2_size_grows_refused :
  let '(tr, o) := run_script [ex_grow_block 0 true 2 0 64; ex_grow_block 1 true 2 64 128; ex_grow_block 2 true 2 128 192; ex_grow_block 1 false 3 128 230]
                             {| c_body := []; c_mps := 1124; c_mbse := 6; c_block2 := None |} in
  (map rq_block2 tr, o) = ([None; Some (1, false, 2); Some (2, false, 2); Some (3, false, 2)], Err NotImplementedError).
Proof. vm_compute. reflexivity. Qed.
(* ... while a grown block that starts exactly at the assembled length (128 bytes, NUM 1 / SZX 3) is consistent and is assembled *)
Example ex_block2_size_grows_aligned :
  let '(tr, o) := run_script [ex_grow_block 0 true 2 0 64; ex_grow_block 1 true 2 64 128; ex_grow_block 1 false 3 128 230]
                             {| c_body := []; c_mps := 1124; c_mbse := 6; c_block2 := None |} in
  match o with Done r => beqb (rs_payload r) (mkbody 230 9) | _ => false end = true.
Proof. vm_compute. reflexivity. Qed.
(* the application asks for a later block itself (Block2 2/0/64): a final block 2 is handed over as it is (22 bytes), a non-final one
   cannot be continued and is refused (protocol.py:1112-1113) *)
Example ex_application_asks_later_block :
  (let '(_, o) := run_script [SResp {| rs_code := 69; rs_block1 := None; rs_block2 := Some (2, false, 2); rs_etag := Some 4; rs_payload := bslice (mkbody 150 9) 128 150; rs_maxexp := 6; rs_observe := false |}]
                             {| c_body := []; c_mps := 1124; c_mbse := 6; c_block2 := Some (2, false, 2) |} in
   match o with Done r => blen (rs_payload r) | _ => -1 end) = 22 /\
  snd (run_script [SResp {| rs_code := 69; rs_block1 := None; rs_block2 := Some (2, true, 2); rs_etag := Some 4; rs_payload := bslice (mkbody 300 9) 128 192; rs_maxexp := 6; rs_observe := false |}]
                  {| c_body := []; c_mps := 1124; c_mbse := 6; c_block2 := Some (2, false, 2) |}) = Err UnexpectedBlock2.
Proof. split; vm_compute; reflexivity. Qed.
(* premises of theorem 19 are satisfiable: a server that answers everything with the whole of ex_rep as block 0 / final *)
Definition ex_whole : response :=
  {| rs_code := 69; rs_block1 := None; rs_block2 := Some (0, false, 6); rs_etag := Some 7; rs_payload := ex_rep; rs_maxexp := 6; rs_observe := false |}.
Definition ex_const_server (s : unit) (_ : request) : unit * sresult := (s, SResp ex_whole).
Example ex_run_never_mixed_premise :
  (forall rq x, serve_answered ex_const_server rq x -> rs_block2 x <> None -> slice_of [(7, ex_rep)] x) /\
  exists tr r, run ex_const_server 5 tt {| c_body := [1; 2; 3]; c_mps := 1124; c_mbse := 6; c_block2 := None |} = (tt, tr, Done r) /\ rs_payload r = ex_rep.
Proof.
  split.
  - intros rq x (s & s1 & H) _. inv H. exists 7, ex_rep. split; [left; reflexivity|]. split; [reflexivity|].
    cbn [ex_whole rs_block2 rs_payload]. split; [lia|]. split; [lia|]. split; vm_compute; reflexivity.
  - eexists _, _. split; vm_compute; reflexivity.
Qed.
(* a schedule that duplicates, then kills the third exchange (its request never arrives): NetworkError after three requests, a prefix
   of the loss-free transcript of ex_transfer *)
Example ex_dead_exchange : (let '(st, tr, o) := run (serve_retried (serve_ref ex_scf)) 2000 (rinit sstate0 [Delivered 2 1; Delivered 0 3; Dead false; Delivered 1 1]) ex_cfg in
  (map rq_block1 tr, o, sv_bodies (r_inner st))) = ([Some (0, true, 6); Some (16, true, 2); Some (68, true, 0)], Err NetworkError, []).
Proof. vm_compute. reflexivity. Qed.
