(* C01 — CoAP datagram codec: lossless round trip, RFC 7252 section 3 format, total parsing.
   Only statements here; each proof is [exact <lemma of Proofs/C01*.v>] or a few lines from two or three such lemmas;
   the examples at the end are closed test vectors and are evaluated.
   Code model: Model/C01.v (Message_encode / Message_decode / Options_* / value codecs; the extended-field kernels,
   _to_minimum_bytes and the format table are Gen/*.v, regenerated from /repo on every check).
   Specification: Model/C01Rfc.v (rfc_encode, WellFormed, rfc_interp — written from the RFCs) and Model/C01Utf8.v.
   Model.C01Views is imported although no statement mentions it: the check evaluates decode_trace_spec and builds only what
   this file requires. *)
From Verif Require Import Lib.Py Lib.Tactics Gen.options_ext Gen.optiontypes_min Gen.optnum_table Model.C01Types Model.C01Utf8 Model.C01 Model.C01Rfc Model.C01Views Proofs.C01Utf8 Proofs.C01Ext Proofs.C01 Gen.decode_handlers Proofs.C01More Proofs.C01Parse.
From Coq Require Import String.
From Coq Require Import Permutation Sorted.
Open Scope Z_scope.

(* ---------------------------------------------------------------- 1. extended delta / length fields (translated code) *)
(* the writer produces the RFC's nibble + extension bytes on the whole range the format can express, 0..65804 = 65535 + 269 ... *)
Theorem C01_write_ext_is_rfc : forall v, 0 <= v <= EXT_MAX -> write_extended_field_value v = Ok (nibble v, extended v).
Proof. exact write_ext_spec. Qed.
Print Assumptions C01_write_ext_is_rfc.
(* ... and raises ValueError everywhere else *)
Theorem C01_write_ext_reject : forall v, v < 0 \/ EXT_MAX < v -> write_extended_field_value v = Raise ValueError.
Proof. intros v H. apply write_ext_reject. unfold EXT_MAX in H. lia. Qed.
Print Assumptions C01_write_ext_reject.
(* the reader inverts the RFC encoding on the whole range 0..65804, whatever follows *)
Theorem C01_read_ext_roundtrip : forall v rest, 0 <= v <= 65804 ->
  read_extended_field_value (nibble v) (extended v ++ rest) = Ok (v, rest).
Proof. intros v rest H. apply read_ext_ExtField, ExtField_of, H. Qed.
Print Assumptions C01_read_ext_roundtrip.
(* every outcome of the reader: UnparsableMessage, or exactly the inverse of the RFC encoding (no IndexError etc.) *)
Theorem C01_read_ext_total : forall nib raw, bytes_ok raw = true -> 0 <= nib < 16 ->
  read_extended_field_value nib raw = Raise UnparsableMessage \/
  exists v rest, read_extended_field_value nib raw = Ok (v, rest) /\ 0 <= v <= 65804 /\ nib = nibble v /\ raw = extended v ++ rest.
Proof.
  intros nib raw Hok Hn. rewrite read_ext_parse by lia. destruct (parse_ext nib raw) as [[v rest]|] eqn:P; [right|left; reflexivity].
  destruct (parse_ext_sound _ _ _ _ Hok P) as (ext & X & ->). exists v, rest. destruct (ExtField_inv _ _ _ X) as (R & <- & <-). auto.
Qed.
Print Assumptions C01_read_ext_total.

(* ---------------------------------------------------------------- 2. option values and the format table *)
(* the number -> class table extracted from optionnumbers.py is the table of the RFCs, for every option number *)
Theorem C01_table_matches_rfc : forall n, get_format n = class_of (rfc_format_of n).
Proof. exact table_matches_rfc. Qed.
Print Assumptions C01_table_matches_rfc.
(* _to_minimum_bytes is the RFC's minimal big-endian uint *)
Theorem C01_uint_is_rfc : forall n, 0 <= n -> to_minimum_bytes_py n = Ok (rfc_uint n) /\ from_bytes_big (rfc_uint n) = n.
Proof. intros n H. split; [exact (to_minimum_bytes_is_rfc n H)|exact (from_bytes_rfc_uint n H)]. Qed.
Print Assumptions C01_uint_is_rfc.
(* every legal value of every format is encoded to the RFC's bytes and decoded back to itself *)
Theorem C01_value_roundtrip : forall n v, legal (get_format n) v = true ->
  option_encode v = Ok (rfc_value v) /\ create_option_decode n (rfc_value v) = Ok v.
Proof. intros n v H. split; [exact (proj1 (option_encode_is_rfc _ _ H))|exact (create_option_decode_rfc_value n v H)]. Qed.
Print Assumptions C01_value_roundtrip.
(* every outcome of decoding a value: UnicodeDecodeError exactly when a string option is not UTF-8, else the RFC's reading,
   which is a legal value whose encoding is not longer than what was read *)
Theorem C01_value_decode_total : forall n raw, bytes_ok raw = true ->
  (create_option_decode n raw = Raise UnicodeDecodeError /\ rfc_interp n raw = None) \/
  exists v, create_option_decode n raw = Ok v /\ rfc_interp n raw = Some v /\ legal (get_format n) v = true /\ blen (rfc_value v) <= blen raw.
Proof.
  intros n raw Hok. rewrite create_option_decode_interp. destruct (rfc_interp n raw) as [v|] eqn:I; [right|left; split; reflexivity].
  exists v. destruct (rfc_interp_legal n raw v Hok I). auto.
Qed.
Print Assumptions C01_value_decode_total.
(* UTF-8 (the model standing for CPython's codec): a bijection between lists of scalar values and accepted byte strings *)
Theorem C01_utf8_roundtrip : forall s, forallb scalar s = true ->
  exists b, utf8_encode s = Ok b /\ utf8_decode b = Ok s /\ bytes_ok b = true.
Proof. exact utf8_roundtrip. Qed.
Print Assumptions C01_utf8_roundtrip.
Theorem C01_utf8_decode_canonical : forall b s, utf8_decode b = Ok s -> utf8_encode s = Ok b /\ forallb scalar s = true.
Proof. exact utf8_encode_decode. Qed.
Print Assumptions C01_utf8_decode_canonical.

(* ---------------------------------------------------------------- 3. option order: option_list is the stable sort by number *)
Theorem C01_option_list_stable_sort : forall l,
  Permutation (option_list l) l /\ Sorted (fun a b => fst a <= fst b) (option_list l) /\
  forall n, filter (fun o => fst o =? n) (option_list l) = filter (fun o => fst o =? n) l.
Proof. intros l. split; [exact (option_list_perm l)|split; [exact (option_list_sorted l)|intros n; exact (option_list_stable n l)]]. Qed.
Print Assumptions C01_option_list_stable_sort.

(* sorting again changes nothing: what option_list() of a parsed message yields is the m_opt the theorems below return *)
Theorem C01_option_list_idempotent : forall l, option_list (option_list l) = option_list l.
Proof. exact option_list_idempotent. Qed.
Print Assumptions C01_option_list_idempotent.

(* ---------------------------------------------------------------- 4. serialising: exactly the RFC 7252 section 3 format *)
(* wf m: type 0..3, code 0..255, 16-bit mid, token of 0..8 bytes, and — in wire order — every option value legal for the format
   of its number, every delta and value length at most 65804 (all that RFC 7252 section 3.1 can express) *)
Theorem C01_encode_is_rfc : forall m, wf m = true -> Message_encode m = Ok (rfc_encode (canonical m)).
Proof. exact encode_is_rfc. Qed.
Print Assumptions C01_encode_is_rfc.
(* ... and what it emits is a well-formed datagram under the parse relation written from the RFC *)
Theorem C01_encode_wellformed : forall m, wf m = true ->
  WellFormed (rfc_encode (canonical m))
    {| r_type := m_type m; r_code := m_code m; r_mid := m_mid m; r_token := m_token m;
       r_options := map (fun o => (fst o, rfc_value (snd o))) (option_list (m_opt m)); r_payload := m_payload m |}.
Proof. exact rfc_encode_WellFormed. Qed.
Print Assumptions C01_encode_wellformed.

(* the same bytes when option objects are of another class than the one registered for their number (e.g. an application's
   UintOption under an unregistered number): options_ok_any asks for a value legal for SOME class.  Only the encode half: such
   a value is parsed back as the class of the number (C01_decode_wellformed), so the round trip is about registered classes. *)
Theorem C01_encode_is_rfc_any_class : forall m, header_ok 8 m = true -> options_ok_any EXT_MAX 0 (option_list (m_opt m)) = true ->
  Message_encode m = Ok (rfc_encode (canonical m)).
Proof. exact encode_is_rfc_any_class. Qed.
Print Assumptions C01_encode_is_rfc_any_class.
(* outside what section 3 can carry — a delta below 0 or above 65804, a value longer than 65804 bytes — with a legal header and
   legal values, Message.encode raises ValueError: it never emits a truncated or mis-framed datagram *)
Theorem C01_encode_inexpressible_any : forall m, header_ok 8 m = true -> Forall (fun o => legal_any (snd o) = true) (m_opt m) ->
  options_ok_any EXT_MAX 0 (option_list (m_opt m)) = false -> Message_encode m = Raise ValueError.
Proof. exact encode_inexpressible_any. Qed.
Print Assumptions C01_encode_inexpressible_any.
Theorem C01_encode_inexpressible : forall m, header_ok 8 m = true ->
  Forall (fun o => legal (get_format (fst o)) (snd o) = true) (m_opt m) -> wf m = false -> Message_encode m = Raise ValueError.
Proof. exact encode_inexpressible. Qed.
Print Assumptions C01_encode_inexpressible.

(* ---------------------------------------------------------------- 5. lossless round trip *)
(* parsing the serialisation gives back every field, the options in option_list order (stable by number) *)
Theorem C01_roundtrip : forall m, wf m = true -> bind (Message_encode m) Message_decode = Ok (canonical m).
Proof. exact roundtrip. Qed.
Print Assumptions C01_roundtrip.

(* read through option_list(), as an application (and the harness) reads a message *)
Theorem C01_roundtrip_canonical : forall m, wf m = true ->
  exists m', bind (Message_encode m) Message_decode = Ok m' /\ canonical m' = canonical m /\ option_list (m_opt m') = option_list (m_opt m).
Proof.
  intros m H. exists (canonical m). split; [exact (roundtrip m H)|]. unfold canonical. cbn [m_opt].
  rewrite option_list_idempotent. split; reflexivity.
Qed.
Print Assumptions C01_roundtrip_canonical.

(* ---------------------------------------------------------------- 6. every RFC-well-formed datagram parses to the RFC's fields *)
(* (TKL <= 8, no reserved nibble 15, payload marker only before a non-empty payload, option values read by the format of their
   number); the only well-formed datagrams that are rejected are those with a string option that is not UTF-8 *)
Theorem C01_decode_wellformed : forall bs rm, WellFormed bs rm -> bytes_ok bs = true ->
  Message_decode bs =
  match rfc_interp_options (r_options rm) with
  | Some os => Ok {| m_type := r_type rm; m_code := r_code rm; m_mid := r_mid rm; m_token := r_token rm; m_opt := os; m_payload := r_payload rm |}
  | None => Raise UnparsableMessage
  end.
Proof. exact decode_wellformed. Qed.
Print Assumptions C01_decode_wellformed.

(* the relation WellFormed is exactly what the executable parser rfc_parse (Model/C01Rfc.v) accepts, with the same fields; the
   decode streams compare rfc_parse with the oracle's Python parser, i.e. the two readings of section 3 with each other *)
Theorem C01_rfc_parse_iff : forall bs rm, bytes_ok bs = true -> (rfc_parse bs = Some rm <-> WellFormed bs rm).
Proof. exact rfc_parse_iff. Qed.
Print Assumptions C01_rfc_parse_iff.

(* ---------------------------------------------------------------- 7. total parsing *)
(* For EVERY byte string: Message.decode raises UnparsableMessage — never IndexError, struct.error, ValueError,
   UnicodeDecodeError, nor does the loop run out of fuel S(len) — or returns a message m that is re-encoded to the RFC format and
   parsed back to m itself (this includes the lenient cases TKL 9..15 and marker-without-payload). *)
Theorem C01_decode_total : forall data, bytes_ok data = true ->
  Message_decode data = Raise UnparsableMessage \/
  exists m, Message_decode data = Ok m /\ Message_encode m = Ok (rfc_encode m) /\ Message_decode (rfc_encode m) = Ok m.
Proof. exact decode_total. Qed.
Print Assumptions C01_decode_total.

(* ---------------------------------------------------------------- 8. the receive paths around Message.decode *)
(* Extracted from source on every run (Gen/decode_handlers.v; the extraction fails unless each site is
   `try: message = Message.decode(..) / except <classes>: log.warning(..); return / ... dispatch_message(message)`):
   udp6.py and generic_udp.py (the anchors), tinydtls.py, slipmux.py.  Each handles exactly error.UnparsableMessage ... *)
Theorem C01_transports_catch_only_unparsable :
  forallb catches_only_unparsable decode_sites = true /\ map fst decode_dispatch = map fst decode_sites /\
  map fst site_handlers = map fst decode_sites /\ (4 <= List.length decode_sites)%nat.
Proof. exact decode_sites_catch_only. Qed.
Print Assumptions C01_transports_catch_only_unparsable.
(* ... so, with received_datagram (Model/C01.v) instantiated with each site's generated except-clause: for every datagram the
   path either drops it (exactly when the parser raises UnparsableMessage) or dispatches the parsed message; nothing escapes *)
Theorem C01_received_never_escapes :
  Forall (fun s => forall data, bytes_ok data = true ->
    (Message_decode data = Raise UnparsableMessage /\ received_datagram (snd s) data = Dropped) \/
    exists m, Message_decode data = Ok m /\ received_datagram (snd s) data = Dispatched m) site_handlers.
Proof. unfold site_handlers. repeat (apply Forall_cons; [cbn [snd]; apply received_never_escapes_gen; reflexivity|]). apply Forall_nil. Qed.
Print Assumptions C01_received_never_escapes.
(* "drop only": no site's except clause swallows any other exception class *)
Theorem C01_received_drops_only_unparsable :
  Forall (fun s => forall e, snd s e = true -> e = UnparsableMessage) site_handlers.
Proof. unfold site_handlers. repeat (apply Forall_cons; [exact only_unparsable|]). apply Forall_nil. Qed.
Print Assumptions C01_received_drops_only_unparsable.

(* boundary (finding C01:ext-field-65804-unencodable, fixed in aiocoap by 96b3185): a delta of exactly 65804 = E0 FF FF parses and
   round-trips; a message whose option needs delta 65804 is serialised; 65805 is the first value the writer rejects *)
Example C01_ext_max_boundary :
  let m := {| m_type := 0; m_code := 1; m_mid := 1; m_token := []; m_opt := [(65804, VOpaque [])]; m_payload := [] |} in
  wf m = true /\ Message_decode [64; 1; 0; 1; 224; 255; 255] = Ok m /\ Message_encode m = Ok [64; 1; 0; 1; 224; 255; 255] /\
  write_extended_field_value 65804 = Ok (14, [255; 255]) /\ write_extended_field_value 65805 = Raise ValueError /\
  Message_encode {| m_type := 0; m_code := 1; m_mid := 1; m_token := []; m_opt := [(65805, VOpaque [])]; m_payload := [] |} = Raise ValueError.
Proof. cbv zeta. split; [vm_compute; reflexivity|]. repeat split; vm_compute; reflexivity. Qed.

(* ---------------------------------------------------------------- non-vacuity *)
Definition example_msg : msg :=
  {| m_type := 0; m_code := 1; m_mid := 4660; m_token := [170; 187];
     m_opt := [(15, VString [107; 61; 233]); (11, VString [97]); (12, VContentFormat 50); (11, VString [98]);
               (23, VBlock 3 true 6); (60, VUint 70000); (65000, VOpaque [1; 2; 3])];
     m_payload := [255; 1] |}.
Example C01_wf_nonvacuous : wf example_msg = true /\ canonical example_msg <> example_msg.
Proof. split; [vm_compute; reflexivity|vm_compute; discriminate]. Qed.
Example C01_roundtrip_example :
  Message_encode example_msg = Ok (rfc_encode (canonical example_msg)) /\
  bind (Message_encode example_msg) Message_decode = Ok (canonical example_msg) /\
  map fst (m_opt (canonical example_msg)) = [11; 11; 12; 15; 23; 60; 65000].
Proof. repeat split; vm_compute; reflexivity. Qed.
(* RFC 7252 appendix-style datagram: CON GET mid 0x7d34, token 0x20, Uri-Path "temperature" *)
Example C01_wellformed_example :
  WellFormed ([65; 1; 125; 52; 32; 187] ++ [116; 101; 109; 112; 101; 114; 97; 116; 117; 114; 101])
    {| r_type := 0; r_code := 1; r_mid := 125 * 256 + 52; r_token := [32];
       r_options := [(0 + 11, [116; 101; 109; 112; 101; 114; 97; 116; 117; 114; 101])]; r_payload := [] |}.
Proof.
  apply (WF_datagram 0 1 1 125 52 [32] ([187] ++ [116; 101; 109; 112; 101; 114; 97; 116; 117; 114; 101] ++ [])); try lia; [reflexivity|].
  apply (OWF_option 0 11 11 [] [] 11 11 [116; 101; 109; 112; 101; 114; 97; 116; 117; 114; 101] [] [] []);
    [constructor; lia|constructor; lia|reflexivity|constructor].
Qed.
(* the hypotheses of C01_encode_is_rfc_any_class, C01_encode_inexpressible(_any) and the receive-path theorems are inhabited: a UintOption under the unregistered number 65000 (encode is the RFC's bytes,
   the parser reads it back as opaque), a delta of 70000 or 65805 / a negative number (ValueError; a 65805-byte value is in the corpus), and the receive path on both outcomes *)
Example C01_any_class_example :
  let m := {| m_type := 0; m_code := 1; m_mid := 1; m_token := []; m_opt := [(65000, VUint 5)]; m_payload := [] |} in
  wf m = false /\ options_ok_any EXT_MAX 0 (option_list (m_opt m)) = true /\ Message_encode m = Ok [64; 1; 0; 1; 225; 252; 219; 5] /\
  mmap m_opt (Message_decode [64; 1; 0; 1; 225; 252; 219; 5]) = Ok [(65000, VOpaque [5])].
Proof. cbv zeta. repeat split; vm_compute; reflexivity. Qed.
Example C01_inexpressible_example :
  let mk o := {| m_type := 0; m_code := 1; m_mid := 1; m_token := []; m_opt := o; m_payload := [] |} in
  options_ok_any EXT_MAX 0 (option_list (m_opt (mk [(70000, VOpaque [])]))) = false /\ Message_encode (mk [(70000, VOpaque [])]) = Raise ValueError /\
  options_ok_any EXT_MAX 0 (option_list (m_opt (mk [(-1, VOpaque [])]))) = false /\ Message_encode (mk [(-1, VOpaque [])]) = Raise ValueError /\
  wf (mk [(2000, VOpaque []); (2000 + 65805, VOpaque [1])]) = false /\
  Message_encode (mk [(2000, VOpaque []); (2000 + 65805, VOpaque [1])]) = Raise ValueError.
Proof. cbv zeta. repeat split; vm_compute; reflexivity. Qed.
Example C01_received_example :
  received_datagram handles_udp6 [64; 1; 0; 1; 177; 255] = Dropped /\
  (exists m, received_datagram handles_generic_udp [64; 1; 0; 1; 177; 97] = Dispatched m /\ m_opt m = [(11, VString [97])]) /\
  received_datagram (fun _ => false) [64; 1] = Escaped UnparsableMessage /\
  rfc_parse [64; 1; 0; 1; 177; 255] <> None /\ rfc_parse [73; 1; 0; 1; 1; 2; 3; 4; 5; 6; 7; 8; 9] = None.
Proof.
  split; [vm_compute; reflexivity|]. split; [eexists; split; [reflexivity|reflexivity]|].
  split; [vm_compute; reflexivity|]. split; [vm_compute; discriminate|vm_compute; reflexivity].
Qed.

(* both outcomes of C01_decode_total occur, also for the leniently accepted datagrams *)
Example C01_total_cases :
  Message_decode [64; 1; 0; 1; 177; 255] = Raise UnparsableMessage /\                       (* F1: string option FF *)
  Message_decode [64; 1] = Raise UnparsableMessage /\
  is_ok (Message_decode [79; 1; 0; 1; 170]) = true /\                                        (* TKL 15, one token byte *)
  is_ok (Message_decode [64; 1; 0; 1; 255]) = true.                                          (* marker, empty payload *)
Proof. repeat split; vm_compute; reflexivity. Qed.
