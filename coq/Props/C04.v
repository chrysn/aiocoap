(* C04 — duplicate requests are executed at most once and re-answered identically.
   Proofs: lemmas of Proofs/C04*.v or a few lines from one; the last four need C04Tie.v and two Gen files.

   Vocabulary (Model/C04.v): [step]/[run] = the message layer reacting to events (datagram arrival, timer
   firing, passage of time, a handler answering); [outs] = time-stamped log of datagrams sent and of requests
   handed to the application ([Start]); [log_since s s'] = what was logged between two states;
   [starts k l] = times of the hand-overs of requests with key k = (remote, message id) in l;
   [last_reply k l None] = the last ACK/RST sent to that remote under that message id in l;
   [Inv] = invariant of all reachable states (C04_reachable). *)
From Verif Require Import Lib.Py Lib.Tactics Model.C04 Proofs.C04 Proofs.C04Ack Proofs.C04R6 Proofs.C04R6b.
Import ListNotations.
Open Scope Z_scope.

(* every state reachable from the initial one by any event list satisfies the invariant *)
Theorem C04_reachable : forall mid0 u evs, Inv (run (init mid0 u) evs).
Proof. exact reachable_inv. Qed.
Print Assumptions C04_reachable.
Theorem C04_invariant_preserved : forall evs s, Inv s -> Inv (run s evs).
Proof. exact run_inv. Qed.
Print Assumptions C04_invariant_preserved.

(* 0. No internal error: from the initial state, over every event list (datagrams of any kind, timers, clock, handlers
      answering or failing, the transport refusing datagrams or reporting errors), none of the model's KeyError /
      AssertionError branches (on_timeout, _retransmit, _continue_backlog, _send_initially without monitor, the expiry
      callback) is ever taken. [Q] = exchange keys unique, one key per remote, every exchange's remote has a backlog,
      every pending retransmission / empty-ACK timer is the one registered in its exchange / piggy-back opportunity. *)
Theorem C04_no_exception : forall mid0 u evs t e, ~ In (Exn t e) (outs (run (init mid0 u) evs)).
Proof. intros mid0 u evs. exact (no_exception_from _ evs (Inv_init mid0 u) (Q_init mid0 u)). Qed.
Print Assumptions C04_no_exception.
Theorem C04_tables_consistent : forall mid0 u evs, Q (run (init mid0 u) evs).
Proof. intros. apply Q_run; [apply Inv_init | apply Q_init]. Qed.
Print Assumptions C04_tables_consistent.
Theorem C04_tables_consistent_preserved : forall s e, Inv s -> Q s -> Q (step s e).
Proof. exact Q_step. Qed.
Print Assumptions C04_tables_consistent_preserved.

(* 1. At most once: over any event list (any number and timing of copies, timers, handler completions, other
      peers), the hand-overs of requests with one key (remote, mid) are pairwise at least EXCHANGE_LIFETIME apart. *)
Theorem C04_handler_at_most_once : forall k evs s, Inv s ->
  spaced EXCHANGE_LIFETIME (starts k (log_since s (run s evs))).
Proof. exact handler_at_most_once. Qed.
Print Assumptions C04_handler_at_most_once.
Theorem C04_handler_at_most_once_nth : forall k evs s i j t1 t2, Inv s -> (i < j)%nat ->
  nth_error (starts k (log_since s (run s evs))) i = Some t1 ->
  nth_error (starts k (log_since s (run s evs))) j = Some t2 ->
  t1 + EXCHANGE_LIFETIME <= t2.
Proof. intros k evs s i j t1 t2 HI. apply spaced_nth, handler_at_most_once, HI. Qed.
Print Assumptions C04_handler_at_most_once_nth.

(* 2. Re-answered identically: m arrives first at s0 (key unknown); after ANY further events, as long as the clock
      is below first arrival + EXCHANGE_LIFETIME, a copy [dup] (same remote and mid, any token/payload/type) changes
      nothing but the log, to which it adds: for CON exactly the last ACK/RST sent under that key since the first
      arrival (same record = byte-identical datagram), nothing if none was sent; for NON nothing. No Start, no
      exception, no new timer. *)
Theorem C04_dup_con_reanswered : forall s0 m evs dup, Inv s0 ->
  is_request (i_code m) = true -> aget key_eqb (msg_key m) (recent s0) = None ->
  let s1 := step s0 (Recv m) in let s2 := run s1 evs in
  now s2 < now s0 + EXCHANGE_LIFETIME ->
  is_request (i_code dup) = true -> msg_key dup = msg_key m ->
  is_refused (i_remote dup) s2 = false ->   (* else the transport's refusal of the repeated reply additionally ends the
                                               exchanges with that remote (mm_dispatch_error); see C04_event_frame *)
  step s2 (Recv dup) =
  set_outs (outs s2 ++ match i_type dup, last_reply (msg_key m) (log_since s0 s2) None with
                       | CON, Some (r, w) => [Send (now s2) r w]
                       | _, _ => [] end) s2.
Proof.
  intros s0 m evs dup HI Q G s1 s2 Hn Qd Kd NR.
  destruct (first_arrival_run s0 m evs HI Q G Hn) as (HI1 & new & q & _ & _ & _ & _ & _ & A2 & _).
  rewrite <- Kd. apply dup_exact; [apply run_inv; exact HI1 | exact Qd | rewrite Kd; exact A2 | exact NR].
Qed.
Print Assumptions C04_dup_con_reanswered.
(* ... and that reply is an ACK or RST that was handed to the transport for this endpoint under this message id
   ([Send] = message_interface.send was called; a refusing transport additionally logs [Refused]) *)
Theorem C04_repeated_reply_was_sent : forall k l r w, last_reply k l None = Some (r, w) ->
  r = fst k /\ w_mid w = snd k /\ is_ackrst (w_type w) = true /\ exists t, In (Send t r w) l.
Proof.
  intros k l r w H. apply last_reply_inv in H as [H | (o & Hin & Ho)]; [discriminate|].
  apply reply_of_props in Ho as (A & B & C & t & ->). repeat split; auto. exists t; exact Hin.
Qed.
Print Assumptions C04_repeated_reply_was_sent.
Theorem C04_stored_reply_wellformed : forall mid0 u evs k r w,
  aget key_eqb k (recent (run (init mid0 u) evs)) = Some (Some (r, w)) ->
  r = fst k /\ w_mid w = snd k /\ is_ackrst (w_type w) = true.
Proof. intros mid0 u evs k r w H. destruct (reachable_inv mid0 u evs) as (_ & _ & I3 & _). eapply I3; exact H. Qed.
Print Assumptions C04_stored_reply_wellformed.

(* ... and it is an ACK (the piggy-backed response or the empty ACK), not an RST, provided the peer does not reuse the
   live message id for a confirmable non-request (ping, unmatched CON response) — RFC 7252 4.4 forbids that reuse.
   [BOK] (only CONs wait in the NSTART backlog) holds of every reachable state (C04_backlog_reachable). *)
Theorem C04_dup_reply_is_ack : forall s0 m evs r w, Inv s0 -> BOK s0 ->
  is_request (i_code m) = true -> aget key_eqb (msg_key m) (recent s0) = None ->
  let s2 := run (step s0 (Recv m)) evs in
  now s2 < now s0 + EXCHANGE_LIFETIME ->
  Forall (polite (msg_key m)) evs ->
  last_reply (msg_key m) (log_since s0 s2) None = Some (r, w) -> w_type w = ACK.
Proof. exact dup_reply_is_ack. Qed.
Print Assumptions C04_dup_reply_is_ack.
Theorem C04_backlog_reachable : forall mid0 u evs, BOK (run (init mid0 u) evs).
Proof. intros. apply BOK_run; [apply Inv_init | apply BOK_init]. Qed.
Print Assumptions C04_backlog_reachable.

(* "THE acknowledgement": from the initial state, over any history evs0, first arrival m, any further events inside the
   lifetime — all ACK-typed messages sent to m's endpoint under m's message id ([acks]: piggy-backed response, empty ACK,
   every repetition for a copy) are one and the same message ([allsame]). No side condition on the peer. Rests on [Timely]:
   no piggy-back opportunity outlives the key it was created for (its empty-ACK timer is due before the key's expiry). *)
Theorem C04_single_ack : forall mid0 u evs0 m evs,
  let s0 := run (init mid0 u) evs0 in
  is_request (i_code m) = true -> aget key_eqb (msg_key m) (recent s0) = None ->
  let s2 := run (step s0 (Recv m)) evs in
  now s2 < now s0 + EXCHANGE_LIFETIME ->
  allsame (acks (msg_key m) (log_since s0 s2)).
Proof.
  intros mid0 u evs0 m evs s0 Rq G s2 Hn.
  apply single_ack_conditional; [apply reachable_inv | apply BOK_run; [apply Inv_init | apply BOK_init] | exact Rq | exact G | | exact Hn].
  apply cnt_unknown; [apply reachable_inv | apply timely_reachable | exact G].
Qed.
Print Assumptions C04_single_ack.
Theorem C04_no_stale_opportunity : forall mid0 u evs k,
  let s := run (init mid0 u) evs in aget key_eqb k (recent s) = None -> cnt k s = 0%nat.
Proof. intros mid0 u evs k s G. apply cnt_unknown; [apply reachable_inv | apply timely_reachable | exact G]. Qed.
Print Assumptions C04_no_stale_opportunity.

(* 3. Lifetime. (a) inside the lifetime the key is known and nothing with that key is started; *)
Theorem C04_within_lifetime_is_duplicate : forall s0 m evs, Inv s0 ->
  is_request (i_code m) = true -> aget key_eqb (msg_key m) (recent s0) = None ->
  let s2 := run (step s0 (Recv m)) evs in
  now s2 < now s0 + EXCHANGE_LIFETIME ->
  aget key_eqb (msg_key m) (recent s2) <> None /\ starts (msg_key m) (log_since (step s0 (Recv m)) s2) = [].
Proof.
  intros s0 m evs HI Q G s2 Hn.
  destruct (first_arrival_run s0 m evs HI Q G Hn) as (_ & new & q & _ & _ & _ & _ & S2 & A2 & _).
  split; [unfold s2; rewrite A2; discriminate | exact S2].
Qed.
Print Assumptions C04_within_lifetime_is_duplicate.
(* (b) the key with expiry timer due at D stays known exactly until that timer fires, which happens no later than
       the clock passing D: afterwards (absent new arrivals of the key) it is unknown *)
Theorem C04_expiry_exact : forall k evs s D q, Inv s -> In (D, q, k) (forgets s) -> Forall (no_arrival k) evs ->
  let s2 := run s evs in
  (aget key_eqb k (recent s2) <> None /\ now s2 <= D /\ In (D, q, k) (forgets s2))
  \/ (aget key_eqb k (recent s2) = None /\ D <= now s2).
Proof.
  intros k evs s D q HI HD Hev s2. destruct (timer_known k s D q HI HD) as [[v G] _].
  destruct (run_R k evs s HI Hev) as (new & _ & _ & _ & _ & A). rewrite G in A. fold s2 in A.
  destruct A as [[A F] | [A F]]; [left | right; split; [exact A | apply (F D q HD)]].
  split; [rewrite A; discriminate|]. split; [|apply F, HD].
  apply (timer_known k s2 D q); [apply run_inv; exact HI | apply F, HD].
Qed.
Print Assumptions C04_expiry_exact.
(* (b') with copies in the history: inside the lifetime the key has exactly one expiry timer, the one armed at the first
       arrival — copies neither extend nor shorten the lifetime; *)
Theorem C04_expiry_fixed_at_first_arrival : forall s0 m evs, Inv s0 ->
  is_request (i_code m) = true -> aget key_eqb (msg_key m) (recent s0) = None ->
  let s2 := run (step s0 (Recv m)) evs in
  now s2 < now s0 + EXCHANGE_LIFETIME ->
  exists q, In (now s0 + EXCHANGE_LIFETIME, q, msg_key m) (forgets s2)
    /\ forall D' q', In (D', q', msg_key m) (forgets s2) -> D' = now s0 + EXCHANGE_LIFETIME.
Proof.
  intros s0 m evs HI Q G s2 Hn.
  destruct (first_arrival_run s0 m evs HI Q G Hn) as (HI1 & new & q & _ & _ & _ & _ & _ & _ & F2).
  exists q. split; [exact F2|]. intros D' q' H. destruct (run_inv evs _ HI1) as (_ & ND & _).
  assert (E : (D', q', msg_key m) = (now s0 + EXCHANGE_LIFETIME, q, msg_key m)) by (apply (PyLemmas.NoDup_map_inj_in snd _ _ _ ND H F2); reflexivity).
  inversion E; reflexivity.
Qed.
Print Assumptions C04_expiry_fixed_at_first_arrival.
(* (b'') after ANY history inside the lifetime (evs1, copies included), once the clock has passed first arrival +
       EXCHANGE_LIFETIME without a further arrival of the key in between (evs2), the identifier is forgotten; by (c) the
       next copy is then processed as a new request *)
Theorem C04_forgotten_after_lifetime : forall s0 m evs1 evs2, Inv s0 ->
  is_request (i_code m) = true -> aget key_eqb (msg_key m) (recent s0) = None ->
  let s2 := run (step s0 (Recv m)) evs1 in
  now s2 < now s0 + EXCHANGE_LIFETIME ->
  Forall (no_arrival (msg_key m)) evs2 ->
  let s3 := run s2 evs2 in
  now s0 + EXCHANGE_LIFETIME < now s3 ->
  aget key_eqb (msg_key m) (recent s3) = None.
Proof.
  intros s0 m evs1 evs2 HI Q G s2 Hn Hev s3 Hl.
  destruct (C04_expiry_fixed_at_first_arrival s0 m evs1 HI Q G Hn) as (q & F & _).
  assert (HI2 : Inv s2) by (apply run_inv, (step_spec s0 (Recv m) HI)).
  destruct (C04_expiry_exact (msg_key m) evs2 s2 _ q HI2 F Hev) as [(_ & Hle & _) | (Hg & _)]; [unfold s3 in Hl; lia | exact Hg].
Qed.
Print Assumptions C04_forgotten_after_lifetime.
(* (c) a request-coded message whose key is unknown — never seen, seen from another endpoint only, or forgotten —
       is remembered for EXCHANGE_LIFETIME from now and, if CON or NON, handed to the application exactly once now *)
Theorem C04_unknown_key_is_executed : forall s m, Inv s ->
  is_request (i_code m) = true -> aget key_eqb (msg_key m) (recent s) = None ->
  let k := msg_key m in let s' := step s (Recv m) in
  exists new q, outs s' = outs s ++ new /\ now s' = now s /\ Forall (fun o => out_time o = now s) new
    /\ starts k new = (if negb (is_ackrst (i_type m)) then [now s] else [])
    /\ aget key_eqb k (recent s') = Some (last_reply k new None)
    /\ In (now s + EXCHANGE_LIFETIME, q, k) (forgets s').
Proof. exact step_fresh. Qed.
Print Assumptions C04_unknown_key_is_executed.

(* 4. Endpoints are independent: a datagram with another (remote, mid) starts nothing for k and changes the entry
      of k only through ACK/RSTs sent to k's remote under k's mid (relation R) *)
Theorem C04_other_keys_untouched : forall s m k, Inv s -> msg_key m <> k -> R k s (step s (Recv m)).
Proof.
  intros s m k HI N. apply (step_spec s (Recv m) HI). intros (m' & E & _ & K & _). inversion E; subst. contradiction.
Qed.
Print Assumptions C04_other_keys_untouched.
(* sharper for datagrams: one with another key never removes or resets k's entry nor its expiry timer *)
Theorem C04_other_keys_keep_entry : forall s m k v, Inv s -> msg_key m <> k ->
  aget key_eqb k (recent s) = Some v ->
  exists new, outs (step s (Recv m)) = outs s ++ new /\ starts k new = [] /\
    aget key_eqb k (recent (step s (Recv m))) = Some (last_reply k new v) /\
    forall D q, In (D, q, k) (forgets s) -> In (D, q, k) (forgets (step s (Recv m))).
Proof. exact other_keys_keep_entry. Qed.
Print Assumptions C04_other_keys_keep_entry.
(* a key of which no request-coded datagram arrives stays unknown and is never started, whatever other endpoints do with
   the same message id — so the hypothesis of C04_unknown_key_is_executed holds for (r2, mid) while (r1, mid) is live *)
Theorem C04_not_arrived_stays_unknown : forall k evs s, Inv s -> aget key_eqb k (recent s) = None ->
  Forall (no_arrival k) evs ->
  aget key_eqb k (recent (run s evs)) = None /\ starts k (log_since s (run s evs)) = [].
Proof.
  intros k evs s HI G Hev. destruct (run_R k evs s HI Hev) as (new & O & _ & _ & S & A).
  rewrite G in A. rewrite (log_since_app _ _ _ O). auto.
Qed.
Print Assumptions C04_not_arrived_stays_unknown.
(* every event (timer, clock, handler answer or failure, transport refusal or error, datagram) that is not a first arrival
   of k: relation R (no Start for k; entry follows the ACK/RSTs sent under k, or is removed with its timer due) *)
Theorem C04_event_frame : forall s e k, Inv s -> ~ fresh_for k s e -> R k s (step s e).
Proof. intros s e k HI. apply (step_spec s e HI). Qed.
Print Assumptions C04_event_frame.

(* ------------------------------------------------------------------ non-vacuity *)
Definition req (r : Z) (t : mtype) (mid : Z) (tok : list Z) (p : hkind) : inmsg :=
  {| i_remote := r; i_type := t; i_code := 1; i_mid := mid; i_token := tok; i_path := p; i_nr := None; i_payload := [] |}.
Definition ack (mid : Z) (code : Z) (tok pay : list Z) : wire :=
  {| w_type := ACK; w_code := code; w_mid := mid; w_token := tok; w_payload := pay |}.

(* the hypotheses of theorem 2 hold of a concrete history, and its conclusion is the piggy-backed response again *)
Example C04_fast_dup :
  let s0 := init 7 2000000 in let m := req 0 CON 7 [1] HFast in
  Inv s0 /\ aget key_eqb (msg_key m) (recent s0) = None /\
  now (run (step s0 (Recv m)) [Advance 246999999]) < now s0 + EXCHANGE_LIFETIME /\
  outs (run s0 [Recv m; Advance 246999999; Recv m]) =
    [Start 0 0 0 7 [1]; Send 0 0 (ack 7 69 [1] [0]); Send 246999999 0 (ack 7 69 [1] [0])].
Proof. split; [apply Inv_init|]. vm_compute. repeat split; reflexivity. Qed.

(* cd09d80: the endpoint's own message id equals the peer's; the separate response
   (CON, own mid 7) does not replace the remembered empty ACK, the copy is answered with the empty ACK *)
Example C04_aligned_mid :
  outs (run (init 7 2000000)
         [Recv (req 0 CON 7 [1] HSlow); Advance 100000;
          Respond 0 {| a_code := 69; a_payload := [170]; a_nr := None; a_rel := None |};
          Recv (req 0 CON 7 [1] HSlow)]) =
    [Start 0 0 0 7 [1]; Send 100000 0 (ack 7 0 [] []);
     Send 100000 0 {| w_type := CON; w_code := 69; w_mid := 7; w_token := [1]; w_payload := [170] |};
     Send 100000 0 (ack 7 0 [] [])].
Proof. vm_compute. reflexivity. Qed.

(* expiry: one microsecond before the lifetime ends the copy is a duplicate, at the end it is executed again;
   the same mid from another endpoint is executed independently; NON copies are silent *)
Example C04_lifetime_boundary :
  starts (0, 7) (outs (run (init 0 2000000)
      [Recv (req 0 NON 7 [1] HFast); Recv (req 1 NON 7 [1] HFast); Recv (req 0 NON 7 [1] HFast);
       Advance 246999999; Recv (req 0 NON 7 [1] HFast); Advance 1; Recv (req 0 NON 7 [1] HFast)]))
  = [0; 247000000]
  /\ starts (1, 7) (outs (run (init 0 2000000)
      [Recv (req 0 NON 7 [1] HFast); Recv (req 1 NON 7 [1] HFast); Recv (req 0 NON 7 [1] HFast)])) = [0]
  /\ length (outs (run (init 0 2000000)
      [Recv (req 0 NON 7 [1] HFast); Recv (req 0 NON 7 [1] HFast); Recv (req 0 NON 7 [1] HFast)])) = 2%nat.
Proof. vm_compute. repeat split; reflexivity. Qed.

(* the politeness hypothesis of C04_dup_reply_is_ack is needed: a peer that pings with the live message id makes the
   remembered reply the RST of the ping (observation, outside the property's quantifier) *)
Example C04_impolite_peer_gets_rst :
  let ping := {| i_remote := 0; i_type := CON; i_code := 0; i_mid := 7; i_token := []; i_path := HFast; i_nr := None; i_payload := [] |} in
  polite (0, 7) (Recv ping) = (true = false) /\
  outs (run (init 0 2000000) [Recv (req 0 CON 7 [1] HFast); Recv ping; Recv (req 0 CON 7 [1] HFast)]) =
    [Start 0 0 0 7 [1]; Send 0 0 (ack 7 69 [1] [0]);
     Send 0 0 {| w_type := RST; w_code := 0; w_mid := 7; w_token := []; w_payload := [] |};
     Send 0 0 {| w_type := RST; w_code := 0; w_mid := 7; w_token := []; w_payload := [] |}].
Proof. split; vm_compute; reflexivity. Qed.

(* a transport that refuses the datagrams to a peer (udp6 sendmsg failing) reports it from inside send(): the attempt is
   logged, the exchange and backlog of that peer end; copies are still not executed again and get the remembered ACK
   offered to the transport again *)
Example C04_refusing_transport :
  outs (run (init 7 2000000)
         [Recv (req 0 CON 7 [1] HSlow); Advance 100000; Refuse 0 true;
          Respond 0 {| a_code := 69; a_payload := [170]; a_nr := None; a_rel := None |};
          Recv (req 0 CON 7 [1] HSlow); Advance 10000000; Refuse 0 false; Recv (req 0 CON 7 [1] HSlow)]) =
    [Start 0 0 0 7 [1]; Send 100000 0 (ack 7 0 [] []);
     Send 100000 0 {| w_type := CON; w_code := 69; w_mid := 7; w_token := [1]; w_payload := [170] |}; Refused 100000 0;
     Send 100000 0 (ack 7 0 [] []); Refused 100000 0;
     Send 10100000 0 (ack 7 0 [] [])].
Proof. vm_compute. reflexivity. Qed.

(* a resource that returns ONE pre-built response object for every request (75465d6: the remembered
   reply is a snapshot, not that object): each copy gets the ACK of ITS request, to ITS endpoint, with ITS token *)
Example C04_reused_response_object :
  outs (run (init 100 2000000)
         [Recv (req 0 CON 7 [1] HCached); Recv (req 1 CON 7 [2] HCached); Recv (req 0 CON 8 [3] HCached);
          Recv (req 0 CON 7 [1] HCached); Recv (req 1 CON 7 [2] HCached)]) =
    [Start 0 0 0 7 [1]; Send 0 0 (ack 7 69 [1] [99; 97; 99; 104; 101; 100]);
     Start 0 1 1 7 [2]; Send 0 1 (ack 7 69 [2] [99; 97; 99; 104; 101; 100]);
     Start 0 2 0 8 [3]; Send 0 0 (ack 8 69 [3] [99; 97; 99; 104; 101; 100]);
     Send 0 0 (ack 7 69 [1] [99; 97; 99; 104; 101; 100]);
     Send 0 1 (ack 7 69 [2] [99; 97; 99; 104; 101; 100])].
Proof. vm_compute. reflexivity. Qed.

(* acks / allsame are not vacuous: a slow request gets the empty ACK, the separate response is not an ACK, two copies repeat it *)
Example C04_single_ack_instance :
  acks (0, 7) (outs (run (init 7 2000000)
         [Recv (req 0 CON 7 [1] HSlow); Advance 100000;
          Respond 0 {| a_code := 69; a_payload := [170]; a_nr := None; a_rel := None |};
          Recv (req 0 CON 7 [1] HSlow); Recv (req 0 CON 7 [1] HSlow)])) = [ack 7 0 [] []; ack 7 0 [] []; ack 7 0 [] []].
Proof. vm_compute. reflexivity. Qed.

(* the model's transport constants and message-ID successor are the translated source's
   (Gen/c03_constants.v <- numbers/constants.py TransportTuning, microseconds = seconds * 10^6; Gen/c14_message_id.v <- MessageManager._next_message_id) *)
From Verif Require Gen.c03_constants Gen.c14_message_id.
From Verif Require Proofs.C04Tie.
Theorem C04_exchange_lifetime_is_source :
  QArith_base.Qeq (QArith_base.inject_Z EXCHANGE_LIFETIME) (QArith_base.Qmult (c03_constants.EXCHANGE_LIFETIME c03_constants.default_transport_tuning) (QArith_base.inject_Z 1000000)).
Proof. exact C04Tie.exchange_lifetime_is_source. Qed.
Print Assumptions C04_exchange_lifetime_is_source.
Theorem C04_empty_ack_delay_is_source :
  QArith_base.Qeq (QArith_base.inject_Z EMPTY_ACK_DELAY) (QArith_base.Qmult (c03_constants.tt_EMPTY_ACK_DELAY c03_constants.default_transport_tuning) (QArith_base.inject_Z 1000000)).
Proof. exact C04Tie.empty_ack_delay_is_source. Qed.
Print Assumptions C04_empty_ack_delay_is_source.
Theorem C04_max_retransmit_is_source :
  MAX_RETRANSMIT = c03_constants.tt_MAX_RETRANSMIT c03_constants.default_transport_tuning.
Proof. exact C04Tie.max_retransmit_is_source. Qed.
Print Assumptions C04_max_retransmit_is_source.
Theorem C04_next_message_id_is_source :
  forall s, c14_message_id.next_message_id {| c14_message_id.mmids_message_id := message_id s |} = Ok ({| c14_message_id.mmids_message_id := message_id (fst (_next_message_id s)) |}, snd (_next_message_id s)).
Proof. exact C04Tie.next_message_id_is_source. Qed.
Print Assumptions C04_next_message_id_is_source.
