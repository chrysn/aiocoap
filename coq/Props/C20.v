(* C20 — resource directory: lookups reflect exactly the live registrations.
   Only statements here; every proof is [exact] or a few lines from a lemma of Proofs/C20*.v about [Inv] and [Settled] states.
   [reachable st] = st is the state after some history of requests and time passages from the empty directory. *)
From Coq Require Import String.
From Verif Require Import Lib.Py Lib.Tactics Model.C20Str Model.C20 Model.C20Spec Proofs.C20Dict Proofs.C20 Proofs.C20More Proofs.C20Refine Proofs.C20R5.
Open Scope Z_scope.

(* after every history the index invariant holds and no lifetime timer is overdue *)
Theorem C20_invariant : forall ops, Inv (run_state empty_rd ops) /\ Settled (run_state empty_rd ops).
Proof. intros ops. apply reachable_Inv. exists ops. reflexivity. Qed.
Print Assumptions C20_invariant.

(* index bijection: at most one registration per (ep, d), at most one per location; _by_key and _by_path hold the same
   Registration objects, each under its own key and its own path *)
Theorem C20_indexes_bijective : forall st, reachable st ->
  NoDup (map fst (by_key st)) /\ NoDup (map fst (by_path st)) /\
  (forall id, (exists k, In (k, id) (by_key st)) <-> (exists p, In (p, id) (by_path st))) /\
  (forall k id, In (k, id) (by_key st) -> r_key (obj st id) = k /\ In (r_path (obj st id), id) (by_path st)) /\
  (forall p id, In (p, id) (by_path st) -> r_path (obj st id) = p /\ In (r_key (obj st id), id) (by_key st)).
Proof. intros st R. apply indexes_bijective, (reachable_Inv st R). Qed.
Print Assumptions C20_indexes_bijective.

(* distinct registrations never share a location *)
Theorem C20_distinct_locations : forall st k1 k2 id1 id2, reachable st ->
  In (k1, id1) (by_key st) -> In (k2, id2) (by_key st) -> k1 <> k2 -> r_path (obj st id1) <> r_path (obj st id2).
Proof. intros st k1 k2 id1 id2 R. apply distinct_locations, (reachable_Inv st R). Qed.
Print Assumptions C20_distinct_locations.

(* a successful registration is answered with the location the endpoint already had (re-registration), or with a
   location no live registration uses (new endpoint); afterwards both indexes map the key / that location to the new object.
   [st'] is the state as the handler leaves it, before the ready queue is drained ([handle], not [step]): a registration with
   lt <= -15 s expires in that drain *)
Theorem C20_rereg_keeps_location : forall st remote q b st' loc, reachable st ->
  handle st (Register remote q b) = (st', Created loc) ->
  exists k, (forall oid, dget key_eqb (by_key st) k = Some oid -> loc = r_path (obj st oid)) /\
            (dget key_eqb (by_key st) k = None -> ~ In loc (map fst (by_path st)) /\ 1 <= loc) /\
            dget key_eqb (by_key st') k = Some (next_id st) /\ dget Z.eqb (by_path st') loc = Some (next_id st) /\
            r_key (obj st' (next_id st)) = k /\ r_path (obj st' (next_id st)) = loc.
Proof.
  intros st remote q b st' loc R H. destruct (register_location _ _ _ _ _ _ (proj1 (reachable_Inv st R)) H) as (k & L & A).
  exists k. unfold location_for in L. split; [intros oid E|split; [intros E|exact A]]; rewrite E in L; [exact L|].
  subst loc. split; [apply new_pathtail_fresh|apply new_pathtail_pos].
Qed.
Print Assumptions C20_rereg_keeps_location.

(* a request answered with a 4.xx code leaves the directory exactly as it was: both indexes, every registration's
   lifetime, base, parameters, links and timer, and the clock *)
Theorem C20_failed_op_unchanged : forall st o st' r, reachable st -> step st o = (st', r) -> is_4xx r = true -> st' = st.
Proof. intros st o st' r R. destruct (reachable_Inv st R) as [I S]. exact (failed_op_unchanged st o st' r I S). Qed.
Print Assumptions C20_failed_op_unchanged.

(* a registration is listed (indexed) iff its lifetime timer is pending, and then that timer is not yet due *)
Theorem C20_listed_iff_live : forall st, reachable st -> forall id r, In (id, r) (objs st) ->
  ((exists k, In (k, id) (by_key st)) <-> exists due s, r_timer r = Some (due, s) /\ now st < due).
Proof. intros st R. destruct (reachable_Inv st R) as [I S]. exact (listed_iff_live st I S). Qed.
Print Assumptions C20_listed_iff_live.

(* the delete closures (expiry, DELETE, re-registration) never raise KeyError: no exception reaches the event loop and no
   write request is answered 5.00 because of the indexes, in any history *)
Theorem C20_closures_never_raise : forall ops,
  loop_exceptions (run_state empty_rd ops) = 0 /\
  Forall2 (fun o ob => is_lookup o = false -> o_resp ob <> Err KeyError) ops (run empty_rd ops).
Proof. intros ops. apply run_no_exception, empty_Inv. Qed.
Print Assumptions C20_closures_never_raise.

(* time passing by dt: afterwards exactly those registrations are still listed whose lifetime (+ grace) ends after the new
   instant, and each of them is untouched (same lt, base, parameters, links, timer) *)
Theorem C20_expiry_exact : forall st dt, reachable st -> 0 <= dt ->
  let st' := fst (step st (Advance dt)) in
  now st' = now st + dt /\
  forall k id, In (k, id) (by_key st') <->
               (In (k, id) (by_key st) /\ exists due s, r_timer (obj st id) = Some (due, s) /\ now st + dt < due /\ obj st' id = obj st id).
Proof. intros st dt R _. destruct (reachable_Inv st R) as [I S]. exact (expiry_exact st dt I S). Qed.
Print Assumptions C20_expiry_exact.

(* a successful write (re)starts the lifetime: the timer is due lt + 15 s after the request *)
Theorem C20_write_restarts_lifetime : forall r remote p init t seq r', update_params r remote p init t seq = UpOk r' ->
  r_key r' = r_key r /\ r_path r' = r_path r /\ r_links r' = r_links r /\ r_timer r' = Some (t + (r_lt r' + GRACE_PERIOD) * 1000000, seq).
Proof. exact update_params_ok. Qed.
Print Assumptions C20_write_restarts_lifetime.

(* any request other than the passage of time leaves every registration it does not address untouched and listed, unless it
   is the re-registration of that registration's own (ep, d); and whatever it lists afterwards of the older registrations it
   does not address was listed before with the same fields: parameters and links are those of the latest write *)
Theorem C20_other_registrations_untouched : forall st o st' r, reachable st -> is_advance o = false -> step st o = (st', r) ->
  (forall k id, In (k, id) (by_key st') -> id < next_id st -> Some id <> target st o -> In (k, id) (by_key st) /\ obj st' id = obj st id) /\
  (forall k id, In (k, id) (by_key st) -> Some id <> target st o ->
     (In (k, id) (by_key st') /\ obj st' id = obj st id) \/ (exists loc, r = Created loc /\ k = r_key (obj (fst (handle st o)) (next_id st)))).
Proof. intros st o st' r R. destruct (reachable_Inv st R) as [I S]. exact (step_frame st o st' r I S). Qed.
Print Assumptions C20_other_registrations_untouched.

(* lookup exactness: the unfiltered lookups render exactly the registrations whose lifetime timer is pending and not due,
   each once, under pairwise distinct (ep, d) and pairwise distinct locations *)
Theorem C20_lookup_exact : forall st, reachable st ->
  ep_lookup st [] None = Content (str_links (map get_host_link (get_endpoints st))) /\
  res_lookup st [] None = Content (str_links (map strip_anchor (flat_map get_based_links (get_endpoints st)))) /\
  (forall r, In r (get_endpoints st) <-> exists id due s, In (id, r) (objs st) /\ r_timer r = Some (due, s) /\ now st < due) /\
  NoDup (map r_key (get_endpoints st)) /\ NoDup (map r_path (get_endpoints st)).
Proof. intros st R. destruct (reachable_Inv st R) as [I S]. exact (lookup_exact st I S). Qed.
Print Assumptions C20_lookup_exact.

(* lookups with any list of criteria (212d645): the candidates are exactly the live registrations (resp. the links of live
   registrations) satisfying ALL criteria, in index order; pagination is applied to that list, last *)
Theorem C20_lookup_all_criteria : forall st qs accept, reachable st ->
  let q := query_split qs in
  let eps := filter (fun r => forallb (fun c => ep_keep c r) (criteria_of q)) (get_endpoints st) in
  let links := filter (fun ec => forallb (fun c => res_keep c ec) (criteria_of q)) (res_pairs (get_endpoints st)) in
  (forall r, In r eps <-> live_reg st r /\ forall c, In c (criteria_of q) -> ep_keep c r = true) /\
  (forall e l, In (e, l) links <-> live_reg st e /\ In l (get_based_links e) /\ forall c, In c (criteria_of q) -> res_keep c (e, l) = true) /\
  ep_lookup st qs accept = match _paginate eps q with Raise e => Err e | Ok l => link_format_to_message accept (map get_host_link l) end /\
  res_lookup st qs accept = match _paginate (map snd links) q with Raise e => Err e | Ok l => link_format_to_message accept (map strip_anchor l) end.
Proof.
  intros st qs accept R q eps links. destruct (reachable_Inv st R) as [I S]. destruct (lookup_exact st I S) as (_ & _ & Live & _).
  split; [|split; [|split; reflexivity]].
  - intros r. unfold eps. rewrite filter_In, forallb_forall, Live. reflexivity.
  - intros e l. unfold links. rewrite filter_In, forallb_forall, In_res_pairs, Live. unfold live_reg. tauto.
Qed.
Print Assumptions C20_lookup_all_criteria.

(* every error answer to a registration, update, removal or registration-resource read is a 4.xx and leaves the directory
   unchanged (no 5.00 from these handlers in any reachable state) *)
Theorem C20_error_answers_are_4xx_and_harmless : forall st o st' e, reachable st -> is_lookup o = false -> step st o = (st', Err e) ->
  is_4xx (Err e) = true /\ st' = st.
Proof. intros st o st' e R. destruct (reachable_Inv st R) as [I S]. exact (step_error st o st' e I S). Qed.
Print Assumptions C20_error_answers_are_4xx_and_harmless.

(* a failing update_params has no effect at all and raises BadRequest (the validation precedes every mutation) *)
Theorem C20_update_params_fails_cleanly : forall r remote p init t seq r' e,
  update_params r remote p init t seq = UpFail r' e -> r' = r /\ e = BadRequest.
Proof. exact update_params_fail_clean. Qed.
Print Assumptions C20_update_params_fails_cleanly.

(* lookups are answered 2.05, 4.06 or 4.00: nothing is raised out of the filter stages or the pagination *)
Theorem C20_lookups_never_5xx : forall st q accept,
  (forall e, ep_lookup st q accept = Err e -> e = BadRequest) /\ (forall e, res_lookup st q accept = Err e -> e = BadRequest).
Proof. intros st q accept. split; intros e; [apply ep_lookup_regs_err|apply res_lookup_regs_err]. Qed.
Print Assumptions C20_lookups_never_5xx.

(* ---- REFINEMENT to the abstract directory of Model/C20Spec.v: a list of entries (ep, d) -> location, lt, base, parameters,
   links, instant of the latest successful write; changed only in the success branches of [d_step], an entry dropped once
   [written + lt + grace] has passed; no heap, no indexes, no timers. [abs] reads the entries off the concrete state. *)

(* every request and every passage of time commutes with abs and is answered as the abstract directory answers *)
Theorem C20_refinement_step : forall st o, reachable st -> nonneg_time o ->
  d_step (abs st) o = (abs (fst (step st o)), snd (step st o)).
Proof. intros st o R _. exact (step_abs st o (proj1 (reachable_Inv st R))). Qed.
Print Assumptions C20_refinement_step.

(* THE PROPERTY AS ONE THEOREM, for every history of registrations, re-registrations, updates, removals, lookups and lifetime
   expiries (time never runs backwards): all answers are the abstract directory's answers, the state abstracts to its state, and
   the endpoint and resource lookups render exactly its entries — each within [latest successful write + lt + grace], with the
   links and parameters of that write, at most one per (ep, d), no two sharing a location *)
Theorem C20_refinement : forall ops, Forall nonneg_time ops ->
  let st := run_state empty_rd ops in
  let d := d_run_state empty_dir ops in
  map o_resp (run empty_rd ops) = d_run empty_dir ops /\
  abs st = d /\
  ep_lookup st [] None = Content (str_links (map (fun e => get_host_link (reg_of_entry e)) (d_entries d))) /\
  res_lookup st [] None = Content (str_links (map strip_anchor (flat_map (fun e => get_based_links (reg_of_entry e)) (d_entries d)))) /\
  Forall (fun e => d_now d < e_written e + (e_lt e + GRACE_PERIOD) * 1000000) (d_entries d) /\
  NoDup (map e_key (d_entries d)) /\ NoDup (map e_loc (d_entries d)).
Proof. intros ops _. exact (refinement_all_histories ops). Qed.
Print Assumptions C20_refinement.

(* on the abstract directory itself: a request answered 4.xx leaves it unchanged; after every event all entries are alive *)
Theorem C20_spec_failed_request_keeps_directory : forall d o d' r, all_alive d -> d_step d o = (d', r) -> is_4xx r = true -> d' = d.
Proof. exact d_failed_unchanged. Qed.
Print Assumptions C20_spec_failed_request_keeps_directory.
Theorem C20_spec_entries_alive : forall d o, all_alive (fst (d_step d o)).
Proof. exact d_step_alive. Qed.
Print Assumptions C20_spec_entries_alive.

(* What a successful write sets, as equations over the request's parameters (independent of update_params' control flow): the
   lifetime, the base and whether it is explicit, every other parameter merged key by key; ep / d cannot be among them.
   [NoDup (map fst p)] holds for every parsed query (C20_query_keys_unique). *)
Theorem C20_write_sets_parameters : forall r remote p init t seq r', NoDup (map fst p) ->
  update_params r remote p init t seq = UpOk r' ->
  r_lt r' = match dget String.eqb p "lt" with
            | Some [Some s] => match parse_int s with Some n => n | None => r_lt r end
            | _ => r_lt r end /\
  (forall b, dget String.eqb p "base" = Some [Some b] -> r_base r' = b /\ r_base_explicit r' = true) /\
  (dget String.eqb p "base" = None -> r_base_explicit r' = r_base_explicit r /\
     (r_base_explicit r = false -> exists u, remote = Some u /\ r_base r' = u) /\
     (r_base_explicit r = true -> r_base r' = r_base r)) /\
  (forall k, k <> "lt"%string -> k <> "base"%string ->
     dget String.eqb (r_params r') k = match dget String.eqb p k with Some v => Some v | None => dget String.eqb (r_params r) k end) /\
  (dget String.eqb p "ep" = None /\ dget String.eqb p "d" = None).
Proof. exact write_sets_parameters. Qed.
Print Assumptions C20_write_sets_parameters.
Theorem C20_query_keys_unique : forall qs, NoDup (map fst (query_split qs)).
Proof. exact query_split_nodup. Qed.
Print Assumptions C20_query_keys_unique.
(* the same for the abstract directory of C20_refinement: the entry after a successful write, field by field *)
Theorem C20_spec_write_sets_parameters : forall e remote p init t e', NoDup (map fst p) -> write_params e remote p init t = Ok e' ->
  e_key e' = e_key e /\ e_loc e' = e_loc e /\ e_links e' = e_links e /\ e_written e' = t /\
  e_lt e' = match dget String.eqb p "lt" with
            | Some [Some s] => match parse_int s with Some n => n | None => e_lt e end
            | _ => e_lt e end /\
  (forall b, dget String.eqb p "base" = Some [Some b] -> e_base e' = b /\ e_explicit e' = true) /\
  (dget String.eqb p "base" = None -> e_explicit e' = e_explicit e /\
     (e_explicit e = false -> exists u, remote = Some u /\ e_base e' = u) /\ (e_explicit e = true -> e_base e' = e_base e)) /\
  (forall k, k <> "lt"%string -> k <> "base"%string ->
     dget String.eqb (e_params e') k = match dget String.eqb p k with Some v => Some v | None => dget String.eqb (e_params e) k end).
Proof.
  intros e remote p init t e' ND H. unfold write_params in H.
  destruct (update_params (reg_of_entry e) remote p init t 0) as [r'|r' err] eqn:EU; inv H.
  pose proof (update_params_ok _ _ _ _ _ _ _ EU) as (A & B & C & _).
  destruct (write_sets_parameters _ _ _ _ _ _ _ ND EU) as (L & Bg & Bn & Pk & _).
  cbn [entry_of_reg e_key e_loc e_links e_written e_lt e_base e_explicit e_params].
  cbn [reg_of_entry r_key r_path r_links r_lt r_base r_base_explicit r_params] in *. auto 10.
Qed.
Print Assumptions C20_spec_write_sets_parameters.

(* Declarative meaning of the lookup criteria used by C20_lookup_all_criteria: a registration (a link) satisfies a criterion iff
   one of its candidate values — the registration parameter of that name, that attribute of one of its resolved links, or for
   href the registration path / a link target — matches the criterion value: exactly, by prefix for "v*", item-wise for rt / if *)
Theorem C20_criterion_meaning_endpoint : forall c r, ep_keep c r = true <-> exists ox, ep_candidate c r ox /\ value_ok (c_m c) ox.
Proof. exact ep_keep_spec. Qed.
Print Assumptions C20_criterion_meaning_endpoint.
Theorem C20_criterion_meaning_resource : forall c e l, res_keep c (e, l) = true <-> exists ox, res_candidate c e l ox /\ value_ok (c_m c) ox.
Proof. exact res_keep_spec. Qed.
Print Assumptions C20_criterion_meaning_resource.
Theorem C20_criteria_of_query : forall q c, In c (criteria_of q) <->
  exists k vs v, In (k, vs) q /\ is_paging k = false /\ In v vs /\
    c = {| c_key := k; c_m := (make_matcher v, in_strs k ["if"; "rt"]%string); c_href := String.eqb k "href" |}.
Proof. exact criteria_of_spec. Qed.
Print Assumptions C20_criteria_of_query.

(* Observers of the lookup resources (the change callbacks of register_change_callback): whenever a request or the passage of
   time changes what the endpoint lookup or the resource lookup shows, the callbacks run at least once during that step
   (full strength since 3b8673f: a PUT that replaces only the links is announced too) *)
Theorem C20_lookup_changes_are_notified : forall st o st' r, reachable st -> nonneg_time o -> step st o = (st', r) ->
  (ep_lookup st' [] None <> ep_lookup st [] None \/ res_lookup st' [] None <> res_lookup st [] None) -> notify_count st o <> 0.
Proof.
  intros st o st' r R _ Hs Hd N0. destruct (reachable_Inv st R) as [I S].
  destruct (silent_step_shows_the_same st o st' r I S Hs N0). tauto.
Qed.
Print Assumptions C20_lookup_changes_are_notified.
(* in particular every change of the set of listed registrations — registration, re-registration, removal, expiry *)
Theorem C20_listing_changes_are_notified : forall st o st' r, reachable st -> nonneg_time o -> step st o = (st', r) ->
  by_key st' <> by_key st -> 0 < notify_count st o.
Proof. intros st o st' r R _. destruct (reachable_Inv st R) as [I S]. exact (notified_when_listing_changes st o st' r I S). Qed.
Print Assumptions C20_listing_changes_are_notified.

(* ---- non-vacuity and witnesses (all by computation) *)
Definition lf (ls : list link) : body := {| b_cf := Some 40; b_payload := PLinks ls |}.
Definition nobody : body := {| b_cf := None; b_payload := PLinks [] |}.
Definition h1 : ostr := Some "coap://h1"%string.
Definition demo : list op :=
  [Register h1 ["ep=a"; "lt=100"]%string (lf [{| l_href := "/s/t"; l_attrs := [("rt", Some "temp")]%string |}]);
   Register h1 ["ep=b"; "d=x"; "et=q"]%string (lf []);
   Advance 50000000;
   UpdatePost ["1"; ""]%string h1 ["lt=60"]%string nobody;
   Register h1 ["ep=a"; "lt=abc"]%string (lf []);
   Advance 74999999].

(* a reachable state with two live registrations at distinct locations; the failed re-registration (lt=abc, 4.00) changed nothing *)
Example C20_demo_state :
  let st := run_state empty_rd demo in
  idx_by_key st = [("a", None, 1, 60); ("b", Some "x", 2, 90000)]%string /\ idx_by_path st = [(1, "a", None); (2, "b", Some "x")]%string /\
  ep_lookup st [] None = Content "</reg/1/>;ep=""a"";base=""coap://h1"";rt=""core.rd-ep"",</reg/2/>;ep=""b"";d=""x"";et=""q"";base=""coap://h1"";rt=""core.rd-ep"""%string /\
  res_lookup st [] None = Content "<coap://h1/s/t>;rt=""temp"""%string /\
  map o_resp (run empty_rd demo) = [Created 1; Created 2; Tick; Changed; Err BadRequest; Tick].
Proof. vm_compute. repeat split. Qed.
(* one microsecond later the first registration (updated at 50 s with lt=60: due at 125 s) is gone, the other untouched *)
Example C20_demo_expiry :
  idx_by_key (fst (step (run_state empty_rd demo) (Advance 1))) = [("b", Some "x", 2, 90000)]%string /\
  o_resp (last (run empty_rd (demo ++ [Register h1 ["ep=b"; "d=x"]%string (lf [])])) (observe empty_rd Tick)) = Created 2.
Proof. vm_compute. repeat split. Qed.
(* the abstract directory on the same history: same answers; two entries, written at 50 s (the update) and at 0 s *)
Example C20_demo_spec :
  d_run empty_dir demo = [Created 1; Created 2; Tick; Changed; Err BadRequest; Tick] /\
  map (fun e => (e_key e, e_loc e, e_lt e, e_written e)) (d_entries (d_run_state empty_dir demo))
    = [(("a", None), 1, 60, 50000000); (("b", Some "x"), 2, 90000, 0)]%string /\
  d_now (d_run_state empty_dir demo) = 124999999 /\ Forall nonneg_time demo.
Proof. vm_compute. repeat split; repeat constructor; discriminate. Qed.
Example C20_reachable_nonvacuous : reachable (run_state empty_rd demo) /\ is_4xx (Err BadRequest) = true.
Proof. split; [exists demo; reflexivity|reflexivity]. Qed.

(* writes with a valueless lt / base, and an update repeating the implicit base (fixed in /repo by f8ef49b): 4.00 with no
   effect, resp. 2.04 making the base explicit *)
Example C20_valueless_parameters_rejected_cleanly :
  let st := run_state empty_rd [Register h1 ["ep=a"; "lt=100"]%string (lf [])] in
  step st (UpdatePost ["1"; ""]%string h1 ["lt=555"; "base"]%string nobody) = (st, Err BadRequest) /\
  step st (UpdatePost ["1"; ""]%string h1 ["lt"]%string nobody) = (st, Err BadRequest) /\
  snd (step st (Register h1 ["ep=c"; "base"]%string (lf []))) = Err BadRequest /\
  snd (step st (UpdatePost ["1"; ""]%string h1 ["base=coap://h1"]%string nobody)) = Changed /\
  r_base_explicit (obj st 0) = false /\ r_base_explicit (obj (fst (step st (UpdatePost ["1"; ""]%string h1 ["base=coap://h1"]%string nobody))) 0) = true.
Proof. vm_compute. repeat split. Qed.
(* several criteria are all applied, in any order, and pagination comes last (was the open finding until 212d645) *)
Example C20_multi_criteria_lookup :
  let st := run_state empty_rd [Register h1 ["ep=a"; "d=x"]%string (lf []); Register h1 ["ep=b"; "d=x"]%string (lf []); Register h1 ["ep=a"; "d=y"]%string (lf [])] in
  ep_lookup st ["ep=a"; "d=x"]%string None = Content "</reg/1/>;ep=""a"";d=""x"";base=""coap://h1"";rt=""core.rd-ep"""%string /\
  ep_lookup st ["d=x"; "ep=a"]%string None = ep_lookup st ["ep=a"; "d=x"]%string None /\
  ep_lookup st ["ep=a"; "count=5"]%string None = ep_lookup st ["ep=a"]%string None /\
  ep_lookup st ["ep=a"; "count=1"; "page=1"]%string None = Content "</reg/3/>;ep=""a"";d=""y"";base=""coap://h1"";rt=""core.rd-ep"""%string /\
  ep_lookup st ["ep=a"; "ep=b"]%string None = Content ""%string.
Proof. vm_compute. repeat split. Qed.

(* a PUT that replaces only the links is answered 2.04, changes what the resource lookup shows and is announced once (fixed in
   /repo by 3b8673f); with a changed parameter as well it is announced twice; registration 1, re-registration 2, removal 1 *)
Example C20_put_links_notified :
  let st := run_state empty_rd [Register h1 ["ep=a"]%string (lf [{| l_href := "/s1"; l_attrs := [] |}])] in
  let o := UpdatePut ["1"; ""]%string h1 [] (lf [{| l_href := "/s2"; l_attrs := [] |}]) in
  snd (step st o) = Changed /\ res_lookup st [] None = Content "<coap://h1/s1>"%string /\
  res_lookup (fst (step st o)) [] None = Content "<coap://h1/s2>"%string /\ notify_count st o = 1 /\
  notify_count st (UpdatePut ["1"; ""]%string h1 ["et=x"]%string (lf [{| l_href := "/s2"; l_attrs := [] |}])) = 2 /\
  notify_count st (UpdatePost ["1"; ""]%string h1 [] nobody) = 0 /\
  run_notified empty_rd [Register h1 ["ep=a"]%string (lf []); Register h1 ["ep=a"]%string (lf []); Delete ["1"; ""]%string] = [1; 2; 1].
Proof. vm_compute. repeat split. Qed.
