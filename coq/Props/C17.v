(* C17 — Site routing: exact match, longest prefix for nested sites, 4.04; add/remove effective at once; the handler can
   reconstruct the original request path; /.well-known/core lists exactly the non-hidden resources; RFC 6690 filters.
   Only statements here; every proof is a lemma of Proofs/C17*.v or a few lines from one.
   find_child_and_pathstripped_message, add_resource, remove_resource, expand_upa are GENERATED from aiocoap/resource.py
   on every check (Gen/resource_site.v). *)
From Verif Require Import Lib.Py Lib.Tactics Model.C17Base Gen.resource_site Model.C17 Proofs.C17 Proofs.C17Reg Proofs.C17List Proofs.C17Wkc Proofs.C17R6b.
Open Scope Z_scope.
Open Scope list_scope.

(* ---- 1. the translated lookup code is the functional specification: exact resource first, then the PathCapable child at the
        longest non-empty proper prefix (scan from length-1 down to 1) with the rest ([""] -> []), else KeyError; for every
        site, whatever the children are, and every message (so: never OutOfFuel, never IndexError) *)
Theorem C17_lookup_is_spec : forall R S (self : site R S) (m : msg),
  find_child_and_pathstripped_message self m =
  match dict_get_opt (resources self) (uri_path m) with
  | Some r => Ok (ChildResource r, strip m [])
  | None => match scan (subsites self) (uri_path m) (List.length (uri_path m) - 1) with
            | Some (s, rest) => Ok (ChildSubsite s, strip m rest)
            | None => Raise KeyError
            end
  end.
Proof. exact find_child_eq. Qed.
Print Assumptions C17_lookup_is_spec.

(* ---- 2. refinement to the declarative Route relation, for every nested-site tree, via Site.render and Site.render_to_pipe *)
Theorem C17_route_refinement : forall n pipe m, uri_path_abbrev m = None ->
  forall t, Route n (uri_path m) t <-> leaf_target (render pipe n m) = Some t.
Proof. exact render_route. Qed.
Print Assumptions C17_route_refinement.

Theorem C17_not_found_iff_no_route : forall n pipe m, uri_path_abbrev m = None ->
  (forall t, ~ Route n (uri_path m) t) <-> render pipe n m = LeafExn NotFound.
Proof. exact render_not_found. Qed.
Print Assumptions C17_not_found_iff_no_route.

Theorem C17_route_deterministic : forall n p t1 t2, Route n p t1 -> Route n p t2 -> t1 = t2.
Proof. intros n p t1 t2 H1 H2. apply (render_plain_route n (new_request p None)) in H1, H2. congruence. Qed.
Print Assumptions C17_route_deterministic.

(* Route at a site, computed: exact resource, else longest non-empty proper prefix, else nothing *)
Theorem C17_route_at_site : forall rs ss p t,
  Route (NSite rs ss) p t <->
  match dict_get_opt rs p with
  | Some r => t = TgtRes r
  | None => match scan ss p (List.length p - 1) with
            | Some (c, rest) => Route c rest t
            | None => False
            end
  end.
Proof. exact Route_site_iff. Qed.
Print Assumptions C17_route_at_site.

(* ---- 2b. the literal reading of the property (RouteSpec: longest PROPER prefix, the empty prefix included).  The code's relation is always
        contained in it and coincides with it exactly on the trees without a nested site at an empty path; on those the dispatch refines
        the literal specification.  With such a site the literal specification routes and the code answers 4.04 (open finding
        C17:empty-prefix-subsite-ignored, observation O2 of DESIGN.md). *)
Theorem C17_route_within_literal_spec : forall n p t, Route n p t -> RouteSpec n p t.
Proof. exact Route_RouteSpec. Qed.
Print Assumptions C17_route_within_literal_spec.
Theorem C17_literal_spec_iff_route : forall n p t, no_empty_subsite n = true -> (RouteSpec n p t <-> Route n p t).
Proof. intros n p t Hne. split; [intro H; exact (RouteSpec_Route n p t H Hne) | apply Route_RouteSpec]. Qed.
Print Assumptions C17_literal_spec_iff_route.
Theorem C17_route_refinement_literal_partial : forall n pipe m, uri_path_abbrev m = None -> no_empty_subsite n = true ->
  forall t, RouteSpec n (uri_path m) t <-> leaf_target (render pipe n m) = Some t.
Proof.
  intros n pipe m Hab Hne t. rewrite (C17_literal_spec_iff_route n (uri_path m) t Hne). exact (render_route n pipe m Hab t).
Qed.
Print Assumptions C17_route_refinement_literal_partial.
Theorem C17_empty_prefix_subsite_refuted :
  let r := RHandler 1 (Some []) in
  let n := NSite [] [([], NSite [(["x"%string], r)] [])] in
  RouteSpec n ["x"%string] (TgtRes r) /\ render false n (new_request ["x"%string] None) = LeafExn NotFound /\
  get_resources_as_linkheader n = Some [("//x"%string, [])].
Proof. exact empty_prefix_subsite_ignored. Qed.
Print Assumptions C17_empty_prefix_subsite_refuted.

(* ---- 3. the handler sees the path with the matched part removed and the original path, at every nesting depth *)
Theorem C17_handler_message : forall n pipe m, uri_path_abbrev m = None ->
  match render pipe n m with
  | LeafRes r m' => uri_path m' = [] /\ original_request_path m' = Some (orig_of m) /\ uri_path_abbrev m' = None
  | LeafOpaque id m' => orig_of m' = orig_of m /\ uri_path_abbrev m' = None /\
                        ((exists rs ss, n = NSite rs ss) \/ original_request_path m = Some (orig_of m) ->
                         original_request_path m' = Some (orig_of m))
  | LeafExn e => e = NotFound
  end.
Proof. exact render_msg. Qed.
Print Assumptions C17_handler_message.

Theorem C17_original_request_uri_kept : forall n pipe m, uri_path_abbrev m = None ->
  match render pipe n m with
  | LeafRes _ m' | LeafOpaque _ m' => get_request_uri_path m' = Ok (uri_segments (orig_of m))
  | LeafExn _ => True
  end.
Proof. exact request_uri_kept. Qed.
Print Assumptions C17_original_request_uri_kept.

(* the same, at the level of what a registration history observes for a request *)
Theorem C17_request_handled : forall pipe root m q id seen orig uri, uri_path_abbrev m = None ->
  request pipe root m q = RHandled id seen orig uri ->
  ((exists d, Route root (uri_path m) (TgtRes (RHandler id d)) /\ seen = []) \/ Route root (uri_path m) (TgtOpaque id seen)) /\
  uri = Ok (uri_segments (orig_of m)) /\
  ((exists rs ss, root = NSite rs ss) -> orig = Some (orig_of m)).
Proof. exact request_handled. Qed.
Print Assumptions C17_request_handled.
Theorem C17_request_routed : forall pipe root m q id d, uri_path_abbrev m = None ->
  Route root (uri_path m) (TgtRes (RHandler id d)) ->
  request pipe root m q = RHandled id [] (Some (orig_of m)) (Ok (uri_segments (orig_of m))).
Proof. exact request_routed. Qed.
Print Assumptions C17_request_routed.
Theorem C17_request_not_found : forall pipe root m q, uri_path_abbrev m = None ->
  (forall t, ~ Route root (uri_path m) t) -> request pipe root m q = RExn NotFound.
Proof. exact request_not_found. Qed.
Print Assumptions C17_request_not_found.

(* Site.render_to_pipe: Uri-Path-Abbrev is expanded once (4.02 on conflict / unknown value), then plain dispatch *)
Theorem C17_render_to_pipe_expands_abbrev : forall rs ss m,
  render true (NSite rs ss) m =
  match expand_upa m with Raise e => LeafExn e | Ok m0 => render false (NSite rs ss) m0 end.
Proof. exact render_pipe_upa. Qed.
Print Assumptions C17_render_to_pipe_expands_abbrev.
Theorem C17_expand_upa_spec : forall m,
  expand_upa m =
  match uri_path_abbrev m with
  | None => Ok m
  | Some n => if truthy (uri_path m) then Raise BadOption
              else match zmap_get upa_map n with
                   | Ok p => Ok (set_uri_path_abbrev (set_uri_path m p) None)
                   | Raise _ => Raise BadOption
                   end
  end.
Proof. exact expand_upa_spec. Qed.
Print Assumptions C17_expand_upa_spec.

(* ---- 4. add / remove take effect for the next request and touch nothing else *)
Theorem C17_add_then_lookup : forall R S (s s' : site R S) p (r : R) m,
  add_resource s p (ChildResource r) = Ok s' -> uri_path m = p ->
  find_child_and_pathstripped_message s' m = Ok (ChildResource r, strip m []).
Proof.
  intros R S s s' p r m H Hp. rewrite add_resource_res in H. inversion H; subst.
  rewrite find_child_eq. cbn [resources]. rewrite dict_get_set, path_eqb_refl. reflexivity.
Qed.
Print Assumptions C17_add_then_lookup.
Theorem C17_add_never_fails : forall R S (s : site R S) p c, exists s', add_resource s p c = Ok s'.
Proof. exact add_resource_ok. Qed.
Print Assumptions C17_add_never_fails.
Theorem C17_add_frame : forall R S (s s' : site R S) p c,
  add_resource s p c = Ok s' ->
  forall q, q <> p -> dict_get_opt (resources s') q = dict_get_opt (resources s) q /\
                      dict_get_opt (subsites s') q = dict_get_opt (subsites s) q.
Proof.
  intros R S s s' p c H q Hq. destruct c; [rewrite add_resource_res in H | rewrite add_resource_sub in H]; inversion H; subst;
    cbn [resources subsites]; rewrite dict_get_set; (destruct (path_eqb_spec p q); [congruence|]); split; reflexivity.
Qed.
Print Assumptions C17_add_frame.
Theorem C17_add_subsite_lookup : forall R S (s s' : site R S) p (c : S), add_resource s p (ChildSubsite c) = Ok s' ->
  dict_get_opt (subsites s') p = Some c /\ resources s' = resources s.
Proof.
  intros R S s s' p c H. rewrite add_resource_sub in H. inversion H; subst. cbn [resources subsites].
  rewrite dict_get_set, path_eqb_refl. split; reflexivity.
Qed.
Print Assumptions C17_add_subsite_lookup.
Theorem C17_remove_effect : forall R S (s : site R S) p, site_wf s = true ->
  match remove_resource s p with
  | Raise e => e = KeyError /\ dict_get_opt (subsites s) p = None /\ dict_get_opt (resources s) p = None
  | Ok s' =>
      site_wf s' = true /\
      (forall q, q <> p -> dict_get_opt (resources s') q = dict_get_opt (resources s) q /\
                           dict_get_opt (subsites s') q = dict_get_opt (subsites s) q) /\
      match dict_get_opt (subsites s) p with
      | Some _ => dict_get_opt (subsites s') p = None /\ resources s' = resources s
      | None => dict_get_opt (resources s) p <> None /\ dict_get_opt (resources s') p = None /\ subsites s' = subsites s
      end
  end.
Proof. exact remove_resource_effect. Qed.
Print Assumptions C17_remove_effect.
(* every tree reachable by ANY sequence of add/remove/request/list operations (at any addresses) keeps all registries proper dicts:
   the well-formedness hypothesis of C17_remove_effect holds in every reachable state *)
Theorem C17_histories_keep_registries_wf : forall ops root, node_wf root = true -> node_wf (fst (run root ops)) = true.
Proof. exact run_wf. Qed.
Print Assumptions C17_histories_keep_registries_wf.
Theorem C17_update_reaches_addressed_site : forall addr f n n', update_at addr f n = Some (Ok n') ->
  exists rs ss s', site_at addr n = Some (NSite rs ss) /\ f (site_of rs ss) = Ok s' /\
                   site_at addr n' = Some (NSite (resources s') (subsites s')).
Proof. exact site_at_update_at. Qed.
Print Assumptions C17_update_reaches_addressed_site.
Theorem C17_request_after_add : forall rs ss p id d pipe q root',
  fst (step (NSite rs ss) (OAdd [] p (TRes (RHandler id d)))) = root' ->
  request pipe root' (new_request p None) q = RHandled id [] (Some p) (Ok (uri_segments p)).
Proof.
  intros rs ss p id d pipe q root' H. cbn in H. subst root'.
  apply (request_routed pipe _ (new_request p None) q id d eq_refl). apply Route_exact.
  cbn [new_request uri_path]. rewrite dict_get_set, path_eqb_refl. reflexivity.
Qed.
Print Assumptions C17_request_after_add.
Theorem C17_request_after_remove : forall rs ss p pipe q root', dict_wf rs = true ->
  dict_get_opt rs p <> None -> dict_get_opt ss p = None ->
  (forall pre rest, p = pre ++ rest -> pre <> [] -> rest <> [] -> dict_get_opt ss pre = None) ->
  fst (step (NSite rs ss) (ORemove [] p)) = root' ->
  request pipe root' (new_request p None) q = RExn NotFound.
Proof.
  intros rs ss p pipe q root' Hw Hr Hs Hpre H. cbn [step update_at] in H.
  destruct (remove_resource (site_of rs ss) p) as [s'|e] eqn:E; [|apply remove_resource_raises in E; tauto].
  cbn in H. subst root'. apply request_not_found; [reflexivity|]. exact (remove_no_route rs ss p s' Hw Hs Hpre E).
Qed.
Print Assumptions C17_request_after_remove.

(* tree level: an add/remove at one site address leaves every site at an unrelated address (neither address a prefix of the other) unchanged;
   an add at ANY address is served by the next request (in a tree where nothing shadows the path) *)
Theorem C17_update_frame : forall addr f n n' addr', update_at addr f n = Some (Ok n') ->
  addr_prefix addr addr' = false -> addr_prefix addr' addr = false -> site_at addr' n' = site_at addr' n.
Proof. exact update_frame. Qed.
Print Assumptions C17_update_frame.
Theorem C17_add_remove_frame_in_histories : forall root o root' addr', step root o = (root', RDone) ->
  match o with
  | OAdd addr _ _ | ORemove addr _ => addr_prefix addr addr' = false /\ addr_prefix addr' addr = false
  | _ => False
  end -> site_at addr' root' = site_at addr' root.
Proof.
  intros root o root' addr' H Ho. destruct o as [addr p t | addr p | | | | | ]; try contradiction; destruct Ho as [H1 H2];
    cbn [step] in H; apply apply_update_done in H; exact (update_frame addr _ root root' addr' H H1 H2).
Qed.
Print Assumptions C17_add_remove_frame_in_histories.
Theorem C17_request_after_add_nested : forall root addr p id d root' pipe q,
  step root (OAdd addr p (TRes (RHandler id d))) = (root', RDone) -> node_wf root' = true -> node_sep false root' = true ->
  let P := chain_path (addr ++ [p]) in
  request pipe root' (new_request P None) q = RHandled id [] (Some P) (Ok (uri_segments P)).
Proof. exact request_after_add_nested. Qed.
Print Assumptions C17_request_after_add_nested.

(* ---- 4b. run level.  In EVERY history of add / remove / alias / request / locate / list / probe operations, from ANY tree, the
        i-th answer can be an exception only as follows: KeyError for a remove (nothing registered there), NotFound for a request, BadOption
        for a request through render_to_pipe (Uri-Path-Abbrev).  No OutOfFuel, IndexError, TypeError, AttributeError or any other internal
        error of the model/translation is reachable; add, alias, locate, list and probe never answer with an exception. *)
Theorem C17_histories_exception_per_operation : forall ops root, Forall2 (fun o r => forall e, r = RExn e ->
    match o with
    | ORemove _ _ => e = KeyError
    | ORequest pipe _ _ => e = NotFound \/ (pipe = true /\ e = BadOption)
    | _ => False
    end) ops (snd (run root ops)).
Proof. exact run_exn. Qed.
Print Assumptions C17_histories_exception_per_operation.
Theorem C17_histories_no_internal_error : forall ops root e, In (RExn e) (snd (run root ops)) -> e = KeyError \/ e = NotFound \/ e = BadOption.
Proof. exact run_no_internal_error. Qed.
Print Assumptions C17_histories_no_internal_error.
(* removing a plain resource at ANY site address: the next request for its path is answered 4.04 (when nothing else shadows the path);
   more generally nothing routable at path q of the addressed site means nothing routable at the corresponding request path of the tree *)
Theorem C17_request_after_remove_nested : forall root addr p root' pipe q rs ss,
  node_wf root = true -> step root (ORemove addr p) = (root', RDone) -> node_sep false root' = true ->
  site_at addr root = Some (NSite rs ss) -> dict_get_opt ss p = None ->
  (forall pre rest, p = pre ++ rest -> pre <> [] -> rest <> [] -> dict_get_opt ss pre = None) ->
  (addr <> [] -> p <> [""%string]) ->
  request pipe root' (new_request (addr_path addr p) None) q = RExn NotFound.
Proof. exact request_after_remove_nested. Qed.
Print Assumptions C17_request_after_remove_nested.
Theorem C17_not_found_at_address : forall addr n nested rs ss q, node_wf n = true -> node_sep nested n = true ->
  site_at addr n = Some (NSite rs ss) -> (addr <> [] -> q <> [""%string]) ->
  (forall t, ~ Route (NSite rs ss) q t) -> forall t, ~ Route n (addr_path addr q) t.
Proof.
  intros addr n nested rs ss q _ Hsep Hs Hq Hno t Ht. rewrite addr_path_chain in Ht.
  apply (proj2 (route_at_addr addr n nested _ q Hsep Hs Hq)) in Ht. exact (Hno t Ht).
Qed.
Print Assumptions C17_not_found_at_address.
(* addr_path (used above) and chain_path (used for adding and listing) name the same request path *)
Theorem C17_addr_path_is_chain_path : forall addr p, addr_path addr p = chain_path (addr ++ [p]).
Proof. exact addr_path_chain. Qed.
Print Assumptions C17_addr_path_is_chain_path.
(* the nested-add theorem on every tree a history reaches: well-formedness is derived from reachability, not assumed *)
Theorem C17_request_after_add_nested_reachable : forall ops addr p id d root' pipe q,
  step (fst (run (NSite [] []) ops)) (OAdd addr p (TRes (RHandler id d))) = (root', RDone) -> node_sep false root' = true ->
  let P := chain_path (addr ++ [p]) in
  request pipe root' (new_request P None) q = RHandled id [] (Some P) (Ok (uri_segments P)).
Proof.
  intros ops addr p id d root' pipe q H Hsep. apply (request_after_add_nested _ addr p id d root' pipe q H); [|exact Hsep].
  pose proof (step_wf _ (OAdd addr p (TRes (RHandler id d))) (run_wf ops (NSite [] []) eq_refl)) as Hw. rewrite H in Hw. exact Hw.
Qed.
Print Assumptions C17_request_after_add_nested_reachable.
Theorem C17_listed_is_routable_in_histories : forall ops ls h d, let n := fst (run (NSite [] []) ops) in
  node_sep false n = true -> get_resources_as_linkheader n = Some ls -> In (h, d) ls ->
  exists ch r, In (ch, r) (entries n) /\ get_link_description r = Some d /\ h = href_of_path (chain_path ch) /\
               Route n (chain_path ch) (TgtRes r).
Proof. intros ops ls h d n Hsep. apply listed_routable; [apply run_wf; reflexivity | exact Hsep]. Qed.
Print Assumptions C17_listed_is_routable_in_histories.
Example C17_remove_nested_nonvacuous :
  let root := NSite [] [(["a"%string], NSite [(["x"%string], RHandler 1 (Some [])); ([], RHandler 2 (Some []))] [(["b"%string], NSite [(["y"%string], RHandler 3 None)] [])])] in
  snd (run root [ORequest false (new_request ["a"; "b"; "y"]%string None) []; ORemove [["a"]; ["b"]]%string ["y"%string];
                 ORequest true (new_request (addr_path [["a"]; ["b"]]%string ["y"%string]) None) []; ORemove [["a"%string]] [];
                 ORequest false (new_request (addr_path [["a"%string]] []) None) []; ORemove [["a"%string]] []])
  = [RHandled 3 [] (Some ["a"; "b"; "y"]%string) (Ok ["a"; "b"; "y"]%string); RDone; RExn NotFound; RDone; RExn NotFound; RExn KeyError]
  /\ node_wf root = true /\ node_sep false root = true.
Proof. vm_compute. repeat split. Qed.

(* ---- 5. the listing names exactly the registered resources that do not hide themselves, with full hrefs through nested sites *)
Theorem C17_listing_exact : forall n ls, get_resources_as_linkheader n = Some ls ->
  forall h d, In (h, d) ls <-> Listed n h d.
Proof. exact linkheader_exact. Qed.
Print Assumptions C17_listing_exact.
Theorem C17_wkc_without_filter : forall ls impl, wkc_render_get ls impl [] = Ok (ls ++ impl_info_links impl).
Proof. intros ls impl. exact (wkc_by_relevant ls impl [] [] eq_refl). Qed.
Print Assumptions C17_wkc_without_filter.
Theorem C17_wkc_queries_without_equals : forall ls impl qs, relevant qs = [] -> wkc_render_get ls impl qs = Ok (ls ++ impl_info_links impl).
Proof. intros ls impl qs H. exact (wkc_by_relevant ls impl qs [] H). Qed.
Print Assumptions C17_wkc_queries_without_equals.
Theorem C17_href_through_nested_site : forall p q, p <> [] -> q <> [] -> (href_of_path p ++ href_of_path q)%string = href_of_path (p ++ q).
Proof. exact href_of_path_app. Qed.
Print Assumptions C17_href_through_nested_site.
Theorem C17_href_of_subsite_root : forall p, p <> [] -> (href_of_path p ++ href_of_path [])%string = href_of_path (p ++ [""%string]).
Proof. exact href_of_path_root. Qed.
Print Assumptions C17_href_of_subsite_root.

(* ---- 5b. order and multiplicity: the listing IS the registration-order enumeration of the tree (own resources in dict order, then
        sub-site after sub-site), hidden resources dropped; each registered resource is enumerated exactly once — in every tree with
        proper dicts, hence after every add/remove/alias history *)
Theorem C17_listing_is_enumeration : forall n ls, get_resources_as_linkheader n = Some ls -> ls = filter_map entry_link (entries n).
Proof. exact listing_is_entries. Qed.
Print Assumptions C17_listing_is_enumeration.
Theorem C17_each_resource_enumerated_once : forall n, node_wf n = true -> NoDup (map fst (entries n)).
Proof. exact entries_nodup. Qed.
Print Assumptions C17_each_resource_enumerated_once.
Theorem C17_histories_enumerate_each_resource_once : forall ops, NoDup (map fst (entries (fst (run (NSite [] []) ops)))).
Proof. intro ops. apply entries_nodup. apply run_wf. reflexivity. Qed.
Print Assumptions C17_histories_enumerate_each_resource_once.

(* ---- 5c. listing and routing agree.  Every resource some request path is routed to, unless it hides itself, is listed under the href
        of exactly that path — in EVERY tree.  Conversely every listed link stems from an entry whose request path is routed to that very
        resource — provided nothing shadows a sub-site prefix (node_sep: sub-site keys non-empty [O2], not extended by another key of the
        same site, no resource at [""] inside a nested site).  Without that proviso the converse is false of the code (witness below). *)
Theorem C17_routable_is_listed : forall n p r d ls, Route n p (TgtRes r) -> get_link_description r = Some d ->
  get_resources_as_linkheader n = Some ls -> In (href_of_path p, d) ls.
Proof. intros n p r d ls HR Hd Hls. apply (linkheader_exact n ls Hls). exact (routable_listed n p _ HR r d eq_refl Hd). Qed.
Print Assumptions C17_routable_is_listed.
Theorem C17_listed_is_routable : forall n ls h d, node_wf n = true -> node_sep false n = true ->
  get_resources_as_linkheader n = Some ls -> In (h, d) ls ->
  exists ch r, In (ch, r) (entries n) /\ get_link_description r = Some d /\ h = href_of_path (chain_path ch) /\
               Route n (chain_path ch) (TgtRes r).
Proof. exact listed_routable. Qed.
Print Assumptions C17_listed_is_routable.
Example C17_listed_is_routable_unconditional_refuted :
  let n := NSite [(["a"; "b"]%string, RHandler 1 (Some []))] [(["a"%string], NSite [(["b"%string], RHandler 2 (Some []))] [])] in
  get_resources_as_linkheader n = Some [("/a/b"%string, []); ("/a/b"%string, [])] /\ node_wf n = true /\ node_sep false n = false /\
  forall t, Route n ["a"; "b"]%string t -> t = TgtRes (RHandler 1 (Some [])).
Proof.
  cbv zeta. split; [vm_compute; reflexivity|]. split; [vm_compute; reflexivity|]. split; [vm_compute; reflexivity|].
  intros t Ht. apply (render_route _ false (new_request ["a"; "b"]%string None) eq_refl) in Ht. vm_compute in Ht. congruence.
Qed.
Example C17_separated_nonvacuous :
  let n := NSite [(["r"%string], RHandler 1 (Some [])); ([], RHandler 2 (Some []))]
                 [(["s"; "t"]%string, NSite [([], RHandler 3 (Some [])); (["x"; ""]%string, RHandler 4 None)] [(["u"%string], NSite [(["v"%string], RHandler 5 (Some []))] [])])] in
  node_wf n = true /\ node_sep false n = true /\
  get_resources_as_linkheader n = Some [("/r", []); ("/", []); ("/s/t/", []); ("/s/t/u/v", [])]%string /\
  map fst (entries n) = [[["r"]]; [[]]; [["s"; "t"]; []]; [["s"; "t"]; ["x"; ""]]; [["s"; "t"]; ["u"]; ["v"]]]%string.
Proof. vm_compute. repeat split. Qed.

(* ---- 5d. Site.needs_blockwise_assembly and Site.add_observation look the child up with the same function: they ask exactly the child
        render would render with, with the same stripped message, and take their default exactly where render answers 4.04 *)
Theorem C17_locate_same_dispatch_as_render : forall n m,
  locate n m = match render false n m with LeafExn NotFound => LeafExn KeyError | x => x end.
Proof. exact locate_render. Qed.
Print Assumptions C17_locate_same_dispatch_as_render.
Theorem C17_locate_route : forall n m, uri_path_abbrev m = None ->
  forall t, Route n (uri_path m) t <-> leaf_target (locate n m) = Some t.
Proof.
  intros n m _ t. rewrite (render_plain_route n m t), locate_render. pose proof (render_plain_leaf n m) as HM.
  destruct (render false n m) as [r m' | id m' | e]; try reflexivity. subst e. reflexivity.
Qed.
Print Assumptions C17_locate_route.
Theorem C17_located_same_as_request : forall obs root m q id seen orig uri, uri_path_abbrev m = None ->
  request false root m q = RHandled id seen orig uri <-> located obs root m = RHandled id seen orig uri.
Proof. exact located_same_as_request. Qed.
Print Assumptions C17_located_same_as_request.
Theorem C17_located_default_when_no_route : forall obs root m, uri_path_abbrev m = None ->
  (forall t, ~ Route root (uri_path m) t) -> located obs root m = RDefault.
Proof. intros obs root m Hab H. unfold located. rewrite locate_render, (proj1 (render_not_found root false m Hab) H). reflexivity. Qed.
Print Assumptions C17_located_default_when_no_route.

(* ---- 6. ONE RFC 6690 filter criterion returns exactly the matching subset — unconditionally (every name, every pattern, every list
        of links; aiocoap as of /repo f691489).  Matches k v l: some candidate x of l for the
        name k (the href; or a value — for rt/if/ct/rel a space-separated item of a value — of an attribute named k, names
        case-insensitive, valueless or missing attributes denote nothing) equals v, or starts with v minus the star. *)
Theorem C17_wkc_filter_single : forall k v ls l, In l (filter_links k v ls) <-> In l ls /\ Matches k v l.
Proof. intros k v ls l. unfold filter_links. rewrite filter_In, link_matches_spec. reflexivity. Qed.
Print Assumptions C17_wkc_filter_single.
Theorem C17_wkc_filter_keeps_order : forall k v ls, exists keep : link -> bool,
  filter_links k v ls = filter keep ls /\ forall l, keep l = true <-> Matches k v l.
Proof. intros k v ls. exists (link_matches k v). split; [reflexivity | apply link_matches_spec]. Qed.
Print Assumptions C17_wkc_filter_keeps_order.
(* the Uri-Query options of a request: those with "=" are the filter criteria *)
Theorem C17_relevant_queries : forall qs k v, In (k, v) (relevant qs) <-> exists q, In q qs /\ split_eq q = Some (k, v).
Proof. intros qs k v. rewrite relevant_filter_map. apply filter_map_In. Qed.
Print Assumptions C17_relevant_queries.
Theorem C17_wkc_filter_applies_to_listing : forall ls impl qs k v, relevant qs = [(k, v)] ->
  wkc_render_get ls impl qs = Ok (filter_links k v (ls ++ impl_info_links impl)).
Proof. intros ls impl qs k v H. exact (wkc_by_relevant ls impl qs [(k, v)] H). Qed.
Print Assumptions C17_wkc_filter_applies_to_listing.
(* ANY number of criteria: the answer is the listing restricted, in order, to the links matching EVERY criterion; it never fails
   (aiocoap as of /repo f7c02cb binds each filter to its own criterion; oracle signature C17:filter-several-criteria) *)
Theorem C17_wkc_filter_conjunction : forall ls impl qs r, wkc_render_get ls impl qs = Ok r ->
  forall l, In l r <-> In l (ls ++ impl_info_links impl) /\ forall k v, In (k, v) (relevant qs) -> Matches k v l.
Proof.
  intros ls impl qs r H l. rewrite wkc_is_filter in H. inversion H; subst. rewrite filter_In, forallb_forall. split.
  - intros [Hin Hall]. split; [exact Hin|]. intros k v Hkv. apply link_matches_spec. apply (Hall (k, v) Hkv).
  - intros [Hin Hall]. split; [exact Hin|]. intros [k v] Hkv. apply link_matches_spec. apply Hall. exact Hkv.
Qed.
Print Assumptions C17_wkc_filter_conjunction.
Theorem C17_wkc_answer_is_ordered_sublist : forall ls impl qs,
  wkc_render_get ls impl qs =
  Ok (filter (fun l => forallb (fun kv : string * string => link_matches (fst kv) (snd kv) l) (relevant qs)) (ls ++ impl_info_links impl)).
Proof. exact wkc_is_filter. Qed.
Print Assumptions C17_wkc_answer_is_ordered_sublist.
Theorem C17_wkc_never_fails : forall ls impl qs, exists r, wkc_render_get ls impl qs = Ok r.
Proof. intros ls impl qs. rewrite wkc_is_filter. eauto. Qed.
Print Assumptions C17_wkc_never_fails.
(* several criteria at once; the first three requests are those of oracle signature C17:filter-several-criteria *)
Example C17_wkc_filter_several_criteria :
  let r1 := ("/r1", [("rt", Some "foo"); ("if", Some "i1")])%string in
  let r2 := ("/r2", [("rt", Some "bar"); ("if", Some "i1")])%string in
  let r3 := ("/r3", [("rt", Some "foo"); ("if", Some "i2")])%string in
  wkc_render_get [r1; r2; r3] None ["rt=foo"; "if=i1"]%string = Ok [r1] /\
  wkc_render_get [r1; r2; r3] None ["rt=fo*"; "href=/r1"]%string = Ok [r1] /\
  wkc_render_get [r1; r2; r3] None ["href=/r1"; "rt=fo*"]%string = Ok [r1] /\
  wkc_render_get [r1; r2; r3] None ["rt=foo"; "obs"; "if=i*"]%string = Ok [r1; r3] /\
  wkc_render_get [r1; r2; r3] None ["href=/r*"; "to_py=x*"]%string = Ok [].
Proof. vm_compute. repeat split. Qed.

(* at request level: a request routed to the WKC resource answers the (filtered) listing of the root *)
Theorem C17_request_to_wkc : forall pipe root m qs impl ls, uri_path_abbrev m = None ->
  Route root (uri_path m) (TgtRes (RWkc impl)) -> get_resources_as_linkheader root = Some ls ->
  request pipe root m qs = links_result (wkc_render_get ls impl qs).
Proof. exact request_wkc. Qed.
Print Assumptions C17_request_to_wkc.
Theorem C17_request_to_wkc_single_filter : forall pipe root m qs impl ls k v, uri_path_abbrev m = None ->
  Route root (uri_path m) (TgtRes (RWkc impl)) -> get_resources_as_linkheader root = Some ls -> relevant qs = [(k, v)] ->
  request pipe root m qs = links_result (Ok (filter_links k v (ls ++ impl_info_links impl))).
Proof.
  intros pipe root m qs impl ls k v Hab HR Hls Hq.
  rewrite (request_wkc pipe root m qs impl ls Hab HR Hls), (wkc_by_relevant ls impl qs [(k, v)] Hq). reflexivity.
Qed.
Print Assumptions C17_request_to_wkc_single_filter.

(* the inputs of the oracle signatures C17:filter-crash-valueless-attribute, -single-valued-attr-by-character,
   -empty-pattern-matches-missing-attribute, -crash-python-attribute-name, with the answers aiocoap gives as of /repo f691489 *)
Example C17_filter_valueless_attribute :
  filter_links "obs" "*" [("/o"%string, [("obs"%string, None)])] = [].
Proof. vm_compute. reflexivity. Qed.
Example C17_filter_single_valued_attribute :
  let l := ("/a"%string, [("title"%string, Some "hello"%string)]) in
  filter_links "title" "hello" [l] = [l] /\ filter_links "title" "h" [l] = [] /\ filter_links "Title" "hel*" [l] = [l] /\
  filter_links "rel" "impl-info" (impl_info_links (Some "u"%string)) = impl_info_links (Some "u"%string).
Proof. vm_compute. repeat split. Qed.
Example C17_filter_empty_pattern :
  filter_links "rt" "*" [("/a"%string, []); ("/b"%string, [("rt"%string, Some ""%string)])] = [("/b"%string, [("rt"%string, Some ""%string)])] /\
  filter_links "rt" "" [("/a"%string, [])] = [].
Proof. vm_compute. split; reflexivity. Qed.
Example C17_filter_python_attribute_name :
  filter_links "to_py" "x" [("/a"%string, [])] = [] /\
  filter_links "attr_pairs" "x*" [("/a"%string, [("rt"%string, Some "x"%string)])] = [].
Proof. vm_compute. split; reflexivity. Qed.

(* ---- non-vacuity *)
Definition ex_tree : node :=
  NSite [(["a"%string], RHandler 1 (Some [("rt"%string, Some "x y"%string)]));
         ([".well-known"; "core"]%string, RWkc None);
         (["a"; "b"; "c"]%string, RHandler 5 None)]
        [(["a"; "b"]%string, NSite [([], RHandler 2 (Some [("ct"%string, Some "40"%string)])); (["c"; ""]%string, RHandler 3 (Some []))]
                                   [(["d"]%string, NOpaque 4)]);
         (["a"]%string, NSite [(["b"; "zz"]%string, RHandler 6 (Some []))] [])].
Example C17_routes_nonvacuous :
  Route ex_tree ["a"; "b"; ""]%string (TgtRes (RHandler 2 (Some [("ct"%string, Some "40"%string)]))) /\   (* trailing slash = sub-site root *)
  Route ex_tree ["a"; "b"; "c"]%string (TgtRes (RHandler 5 None)) /\                                       (* exact resource shadows the sub-site *)
  Route ex_tree ["a"; "b"; "d"; "e"; "f"]%string (TgtOpaque 4 ["e"; "f"]%string) /\                         (* two levels, remaining components *)
  (forall t, ~ Route ex_tree ["a"; "b"; "zz"]%string t) /\                                                  (* longest prefix a/b wins; no backtracking to a *)
  (forall t, ~ Route ex_tree ["a"; "b"]%string t).                                                          (* a sub-site never answers for its own path without slash *)
Proof.
  assert (H : forall p t, Route ex_tree p t <-> leaf_target (render false ex_tree (new_request p None)) = Some t)
    by (intros p t; apply (render_route ex_tree false (new_request p None) eq_refl)).
  repeat split; try (apply H; vm_compute; reflexivity); intros t Ht; apply H in Ht; vm_compute in Ht; discriminate.
Qed.
(* O2 (finding C17:empty-prefix-subsite-ignored): a sub-site registered at the empty path is never consulted by the code's relation *)
Example C17_O2_empty_path_subsite_unreachable :
  forall t, ~ Route (NSite [] [([], NSite [(["x"%string], RHandler 1 (Some []))] [])]) ["x"%string] t.
Proof.
  apply (proj2 (C17_not_found_iff_no_route _ false (new_request ["x"%string] None) eq_refl)).
  exact (proj1 (proj2 C17_empty_prefix_subsite_refuted)).
Qed.
Example C17_listing_nonvacuous :
  get_resources_as_linkheader ex_tree =
  Some [("/a", [("rt", Some "x y")]); ("/.well-known/core", [("ct", Some "40")]); ("/a/b/", [("ct", Some "40")]); ("/a/b/c/", []); ("/a/b/zz", [])]%string
  /\ node_wf ex_tree = true.
Proof. vm_compute. split; reflexivity. Qed.
Example C17_filter_nonvacuous :
  let ls := [("/a", [("rt", Some "x y")]); ("/b", [("rt", Some "temp")]); ("/c", [("ct", Some "40")])]%string in
  filter_links "rt" "x" ls = [("/a", [("rt", Some "x y")])]%string /\ filter_links "rt" "te*" ls = [("/b", [("rt", Some "temp")])]%string /\
  filter_links "href" "/*" ls = ls /\ Matches "rt" "y" ("/a", [("rt", Some "x y")])%string.
Proof.
  cbv zeta. split; [|split; [|split]]; try (vm_compute; reflexivity).
  apply link_matches_spec. vm_compute. reflexivity.
Qed.
Example C17_history_nonvacuous :
  snd (run (NSite [] [])
        [OAdd [] ["s"%string] TSite; OAdd [["s"%string]] ["r"%string] (TRes (RHandler 7 (Some [])));
         ORequest true (new_request ["s"; "r"]%string None) [];
         ORemove [["s"%string]] ["r"%string];
         ORequest true (new_request ["s"; "r"]%string None) [];
         ORemove [] ["nope"%string]])
  = [RDone; RDone; RHandled 7 [] (Some ["s"; "r"]%string) (Ok ["s"; "r"]%string); RDone; RExn NotFound; RExn KeyError].
Proof. vm_compute. reflexivity. Qed.
